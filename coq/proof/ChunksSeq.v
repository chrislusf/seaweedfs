(* C17: ChunkReadAt as a state machine across ReadAt calls, with failing chunk fetches
   (model/ChunksSeq.v).  Cache invariant: lastChunkData is the content of lastChunkFileId, or empty.
   Every call of ANY sequence that returns no fetch error equals the pure failure-free [read_at];
   a call that returns a fetch error delivered a correct prefix and touched nothing else; a call
   during which no fetch of the file's chunks fails returns no error. *)
From Coq Require Import List NArith Bool Arith Lia Permutation Sorted.
From Coq Require Import ZifyBool ZifyN ZifyNat.
From SW Require Import model.Chunks model.ChunksSeq proof.ChunksProofs proof.ChunksOverlay proof.ChunksRead
  proof.ChunksManifest.
Import ListNotations.
Local Open Scope N_scope.

Definition ra_inv (src : chunk_source) (s : ra_state) : Prop :=
  match ra_fid s with Some f => ra_data s = src f | None => ra_data s = [] end.

Lemma ra_inv_new : forall src, ra_inv src ra_new.
Proof. intros; reflexivity. Qed.
Lemma ra_inv_close : forall src s, ra_inv src (ra_close s).
Proof. intros; reflexivity. Qed.

Section Sim.
  Variables (src : chunk_source) (memo slices : bool) (fails : N -> bool) (snap : list N).
  Notation inv := (ra_inv src).

  Lemma ra_inv_same : forall s s', ra_fid s' = ra_fid s -> ra_data s' = ra_data s -> inv s -> inv s'.
  Proof. unfold ra_inv. intros s s' E1 E2 H. rewrite E1, E2. exact H. Qed.

  (* the outcome of a fetch through the reader's caches: the expected bytes, or an error because
     the fetch of chunk [f] was made to fail *)
  Definition fetched {A} (o : option A) (x : A) (f : N) : Prop :=
    o = Some x \/ (o = None /\ fails f = true).

  Lemma read_one_whole_spec : forall f s,
    ra_fid (snd (read_one_whole src memo fails f s)) = ra_fid s /\
    ra_data (snd (read_one_whole src memo fails f s)) = ra_data s /\
    fetched (fst (read_one_whole src memo fails f s)) (src f) f.
  Proof.
    intros f s. unfold read_one_whole, fetched. destruct (in_cache s f); [auto|].
    destruct (fails f); [auto|]. destruct memo; auto.
  Qed.

  Lemma read_whole_s_ok : forall w nx s, inv s ->
    inv (snd (read_whole_s src memo fails w nx s)) /\
    fetched (fst (read_whole_s src memo fails w nx s)) (src (cv_fid w)) (cv_fid w).
  Proof.
    intros w nx s Hinv. unfold read_whole_s.
    destruct (match ra_fid s with Some g => g =? cv_fid w | None => false end) eqn:Ehit.
    - split; auto. left. simpl. f_equal. unfold ra_inv in Hinv.
      destruct (ra_fid s) as [g|]; [|discriminate]. apply N.eqb_eq in Ehit. subst g. exact Hinv.
    - destruct (read_one_whole_spec (cv_fid w) s) as [K1 [K2 K]].
      destruct (read_one_whole src memo fails (cv_fid w) s) as [o s1]. simpl in K1, K2, K.
      destruct K as [K|[K Kf]]; subst o; simpl.
      + split; [|left; reflexivity]. destruct nx as [w'|]; [|reflexivity].
        eapply ra_inv_same; [apply read_one_whole_spec|apply read_one_whole_spec|reflexivity].
      + split; [eapply ra_inv_same; eauto|right; auto].
  Qed.

  Lemma read_chunk_slice_s_ok : forall w nx boff blen s, inv s ->
    inv (snd (read_chunk_slice_s src memo slices fails snap w nx boff blen s)) /\
    fetched (fst (read_chunk_slice_s src memo slices fails snap w nx boff blen s))
            (read_chunk_slice src w boff blen) (cv_fid w).
  Proof.
    intros w nx boff blen s Hinv. unfold read_chunk_slice_s.
    destruct (slices && existsb (N.eqb (cv_fid w)) snap && (boff + blen <=? N.of_nat (length (src (cv_fid w))))) eqn:Ehit.
    - split; auto. left. simpl. rewrite read_chunk_slice_eq by lia. reflexivity.
    - destruct (read_whole_s_ok w nx s Hinv) as [H1 H2].
      destruct (read_whole_s src memo fails w nx s) as [o s1]. simpl in H1, H2.
      destruct H2 as [H2|[H2 Hf]]; subst o; simpl; split; auto; [left|right]; auto.
  Qed.

  Lemma read_body_s_ok : forall {off w nx st s st' fl s'}, inv s ->
    read_body_s src memo slices fails snap off w nx st s = (st', fl, s') ->
    inv s' /\
    match fl with
    | SfCont => read_body src off w st = (st', false)
    | SfBreak => False
    | SfErr => st' = st /\ fails (cv_fid w) = true
    end.
  Proof.
    intros off w nx st s st' fl s' Hinv E. unfold read_body_s in E. unfold read_body.
    destruct (N.min (cv_logic w + cv_size w) (r_start st + r_rem st) <=? N.max (cv_logic w) (r_start st)).
    - inversion E; subst. auto.
    - (* the slice request of this view *)
      match type of E with (match ?X with _ => _ end) = _ => destruct X as [o s1] eqn:Es end.
      epose proof (read_chunk_slice_s_ok w nx _ _ s Hinv) as [H1 H2]. rewrite Es in H1, H2.
      simpl in H1, H2. destruct H2 as [H2|[H2 Hf]]; subst o; inversion E; subst; auto.
  Qed.

  Lemma read_step_s_ok : forall {off w nx st s st' fl s'}, inv s ->
    read_step_s src memo slices fails snap off w nx st s = (st', fl, s') ->
    inv s' /\
    match fl with
    | SfCont => read_step src off w st = (st', false)
    | SfBreak => read_step src off w st = (st', true)
    | SfErr => fails (cv_fid w) = true /\
               (st' = st \/ (st' = gap_state off w st /\ r_start st < cv_logic w /\ 0 < r_rem (gap_state off w st)))
    end.
  Proof.
    intros off w nx st s st' fl s' Hinv E. unfold read_step_s in E. rewrite read_step_eq.
    change (gap_state_s off w st) with (gap_state off w st) in E.
    destruct (r_start st <? cv_logic w) eqn:Eg.
    - destruct (r_rem (gap_state off w st) =? 0) eqn:E0.
      + inversion E; subst. auto.
      + destruct (read_body_s_ok Hinv E) as [H1 H2]. split; auto.
        destruct fl; [auto | contradiction |]. destruct H2 as [H2 H3]. split; auto. right. repeat split; auto; lia.
    - destruct (read_body_s_ok Hinv E) as [H1 H2]. split; auto.
      destruct fl; [auto | contradiction |]. destruct H2 as [H2 H3]. auto.
  Qed.

  (* the loop: without an error it IS the pure loop; the cache invariant survives in every case *)
  Lemma read_loop_s_sim : forall {off ws st s st' err s'}, inv s ->
    read_loop_s src memo slices fails snap off ws st s = (st', err, s') ->
    inv s' /\ (err = false -> st' = read_loop src off ws st) /\
    (err = true -> exists w, In w ws /\ fails (cv_fid w) = true).
  Proof.
    induction ws as [|w rest IH]; intros st s st' err s' Hinv E; simpl in E |- *.
    - inversion E; subst. repeat split; auto. discriminate.
    - destruct (r_rem st =? 0).
      + inversion E; subst. repeat split; auto. discriminate.
      + destruct (read_step_s src memo slices fails snap off w (hd_error rest) st s) as [[st1 fl] s1] eqn:E1.
        destruct (read_step_s_ok Hinv E1) as [H1 H2].
        destruct fl.
        * rewrite H2. destruct (IH _ _ _ _ _ H1 E) as [A [B C]]. repeat split; auto.
          intros He. destruct (C He) as [w' [Hw' Hf]]. exists w'. auto.
        * rewrite H2. inversion E; subst. repeat split; auto. discriminate.
        * inversion E; subst. repeat split; auto; [discriminate|].
          intros _. exists w. destruct H2 as [H2 _]. auto.
  Qed.

  (* a call that fails: what was delivered before the failing fetch is right, nothing else is touched *)
  Section Prefix.
    Variables (V : list chunk_view) (fs : N) (buf0 : list N) (off : N).
    Notation rinv' := (rinv src V fs buf0 off).
    Notation rest_ok' := (rest_ok V).

    Lemma read_loop_s_rinv : forall {ws st s st' err s'}, inv s ->
      views_ok ws -> Forall (view_fits src fs) ws -> rinv' st -> rest_ok' st ws ->
      read_loop_s src memo slices fails snap off ws st s = (st', err, s') -> rinv' st'.
    Proof.
      induction ws as [|w rest IH]; intros st s st' err s' Hinv Hok Hfit Hr Hrest E; simpl in E.
      - inversion E; subst; auto.
      - destruct (r_rem st =? 0) eqn:E0.
        + inversion E; subst; auto.
        + assert (Hrem : 0 < r_rem st) by lia. inversion Hfit as [|? ? Hw Hfit']; subst.
          destruct (read_step_s src memo slices fails snap off w (hd_error rest) st s) as [[st1 fl] s1] eqn:E1.
          destruct (read_step_s_ok Hinv E1) as [H1 H2].
          destruct (read_step_spec src V fs buf0 off w rest st Hok Hw Hr Hrem Hrest) as [S1 S2].
          destruct fl.
          * rewrite H2 in S1, S2. simpl in S1, S2. eapply IH; eauto. eapply iok_tail; eauto.
          * rewrite H2 in S1. simpl in S1. inversion E; subst; auto.
          * inversion E; subst. destruct H2 as [_ [H2 | [H2 [H3 H4]]]]; subst; auto.
            destruct (gap_step src V fs buf0 off w rest st Hok (proj1 Hw) Hr Hrem Hrest H3) as [G1 _]. exact G1.
    Qed.

  End Prefix.
End Sim.
Arguments read_loop_s_sim {src memo slices fails snap off ws st s st' err s'}.
Arguments read_loop_s_rinv {src memo slices fails snap V fs buf0 off ws st s st' err s'}.

Theorem read_at_s_sim : forall src memo slices fails V fs buf off s, ra_inv src s ->
  let r := fst (read_at_s src memo slices fails V fs buf off s) in
  ra_inv src (snd (read_at_s src memo slices fails V fs buf off s)) /\
  (rs_err r = false ->
     rs_buf r = rr_buf (read_at src V fs buf off) /\ rs_n r = rr_n (read_at src V fs buf off) /\
     rs_eof r = rr_eof (read_at src V fs buf off)) /\
  (rs_err r = true -> exists w, In w V /\ fails (cv_fid w) = true).
Proof.
  intros src memo slices fails V fs buf off s Hinv. unfold read_at_s, read_at.
  set (st0 := {| r_buf := buf; r_start := off; r_rem := N.of_nat (length buf); r_n := 0 |}).
  destruct (read_loop_s src memo slices fails (ra_cache s) off V st0 s) as [[st err] s1] eqn:E.
  destruct (read_loop_s_sim Hinv E) as [A [B C]].
  destruct err; simpl.
  - repeat split; auto; discriminate.
  - rewrite <- (B eq_refl). repeat split; auto; try discriminate.
Qed.

Lemma fails_of_true : forall l f, fails_of l f = true <-> In f l.
Proof.
  intros l f. unfold fails_of. rewrite existsb_exists. split.
  - intros [x [Hx E]]. apply N.eqb_eq in E. subst. exact Hx.
  - intros H. exists f. split; [exact H|apply N.eqb_refl].
Qed.

Lemma fails_of_false : forall l f, fails_of l f = false <-> ~ In f l.
Proof. intros l f. rewrite <- fails_of_true. destruct (fails_of l f); intuition congruence. Qed.

(* the reader's state before each call of a sequence, and after the last *)
Fixpoint ra_states (src : chunk_source) (memo slices : bool) (views : list chunk_view) (file_size : N)
    (ops : list ra_op) (s : ra_state) : list ra_state :=
  match ops with
  | [] => [s]
  | o :: r =>
      let s0 := if op_close o then ra_close s else s in
      s :: ra_states src memo slices views file_size r
             (snd (read_at_s src memo slices (fails_of (op_failing o)) views file_size (op_buf o) (op_off o) s0))
  end.

Theorem ra_states_inv : forall src memo slices V fs ops s, ra_inv src s ->
  Forall (ra_inv src) (ra_states src memo slices V fs ops s).
Proof.
  induction ops as [|o r IH]; intros s Hs; simpl; constructor; auto.
  apply IH. apply read_at_s_sim. destruct (op_close o); auto. apply ra_inv_close.
Qed.

(* what one call of a sequence delivers: [F] is the content of the file, [culprit] says that the
   fetch of one of the file's chunks is among those that were made to fail *)
Definition call_spec (F : N -> N) (culprit : list N -> Prop) (fs : N) (o : ra_op) (r : ra_res) : Prop :=
  let buf := op_buf o in
  let off := op_off o in
  let len := N.of_nat (length buf) in
  length (rs_buf r) = length buf /\
  (forall i, (i < length buf)%nat ->
     nth i (rs_buf r) 0 = if N.of_nat i <? rs_n r then F (off + N.of_nat i) else nth i buf 0) /\
  (if rs_err r
   then rs_n r <= N.min len (fs - off) /\ rs_eof r = false /\ culprit (op_failing o)
   else rs_n r = N.min len (fs - off) /\ rs_eof r = (fs <=? off + len)).

(* view level, one call: without a fetch error it is the pure ReadAt; with one, what was delivered
   before the failing fetch is right and nothing else is touched *)
Lemma read_call_spec : forall src memo slices V fs o s, ra_inv src s ->
  views_ok V -> Forall (view_fits src fs) V ->
  call_spec (views_byte src V) (fun l => exists w, In w V /\ In (cv_fid w) l) fs o
    (fst (read_at_s src memo slices (fails_of (op_failing o)) V fs (op_buf o) (op_off o) s)).
Proof.
  intros src memo slices V fs o s Hinv Hok Hfit.
  destruct (read_at_s_sim src memo slices (fails_of (op_failing o)) V fs (op_buf o) (op_off o) s Hinv)
    as [_ [B C]].
  revert B C. unfold call_spec, read_at_s. cbv zeta.
  destruct (read_loop_s src memo slices (fails_of (op_failing o)) (ra_cache s) (op_off o) V _ s)
    as [[st err] s1] eqn:E.
  destruct err; cbn [fst rs_buf rs_n rs_eof rs_err]; intros B C.
  - assert (Hrest0 : rest_ok V {| r_buf := op_buf o; r_start := op_off o;
                                  r_rem := N.of_nat (length (op_buf o)); r_n := 0 |} V)
      by (intros H q Hq; reflexivity).
    pose proof (read_loop_s_rinv Hinv Hok Hfit (rinv_start src V fs _ _) Hrest0 E)
      as [I1 [I2 [I3 [I4 I5]]]].
    destruct (C eq_refl) as [w [Hw Hf]]. repeat split; auto; [lia|].
    exists w. split; auto. apply fails_of_true. exact Hf.
  - destruct (B eq_refl) as [B1 [B2 B3]].
    destruct (read_at_views src V fs (op_buf o) (op_off o) Hok Hfit) as [Rn [Rl [Re Rb]]].
    rewrite B1, B2, B3. repeat split; auto.
Qed.

Theorem ra_run_views : forall src memo slices V fs,
  views_ok V -> Forall (view_fits src fs) V ->
  forall ops s, ra_inv src s ->
  Forall2 (call_spec (views_byte src V) (fun l => exists w, In w V /\ In (cv_fid w) l) fs) ops
          (ra_run src memo slices V fs ops s).
Proof.
  intros src memo slices V fs Hok Hfit. induction ops as [|o r IH]; intros s Hs; simpl; [constructor|].
  set (s0 := if op_close o then ra_close s else s).
  assert (Hs0 : ra_inv src s0) by (subst s0; destruct (op_close o); auto; apply ra_inv_close).
  pose proof (read_call_spec src memo slices V fs o s0 Hs0 Hok Hfit) as Hcall.
  pose proof (read_at_s_sim src memo slices (fails_of (op_failing o)) V fs (op_buf o) (op_off o) s0 Hs0) as [A _].
  destruct (read_at_s src memo slices (fails_of (op_failing o)) V fs (op_buf o) (op_off o) s0) as [res s1].
  constructor; [exact Hcall|apply IH; exact A].
Qed.

Lemma Forall2_weaken : forall {A B} (P Q : A -> B -> Prop), (forall a b, P a b -> Q a b) ->
  forall l l', Forall2 P l l' -> Forall2 Q l l'.
Proof. intros A B P Q H l l' F. induction F; constructor; auto. Qed.

(* chunk level: over the views of the whole file, the content is the overlay of the resolved data
   chunks and a failing view is a failing chunk *)
Theorem read_seq_chunks : forall src memo slices fuel ms chunks d m fs,
  resolve fuel ms 0 max_int64 chunks = Some (d, m) -> NoDup (map key d) ->
  (forall c, In c d -> N.of_nat (length (src (c_fid c))) = c_size c) ->
  (forall c, In c d -> c_stop c <= fs) -> fs <= max_int64 ->
  forall ops s, ra_inv src s ->
  Forall2 (call_spec (overlay src d) (fun l => exists c, In c d /\ In (c_fid c) l) fs) ops
          (ra_run src memo slices (view_from_chunks fuel ms chunks 0 max_int64) fs ops s).
Proof.
  intros src memo slices fuel ms chunks d m fs Hres Hn Hlen Hfs Hmax ops s Hs.
  destruct (whole_file_views src fuel ms chunks d m fs Hres Hn Hlen Hfs Hmax) as [HV [Hsrc Hfit]].
  set (V := view_from_chunks fuel ms chunks 0 max_int64) in *.
  pose proof (ra_run_views src memo slices V fs HV (Forall_impl _ (fun w H => proj1 H) Hfit) ops s Hs) as F.
  eapply Forall2_weaken; [|exact F].
  intros o r [C1 [C2 C3]]. unfold call_spec. cbv zeta in *. split; auto. split.
  - intros i Hi. rewrite (C2 i Hi). unfold views_byte, overlay. rewrite Hsrc. reflexivity.
  - destruct (rs_err r); [|exact C3].
    destruct C3 as [C3 [C4 [w [Hw Hf]]]]. repeat split; auto.
    rewrite Forall_forall in Hfit. destruct (Hfit w Hw) as [_ [c [Ic Ec]]]. exists c. rewrite Ec. auto.
Qed.

(* the non-vacuity example: chunk 1 = [0,2), chunk 2 = [5,7) of a 9-byte file, no chunk cache;
   read chunk 2, fail the fetch of chunk 1, retry, read everything while chunk 2's fetch fails
   (chunk 2 is not the last chunk read any more), retry *)
Definition seq_example_src : chunk_source := fun f => match f with 1 => [11;12] | 2 => [21;22] | _ => [] end.
Definition seq_example_chunks := [Chunk 1 0 2 1 false; Chunk 2 5 2 2 false].
Definition seq_example_ops :=
  [RaOp false [] (repeat 238 2) 5; RaOp false [1] (repeat 238 2) 0; RaOp false [] (repeat 238 2) 0;
   RaOp false [2] (repeat 238 9) 0; RaOp false [] (repeat 238 9) 0].
Lemma seq_example :
  ra_run seq_example_src false false (view_from_chunks 1 [] seq_example_chunks 0 max_int64) 9 seq_example_ops ra_new =
  [ {| rs_buf := [21;22]; rs_n := 2; rs_eof := false; rs_err := false |};
    {| rs_buf := [238;238]; rs_n := 0; rs_eof := false; rs_err := true |};
    {| rs_buf := [11;12]; rs_n := 2; rs_eof := false; rs_err := false |};
    {| rs_buf := [11;12;0;0;0;238;238;238;238]; rs_n := 5; rs_eof := false; rs_err := true |};
    {| rs_buf := [11;12;0;0;0;21;22;0;0]; rs_n := 9; rs_eof := true; rs_err := false |} ].
Proof. vm_compute. reflexivity. Qed.
