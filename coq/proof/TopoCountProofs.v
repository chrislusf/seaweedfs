(* C12, counting clause.  Inv st r = Struct st + four instances of Cons f e st (counter f of every
   node = sum of the per-entry quantity e over the entries beneath it) + RefInv st r.  Every event is an
   instance of Cons_at; then step_inv, inv_exact_b, run_exact, step_all_spec, propagation. *)
From Coq Require Import String List ZArith NArith Bool Arith Lia Permutation.
From SW Require Import proof.ListFacts model.TopoPlace model.TopoCount proof.TopoPlaceProofs.
Import ListNotations.
Local Open Scope Z_scope.

Lemma path_eqb_eq : forall a b, path_eqb a b = true <-> a = b.
Proof. exact (eqb_list_eq String.eqb String.eqb_eq). Qed.

Lemma path_eqb_spec : forall a b, reflect (a = b) (path_eqb a b).
Proof. intros. apply iff_reflect. symmetry. apply path_eqb_eq. Qed.

Lemma path_eqb_refl : forall a, path_eqb a a = true.
Proof. intro. apply path_eqb_eq. reflexivity. Qed.

Lemma path_eqb_neq : forall a b, a <> b -> path_eqb a b = false.
Proof. intros a b H. destruct (path_eqb_spec a b); [contradiction|reflexivity]. Qed.

Lemma is_prefix_spec : forall p q, is_prefix p q = true <-> exists l, q = p ++ l.
Proof.
  induction p as [|x p IH]; intros q; simpl.
  - split; [intros _; exists q; reflexivity|auto].
  - destruct q as [|y q].
    + split; [discriminate|intros [l H]; discriminate].
    + rewrite andb_true_iff, String.eqb_eq, IH. split.
      * intros [E [l H]]. subst. exists l. reflexivity.
      * intros [l H]. inversion H. split; auto. exists l. reflexivity.
Qed.

Lemma is_prefix_app : forall p l, is_prefix p (p ++ l) = true.
Proof. intros. apply is_prefix_spec. exists l. reflexivity. Qed.

Lemma is_prefix_refl : forall p, is_prefix p p = true.
Proof. intro. rewrite <- (app_nil_r p) at 2. apply is_prefix_app. Qed.

Lemma is_prefix_nil : forall q, is_prefix [] q = true.
Proof. reflexivity. Qed.

Lemma is_prefix_trans : forall a b c, is_prefix a b = true -> is_prefix b c = true -> is_prefix a c = true.
Proof.
  intros a b c H1 H2. apply is_prefix_spec in H1. apply is_prefix_spec in H2.
  destruct H1 as [l1 H1], H2 as [l2 H2]. subst. rewrite <- app_assoc. apply is_prefix_app.
Qed.

Lemma is_prefix_length : forall p q, is_prefix p q = true -> (length p <= length q)%nat.
Proof. intros p q H. apply is_prefix_spec in H. destruct H as [l H]. subst. rewrite app_length. lia. Qed.

Lemma is_prefix_same_length : forall p q, is_prefix p q = true -> length p = length q -> p = q.
Proof.
  intros p q H L. apply is_prefix_spec in H. destruct H as [l H]. subst. rewrite app_length in L.
  destruct l; [rewrite app_nil_r; reflexivity|simpl in L; lia].
Qed.

Lemma is_prefix_comparable : forall a b k, is_prefix a k = true -> is_prefix b k = true ->
  is_prefix a b = true \/ is_prefix b a = true.
Proof.
  induction a as [|x a IH]; intros b k Ha Hb; [left; reflexivity|].
  destruct b as [|y b]; [right; reflexivity|].
  destruct k as [|z k]; [discriminate|].
  simpl in *. apply andb_prop in Ha. apply andb_prop in Hb. destruct Ha as [E1 Ha], Hb as [E2 Hb].
  apply String.eqb_eq in E1, E2. subst. rewrite String.eqb_refl. simpl. eapply IH; eauto.
Qed.

Lemma is_prefix_app_r : forall p q x, is_prefix p (q ++ [x]) = true ->
  p = q ++ [x] \/ is_prefix p q = true.
Proof.
  induction p as [|y p IH]; intros q x H; [right; reflexivity|].
  destruct q as [|z q]; simpl in *.
  - apply andb_prop in H. destruct H as [E H]. apply String.eqb_eq in E. subst.
    destruct p; [left; reflexivity|discriminate].
  - apply andb_prop in H. destruct H as [E H]. apply String.eqb_eq in E. subst. rewrite String.eqb_refl. simpl.
    destruct (IH _ _ H) as [E|E]; [left; rewrite E; reflexivity|right; exact E].
Qed.

Lemma is_prefix_strict : forall p q, is_prefix p q = true -> p <> q -> (length p < length q)%nat.
Proof.
  intros p q H Hne. pose proof (is_prefix_length p q H).
  destruct (Nat.eq_dec (length p) (length q)) as [E|E]; [|lia].
  elim Hne. apply is_prefix_same_length; assumption.
Qed.

Lemma is_child_of_spec : forall p q, is_child_of p q = true <-> exists x, q = p ++ [x].
Proof.
  intros p q. unfold is_child_of. rewrite andb_true_iff, Nat.eqb_eq. split.
  - intros [H L]. apply is_prefix_spec in H. destruct H as [l H]. subst. rewrite app_length in L.
    destruct l as [|x [|y l]]; simpl in L; try lia. exists x. reflexivity.
  - intros [x H]. subst. split; [apply is_prefix_app|rewrite app_length; simpl; lia].
Qed.

Lemma app_last_inj : forall (p q : path) x y, p ++ [x] = q ++ [y] -> p = q /\ x = y.
Proof. intros. apply app_inj_tail. assumption. Qed.

Lemma counts_ext : forall a b, volumeCount a = volumeCount b -> remoteVolumeCount a = remoteVolumeCount b ->
  activeVolumeCount a = activeVolumeCount b -> ecShardCount a = ecShardCount b ->
  maxVolumeCount a = maxVolumeCount b -> a = b.
Proof. intros [] []; simpl; intros; subst; reflexivity. Qed.

Lemma uget_map_keys : forall (F : string -> counts) ks t,
  uget (map (fun k => (k, F k)) ks) t = if in_dec string_dec t ks then F t else zero_counts.
Proof.
  induction ks as [|k ks IH]; intros t; simpl; auto.
  rewrite IH. destruct (String.eqb_spec k t), (string_dec k t); try contradiction; [subst; reflexivity|].
  destruct (in_dec string_dec t ks); reflexivity.
Qed.

Lemma cadd_zero_r : forall a, cadd a zero_counts = a.
Proof. intros []. unfold cadd. simpl. f_equal; lia. Qed.
Lemma cadd_zero_l : forall a, cadd zero_counts a = a.
Proof. intros []. unfold cadd. simpl. f_equal; lia. Qed.

Lemma uget_uadd : forall u d t, uget (uadd u d) t = cadd (uget u t) (uget d t).
Proof.
  intros u d t. unfold uadd. rewrite uget_map_keys.
  destruct (in_dec string_dec t (dedup String.eqb (map fst u ++ map fst d))) as [H|H]; [reflexivity|].
  rewrite (uget_absent u t), (uget_absent d t); [reflexivity| |];
    intro Hin; apply H; apply dedup_complete; try (intros a b; apply String.eqb_eq);
    apply in_or_app; [right|left]; exact Hin.
Qed.

Lemma uget_uneg : forall u t, uget (uneg u) t = cneg (uget u t).
Proof.
  induction u as [|[k c] u IH]; intros t; simpl; [reflexivity|].
  destruct (String.eqb k t); auto.
Qed.

Lemma uget_single : forall k c t, uget [(k, c)] t = if String.eqb k t then c else zero_counts.
Proof. reflexivity. Qed.

Lemma uget_uset_max : forall u t x t',
  uget (uset_max u t x) t' =
  if String.eqb t t'
  then mkCounts (volumeCount (uget u t')) (remoteVolumeCount (uget u t')) (activeVolumeCount (uget u t'))
                (ecShardCount (uget u t')) x
  else uget u t'.
Proof.
  induction u as [|[k c] u IH]; intros t x t'; simpl.
  - destruct (String.eqb t t'); reflexivity.
  - destruct (String.eqb_spec k t) as [->|E1]; simpl.
    + destruct (String.eqb t t'); reflexivity.
    + rewrite IH. destruct (String.eqb_spec k t') as [->|E2]; [|reflexivity].
      apply String.eqb_neq in E1. rewrite String.eqb_sym, E1. reflexivity.
Qed.

Lemma uget_one : forall T c t (f : counts -> Z), f zero_counts = 0 ->
  f (uget [(T, c)] t) = if String.eqb T t then f c else 0.
Proof. intros. simpl. destruct (String.eqb T t); auto. Qed.

(* Tables keyed by paths: the state table ([info] is [aget empty_info], [present] is [ahas])
   and the reference table ([ref_info] is [aget []], [ref_present] is [ahas]), by conversion. *)
Section Assoc.
  Context {V : Type} (dflt : V).
  Implicit Types (l : list (path * V)) (p k : path) (c : path -> bool).

  Fixpoint aget l p : V :=
    match l with
    | [] => dflt
    | (k, i) :: l' => if path_eqb k p then i else aget l' p
    end.
  Definition ahas l p : bool := existsb (fun e => path_eqb (fst e) p) l.
  (* the shape of [upd], [up_adjust] and the AdjustMax step of the reference *)
  Definition amap c (g : V -> V) l := map (fun e => if c (fst e) then (fst e, g (snd e)) else e) l.

  Lemma ahas_in : forall l p, ahas l p = true <-> In p (map fst l).
  Proof.
    intros. unfold ahas. rewrite existsb_exists, in_map_iff. split; intros [e H]; exists e.
    - destruct H as [H E]. apply path_eqb_eq in E. auto.
    - destruct H as [E H]. subst. split; [assumption|apply path_eqb_refl].
  Qed.

  Lemma aget_absent : forall l p, ~ In p (map fst l) -> aget l p = dflt.
  Proof.
    induction l as [|[k i] l IH]; intros p H; simpl in *; auto.
    destruct (path_eqb_spec k p); [tauto|apply IH; tauto].
  Qed.

  Lemma aget_in : forall l k i, NoDup (map fst l) -> In (k, i) l -> aget l k = i.
  Proof.
    induction l as [|[k0 i0] l IH]; intros k i Hnd Hin; [contradiction|].
    simpl in *. inversion Hnd; subst. destruct Hin as [Hin|Hin].
    - inversion Hin; subst. rewrite path_eqb_refl. reflexivity.
    - destruct (path_eqb_spec k0 k); [|auto]. subst. exfalso. apply H1. apply (in_map fst) in Hin. exact Hin.
  Qed.

  Lemma aget_app : forall l l' p, aget (l ++ l') p = if ahas l p then aget l p else aget l' p.
  Proof.
    induction l as [|[k i] l IH]; intros; simpl; auto.
    unfold ahas in *. simpl. destruct (path_eqb k p); simpl; auto.
  Qed.

  Lemma keys_amap : forall c g l, map fst (amap c g l) = map fst l.
  Proof. intros. unfold amap. rewrite map_map. apply map_ext. intros [k i]. simpl. destruct (c k); reflexivity. Qed.

  Lemma aget_amap : forall c g l k, In k (map fst l) ->
    aget (amap c g l) k = if c k then g (aget l k) else aget l k.
  Proof.
    induction l as [|[k0 i0] l IH]; intros k Hin; [contradiction|].
    simpl in *. destruct (path_eqb_spec k0 k) as [->|E].
    - destruct (c k); simpl; rewrite path_eqb_refl; reflexivity.
    - destruct Hin as [Hin|Hin]; [contradiction|].
      destruct (c k0); simpl; rewrite (path_eqb_neq _ _ E); apply IH; exact Hin.
  Qed.

  Lemma keys_afilter : forall c l, map fst (filter (fun e => c (fst e)) l) = filter c (map fst l).
  Proof. induction l as [|[k i] l IH]; simpl; auto. destruct (c k); simpl; rewrite IH; reflexivity. Qed.

  Lemma aget_afilter : forall c l k, aget (filter (fun e => c (fst e)) l) k = if c k then aget l k else dflt.
  Proof.
    induction l as [|[k0 i0] l IH]; intros k; simpl.
    - destruct (c k); reflexivity.
    - destruct (c k0) eqn:G; simpl; destruct (path_eqb_spec k0 k) as [->|E]; auto.
      + rewrite G. reflexivity.
      + rewrite IH, G. reflexivity.
  Qed.
End Assoc.

Definition keys (st : state) : list path := map fst st.

Lemma present_in : forall st p, present st p = true <-> In p (keys st).
Proof. exact ahas_in. Qed.

Lemma present_spec : forall st p, reflect (In p (keys st)) (present st p).
Proof. intros. apply iff_reflect. symmetry. apply present_in. Qed.

Lemma info_absent : forall st p, ~ In p (keys st) -> info st p = empty_info.
Proof. exact (aget_absent empty_info). Qed.

Lemma info_in : forall st k i, NoDup (keys st) -> In (k, i) st -> info st k = i.
Proof. exact (aget_in empty_info). Qed.

Lemma keys_upd : forall st p f, keys (upd st p f) = keys st.
Proof. intros. apply (keys_amap (fun k => path_eqb k p)). Qed.

Lemma keys_up_adjust : forall st p d, keys (up_adjust st p d) = keys st.
Proof. intros. apply (keys_amap (fun k => is_prefix k p)). Qed.

Lemma info_upd : forall st q f k, In k (keys st) ->
  info (upd st q f) k = if path_eqb k q then f (info st k) else info st k.
Proof. intros st q f. exact (aget_amap empty_info (fun k => path_eqb k q) f st). Qed.

Lemma info_up_adjust : forall st q d k, In k (keys st) ->
  info (up_adjust st q d) k = if is_prefix k q then add_usage d (info st k) else info st k.
Proof. intros st q d. exact (aget_amap empty_info (fun k => is_prefix k q) (add_usage d) st). Qed.

Lemma keys_app : forall st q i, keys (st ++ [(q, i)]) = keys st ++ [q].
Proof. intros. apply map_app. Qed.

Lemma info_app_new : forall st q i k,
  info (st ++ [(q, i)]) k = if present st k then info st k else if path_eqb q k then i else empty_info.
Proof. intros. exact (aget_app empty_info st [(q, i)] k). Qed.

Lemma keys_filter : forall st (g : path -> bool), keys (filter (fun e => g (fst e)) st) = filter g (keys st).
Proof. intros. apply keys_afilter. Qed.

Lemma info_filter : forall st (g : path -> bool) k,
  info (filter (fun e => g (fst e)) st) k = if g k then info st k else empty_info.
Proof. intros. exact (aget_afilter empty_info g st k). Qed.

(* GetOrCreateDataCenter / Rack / Disk add an empty entry: nothing can be read off it *)
Lemma goc_link : forall st n x, get_or_create_disk st n x = link_empty st (n ++ [x]).
Proof. reflexivity. Qed.

Lemma info_link : forall st q k, info (link_empty st q) k = info st k.
Proof.
  intros st q k. unfold link_empty. destruct (present st q); [reflexivity|].
  rewrite info_app_new. destruct (present_spec st k) as [P|P]; [reflexivity|].
  rewrite (info_absent st k P). destruct (path_eqb q k); reflexivity.
Qed.

Lemma keys_link : forall st q k, In k (keys (link_empty st q)) <-> In k (keys st) \/ k = q.
Proof.
  intros st q k. unfold link_empty. destruct (present_spec st q) as [P|P].
  - split; [auto|intros [H|H]; subst; auto].
  - rewrite keys_app, in_app_iff. simpl. intuition.
Qed.

Lemma info_goc_old : forall st n x k, k <> n ++ [x] -> info (get_or_create_disk st n x) k = info st k.
Proof. intros. apply info_link. Qed.

Lemma sumZ_app : forall A (f : A -> Z) l1 l2, sumZ f (l1 ++ l2) = sumZ f l1 + sumZ f l2.
Proof. induction l1 as [|x l1 IH]; intros; simpl; auto. rewrite IH. lia. Qed.

Lemma sumZ_ext_in : forall A (f g : A -> Z) l, (forall x, In x l -> f x = g x) -> sumZ f l = sumZ g l.
Proof.
  induction l as [|x l IH]; intros H; simpl; auto.
  rewrite (H x) by (left; reflexivity). rewrite IH; auto. intros. apply H. right. auto.
Qed.

Lemma sumZ_zero : forall A (f : A -> Z) l, (forall x, In x l -> f x = 0) -> sumZ f l = 0.
Proof. intros A f l H. rewrite (sumZ_ext_in _ f (fun _ => 0) l H). clear H. induction l; simpl; lia. Qed.

Lemma sumZ_plus : forall A (f g : A -> Z) l, sumZ (fun x => f x + g x) l = sumZ f l + sumZ g l.
Proof. induction l as [|x l IH]; simpl; auto. rewrite IH. lia. Qed.

Lemma sumZ_minus : forall A (f g : A -> Z) l, sumZ (fun x => f x - g x) l = sumZ f l - sumZ g l.
Proof. induction l as [|x l IH]; simpl; auto. rewrite IH. lia. Qed.

Lemma sumZ_map : forall A B (h : A -> B) (f : B -> Z) l, sumZ f (map h l) = sumZ (fun x => f (h x)) l.
Proof. induction l as [|x l IH]; simpl; auto. rewrite IH. reflexivity. Qed.

Lemma sumZ_perm : forall A (f : A -> Z) l l', Permutation l l' -> sumZ f l = sumZ f l'.
Proof. intros A f l l' H. induction H; simpl; lia. Qed.

Lemma sumZ_filter : forall A (f : A -> Z) (g : A -> bool) l,
  sumZ f (filter g l) = sumZ (fun x => if g x then f x else 0) l.
Proof.
  induction l as [|x l IH]; simpl; auto. destruct (g x); simpl; rewrite IH; reflexivity.
Qed.

Lemma sumZ_flat_map : forall A B (h : A -> list B) (f : B -> Z) l,
  sumZ f (flat_map h l) = sumZ (fun x => sumZ f (h x)) l.
Proof. induction l as [|x l IH]; simpl; auto. rewrite sumZ_app, IH. reflexivity. Qed.

Lemma sumZ_if_const : forall A (c : bool) (f : A -> Z) l,
  sumZ (fun x => if c then f x else 0) l = if c then sumZ f l else 0.
Proof. intros A c f l. destruct c; [reflexivity|]. apply sumZ_zero. auto. Qed.

Lemma sum_single : forall (ks : list path) q (c : Z) (P : path -> bool), NoDup ks -> In q ks ->
  sumZ (fun k => if P k then (if path_eqb q k then c else 0) else 0) ks = if P q then c else 0.
Proof.
  induction ks as [|k ks IH]; intros q c P Hnd Hin; [contradiction|].
  inversion Hnd; subst. simpl. destruct (path_eqb_spec q k) as [->|E].
  - rewrite sumZ_zero; [destruct (P k); lia|].
    intros x Hx. destruct (path_eqb_spec k x); [subst; contradiction|destruct (P x); reflexivity].
  - destruct Hin as [Hin|Hin]; [congruence|]. rewrite IH by assumption. destruct (P k); lia.
Qed.

Lemma sumZ_incl : forall (g : path -> Z) l l', NoDup l -> NoDup l' -> incl l l' ->
  (forall k, In k l' -> ~ In k l -> g k = 0) -> sumZ g l' = sumZ g l.
Proof.
  intros g l l' Hnd Hnd' Hi Hz.
  (* only the elements of l count, and those of l' that are in l are l again *)
  set (m := fun k => if in_dec (list_eq_dec string_dec) k l then true else false).
  rewrite (sumZ_ext_in _ g (fun k => if m k then g k else 0) l'), <- sumZ_filter.
  - apply sumZ_perm, NoDup_Permutation; [apply NoDup_filter, Hnd'|exact Hnd|].
    intro k. rewrite filter_In. unfold m. destruct (in_dec (list_eq_dec string_dec) k l) as [i|ni].
    + split; [tauto|intros _; split; [apply Hi, i|reflexivity]].
    + split; [intros [_ ?]; discriminate|tauto].
  - intros k Hk. unfold m. destruct (in_dec (list_eq_dec string_dec) k l); [reflexivity|auto].
Qed.

Lemma sumZ_entries_keys : forall (g : path -> ninfo -> Z) st, NoDup (keys st) ->
  sumZ (fun en => g (fst en) (snd en)) st = sumZ (fun k => g k (info st k)) (keys st).
Proof.
  intros g st Hnd. unfold keys. rewrite sumZ_map. apply sumZ_ext_in. intros [k i] Hin. simpl.
  rewrite (info_in st k i Hnd Hin). reflexivity.
Qed.

Definition U (st : state) (p : path) (t : string) : counts := uget (i_usage (info st p)) t.

(* recomputation beneath p of a per-entry quantity e *)
Definition S (st : state) (e : path -> ninfo -> string -> Z) (p : path) (t : string) : Z :=
  sumZ (fun k => if is_prefix p k then e k (info st k) t else 0) (keys st).

Definition E_vol (k : path) (i : ninfo) (t : string) : Z := nvol i t.
Definition E_remote (k : path) (i : ninfo) (t : string) : Z := nremote i t.
Definition E_ec (k : path) (i : ninfo) (t : string) : Z := nec i t.
Definition E_max (k : path) (i : ninfo) (t : string) : Z :=
  if Nat.eqb (length k) 4 then maxVolumeCount (uget (i_usage i) t) else 0.

(* field f of every present node equals the recomputation of e beneath it: the sum of [exact_at],
   over keys instead of entries (Cons_beneath) *)
Definition Cons (f : counts -> Z) (e : path -> ninfo -> string -> Z) (st : state) : Prop :=
  forall p, In p (keys st) -> forall t, f (U st p t) = S st e p t.

Definition keeps_usage (g : ninfo -> ninfo) : Prop := forall i, i_usage (g i) = i_usage i.

Lemma U_up_adjust : forall st q d p t, In p (keys st) ->
  U (up_adjust st q d) p t = if is_prefix p q then cadd (U st p t) (uget d t) else U st p t.
Proof.
  intros. unfold U. rewrite info_up_adjust by assumption.
  destruct (is_prefix p q); [|reflexivity]. simpl. apply uget_uadd.
Qed.

Lemma U_upd : forall st q g p t, keeps_usage g -> U (upd st q g) p t = U st p t.
Proof.
  intros st q g p t Hg. unfold U. destruct (present_spec st p) as [P|P].
  - rewrite info_upd by exact P. destruct (path_eqb p q); [rewrite Hg|]; reflexivity.
  - rewrite !info_absent; [reflexivity|exact P|rewrite keys_upd; exact P].
Qed.

Lemma U_link : forall st q p t, U (link_empty st q) p t = U st p t.
Proof. intros. unfold U. rewrite info_link. reflexivity. Qed.

(* ids distinct within an entry, and every registration names the disk it sits on *)
Definition payload_ok (k : path) (i : ninfo) : Prop :=
  NoDup (map v_id (i_vols i)) /\ NoDup (map e_id (i_ecs i)) /\
  (forall v, In v (i_vols i) -> exists n, k = n ++ [v_disk v]) /\
  (forall e, In e (i_ecs i) -> exists n, k = n ++ [e_disk e]).

(* the table is a tree: keys distinct, the root present, prefix closed (s_pc) *)
Record Struct (st : state) : Prop := {
  s_nodup : NoDup (keys st);
  s_root : In [] (keys st);
  s_pc : forall k p, In k (keys st) -> is_prefix p k = true -> In p (keys st);
  s_payload : forall k, In k (keys st) -> payload_ok k (info st k) }.

Definition rkeys (r : ref_state) : list path := map fst r.

(* the reference holds exactly the data nodes, with the max counts the table has for them *)
Record RefInv (st : state) (r : ref_state) : Prop := {
  r_nodup : NoDup (rkeys r);
  r_keys : forall p, In p (rkeys r) <-> (In p (keys st) /\ length p = 3%nat);
  r_max : forall n, In n (rkeys r) -> forall t, maxVolumeCount (U st n t) = rget (ref_info r n) t }.

Record Inv (st : state) (r : ref_state) : Prop := {
  i_struct : Struct st;
  i_vol : Cons volumeCount E_vol st;
  i_remote : Cons remoteVolumeCount E_remote st;
  i_ec : Cons ecShardCount E_ec st;
  i_max : Cons maxVolumeCount E_max st;
  i_ref : RefInv st r }.

(* the four counting clauses of [Inv], so that what holds of all of them is said once *)
Inductive clause : (counts -> Z) -> (path -> ninfo -> string -> Z) -> Prop :=
| cl_vol : clause volumeCount E_vol
| cl_remote : clause remoteVolumeCount E_remote
| cl_ec : clause ecShardCount E_ec
| cl_max : clause maxVolumeCount E_max.

(* [Inv] without the reference *)
Definition Core (st : state) : Prop := Struct st /\ forall f e, clause f e -> Cons f e st.

Lemma Inv_Core : forall st r, Inv st r <-> Core st /\ RefInv st r.
Proof.
  intros st r. split.
  - intros [Hs Cv Cr Ce Cm Hr]. split; [split; [exact Hs|intros f e []; assumption]|exact Hr].
  - intros [[Hs Hc] Hr]. constructor; auto using clause.
Qed.

Lemma clause_lin : forall f e, clause f e ->
  f zero_counts = 0 /\ (forall a b, f (cadd a b) = f a + f b) /\ (forall a, f (cneg a) = - f a).
Proof. intros f e []; repeat split. Qed.

Lemma clause_empty : forall f e, clause f e -> forall k t, e k empty_info t = 0.
Proof. intros f e [] k t; try reflexivity. unfold E_max. destruct (Nat.eqb (length k) 4); reflexivity. Qed.

Lemma payload_ok_empty : forall k, payload_ok k empty_info.
Proof. intro k. repeat split; simpl; try constructor; intros ? []. Qed.

(* [Struct] sees the keys and the registrations only *)
Lemma Struct_same : forall st st', Struct st -> keys st' = keys st ->
  (forall k, In k (keys st) -> payload_ok k (info st' k)) -> Struct st'.
Proof. intros st st' [H1 H2 H3 H4] E Hp. constructor; rewrite E; assumption. Qed.

Lemma Struct_link : forall st n x, Struct st -> In n (keys st) -> Struct (link_empty st (n ++ [x])).
Proof.
  intros st n x Hs Hn. constructor.
  - unfold link_empty. destruct (present_spec st (n ++ [x])) as [P|P]; [apply Hs|].
    rewrite keys_app. apply NoDup_app_intro; [apply Hs|repeat constructor; intros []|].
    intros k Hk [E|[]]. subst. contradiction.
  - apply keys_link. left. apply Hs.
  - intros k p Hk Hpk. apply keys_link in Hk. apply keys_link. destruct Hk as [Hk| ->].
    + left. eapply s_pc; eauto.
    + apply is_prefix_app_r in Hpk. destruct Hpk as [E|E]; [right; exact E|left; eapply s_pc; eauto].
  - intros k Hk. rewrite info_link. destruct (present_spec st k) as [P|P]; [apply Hs; exact P|].
    rewrite (info_absent st k P). apply payload_ok_empty.
Qed.

Lemma no_keys_under_absent : forall st q, Struct st -> ~ In q (keys st) ->
  forall k, In k (keys st) -> is_prefix q k = false.
Proof.
  intros st q Hs Hq k Hk. destruct (is_prefix q k) eqn:E; auto.
  exfalso. apply Hq. eapply s_pc; eauto.
Qed.

(* the recomputation of the payload of st over the keys of a larger table is still the counter *)
Lemma S_transfer : forall f e st ks, clause f e -> Struct st -> Cons f e st -> NoDup ks -> incl (keys st) ks ->
  forall p t, sumZ (fun k => if is_prefix p k then e k (info st k) t else 0) ks = f (U st p t).
Proof.
  intros f e st ks Hcl Hs Hc Hnd Hi p t.
  rewrite (sumZ_incl _ (keys st) ks (s_nodup _ Hs) Hnd Hi).
  2:{ intros k _ Hk. rewrite (info_absent st k Hk), (clause_empty f e Hcl). destruct (is_prefix p k); reflexivity. }
  destruct (present_spec st p) as [Hp|Hp].
  - symmetry. apply (Hc p Hp t).
  - unfold U. rewrite (info_absent st p Hp). simpl. rewrite (proj1 (clause_lin f e Hcl)).
    apply sumZ_zero. intros k Hk. rewrite (no_keys_under_absent st p Hs Hp k Hk). reflexivity.
Qed.

(* The one argument behind every event: st' extends st, the recomputed quantity changes by c at
   the single entry q, and the counter changes by c at q and at every ancestor of q. *)
Lemma Cons_at : forall f e st st' q (c : string -> Z), clause f e -> Struct st -> Cons f e st ->
  NoDup (keys st') -> incl (keys st) (keys st') -> In q (keys st') ->
  (forall k t, In k (keys st') -> e k (info st' k) t = e k (info st k) t + if path_eqb q k then c t else 0) ->
  (forall p t, In p (keys st') -> f (U st' p t) = f (U st p t) + if is_prefix p q then c t else 0) ->
  Cons f e st'.
Proof.
  intros f e st st' q c Hcl Hs Hc Hnd Hi Hq HE HU p Hp t.
  rewrite (HU p t Hp), <- (S_transfer f e st (keys st') Hcl Hs Hc Hnd Hi p t),
          <- (sum_single (keys st') q (c t) (is_prefix p) Hnd Hq), <- sumZ_plus.
  apply sumZ_ext_in. intros k Hk. rewrite (HE k t Hk). destruct (is_prefix p k); lia.
Qed.

Lemma info_upd_other : forall st q g k, k <> q -> info (upd st q g) k = info st k.
Proof.
  intros st q g k E. destruct (present_spec st k) as [P|P].
  - rewrite info_upd by exact P. rewrite (path_eqb_neq k q E). reflexivity.
  - rewrite !info_absent; [reflexivity|exact P|rewrite keys_upd; exact P].
Qed.

Lemma payload_up_adjust : forall st q d k, i_vols (info (up_adjust st q d) k) = i_vols (info st k) /\
                                          i_ecs (info (up_adjust st q d) k) = i_ecs (info st k).
Proof.
  intros. destruct (present_spec st k) as [H|H].
  - rewrite info_up_adjust by assumption. destruct (is_prefix k q); auto.
  - rewrite !info_absent; [auto|exact H|rewrite keys_up_adjust; exact H].
Qed.

Lemma vols_up_adjust : forall st q d k, i_vols (info (up_adjust st q d) k) = i_vols (info st k).
Proof. intros. apply payload_up_adjust. Qed.

Lemma ecs_up_adjust : forall st q d k, i_ecs (info (up_adjust st q d) k) = i_ecs (info st k).
Proof. intros. apply payload_up_adjust. Qed.

Lemma Struct_up_adjust : forall st q d, Struct st -> Struct (up_adjust st q d).
Proof.
  intros st q d Hs. apply (Struct_same st); [exact Hs|apply keys_up_adjust|].
  intros k Hk. destruct (payload_up_adjust st q d k) as [E1 E2], (s_payload _ Hs k Hk) as [P1 [P2 [P3 P4]]].
  unfold payload_ok. rewrite E1, E2. auto.
Qed.

Lemma Struct_upd : forall st q g, Struct st -> In q (keys st) -> payload_ok q (g (info st q)) -> Struct (upd st q g).
Proof.
  intros st q g Hs Hq Hp. apply (Struct_same st); [exact Hs|apply keys_upd|].
  intros k Hk. rewrite info_upd by exact Hk.
  destruct (path_eqb_spec k q) as [->|E]; [exact Hp|apply Hs; exact Hk].
Qed.

Lemma Core_link : forall st n x, Core st -> In n (keys st) -> Core (link_empty st (n ++ [x])).
Proof.
  intros st n x [Hs Hc] Hn. pose proof (Struct_link st n x Hs Hn) as Hs'. split; [exact Hs'|].
  intros f e Hcl. apply (Cons_at f e st _ (n ++ [x]) (fun _ => 0)); auto.
  - apply Hs'.
  - intros k Hk. apply keys_link. left. exact Hk.
  - apply keys_link. right. reflexivity.
  - intros k t _. rewrite info_link. destruct (path_eqb _ _); lia.
  - intros p t _. rewrite U_link. destruct (is_prefix _ _); lia.
Qed.

Lemma Core_upd : forall st q g, Core st -> In q (keys st) -> keeps_usage g -> payload_ok q (g (info st q)) ->
  (forall f e, clause f e -> forall t, e q (g (info st q)) t = e q (info st q) t) -> Core (upd st q g).
Proof.
  intros st q g [Hs Hc] Hq Hg Hp Hb. split.
  - apply Struct_upd; assumption.
  - intros f e Hcl. apply (Cons_at f e st _ q (fun _ => 0) Hcl Hs (Hc f e Hcl)); rewrite ?keys_upd.
    + apply Hs.
    + apply incl_refl.
    + exact Hq.
    + intros k t Hk. rewrite info_upd by exact Hk. destruct (path_eqb_spec k q) as [->|E].
      * rewrite (Hb f e Hcl). destruct (path_eqb q q); lia.
      * destruct (path_eqb q k); lia.
    + intros p t _. rewrite U_upd by exact Hg. destruct (is_prefix p q); lia.
Qed.

(* e does not see a delta without a max count, nor any delta off the disks *)
Lemma clause_add_usage : forall f e, clause f e -> forall k d i t,
  (length k = 4%nat -> maxVolumeCount (uget d t) = 0) -> e k (add_usage d i) t = e k i t.
Proof.
  intros f e [] k d i t H; try reflexivity.
  unfold E_max. destruct (Nat.eqb_spec (length k) 4) as [L|L]; [|reflexivity].
  simpl. rewrite uget_uadd. simpl. rewrite (H L). lia.
Qed.

(* the balanced step: a change g of the registrations at q together with a delta d propagated
   from q.  The balance is stated on what ends up at q, because a max-count delta (max_adjust_step)
   is itself read by E_max at q; balanced_step below is the case maxVolumeCount d = 0. *)
Lemma Core_step : forall st q g d, Core st -> In q (keys st) -> keeps_usage g ->
  payload_ok q (g (info st q)) ->
  (forall f e, clause f e -> forall t,
     f (uget d t) = e q (add_usage d (g (info st q))) t - e q (info st q) t) ->
  Core (up_adjust (upd st q g) q d).
Proof.
  intros st q g d [Hs Hc] Hq Hg Hp Hb.
  assert (Hk : keys (up_adjust (upd st q g) q d) = keys st) by (rewrite keys_up_adjust; apply keys_upd).
  assert (Hi : forall k, In k (keys st) -> info (up_adjust (upd st q g) q d) k =
            (if is_prefix k q then add_usage d else fun i => i)
              ((if path_eqb k q then g else fun i => i) (info st k))).
  { intros k Hk'. rewrite info_up_adjust by (rewrite keys_upd; exact Hk'). rewrite info_upd by exact Hk'.
    destruct (is_prefix k q), (path_eqb k q); reflexivity. }
  split.
  - apply Struct_up_adjust, Struct_upd; assumption.
  - intros f e Hcl. destruct (clause_lin f e Hcl) as [_ [Fa _]].
    apply (Cons_at f e st _ q (fun t => f (uget d t)) Hcl Hs (Hc f e Hcl)); rewrite Hk.
    + apply Hs.
    + apply incl_refl.
    + exact Hq.
    + intros k t Hk'. rewrite (Hi k Hk'). destruct (path_eqb_spec k q) as [->|E].
      * rewrite path_eqb_refl, is_prefix_refl, (Hb f e Hcl t). lia.
      * rewrite (path_eqb_neq q k) by congruence. rewrite Z.add_0_r.
        destruct (is_prefix k q) eqn:Ek; [|reflexivity].
        (* k is a strict prefix of q: if k is a disk entry (length 4), q is longer, E_max reads nothing
           at q, and the balance at q says that d carries no max count *)
        apply (clause_add_usage f e Hcl). intro L. pose proof (Hb _ _ cl_max t) as Hm. unfold E_max in Hm.
        pose proof (is_prefix_strict k q Ek E). destruct (Nat.eqb_spec (length q) 4); lia.
    + intros p t Hp'. rewrite U_up_adjust by (rewrite keys_upd; exact Hp'). rewrite U_upd by exact Hg.
      destruct (is_prefix p q); [rewrite Fa|]; lia.
Qed.

(* the reference sees the data nodes (keys of length 3) and their max counts *)
Lemma RefInv_same : forall st st' r, RefInv st r ->
  (forall p, length p = 3%nat -> (In p (keys st') <-> In p (keys st))) ->
  (forall n t, In n (keys st) -> length n = 3%nat -> maxVolumeCount (U st' n t) = maxVolumeCount (U st n t)) ->
  RefInv st' r.
Proof.
  intros st st' r [R1 R2 R3] Hk Hm. constructor; [exact R1| |].
  - intro p. rewrite R2. split; intros [H1 H2]; split; auto; apply (Hk p H2); exact H1.
  - intros n Hn t. destruct (proj1 (R2 n) Hn) as [H1 H2]. rewrite Hm by assumption. apply R3. exact Hn.
Qed.

Lemma Inv_link : forall st r n x, Inv st r -> In n (keys st) -> length n <> 2%nat ->
  Inv (link_empty st (n ++ [x])) r.
Proof.
  intros st r n x Hi Hn Hl. apply Inv_Core in Hi. destruct Hi as [Hc Hr]. apply Inv_Core.
  split; [apply Core_link; assumption|]. apply (RefInv_same st); [exact Hr| |].
  - intros p Hp. rewrite keys_link. split; [intros [H| ->]; [exact H|]|auto].
    rewrite app_length in Hp. simpl in Hp. lia.
  - intros m t _ _. rewrite U_link. reflexivity.
Qed.

Lemma balanced_step : forall st r q g d, Inv st r -> In q (keys st) -> keeps_usage g ->
  payload_ok q (g (info st q)) ->
  (forall f e, clause f e -> forall t, f (uget d t) = e q (g (info st q)) t - e q (info st q) t) ->
  Inv (up_adjust (upd st q g) q d) r.
Proof.
  intros st r q g d Hi Hq Hg Hp Hb. apply Inv_Core in Hi. destruct Hi as [Hc Hr].
  assert (Hm : forall t, maxVolumeCount (uget d t) = 0).
  { intro t. rewrite (Hb _ _ cl_max t). unfold E_max. rewrite Hg. lia. }
  apply Inv_Core. split.
  - apply Core_step; auto. intros f e Hcl t.
    rewrite (clause_add_usage f e Hcl) by (intro; apply Hm). apply Hb. exact Hcl.
  - apply (RefInv_same st); [exact Hr|intros; rewrite keys_up_adjust, keys_upd; reflexivity|].
    intros n t Hn _. rewrite U_up_adjust by (rewrite keys_upd; exact Hn). rewrite U_upd by exact Hg.
    destruct (is_prefix n q); [simpl; rewrite Hm; lia|reflexivity].
Qed.

Lemma upd_id : forall st q, upd st q (fun i => i) = st.
Proof.
  intros. unfold upd. rewrite <- (map_id st) at 2. apply map_ext. intros [k i]. simpl. destruct (path_eqb k q); reflexivity.
Qed.

Theorem neutral_adjust : forall st r q d, Inv st r -> In q (keys st) ->
  (forall t, volumeCount (uget d t) = 0) -> (forall t, remoteVolumeCount (uget d t) = 0) ->
  (forall t, ecShardCount (uget d t) = 0) -> (forall t, maxVolumeCount (uget d t) = 0) ->
  Inv (up_adjust st q d) r.
Proof.
  intros st r q d Hi Hq Hv Hr He Hm. rewrite <- (upd_id st q) at 1.
  apply balanced_step; auto.
  - intro i. reflexivity.
  - apply Hi. exact Hq.
  - intros f e [] t; rewrite ?Hv, ?Hr, ?He, ?Hm; lia.
Qed.

Lemma neutral_payload : forall st r q g, Inv st r -> In q (keys st) -> keeps_usage g ->
  payload_ok q (g (info st q)) ->
  (forall f e, clause f e -> forall t, e q (g (info st q)) t = e q (info st q) t) ->
  Inv (upd st q g) r.
Proof.
  intros st r q g Hi Hq Hg Hp Hb. apply Inv_Core in Hi. destruct Hi as [Hc Hr]. apply Inv_Core.
  split; [apply Core_upd; assumption|]. apply (RefInv_same st); [exact Hr| |].
  - intros. rewrite keys_upd. reflexivity.
  - intros. rewrite U_upd by exact Hg. reflexivity.
Qed.

Lemma upd_up_adjust_comm : forall st q q' g d, (forall i, g (add_usage d i) = add_usage d (g i)) ->
  upd (up_adjust st q d) q' g = up_adjust (upd st q' g) q d.
Proof.
  intros st q q' g d Hg. unfold upd, up_adjust. rewrite !map_map. apply map_ext. intros [k i]. simpl.
  destruct (path_eqb k q') eqn:E1; destruct (is_prefix k q) eqn:E2; simpl; rewrite ?E1, ?E2; try reflexivity.
  rewrite Hg. reflexivity.
Qed.

Section MapLemmas.
  (* one development for both maps of a disk: records with an N key; [find_vol], [put_vol],
     [remove_vol] are [mfind v_id], [mput v_id], [mremove v_id] by conversion, and likewise for EC *)
  Context {A : Type}.
  Variable key : A -> N.
  Fixpoint mfind (id : N) (l : list A) : option A :=
    match l with [] => None | x :: l' => if N.eqb (key x) id then Some x else mfind id l' end.
  Definition mremove (id : N) (l : list A) : list A := filter (fun x => negb (N.eqb (key x) id)) l.
  Fixpoint mput (v : A) (l : list A) : list A :=
    match l with [] => [v] | x :: l' => if N.eqb (key x) (key v) then v :: l' else x :: mput v l' end.

  Lemma mfind_some : forall id l x, mfind id l = Some x -> In x l /\ key x = id.
  Proof.
    induction l as [|y l IH]; intros x H; simpl in H; [discriminate|].
    destruct (N.eqb_spec (key y) id) as [E|E].
    - inversion H; subst. split; [left|]; reflexivity.
    - destruct (IH _ H). split; [right|]; auto.
  Qed.

  Lemma mfind_none : forall id l, mfind id l = None -> ~ In id (map key l).
  Proof.
    induction l as [|y l IH]; intros H; simpl in *; [tauto|].
    destruct (N.eqb_spec (key y) id) as [E|E]; [discriminate|].
    intros [H1|H1]; [contradiction|]. apply IH; auto.
  Qed.

  Lemma mfind_in : forall l x, NoDup (map key l) -> In x l -> mfind (key x) l = Some x.
  Proof.
    induction l as [|y l IH]; intros x Hnd Hin; [contradiction|].
    simpl in *. inversion Hnd; subst. destruct Hin as [Hin|Hin].
    - subst. rewrite N.eqb_refl. reflexivity.
    - destruct (N.eqb_spec (key y) (key x)) as [E|E]; [|auto].
      exfalso. apply H1. rewrite E. apply in_map. exact Hin.
  Qed.

  Lemma mput_in : forall v l x, In x (mput v l) -> x = v \/ In x l.
  Proof.
    induction l as [|y l IH]; intros x H; simpl in H.
    - destruct H as [H|[]]. left. auto.
    - destruct (N.eqb (key y) (key v)).
      + destruct H as [H|H]; [left; auto|right; right; auto].
      + destruct H as [H|H]; [right; left; auto|]. destruct (IH _ H); [left|right; right]; auto.
  Qed.

  Lemma mput_keys : forall v l id, In id (map key (mput v l)) <-> id = key v \/ In id (map key l).
  Proof.
    induction l as [|y l IH]; intros id; simpl.
    - intuition.
    - destruct (N.eqb_spec (key y) (key v)) as [E|E]; simpl.
      + rewrite E. intuition congruence.
      + rewrite IH. intuition congruence.
  Qed.

  Lemma mput_nodup : forall v l, NoDup (map key l) -> NoDup (map key (mput v l)).
  Proof.
    induction l as [|y l IH]; intros H; simpl.
    - repeat constructor. intros [].
    - inversion H; subst. destruct (N.eqb_spec (key y) (key v)) as [E|E]; simpl.
      + rewrite <- E. constructor; auto.
      + constructor; auto. rewrite mput_keys. intros [H1|H1]; [congruence|contradiction].
  Qed.

  Lemma mput_absent : forall v l, ~ In (key v) (map key l) -> mput v l = l ++ [v].
  Proof.
    induction l as [|y l IH]; intros H; simpl in *; auto.
    destruct (N.eqb_spec (key y) (key v)) as [E|E]; [tauto|]. rewrite IH; tauto.
  Qed.

  Lemma mremove_in : forall id l x, In x (mremove id l) <-> In x l /\ key x <> id.
  Proof.
    intros. unfold mremove. rewrite filter_In, negb_true_iff, N.eqb_neq. tauto.
  Qed.

  Lemma mremove_nodup : forall id l, NoDup (map key l) -> NoDup (map key (mremove id l)).
  Proof. intros. apply NoDup_map_filter. assumption. Qed.

  Lemma mfind_mremove_other : forall id id' l, id' <> id -> mfind id' (mremove id l) = mfind id' l.
  Proof.
    induction l as [|y l IH]; intros Hne; simpl; auto.
    destruct (N.eqb_spec (key y) id) as [E|E]; simpl; [|rewrite IH by exact Hne; reflexivity].
    destruct (N.eqb_spec (key y) id'); [congruence|auto].
  Qed.

  Lemma mfind_mput_other : forall v id l, id <> key v -> mfind id (mput v l) = mfind id l.
  Proof.
    induction l as [|y l IH]; intros Hne; simpl.
    - destruct (N.eqb_spec (key v) id); [congruence|reflexivity].
    - destruct (N.eqb_spec (key y) (key v)) as [E|E]; simpl.
      + destruct (N.eqb_spec (key v) id); [congruence|]. destruct (N.eqb_spec (key y) id); [congruence|reflexivity].
      + rewrite IH by exact Hne. reflexivity.
  Qed.

  Lemma mfind_mput_same : forall v l, mfind (key v) (mput v l) = Some v.
  Proof.
    induction l as [|y l IH]; simpl.
    - rewrite N.eqb_refl. reflexivity.
    - destruct (N.eqb (key y) (key v)) eqn:E; simpl; [rewrite N.eqb_refl; reflexivity|rewrite E; exact IH].
  Qed.

  Variable w : A -> Z.
  Definition wopt (o : option A) : Z := match o with Some x => w x | None => 0 end.

  Lemma sum_mput : forall v l, sumZ w (mput v l) = sumZ w l + w v - wopt (mfind (key v) l).
  Proof.
    induction l as [|y l IH]; simpl; [lia|].
    destruct (N.eqb (key y) (key v)); simpl; [lia|]. rewrite IH. lia.
  Qed.

  Lemma sum_mremove : forall id l x, NoDup (map key l) -> mfind id l = Some x ->
    sumZ w (mremove id l) = sumZ w l - w x.
  Proof.
    unfold mremove. induction l as [|y l IH]; intros x H F; simpl in *; [discriminate|].
    inversion H; subst. destruct (N.eqb_spec (key y) id) as [E|E]; simpl.
    - inversion F; subst. rewrite filter_all_true; [lia|].
      intros z Hz. apply negb_true_iff, N.eqb_neq. intro E. apply H2. rewrite <- E. apply in_map. exact Hz.
    - rewrite (IH x) by assumption. lia.
  Qed.
End MapLemmas.

(* What is counted at a disk entry: all its registrations carry its disk type, so the
   recomputation there is a plain count under that type. *)
Definition vcount (i : ninfo) : Z := sumZ (fun _ => 1) (i_vols i).
Definition rcount (i : ninfo) : Z := sumZ (fun v => if v_remote v then 1 else 0) (i_vols i).
Definition scount (i : ninfo) : Z := sumZ (fun e => popcount (e_bits e)) (i_ecs i).

Lemma payload_disk : forall n x i, payload_ok (n ++ [x]) i ->
  (forall v, In v (i_vols i) -> v_disk v = x) /\ (forall e, In e (i_ecs i) -> e_disk e = x).
Proof.
  intros n x i [_ [_ [Pv Pe]]].
  split; intros a Ha; [destruct (Pv a Ha) as [n' E]|destruct (Pe a Ha) as [n' E]];
    apply app_inj_tail in E; symmetry; apply E.
Qed.

Lemma disk_counts : forall n x i t, payload_ok (n ++ [x]) i ->
  nvol i t = (if String.eqb (to_dt x) t then vcount i else 0) /\
  nremote i t = (if String.eqb (to_dt x) t then rcount i else 0) /\
  nec i t = (if String.eqb (to_dt x) t then scount i else 0).
Proof.
  intros n x i t P. destruct (payload_disk n x i P) as [Dv De].
  unfold nvol, nremote, nec, vcount, rcount, scount. rewrite <- !sumZ_if_const.
  repeat split; apply sumZ_ext_in; intros a Ha; rewrite ?(Dv a Ha), ?(De a Ha); try reflexivity.
  destruct (String.eqb (to_dt x) t), (v_remote a); reflexivity.
Qed.

Lemma disk_balance : forall n x i i' f e t, clause f e ->
  payload_ok (n ++ [x]) i -> payload_ok (n ++ [x]) i' -> i_usage i' = i_usage i ->
  e (n ++ [x]) i' t - e (n ++ [x]) i t =
  if String.eqb (to_dt x) t
  then f (mkCounts (vcount i' - vcount i) (rcount i' - rcount i) 0 (scount i' - scount i) 0) else 0.
Proof.
  intros n x i i' f e t Hcl P P' Hu.
  destruct (disk_counts n x i t P) as [E1 [E2 E3]], (disk_counts n x i' t P') as [E4 [E5 E6]].
  destruct Hcl; unfold E_vol, E_remote, E_ec, E_max; simpl; rewrite ?E1, ?E2, ?E3, ?E4, ?E5, ?E6, ?Hu;
    destruct (String.eqb (to_dt x) t); try lia; destruct (Nat.eqb (length (n ++ [x])) 4); lia.
Qed.

(* the heartbeat handlers run at a registered data node n (the state comes last, for fold_At) *)
Definition At (r : ref_state) (n : path) (st : state) : Prop :=
  Inv st r /\ In n (keys st) /\ length n = 3%nat.

Lemma At_link : forall r n st x, At r n st ->
  At r n (link_empty st (n ++ [x])) /\ In (n ++ [x]) (keys (link_empty st (n ++ [x]))).
Proof.
  intros r n st x [Hi [Hn Hl]]. unfold At. rewrite !keys_link. split; [split; [|split]|]; auto. apply Inv_link; auto. lia.
Qed.

Lemma fold_At : forall A r n (f : state -> A -> state), (forall s a, At r n s -> At r n (f s a)) ->
  forall l s, At r n s -> At r n (fold_left f l s).
Proof. intros A r n f Hf. induction l as [|a l IH]; intros s Hs; simpl; auto. Qed.

Lemma disk_step : forall r n st x g c, At r n st -> In (n ++ [x]) (keys st) -> keeps_usage g ->
  payload_ok (n ++ [x]) (g (info st (n ++ [x]))) ->
  volumeCount c = vcount (g (info st (n ++ [x]))) - vcount (info st (n ++ [x])) ->
  remoteVolumeCount c = rcount (g (info st (n ++ [x]))) - rcount (info st (n ++ [x])) ->
  ecShardCount c = scount (g (info st (n ++ [x]))) - scount (info st (n ++ [x])) ->
  maxVolumeCount c = 0 ->
  At r n (up_adjust (upd st (n ++ [x]) g) (n ++ [x]) [(to_dt x, c)]).
Proof.
  intros r n st x g c [Hi [Hn Hl]] Hq Hg Hp Cv Cr Ce Cm.
  split; [|split; [rewrite keys_up_adjust, keys_upd; exact Hn|exact Hl]].
  apply balanced_step; auto. intros f e Hcl t.
  rewrite (disk_balance n x _ _ f e t Hcl (s_payload _ (i_struct _ _ Hi) _ Hq) Hp (Hg _)).
  rewrite uget_one by apply (clause_lin f e Hcl).
  destruct (String.eqb (to_dt x) t); [|reflexivity]. destruct Hcl; simpl; assumption.
Qed.

Lemma disk_upd : forall r n st x g, At r n st -> In (n ++ [x]) (keys st) -> keeps_usage g ->
  payload_ok (n ++ [x]) (g (info st (n ++ [x]))) ->
  vcount (g (info st (n ++ [x]))) = vcount (info st (n ++ [x])) ->
  rcount (g (info st (n ++ [x]))) = rcount (info st (n ++ [x])) ->
  scount (g (info st (n ++ [x]))) = scount (info st (n ++ [x])) ->
  At r n (upd st (n ++ [x]) g).
Proof.
  intros r n st x g [Hi [Hn Hl]] Hq Hg Hp Cv Cr Ce.
  split; [|split; [rewrite keys_upd; exact Hn|exact Hl]].
  apply neutral_payload; auto. intros f e Hcl t. apply Z.sub_move_0_r.
  rewrite (disk_balance n x _ _ f e t Hcl (s_payload _ (i_struct _ _ Hi) _ Hq) Hp (Hg _)), Cv, Cr, Ce, !Z.sub_diag.
  destruct (String.eqb (to_dt x) t); [apply (clause_lin f e Hcl)|reflexivity].
Qed.

Lemma set_vols_keeps : forall h, keeps_usage (fun i => set_vols (h (i_vols i)) i).
Proof. intros h i. reflexivity. Qed.
Lemma set_ecs_keeps : forall h, keeps_usage (fun i => set_ecs (h (i_ecs i)) i).
Proof. intros h i. reflexivity. Qed.
Lemma set_vols_comm : forall h d i, (fun i => set_vols (h (i_vols i)) i) (add_usage d i) = add_usage d (set_vols (h (i_vols i)) i).
Proof. reflexivity. Qed.

Lemma payload_put_vol : forall n x v i, v_disk v = x -> payload_ok (n ++ [x]) i ->
  payload_ok (n ++ [x]) (set_vols (put_vol v (i_vols i)) i).
Proof.
  intros n x v i <- [P1 [P2 [P3 P4]]]. repeat split; simpl; auto.
  - apply (mput_nodup v_id). exact P1.
  - intros a Ha. apply (mput_in v_id) in Ha. destruct Ha as [->|Ha]; [exists n; reflexivity|auto].
Qed.

Lemma payload_remove_vol : forall q id i, payload_ok q i -> payload_ok q (set_vols (remove_vol id (i_vols i)) i).
Proof.
  intros q id i [P1 [P2 [P3 P4]]]. repeat split; simpl; auto.
  - apply (mremove_nodup v_id). exact P1.
  - intros x Hx. apply (mremove_in v_id) in Hx. apply P3. tauto.
Qed.

Lemma payload_put_ec : forall n x s i, e_disk s = x -> payload_ok (n ++ [x]) i ->
  payload_ok (n ++ [x]) (set_ecs (put_ec s (i_ecs i)) i).
Proof.
  intros n x s i <- [P1 [P2 [P3 P4]]]. repeat split; simpl; auto.
  - apply (mput_nodup e_id). exact P2.
  - intros a Ha. apply (mput_in e_id) in Ha. destruct Ha as [->|Ha]; [exists n; reflexivity|auto].
Qed.

Lemma payload_remove_ec : forall q id i, payload_ok q i -> payload_ok q (set_ecs (remove_ec id (i_ecs i)) i).
Proof.
  intros q id i [P1 [P2 [P3 P4]]]. repeat split; simpl; auto.
  - apply (mremove_nodup e_id). exact P2.
  - intros x Hx. apply (mremove_in e_id) in Hx. apply P4. tauto.
Qed.

(* the counts at a disk entry after d.volumes[v.Id] = v *)
Lemma counts_put_vol : forall v i,
  let i' := set_vols (put_vol v (i_vols i)) i in
  vcount i' = vcount i + 1 - wopt (fun _ => 1) (find_vol (v_id v) (i_vols i)) /\
  rcount i' = rcount i + (if v_remote v then 1 else 0)
              - wopt (fun o => if v_remote o then 1 else 0) (find_vol (v_id v) (i_vols i)) /\
  scount i' = scount i.
Proof. intros v i. unfold vcount, rcount, scount. simpl. repeat split; apply (sum_mput v_id). Qed.

Lemma add_or_update_volume_at : forall r n st v, At r n st -> At r n (add_or_update_volume st n v).
Proof.
  intros r n st v H. unfold add_or_update_volume. rewrite goc_link.
  apply (At_link r n st (v_disk v)) in H. destruct H as [H Hq].
  set (st1 := link_empty st (n ++ [v_disk v])) in *.
  pose proof (payload_put_vol n _ v _ eq_refl (s_payload _ (i_struct _ _ (proj1 H)) _ Hq)) as Pq.
  destruct (counts_put_vol v (info st1 (n ++ [v_disk v]))) as [Cv [Cr Cs]]. cbv zeta in Cv, Cr, Cs.
  destruct (find_vol (v_id v) (i_vols (info st1 (n ++ [v_disk v])))) as [oldV|]; simpl in Cv, Cr.
  - (* a known id: only a changed remote flag moves a counter *)
    destruct (Bool.eqb (v_remote oldV) (v_remote v)) eqn:Er.
    + apply Bool.eqb_prop in Er. rewrite Er in Cr.
      apply disk_upd; auto using set_vols_keeps; cbv beta; lia.
    + rewrite upd_up_adjust_comm by (intro; reflexivity).
      apply disk_step; auto using set_vols_keeps; cbv beta; simpl; try lia.
      destruct (v_remote oldV), (v_remote v); try discriminate; lia.
  - apply disk_step; auto using set_vols_keeps; cbv beta; simpl; lia.
Qed.

(* deleting a volume that IS registered on that disk with the flags of the message *)
Lemma delete_volume_at : forall r n st v v0, At r n st ->
  find_vol (v_id v) (i_vols (info st (n ++ [v_disk v]))) = Some v0 -> v_remote v0 = v_remote v ->
  At r n (delete_volume st n v).
Proof.
  intros r n st v v0 H F Hr. unfold delete_volume. rewrite goc_link.
  apply (At_link r n st (v_disk v)) in H. destruct H as [H Hq].
  rewrite <- (info_link st (n ++ [v_disk v])) in F.
  set (st1 := link_empty st (n ++ [v_disk v])) in *.
  pose proof (s_payload _ (i_struct _ _ (proj1 H)) _ Hq) as Pq.
  assert (Hsum : forall w, sumZ w (remove_vol (v_id v) (i_vols (info st1 (n ++ [v_disk v])))) = sumZ w (i_vols (info st1 (n ++ [v_disk v]))) - w v0)
    by (intro; apply (sum_mremove v_id); [apply Pq|exact F]).
  apply disk_step; auto using set_vols_keeps, payload_remove_vol; unfold vcount, rcount, scount; simpl;
    rewrite ?Hsum, ?Hr; try lia.
  destruct (v_remote v); lia.
Qed.

Lemma vols_upd : forall s q h k, In q (keys s) ->
  i_vols (info (upd s q (fun i => set_vols (h (i_vols i)) i)) k) =
  if path_eqb q k then h (i_vols (info s k)) else i_vols (info s k).
Proof.
  intros s q h k Hq. destruct (path_eqb_spec q k) as [<-|E].
  - rewrite info_upd, path_eqb_refl by exact Hq. reflexivity.
  - rewrite info_upd_other by congruence. reflexivity.
Qed.

Lemma delete_volume_vols : forall st n v k,
  i_vols (info (delete_volume st n v) k) =
  if path_eqb (n ++ [v_disk v]) k then remove_vol (v_id v) (i_vols (info st k)) else i_vols (info st k).
Proof.
  intros st n v k. unfold delete_volume.
  rewrite goc_link, vols_up_adjust, vols_upd by (apply keys_link; right; reflexivity).
  rewrite !info_link. reflexivity.
Qed.

Lemma payload_info : forall st k, Struct st -> payload_ok k (info st k).
Proof.
  intros st k Hs. destruct (present_spec st k) as [P|P]; [apply Hs; exact P|].
  rewrite (info_absent st k P). apply payload_ok_empty.
Qed.

Lemma in_disks_of : forall st n k i, NoDup (keys st) ->
  (In (k, i) (disks_of st n) <-> exists x, k = n ++ [x] /\ In k (keys st) /\ i = info st k).
Proof.
  intros st n k i Hnd. unfold disks_of. rewrite filter_In. simpl. rewrite is_child_of_spec. split.
  - intros [Hin [x E]]. exists x. split; [exact E|]. split; [apply (in_map fst) in Hin; exact Hin|].
    symmetry. apply info_in; assumption.
  - intros [x [E [Hk Hi]]]. split; [|exists x; exact E]. subst i.
    apply in_map_iff in Hk. destruct Hk as [[k' i'] [Ek Hin]]. simpl in Ek. subst k'.
    rewrite (info_in st k i' Hnd Hin). exact Hin.
Qed.

Lemma in_disk_payload : forall A (pr : ninfo -> list A) (dk : A -> string) st n a, Struct st ->
  pr empty_info = [] -> (forall x i b, payload_ok (n ++ [x]) i -> In b (pr i) -> dk b = x) ->
  (In a (flat_map (fun e => pr (snd e)) (disks_of st n)) <-> In a (pr (info st (n ++ [dk a])))).
Proof.
  intros A pr dk st n a Hs He Hd. rewrite in_flat_map. split.
  - intros [[k i] [Hin Ha]]. apply in_disks_of in Hin; [|apply Hs]. destruct Hin as [x [-> [Hk ->]]].
    simpl in Ha. rewrite (Hd x _ a (payload_info st _ Hs) Ha). exact Ha.
  - intro Ha. exists (n ++ [dk a], info st (n ++ [dk a])). split; [|exact Ha].
    apply in_disks_of; [apply Hs|]. exists (dk a). repeat split.
    destruct (present_spec st (n ++ [dk a])) as [P|P]; [exact P|].
    rewrite (info_absent st _ P), He in Ha. destruct Ha.
Qed.

Lemma in_node_volumes : forall st n v, Struct st ->
  (In v (node_volumes st n) <-> In v (i_vols (info st (n ++ [v_disk v])))).
Proof.
  intros st n v Hs. apply (in_disk_payload _ i_vols v_disk); auto.
  intros x i b P. apply (payload_disk n x i P).
Qed.

Lemma in_node_ecs : forall st n e, Struct st ->
  (In e (node_ecs st n) <-> In e (i_ecs (info st (n ++ [e_disk e])))).
Proof.
  intros st n e Hs. apply (in_disk_payload _ i_ecs e_disk); auto.
  intros x i b P. apply (payload_disk n x i P).
Qed.

Lemma NoDup_flat_map : forall A B (g : A -> list B) l, NoDup l -> (forall a, In a l -> NoDup (g a)) ->
  (forall a a' b, In a l -> In a' l -> In b (g a) -> In b (g a') -> a = a') -> NoDup (flat_map g l).
Proof.
  induction l as [|a l IH]; intros Hnd H1 H2; simpl; [constructor|].
  inversion Hnd; subst. apply NoDup_app_intro.
  - apply H1. left. reflexivity.
  - apply IH; [assumption|intros; apply H1; right; assumption|].
    intros x x' b Hx Hx'. apply H2; right; assumption.
  - intros b Hb Hb'. apply in_flat_map in Hb'. destruct Hb' as [a' [Ha' Hb']].
    rewrite (H2 a a' b) in H3; auto. left. reflexivity. right. exact Ha'.
Qed.

Lemma NoDup_disk_payload : forall A (pr : ninfo -> list A) st n, Struct st ->
  (forall k, NoDup (pr (info st k))) ->
  (forall x x' b, In b (pr (info st (n ++ [x]))) -> In b (pr (info st (n ++ [x']))) -> x = x') ->
  NoDup (flat_map (fun e => pr (snd e)) (disks_of st n)).
Proof.
  intros A pr st n Hs Hnd Hd.
  assert (Hent : forall e, In e (disks_of st n) -> exists x, e = (n ++ [x], info st (n ++ [x]))).
  { intros [k i] He. apply in_disks_of in He; [|apply Hs]. destruct He as [x [-> [_ ->]]]. exists x. reflexivity. }
  apply NoDup_flat_map.
  - apply (NoDup_map_inv fst). unfold disks_of. rewrite (keys_afilter (is_child_of n)). apply NoDup_filter, Hs.
  - intros e He. destruct (Hent e He) as [x ->]. apply Hnd.
  - intros e e' b He He' Hb Hb'. destruct (Hent e He) as [x ->], (Hent e' He') as [x' ->].
    rewrite (Hd x x' b Hb Hb'). reflexivity.
Qed.

Lemma NoDup_node_volumes : forall st n, Struct st -> NoDup (node_volumes st n).
Proof.
  intros st n Hs. apply NoDup_disk_payload; [exact Hs| |].
  - intro k. apply (NoDup_map_inv v_id). apply (payload_info st k Hs).
  - intros x x' b Hb Hb'. rewrite <- (proj1 (payload_disk n x _ (payload_info st _ Hs)) b Hb).
    apply (payload_disk n x' _ (payload_info st _ Hs)). exact Hb'.
Qed.

Lemma delete_loop : forall r n l st, At r n st -> NoDup l ->
  (forall v, In v l -> find_vol (v_id v) (i_vols (info st (n ++ [v_disk v]))) = Some v) ->
  At r n (fold_left (fun s v => delete_volume s n v) l st).
Proof.
  intros r n. induction l as [|v l IH]; intros st H Hnd Hreg; simpl; [exact H|].
  inversion Hnd; subst. pose proof (Hreg v (or_introl eq_refl)) as F.
  apply IH; [apply (delete_volume_at r n st v v); auto|assumption|].
  intros v' Hv'. pose proof (Hreg v' (or_intror Hv')) as F'. rewrite delete_volume_vols.
  destruct (path_eqb_spec (n ++ [v_disk v]) (n ++ [v_disk v'])) as [E|E]; [|exact F'].
  etransitivity; [apply (mfind_mremove_other v_id)|exact F'].
  (* the same id on the same disk: both would be the record registered there *)
  intro Eid. rewrite <- E, Eid, F in F'. inversion F'; subst. contradiction.
Qed.

Lemma fold_left_cond : forall A B (c : B -> bool) (f : A -> B -> A) l a,
  fold_left (fun s v => if c v then s else f s v) l a = fold_left f (filter (fun v => negb (c v)) l) a.
Proof.
  induction l as [|x l IH]; intros a; simpl; auto. destruct (c x); simpl; apply IH.
Qed.

Lemma update_volumes_at : forall r n st actual, At r n st -> At r n (update_volumes st n actual).
Proof.
  intros r n st actual H. unfold update_volumes. rewrite fold_left_cond.
  apply fold_At; [intros; apply add_or_update_volume_at; assumption|].
  pose proof (i_struct _ _ (proj1 H)) as Hs.
  apply delete_loop; [exact H|apply NoDup_filter, NoDup_node_volumes; exact Hs|].
  intros v Hv. apply filter_In in Hv. destruct Hv as [Hv _]. apply (in_node_volumes st n v Hs) in Hv.
  apply (mfind_in v_id); [apply (payload_info st _ Hs)|exact Hv].
Qed.

(* a deleted volume of an incremental heartbeat is skipped when it is not registered, otherwise
   removed with the registered flags *)
Lemma delta_delete_volume_at : forall r n st v, At r n st -> At r n (delta_delete_volume st n v).
Proof.
  intros r n st v H. unfold delta_delete_volume. rewrite goc_link, info_link.
  destruct (find_vol (v_id v) (i_vols (info st (n ++ [v_disk v])))) as [oldV|] eqn:F; [|apply At_link; exact H].
  apply (delete_volume_at r n st
           {| v_id := v_id v; v_disk := v_disk v; v_remote := v_remote oldV; v_ro := v_ro oldV |} oldV H F).
  reflexivity.
Qed.

Lemma delta_update_volumes_at : forall r n st news dels, At r n st ->
  At r n (delta_update_volumes st n news dels).
Proof.
  intros r n st news dels H. unfold delta_update_volumes.
  apply fold_At; [intros; apply add_or_update_volume_at; assumption|].
  apply fold_At; [intros; apply delta_delete_volume_at; assumption|exact H].
Qed.

(* Disk.AddOrUpdateEcShard and DeleteEcShard write a record x for the id of s and propagate the
   difference between its shard count and that of the record it replaces *)
Lemma ec_put_at : forall r n st s x, At r n st -> In (n ++ [e_disk s]) (keys st) ->
  e_id x = e_id s -> e_disk x = e_disk s ->
  At r n (up_adjust (upd st (n ++ [e_disk s]) (fun i => set_ecs (put_ec x (i_ecs i)) i)) (n ++ [e_disk s])
            (ec_delta (e_disk s) (popcount (e_bits x) -
               wopt (fun e => popcount (e_bits e)) (find_ec (e_id s) (i_ecs (info st (n ++ [e_disk s]))))))).
Proof.
  intros r n st s x H Hq Hid Hd.
  pose proof (s_payload _ (i_struct _ _ (proj1 H)) _ Hq) as Pq.
  apply disk_step; auto using set_ecs_keeps; [apply payload_put_ec; assumption|..];
    unfold vcount, rcount, scount; simpl; try lia.
  rewrite <- Hid.
  assert (X : forall w l, sumZ w (put_ec x l) = sumZ w l + w x - wopt w (find_ec (e_id x) l))
    by (intros; apply (sum_mput e_id)).
  rewrite X. lia.
Qed.

Lemma add_or_update_ec_at : forall r n st s, At r n st -> At r n (add_or_update_ec st n s).
Proof.
  intros r n st s H. unfold add_or_update_ec. rewrite goc_link.
  apply (At_link r n st (e_disk s)) in H. destruct H as [H Hq].
  set (st1 := link_empty st (n ++ [e_disk s])) in *.
  pose proof (ec_put_at r n st1 s) as X.
  destruct (find_ec (e_id s) (i_ecs (info st1 (n ++ [e_disk s])))) as [ex|] eqn:F.
  - (* the shard bits are merged into the registered record *)
    destruct (mfind_some e_id _ _ _ F) as [Hex Hid].
    apply (X {| e_id := e_id ex; e_disk := e_disk ex; e_bits := N.lor (e_bits ex) (e_bits s) |} H Hq Hid).
    exact (proj2 (payload_disk n (e_disk s) _ (s_payload _ (i_struct _ _ (proj1 H)) _ Hq)) ex Hex).
  - specialize (X s H Hq eq_refl eq_refl). simpl in X. rewrite Z.sub_0_r in X. exact X.
Qed.

Lemma delete_ec_at : forall r n st s, At r n st -> At r n (delete_ec st n s).
Proof.
  intros r n st s H. unfold delete_ec. rewrite goc_link.
  apply (At_link r n st (e_disk s)) in H. destruct H as [H Hq].
  set (st1 := link_empty st (n ++ [e_disk s])) in *.
  pose proof (ec_put_at r n st1 s) as X.
  destruct (find_ec (e_id s) (i_ecs (info st1 (n ++ [e_disk s])))) as [ex|] eqn:F; [|exact H].
  destruct (mfind_some e_id _ _ _ F) as [Hex Hid].
  set (nb := N.ldiff (e_bits ex) (e_bits s)).
  set (ex' := {| e_id := e_id ex; e_disk := e_disk ex; e_bits := nb |}).
  specialize (X ex' H Hq Hid (proj2 (payload_disk n (e_disk s) _ (s_payload _ (i_struct _ _ (proj1 H)) _ Hq)) ex Hex)).
  simpl in X.
  set (st2 := up_adjust (upd st1 (n ++ [e_disk s]) (fun i => set_ecs (put_ec ex' (i_ecs i)) i)) (n ++ [e_disk s])
                (ec_delta (e_disk s) (popcount nb - popcount (e_bits ex)))) in *.
  destruct (popcount nb =? 0) eqn:Ez; [|exact X].
  (* no shard left: the emptied record is dropped, which changes no count *)
  apply Z.eqb_eq in Ez.
  assert (Hq2 : In (n ++ [e_disk s]) (keys st2)) by (unfold st2; rewrite keys_up_adjust, keys_upd; exact Hq).
  assert (Hecs2 : i_ecs (info st2 (n ++ [e_disk s])) = put_ec ex' (i_ecs (info st1 (n ++ [e_disk s])))).
  { unfold st2. rewrite ecs_up_adjust, info_upd, path_eqb_refl by exact Hq. reflexivity. }
  pose proof (s_payload _ (i_struct _ _ (proj1 X)) _ Hq2) as Pq2.
  apply disk_upd; auto using set_ecs_keeps, payload_remove_ec; try reflexivity.
  unfold scount. simpl. rewrite (sum_mremove e_id _ (e_id s) _ ex'); [simpl; fold nb; lia|apply Pq2|].
  rewrite Hecs2, <- Hid. apply (mfind_mput_same e_id ex').
Qed.

Lemma delta_update_ec_at : forall r n st news dels, At r n st -> At r n (delta_update_ec st n news dels).
Proof.
  intros r n st news dels H. unfold delta_update_ec.
  apply fold_At; [intros; apply delete_ec_at; assumption|].
  apply fold_At; [intros; apply add_or_update_ec_at; assumption|exact H].
Qed.

Lemma prefix3_of_disk : forall (m n : path) x, length m = 3%nat -> length n = 3%nat ->
  is_prefix m (n ++ [x]) = path_eqb m n.
Proof.
  intros m n x Hm Hn. destruct (path_eqb_spec m n) as [->|E]; [apply is_prefix_app|].
  destruct (is_prefix m (n ++ [x])) eqn:P; [|reflexivity].
  apply is_prefix_app_r in P. destruct P as [->|P].
  - rewrite app_length in Hm. simpl in Hm. lia.
  - elim E. apply is_prefix_same_length; congruence.
Qed.

(* st' is st with, possibly, new disks, and with the max counts of the data node n changed to v *)
Definition MaxEff (n : path) (st st' : state) (v : string -> Z) : Prop :=
  Core st' /\ (forall k, In k (keys st) -> In k (keys st')) /\
  (forall p, In p (keys st') -> length p = 3%nat -> In p (keys st)) /\
  (forall m t, In m (keys st) -> length m = 3%nat ->
     maxVolumeCount (U st' m t) = if path_eqb m n then v t else maxVolumeCount (U st m t)).

Lemma MaxEff_refl : forall n st, Core st -> MaxEff n st st (fun t => maxVolumeCount (U st n t)).
Proof.
  intros n st Hc. split; [exact Hc|]. split; [auto|]. split; [auto|].
  intros m t _ _. destruct (path_eqb_spec m n) as [->|E]; reflexivity.
Qed.

Lemma MaxEff_ext : forall n st st' v v', MaxEff n st st' v -> (forall t, v t = v' t) -> MaxEff n st st' v'.
Proof.
  intros n st st' v v' [H1 [H2 [H3 H4]]] E. split; [exact H1|]. split; [exact H2|]. split; [exact H3|].
  intros m t Hm Hl. rewrite <- E. apply H4; assumption.
Qed.

Lemma MaxEff_trans : forall n st st1 st2 v1 v2, MaxEff n st st1 v1 -> MaxEff n st1 st2 v2 ->
  MaxEff n st st2 v2.
Proof.
  intros n st st1 st2 v1 v2 [H1 [H2 [H3 H4]]] [G1 [G2 [G3 G4]]].
  split; [exact G1|]. split; [auto|]. split; [auto|].
  intros m t Hm Hl. rewrite (G4 m t (H2 m Hm) Hl), (H4 m t Hm Hl). destruct (path_eqb m n); reflexivity.
Qed.

(* one max-count delta applied at the disk x of n, created when absent: both AdjustMaxVolumeCounts
   and the disks of a joining data node *)
Lemma max_adjust_step : forall st n x T d, Core st -> In n (keys st) -> length n = 3%nat ->
  MaxEff n st (up_adjust (link_empty st (n ++ [x])) (n ++ [x]) [(T, mkCounts 0 0 0 0 d)])
         (fun t => maxVolumeCount (U st n t) + if String.eqb T t then d else 0).
Proof.
  intros st n x T d Hc Hn Hl.
  pose proof (Core_link st n x Hc Hn) as Hc1.
  set (q := n ++ [x]) in *. set (st1 := link_empty st q) in *. set (dl := [(T, mkCounts 0 0 0 0 d)]).
  assert (Hq : In q (keys st1)) by (apply keys_link; right; reflexivity).
  assert (Hlq : Nat.eqb (length q) 4 = true) by (unfold q; rewrite app_length, Hl; reflexivity).
  split; [|split; [|split]].
  - rewrite <- (upd_id st1 q). apply Core_step; auto.
    + intro i. reflexivity.
    + apply Hc1. exact Hq.
    + (* E_max at the disk reads exactly d, under type T; the other three clauses read nothing of it *)
      intros f e Hcl t. destruct Hcl; unfold E_vol, E_remote, E_ec, E_max, nvol, nremote, nec; simpl;
        rewrite ?Hlq, ?uget_uadd; simpl; destruct (String.eqb T t); simpl; lia.
  - intros k Hk. rewrite keys_up_adjust. apply keys_link. left. exact Hk.
  - intros p Hp Hlp. rewrite keys_up_adjust in Hp. apply keys_link in Hp. destruct Hp as [Hp| ->]; [exact Hp|].
    apply Nat.eqb_eq in Hlq. lia.
  - intros m t Hm Hlm. rewrite U_up_adjust by (apply keys_link; left; exact Hm). unfold st1. rewrite U_link.
    unfold q. rewrite prefix3_of_disk by assumption.
    destruct (path_eqb_spec m n) as [->|E]; [|reflexivity].
    simpl. destruct (String.eqb T t); simpl; lia.
Qed.

Definition disk_type_of (km : string * Z) : string := to_dt (fst km).

Definition adjust_step (n : path) (s : state) (km : string * Z) : state :=
  let '(raw, m) := km in
  if m =? 0 then s
  else
    let dt := to_dt raw in
    let cur := maxVolumeCount (uget (i_usage (info s n)) dt) in
    if cur =? m then s
    else
      let s1 := get_or_create_disk s n dt in
      let delta := uset_max [] dt (m - cur) in
      up_adjust s1 (n ++ [dt]) delta.

(* the max counts of a data node after one reported pair, and after the heartbeat *)
Definition set_max (o : string -> Z) (km : string * Z) (t : string) : Z :=
  if String.eqb (disk_type_of km) t && negb (snd km =? 0) then snd km else o t.
Definition max_spec (l : list (string * Z)) (o : string -> Z) : string -> Z := fold_left set_max l o.

Lemma max_spec_ext : forall l o o' t, (forall t, o t = o' t) -> max_spec l o t = max_spec l o' t.
Proof.
  induction l as [|km l IH]; intros o o' t H; simpl; [apply H|].
  apply IH. intro t'. unfold set_max. rewrite H. reflexivity.
Qed.

Lemma max_spec_perm : forall l l' o t, NoDup (map disk_type_of l) -> Permutation l l' ->
  max_spec l o t = max_spec l' o t.
Proof.
  intros l l' o t Hnd Hp. revert o Hnd. induction Hp; intros o Hnd; simpl.
  - reflexivity.
  - inversion Hnd; subst. apply IHHp. assumption.
  - (* two pairs of different disk types commute *)
    apply max_spec_ext. intro t'. unfold set_max.
    inversion Hnd as [|? ? Hy _]; subst. simpl in Hy.
    destruct (String.eqb_spec (disk_type_of x) t'), (String.eqb_spec (disk_type_of y) t'); simpl; try reflexivity.
    elim Hy. left. congruence.
  - rewrite IHHp1 by assumption. apply IHHp2.
    eapply Permutation_NoDup; [apply Permutation_map; exact Hp1|exact Hnd].
Qed.

Lemma adjust_step_effect : forall n st km, Core st -> In n (keys st) -> length n = 3%nat ->
  MaxEff n st (adjust_step n st km) (set_max (fun t => maxVolumeCount (U st n t)) km).
Proof.
  intros n st [raw m] Hc Hn Hl. unfold adjust_step, set_max, disk_type_of. simpl.
  destruct (Z.eqb_spec m 0) as [E0|E0].
  { apply (MaxEff_ext _ _ _ _ _ (MaxEff_refl n st Hc)). intro t. rewrite andb_false_r. reflexivity. }
  fold (U st n (to_dt raw)). destruct (Z.eqb_spec (maxVolumeCount (U st n (to_dt raw))) m) as [E1|E1].
  { apply (MaxEff_ext _ _ _ _ _ (MaxEff_refl n st Hc)). intro t.
    destruct (String.eqb_spec (to_dt raw) t) as [<-|]; simpl; congruence. }
  rewrite goc_link.
  apply (MaxEff_ext _ _ _ _ _ (max_adjust_step st n (to_dt raw) (to_dt raw) (m - maxVolumeCount (U st n (to_dt raw))) Hc Hn Hl)).
  intro t. destruct (String.eqb_spec (to_dt raw) t) as [<-|]; simpl; lia.
Qed.

(* any number of disk types may change in one heartbeat *)
Lemma adjust_max_effect : forall n l st, Core st -> In n (keys st) -> length n = 3%nat ->
  MaxEff n st (adjust_max st n l) (max_spec l (fun t => maxVolumeCount (U st n t))).
Proof.
  intros n l. change (forall st, Core st -> In n (keys st) -> length n = 3%nat ->
    MaxEff n st (fold_left (adjust_step n) l st) (max_spec l (fun t => maxVolumeCount (U st n t)))).
  induction l as [|km l IH]; intros st Hc Hn Hl; simpl; [apply MaxEff_refl; exact Hc|].
  pose proof (adjust_step_effect n st km Hc Hn Hl) as H1. pose proof H1 as [Hc1 [K1 [_ Hm1]]].
  eapply MaxEff_ext; [exact (MaxEff_trans _ _ _ _ _ _ H1 (IH _ Hc1 (K1 n Hn) Hl))|].
  intro t. apply max_spec_ext. intro t'. rewrite (Hm1 n t' Hn Hl), path_eqb_refl. reflexivity.
Qed.

Lemma rget_rset : forall l t x t', rget (rset l t x) t' = if String.eqb t t' then x else rget l t'.
Proof.
  induction l as [|[k v] l IH]; intros t x t'; simpl; [reflexivity|].
  destruct (String.eqb_spec k t) as [->|E1]; simpl.
  - destruct (String.eqb t t'); reflexivity.
  - rewrite IH. destruct (String.eqb_spec k t') as [->|E2]; [|reflexivity].
    apply String.eqb_neq in E1. rewrite String.eqb_sym, E1. reflexivity.
Qed.

Lemma ref_present_in : forall r p, ref_present r p = true <-> In p (rkeys r).
Proof. exact ahas_in. Qed.

Lemma ref_info_in : forall r p i, NoDup (rkeys r) -> In (p, i) r -> ref_info r p = i.
Proof. exact (aget_in []). Qed.

Lemma rkeys_adjust : forall r n (g : list (string * Z) -> list (string * Z)),
  rkeys (map (fun e => if path_eqb (fst e) n then (fst e, g (snd e)) else e) r) = rkeys r.
Proof. intros. apply (keys_amap (fun k => path_eqb k n)). Qed.

Lemma ref_info_adjust : forall r n (g : list (string * Z) -> list (string * Z)) m, In m (rkeys r) ->
  ref_info (map (fun e => if path_eqb (fst e) n then (fst e, g (snd e)) else e) r) m =
  if path_eqb m n then g (ref_info r m) else ref_info r m.
Proof. intros r n g. exact (aget_amap [] (fun k => path_eqb k n) g r). Qed.

Lemma ref_adjust_spec : forall l acc t,
  rget (fold_left (fun acc (km : string * Z) => if snd km =? 0 then acc else rset acc (to_dt (fst km)) (snd km)) l acc) t
  = max_spec l (rget acc) t.
Proof.
  induction l as [|km l IH]; intros acc t; simpl; [reflexivity|].
  rewrite IH. apply max_spec_ext. intro t'. unfold set_max, disk_type_of.
  destruct (snd km =? 0); [rewrite andb_false_r; reflexivity|]. rewrite rget_rset, andb_true_r. reflexivity.
Qed.

Lemma adjust_max_inv : forall st r n maxs order, Inv st r -> In n (keys st) -> length n = 3%nat ->
  wf_op (AdjustMax n maxs) = true ->
  Inv (adjust_max st n (permute order maxs)) (ref_step r (AdjustMax n maxs)).
Proof.
  intros st r n maxs order Hi Hn Hl Hwf. apply Inv_Core in Hi. destruct Hi as [Hc [R1 R2 R3]].
  apply (nodupb_sound _ String.eqb String.eqb_eq) in Hwf.
  destruct (adjust_max_effect n (permute order maxs) st Hc Hn Hl) as [Hc' [K1 [K2 Hm]]].
  apply Inv_Core. split; [exact Hc'|]. cbn [ref_step]. constructor.
  - rewrite rkeys_adjust. exact R1.
  - intro p. rewrite rkeys_adjust, R2. split; intros [H1 H2]; split; auto.
  - intros m Hm' t. rewrite rkeys_adjust in Hm'. destruct (proj1 (R2 m) Hm') as [Hmk Hml].
    rewrite (Hm m t Hmk Hml), ref_info_adjust by exact Hm'.
    destruct (path_eqb_spec m n) as [->|E]; [|apply R3; exact Hm'].
    rewrite ref_adjust_spec, (max_spec_perm maxs (permute order maxs)) by (auto using Permutation_sym, permute_perm).
    apply max_spec_ext. intro t'. apply R3. exact Hm'.
Qed.

Definition join_step (n : path) (s : state) (km : string * Z) : state :=
  let '(raw, m) := km in
  let q := n ++ [raw] in
  if present s q then s
  else
    let u := [(to_dt raw, mkCounts 0 0 0 0 m)] in
    up_adjust (s ++ [(q, {| i_usage := u; i_vols := []; i_ecs := [] |})]) n u.

Definition ref_join_step (acc : list (string * Z)) (km : string * Z) : list (string * Z) :=
  rset acc (to_dt (fst km)) (rget acc (to_dt (fst km)) + snd km).

(* NewDisk(raw) with its max count, linked under n: the same table as an empty disk that then
   receives its max count as a delta *)
Lemma join_step_eq : forall n s raw m, ~ In (n ++ [raw]) (keys s) ->
  join_step n s (raw, m) =
  up_adjust (link_empty s (n ++ [raw])) (n ++ [raw]) [(to_dt raw, mkCounts 0 0 0 0 m)].
Proof.
  intros n s raw m Hq. unfold join_step, link_empty.
  destruct (present_spec s (n ++ [raw])) as [P|_]; [contradiction|].
  unfold up_adjust. rewrite !map_app. f_equal.
  - apply map_ext_in. intros [k i] Hin. simpl.
    assert (E : is_prefix k n = is_prefix k (n ++ [raw])); [|rewrite E; reflexivity].
    destruct (is_prefix k (n ++ [raw])) eqn:P.
    + apply is_prefix_app_r in P. destruct P as [->|P]; [|exact P].
      elim Hq. apply (in_map fst) in Hin. exact Hin.
    + destruct (is_prefix k n) eqn:P'; [|reflexivity].
      rewrite (is_prefix_trans k n _ P' (is_prefix_app n [raw])) in P. discriminate.
  - simpl. rewrite is_prefix_refl.
    destruct (is_prefix (n ++ [raw]) n) eqn:P; [apply is_prefix_length in P; rewrite app_length in P; simpl in P; lia|].
    unfold add_usage, uadd. simpl. rewrite String.eqb_refl. reflexivity.
Qed.

Lemma join_fold : forall n rest s acc, Core s -> In n (keys s) -> length n = 3%nat -> NoDup (map fst rest) ->
  (forall km, In km rest -> ~ In (n ++ [fst km]) (keys s)) ->
  (forall t, maxVolumeCount (U s n t) = rget acc t) ->
  MaxEff n s (fold_left (join_step n) rest s) (rget (fold_left ref_join_step rest acc)).
Proof.
  intros n rest. induction rest as [|[raw m] rest IH]; intros s acc Hc Hn Hl Hnd Hq Hm; cbn [fold_left].
  - apply (MaxEff_ext n s s _ _ (MaxEff_refl n s Hc) Hm).
  - inversion Hnd as [|? ? Hraw Hnd']; subst.
    pose proof (max_adjust_step s n raw (to_dt raw) m Hc Hn Hl) as H1.
    rewrite <- join_step_eq in H1 by (apply (Hq (raw, m)); left; reflexivity).
    eapply MaxEff_trans; [exact H1|]. destruct H1 as [Hc1 [K1 [_ Hm1]]].
    apply IH; auto.
    + intros km Hkm Hin. rewrite join_step_eq in Hin by (apply (Hq (raw, m)); left; reflexivity).
      rewrite keys_up_adjust in Hin. apply keys_link in Hin. destruct Hin as [Hin|E].
      * apply (Hq km); [right; exact Hkm|exact Hin].
      * apply app_inj_tail in E. apply Hraw. rewrite <- (proj2 E). apply in_map. exact Hkm.
    + intro t. rewrite (Hm1 n t Hn Hl), path_eqb_refl, Hm. unfold ref_join_step. simpl.
      rewrite rget_rset. destruct (String.eqb_spec (to_dt raw) t) as [<-|]; lia.
Qed.

Lemma ref_info_app : forall r n x m,
  ref_info (r ++ [(n, x)]) m = if ref_present r m then ref_info r m else if path_eqb n m then x else [].
Proof. intros. exact (aget_app [] r [(n, x)] m). Qed.

Lemma join_inv : forall st r dc rack node maxs, Inv st r -> wf_op (Join dc rack node maxs) = true ->
  Inv (join st dc rack node maxs) (ref_step r (Join dc rack node maxs)).
Proof.
  intros st r dc rack node maxs Hi Hwf. simpl in Hwf. apply (nodupb_sound _ String.eqb String.eqb_eq) in Hwf.
  unfold join.
  assert (Hi1 : Inv (link_empty st [dc]) r) by (apply (Inv_link st r [] dc); [exact Hi|apply Hi|simpl; lia]).
  assert (Hd1 : In [dc] (keys (link_empty st [dc]))) by (apply keys_link; right; reflexivity).
  set (st1 := link_empty st [dc]) in *.
  assert (Hi2 : Inv (link_empty st1 [dc; rack]) r) by (apply (Inv_link st1 r [dc] rack); [exact Hi1|exact Hd1|simpl; lia]).
  assert (Hd2 : In [dc; rack] (keys (link_empty st1 [dc; rack]))) by (apply keys_link; right; reflexivity).
  set (st2 := link_empty st1 [dc; rack]) in *.
  set (n := [dc; rack; node]). cbn [ref_step]. fold n.
  apply Inv_Core in Hi2. destruct Hi2 as [Hc2 Hr2]. pose proof Hr2 as [R1 R2 R3].
  destruct (present st2 n) eqn:P.
  - apply present_in in P. rewrite (proj2 (ref_present_in r n)) by (apply R2; auto).
    apply Inv_Core. split; assumption.
  - assert (Pn : ~ In n (keys st2)) by (rewrite <- present_in, P; discriminate).
    assert (Hnr : ~ In n (rkeys r)) by (intro E; apply R2 in E; tauto).
    assert (Hr : ref_present r n = false) by (destruct (ref_present r n) eqn:E; [apply ref_present_in in E; contradiction|reflexivity]).
    rewrite Hr.
    assert (E3 : st2 ++ [(n, empty_info)] = link_empty st2 ([dc; rack] ++ [node])) by (unfold link_empty; simpl; fold n; rewrite P; reflexivity).
    rewrite E3. set (st3 := link_empty st2 ([dc; rack] ++ [node])).
    pose proof (Core_link st2 [dc; rack] node Hc2 Hd2) as Hc3. fold st3 in Hc3.
    assert (K3 : forall k, In k (keys st3) <-> In k (keys st2) \/ k = n) by (intro; apply keys_link).
    assert (Hn3 : In n (keys st3)) by (apply K3; right; reflexivity).
    destruct (join_fold n maxs st3 [] Hc3 Hn3 eq_refl Hwf) as [Hc4 [K4 [K4' Hm4]]].
    { intros km _ Hin. apply K3 in Hin. destruct Hin as [Hin|Hin].
      - apply Pn. eapply (s_pc _ (proj1 Hc2)); [exact Hin|apply is_prefix_app].
      - apply (f_equal (@length string)) in Hin. rewrite app_length in Hin. simpl in Hin. lia. }
    { intro t. unfold U, st3. rewrite info_link, (info_absent st2 n Pn). reflexivity. }
    change (Inv (fold_left (join_step n) maxs st3) (r ++ [(n, fold_left ref_join_step maxs [])])).
    apply Inv_Core. split; [exact Hc4|]. constructor.
    + unfold rkeys. rewrite map_app. apply NoDup_app_intro; [exact R1|repeat constructor; intros []|].
      intros x Hx [E|[]]. simpl in E. subst. contradiction.
    + intro p. unfold rkeys. rewrite map_app, in_app_iff. fold (rkeys r). rewrite R2. simpl. split.
      * intros [[H1 H2]|[<-|[]]]; split; auto. apply K4, K3. left. exact H1.
      * intros [H1 H2]. apply K4', K3 in H1; [|exact H2]. destruct H1 as [H1| ->]; auto.
    + intros m Hm t. unfold rkeys in Hm. rewrite map_app, in_app_iff in Hm. simpl in Hm.
      rewrite ref_info_app.
      destruct Hm as [Hm|[<-|[]]].
      * rewrite (proj2 (ref_present_in r m) Hm). destruct (proj1 (R2 m) Hm) as [Hmk Hml].
        rewrite (Hm4 m t) by (auto; apply K3; left; exact Hmk).
        rewrite path_eqb_neq by (intros ->; contradiction).
        unfold st3. rewrite U_link. apply R3. exact Hm.
      * rewrite Hr, path_eqb_refl, (Hm4 n t Hn3 eq_refl), path_eqb_refl. reflexivity.
Qed.

(* UnRegisterDataNode: the counters of n are taken off n and its ancestors (the second delta,
   taken at the parent from what is then left at n, is zero in every field), then
   everything beneath n goes *)
Lemma unregister_core : forall st n, Core st -> In n (keys st) -> length n = 3%nat ->
  Core (unregister st n) /\
  (forall k, In k (keys (unregister st n)) <-> In k (keys st) /\ is_prefix n k = false) /\
  (forall m t, In m (keys st) -> length m = 3%nat -> m <> n -> U (unregister st n) m t = U st m t).
Proof.
  intros st n [Hs Hc] Hn Hl. unfold unregister.
  set (d1 := uneg (i_usage (info st n))). set (st1 := up_adjust st n d1).
  set (d2 := uneg (i_usage (info st1 n))). set (st2 := up_adjust st1 (removelast n) d2).
  set (g := fun k : path => negb (is_prefix n k)).
  change (filter (fun e => negb (is_prefix n (fst e))) st2) with (filter (fun e => g (fst e)) st2).
  assert (Hk2 : keys st2 = keys st) by (unfold st2, st1; rewrite !keys_up_adjust; reflexivity).
  assert (Hlr : length (removelast n) = 2%nat) by (destruct n as [|a [|b [|c [|]]]]; try discriminate; reflexivity).
  assert (HU : forall p t, In p (keys st) -> U st2 p t =
            (if is_prefix p (removelast n) then fun c => cadd c (uget d2 t) else fun c => c)
              ((if is_prefix p n then fun c => cadd c (uget d1 t) else fun c => c) (U st p t))).
  { intros p t Hp. unfold st2. rewrite U_up_adjust by (unfold st1; rewrite keys_up_adjust; exact Hp).
    unfold st1. rewrite U_up_adjust by exact Hp. destruct (is_prefix p (removelast n)), (is_prefix p n); reflexivity. }
  assert (Hpay : forall k, i_vols (info st2 k) = i_vols (info st k) /\ i_ecs (info st2 k) = i_ecs (info st k)).
  { intro k. unfold st2, st1. rewrite !vols_up_adjust, !ecs_up_adjust. auto. }
  assert (Hkeys : forall k, In k (keys (filter (fun e => g (fst e)) st2)) <-> In k (keys st) /\ is_prefix n k = false).
  { intro k. rewrite keys_filter, Hk2, filter_In. unfold g. rewrite negb_true_iff. reflexivity. }
  split; [split|split; [exact Hkeys|]].
  - constructor.
    + rewrite keys_filter, Hk2. apply NoDup_filter. apply Hs.
    + apply Hkeys. split; [apply Hs|]. destruct n; [discriminate|reflexivity].
    + intros k p Hk Hpk. apply Hkeys in Hk. apply Hkeys. destruct Hk as [Hk Hnk].
      split; [eapply (s_pc _ Hs); eauto|].
      destruct (is_prefix n p) eqn:E; auto. rewrite (is_prefix_trans n p k E Hpk) in Hnk. discriminate.
    + intros k Hk. apply Hkeys in Hk. destruct Hk as [Hk Hnk]. rewrite info_filter. unfold g. rewrite Hnk.
      destruct (Hpay k) as [E1 E2], (s_payload _ Hs k Hk) as [P1 [P2 [P3 P4]]].
      unfold payload_ok. simpl. rewrite E1, E2. auto.
  - intros f e Hcl p Hp t. destruct (clause_lin f e Hcl) as [_ [Fa Fn]].
    apply Hkeys in Hp. destruct Hp as [Hp Hpn].
    assert (HUf : f (U st2 p t) = f (U st p t) - (if is_prefix p n then f (U st n t) else 0)).
    { assert (H1 : f (uget d1 t) = - f (U st n t)) by (unfold d1; rewrite uget_uneg; apply Fn).
      assert (H2 : f (uget d2 t) = 0).
      { unfold d2. rewrite uget_uneg, Fn. fold (U st1 n t). unfold st1. rewrite U_up_adjust by exact Hn.
        rewrite is_prefix_refl, Fa. lia. }
      rewrite (HU p t Hp). destruct (is_prefix p (removelast n)), (is_prefix p n); rewrite ?Fa; lia. }
    (* what e reads is untouched: the deltas reach no disk *)
    assert (HE : forall k, In k (keys st) -> e k (info st2 k) t = e k (info st k) t).
    { intros k Hk. unfold st2. rewrite info_up_adjust by (unfold st1; rewrite keys_up_adjust; exact Hk).
      unfold st1. rewrite info_up_adjust by exact Hk.
      destruct (is_prefix k (removelast n)) eqn:E1, (is_prefix k n) eqn:E2;
        rewrite ?(clause_add_usage f e Hcl); try reflexivity; intro L;
        try apply is_prefix_length in E1; try apply is_prefix_length in E2; lia. }
    unfold U at 1. rewrite info_filter. unfold g at 1. rewrite Hpn. cbn [negb]. fold (U st2 p t).
    rewrite HUf, (Hc f e Hcl p Hp t). unfold S. rewrite keys_filter, sumZ_filter, Hk2.
    assert (Hsec : sumZ (fun k => if is_prefix n k && is_prefix p k then e k (info st k) t else 0) (keys st) =
                   if is_prefix p n then f (U st n t) else 0).
    { destruct (is_prefix p n) eqn:Epn.
      - rewrite (Hc f e Hcl n Hn t). unfold S. apply sumZ_ext_in. intros k Hk.
        destruct (is_prefix n k) eqn:E; simpl; auto. rewrite (is_prefix_trans p n k Epn E). reflexivity.
      - apply sumZ_zero. intros k Hk.
        destruct (is_prefix n k) eqn:E1; simpl; auto. destruct (is_prefix p k) eqn:E2; auto.
        destruct (is_prefix_comparable n p k E1 E2); congruence. }
    rewrite <- Hsec. apply Z.sub_move_r. rewrite <- sumZ_plus. apply sumZ_ext_in. intros k Hk.
    rewrite info_filter. unfold g. destruct (is_prefix n k); simpl; rewrite ?(HE k Hk); destruct (is_prefix p k); lia.
  - intros m t Hm Hlm Hne.
    assert (E0 : is_prefix n m = false) by (destruct (is_prefix n m) eqn:E; [elim Hne; symmetry; apply is_prefix_same_length; congruence|reflexivity]).
    assert (E1 : is_prefix m n = false) by (destruct (is_prefix m n) eqn:E; [elim Hne; apply is_prefix_same_length; congruence|reflexivity]).
    assert (E2 : is_prefix m (removelast n) = false) by (destruct (is_prefix m (removelast n)) eqn:E; [apply is_prefix_length in E; lia|reflexivity]).
    unfold U at 1. rewrite info_filter. unfold g. rewrite E0. cbn [negb]. fold (U st2 m t).
    rewrite (HU m t Hm), E1, E2. reflexivity.
Qed.

Lemma ref_info_remove : forall r n m,
  ref_info (filter (fun e => negb (path_eqb (fst e) n)) r) m = if negb (path_eqb m n) then ref_info r m else [].
Proof. intros r n. exact (aget_afilter [] (fun k => negb (path_eqb k n)) r). Qed.

Lemma unregister_inv : forall st r n, Inv st r -> In n (keys st) -> length n = 3%nat ->
  Inv (unregister st n) (ref_step r (Unregister n)).
Proof.
  intros st r n Hi Hn Hl. apply Inv_Core in Hi. destruct Hi as [Hc [R1 R2 R3]].
  destruct (unregister_core st n Hc Hn Hl) as [Hc' [Hk HU]].
  apply Inv_Core. split; [exact Hc'|]. cbn [ref_step].
  assert (Hrk : forall p, In p (rkeys (filter (fun e => negb (path_eqb (fst e) n)) r)) <-> In p (rkeys r) /\ p <> n).
  { intro p. unfold rkeys. rewrite (keys_afilter (fun k => negb (path_eqb k n))), filter_In, negb_true_iff.
    destruct (path_eqb_spec p n); intuition congruence. }
  constructor.
  - unfold rkeys. apply NoDup_map_filter. exact R1.
  - intro p. rewrite Hrk, Hk, R2. split.
    + intros [[H1 H2] H3]. repeat split; auto.
      destruct (is_prefix n p) eqn:E; auto. elim H3. symmetry. apply is_prefix_same_length; congruence.
    + intros [[H1 H2] H3]. repeat split; auto. intros ->. rewrite is_prefix_refl in H2. discriminate.
  - intros m Hm t. apply Hrk in Hm. destruct Hm as [Hm Hmn]. destruct (proj1 (R2 m) Hm) as [Hmk Hml].
    rewrite (HU m t Hmk Hml Hmn), (R3 m Hm t).
    rewrite ref_info_remove, (path_eqb_neq m n Hmn). reflexivity.
Qed.
Lemma popcount_pos_pos : forall p, 0 < popcount_pos p.
Proof. induction p; cbn [popcount_pos]; lia. Qed.
Lemma popcount_nonneg : forall b, 0 <= popcount b.
Proof. intros [|p]; cbn [popcount]; [lia|]. pose proof (popcount_pos_pos p). lia. Qed.
Lemma popcount_Ndouble : forall n, popcount (Pos.Ndouble n) = popcount n.
Proof. intros [|p]; reflexivity. Qed.
Lemma popcount_Nsucc_double : forall n, popcount (Pos.Nsucc_double n) = 1 + popcount n.
Proof. intros [|p]; reflexivity. Qed.

Lemma popcount_pos_split : forall p q,
  popcount (Pos.ldiff p q) + popcount (Pos.land p q) = popcount_pos p.
Proof.
  induction p as [p IH|p IH|]; intros [q|q|]; cbn [Pos.ldiff Pos.land];
    rewrite ?popcount_Ndouble, ?popcount_Nsucc_double; cbn [popcount popcount_pos];
    try (specialize (IH q)); try lia.
Qed.

Lemma popcount_split : forall a b, popcount (N.ldiff a b) + popcount (N.land a b) = popcount a.
Proof.
  intros [|p] [|q]; simpl; try lia. apply popcount_pos_split.
Qed.

Lemma popcount_exchange : forall a e,
  popcount (N.ldiff a e) - popcount (N.ldiff e a) + popcount e = popcount a.
Proof.
  intros a e. pose proof (popcount_split a e). pose proof (popcount_split e a).
  rewrite (N.land_comm e a) in H0. lia.
Qed.

Lemma popcount_ldiff_diag : forall b, popcount (N.ldiff b b) = 0.
Proof. intro b. rewrite N.ldiff_diag. reflexivity. Qed.


Lemma Cons_same : forall f e st st', clause f e -> Struct st -> Struct st' -> Cons f e st ->
  incl (keys st) (keys st') ->
  (forall k t, In k (keys st') -> e k (info st' k) t = e k (info st k) t) ->
  (forall p t, In p (keys st') -> f (U st' p t) = f (U st p t)) -> Cons f e st'.
Proof.
  intros f e st st' Hcl Hs Hs' Hc Hi HE HU.
  apply (Cons_at f e st st' [] (fun _ => 0)); auto; try apply Hs'.
  - intros k t Hk. rewrite (HE k t Hk). destruct (path_eqb [] k); lia.
  - intros p t Hp. rewrite (HU p t Hp). destruct (is_prefix p []); lia.
Qed.

Definition at_disk (n : path) (k : path) (a : ecinfo) : bool := path_eqb (n ++ [e_disk a]) k.

(* The full EC heartbeat moves only EC shard counters (by D) and EC registrations, and creates
   only disks of the data node n: the states so related, and the primitives it is made of. *)
Section FullEc.
  Variable n : path.

  Record EcRel (st0 s : state) (D : path -> string -> Z) : Prop := {
    er_struct : Struct s;
    er_keys : forall k, In k (keys st0) -> In k (keys s);
    er_new : forall k, In k (keys s) -> ~ In k (keys st0) -> exists d, k = n ++ [d];
    er_vols : forall k, i_vols (info s k) = i_vols (info st0 k);
    er_other : forall k t, volumeCount (U s k t) = volumeCount (U st0 k t) /\
                           remoteVolumeCount (U s k t) = remoteVolumeCount (U st0 k t) /\
                           maxVolumeCount (U s k t) = maxVolumeCount (U st0 k t);
    er_ec : forall k t, ecShardCount (U s k t) = ecShardCount (U st0 k t) + D k t }.

  Lemma EcRel_ext : forall st s D D', EcRel st s D -> (forall k t, D k t = D' k t) -> EcRel st s D'.
  Proof. intros st s D D' [H1 H2 H3 H4 H5 H6] E. constructor; auto. intros k t. rewrite <- E. apply H6. Qed.

  Lemma EcRel_trans : forall st s s' D D', EcRel st s D -> EcRel s s' D' ->
    EcRel st s' (fun k t => D k t + D' k t).
  Proof.
    intros st s s' D D' [H1 H2 H3 H4 H5 H6] [G1 G2 G3 G4 G5 G6]. constructor; auto.
    - intros k Hk Hk0. destruct (present_spec s k) as [P|P]; [apply H3; auto|apply G3; auto].
    - intro k. rewrite G4. apply H4.
    - intros k t. destruct (H5 k t) as [? [? ?]], (G5 k t) as [? [? ?]]. repeat split; congruence.
    - intros k t. rewrite G6, H6. lia.
  Qed.

  Lemma EcRel_same : forall s s', Struct s' -> keys s' = keys s ->
    (forall k, i_vols (info s' k) = i_vols (info s k)) -> (forall k t, U s' k t = U s k t) ->
    EcRel s s' (fun _ _ => 0).
  Proof.
    intros s s' Hs' Hk Hv HU. constructor; auto.
    - intros k Hk'. rewrite Hk. exact Hk'.
    - intros k H1 H2. rewrite Hk in H1. contradiction.
    - intros k t. rewrite HU. auto.
    - intros k t. rewrite HU. lia.
  Qed.

  Lemma EcRel_link : forall s d, Struct s -> In n (keys s) -> EcRel s (link_empty s (n ++ [d])) (fun _ _ => 0).
  Proof.
    intros s d Hs Hn. constructor.
    - apply Struct_link; auto.
    - intros k Hk. apply keys_link. left. exact Hk.
    - intros k Hk Hk0. apply keys_link in Hk. destruct Hk; [contradiction|exists d; assumption].
    - intro k. rewrite info_link. reflexivity.
    - intros k t. rewrite U_link. auto.
    - intros k t. rewrite U_link. lia.
  Qed.

  Lemma EcRel_up_adjust : forall s d c, Struct s -> In (n ++ [d]) (keys s) ->
    EcRel s (up_adjust s (n ++ [d]) (ec_delta d c))
          (fun k t => if is_prefix k (n ++ [d]) && String.eqb (to_dt d) t then c else 0).
  Proof.
    intros s d c Hs Hq.
    (* every counter, also of an absent entry: nothing above an absent entry is adjusted *)
    assert (G : forall (f : counts -> Z) k t, (forall a b, f (cadd a b) = f a + f b) -> f zero_counts = 0 ->
                f (U (up_adjust s (n ++ [d]) (ec_delta d c)) k t) =
                f (U s k t) + (if is_prefix k (n ++ [d]) && String.eqb (to_dt d) t then f (mkCounts 0 0 0 c 0) else 0)).
    { intros f k t Hfa Hf0. destruct (present_spec s k) as [Hin|Hin].
      - rewrite U_up_adjust by exact Hin. destruct (is_prefix k (n ++ [d])); cbn [andb]; [|lia].
        rewrite Hfa. unfold ec_delta. rewrite uget_one by assumption. destruct (String.eqb (to_dt d) t); lia.
      - rewrite (no_keys_under_absent s k Hs Hin (n ++ [d]) Hq). cbn [andb]. unfold U.
        rewrite (info_absent _ k) by (rewrite keys_up_adjust; exact Hin). rewrite (info_absent s k Hin). simpl. lia. }
    constructor.
    - apply Struct_up_adjust. exact Hs.
    - intros k Hk. rewrite keys_up_adjust. exact Hk.
    - intros k H1 H2. rewrite keys_up_adjust in H1. contradiction.
    - intro k. apply vols_up_adjust.
    - intros k t. rewrite (G volumeCount k t), (G remoteVolumeCount k t), (G maxVolumeCount k t) by reflexivity. simpl.
      destruct (is_prefix k (n ++ [d]) && String.eqb (to_dt d) t); repeat split; lia.
    - intros k t. rewrite (G ecShardCount k t) by reflexivity. simpl.
      destruct (is_prefix k (n ++ [d]) && String.eqb (to_dt d) t); lia.
  Qed.

  Lemma EcRel_fold : forall A (f : state -> A -> state) (Df : A -> path -> string -> Z),
    (forall s a, Struct s -> In n (keys s) -> EcRel s (f s a) (Df a)) ->
    forall l s, Struct s -> In n (keys s) ->
    EcRel s (fold_left f l s) (fun k t => sumZ (fun a => Df a k t) l).
  Proof.
    intros A f Df Hf. induction l as [|a l IH]; intros s Hs Hn; simpl.
    - apply EcRel_same; auto.
    - pose proof (Hf s a Hs Hn) as H1.
      apply (EcRel_trans _ _ _ _ _ H1 (IH _ (er_struct _ _ _ H1) (er_keys _ _ _ H1 n Hn))).
  Qed.

  Definition ec_adj (s : state) (d : string) (c : Z) : state :=
    up_adjust (get_or_create_disk s n d) (n ++ [d]) (ec_delta d c).
  Definition adj_fold (l : list (string * Z)) (s : state) : state :=
    fold_left (fun s dc => ec_adj s (fst dc) (snd dc)) l s.
  Definition adj_sum (l : list (string * Z)) (k : path) (t : string) : Z :=
    sumZ (fun dc => if is_prefix k (n ++ [fst dc]) && String.eqb (to_dt (fst dc)) t then snd dc else 0) l.

  Lemma EcRel_adj_fold : forall l s, Struct s -> In n (keys s) -> EcRel s (adj_fold l s) (adj_sum l).
  Proof.
    intros l s Hs Hn. apply (EcRel_fold _ (fun s dc => ec_adj s (fst dc) (snd dc))); auto.
    clear. intros s [d c] Hs Hn. unfold ec_adj. rewrite goc_link. simpl.
    apply (EcRel_trans _ _ _ _ _ (EcRel_link s d Hs Hn)). apply EcRel_up_adjust.
    - apply Struct_link; auto.
    - apply keys_link. right. reflexivity.
  Qed.

  Lemma ecs_adj_fold : forall l s k, i_ecs (info (adj_fold l s) k) = i_ecs (info s k).
  Proof.
    induction l as [|[d c] l IH]; intros s k; simpl; [reflexivity|].
    rewrite IH. unfold ec_adj. rewrite ecs_up_adjust, goc_link, info_link. reflexivity.
  Qed.

  (* one registration of doUpdateEcShards *)
  Definition register_ec (s : state) (a : ecinfo) : state :=
    upd (get_or_create_disk s n (e_disk a)) (n ++ [e_disk a]) (fun i => set_ecs (put_ec a (i_ecs i)) i).

  Lemma EcRel_reg : forall s a, Struct s -> In n (keys s) -> EcRel s (register_ec s a) (fun _ _ => 0).
  Proof.
    intros s a Hs Hn. unfold register_ec. rewrite goc_link.
    pose proof (Struct_link s n (e_disk a) Hs Hn) as Hs1.
    assert (Hq : In (n ++ [e_disk a]) (keys (link_empty s (n ++ [e_disk a])))) by (apply keys_link; right; reflexivity).
    apply (EcRel_trans _ _ _ _ _ (EcRel_link s (e_disk a) Hs Hn)). apply EcRel_same.
    - apply Struct_upd; auto. apply payload_put_ec; [reflexivity|apply Hs1; exact Hq].
    - apply keys_upd.
    - intro k. destruct (path_eqb_spec k (n ++ [e_disk a])) as [->|E].
      + rewrite info_upd, path_eqb_refl by exact Hq. reflexivity.
      + rewrite info_upd_other by exact E. reflexivity.
    - intros k t. apply U_upd. intro i. reflexivity.
  Qed.

  Lemma ecs_reg : forall s a k, i_ecs (info (register_ec s a) k) =
    if at_disk n k a then put_ec a (i_ecs (info s k)) else i_ecs (info s k).
  Proof.
    intros s a k. unfold register_ec, at_disk. rewrite goc_link.
    destruct (path_eqb_spec (n ++ [e_disk a]) k) as [<-|E].
    - rewrite info_upd, path_eqb_refl, info_link by (apply keys_link; right; reflexivity). reflexivity.
    - rewrite info_upd_other, info_link by congruence. reflexivity.
  Qed.

  Lemma ecs_reg_fold : forall l s k, i_ecs (info (fold_left register_ec l s) k) =
    fold_left (fun acc a => put_ec a acc) (filter (at_disk n k) l) (i_ecs (info s k)).
  Proof.
    induction l as [|a l IH]; intros s k; simpl; [reflexivity|].
    rewrite IH, ecs_reg. destruct (at_disk n k a); reflexivity.
  Qed.

  Lemma keys_reg_fold : forall l s k, In k (keys s) \/ (exists a, In a l /\ k = n ++ [e_disk a]) ->
    In k (keys (fold_left register_ec l s)).
  Proof.
    induction l as [|a l IH]; intros s k H; simpl.
    - destruct H as [H|[a [[] _]]]. exact H.
    - apply IH. unfold register_ec. rewrite keys_upd, goc_link, keys_link.
      destruct H as [H|[b [[<-|Hb] E]]]; [left; left; exact H|left; right; exact E|right; exists b; auto].
  Qed.

  (* what EC-only changes leave of the invariant: everything but the EC clause *)
  Lemma EcRel_inv : forall st r s D, length n = 3%nat -> Inv st r -> EcRel st s D ->
    Cons ecShardCount E_ec s -> Inv s r.
  Proof.
    intros st r s D Hln Hi [Hs' Hk Hnew Hv Ho Hec] Ce'. pose proof (i_struct _ _ Hi) as Hs.
    destruct Hi as [_ Cv Cr Ce Cm Hr]. constructor; auto.
    - apply (Cons_same _ _ st s cl_vol); auto; intros k t _; [|apply Ho].
      unfold E_vol, nvol. rewrite Hv. reflexivity.
    - apply (Cons_same _ _ st s cl_remote); auto; intros k t _; [|apply Ho].
      unfold E_remote, nremote. rewrite Hv. reflexivity.
    - apply (Cons_same _ _ st s cl_max); auto; intros k t _; [|apply Ho].
      unfold E_max. destruct (Nat.eqb (length k) 4); [apply Ho|reflexivity].
    - apply (RefInv_same st); [exact Hr| |].
      + intros p Hp. split; [|apply Hk]. intro H1.
        destruct (present_spec st p) as [P|P]; [exact P|].
        destruct (Hnew p H1 P) as [d E]. subst p. rewrite app_length in Hp. simpl in Hp. lia.
      + intros m t _ _. apply Ho.
  Qed.
End FullEc.

Lemma put_fold : forall l acc, NoDup (map e_id (acc ++ l)) ->
  fold_left (fun acc a => put_ec a acc) l acc = acc ++ l.
Proof.
  induction l as [|a l IH]; intros acc H; simpl; [rewrite app_nil_r; reflexivity|].
  replace (put_ec a acc) with (acc ++ [a]).
  - rewrite IH; rewrite <- app_assoc; [reflexivity|exact H].
  - symmetry. apply (mput_absent e_id). rewrite map_app in H. apply NoDup_remove_2 in H.
    intro X. apply H. apply in_or_app. left. exact X.
Qed.

(* doUpdateEcShards: the registrations of the disks of n become the reported ones *)
Lemma do_update_effect : forall n s actual, Struct s -> In n (keys s) -> NoDup (map e_id actual) ->
  let s' := do_update_ec_shards s n actual in
  EcRel n s s' (fun _ _ => 0) /\
  (forall k, i_ecs (info s' k) = if is_child_of n k then filter (at_disk n k) actual else i_ecs (info s k)) /\
  (forall a, In a actual -> In (n ++ [e_disk a]) (keys s')).
Proof.
  intros n s actual Hs Hn Hnd. unfold do_update_ec_shards.
  set (s1 := map (fun e => if is_child_of n (fst e) then (fst e, set_ecs [] (snd e)) else e) s).
  change (fold_left _ actual s1) with (fold_left (register_ec n) actual s1).
  assert (K1 : keys s1 = keys s) by apply (keys_amap (is_child_of n)).
  assert (I1 : forall k, info s1 k = if is_child_of n k then set_ecs [] (info s k) else info s k).
  { intro k. destruct (present_spec s k) as [P|P]; [apply (aget_amap empty_info (is_child_of n)); exact P|].
    rewrite !info_absent; [destruct (is_child_of n k); reflexivity|exact P|rewrite K1; exact P]. }
  assert (R1 : EcRel n s s1 (fun _ _ => 0)).
  { apply EcRel_same; [|exact K1| |].
    - apply (Struct_same s); [exact Hs|exact K1|]. intros k Hk. rewrite I1.
      destruct (s_payload _ Hs k Hk) as [P1 [P2 [P3 P4]]].
      destruct (is_child_of n k); repeat split; simpl; auto; [constructor|intros ? []].
    - intro k. rewrite I1. destruct (is_child_of n k); reflexivity.
    - intros k t. unfold U. rewrite I1. destruct (is_child_of n k); reflexivity. }
  split; [|split].
  - assert (R2 : EcRel n s1 (fold_left (register_ec n) actual s1) (fun k t => sumZ (fun _ => 0) actual)).
    { apply (EcRel_fold n _ (register_ec n) (fun _ _ _ => 0)); [intros; apply EcRel_reg; assumption|apply R1|].
      rewrite K1. exact Hn. }
    apply (EcRel_ext n _ _ _ _ (EcRel_trans n _ _ _ _ _ R1 R2)). intros k t. apply sumZ_zero. reflexivity.
  - intro k. rewrite ecs_reg_fold, I1. destruct (is_child_of n k) eqn:C.
    + apply (put_fold _ []). apply NoDup_map_filter. exact Hnd.
    + rewrite filter_all_false; [reflexivity|]. intros a _. unfold at_disk.
      destruct (path_eqb_spec (n ++ [e_disk a]) k) as [<-|]; [|reflexivity].
      rewrite (proj2 (is_child_of_spec n _)) in C by (eexists; reflexivity). discriminate.
  - intros a Ha. apply keys_reg_fold. right. exists a. auto.
Qed.
(* the two loops of UpdateEcShards as lists of adjustments *)
Definition added_by (actual : list ecinfo) (e : ecinfo) : Z :=
  match find_ec_last (e_id e) actual with
  | Some a => popcount (N.ldiff (e_bits a) (e_bits e)) | None => 0 end.
Definition dropped_by (actual : list ecinfo) (e : ecinfo) : Z :=
  match find_ec_last (e_id e) actual with
  | Some a => popcount (N.ldiff (e_bits e) (e_bits a)) | None => popcount (e_bits e) end.
(* what one registered EC volume should contribute on its own *)
Definition own_delta (actual : list ecinfo) (e : ecinfo) : Z := added_by actual e - dropped_by actual e.
Definition changes (actual : list ecinfo) (e : ecinfo) : bool :=
  match find_ec_last (e_id e) actual with
  | None => true | Some _ => (0 <? added_by actual e) || (0 <? dropped_by actual e) end.

Definition loop1_step (n : path) (actual : list ecinfo) (acc : state * bool) (e : ecinfo)
  : state * bool :=
  let '(s, changed) := acc in
  let s1 := get_or_create_disk s n (e_disk e) in
  let newCount := 0 in
  let delCount := 0 in
  let '(newCount', delCount', changed') :=
    match find_ec_last (e_id e) actual with
    | None => (newCount, delCount + popcount (e_bits e), true)
    | Some a =>
        let an := popcount (N.ldiff (e_bits a) (e_bits e)) in
        let dn := popcount (N.ldiff (e_bits e) (e_bits a)) in
        ((if 0 <? an then newCount + an else newCount),
         (if 0 <? dn then delCount + dn else delCount),
         changed || (0 <? an) || (0 <? dn))
    end in
  (up_adjust s1 (n ++ [e_disk e]) (ec_delta (e_disk e) (newCount' - delCount')), changed').

Definition loop2_step (n : path) (registered : list ecinfo) (acc : state * bool) (a : ecinfo) : state * bool :=
  let '(s, changed) := acc in
  if existsb (fun e => N.eqb (e_id e) (e_id a)) registered then acc
  else
    let s1 := get_or_create_disk s n (e_disk a) in
    (up_adjust s1 (n ++ [e_disk a]) (ec_delta (e_disk a) (popcount (e_bits a))), true).

Lemma update_ec_unfold : forall order st n actual,
  update_ec_shards order st n actual =
  let existing := permute order (node_ecs st n) in
  let '(st1, changed1) := fold_left (loop1_step n actual) existing (st, false) in
  let '(st2, changed2) := fold_left (loop2_step n (node_ecs st n)) actual (st1, changed1) in
  if changed2 then do_update_ec_shards st2 n actual else st2.
Proof. reflexivity. Qed.

(* the Go code adds a shard count only when it is positive *)
Lemma counted_if_positive : forall x, 0 <= x -> (if 0 <? x then 0 + x else 0) = x.
Proof. intros x H. destruct (Z.ltb_spec 0 x); lia. Qed.

(* the first loop adds, per registered EC volume e, its own delta at e's disk *)
Lemma loop1_step_eq : forall n actual s ch e,
  loop1_step n actual (s, ch) e = (ec_adj n s (e_disk e) (own_delta actual e), ch || changes actual e).
Proof.
  intros n actual s ch e. unfold loop1_step, own_delta, changes, added_by, dropped_by, ec_adj.
  destruct (find_ec_last (e_id e) actual) as [a|].
  - cbv zeta. rewrite !counted_if_positive by apply popcount_nonneg. rewrite orb_assoc. reflexivity.
  - cbv zeta. rewrite orb_true_r. reflexivity.
Qed.

Lemma loop1_fold : forall n actual l s ch,
  fold_left (loop1_step n actual) l (s, ch) =
  (adj_fold n (map (fun e => (e_disk e, own_delta actual e)) l) s, ch || existsb (changes actual) l).
Proof.
  intros n actual. induction l as [|e l IH]; intros s ch.
  - simpl. rewrite orb_false_r. reflexivity.
  - cbn [fold_left]. rewrite loop1_step_eq, IH.
    cbn [map adj_fold fold_left fst snd existsb]. rewrite orb_assoc. reflexivity.
Qed.

Definition new_of (registered actual : list ecinfo) : list ecinfo :=
  filter (fun a => negb (existsb (fun e => N.eqb (e_id e) (e_id a)) registered)) actual.

Lemma loop2_fold : forall n registered actual s ch,
  fold_left (loop2_step n registered) actual (s, ch) =
  (adj_fold n (map (fun a => (e_disk a, popcount (e_bits a))) (new_of registered actual)) s,
   ch || negb (match new_of registered actual with [] => true | _ => false end)).
Proof.
  intros n registered. induction actual as [|a l IH]; intros s ch.
  - simpl. rewrite orb_false_r. reflexivity.
  - cbn [fold_left]. unfold loop2_step at 2. unfold new_of. cbn [filter].
    destruct (existsb (fun e => N.eqb (e_id e) (e_id a)) registered); cbn [negb].
    + apply IH.
    + rewrite IH. fold (new_of registered l). cbn [map adj_fold fold_left fst snd negb orb]. unfold ec_adj.
      rewrite orb_true_r. reflexivity.
Qed.

Lemma sumZ_partition : forall A (w : A -> Z) (p : A -> bool) l,
  sumZ w l = sumZ w (filter p l) + sumZ w (filter (fun x => negb (p x)) l).
Proof.
  induction l as [|x l IH]; simpl; auto. destruct (p x); simpl; lia.
Qed.

Lemma NoDup_map_rev : forall A B (f : A -> B) l, NoDup (map f l) -> NoDup (map f (rev l)).
Proof.
  intros A B f l H. rewrite map_rev. apply NoDup_rev, H.
Qed.

Lemma find_last_in : forall actual a, NoDup (map e_id actual) -> In a actual ->
  find_ec_last (e_id a) actual = Some a.
Proof.
  intros actual a Hnd Hin. apply (mfind_in e_id).
  - apply NoDup_map_rev. exact Hnd.
  - apply in_rev in Hin. exact Hin.
Qed.

Lemma find_last_some : forall actual id a, find_ec_last id actual = Some a -> In a actual /\ e_id a = id.
Proof.
  intros actual id a H. apply (mfind_some e_id) in H.
  destruct H as [H1 H2]. split; auto. apply in_rev. exact H1.
Qed.

Definition reported_for (actual : list ecinfo) (e : ecinfo) : list ecinfo :=
  match find_ec_last (e_id e) actual with Some a => [a] | None => [] end.
Definition old_of (registered actual : list ecinfo) : list ecinfo :=
  filter (fun a => existsb (fun e => N.eqb (e_id e) (e_id a)) registered) actual.

Lemma found_in : forall actual e b, In b (reported_for actual e) <-> find_ec_last (e_id e) actual = Some b.
Proof.
  intros actual e b. unfold reported_for. destruct (find_ec_last (e_id e) actual) as [a|]; simpl.
  - split; [intros [->|[]]; reflexivity|intros [= ->]; left; reflexivity].
  - split; [intros []|discriminate].
Qed.

Lemma found_perm_old : forall E actual, NoDup (map e_id actual) -> NoDup (map e_id E) ->
  Permutation (flat_map (reported_for actual) E) (old_of E actual).
Proof.
  intros E actual Ha He. apply NoDup_Permutation.
  - (* at most one record per element of E, and it carries that element's id *)
    apply NoDup_flat_map; [eapply NoDup_map_inv; exact He| |].
    + intros e _. unfold reported_for. destruct (find_ec_last (e_id e) actual); repeat constructor; intros [].
    + intros e e' b Hin Hin' Hb Hb'. apply found_in, find_last_some in Hb as [_ Hb].
      apply found_in, find_last_some in Hb' as [_ Hb']. apply (NoDup_map_inj e_id E); congruence.
  - unfold old_of. apply NoDup_filter. eapply NoDup_map_inv. exact Ha.
  - intro a. unfold old_of. rewrite in_flat_map, filter_In, existsb_exists. split.
    + intros [e [Hin H]]. apply found_in, find_last_some in H as [F1 F2]. split; [exact F1|].
      exists e. split; [exact Hin|]. apply N.eqb_eq. congruence.
    + intros [H1 [e [Hin Eid]]]. apply N.eqb_eq in Eid. exists e. split; [exact Hin|].
      apply found_in. rewrite Eid. apply find_last_in; assumption.
Qed.

(* own deltas of the registered volumes plus the new volumes account exactly for
   (new registration) - (old registration), restricted by any predicate on the disk *)
Lemma own_sum : forall E actual (psi : string -> bool),
  NoDup (map e_id actual) -> NoDup (map e_id E) ->
  (forall e a, In e E -> In a actual -> e_id a = e_id e -> e_disk a = e_disk e) ->
  let w := fun a : ecinfo => if psi (e_disk a) then popcount (e_bits a) else 0 in
  sumZ (fun e => if psi (e_disk e) then own_delta actual e else 0) E + sumZ w (new_of E actual) =
  sumZ w actual - sumZ w E.
Proof.
  intros E actual psi Ha He Hd w.
  rewrite (sumZ_partition _ w (fun a => existsb (fun e => N.eqb (e_id e) (e_id a)) E) actual).
  fold (old_of E actual). fold (new_of E actual).
  rewrite <- (sumZ_perm _ w _ _ (found_perm_old E actual Ha He)).
  rewrite sumZ_flat_map.
  assert (G : sumZ (fun e => (if psi (e_disk e) then own_delta actual e else 0) + w e) E =
              sumZ (fun e => sumZ w (reported_for actual e)) E).
  { apply sumZ_ext_in. intros e Hin. unfold own_delta, added_by, dropped_by, reported_for, w.
    destruct (find_ec_last (e_id e) actual) as [a|] eqn:F.
    - apply find_last_some in F. destruct F as [F1 F2]. cbn [sumZ fold_right]. rewrite (Hd e a Hin F1 F2).
      destruct (psi (e_disk e)); [|lia]. pose proof (popcount_exchange (e_bits a) (e_bits e)). lia.
    - simpl. destruct (psi (e_disk e)); lia. }
  rewrite sumZ_plus in G. lia.
Qed.

Section EcSums.
  Variable n : path.
  Definition hd_of (a : ecinfo) : path := n ++ [e_disk a].

  Lemma sum_by_disk : forall (ks : list path) (l : list ecinfo) (P : path -> bool) (w : ecinfo -> Z),
    NoDup ks -> (forall a, In a l -> In (hd_of a) ks) ->
    sumZ (fun k => if P k then sumZ w (filter (at_disk n k) l) else 0) ks =
    sumZ (fun a => if P (hd_of a) then w a else 0) l.
  Proof.
    intros ks l P w Hnd. induction l as [|a l IH]; intros Hin.
    - simpl. apply sumZ_zero. intros k _. destruct (P k); reflexivity.
    - change (sumZ (fun a0 => if P (hd_of a0) then w a0 else 0) (a :: l))
        with ((if P (hd_of a) then w a else 0) + sumZ (fun a0 => if P (hd_of a0) then w a0 else 0) l).
      rewrite <- IH by (intros; apply Hin; right; auto).
      rewrite <- (sum_single ks (hd_of a) (w a) P Hnd) by (apply Hin; left; reflexivity).
      rewrite <- sumZ_plus. apply sumZ_ext_in. intros k Hk.
      destruct (P k); [|lia]. cbn [filter]. unfold at_disk at 1. fold (hd_of a).
      destruct (path_eqb (hd_of a) k); [change (sumZ w (a :: filter (at_disk n k) l)) with (w a + sumZ w (filter (at_disk n k) l))|]; lia.
  Qed.

  Lemma node_ecs_sum : forall st (G : ecinfo -> Z), NoDup (keys st) ->
    sumZ G (node_ecs st n) = sumZ (fun k => if is_child_of n k then sumZ G (i_ecs (info st k)) else 0) (keys st).
  Proof.
    intros st G Hnd. unfold node_ecs, disks_of. rewrite sumZ_flat_map, sumZ_filter.
    rewrite (sumZ_entries_keys (fun k i => if is_child_of n k then sumZ G (i_ecs i) else 0) st Hnd). reflexivity.
  Qed.

  Lemma node_ecs_in : forall st e, Struct st -> In e (node_ecs st n) ->
    In e (i_ecs (info st (hd_of e))) /\ In (hd_of e) (keys st).
  Proof.
    intros st e Hs Hin. apply (in_node_ecs st n e Hs) in Hin. split; [exact Hin|].
    destruct (present_spec st (hd_of e)) as [P|P]; [exact P|].
    unfold hd_of in *. rewrite (info_absent st _ P) in Hin. destruct Hin.
  Qed.
End EcSums.

Lemma removelast_in : forall A (l : list A) x, In x (removelast l) -> In x l.
Proof. exact (@in_removelast). Qed.

(* what one EC volume contributes to the recomputation under disk type t: the summand of [nec] *)
Definition ec_weight (t : string) (e : ecinfo) : Z := if String.eqb (to_dt (e_disk e)) t then popcount (e_bits e) else 0.

Lemma update_ec_inv : forall st r n actual order, Inv st r -> In n (keys st) -> length n = 3%nat ->
  trig_ec_irregular st n actual = false ->
  Inv (update_ec_shards order st n actual) r.
Proof.
  intros st r n actual order Hi Hn Hln Hirr.
  rewrite update_ec_unfold. cbv zeta.
  set (E := node_ecs st n) in *. set (E' := permute order E).
  pose proof (i_struct _ _ Hi) as Hs.
  (* the three disjuncts of the trigger: C1 reported ids distinct, C3 registered ids distinct,
     C2' same id => same disk *)
  unfold trig_ec_irregular in Hirr. fold E in Hirr.
  apply orb_false_iff in Hirr. destruct Hirr as [Hirr C2]. apply orb_false_iff in Hirr. destruct Hirr as [C1 C3].
  apply negb_false_iff in C1, C3.
  apply (nodupb_sound _ N.eqb N.eqb_eq) in C1. apply (nodupb_sound _ N.eqb N.eqb_eq) in C3.
  assert (C2' : forall e a, In e E -> In a actual -> e_id a = e_id e -> e_disk a = e_disk e).
  { intros e a He Ha Hid. destruct (String.eqb_spec (e_disk a) (e_disk e)) as [Ed|Ed]; [exact Ed|].
    exfalso. rewrite <- not_true_iff_false in C2. apply C2.
    apply existsb_exists. exists e. split; auto. apply existsb_exists. exists a. split; auto.
    rewrite Hid, N.eqb_refl. apply String.eqb_neq in Ed. rewrite Ed. reflexivity. }
  rewrite loop1_fold. rewrite loop2_fold. fold E.
  set (D1 := map (fun e => (e_disk e, own_delta actual e)) E').
  set (D2 := map (fun a => (e_disk a, popcount (e_bits a))) (new_of E actual)).
  pose proof (EcRel_adj_fold n D1 st Hs Hn) as R1.
  pose proof (EcRel_adj_fold n D2 _ (er_struct _ _ _ _ R1) (er_keys _ _ _ _ R1 n Hn)) as R2.
  pose proof (EcRel_trans n _ _ _ _ _ R1 R2) as R12.
  assert (Hecs2 : forall k, i_ecs (info (adj_fold n D2 (adj_fold n D1 st)) k) = i_ecs (info st k))
    by (intro; rewrite !ecs_adj_fold; reflexivity).
  set (st2 := adj_fold n D2 (adj_fold n D1 st)) in *.
  assert (HD1 : forall p t, adj_sum n D1 p t =
            sumZ (fun e => if is_prefix p (n ++ [e_disk e]) && String.eqb (to_dt (e_disk e)) t then own_delta actual e else 0) E).
  { intros p t. unfold adj_sum, D1. rewrite sumZ_map. simpl. apply sumZ_perm. unfold E'. apply permute_perm. }
  assert (HD2 : forall p t, adj_sum n D2 p t =
            sumZ (fun a => if is_prefix p (n ++ [e_disk a]) && String.eqb (to_dt (e_disk a)) t then popcount (e_bits a) else 0)
                 (new_of E actual)).
  { intros p t. unfold adj_sum, D2. rewrite sumZ_map. reflexivity. }
  destruct (false || existsb (changes actual) E' || negb match new_of E actual with [] => true | _ :: _ => false end) eqn:Ech.
  - (* registrations are replaced by the reported ones *)
    destruct (do_update_effect n st2 actual (er_struct _ _ _ _ R2) (er_keys _ _ _ _ R12 n Hn) C1) as [R' [Ec' Pa']].
    set (s' := do_update_ec_shards st2 n actual) in *.
    pose proof (EcRel_trans n _ _ _ _ _ R12 R') as R3. pose proof (er_struct _ _ _ _ R3) as S'.
    assert (Hincl : incl (keys st) (keys s')) by (intro k; apply (er_keys _ _ _ _ R3)).
    apply (EcRel_inv n st r s' _ Hln Hi R3).
    intros p Hp t.
    rewrite (er_ec _ _ _ _ R3), HD1, HD2.
    set (psi := fun d => is_prefix p (n ++ [d]) && String.eqb (to_dt d) t).
    pose proof (own_sum E actual psi C1 C3 C2') as Hsum. cbv zeta in Hsum. unfold psi in Hsum.
    assert (Hnec : forall k, nec (info s' k) t =
              if is_child_of n k then sumZ (ec_weight t) (filter (at_disk n k) actual) else nec (info st k) t).
    { intro k. unfold nec at 1. rewrite Ec'. destruct (is_child_of n k); [reflexivity|].
      rewrite Hecs2. reflexivity. }
    pose proof (S_transfer ecShardCount E_ec st (keys s') cl_ec Hs (i_ec _ _ Hi) (s_nodup _ S') Hincl p t) as Hold.
    unfold S. unfold E_ec at 1.
    (* split the recomputation into the old one plus the change on the disks of n *)
    assert (Hsplit : sumZ (fun k => if is_prefix p k then nec (info s' k) t else 0) (keys s') =
              sumZ (fun k => if is_prefix p k then E_ec k (info st k) t else 0) (keys s') +
              (sumZ (fun k => if is_prefix p k && is_child_of n k then sumZ (ec_weight t) (filter (at_disk n k) actual) else 0) (keys s') -
               sumZ (fun k => if is_prefix p k && is_child_of n k then nec (info st k) t else 0) (keys s'))).
    { rewrite <- sumZ_minus, <- sumZ_plus. apply sumZ_ext_in. intros k _. rewrite Hnec. unfold E_ec.
      destruct (is_prefix p k), (is_child_of n k); simpl; lia. }
    rewrite Hsplit, Hold.
    (* the new registration, per reported shard set *)
    rewrite (sum_by_disk n (keys s') actual (fun k => is_prefix p k && is_child_of n k) (ec_weight t) (s_nodup _ S') Pa').
    (* the old registration, per registered shard set *)
    assert (Hreg : sumZ (fun k => if is_prefix p k && is_child_of n k then nec (info st k) t else 0) (keys s') =
              sumZ (fun e => if is_prefix p (hd_of n e) && is_child_of n (hd_of n e) then ec_weight t e else 0) E).
    { rewrite (sumZ_incl _ (keys st) (keys s') (s_nodup _ Hs) (s_nodup _ S') Hincl).
      2:{ intros k _ Hk. rewrite (info_absent st k Hk). destruct (is_prefix p k && is_child_of n k); reflexivity. }
      unfold E. rewrite (node_ecs_sum n st _ (s_nodup _ Hs)). apply sumZ_ext_in. intros k Hk.
      destruct (is_child_of n k) eqn:Ck; [|rewrite andb_false_r; reflexivity]. rewrite andb_true_r.
      unfold nec. rewrite <- sumZ_if_const. apply sumZ_ext_in. intros e He.
      pose proof Ck as Ck'. apply is_child_of_spec in Ck'. destruct Ck' as [x ->].
      pose proof (proj2 (payload_disk n x _ (s_payload _ Hs _ Hk)) e He) as Ed. subst x.
      unfold hd_of. rewrite Ck, andb_true_r. reflexivity. }
    rewrite Hreg.
    assert (Hw : forall l, sumZ (fun a => if is_prefix p (hd_of n a) && is_child_of n (hd_of n a) then ec_weight t a else 0) l =
              sumZ (fun a => if is_prefix p (n ++ [e_disk a]) && String.eqb (to_dt (e_disk a)) t then popcount (e_bits a) else 0) l).
    { intro l. apply sumZ_ext_in. intros a _. unfold hd_of, ec_weight.
      rewrite (proj2 (is_child_of_spec n (n ++ [e_disk a]))) by (exists (e_disk a); reflexivity).
      destruct (is_prefix p (n ++ [e_disk a])), (String.eqb (to_dt (e_disk a)) t); reflexivity. }
    rewrite !Hw. lia.
  - (* nothing changed: only zero deltas were applied *)
    apply (EcRel_inv n st r st2 _ Hln Hi R12).
    apply (Cons_same _ _ st); auto using clause; try apply Hi; try apply R12.
    + intros k Hk. apply (er_keys _ _ _ _ R12). exact Hk.
    + intros k t _. unfold E_ec, nec. rewrite Hecs2. reflexivity.
    + intros k t _. rewrite (er_ec _ _ _ _ R12), HD1, HD2.
      apply orb_false_iff in Ech. destruct Ech as [Ech1 Ech2]. simpl in Ech1.
      assert (Hnew : new_of E actual = []) by (destruct (new_of E actual); [reflexivity|discriminate]).
      rewrite Hnew. simpl. rewrite sumZ_zero; [lia|].
      intros e He.
      assert (Hch : changes actual e = false).
      { rewrite <- not_true_iff_false. intro X. rewrite <- not_true_iff_false in Ech1. apply Ech1.
        apply existsb_exists. exists e. split; auto. unfold E'. apply permute_in. exact He. }
      unfold changes in Hch. unfold own_delta.
      destruct (find_ec_last (e_id e) actual) as [a|] eqn:F; [|discriminate].
      apply orb_false_iff in Hch. destruct Hch as [H1 H2]. apply Z.ltb_ge in H1, H2.
      assert (A1 : 0 <= added_by actual e) by (unfold added_by; rewrite F; apply popcount_nonneg).
      assert (A2 : 0 <= dropped_by actual e) by (unfold dropped_by; rewrite F; apply popcount_nonneg).
      replace (added_by actual e - dropped_by actual e) with 0 by lia.
      destruct (is_prefix k (n ++ [e_disk e]) && String.eqb (to_dt (e_disk e)) t); reflexivity.
Qed.

(* an event sent to a path that is no registered data node changes nothing, on either side *)
Lemma ref_step_unaddressed : forall st r o, RefInv st r ->
  match o with Join _ _ _ _ => False | _ => True end ->
  present st (op_node o) && Nat.eqb (length (op_node o)) 3 = false -> ref_step r o = r.
Proof.
  intros st r o Hr Hj P.
  assert (Hn : forall i, ~ In (op_node o, i) r).
  { intros i X. apply (in_map fst) in X. apply (r_keys _ _ Hr) in X. destruct X as [X1 X2].
    apply present_in in X1. simpl in X1, X2. rewrite X1, X2 in P. discriminate. }
  destruct o; cbn [ref_step op_node] in *; try reflexivity; [contradiction| |].
  - rewrite <- (map_id r) at 2. apply map_ext_in. intros [k i] Hin. simpl.
    destruct (path_eqb_spec k n) as [->|]; [elim (Hn i Hin)|reflexivity].
  - apply filter_all_true. intros [k i] Hin. simpl.
    destruct (path_eqb_spec k n) as [->|]; [elim (Hn i Hin)|reflexivity].
Qed.

Theorem step_inv : forall st r o order, Inv st r -> wf_op o = true -> trigger st o = None ->
  Inv (step order st o) (ref_step r o).
Proof.
  intros st r o order Hi Hwf Ht.
  destruct o as [dc rack node maxs|n maxs|n vs|n news dels|n shards|n news dels|n|n gv];
    [apply join_inv; auto|..].
  all: unfold step, trigger in *; cbn [op_node] in *.
  all: destruct (present st n && Nat.eqb (length n) 3) eqn:P; cbn [negb] in *;
    [|erewrite ref_step_unaddressed; [exact Hi|apply Hi|exact I|exact P]].
  all: apply andb_prop in P; destruct P as [P L]; apply present_in in P; apply Nat.eqb_eq in L.
  all: assert (A : At r n st) by (split; [exact Hi|split; assumption]).
  - apply adjust_max_inv; auto.
  - exact (proj1 (update_volumes_at r n st vs A)).
  - exact (proj1 (delta_update_volumes_at r n st _ _ A)).
  - destruct (trig_ec_irregular st n shards) eqn:T; [discriminate|]. apply update_ec_inv; auto.
  - exact (proj1 (delta_update_ec_at r n st news dels A)).
  - apply unregister_inv; auto.
  - exact (proj1 (add_or_update_volume_at r n st gv A)).
Qed.

Theorem init_inv : Inv init_state [].
Proof.
  constructor; try (intros p [<-|[]] t; reflexivity).
  - constructor.
    + repeat constructor. intros [].
    + left. reflexivity.
    + intros k p [Hk|[]] Hp. subst k. destruct p; [left; reflexivity|discriminate].
    + intros k [Hk|[]]. subst k. apply payload_ok_empty.
  - constructor.
    + constructor.
    + intro p. split; [intros []|]. intros [[Hp|[]] Hl]. subst p. discriminate.
    + intros n [].
Qed.

(* a clause of the invariant in the words of [exact_at]: sums over the entries beneath p *)
Lemma Cons_beneath : forall f e st p t, NoDup (keys st) -> Cons f e st -> In p (keys st) ->
  f (uget (i_usage (info st p)) t) = sumZ (fun en => e (fst en) (snd en) t) (beneath st p).
Proof.
  intros f e st p t Hnd Hc Hp. unfold beneath. rewrite sumZ_filter.
  rewrite (sumZ_entries_keys (fun k i => if is_prefix p k then e k i t else 0) st Hnd). apply (Hc p Hp t).
Qed.

Theorem inv_exact_b : forall st r, Inv st r -> exact_b st r = true.
Proof.
  intros st r [Hs Cv Cr Ce Cm Hr]. unfold exact_b. cbv zeta.
  apply forallb_forall. intros [p i] Hin. apply forallb_forall. intros t _.
  assert (Hp : In p (keys st)) by (apply (in_map fst) in Hin; exact Hin).
  simpl fst. unfold exact_at.
  pose proof (s_nodup _ Hs) as Hnd.
  repeat (apply andb_true_intro; split).
  - apply Z.eqb_eq, (Cons_beneath _ _ st p t Hnd Cv Hp).
  - apply Z.eqb_eq, (Cons_beneath _ _ st p t Hnd Cr Hp).
  - apply Z.eqb_eq, (Cons_beneath _ _ st p t Hnd Ce Hp).
  - apply Z.eqb_eq, (Cons_beneath _ _ st p t Hnd Cm Hp).
  - destruct (Nat.eqb (length p) 3) eqn:L; auto. apply Nat.eqb_eq in L.
    apply Z.eqb_eq. apply (r_max _ _ Hr). apply (r_keys _ _ Hr). auto.
Qed.

(* exact_b pointwise along two lists (true beyond the shorter) *)
Fixpoint all_exact (states : list state) (refs : list ref_state) : bool :=
  match states, refs with
  | s :: states', r :: refs' => exact_b s r && all_exact states' refs'
  | _, _ => true
  end.

(* induction along a well-formed run that meets no trigger: the invariant holds before and
   after every event *)
Lemma run_inv_ind : forall (Q : list (list nat) -> state -> ref_state -> list op -> Prop),
  (forall orders st r, Q orders st r []) ->
  (forall orders st r o ops, Inv st r -> Inv (step (hd [] orders) st o) (ref_step r o) ->
     Q (tl orders) (step (hd [] orders) st o) (ref_step r o) ops -> Q orders st r (o :: ops)) ->
  forall ops orders st r, Inv st r -> forallb wf_op ops = true -> first_trigger orders st ops = None ->
  Q orders st r ops.
Proof.
  intros Q Q0 QS. induction ops as [|o ops IH]; intros orders st r Hi Hwf Ht; [apply Q0|].
  simpl in Hwf. apply andb_prop in Hwf. destruct Hwf as [Hw1 Hw2].
  cbn [first_trigger] in Ht. destruct (trigger st o) eqn:T; [discriminate|].
  pose proof (step_inv st r o (hd [] orders) Hi Hw1 T) as Hi'. apply QS; auto.
Qed.

Theorem run_exact : forall ops orders st r, Inv st r -> forallb wf_op ops = true ->
  first_trigger orders st ops = None ->
  all_exact (run orders st ops) (ref_run r ops) = true.
Proof.
  apply (run_inv_ind (fun orders st r ops => all_exact (run orders st ops) (ref_run r ops) = true)); [reflexivity|].
  intros orders st r o ops _ Hi' IH. cbn [run ref_run all_exact]. rewrite (inv_exact_b _ _ Hi'). exact IH.
Qed.

(* step_all lists exactly the states step reaches for some order code *)
Theorem step_all_spec : forall st o s, In s (step_all st o) <-> exists order, step order st o = s.
Proof.
  intros st o s.
  assert (Sym : forall F : list nat -> state, (exists ord, s = F ord) <-> (exists order, F order = s))
    by (intro F; split; intros [ord H]; exists ord; auto).
  destruct o as [dc rack node maxs|n maxs|n vs|n news dels|n shards|n news dels|n|n gv];
    try (split; [intros [H|[]]; exists []; exact H|intros [order H]; left; exact H]); rewrite <- Sym.
  - apply (in_map_all_orders _ _ (fun l => if negb (present st n && Nat.eqb (length n) 3) then st else adjust_max st n l) maxs).
  - apply (in_map_all_orders _ _ (fun existing =>
             if negb (present st n && Nat.eqb (length n) 3) then st
             else let '(st1, changed1) := fold_left (loop1_step n shards) existing (st, false) in
                  let '(st2, changed2) := fold_left (loop2_step n (node_ecs st n)) shards (st1, changed1) in
                  if changed2 then do_update_ec_shards st2 n shards else st2) (node_ecs st n)).
Qed.

Theorem propagation : forall st q d,
  keys (up_adjust st q d) = keys st /\
  (forall p t, In p (keys st) ->
     U (up_adjust st q d) p t = if is_prefix p q then cadd (U st p t) (uget d t) else U st p t) /\
  (forall p, i_vols (info (up_adjust st q d) p) = i_vols (info st p) /\
             i_ecs (info (up_adjust st q d) p) = i_ecs (info st p)).
Proof.
  intros st q d. split; [apply keys_up_adjust|]. split.
  - intros p t Hp. apply U_up_adjust. exact Hp.
  - intro p. apply payload_up_adjust.
Qed.
