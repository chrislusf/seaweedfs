(* Proofs about the handler-level verification of model/S3Auth.v (C26):
   PutObject / PutObjectPart (V4 streaming seed), PostPolicyBucket (POST policy signature),
   the narrowed trigger sets of findings 0 and 1, the source bucket of the copy routes (finding 3), the
   identity headers (finding 2), and the non-vacuity example of the wrapper theorem. *)
From Coq Require Import List NArith Bool String Ascii Arith Lia.
From SW Require Import model.S3Auth proof.S3AuthProofs.
Import ListNotations.
Local Open Scope string_scope.
Local Open Scope list_scope.

Lemma seed_spec_meaning : forall ids r c,
  seed_spec ids r c = true <->
  sprefix signV4Algorithm (remove_spaces (hdr_authz r)) = true /\
  exists id secret, lookup_by_access_key ids (cl_ak c) = Some (id, secret) /\ secret = cl_secret c /\
                    sig_fresh false (cl_damage c) = true /\
                    can_do (id_actions id) ACTION_WRITE (rq_bucket r) = true.
Proof.
  intros ids r c. unfold seed_spec, find_cred_spec. rewrite find_cred_table. split.
  - intros H. apply andb_true_iff in H. destruct H as [Hp H]. split; auto.
    destruct (lookup_by_access_key ids (cl_ak c)) as [[id s]|]; [|discriminate].
    apply andb_true_iff in H. destruct H as [H Ha]. apply andb_true_iff in H. destruct H as [Hs Hf].
    apply String.eqb_eq in Hs. exists id, s. rewrite can_do_allows. auto.
  - intros [Hp [id [s [Hl [Hs [Hf Hc]]]]]]. rewrite Hp, Hl. simpl.
    rewrite <- can_do_allows, Hc, Hf. subst s. rewrite String.eqb_refl. reflexivity.
Qed.

(* seed_verify has a single GPass leaf: access key found, canDo Write, secret equal, signature fresh *)
Lemma seed_verify_pass : forall ids r c w,
  seed_verify ids r c = GPass w ->
  seed_spec ids r c = true /\
  exists id secret, w = Some id /\ lookup_by_access_key ids (cl_ak c) = Some (id, secret) /\
                    secret = cl_secret c /\ sig_fresh false (cl_damage c) = true /\
                    can_do (id_actions id) ACTION_WRITE (rq_bucket r) = true.
Proof.
  intros ids r c w H. unfold seed_verify in H.
  destruct (String.eqb (remove_spaces (hdr_authz r)) "") eqn:Eb; [discriminate|].
  destruct (sprefix signV4Algorithm (remove_spaces (hdr_authz r))) eqn:Ep; simpl in H; [|discriminate].
  assert (Hk : exists id secret, lookup_by_access_key ids (cl_ak c) = Some (id, secret) /\
             can_do (id_actions id) ACTION_WRITE (rq_bucket r) = true /\
             String.eqb secret (cl_secret c) && sig_fresh false (cl_damage c) = true /\ w = Some id).
  { destruct (cl_damage c); try discriminate;
    destruct (lookup_by_access_key ids (cl_ak c)) as [[id s]|]; try discriminate;
    destruct (can_do (id_actions id) ACTION_WRITE (rq_bucket r)) eqn:Ec; try discriminate;
    match type of H with (if ?b then _ else _) = _ => destruct b eqn:Es end; try discriminate;
    inversion H; subst; exists id, s; auto. }
  destruct Hk as [id [s [Hl [Hc [Hs Hw]]]]].
  apply andb_true_iff in Hs. destruct Hs as [Hs Hf]. apply String.eqb_eq in Hs.
  split; [apply seed_spec_meaning; split; [exact Ep|]|]; exists id, s; auto.
Qed.

Lemma policy_signer_meaning : forall ids f id,
  policy_signer ids f = Some id <->
  exists v2 pc secret, f = FormPolicy v2 pc /\ lookup_by_access_key ids (cl_ak pc) = Some (id, secret) /\
                       secret = cl_secret pc /\ cl_damage pc = Intact.
Proof.
  intros ids f id. unfold policy_signer, find_cred_spec. split.
  - destruct f as [| |v2 pc]; try discriminate. rewrite find_cred_table.
    destruct (lookup_by_access_key ids (cl_ak pc)) as [[id' s]|] eqn:Hl; [|discriminate].
    destruct (String.eqb_spec s (cl_secret pc)) as [Hs|Hs]; simpl; [|discriminate].
    destruct (cl_damage pc) eqn:Ed; try discriminate. intros H. inversion H; subst id'.
    exists v2, pc, s. auto.
  - intros [v2 [pc [s [-> [Hl [Hs Hd]]]]]]. rewrite find_cred_table, Hl, Hd. subst s.
    rewrite String.eqb_refl. reflexivity.
Qed.

Lemma policy_verify_pass : forall ids v2 pc w,
  policy_verify ids v2 pc = GPass w ->
  exists id, w = Some id /\ policy_signer ids (FormPolicy v2 pc) = Some id.
Proof.
  intros ids v2 pc w H. unfold policy_verify in H.
  assert (Hk : exists id s, lookup_by_access_key ids (cl_ak pc) = Some (id, s) /\
               String.eqb s (cl_secret pc) = true /\ cl_damage pc = Intact /\ w = Some id).
  { destruct (cl_damage pc) eqn:Ed; destruct v2; try discriminate;
    destruct (lookup_by_access_key ids (cl_ak pc)) as [[id s]|]; try discriminate;
    destruct (String.eqb s (cl_secret pc)) eqn:Es; simpl in H; try discriminate;
    inversion H; subst; exists id, s; auto. }
  destruct Hk as [id [s [Hl [Hs [Hd Hw]]]]]. exists id. split; auto.
  apply policy_signer_meaning. apply String.eqb_eq in Hs. exists v2, pc, s. auto.
Qed.

Lemma route_match_method : forall r i rt,
  route_match r = Some i -> nth_error route_table (N.to_nat i) = Some rt -> rq_method r = rt_method rt.
Proof.
  intros r i rt Hm Hn. apply route_match_first in Hm. destruct Hm as [[rt' [Hn' [Hr _]]]|[Hi _]].
  - rewrite Hn in Hn'. inversion Hn'; subst rt'. unfold route_matches in Hr.
    apply andb_true_iff in Hr; destruct Hr as [Hr _].
    apply andb_true_iff in Hr; destruct Hr as [Hr _].
    apply andb_true_iff in Hr; destruct Hr as [Hr _].
    apply andb_true_iff in Hr. destruct Hr as [_ Hr]. apply String.eqb_eq in Hr. exact Hr.
  - subst i. discriminate.
Qed.

(* the two bypass types are classified by their own test *)
Lemma bypass_type_test : forall r,
  (get_request_auth_type r = StreamingSigned -> is_request_sign_streaming_v4 r = true) /\
  (get_request_auth_type r = PostPolicy -> is_request_post_policy r = true).
Proof.
  intros r. unfold get_request_auth_type.
  destruct (is_request_signature_v2 r); [split; discriminate|].
  destruct (is_request_presigned_v2 r); [split; discriminate|].
  destruct (is_request_sign_streaming_v4 r); [split; [reflexivity|discriminate]|].
  destruct (is_request_signature_v4 r); [split; discriminate|].
  destruct (is_request_presigned_v4 r); [split; discriminate|].
  destruct (is_request_jwt r); [split; discriminate|].
  destruct (is_request_post_policy r); [split; [discriminate|reflexivity]|].
  destruct (rq_authz r); split; discriminate.
Qed.

Lemma put_not_post_policy : forall r, rq_method r = "PUT" -> get_request_auth_type r <> PostPolicy.
Proof.
  intros r Hm Ht. apply bypass_type_test in Ht. unfold is_request_post_policy in Ht.
  rewrite Hm, andb_false_r in Ht. discriminate.
Qed.

Lemma post_not_streaming : forall r, rq_method r = "POST" -> get_request_auth_type r <> StreamingSigned.
Proof.
  intros r Hm Ht. apply bypass_type_test in Ht. unfold is_request_sign_streaming_v4 in Ht.
  rewrite Hm, andb_false_r in Ht. discriminate.
Qed.

Lemma bypass_cases : forall r, trigger r = true ->
  get_request_auth_type r = StreamingSigned \/ get_request_auth_type r = PostPolicy.
Proof. intros r H. unfold trigger in H. destruct (get_request_auth_type r); try discriminate; auto. Qed.

Lemma idx_put_object : nth_error route_table (N.to_nat PUT_OBJECT_IDX) =
  Some (mk "PutObjectHandler" "PUT" true HNone [] ACTION_WRITE).
Proof. reflexivity. Qed.
Lemma idx_put_object_part : nth_error route_table (N.to_nat PUT_OBJECT_PART_IDX) =
  Some (mk "PutObjectPartHandler" "PUT" true HNone [QDigits "partNumber"; QHas "uploadId"] ACTION_WRITE).
Proof. reflexivity. Qed.
Lemma idx_post_policy : nth_error route_table (N.to_nat POST_POLICY_IDX) =
  Some (mk "PostPolicyBucketHandler" "POST" false HFormData [] ACTION_WRITE).
Proof. reflexivity. Qed.

(* V4 streaming seed: a streaming-signed request on PutObject / PutObjectPart goes on to the
   filer's data path only with a valid seed signature of an identity allowed to Write *)
Theorem streaming_put_needs_seed : forall ids r c e i w,
  ids <> [] -> get_request_auth_type r = StreamingSigned ->
  i = PUT_OBJECT_IDX \/ i = PUT_OBJECT_PART_IDX ->
  takes_effect ids r c e i = Some w ->
  seed_spec ids r c = true /\ exists id, w = Some id /\ In id ids /\
    can_do (id_actions id) ACTION_WRITE (rq_bucket r) = true.
Proof.
  intros ids r c e i w Hne Ht Hi H. unfold takes_effect in H.
  destruct (route_decision ids r c i) as [w0|]; [|discriminate].
  assert (Hs : seed_verify ids r c = GPass w).
  { destruct Hi; subst i.
    - change (handler_gate ids r c e PUT_OBJECT_IDX w0) with (put_object_gate ids r c w0) in H.
      unfold put_object_gate in H. rewrite Ht in H. destruct ids; [congruence|].
      destruct (seed_verify (i :: ids) r c); [discriminate|]. inversion H; reflexivity.
    - change (handler_gate ids r c e PUT_OBJECT_PART_IDX w0) with (put_object_part_gate ids r c e w0) in H.
      unfold put_object_part_gate in H. rewrite Ht in H.
      destruct (negb (e_upload_exists e)); [discriminate|].
      match type of H with context [if ?b then GReject HInvalidMaxParts else _] => destruct b end; [discriminate|].
      destruct ids; [congruence|].
      destruct (seed_verify (i :: ids) r c); [discriminate|]. inversion H; reflexivity. }
  apply seed_verify_pass in Hs. destruct Hs as [Hsp [id [s [Hw [Hl [_ [_ Hc]]]]]]].
  split; auto. exists id. repeat split; auto. eapply lookup_in; eauto.
Qed.

(* POST policy: whatever the classified type, PostPolicyBucketHandler goes on to the filer
   only with a policy validly signed (V2 or V4) by a configured identity, unexpired *)
Theorem post_policy_needs_signature : forall ids r c e w,
  takes_effect ids r c e POST_POLICY_IDX = Some w ->
  exists id, w = Some id /\ policy_signer ids (e_form e) = Some id.
Proof.
  intros ids r c e w H. unfold takes_effect in H.
  destruct (route_decision ids r c POST_POLICY_IDX) as [w0|]; [|discriminate].
  change (handler_gate ids r c e POST_POLICY_IDX w0) with (post_policy_gate ids e) in H.
  unfold post_policy_gate in H. destruct (e_form e) as [| |v2 pc]; try discriminate.
  destruct (policy_verify ids v2 pc) eqn:Ep; [discriminate|]. inversion H; subst.
  apply policy_verify_pass in Ep. exact Ep.
Qed.

(* FULL statement: a request that goes on to the filer is authorised for the route's action *)
Definition effect_implies_authorized_statement : Prop :=
  forall ids r c e i w, ids <> [] -> route_match r = Some i ->
    takes_effect ids r c e i = Some w -> effect_authorized_spec ids r c e i = true.

(* outside the narrowed trigger sets of findings 0 and 1: the route's action on the URL's bucket *)
Lemma effect_partial0 : forall ids r c e i w,
  ids <> [] -> route_match r = Some i -> takes_effect ids r c e i = Some w ->
  trigger0 ids r c i = false -> trigger1 ids r e i = false ->
  effect_authorized_spec0 ids r c e i = true.
Proof.
  intros ids r c e i w Hne Hm H H0 H1.
  destruct (trigger r) eqn:Ht.
  - (* bypass type *)
    unfold trigger0 in H0. unfold trigger in Ht. rewrite Ht in H0. simpl in H0.
    apply andb_false_iff in H0. destruct H0 as [H0|H0].
    + apply negb_false_iff in H0. apply orb_true_iff in H0. destruct H0 as [Hi|Hi]; apply N.eqb_eq in Hi; subst i.
      * (* PutObject *)
        pose proof (route_match_method r _ _ Hm idx_put_object) as Hmeth. simpl in Hmeth.
        destruct (bypass_cases r Ht) as [Hty|Hty]; [|exfalso; eapply put_not_post_policy; eauto].
        destruct (streaming_put_needs_seed ids r c e PUT_OBJECT_IDX w Hne Hty (or_introl eq_refl) H) as [Hs _].
        unfold effect_authorized_spec0. rewrite idx_put_object, Hty, Hs.
        apply orb_true_iff. left. apply orb_true_iff. right. reflexivity.
      * (* PostPolicy *)
        pose proof (route_match_method r _ _ Hm idx_post_policy) as Hmeth. simpl in Hmeth.
        destruct (bypass_cases r Ht) as [Hty|Hty]; [exfalso; eapply post_not_streaming; eauto|].
        destruct (post_policy_needs_signature ids r c e w H) as [id [_ Hp]].
        unfold trigger1 in H1. rewrite Hty, Hp in H1. simpl in H1. apply negb_false_iff in H1.
        unfold effect_authorized_spec0. rewrite idx_post_policy, Hty. unfold policy_spec. rewrite Hp, H1.
        apply orb_true_iff. right. reflexivity.
    + apply negb_false_iff in H0. apply andb_true_iff in H0. destruct H0 as [Hi Hs].
      apply N.eqb_eq in Hi. subst i.
      pose proof (route_match_method r _ _ Hm idx_put_object_part) as Hmeth. simpl in Hmeth.
      destruct (bypass_cases r Ht) as [Hty|Hty]; [|exfalso; eapply put_not_post_policy; eauto].
      unfold effect_authorized_spec0. rewrite idx_put_object_part, Hty, Hs.
      apply orb_true_iff. left. apply orb_true_iff. right. reflexivity.
  - (* every other type: Auth itself authorises *)
    unfold takes_effect in H. destruct (route_decision ids r c i) as [w0|] eqn:Hd; [|discriminate].
    pose proof (every_route_partial ids r c i w0 Hne Ht Hm Hd) as Ha.
    unfold effect_authorized_spec0. destruct (nth_error route_table (N.to_nat i)) as [rt|].
    + apply authorized_spec_iff in Ha. rewrite Ha. reflexivity.
    + apply authenticated_spec_iff in Ha. exact Ha.
Qed.

Lemma copy_reads_source_route : forall r e i sb,
  copy_reads_source r e i = Some sb -> i = COPY_OBJECT_IDX \/ i = COPY_OBJECT_PART_IDX.
Proof.
  intros r e i sb H. unfold copy_reads_source in H.
  destruct (path_to_bucket_and_object (copy_source_path r)) as [b o].
  destruct (N.eqb_spec i COPY_OBJECT_IDX) as [E|E]; [left; exact E|].
  destruct (N.eqb_spec i COPY_OBJECT_PART_IDX) as [E2|E2]; [right; exact E2|]. discriminate.
Qed.

Lemma bypass_not_authorized : forall ids t c action bucket,
  bypass_type t = true -> authorized_spec ids t c action bucket = false.
Proof. intros ids t c action bucket H. destruct t; try discriminate; reflexivity. Qed.

(* on a copy route the first half of the right-hand side is Write on the destination *)
Lemma spec0_copy_route : forall ids r c e i,
  i = COPY_OBJECT_IDX \/ i = COPY_OBJECT_PART_IDX ->
  effect_authorized_spec0 ids r c e i = authorized_spec ids (get_request_auth_type r) c ACTION_WRITE (rq_bucket r).
Proof.
  intros ids r c e i [Hi|Hi]; subst i; unfold effect_authorized_spec0; simpl;
  rewrite !andb_false_r, !orb_false_r; reflexivity.
Qed.

(* PARTIAL: outside the three narrowed trigger sets *)
Theorem effect_partial : forall ids r c e i w,
  ids <> [] -> route_match r = Some i -> takes_effect ids r c e i = Some w ->
  trigger0 ids r c i = false -> trigger1 ids r e i = false -> trigger3 ids r c e i = false ->
  effect_authorized_spec ids r c e i = true.
Proof.
  intros ids r c e i w Hne Hm H H0 H1 H3.
  pose proof (effect_partial0 ids r c e i w Hne Hm H H0 H1) as Hs0.
  unfold effect_authorized_spec. rewrite Hs0. simpl.
  unfold source_read_spec. unfold trigger3 in H3.
  destruct (copy_reads_source r e i) as [sb|] eqn:Hc; [|reflexivity].
  pose proof (copy_reads_source_route r e i sb Hc) as Hi.
  rewrite (spec0_copy_route ids r c e i Hi) in Hs0.
  destruct (bypass_type (get_request_auth_type r)) eqn:Hb.
  - rewrite bypass_not_authorized in Hs0 by exact Hb. discriminate.
  - rewrite Hs0 in H3. simpl in H3. apply negb_false_iff in H3. exact H3.
Qed.

(* the source bucket plays no part in what Auth and the copy handlers decide: with the same
   destination authorisation a copy goes on whatever bucket the source names *)
Theorem copy_ignores_source_rights : forall ids r c e i w,
  i = COPY_OBJECT_IDX \/ i = COPY_OBJECT_PART_IDX ->
  takes_effect ids r c e i = Some w <-> route_decision ids r c i = Run w.
Proof.
  intros ids r c e i w Hi. unfold takes_effect.
  destruct (route_decision ids r c i) as [w0|err0].
  - assert (Hg : handler_gate ids r c e i w0 = GPass w0) by (destruct Hi; subst i; reflexivity).
    rewrite Hg. split; intros E; inversion E; reflexivity.
  - split; discriminate.
Qed.

(* finding 0 (narrowed): an unsigned streaming-typed PUT /b1 reaches PutBucketHandler *)
Definition env0 : env := {| e_upload_exists := true; e_form := NoForm; e_client_idhdr := ("", false) |}.

Lemma effect_refuted_0 :
  route_match witness_streaming = Some 14%N /\
  takes_effect witness_ids witness_streaming no_claim env0 14%N = Some None /\
  effect_authorized_spec witness_ids witness_streaming no_claim env0 14%N = false /\
  trigger0 witness_ids witness_streaming no_claim 14%N = true.
Proof. vm_compute. auto. Qed.

(* finding 1: POST policy upload signed by an identity that may only Read *)
Definition witness_ids1 : list identity :=
  [ {| id_name := "admin"; id_creds := [("AKADMIN", "sk-admin")]; id_actions := [ACTION_ADMIN] |};
    {| id_name := "reader"; id_creds := [("AKREAD", "sk-read")]; id_actions := [ACTION_READ] |} ].
Definition witness_post : request :=
  {| rq_method := "POST"; rq_bucket := "b1"; rq_object := ""; rq_query := [];
     rq_authz := None; rq_sha256 := ""; rq_ctype := "multipart/form-data; boundary=vb"; rq_copysrc := "" |}.
Definition env1 : env :=
  {| e_upload_exists := false;
     e_form := FormPolicy false {| cl_ak := "AKREAD"; cl_secret := "sk-read"; cl_damage := Intact |};
     e_client_idhdr := ("", false) |}.

Lemma effect_refuted_1 :
  route_match witness_post = Some POST_POLICY_IDX /\
  (exists id, takes_effect witness_ids1 witness_post no_claim env1 POST_POLICY_IDX = Some (Some id) /\
              id_name id = "reader" /\ can_do (id_actions id) ACTION_WRITE "b1" = false) /\
  effect_authorized_spec witness_ids1 witness_post no_claim env1 POST_POLICY_IDX = false /\
  trigger0 witness_ids1 witness_post no_claim POST_POLICY_IDX = false /\
  trigger1 witness_ids1 witness_post env1 POST_POLICY_IDX = true.
Proof.
  split; [vm_compute; reflexivity|]. split.
  - eexists. split; [vm_compute; reflexivity|]. split; vm_compute; reflexivity.
  - vm_compute. auto.
Qed.

(* finding 3: writer1 (Write:b1 only) copies b2/src into b1 with an ordinary V4 header signature *)
Definition witness_ids3 : list identity :=
  [ {| id_name := "admin"; id_creds := [("AKADMIN", "sk-admin")]; id_actions := [ACTION_ADMIN] |};
    {| id_name := "writer1"; id_creds := [("AKWR1", "sk-wr1")]; id_actions := ["Write:b1"] |} ].
Definition witness_copy : request :=
  {| rq_method := "PUT"; rq_bucket := "b1"; rq_object := "o"; rq_query := [];
     rq_authz := Some "AWS4-HMAC-SHA256 Credent"; rq_sha256 := ""; rq_ctype := ""; rq_copysrc := "b2/src" |}.
Definition witness_copy_part : request :=
  {| rq_method := "PUT"; rq_bucket := "b1"; rq_object := "o"; rq_query := [("partNumber", Some "1"); ("uploadId", Some "u1")];
     rq_authz := Some "AWS4-HMAC-SHA256 Credent"; rq_sha256 := ""; rq_ctype := ""; rq_copysrc := "b2%2Fsrc" |}.
Definition wr1_claim : claim := {| cl_ak := "AKWR1"; cl_secret := "sk-wr1"; cl_damage := Intact |}.

Lemma effect_refuted_3 :
  route_match witness_copy = Some COPY_OBJECT_IDX /\
  (exists id, takes_effect witness_ids3 witness_copy wr1_claim env0 COPY_OBJECT_IDX = Some (Some id) /\
              id_name id = "writer1" /\ can_do (id_actions id) ACTION_READ "b2" = false) /\
  copy_reads_source witness_copy env0 COPY_OBJECT_IDX = Some "b2" /\
  effect_authorized_spec0 witness_ids3 witness_copy wr1_claim env0 COPY_OBJECT_IDX = true /\
  effect_authorized_spec witness_ids3 witness_copy wr1_claim env0 COPY_OBJECT_IDX = false /\
  trigger0 witness_ids3 witness_copy wr1_claim COPY_OBJECT_IDX = false /\
  trigger1 witness_ids3 witness_copy env0 COPY_OBJECT_IDX = false /\
  trigger3 witness_ids3 witness_copy wr1_claim env0 COPY_OBJECT_IDX = true /\
  route_match witness_copy_part = Some COPY_OBJECT_PART_IDX /\
  copy_reads_source witness_copy_part env0 COPY_OBJECT_PART_IDX = Some "b2" /\
  (exists id, takes_effect witness_ids3 witness_copy_part wr1_claim env0 COPY_OBJECT_PART_IDX = Some (Some id) /\ id_name id = "writer1") /\
  effect_authorized_spec witness_ids3 witness_copy_part wr1_claim env0 COPY_OBJECT_PART_IDX = false /\
  trigger3 witness_ids3 witness_copy_part wr1_claim env0 COPY_OBJECT_PART_IDX = true.
Proof.
  split; [vm_compute; reflexivity|]. split.
  { eexists. split; [vm_compute; reflexivity|]. split; vm_compute; reflexivity. }
  repeat (split; [vm_compute; reflexivity|]). split.
  { eexists. split; vm_compute; reflexivity. }
  split; vm_compute; reflexivity.
Qed.

(* non-vacuity of the trigger3 hypothesis: the same copy by an identity that may also Read b2 is
   outside the trigger set and authorised; a copy inside one bucket needs Read on that bucket *)
Definition ex_ids3 : list identity :=
  [ {| id_name := "rw"; id_creds := [("AKRW", "sk-rw")]; id_actions := ["Write:b1"; "Read:b2"] |};
    {| id_name := "writer1"; id_creds := [("AKWR1", "sk-wr1")]; id_actions := ["Write:b1"] |} ].
Definition rw_claim : claim := {| cl_ak := "AKRW"; cl_secret := "sk-rw"; cl_damage := Intact |}.

Lemma copy_example :
  trigger3 ex_ids3 witness_copy rw_claim env0 COPY_OBJECT_IDX = false /\
  (exists id, takes_effect ex_ids3 witness_copy rw_claim env0 COPY_OBJECT_IDX = Some (Some id) /\ id_name id = "rw") /\
  effect_authorized_spec ex_ids3 witness_copy rw_claim env0 COPY_OBJECT_IDX = true /\
  trigger3 ex_ids3 witness_copy wr1_claim env0 COPY_OBJECT_IDX = true /\
  copy_reads_source {| rq_method := "PUT"; rq_bucket := "b1"; rq_object := "o"; rq_query := [];
                       rq_authz := None; rq_sha256 := ""; rq_ctype := ""; rq_copysrc := "/b1/o" |} env0 COPY_OBJECT_IDX = None /\
  copy_reads_source {| rq_method := "PUT"; rq_bucket := "b1"; rq_object := "o"; rq_query := [];
                       rq_authz := None; rq_sha256 := ""; rq_ctype := ""; rq_copysrc := "b1/other" |} env0 COPY_OBJECT_IDX = Some "b1".
Proof.
  split; [vm_compute; reflexivity|]. split.
  { eexists. split; vm_compute; reflexivity. }
  repeat split; vm_compute; reflexivity.
Qed.

Lemma effect_statement_false : ~ effect_implies_authorized_statement.
Proof.
  intros H. destruct effect_refuted_1 as [Hm [[id [Ht _]] [Hs _]]].
  specialize (H witness_ids1 witness_post no_claim env1 POST_POLICY_IDX (Some id)).
  rewrite Hs in H. assert (false = true) by (apply H; auto; discriminate). discriminate.
Qed.

(* non-vacuity of effect_partial on the streaming and POST-policy kinds *)
Definition ex_ids2 : list identity :=
  [ {| id_name := "reader"; id_creds := [("AKREAD", "sk-read")]; id_actions := [ACTION_READ] |};
    {| id_name := "writer1"; id_creds := [("AKWR1", "sk-wr1")]; id_actions := ["Write:b1"] |} ].
Definition ex_stream : request :=
  {| rq_method := "PUT"; rq_bucket := "b1"; rq_object := "o"; rq_query := [];
     rq_authz := Some "AWS4-HMAC-SHA256 Credent"; rq_sha256 := streamingContentSHA256; rq_ctype := ""; rq_copysrc := "" |}.
Definition ex_wr_claim : claim := {| cl_ak := "AKWR1"; cl_secret := "sk-wr1"; cl_damage := Intact |}.
Definition env_wr : env :=
  {| e_upload_exists := false; e_form := FormPolicy true ex_wr_claim; e_client_idhdr := ("", false) |}.

Lemma effect_example :
  get_request_auth_type ex_stream = StreamingSigned /\ route_match ex_stream = Some PUT_OBJECT_IDX /\
  trigger0 ex_ids2 ex_stream ex_wr_claim PUT_OBJECT_IDX = false /\
  trigger1 ex_ids2 ex_stream env0 PUT_OBJECT_IDX = false /\
  (exists id, takes_effect ex_ids2 ex_stream ex_wr_claim env0 PUT_OBJECT_IDX = Some (Some id) /\ id_name id = "writer1") /\
  takes_effect ex_ids2 ex_stream no_claim env0 PUT_OBJECT_IDX = None /\
  get_request_auth_type witness_post = PostPolicy /\
  trigger1 ex_ids2 witness_post env_wr POST_POLICY_IDX = false /\
  (exists id, takes_effect ex_ids2 witness_post no_claim env_wr POST_POLICY_IDX = Some (Some id) /\ id_name id = "writer1") /\
  takes_effect ex_ids2 witness_post no_claim env0 POST_POLICY_IDX = None.
Proof.
  repeat split; try (vm_compute; reflexivity);
  eexists; split; vm_compute; reflexivity.
Qed.

(* finding 2: the identity headers a handler sees are not the ones Auth set *)
Definition idhdr_statement : Prop :=
  forall ids r c action e, seen_id_header (auth ids r c action) e = id_header (auth ids r c action).

Theorem seen_header_partial : forall d e,
  e_client_idhdr e = ("", false) -> seen_id_header d e = id_header d.
Proof.
  intros d e He. unfold seen_id_header, id_header. rewrite He. simpl.
  destruct d as [[id|]|]; auto. destruct (String.eqb (id_name id) ""); auto.
  rewrite orb_false_r. reflexivity.
Qed.

(* a signed request of a non-admin identity that carries "s3-is-admin" itself: the handler sees an admin *)
Definition env_spoof : env := {| e_upload_exists := false; e_form := NoForm; e_client_idhdr := ("", true) |}.
Definition ex_get_signed : request :=
  {| rq_method := "GET"; rq_bucket := "b1"; rq_object := "o"; rq_query := [];
     rq_authz := Some "AWS4-HMAC-SHA256 Credent"; rq_sha256 := ""; rq_ctype := ""; rq_copysrc := "" |}.
Definition ex_rd_claim : claim := {| cl_ak := "AKREAD"; cl_secret := "sk-read"; cl_damage := Intact |}.

Lemma seen_header_refuted :
  exists id, auth witness_ids1 ex_get_signed ex_rd_claim ACTION_READ = Run (Some id) /\
             is_admin (id_actions id) = false /\
             seen_id_header (auth witness_ids1 ex_get_signed ex_rd_claim ACTION_READ) env_spoof = ("reader", true).
Proof. eexists. split; [vm_compute; reflexivity|]. split; vm_compute; reflexivity. Qed.

Lemma idhdr_statement_false : ~ idhdr_statement.
Proof.
  intros H. specialize (H witness_ids1 ex_get_signed ex_rd_claim ACTION_READ env_spoof).
  vm_compute in H. discriminate.
Qed.

(* non-vacuity of auth_partial: ex_ids has a bucket-limited writer and an anonymous reader, so both disjuncts of [authorized] occur *)
Definition ex_ids : list identity :=
  [ {| id_name := "writer1"; id_creds := [("AKWR1", "sk-wr1")]; id_actions := ["Write:b1"] |};
    {| id_name := "anonymous"; id_creds := []; id_actions := [ACTION_READ] |} ].
Definition ex_put : request :=
  {| rq_method := "PUT"; rq_bucket := "b1"; rq_object := "o"; rq_query := [];
     rq_authz := Some "AWS4-HMAC-SHA256 Credent"; rq_sha256 := ""; rq_ctype := ""; rq_copysrc := "" |}.
Definition ex_get : request :=
  {| rq_method := "GET"; rq_bucket := "b2"; rq_object := "o"; rq_query := [];
     rq_authz := None; rq_sha256 := ""; rq_ctype := ""; rq_copysrc := "" |}.
Definition ex_claim : claim := {| cl_ak := "AKWR1"; cl_secret := "sk-wr1"; cl_damage := Intact |}.

Lemma wrapper_example :
  trigger ex_put = false /\ route_match ex_put = Some 13%N /\
  (exists id, auth ex_ids ex_put ex_claim ACTION_WRITE = Run (Some id) /\ id_name id = "writer1") /\
  auth ex_ids {| rq_method := "PUT"; rq_bucket := "b2"; rq_object := "o"; rq_query := [];
                 rq_authz := Some "AWS4-HMAC-SHA256 Credent"; rq_sha256 := ""; rq_ctype := ""; rq_copysrc := "" |}
       ex_claim ACTION_WRITE = Reject ErrAccessDenied /\
  trigger ex_get = false /\ route_match ex_get = Some 18%N /\
  (exists id, auth ex_ids ex_get no_claim ACTION_READ = Run (Some id) /\ id_name id = "anonymous") /\
  auth ex_ids ex_get no_claim ACTION_WRITE = Reject ErrAccessDenied /\
  auth ex_ids ex_put {| cl_ak := "AKWR1"; cl_secret := "sk-other"; cl_damage := Intact |} ACTION_WRITE
    = Reject ErrSignatureDoesNotMatch.
Proof.
  repeat split; try (vm_compute; reflexivity);
  eexists; split; vm_compute; reflexivity.
Qed.
