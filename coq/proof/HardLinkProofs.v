(* C21: every operation of model/HardLink.v inside c21_quiet keeps the link-record invariant, keeps
   linked names linked and shows a write through every name; every operation under the client assumptions
   keeps the invariant; the full statements are refuted with concrete histories. *)
From Coq Require Import List NArith ZArith Bool String Arith Lia Permutation.
From SW Require Import model.FilerNS proof.FilerNSBase model.Chunks model.HardLink
  proof.HardLinkBase proof.HardLinkInv proof.HardLinkOps.
Import ListNotations.
Local Open Scope list_scope.

Lemma inv_counters_ok : forall s, Inv s -> counters_ok s = true.
Proof.
  intros s I. unfold counters_ok. apply andb_true_iff. split.
  - apply forallb_forall. intros [X b] Hin. simpl.
    pose proof (In_aget _ Neqb_spec _ _ _ (ig_kd _ _ I) Hin : kv_get s X = Some b) as Hg.
    destruct (ig_cnt _ _ I X b Hg) as [A [_ [C D]]]. simpl in C, D. rewrite Nat.add_0_r in C, D.
    rewrite count_names_cn. rewrite C, Z.eqb_refl, A, N.eqb_refl.
    destruct (Nat.ltb_spec 0 (cn (names s) X)); [reflexivity|lia].
  - apply forallb_forall. intros [p e] Hin. simpl.
    destruct (N.eqb_spec (h_hl e) 0) as [E|E]; [reflexivity|]. simpl.
    pose proof (In_nfind s p e (ig_nd _ _ I) Hin) as Hf.
    destruct (linked_has_record _ _ _ _ I Hf E) as [b Hb]. now rewrite Hb.
Qed.

Lemma inv_counter : forall s X b, Inv s -> kv_get s X = Some b -> h_cnt b = Z.of_nat (count_names s X).
Proof.
  intros s X b I Hb. destruct (ig_cnt _ _ I X b Hb) as [_ [_ [C _]]]. simpl in C. now rewrite Nat.add_0_r in C.
Qed.

Lemma inv_gone_iff : forall s X, Inv s -> X <> 0%N -> (kv_get s X <> None <-> (0 < count_names s X)%nat).
Proof.
  intros s X I HX. split.
  - intro Hk. destruct (kv_get s X) as [b|] eqn:E; [|congruence].
    destruct (ig_cnt _ _ I X b E) as [_ [_ [_ D]]]. simpl in D. now rewrite Nat.add_0_r in D.
  - intro Hc. apply (ig_pres _ _ I X HX). simpl. now rewrite Nat.add_0_r.
Qed.

Lemma linked_true : forall a b, linked a b = true <-> h_hl a <> 0%N /\ h_hl a = h_hl b.
Proof.
  intros. unfold linked. rewrite andb_true_iff, negb_true_iff, N.eqb_neq, N.eqb_eq. tauto.
Qed.

Lemma opt_eqb_refl : forall o, opt_eqb o o = true.
Proof. destruct o; simpl; [apply hentry_eqb_refl|reflexivity]. Qed.

(* names carrying the same id show the same entry: both read the one record *)
Lemma inv_same_view : forall s p1 e1 p2 e2, Inv s -> nfind s p1 = Some e1 -> nfind s p2 = Some e2 ->
  h_hl e1 <> 0%N -> h_hl e1 = h_hl e2 -> model_view s p1 = model_view s p2.
Proof.
  intros s p1 e1 p2 e2 I F1 F2 Hn He.
  destruct (linked_has_record _ _ _ _ I F1 Hn) as [b Hb].
  unfold model_view, w_find. rewrite F1, F2, (view_linked s e1 b Hn Hb).
  rewrite (view_linked s e2 b); [reflexivity|congruence|congruence].
Qed.

Lemma inv_shared_view : forall s, Inv s -> shared_view_ok s (model_view s) = true.
Proof.
  intros s I. unfold shared_view_ok. apply forallb_forall. intros [p1 e1] H1.
  apply forallb_forall. intros [p2 e2] H2. simpl.
  destruct (linked e1 e2) eqn:El; [|reflexivity]. simpl.
  apply linked_true in El. destruct El as [Hn He].
  rewrite (inv_same_view s p1 e1 p2 e2 I (In_nfind s p1 e1 (ig_nd _ _ I) H1) (In_nfind s p2 e2 (ig_nd _ _ I) H2) Hn He).
  apply opt_eqb_refl.
Qed.

(* every linked name either leaves its group or stays where it is with its id *)
Lemma links_kept_intro : forall s o r s', NoDup (map fst (names s)) ->
  (forall q e, nfind s q = Some e -> h_hl e <> 0%N ->
     img s o q = None \/ (img s o q = Some q /\ exists e', nfind s' q = Some e' /\ h_hl e' = h_hl e)) ->
  links_kept s o r s' = true.
Proof.
  intros s o r s' Hnd H. unfold links_kept. apply orb_true_iff. right.
  apply forallb_forall. intros [p1 e1] H1. apply forallb_forall. intros [p2 e2] H2. simpl.
  destruct (linked e1 e2) eqn:El; [|reflexivity]. simpl.
  apply linked_true in El. destruct El as [Hn He].
  destruct (H p1 e1 (In_nfind s p1 e1 Hnd H1) Hn) as [A1|[A1 [e1' [G1 K1]]]]; rewrite A1; [reflexivity|].
  destruct (H p2 e2 (In_nfind s p2 e2 Hnd H2)) as [A2|[A2 [e2' [G2 K2]]]]; [congruence|now rewrite A2|].
  rewrite A2, G1, G2. apply linked_true. split; congruence.
Qed.

Lemma links_kept_keeps : forall (P : path -> Prop) s o r s', NoDup (map fst (names s)) -> Keeps P s s' ->
  (forall q e, nfind s q = Some e -> h_hl e <> 0%N -> img s o q = None \/ (img s o q = Some q /\ ~ P q)) ->
  links_kept s o r s' = true.
Proof.
  intros P s o r s' Hnd K H. apply links_kept_intro; [exact Hnd|]. intros q e Hq Hn.
  destruct (H q e Hq Hn) as [A|[A B]]; [now left|right]. split; [exact A|].
  exists e. split; [now apply K|reflexivity].
Qed.

Lemma blob_linked_false : forall s p, blob_linked s p = false -> forall ex, nfind s p = Some ex -> h_hl ex = 0%N.
Proof.
  intros s p H ex Hf. unfold blob_linked in H. rewrite Hf in H.
  apply negb_false_iff, N.eqb_eq in H. exact H.
Qed.

Lemma in_scope_nonroot : forall p, in_scope p = true -> p <> [].
Proof. intros p H E. subst. discriminate. Qed.

Lemma in_scope2_nonroot : forall p q, in_scope p && in_scope q = true -> p <> [] /\ q <> [].
Proof. intros p q H. apply andb_true_iff in H. split; apply in_scope_nonroot; tauto. Qed.

Lemma scoped_st : forall p r s, in_scope p = false -> scoped p r s = (s, EScope, []).
Proof. intros. unfold scoped. now rewrite H. Qed.

Lemma quiet_parts : forall ev s o, c21_quiet ev s o = true ->
  c21_op_ok ev s o = true /\ trig_rename_linked s o = false /\
  match o with
  | Rename oldp _ => match nfind s oldp with Some e => negb (h_dir e) | None => true end
  | _ => true
  end = true.
Proof.
  intros ev s o H. unfold c21_quiet in H. repeat rewrite andb_true_iff in H.
  repeat rewrite negb_true_iff in H. tauto.
Qed.

Lemma collect_ids_nil : forall cs,
  existsb (fun c : name * hentry => negb (h_dir (snd c)) && negb (h_hl (snd c) =? 0)%N) cs = false ->
  snd (collect_children cs) = [].
Proof.
  induction cs as [|c cs IH]; simpl; intro H; [reflexivity|].
  apply orb_false_iff in H. destruct H as [H1 H2]. specialize (IH H2).
  destruct (h_dir (snd c)); [exact IH|]. simpl in H1. rewrite H1. simpl. exact IH.
Qed.

(* what a step owes, for an arbitrary result r: the invariant, linked names stay linked, a link or a
   write shows; [StepGood ev s o] is this at r = step ev s o *)
Definition ResGood (s : st) (o : op) (r : res) : Prop :=
  Inv (st_of r) /\ links_kept s o (err_of r) (st_of r) = true /\
  effect_ok o (err_of r) (st_of r) (model_view (st_of r)) = true.

Definition StepGood (ev : env) (s : st) (o : op) : Prop :=
  let r := step ev s o in
  Inv (st_of r) /\ links_kept s o (err_of r) (st_of r) = true /\
  effect_ok o (err_of r) (st_of r) (model_view (st_of r)) = true.

Lemma good_fail : forall s o r d, Inv s -> r <> OK -> ResGood s o (s, r, d).
Proof. intros s o r d I Hr. split; [exact I|]. destruct r; [congruence| ..]; split; reflexivity. Qed.

Lemma good_unchanged : forall ev s o r d, Inv s -> r <> OK -> step ev s o = (s, r, d) -> StepGood ev s o.
Proof. intros ev s o r d I Hr E. unfold StepGood. rewrite E. now apply good_fail. Qed.

Lemma good_scoped : forall s o p r, Inv s -> (in_scope p = true -> ResGood s o r) -> ResGood s o (scoped p r s).
Proof. intros s o p r I H. unfold scoped. destruct (in_scope p); [now apply H|now apply good_fail]. Qed.

Lemma good_ext : forall s o r r', st_of r = st_of r' -> err_of r = err_of r' -> ResGood s o r' -> ResGood s o r.
Proof. intros s o r r' A B. unfold ResGood. now rewrite A, B. Qed.

Lemma effect_trivial : forall o r s' vw,
  match o with Link _ _ _ | Write _ _ _ _ => False | _ => True end -> effect_ok o r s' vw = true.
Proof. intros. unfold effect_ok. destruct (is_err r); [reflexivity|]. destruct o; simpl; auto; contradiction. Qed.

(* an operation that leaves every name outside P alone, where the names inside P leave their groups *)
Lemma good_keeps : forall (P : path -> Prop) s o r, Inv s -> Inv (st_of r) -> Keeps P s (st_of r) ->
  (forall q e, nfind s q = Some e -> h_hl e <> 0%N -> img s o q = None \/ (img s o q = Some q /\ ~ P q)) ->
  match o with Link _ _ _ | Write _ _ _ _ => False | _ => True end -> ResGood s o r.
Proof.
  intros P s o r I I' K H T. split; [exact I'|]. split; [|now apply effect_trivial].
  now apply (links_kept_keeps P); [apply (ig_nd _ _ I)| |].
Qed.

(* the blob under a name and what FindEntry shows: same link id, same counter as the record *)
Lemma view_cases : forall s p ex, Inv s -> nfind s p = Some ex ->
  (h_hl ex = 0%N /\ view s ex = ex) \/
  (h_hl ex <> 0%N /\ exists b, kv_get s (h_hl ex) = Some b /\ view s ex = b /\ h_hl b = h_hl ex /\ h_dir b = false).
Proof.
  intros s p ex I H. destruct (N.eq_dec (h_hl ex) 0) as [E|E].
  - left. split; [assumption|now apply view_plain].
  - right. split; [assumption|]. destruct (linked_has_record _ _ _ _ I H E) as [b Hb].
    exists b. destruct (ig_cnt _ _ I _ _ Hb) as [A [B _]]. repeat split; auto. now apply view_linked.
Qed.

(* an entry derived from what FindEntry showed (same id, counter, type) keeps the invariant when written back *)
Lemma write_back_inv : forall s p ex e, Inv s -> nfind s p = Some ex ->
  h_hl e = h_hl (view s ex) -> h_cnt e = h_cnt (view s ex) -> h_dir e = h_dir (view s ex) ->
  Inv (w_insert s p e).
Proof.
  intros s p ex e I H Hh Hc Hd.
  destruct (view_cases s p ex I H) as [[E V]|[E [b [Hb [V [Hhb Hdb]]]]]]; rewrite V in *.
  - apply w_insert_plain_inv; [exact I|congruence].
  - eapply w_insert_same_link_inv; eauto; congruence.
Qed.

Lemma kv_get_w_insert_same : forall s p e, h_hl e <> 0%N ->
  (forall ex, nfind s p = Some ex -> h_hl ex = 0%N \/ h_hl ex = h_hl e) ->
  kv_get (w_insert s p e) (h_hl e) = Some e.
Proof.
  intros s p e Hn Hold. unfold w_insert, handle_update_to_hard_links.
  destruct (N.eqb_spec (h_hl e) 0); [congruence|]. rewrite kv_put_nfind.
  assert (Hk : kv_get (kv_put s (h_hl e) e) (h_hl e) = Some e) by (rewrite kv_get_put; now rewrite N.eqb_refl).
  destruct (nfind s p) as [ex|] eqn:E; [|exact Hk].
  destruct (Hold ex eq_refl) as [A|A]; rewrite A; simpl; [exact Hk|].
  rewrite N.eqb_refl, andb_false_r. exact Hk.
Qed.

Lemma view_after_write : forall s p ex E, Inv s -> nfind s p = Some ex -> h_hl E = h_hl (view s ex) ->
  model_view (w_insert s p E) p = Some E.
Proof.
  intros s p ex E I H Hh. unfold model_view, w_find. rewrite w_insert_nfind, path_eqb_refl.
  f_equal. destruct (N.eq_dec (h_hl E) 0) as [Z|Z]; [now apply view_plain|].
  apply view_linked; [exact Z|]. apply kv_get_w_insert_same; [exact Z|].
  intros ex0 H0. assert (ex0 = ex) by congruence. subst ex0.
  right. rewrite Hh. symmetry. apply (view_hl [] s p ex I H).
Qed.

(* the entry a write sends: what FindEntry showed, with new chunks and mtime *)
Lemma written_fields : forall e0 cs mt cs' t,
  let E := set_crtime (set_chunks (set_mtime (set_chunks e0 cs) mt) cs') t in
  h_hl E = h_hl e0 /\ h_cnt E = h_cnt e0 /\ h_dir E = h_dir e0 /\ h_mtime E = mt.
Proof. intros. repeat split. Qed.

(* written back through the name, such an entry keeps the name's id, and a Write shows its mtime *)
Lemma good_write_back : forall s o p ex E d, Inv s -> nfind s p = Some ex ->
  h_hl E = h_hl (view s ex) -> h_cnt E = h_cnt (view s ex) -> h_dir E = h_dir (view s ex) ->
  (forall q, img s o q = Some q) ->
  match o with Link _ _ _ => False | Write p' _ mt _ => p' = p /\ h_mtime E = mt | _ => True end ->
  ResGood s o (w_insert s p E, OK, d).
Proof.
  intros s o p ex E d I Ex Hh Hc Hd Himg He. split; [now apply (write_back_inv s p ex)|]. split.
  - apply links_kept_intro; [apply (ig_nd _ _ I)|]. intros q e0 H0 _. right. split; [apply Himg|].
    unfold st_of. simpl. rewrite w_insert_nfind. destruct (peqb_spec p q) as [<-|]; [|eauto].
    exists E. split; [reflexivity|]. rewrite Hh, (view_hl [] s p ex I Ex). congruence.
  - unfold effect_ok, st_of, err_of. simpl. destruct o; try reflexivity; [contradiction|].
    destruct He as [-> Hm]. rewrite (view_after_write s p ex E I Ex Hh). now rewrite Hm, N.eqb_refl.
Qed.

(* CreateEntry over an existing entry of the same type: the explicit result *)
Lemma filer_create_existing : forall ev s p ex e, p <> [] -> nfind s p = Some ex ->
  h_dir e = h_dir (view s ex) ->
  filer_create ev s p e false =
    (w_insert s p (set_crtime e (h_crtime (view s ex))), OK, delete_chunks_if_not_new ev (view s ex) e).
Proof.
  intros ev s p ex e Hp H Hd. unfold filer_create. rewrite find_entry_nonroot by assumption.
  unfold w_find. rewrite H. unfold filer_update. rewrite Hd.
  destruct (h_dir (view s ex)); reflexivity.
Qed.

Lemma grpc_delete_good : forall ev s o p rec ign data, Inv s -> p <> [] ->
  (forall q, img s o q = if HardLink.is_prefix p q then None else Some q) ->
  match o with Link _ _ _ | Write _ _ _ _ => False | _ => True end ->
  ResGood s o (grpc_delete ev s p rec ign data).
Proof.
  intros ev s o p rec ign data I Hp Himg T.
  apply (good_keeps (fun q => HardLink.is_prefix p q = true)); auto; rewrite ?grpc_delete_st.
  - now apply delete_entry_inv.
  - apply delete_entry_keeps.
  - intros q e _ _. rewrite Himg. destruct (HardLink.is_prefix p q); [now left|right]. split; [reflexivity|discriminate].
Qed.

Lemma move_self_inv : forall ev s oldp e newp, Inv s -> oldp <> [] -> newp <> [] ->
  Inv (st_of (move_self ev s oldp e newp)).
Proof.
  intros ev s oldp e newp I Ho Hn. unfold move_self.
  destruct (HardLink.path_eqb oldp newp); [exact I|].
  pose proof (filer_create_plain_inv [] ev s newp (strip_link e) false I eq_refl) as I1.
  destruct (filer_create ev s newp (strip_link e) false) as [[s1 r1] d1]. unfold st_of in I1. simpl in I1.
  destruct r1; try exact I1.
  pose proof (delete_entry_inv ev s1 oldp false false false I1 Ho) as I2.
  destruct (delete_entry ev s1 oldp false false false) as [[s2 r2] d2]. exact I2.
Qed.

Lemma delete_entry_keeps_file : forall ev s p e rec ign data, find_entry ev s p = Some e -> h_dir e = false ->
  Keeps (eq p) s (st_of (delete_entry ev s p rec ign data)).
Proof.
  intros ev s p e rec ign data Hf Hd.
  destruct (delete_entry_cases ev s p rec ign data) as [[A _]|[e' [Hf' [_ [_ A]]]]]; rewrite A; [apply Keeps_refl|].
  assert (e' = e) by congruence. subst e'. rewrite Hd in *.
  intros q e0 Hq Hn.
  assert (Hne : HardLink.path_eqb p q = false) by (destruct (peqb_spec p q); [contradiction|reflexivity]).
  assert (H2 : nfind (w_delete_one s p e) q = Some e0) by (rewrite w_delete_one_nfind, Hne; exact Hq).
  destruct data; [rewrite dhl_fold_nfind|]; exact H2.
Qed.

Lemma move_self_keeps : forall ev s oldp e newp ex, oldp <> [] ->
  nfind s oldp = Some ex -> h_hl ex = 0%N -> h_dir ex = false ->
  Keeps (fun q => q = oldp \/ q = newp) s (st_of (move_self ev s oldp e newp)).
Proof.
  intros ev s oldp e newp ex Ho Hex Hpl Hnd. unfold move_self.
  destruct (peqb_spec oldp newp) as [E|E]; [apply Keeps_refl|].
  pose proof (filer_create_keeps ev s newp (strip_link e) false) as K1.
  destruct (filer_create ev s newp (strip_link e) false) as [[s1 r1] d1]. unfold st_of in K1. simpl in K1.
  assert (K1' : Keeps (fun q => q = oldp \/ q = newp) s s1).
  { eapply Keeps_weaken; [|exact K1]. intros q Hq. right. congruence. }
  destruct r1; try exact K1'.
  assert (Hex1 : nfind s1 oldp = Some ex) by (apply K1; [exact Hex|congruence]).
  assert (Hf1 : find_entry ev s1 oldp = Some ex).
  { rewrite find_entry_nonroot by assumption. unfold w_find. rewrite Hex1. now rewrite view_plain. }
  pose proof (delete_entry_keeps_file ev s1 oldp ex false false false Hf1 Hnd) as K2.
  destruct (delete_entry ev s1 oldp false false false) as [[s2 r2] d2]. unfold st_of in *. simpl in *.
  eapply Keeps_trans; [exact K1'|]. eapply Keeps_weaken; [|exact K2]. intros q Hq. left. congruence.
Qed.

Lemma mount_link_good : forall ev s oldp newp fresh, Inv s -> oldp <> [] -> newp <> [] ->
  id_unused s fresh = true -> file_at ev s oldp = true -> nfind s newp = None -> oldp <> newp ->
  (exists de, find_entry ev s (HardLink.parent newp) = Some de /\ h_dir de = true) ->
  ResGood s (Link oldp newp fresh) (mount_link ev s oldp newp fresh).
Proof.
  intros ev s oldp newp fresh I Ho Hn Hid Hfile Hnew Hne Hpar.
  unfold mount_link. rewrite (find_entry_nonroot ev s oldp Ho).
  destruct (w_find s oldp) as [e0|] eqn:Ef; [|now apply good_fail].
  destruct (w_find_Some _ _ _ Ef) as [ex [Hex Hv]].
  unfold file_at in Hfile. rewrite (find_entry_nonroot ev s oldp Ho), Ef in Hfile.
  apply negb_true_iff in Hfile.
  unfold id_unused in Hid. repeat rewrite andb_true_iff in Hid. destruct Hid as [[Hid0 Hidkv] Hidn].
  apply negb_true_iff, N.eqb_neq in Hid0.
  destruct (kv_get s fresh) eqn:Ekf; [discriminate|]. clear Hidkv.
  set (e1 := if (h_hl e0 =? 0)%N then set_link e0 fresh 1%Z else e0).
  set (e2 := set_link e1 (h_hl e1) (h_cnt e1 + 1)%Z).
  (* the id the pair will carry, and the facts of the first half *)
  assert (Hfirst : h_dir e2 = false /\ h_hl e2 <> 0%N /\
            ((h_hl ex = 0%N /\ kv_get s (h_hl e2) = None /\ h_cnt e2 = 2%Z) \/
             (h_hl ex = h_hl e2 /\ exists b, kv_get s (h_hl e2) = Some b /\ h_cnt e2 = (h_cnt b + 1)%Z)) /\
            (h_hl ex <> 0%N -> h_hl e2 = h_hl ex) /\
            (h_hl e2 <> h_hl e0 \/ h_cnt e2 <> h_cnt e0)).
  { destruct (view_cases s oldp ex I Hex) as [[E V]|[E [b [Hb [V [Hhb Hdb]]]]]].
    - assert (He0 : e0 = ex) by congruence.
      assert (Ee2 : e2 = set_link (set_link e0 fresh 1%Z) fresh 2%Z).
      { unfold e2, e1. rewrite He0, E. reflexivity. }
      rewrite Ee2. simpl.
      split; [exact Hfile|]. split; [exact Hid0|]. split; [left; auto|]. split; [intro; congruence|].
      left. congruence.
    - assert (He0 : e0 = b) by congruence.
      assert (Hb0 : (h_hl e0 =? 0)%N = false) by (apply N.eqb_neq; congruence).
      assert (Ee2 : e2 = set_link e0 (h_hl e0) (h_cnt e0 + 1)%Z).
      { unfold e2, e1. rewrite Hb0. reflexivity. }
      rewrite Ee2. simpl.
      split; [exact Hfile|]. split; [congruence|].
      split; [right; split; [congruence|]; exists b; split; [congruence|rewrite He0; reflexivity]|].
      split; [intro; congruence|]. right. lia. }
  destruct Hfirst as [Hd2 [Hn2 [Hcase [Hsame Hdiff]]]].
  pose proof (grpc_update_cases ev s oldp e2) as Hu.
  destruct (grpc_update ev s oldp e2) as [[s1 r1] d1]. unfold st_of, err_of in Hu. simpl in Hu.
  inversion Hu as [r Hr Es Er | ex' cs Hf Heq Es Er | ex' cs Hf Heq Hdd Es Er]; subst s1 r1.
  - (* the first half failed: nothing changed *)
    destruct r; try congruence; now apply good_fail.
  - (* "unchanged": impossible, the counter or the id differs *)
    exfalso. rewrite (find_entry_nonroot ev s oldp Ho), Ef in Hf. inversion Hf; subst ex'.
    apply hentry_eqb_link in Heq. destruct Heq as [A [B _]].
    destruct (set_chunks_fields e2 cs) as [F1 [F2 _]]. rewrite F1 in A. rewrite F2 in B.
    destruct Hdiff; congruence.
  - rewrite (find_entry_nonroot ev s oldp Ho), Ef in Hf. inversion Hf; subst ex'. clear Hf.
    set (E := set_crtime (set_chunks e2 cs) (h_crtime e0)) in *.
    assert (I1 : InvG [h_hl e2] (w_insert s oldp E)).
    { apply (w_insert_link_first_inv [] s oldp ex E (h_hl e2)); auto. }
    assert (Hkv1 : kv_get (w_insert s oldp E) (h_hl e2) = Some E).
    { apply (kv_get_w_insert_same s oldp E); [exact Hn2|]. intros ex0 H0.
      assert (ex0 = ex) by congruence. subst ex0.
      destruct Hcase as [[A _]|[A _]]; [left; exact A|right; exact A]. }
    (* the second half *)
    destruct (grpc_create_always ev (w_insert s oldp E) newp e2 false) as [cs2 [Hst Her]].
    assert (Hnew1 : nfind (w_insert s oldp E) newp = None).
    { rewrite w_insert_nfind. destruct (peqb_spec oldp newp); [contradiction|assumption]. }
    assert (Hpar1 : exists de, find_entry ev (w_insert s oldp E) (HardLink.parent newp) = Some de /\ h_dir de = true).
    { destruct Hpar as [de [Hde Hdd']]. destruct (HardLink.parent newp) as [|a d] eqn:Ep; [eauto|].
      rewrite find_entry_nonroot in Hde |- * by discriminate.
      destruct (w_find_Some _ _ _ Hde) as [bd [Hbd Hvd]].
      assert (Hne' : oldp <> a :: d).
      { intro Eq. rewrite <- Eq in Hbd. assert (bd = ex) by congruence. subst bd.
        rewrite Hvd, <- Hv in Hdd'. congruence. }
      (* the directory's blob is plain (a record is never a directory), so its view is itself in both states *)
      assert (Hplain : h_hl bd = 0%N).
      { destruct (view_cases s (a :: d) bd I Hbd) as [[E0 _]|[E0 [b [Hb [V [_ Hdb]]]]]]; [exact E0|].
        rewrite Hvd, V in Hdd'. congruence. }
      exists bd. unfold w_find. rewrite w_insert_nfind.
      destruct (peqb_spec oldp (a :: d)); [contradiction|]. rewrite Hbd.
      rewrite view_plain by assumption. split; [reflexivity|].
      rewrite Hvd, view_plain in Hdd' by assumption. exact Hdd'. }
    destruct (filer_create_link2_inv [] ev (w_insert s oldp E) newp E (set_chunks e2 cs2) (h_hl e2)
                I1 Hn Hnew1 Hpar1 Hd2 eq_refl Hn2 Hkv1 eq_refl) as [I2 [Hok Hst2]].
    destruct (grpc_create ev (w_insert s oldp E) newp e2 false) as [[s2 r2] d2].
    rewrite Hst2 in Hst, I2. rewrite Hok in Her. unfold st_of, err_of in Hst, Her. simpl in Hst, Her. subst s2 r2.
    split; [exact I2|]. unfold st_of, err_of. cbn [fst snd]. split.
    + (* the old name keeps its id, every other linked name its blob *)
      apply links_kept_intro; [apply (ig_nd _ _ I)|]. intros q e0' H0 Hn0. simpl.
      destruct (peqb_spec newp q) as [|Hnq]; [now left|right]. split; [reflexivity|].
      rewrite !w_insert_nfind. destruct (peqb_spec newp q); [contradiction|].
      destruct (peqb_spec oldp q) as [<-|]; [|eauto].
      exists E. split; [reflexivity|]. assert (e0' = ex) by congruence. subst e0'. now apply Hsame.
    + unfold effect_ok. cbn [is_err orb]. rewrite !w_insert_nfind.
      destruct (peqb_spec newp oldp); [congruence|]. rewrite !path_eqb_refl.
      apply linked_true. simpl. split; [exact Hn2|reflexivity].
Qed.

Theorem step_good : forall ev s o, Inv s -> c21_quiet ev s o = true -> StepGood ev s o.
Proof.
  intros ev s o I Hq. destruct (quiet_parts ev s o Hq) as [Hok [T0 Hsc]].
  change (ResGood s o (step ev s o)).
  destruct o as [p e x|p e|p cs|p rec ign data|oldp newp|oldp newp fresh|p cs mt via|p]; simpl step; simpl in Hok.
  - (* Create *)
    apply N.eqb_eq in Hok. apply good_scoped; [exact I|]. intro Esc.
    apply (good_keeps (eq p)); [exact I| |apply grpc_create_keeps| |constructor].
    + destruct (grpc_create_always ev s p e x) as [cs [A _]]. rewrite A.
      apply filer_create_plain_inv; auto.
    + intros q e0 _ _. simpl. destruct (peqb_spec p q); [now left|now right].
  - (* Update *)
    apply N.eqb_eq in Hok. apply good_scoped; [exact I|]. intros _.
    apply (good_keeps (eq p)); [exact I| |apply grpc_update_keeps| |constructor].
    + destruct (grpc_update_cases ev s p e); try exact I. now apply w_insert_plain_inv.
    + intros q e0 _ _. simpl. destruct (peqb_spec p q); [now left|now right].
  - (* Append *)
    apply good_scoped; [exact I|]. intro Esc. pose proof (in_scope_nonroot p Esc) as Hp.
    unfold grpc_append. rewrite (find_entry_nonroot ev s p Hp). unfold w_find.
    destruct (nfind s p) as [ex|] eqn:Ex.
    + set (E := set_chunks (view s ex) _).
      rewrite (filer_create_existing ev s p ex E Hp Ex eq_refl).
      now apply (good_write_back s _ p ex).
    + set (E := set_chunks _ _).
      apply (good_keeps (eq p)); [exact I|now apply filer_create_plain_inv|apply filer_create_keeps| |constructor].
      intros q e0 H0 _. right. split; [reflexivity|congruence].
  - (* Delete *)
    apply good_scoped; [exact I|]. intro Esc.
    apply grpc_delete_good; [exact I|now apply in_scope_nonroot|reflexivity|constructor].
  - (* Rename: of a file whose blob carries no id *)
    unfold grpc_rename.
    destruct (in_scope oldp && in_scope newp) eqn:Esc; simpl; [|now apply good_fail].
    destruct (in_scope2_nonroot _ _ Esc) as [Ho Hn].
    destruct (HardLink.is_prefix oldp (HardLink.parent newp)); [now apply good_fail|].
    rewrite (find_entry_nonroot ev s oldp Ho). unfold w_find.
    destruct (nfind s oldp) as [ex|] eqn:Ex; [|now apply good_fail].
    simpl in T0, Hsc. apply negb_true_iff in Hsc.
    apply orb_false_iff in T0. destruct T0 as [T0 _].
    pose proof (blob_linked_false s oldp T0 ex Ex) as Hpl.
    rewrite (view_plain s ex Hpl), Hsc. simpl.
    apply (good_keeps (fun q => q = oldp \/ q = newp));
      [exact I|now apply move_self_inv|now apply (move_self_keeps ev s oldp ex newp ex)| |constructor].
    intros q e0 H0 Hn0. assert (Hqo : oldp <> q) by (intros <-; congruence).
    simpl. rewrite Ex, Hsc. destruct (peqb_spec oldp newp) as [<-|E]; [right; split; [reflexivity|intros [|]; congruence]|].
    destruct (peqb_spec oldp q); [contradiction|]. destruct (peqb_spec newp q); [now left|right].
    split; [reflexivity|]. intros [|]; congruence.
  - (* Link *)
    destruct (in_scope oldp && in_scope newp) eqn:Esc; [|now apply good_fail].
    destruct (in_scope2_nonroot _ _ Esc) as [Ho Hn].
    repeat rewrite andb_true_iff in Hok. destruct Hok as [[[[Hid Hfile] Hnew] Hne] Hpar].
    destruct (nfind s newp) eqn:Enew; [discriminate|].
    apply negb_true_iff in Hne. destruct (peqb_spec oldp newp) as [|Hne']; [discriminate|].
    assert (Hpar' : exists de, find_entry ev s (HardLink.parent newp) = Some de /\ h_dir de = true).
    { destruct (find_entry ev s (HardLink.parent newp)) as [de|]; [eauto|discriminate]. }
    now apply mount_link_good.
  - (* Write: both ways end in w_insert s p E with E carrying the viewed id and counter, or change nothing *)
    apply good_scoped; [exact I|]. intro Esc. pose proof (in_scope_nonroot p Esc) as Hp.
    unfold mount_write. rewrite (find_entry_nonroot ev s p Hp). unfold w_find.
    destruct (nfind s p) as [ex|] eqn:Ex; [|now apply good_fail].
    set (e := set_mtime (set_chunks (view s ex) cs) mt).
    destruct via.
    + destruct (grpc_create_always ev s p e false) as [cs' [A B]].
      rewrite (filer_create_existing ev s p ex (set_chunks e cs') Hp Ex eq_refl) in A, B.
      apply (good_ext _ _ _ _ A B). now apply (good_write_back s _ p ex).
    + pose proof (grpc_update_cases ev s p e) as Hu.
      destruct (grpc_update ev s p e) as [[s1 r1] d1]. unfold st_of, err_of in Hu. simpl in Hu.
      inversion Hu as [r Hr Es Er | ex' cs' Hf Heq Es Er | ex' cs' Hf Heq Hdd Es Er]; subst s1 r1;
        try (rewrite (find_entry_nonroot ev s p Hp) in Hf; unfold w_find in Hf; rewrite Ex in Hf; inversion Hf; subst ex').
      * now apply good_fail.
      * (* the EqualEntry shortcut: nothing is written; the write still shows because hentry_eqb compares the mtime *)
        split; [exact I|]. split.
        -- apply (links_kept_keeps (fun _ => False)); [apply (ig_nd _ _ I)|apply Keeps_refl|].
           intros q e0 _ _. right. split; [reflexivity|tauto].
        -- apply hentry_eqb_link in Heq. destruct Heq as [_ [_ Hm]].
           unfold effect_ok, st_of. simpl. unfold model_view, w_find. rewrite Ex, Hm. simpl. apply N.eqb_refl.
      * now apply (good_write_back s _ p ex).
  - (* Unlink *)
    apply good_scoped; [exact I|]. intro Esc. unfold mount_unlink.
    destruct (find_entry ev s p) as [e0|]; [|now apply good_fail].
    apply grpc_delete_good; [exact I|now apply in_scope_nonroot|reflexivity|constructor].
Qed.

Theorem step_ok_quiet : forall ev s o, Inv s -> c21_quiet ev s o = true ->
  let r := step ev s o in
  c21_step_ok s o (err_of r) (st_of r) (model_view (st_of r)) = true /\ Inv (st_of r).
Proof.
  intros ev s o I Hq. destruct (step_good ev s o I Hq) as [I' [L E]]. simpl. split; [|exact I'].
  unfold c21_step_ok. rewrite (inv_counters_ok _ I'), (inv_shared_view _ I'), L, E. reflexivity.
Qed.

Theorem run_ok_quiet : forall ev ops s, Inv s -> c21_hist_quiet ev s ops = true -> c21_run_ok ev s ops = true.
Proof.
  induction ops as [|o ops IH]; intros s I H; [reflexivity|].
  simpl in H. apply andb_true_iff in H. destruct H as [Hq Hr].
  destruct (step_ok_quiet ev s o I Hq) as [A I']. simpl. rewrite A. simpl. apply IH; assumption.
Qed.

(* every step of a history inside c21_hist_quiet satisfies the whole C21 property *)
Theorem c21_history_partial : forall ev ops,
  c21_hist_quiet ev empty_st ops = true -> c21_run_ok ev empty_st ops = true.
Proof. intros. apply run_ok_quiet; [apply Inv_empty|assumption]. Qed.

(* a write through a name of a link group is what every name of the group shows (the mtime tag) *)
Theorem c21_write_through : forall ev s p cs mt via, Inv s ->
  c21_quiet ev s (Write p cs mt via) = true ->
  let r := step ev s (Write p cs mt via) in
  err_of r = OK ->
  forall e0 q eq', nfind s p = Some e0 -> nfind s q = Some eq' -> h_hl e0 <> 0%N -> h_hl eq' = h_hl e0 ->
    exists e', model_view (st_of r) q = Some e' /\ model_view (st_of r) p = Some e' /\ h_mtime e' = mt.
Proof.
  intros ev s p cs mt via I Hq r Hok e0 q eq' F0 Fq Hn He.
  destruct (step_good ev s _ I Hq) as [I' [L E]]. fold r in I', L, E.
  (* the written name shows the new mtime *)
  unfold effect_ok in E. rewrite Hok in E. simpl in E.
  destruct (model_view (st_of r) p) as [e'|] eqn:Vp; [|discriminate]. apply N.eqb_eq in E.
  exists e'. split; [|split; [reflexivity|exact E]].
  (* q and p are still linked, so they read the same record *)
  unfold links_kept in L. rewrite Hok in L. simpl in L.
  rewrite forallb_forall in L. specialize (L (p, e0) (nfind_In _ _ _ F0)).
  rewrite forallb_forall in L. specialize (L (q, eq') (nfind_In _ _ _ Fq)). simpl in L.
  assert (Hl : linked e0 eq' = true) by (apply linked_true; split; congruence).
  rewrite Hl in L. simpl in L.
  destruct (nfind (st_of r) p) as [e1|] eqn:G1; [|discriminate].
  destruct (nfind (st_of r) q) as [e2|] eqn:G2; [|discriminate].
  apply linked_true in L. destruct L as [Ln Le].
  now rewrite <- (inv_same_view _ p e1 q e2 I' G1 G2 Ln Le).
Qed.

(* a rename keeps Inv whatever it moves: every created entry is strip_link'ed (plain) and every deleted
   name goes through delete_entry; so the records are right after ANY history under the client assumptions *)
Lemma move_children_inv : forall ev oldd newd cs s, Inv s ->
  Inv (st_of (move_children ev s oldd newd cs)).
Proof.
  induction cs as [|c cs IH]; intros s I; [exact I|]. simpl.
  pose proof (move_self_inv ev s (HardLink.child oldd (fst c)) (snd c) (HardLink.child newd (fst c)) I
                (snoc_nonnil _ _) (snoc_nonnil _ _)) as I1.
  destruct (move_self ev s (HardLink.child oldd (fst c)) (snd c) (HardLink.child newd (fst c))) as [[s1 r1] d1].
  unfold st_of in I1. simpl in I1.
  destruct r1; try exact I1.
  pose proof (IH s1 I1) as I2.
  destruct (move_children ev s1 oldd newd cs) as [[s2 r2] d2]. exact I2.
Qed.

Lemma grpc_rename_inv : forall ev s oldp newp, Inv s -> Inv (st_of (grpc_rename ev s oldp newp)).
Proof.
  intros ev s oldp newp I. unfold grpc_rename.
  destruct (in_scope oldp && in_scope newp) eqn:Esc; simpl; [|exact I].
  destruct (in_scope2_nonroot _ _ Esc) as [Ho Hn].
  destruct (HardLink.is_prefix oldp (HardLink.parent newp)); [exact I|].
  destruct (find_entry ev s oldp) as [e|]; [|exact I].
  destruct (negb (h_dir e)); [now apply move_self_inv|].
  (* the move of a directory, whatever the shape of the target path *)
  set (mv := if HardLink.path_eqb oldp newp then _ else _).
  assert (Hdir : Inv (st_of mv)).
  { unfold mv. destruct (HardLink.path_eqb oldp newp); [exact I|].
    pose proof (filer_create_plain_inv [] ev s newp (strip_link e) false I eq_refl) as I1.
    destruct (filer_create ev s newp (strip_link e) false) as [[s1 r1] d1]. unfold st_of in I1. simpl in I1.
    destruct r1; try exact I1.
    pose proof (move_children_inv ev oldp newp (list_children s1 oldp) s1 I1) as I2.
    destruct (move_children ev s1 oldp newp (list_children s1 oldp)) as [[s2 r2] d2]. unfold st_of in I2. simpl in I2.
    destruct r2; try exact I2.
    pose proof (delete_entry_inv ev s2 oldp false false false I2 Ho) as I3.
    destruct (delete_entry ev s2 oldp false false false) as [[s3 r3] d3]. exact I3. }
  clearbody mv. clear Hn.
  destruct (list_children s oldp) as [|c cs]; [exact Hdir|].
  destruct newp as [|a [|b [|c' r]]]; try exact Hdir. exact I.
Qed.

Lemma step_inv_ok : forall ev s o, Inv s -> c21_op_ok ev s o = true -> Inv (st_of (step ev s o)).
Proof.
  intros ev s o I Hok.
  (* for every operation but Rename c21_quiet is c21_op_ok, so step_good applies; a rename needs grpc_rename_inv *)
  destruct o as [p e x|p e|p cs|p rec ign data|oldp newp|oldp newp fresh|p cs mt via|p];
    try (apply (step_good ev s _ I); unfold c21_quiet; rewrite Hok; reflexivity).
  simpl. now apply grpc_rename_inv.
Qed.

Lemma final_inv_ok : forall ev ops s, Inv s -> c21_hist_ok ev s ops = true -> Inv (final ev s ops).
Proof.
  induction ops as [|o ops IH]; intros s I H; [exact I|].
  simpl in H. apply andb_true_iff in H. destruct H as [Hq Hr].
  simpl. apply IH; [|assumption]. now apply step_inv_ok.
Qed.

(* FULL: after every history that respects the client assumptions, the counter of every record is
   the number of names carrying its id ... *)
Theorem c21_counter_full : forall ev ops, c21_hist_ok ev empty_st ops = true ->
  let s := final ev empty_st ops in
  forall X b, kv_get s X = Some b -> h_cnt b = Z.of_nat (count_names s X).
Proof. intros ev ops H s X b. apply inv_counter. now apply final_inv_ok; [apply Inv_empty|]. Qed.

(* a record exists exactly as long as some name carries its id *)
Theorem c21_gone_iff_last_full : forall ev ops, c21_hist_ok ev empty_st ops = true ->
  let s := final ev empty_st ops in
  forall X, X <> 0%N -> (kv_get s X <> None <-> (0 < count_names s X)%nat).
Proof. intros ev ops H s X. apply inv_gone_iff. now apply final_inv_ok; [apply Inv_empty|]. Qed.

(* names with the same link id show the same entry, after every such history *)
Theorem c21_shared_view_full : forall ev ops, c21_hist_ok ev empty_st ops = true ->
  let s := final ev empty_st ops in
  forall p1 e1 p2 e2, nfind s p1 = Some e1 -> nfind s p2 = Some e2 ->
    h_hl e1 <> 0%N -> h_hl e1 = h_hl e2 -> model_view s p1 = model_view s p2.
Proof. intros ev ops H s p1 e1 p2 e2. apply inv_same_view. now apply final_inv_ok; [apply Inv_empty|]. Qed.

Lemma quiet_hist_ok : forall ev ops s, c21_hist_quiet ev s ops = true -> c21_hist_ok ev s ops = true.
Proof.
  induction ops as [|o ops IH]; intros s H; [reflexivity|]. simpl in *.
  apply andb_true_iff in H. destruct H as [Hq Hr]. rewrite (IH _ Hr), andb_true_r.
  now destruct (quiet_parts ev s o Hq).
Qed.

Theorem c21_shared_view_partial : forall ev ops, c21_hist_quiet ev empty_st ops = true ->
  let s := final ev empty_st ops in
  forall p1 e1 p2 e2, nfind s p1 = Some e1 -> nfind s p2 = Some e2 ->
    h_hl e1 <> 0%N -> h_hl e1 = h_hl e2 -> model_view s p1 = model_view s p2.
Proof. intros ev ops H. apply c21_shared_view_full. now apply quiet_hist_ok. Qed.

Theorem c21_counter_partial : forall ev ops, c21_hist_quiet ev empty_st ops = true ->
  let s := final ev empty_st ops in
  forall X b, kv_get s X = Some b -> h_cnt b = Z.of_nat (count_names s X).
Proof. intros ev ops H. apply c21_counter_full. now apply quiet_hist_ok. Qed.

Theorem c21_gone_iff_last_partial : forall ev ops, c21_hist_quiet ev empty_st ops = true ->
  let s := final ev empty_st ops in
  forall X, X <> 0%N -> (kv_get s X <> None <-> (0 < count_names s X)%nat).
Proof. intros ev ops H. apply c21_gone_iff_last_full. now apply quiet_hist_ok. Qed.

Local Open Scope N_scope.
Definition w_ev : env := mk_env [] 0.
Definition w_file (tag : N) (cs : list chunk) : hentry := mk_hentry false 420 tag tag tag cs 0 0%Z.
Definition w_c (k i : N) : chunk := Chunk k (i * 10) 10 k false.
Definition pa : path := ["a"%string].
Definition pb : path := ["b"%string].
Definition pc : path := ["c"%string].
Definition pd : path := ["d"%string].

(* k = 0: rename of a linked name *)
Definition w_rename : list op :=
  [Create pa (w_file 1 [w_c 1 0; w_c 2 1]) false; Link pa pb 1; Rename pa pc; Write pb [w_c 5 0] 9 true].
(* a plain upload over a linked name, then the other name is unlinked *)
Definition w_overwrite : list op :=
  [Create pa (w_file 1 [w_c 1 0; w_c 2 1]) false; Link pa pb 1; Create pb (w_file 3 [w_c 7 0]) false; Unlink pa].
(* recursive delete without data deletion, then the other name is unlinked *)
Definition w_rec_nodata : list op :=
  [Create (pd ++ pa) (w_file 1 [w_c 1 0; w_c 2 1]) false; Link (pd ++ pa) pb 1; Delete pd true false false; Unlink pb].

(* every history that respects the client assumptions satisfies the property at every step: FALSE *)
Theorem c21_history_refuted :
  exists ev ops, c21_hist_ok ev empty_st ops = true /\ c21_run_ok ev empty_st ops = false.
Proof. exists w_ev, w_rename. split; vm_compute; reflexivity. Qed.

(* after the rename, the two names that were one file differ once one of them is written *)
Theorem c21_rename_detaches :
  c21_hist_ok w_ev empty_st w_rename = true /\
  (let s2 := final w_ev empty_st (firstn 2 w_rename) in
   exists ea eb, nfind s2 pa = Some ea /\ nfind s2 pb = Some eb /\ linked ea eb = true) /\
  (let s := final w_ev empty_st w_rename in
   exists ec eb, model_view s pc = Some ec /\ model_view s pb = Some eb /\
                 h_chunks ec <> h_chunks eb /\ h_hl ec = 0).
Proof.
  split; [vm_compute; reflexivity|]. split.
  - vm_compute. eexists. eexists. repeat split.
  - vm_compute. eexists. eexists. repeat split. discriminate.
Qed.

(* a plain upload over a linked name, and a recursive delete without data deletion, each followed by the
   unlink of the other name: inside the hypothesis of the partial theorems, the property holds at every step
   and no record is left *)
Theorem c21_repaired_witnesses :
  c21_hist_quiet w_ev empty_st w_overwrite = true /\ kvs (final w_ev empty_st w_overwrite) = [] /\
  (exists b, kv_get (final w_ev empty_st (firstn 3 w_overwrite)) 1 = Some b /\ h_cnt b = 1%Z) /\
  c21_hist_quiet w_ev empty_st w_rec_nodata = true /\ final w_ev empty_st w_rec_nodata = empty_st.
Proof.
  split; [vm_compute; reflexivity|]. split; [vm_compute; reflexivity|].
  split; [vm_compute; eexists; split; reflexivity|]. split; vm_compute; reflexivity.
Qed.

(* the trigger names the step that fails *)
Theorem c21_witness_triggers :
  c21_first_failure w_ev empty_st w_rename = Some (Some 0) /\
  c21_first_failure w_ev empty_st w_overwrite = None /\
  c21_first_failure w_ev empty_st w_rec_nodata = None.
Proof. repeat split; vm_compute; reflexivity. Qed.

(* outside the observation points of the property (FindEntry, the KV record): a directory listing
   hands out the per-name blobs (leveldb2 lists natively, the wrapper does not resolve the link
   record there), so after a write through /a the listing still shows /b with the old chunks *)
Definition w_listing : list op :=
  [Create pa (w_file 1 [w_c 1 0]) false; Link pa pb 1; Write pa [w_c 5 0] 9 true].
Theorem c21_listing_stale :
  c21_hist_quiet w_ev empty_st w_listing = true /\
  (let s := final w_ev empty_st w_listing in
   exists e v, In ("b"%string, e) (list_children s []) /\ model_view s pb = Some v /\
               h_chunks e = [w_c 1 0] /\ h_chunks v = [w_c 5 0]).
Proof.
  split; [vm_compute; reflexivity|]. vm_compute. eexists. eexists.
  split; [right; left; reflexivity|]. split; [reflexivity|]. split; reflexivity.
Qed.

(* non-vacuity: a history with two link groups, writes through several names and unlinks down to
   nothing is inside the hypothesis of the partial theorems *)
Definition w_clean : list op :=
  [Create pa (w_file 1 [w_c 1 0; w_c 2 1]) false; Link pa pb 1;
   Create pd (mk_hentry true 493 9 9 9 [] 0 0%Z) false; Link pb (pd ++ pa) 2;
   Create pc (w_file 2 [w_c 3 0]) false; Link pc (pd ++ pb) 2;
   Write (pd ++ pa) [w_c 1 0; w_c 4 1] 5 true; Write pb [w_c 1 0; w_c 4 1] 6 false;
   Append (pd ++ pb) [Chunk 6 0 5 6 false];
   Unlink pa; Delete pd true false true; Unlink pb; Unlink pc].

Example c21_clean_is_quiet :
  c21_hist_quiet w_ev empty_st w_clean = true /\
  kvs (final w_ev empty_st (firstn 9 w_clean)) <> [] /\
  final w_ev empty_st w_clean = empty_st.
Proof. split; [vm_compute; reflexivity|]. split; vm_compute; [discriminate|reflexivity]. Qed.
