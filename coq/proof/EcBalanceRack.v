(* The rack free-slot counters of the ec.balance model (C16).
   Invariant: EcRack.freeEcSlot never exceeds the sum of the free slots of the rack's nodes
   (plus one per pick still waiting for a destination).  Consequence: when pickOneRack
   finds a rack, pickOneEcNodeAndMoveOneShard finds a node in it - a picked shard is only
   ever abandoned with the printed line "can not find a destination rack".  So the
   drop trigger of finding 0 is decidable on the printed plan.
   Second part: on books where every rack already respects the spread limit nothing is picked;
   then the snapshot-only and the printed-plan-only forms of the conservation theorems. *)
From Coq Require Import List NArith ZArith Bool Lia Arith.
From SW Require Import model.EcBalance proof.EcBalanceBase proof.EcBalanceInv proof.EcBalanceSpread proof.EcBalanceProofs proof.EcBalanceKey.
Import ListNotations.
Local Open Scope N_scope.
Local Open Scope Z_scope.

(* [occ] is the standard library's count_occ: a list that is a permutation of a duplicate-free
   list is duplicate-free, and its members are members of that list *)
Lemma occ_count : forall x l, occ x l = count_occ N.eq_dec l x.
Proof.
  induction l as [|y l IH]; simpl; [reflexivity|].
  destruct (N.eqb_spec y x), (N.eq_dec y x); congruence.
Qed.
Lemma perm_eqb_occ : forall l1 l2 x, perm_eqb l1 l2 = true -> In x l1 -> occ x l1 = occ x l2.
Proof.
  intros l1 l2 x H Hin. unfold perm_eqb in H. apply andb_true_iff in H. destruct H as [_ H].
  rewrite forallb_forall in H. specialize (H x Hin). apply Nat.eqb_eq in H. exact H.
Qed.
Lemma perm_eqb_nodup : forall l1 l2, perm_eqb l1 l2 = true -> NoDup l2 -> NoDup l1.
Proof.
  intros l1 l2 H Hnd. apply (NoDup_count_occ N.eq_dec). intros x.
  destruct (in_dec N.eq_dec x l1) as [Hx|Hx].
  - rewrite <- occ_count, (perm_eqb_occ _ _ _ H Hx), occ_count. apply (NoDup_count_occ N.eq_dec), Hnd.
  - rewrite (proj1 (count_occ_not_In N.eq_dec l1 x) Hx). lia.
Qed.
Lemma perm_eqb_in : forall l1 l2 x, perm_eqb l1 l2 = true -> In x l1 -> In x l2.
Proof.
  intros l1 l2 x H Hx. apply (count_occ_In N.eq_dec). rewrite <- occ_count, <- (perm_eqb_occ _ _ _ H Hx), occ_count.
  apply count_occ_In, Hx.
Qed.

Lemma aadd_keys : forall l k d x, In x (map fst (aadd l k d)) <-> x = k \/ In x (map fst l).
Proof.
  induction l as [|[k0 y] l IH]; intros k d x; simpl; [intuition|].
  destruct (N.eqb_spec k0 k); simpl; [|rewrite IH]; intuition congruence.
Qed.
Lemma aadd_keys_nodup : forall l k d, NoDup (map fst l) -> NoDup (map fst (aadd l k d)).
Proof.
  induction l as [|[k0 y] l IH]; intros k d H; simpl.
  - constructor; [intros []|constructor].
  - inv H. destruct (N.eqb_spec k0 k); simpl.
    + constructor; auto.
    + constructor; auto. intros X. apply aadd_keys in X. destruct X; [congruence|contradiction].
Qed.
Lemma group_count_keys_nodup : forall ns locs v, NoDup (map fst (group_count ns locs v)).
Proof.
  intros ns locs v. unfold group_count.
  assert (G : forall l acc, NoDup (map fst acc) ->
    NoDup (map fst (fold_left (fun acc id => aadd acc (node_rack ns id) (count (node_bits ns id v))) l acc))).
  { induction l as [|id l IH]; intros acc H; simpl; auto. apply IH. apply aadd_keys_nodup. exact H. }
  apply G. constructor.
Qed.

(* ensureSortedEcNodes adds no element *)
Lemma bubble_left_rev_in : forall rp x passed y,
  In y (bubble_left_rev rp x passed) -> In y rp \/ y = x \/ In y passed.
Proof.
  induction rp as [|z rp IH]; intros x passed y H; simpl in H; [intuition|].
  destruct (snd x >? snd z).
  - apply IH in H. simpl in *. intuition.
  - rewrite !in_app_iff, <- in_rev in H. simpl in *. intuition.
Qed.
Lemma bubble_right_in : forall post y z, In z (bubble_right y post) -> z = y \/ In z post.
Proof.
  induction post as [|w post IH]; intros y z H; simpl in H; [intuition|].
  destruct (snd w >? snd y); simpl in *; [destruct H as [H|H]; [|apply IH in H]|]; intuition.
Qed.
Lemma ensure_sorted_in : forall l idx y, In y (ensure_sorted l idx) -> In y l.
Proof.
  intros l idx y H. unfold ensure_sorted in H.
  destruct (skipn idx l) as [|x post] eqn:S; [exact H|].
  set (l1 := bubble_left_rev (rev (firstn idx l)) x [] ++ post) in *.
  assert (L1 : forall z, In z l1 -> In z l).
  { intros z Hz. rewrite <- (firstn_skipn idx l), S. unfold l1 in Hz. rewrite in_app_iff in *.
    destruct Hz as [Hz|Hz]; [|simpl; auto].
    apply bubble_left_rev_in in Hz. rewrite <- in_rev in Hz. simpl in *. intuition. }
  destruct (skipn idx l1) as [|y1 post1] eqn:S1; apply L1; [exact H|].
  rewrite <- (firstn_skipn idx l1), S1. rewrite in_app_iff in *. destruct H as [H|H]; [auto|].
  apply bubble_right_in in H. simpl. intuition.
Qed.
Lemma dec_at_keys : forall l i, map fst (dec_at l i) = map fst l.
Proof.
  induction l as [|[id c] l IH]; intros i; simpl; auto. destruct i; simpl; auto. f_equal. apply IH.
Qed.

(* free slots of the nodes of one rack: the right-hand side of the invariant *)
Fixpoint fsum (ns : list node) (r : N) : Z :=
  match ns with
  | [] => 0
  | n :: ns' => (if N.eqb (n_rack n) r then n_free n else 0) + fsum ns' r
  end.

Lemma fsum_upd : forall ns id f n r, keeps_id_rack f -> wf_ids ns -> get_node ns id = Some n ->
  fsum (upd_node ns id f) r = fsum ns r + (if N.eqb (n_rack n) r then n_free (f n) - n_free n else 0).
Proof.
  induction ns as [|x ns IH]; intros id f n r Hk Hwf G; simpl in *; [discriminate|].
  inv Hwf. destruct (N.eqb_spec (n_id x) id) as [E|E].
  - inv G. rewrite notin_upd by auto. destruct (Hk n) as [_ Hr]. rewrite Hr.
    destruct (N.eqb (n_rack n) r); lia.
  - rewrite (IH id f n r Hk H2 G). lia.
Qed.

Lemma collect_racks_fsum : forall ns r, alookup (collect_racks ns) r = fsum ns r.
Proof.
  intros ns r. unfold collect_racks.
  assert (G : forall l acc, alookup (fold_left (fun acc n => aadd acc (n_rack n) (n_free n)) l acc) r = alookup acc r + fsum l r).
  { induction l as [|n l IH]; intros acc; simpl; [lia|]. rewrite IH, alookup_aadd. lia. }
  rewrite G. simpl. lia.
Qed.

Lemma fsum_pos_exists : forall ns r, 0 < fsum ns r -> exists n, In n ns /\ n_rack n = r /\ 0 < n_free n.
Proof.
  induction ns as [|x ns IH]; intros r H; simpl in H; [lia|].
  destruct (N.eqb_spec (n_rack x) r) as [E|E].
  - destruct (Z.ltb_spec 0 (n_free x)).
    + exists x. split; [left; auto|auto].
    + destruct (IH r) as [n [A B]]; [lia|]. exists n. split; [right; auto|auto].
  - destruct (IH r) as [n [A B]]; [lia|]. exists n. split; [right; auto|auto].
Qed.

Lemma count_le_rsum : forall ns n r v, In n ns -> n_rack n = r -> count (find n v) <= rsum ns r v.
Proof.
  induction ns as [|x ns IH]; intros n r v Hin Hr; simpl in *; [destruct Hin|].
  pose proof (rsum_nonneg ns r v). destruct Hin as [E|Hin].
  - subst x. rewrite Hr, N.eqb_refl. lia.
  - specialize (IH n r v Hin Hr). pose proof (count_nonneg (find x v)). destruct (N.eqb (n_rack x) r); lia.
Qed.

Lemma free_del_ge : forall v s n, n_free n <= n_free (del_shard v s n).
Proof.
  intros v s n. unfold del_shard. destruct (n_disk n) as [es|]; [|lia].
  destruct (del_in_spec es v s) as (_ & _ & D & _). destruct (del_in es v s) as [es' d]. simpl in *. lia.
Qed.
Lemma free_add_ge : forall v c s n, n_free n - 1 <= n_free (add_shard v c s n).
Proof.
  intros v c s n. unfold add_shard. destruct (n_disk n) as [es|]; simpl; [|lia].
  destruct (add_in es v s) as [[es' d]|] eqn:A; simpl; [|lia].
  destruct (add_in_some _ _ _ _ _ A) as (_ & _ & ->). pose proof (count_add_le (find_bits es v) s). lia.
Qed.

Lemma fsum_del_ge : forall ns id v s r, wf_ids ns -> fsum ns r <= fsum (upd_node ns id (del_shard v s)) r.
Proof.
  intros ns id v s r Hwf. destruct (get_node ns id) as [n|] eqn:G.
  - rewrite (fsum_upd ns id _ n r (keeps_del v s) Hwf G). pose proof (free_del_ge v s n).
    destruct (N.eqb (n_rack n) r); lia.
  - rewrite get_node_none_upd by auto. lia.
Qed.
Lemma fsum_add_ge : forall ns id v c s r, wf_ids ns ->
  fsum ns r - ind (N.eqb (node_rack ns id) r) <= fsum (upd_node ns id (add_shard v c s)) r.
Proof.
  intros ns id v c s r Hwf. destruct (get_node ns id) as [n|] eqn:G.
  - rewrite (fsum_upd ns id _ n r (keeps_add v c s) Hwf G). rewrite (node_rack_get _ _ _ G).
    pose proof (free_add_ge v c s n). unfold ind. destruct (N.eqb (n_rack n) r); lia.
  - rewrite get_node_none_upd by auto. unfold ind. destruct (N.eqb (node_rack ns id) r); lia.
Qed.
Lemma fsum_move_ge : forall ns src v c s dst r, wf_ids ns ->
  fsum ns r - ind (N.eqb (node_rack ns dst) r) <= fsum (move_shard ns src v c s dst) r.
Proof.
  intros ns src v c s dst r Hwf. unfold move_shard.
  pose proof (fsum_add_ge ns dst v c s r Hwf) as A.
  assert (Hwf1 : wf_ids (upd_node ns dst (add_shard v c s))) by (apply upd_wf; auto with c16).
  pose proof (fsum_del_ge (upd_node ns dst (add_shard v c s)) src v s r Hwf1) as D. lia.
Qed.

(* a pick: the node holds the shard, so exactly one slot is freed in its rack *)
Lemma fsum_del_held : forall ns id v s r, wf ns -> hb ns id v s = true -> In s bit_range ->
  fsum (upd_node ns id (del_shard v s)) r = fsum ns r + ind (N.eqb (node_rack ns id) r).
Proof.
  intros ns id v s r Hwf Hb Hin. unfold hb in Hb. destruct (get_node ns id) as [n|] eqn:G.
  - rewrite (fsum_upd ns id _ n r (keeps_del v s) (proj1 Hwf) G). rewrite (node_rack_get _ _ _ G).
    rewrite (node_bits_get _ _ _ _ G) in Hb.
    rewrite (free_del_shard v s n (wf_get _ _ _ Hwf G) Hb Hin). unfold ind. destruct (N.eqb (n_rack n) r); lia.
  - unfold node_bits in Hb. rewrite G, has_zero in Hb. discriminate.
Qed.

(* rack counter + picks waiting for a destination <= free slots of the rack's nodes *)
Definition RIp (ns : list node) (rk : list (N * Z)) (picked : list (N * N)) : Prop :=
  forall r, alookup rk r + pend picked ns r <= fsum ns r.
(* picks are only waiting from racks that are still above the average *)
Definition PI (ns : list node) (rsc : list (N * Z)) (avg : Z) (picked : list (N * N)) : Prop :=
  forall r, pend picked ns r <= Z.max 0 (alookup rsc r - avg).

Lemma pick_n_rack : forall n v cands ns picked ns' picked' rk r,
  pick_n n v cands ns picked = (ns', picked') -> wf ns ->
  (forall id, In id (map fst cands) -> node_rack ns id = r) ->
  RIp ns rk picked ->
  wf ns' /\ same_racks ns ns' /\ RIp ns' rk picked' /\
  (forall r', pend picked' ns' r' <= pend picked ns r' + (if N.eqb r r' then Z.of_nat n else 0)).
Proof.
  induction n as [|n IH]; intros v cands ns picked ns' picked' rk r H Hwf Hc Hri; simpl pick_n in H.
  - inv H. split; auto. split; [apply same_racks_refl|]. split; auto. intros r'. destruct (N.eqb r r'); simpl; lia.
  - assert (Stop : (ns, picked) = (ns', picked') ->
      wf ns' /\ same_racks ns ns' /\ RIp ns' rk picked' /\
      (forall r', pend picked' ns' r' <= pend picked ns r' + (if N.eqb r r' then Z.of_nat (S n) else 0))).
    { intros X. inv X. split; auto. split; [apply same_racks_refl|]. split; auto.
      intros r'. destruct (N.eqb r r'); lia. }
    destruct (first_nonzero ns v cands 0) as [[[i id] b]|] eqn:F; [|auto].
    destruct (shard_ids b) as [|s rest] eqn:S; [auto|].
    assert (Hs : In s (shard_ids b)) by (rewrite S; left; reflexivity).
    assert (Hb : hb ns id v s = true).
    { unfold hb. rewrite <- (proj1 (first_nonzero_spec _ _ _ _ _ _ _ F)). apply shard_ids_has. exact Hs. }
    assert (Hid : node_rack ns id = r) by (apply Hc, (first_nonzero_spec _ _ _ _ _ _ _ F)).
    pose proof (same_racks_del ns id v s) as SR.
    apply IH with (rk := rk) (r := r) in H.
    + destruct H as [W [SR' [A B]]]. split; auto. split; [eapply same_racks_trans; eauto|]. split; auto.
      intros r'. specialize (B r').
      rewrite (pend_ext _ ns _ r' SR) in B. pose proof (pend_pset_le picked s id ns r') as P.
      rewrite Hid in P. unfold ind in P. rewrite Nat2Z.inj_succ. destruct (N.eqb r r'); lia.
    + apply wf_del; auto.
    + intros id' Hin. rewrite SR. apply Hc.
      apply in_map_iff in Hin. destruct Hin as [p [E Hp]]. apply ensure_sorted_in in Hp.
      rewrite <- (dec_at_keys cands i). apply in_map_iff. exists p. auto.
    + intros r0. rewrite (pend_ext _ ns _ r0 SR). pose proof (pend_pset_le picked s id ns r0) as P.
      rewrite (fsum_del_held ns id v s r0 Hwf Hb (shard_in_bit_range _ (shard_ids_range _ _ Hs))). specialize (Hri r0). lia.
Qed.

Lemma valid_cands_rack : forall ns locs r v cands id,
  valid_cands ns (filter (fun id => N.eqb (node_rack ns id) r) locs) v cands = true ->
  In id cands -> node_rack ns id = r.
Proof.
  intros ns locs r v cands id H Hin. unfold valid_cands in H. apply andb_true_iff in H. destruct H as [H _].
  apply (perm_eqb_in _ _ _ H) in Hin. apply filter_In in Hin. destruct Hin as [Hin _].
  apply filter_In in Hin. destruct Hin as [_ Hin]. apply N.eqb_eq in Hin. exact Hin.
Qed.

Lemma pick_racks_rack : forall ro ns v avg rsc locs picked ns' picked' rk,
  pick_racks ns v avg rsc locs ro picked = Some (ns', picked') -> wf ns -> NoDup (map fst ro) ->
  RIp ns rk picked -> PI ns rsc avg picked -> (forall r, In r (map fst ro) -> pend picked ns r = 0) ->
  RIp ns' rk picked' /\ PI ns' rsc avg picked'.
Proof.
  induction ro as [|[r cands] ro IH]; intros ns v avg rsc locs picked ns' picked' rk H Hwf Hnd Hri Hpi Hz; simpl in H.
  - inv H. auto.
  - simpl in Hnd. inv Hnd. destruct (alookup rsc r >? avg) eqn:Gt.
    + destruct (valid_cands ns (filter (fun id => N.eqb (node_rack ns id) r) locs) v cands) eqn:VC; [|discriminate].
      match type of H with context [pick_n ?a ?b ?c ?d ?e] =>
        destruct (pick_n a b c d e) as [ns1 picked1] eqn:P end.
      apply Z.gtb_lt in Gt.
      destruct (pick_n_rack _ _ _ _ _ _ _ rk r P Hwf) as [W1 [SR [A B]]]; auto.
      { intros id Hin. rewrite map_map in Hin. simpl in Hin. rewrite map_id in Hin.
        eapply valid_cands_rack; eauto. }
      apply IH with (rk := rk) in H; auto.
      * intros r0. specialize (B r0). specialize (Hpi r0). destruct (N.eqb_spec r r0).
        -- subst r0. rewrite (Hz r) in B by (left; reflexivity). rewrite Z2Nat.id in B by lia. lia.
        -- lia.
      * intros r0 Hr0. specialize (B r0). destruct (N.eqb_spec r r0); [subst; contradiction|].
        rewrite (Hz r0) in B by (right; exact Hr0). pose proof (pend_nonneg picked1 ns1 r0). lia.
    + eapply IH; eauto. intros r0 Hr0. apply Hz. right. exact Hr0.
Qed.

(* well-labelled log: an abandoned pick always carries its printed line
   "ec shard v.s at X can not find a destination rack", and nothing else prints that line *)
Definition is_norack (e : event) : bool := match e with ENoRack _ _ _ => true | _ => false end.
Definition lab (i : item) : Prop :=
  match i with
  | IEvent e => is_norack e = false
  | IMove e _ => is_norack e = false
  | IDrop v s src (Some e) => e = ENoRack v s src
  | IDrop _ _ _ None => False
  end.
Definition loud (its : list item) : Prop := Forall lab its.
Lemma loud_app : forall a b, loud a -> loud b -> loud (a ++ b).
Proof. intros. apply Forall_app. auto. Qed.

Lemma rack_node_ids_in : forall ns r n, In n ns -> n_rack n = r -> In (n_id n) (rack_node_ids ns r).
Proof.
  intros ns r n Hin Hr. unfold rack_node_ids. apply in_map. apply filter_In. split; auto.
  apply N.eqb_eq. exact Hr.
Qed.

(* a pick waits only from a rack above the average, so not from a rack pickOneRack finds *)
Lemma waiting_rack_above : forall ns rsc avg picked s src picked' r,
  PI ns rsc avg picked -> ptake picked s = Some (src, picked') -> alookup rsc r < avg -> node_rack ns src <> r.
Proof.
  intros ns rsc avg picked s src picked' r Hpi P RO E.
  pose proof (pend_ptake _ _ _ _ ns r P) as PT. rewrite E, N.eqb_refl in PT. simpl in PT.
  pose proof (pend_nonneg picked' ns r). specialize (Hpi r). lia.
Qed.

(* [SI], [PI] and [RIp] through one step of the second loop of doBalanceEcShardsAcrossRacks *)
Definition rack_free_step (v : N) (avg : Z) (x y : across_st) (its : list item) : Prop :=
  SI (x_ns x) (x_rsc x) (x_picked x) v -> PI (x_ns x) (x_rsc x) avg (x_picked x) -> RIp (x_ns x) (x_rk x) (x_picked x) ->
  SI (x_ns y) (x_rsc y) (x_picked y) v /\ PI (x_ns y) (x_rsc y) avg (x_picked y) /\ RIp (x_ns y) (x_rk y) (x_picked y) /\
  loud its.

Lemma rack_free_step_refl : forall v avg x, rack_free_step v avg x x [].
Proof. intros v avg x A B C. repeat split; auto. constructor. Qed.
Lemma rack_free_step_trans : forall v avg a b c i1 i2, rack_free_step v avg a b i1 -> rack_free_step v avg b c i2 -> rack_free_step v avg a c (i1 ++ i2).
Proof.
  intros v avg a b c i1 i2 H1 H2 A B C. destruct (H1 A B C) as [A1 [B1 [C1 L1]]].
  destruct (H2 A1 B1 C1) as [A2 [B2 [C2 L2]]]. repeat split; auto. apply loud_app; auto.
Qed.

(* taking the pick out of [picked] lowers [pend] of the source rack by one; nothing else changes *)
Lemma rack_free_step_norack : across_norack rack_free_step.
Proof.
  intros v avg ns rk rsc picked s src picked' Hwf P Hsi Hpi Hri. simpl in *.
  split; [apply (spread_step_norack v avg ns rk rsc picked s src picked' Hwf P Hsi)|].
  split; [|split; [|constructor; [reflexivity|constructor]]];
    intros r; rewrite (pend_ptake _ _ _ _ ns r P); [specialize (Hpi r)|specialize (Hri r)];
    unfold ind; destruct (N.eqb _ r); lia.
Qed.

(* the pick leaves [pend] of the source rack, which pays for the +1 on that rack's counter; the
   destination rack loses at most one free slot and its counter loses one.  The source rack is not
   the destination rack (waiting_rack_above), so the two do not cancel in [PI] *)
Lemma rack_free_step_move : across_move rack_free_step.
Proof.
  intros c v avg ns rk rsc picked s src picked' r dst Hwf P RO Pd Hr Hne Hfree Hsi Hpi Hri.
  pose proof (waiting_rack_above _ _ _ _ _ _ _ _ Hpi P RO) as Hsr.
  split; [apply (spread_step_move c v avg ns rk rsc picked s src picked' r dst Hwf P RO Pd Hr Hne Hfree Hsi)|]. simpl in *.
  pose proof (same_racks_move ns src v c s dst) as SR.
  split; [|split; [|constructor; [reflexivity|constructor]]];
    intros r0; rewrite (pend_ext _ ns _ r0 SR), (pend_ptake _ _ _ _ ns r0 P), !alookup_aadd.
  - specialize (Hpi r0). pose proof (pend_nonneg picked' ns r0) as Pn. rewrite (pend_ptake _ _ _ _ ns r0 P) in Pn.
    unfold ind in *. destruct (N.eqb_spec r r0), (N.eqb_spec (node_rack ns src) r0); subst; try lia; try contradiction.
  - pose proof (fsum_move_ge ns src v c s dst r0 (proj1 Hwf)) as M. rewrite Hr in M.
    specialize (Hri r0). unfold ind in *.
    destruct (N.eqb r r0), (N.eqb (node_rack ns src) r0); lia.
Qed.

(* a rack that is found has a node with a free slot that holds fewer than avg shards of v and
   is not the source: "rack found, no node" cannot happen *)
Lemma rack_free_step_none : across_none rack_free_step.
Proof.
  intros v avg ns rk rsc picked s src picked' r Hwf P RO RF V Hsi Hpi Hri. simpl in *. exfalso.
  pose proof (waiting_rack_above _ _ _ _ _ _ _ _ Hpi P RO) as Hsr.
  pose proof (Hri r) as F. pose proof (pend_nonneg picked ns r).
  destruct (fsum_pos_exists ns r) as [n [Hin [Hr Hf]]]; [lia|].
  pose proof (get_node_self _ _ (proj1 Hwf) Hin) as G.
  assert (E : eligible ns src v avg (n_id n) = true).
  { unfold eligible. apply andb_true_intro. split; [apply andb_true_intro; split|].
    - apply negb_true_iff. apply N.eqb_neq. intros E. apply Hsr. rewrite <- E.
      rewrite (node_rack_get _ _ _ G). exact Hr.
    - apply Z.ltb_lt. unfold node_free. rewrite G. exact Hf.
    - apply Z.ltb_lt. rewrite (node_bits_get _ _ _ _ G).
      pose proof (count_le_rsum ns n r v Hin Hr). specialize (Hsi r). lia. }
  rewrite (V (n_id n)) in E; [discriminate|]. apply rack_node_ids_in; auto.
Qed.

(* the rack counters between the phases *)
Definition RI (st : state) : Prop := forall r, alookup (racks st) r <= fsum (nodes st) r.

Lemma RIp_nil : forall ns rk, RIp ns rk [] <-> (forall r, alookup rk r <= fsum ns r).
Proof. intros. unfold RIp. simpl. split; intros H r; specialize (H r); lia. Qed.

Lemma across_vid_rack : forall c st o st' its,
  across_vid c st o = Some (st', its) -> wf (nodes st) -> RI st ->
  wf (nodes st') /\ loud its /\ RI st'.
Proof.
  intros c st o st' its H Hwf Hri. unfold across_vid in H.
  destruct (perm_eqb _ _) eqn:PE; [|discriminate].
  destruct (pick_racks _ _ _ _ _ _ _) as [[ns1 picked]|] eqn:P; [|discriminate].
  assert (Hnd : NoDup (map fst (av_racks o))).
  { eapply perm_eqb_nodup; [exact PE|]. apply group_count_keys_nodup. }
  destruct (pick_racks_spread _ _ _ _ _ _ _ _ _ P Hwf) as [W1 [SI1 _]].
  { intros r. simpl. rewrite group_count_rsum by auto. lia. }
  destruct (pick_racks_rack _ _ _ _ _ _ _ _ _ (racks st) P Hwf Hnd) as [RI1 PI1].
  { exact (proj2 (RIp_nil _ _) Hri). }
  { intros r. simpl. lia. }
  { intros r _. reflexivity. }
  destruct (across_moves_A rack_free_step rack_free_step_refl rack_free_step_trans rack_free_step_norack rack_free_step_move rack_free_step_none _ _ _ _ _ _ _ _ _ H W1) as [W2 [rsc' Q]].
  destruct (Q SI1 PI1 RI1) as [_ [_ [C L]]]. split; [exact W2|]. split; [exact L|]. exact (proj1 (RIp_nil _ _) C).
Qed.

Lemma rsum_upd_other : forall ns id f r v', keeps_id_rack f -> (forall n, find (f n) v' = find n v') ->
  rsum (upd_node ns id f) r v' = rsum ns r v'.
Proof.
  induction ns as [|x ns IH]; intros id f r v' Hk Hf; simpl; auto.
  rewrite IH by auto. destruct (N.eqb (n_id x) id); auto.
  destruct (Hk x) as [_ Hr]. rewrite Hr, Hf. reflexivity.
Qed.

(* a move inside one rack of a shard the source holds: what the destination takes the source gives
   back, so the rack's free slot sum does not fall and no rack gains shards of any volume *)
Lemma move_same_rack : forall ns src v c s dst r0, wf ns ->
  hb ns src v s = true -> In s bit_range -> node_rack ns src = node_rack ns dst ->
  fsum ns r0 <= fsum (move_shard ns src v c s dst) r0 /\
  forall v', rsum (move_shard ns src v c s dst) r0 v' <= rsum ns r0 v'.
Proof.
  intros ns src v c s dst r0 Hwf Hs Hin Hr. unfold move_shard.
  pose proof (fsum_add_ge ns dst v c s r0 (proj1 Hwf)) as A.
  pose proof (rsum_add ns dst v c s r0 (proj1 Hwf)) as B.
  set (X := upd_node ns dst (add_shard v c s)) in *.
  assert (WX : wf X) by (apply wf_add; auto).
  assert (HX : hb X src v s = true) by (apply hb_add_keeps; exact Hs).
  assert (RX : node_rack X src = node_rack ns dst) by (unfold X; rewrite node_rack_upd by auto with c16; exact Hr).
  split.
  - rewrite (fsum_del_held X src v s r0 WX HX Hin), RX. lia.
  - intros v'. destruct (N.eqb_spec v' v) as [E|E].
    + subst v'. rewrite (rsum_del_held X src v s r0 (proj1 WX) HX Hin), RX. lia.
    + unfold X. rewrite rsum_upd_other; auto with c16.
      * rewrite rsum_upd_other; auto with c16; [lia|].
        intros n. rewrite find_add_shard. destruct (N.eqb_spec v' v); [contradiction|reflexivity].
      * intros n. rewrite find_del_shard. destruct (N.eqb_spec v' v); [contradiction|reflexivity].
Qed.

(* an item that neither abandons a pick nor crosses racks *)
Definition calm (i : item) : Prop :=
  match i with IEvent _ => True | IMove _ m => m_kind m <> KAcross | IDrop _ _ _ _ => False end.

(* what balanceEcShardsWithinRacks and balanceEcRacks do to the books: racks and free slot sums are
   kept, no rack gains shards of a volume, nothing is abandoned, nothing crosses racks *)
Definition fs_ok (ns ns' : list node) (its : list item) : Prop :=
  wf ns' /\ same_racks ns ns' /\ (forall r0, fsum ns r0 <= fsum ns' r0) /\ loud its /\
  (forall r0 v', rsum ns' r0 v' <= rsum ns r0 v') /\ Forall calm its.
Lemma fs_refl : forall ns, wf ns -> fs_ok ns ns [].
Proof.
  intros. split; auto. split; [apply same_racks_refl|]. split; [intros; lia|]. split; [constructor|].
  split; [intros; lia|constructor].
Qed.
Lemma fs_trans : forall a b c i1 i2, fs_ok a b i1 -> fs_ok b c i2 -> fs_ok a c (i1 ++ i2).
Proof.
  intros a b c i1 i2 [A1 [B1 [C1 [D1 [E1 F1]]]]] [A2 [B2 [C2 [D2 [E2 F2]]]]]. split; auto.
  split; [eapply same_racks_trans; eauto|]. split; [|split; [apply loud_app; auto|split]].
  - intros r0. specialize (C1 r0). specialize (C2 r0). lia.
  - intros r0 v'. specialize (E1 r0 v'). specialize (E2 r0 v'). lia.
  - apply Forall_app. auto.
Qed.

Lemma fs_print : forall ns e, wf ns -> is_norack e = false -> fs_ok ns ns [IEvent e].
Proof.
  intros ns e W He. split; auto. split; [apply same_racks_refl|]. split; [intros; lia|].
  split; [constructor; [exact He|constructor]|]. split; [intros; lia|constructor; [exact I|constructor]].
Qed.

Lemma fs_local_move : forall k line, k <> KAcross -> (forall src v s dst, is_norack (line src v s dst) = false) ->
  local_move fs_ok k line.
Proof.
  intros k line Hk Hl ns src v c s dst lim Hwf Pd Hne Hr Hs Hin Hfree.
  assert (Hb : In s bit_range) by (apply shard_in_bit_range; exact Hin).
  split; [apply wf_move; auto|]. split; [apply same_racks_move|]. split; [|split; [|split]].
  - intros r0. apply move_same_rack; auto.
  - constructor; [apply Hl|constructor].
  - intros r0 v'. apply move_same_rack; auto.
  - constructor; [exact Hk|constructor].
Qed.

Lemma within_vids_fs : forall os c nracks ns ns' its,
  within_vids c nracks ns os = Some (ns', its) -> wf ns -> fs_ok ns ns' its.
Proof.
  intros os c nracks ns ns' its H Hwf.
  apply (within_vids_L fs_ok fs_refl fs_trans) in H; auto; [apply H| |apply fs_local_move; [discriminate|reflexivity]].
  intros. apply fs_print; auto.
Qed.

Lemma balance_racks_list_fs : forall os nracks ns ns' its,
  balance_racks_list nracks ns os = Some (ns', its) -> wf ns -> fs_ok ns ns' its.
Proof.
  intros os nracks ns ns' its H Hwf.
  apply (balance_racks_list_L fs_ok fs_refl fs_trans) in H; auto; [apply H|apply fs_local_move; [discriminate|reflexivity]].
Qed.

Lemma run_plan_rack : forall st o st' its,
  run_plan false st o = Some (st', its) -> wf (nodes st) -> RI st ->
  wf (nodes st') /\ loud its /\ RI st'.
Proof.
  intros st o st' its H Hwf.
  assert (F : forall rk ns ns' i, fs_ok ns ns' i ->
    RI {| nodes := ns; racks := rk |} -> loud i /\ RI {| nodes := ns'; racks := rk |}).
  { intros rk ns ns' i [_ [_ [F [L _]]]] R. split; [exact L|]. intros r. specialize (R r). specialize (F r). simpl in *. lia. }
  apply (run_plan_T (fun a b i => RI a -> loud i /\ RI b)) in H; auto.
  - destruct H as [W Q]. intros R. split; [exact W|]. apply Q, R.
  - intros a _ R. split; [constructor|exact R].
  - intros a b c i1 i2 H1 H2 R. destruct (H1 R) as [L1 R1]. destruct (H2 R1) as [L2 R2].
    split; [apply loud_app; auto|exact R2].
  - intros a c _ R. split; [constructor; [reflexivity|constructor]|exact R].
  - intros a v s n k _ R. split; [constructor; [reflexivity|constructor]|exact R].
  - intros c a o0 b i A W R. apply (across_vid_rack _ _ _ _ _ A W R).
  - intros c nracks rk os ns ns' i A W. apply F, (within_vids_fs _ _ _ _ _ _ A W).
  - intros nracks rk os ns ns' i A W. apply F, (balance_racks_list_fs _ _ _ _ _ A W).
Qed.

Lemma RI_init : forall ns, RI (init_state ns).
Proof. intros ns r. simpl. rewrite collect_racks_fsum. lia. Qed.

Lemma run_plan_loud : forall ns o st' its,
  run_plan false (init_state ns) o = Some (st', its) -> wf ns -> loud its.
Proof. intros ns o st' its H Hwf. apply (run_plan_rack _ _ _ _ H Hwf (RI_init ns)). Qed.

Lemma loud_drops_printed : forall its v s, loud its -> drops_key its v s = printed_norack (events_of its) v s.
Proof.
  induction its as [|i its IH]; intros v s L; [reflexivity|]. inv L.
  unfold drops_key, events_of. simpl. fold (drops_key its v s). fold (events_of its).
  unfold printed_norack. rewrite existsb_app. fold (printed_norack (events_of its) v s).
  rewrite (IH v s H2). f_equal.
  destruct i as [e|e m|v1 s1 src [e|]]; simpl in *.
  - destruct e; simpl in *; try reflexivity; discriminate.
  - destruct e; simpl in *; try reflexivity; discriminate.
  - subst e. simpl. rewrite orb_false_r. reflexivity.
  - contradiction.
Qed.
Lemma loud_no_silent : forall its, loud its -> forall i, In i its -> is_silent_drop i = false.
Proof.
  intros its L i Hin. unfold loud in L. rewrite Forall_forall in L. specialize (L i Hin).
  destruct i as [e|e m|v1 s1 src [e|]]; simpl in *; auto. contradiction.
Qed.

(* ec.balance on the racks collectRacks builds (every snapshot, every oracle): when pickOneRack finds a
   rack, a node is found in it - a picked shard is never abandoned silently - and the picks of (v,s) that
   are abandoned are exactly the printed lines "ec shard v.s at X can not find a destination rack" *)
Theorem plan_drops_are_printed : forall ns o st' its,
  run_plan false (init_state ns) o = Some (st', its) -> wf ns ->
  (forall i, In i its -> is_silent_drop i = false) /\
  (forall v s, drops_key its v s = printed_norack (events_of its) v s).
Proof.
  intros ns o st' its H Hwf. pose proof (run_plan_loud _ _ _ _ H Hwf) as L.
  split; [apply loud_no_silent; exact L|intros; apply loud_drops_printed; exact L].
Qed.

(* books on which every rack already respects the spread limit (on a snapshot: [rack_balanced]) *)
Definition spread_done (st : state) : Prop :=
  forall r v, rsum (nodes st) r v <= ceil_div total_shards (Z.of_nat (length (racks st))).

Lemma calm_no_drop : forall its, Forall calm its -> has_drop its = false.
Proof.
  induction its as [|i its IH]; intros H; [reflexivity|]. inv H.
  unfold has_drop. simpl. fold (has_drop its). rewrite (IH H3). destruct i; simpl in *; auto. contradiction.
Qed.

Lemma ceil_div_nonneg : forall n, 0 <= ceil_div total_shards (Z.of_nat n).
Proof.
  intros n. unfold ceil_div, total_shards. destruct (Z.of_nat n =? 0) eqn:E; [lia|].
  apply Z.eqb_neq in E. apply Z.div_pos; lia.
Qed.

Lemma collect_racks_key : forall ns n, In n ns -> In (n_rack n) (map fst (collect_racks ns)).
Proof.
  intros ns n Hin. unfold collect_racks.
  assert (G : forall l acc, (In n l \/ In (n_rack n) (map fst acc)) ->
    In (n_rack n) (map fst (fold_left (fun acc n => aadd acc (n_rack n) (n_free n)) l acc))).
  { induction l as [|x l IH]; intros acc H; simpl; [destruct H as [[]|H]; exact H|].
    apply IH. rewrite aadd_keys. simpl in H. intuition (subst; auto). }
  apply G. left. exact Hin.
Qed.
Lemma rsum_zero_rack : forall ns r v, (forall n, In n ns -> n_rack n <> r) -> rsum ns r v = 0.
Proof.
  induction ns as [|x ns IH]; intros r v H; simpl; auto.
  rewrite IH by (intros; apply H; right; auto).
  destruct (N.eqb_spec (n_rack x) r); [exfalso; eapply H; [left; reflexivity|auto]|lia].
Qed.
Lemma rsum_zero_vid : forall ns r v, ~ In v (all_vids ns) -> rsum ns r v = 0.
Proof.
  intros ns r v Hv.
  assert (G : forall l, (forall n, In n l -> In n ns) -> rsum l r v = 0).
  { induction l as [|x l IH]; intros Hsub; simpl; auto.
    rewrite IH by (intros; apply Hsub; right; auto).
    assert (F : find x v = 0%N).
    { unfold find. apply find_bits_notin. intros X. apply Hv. unfold all_vids. apply dedup_In.
      apply in_flat_map. exists x. split; [apply Hsub; left; reflexivity|exact X]. }
    rewrite F. change (count 0) with 0. destruct (N.eqb (n_rack x) r); lia. }
  apply G. auto.
Qed.

Lemma rack_balanced_spec : forall ns, rack_balanced ns = true -> spread_done (init_state ns).
Proof.
  intros ns H r v. simpl. unfold rack_balanced in H. rewrite forallb_forall in H.
  destruct (in_dec N.eq_dec v (all_vids ns)) as [Hv|Hv].
  - specialize (H v Hv). rewrite forallb_forall in H.
    destruct (in_dec N.eq_dec r (map fst (collect_racks ns))) as [Hr|Hr].
    + specialize (H r Hr). apply Z.leb_le in H. rewrite rack_vid_count_rsum in H. exact H.
    + rewrite rsum_zero_rack; [apply ceil_div_nonneg|].
      intros n Hn E. apply Hr. rewrite <- E. apply collect_racks_key. exact Hn.
  - rewrite rsum_zero_vid by auto. apply ceil_div_nonneg.
Qed.

Lemma pick_racks_none : forall ro ns v avg rsc locs picked,
  (forall r, alookup rsc r <= avg) -> pick_racks ns v avg rsc locs ro picked = Some (ns, picked).
Proof.
  induction ro as [|[r cands] ro IH]; intros ns v avg rsc locs picked H; simpl; auto.
  destruct (Z.gtb_spec (alookup rsc r) avg) as [G|G]; [specialize (H r); lia|]. apply IH. exact H.
Qed.

Lemma across_vid_done : forall c st o st' its,
  across_vid c st o = Some (st', its) -> wf (nodes st) -> spread_done st -> st' = st /\ its = [].
Proof.
  intros c st o st' its H Hwf Hd. unfold across_vid in H.
  destruct (perm_eqb _ _); [|discriminate].
  rewrite pick_racks_none in H.
  - destruct (av_moves o) as [|[s ch] ms]; simpl in H; [|discriminate]. inv H. destruct st; auto.
  - intros r. rewrite group_count_rsum by auto. apply Hd.
Qed.

Lemma run_plan_done : forall st o st' its,
  run_plan false st o = Some (st', its) -> wf (nodes st) -> spread_done st ->
  wf (nodes st') /\ spread_done st' /\ Forall calm its.
Proof.
  intros st o st' its H Hwf.
  assert (F : forall rk ns ns' i, fs_ok ns ns' i ->
    spread_done {| nodes := ns; racks := rk |} -> spread_done {| nodes := ns'; racks := rk |} /\ Forall calm i).
  { intros rk ns ns' i [_ [_ [_ [_ [M K]]]]] D. split; [|exact K].
    intros r v. specialize (M r v). specialize (D r v). simpl in *. lia. }
  apply (run_plan_T (fun a b i => spread_done a -> spread_done b /\ Forall calm i)) in H; auto.
  - destruct H as [W Q]. intros D. split; [exact W|]. apply Q, D.
  - intros a b c i1 i2 H1 H2 D. destruct (H1 D) as [D1 C1]. destruct (H2 D1) as [D2 C2].
    split; [exact D2|apply Forall_app; auto].
  - intros a c _ D. split; [exact D|constructor; [exact I|constructor]].
  - intros a v s n k _ D. split; [exact D|constructor; [exact I|constructor]].
  - intros c a o0 b i A W D. destruct (across_vid_done _ _ _ _ _ A W D) as [E1 E2]. subst. split; [exact D|constructor].
  - intros c nracks rk os ns ns' i A W. apply F, (within_vids_fs _ _ _ _ _ _ A W).
  - intros nracks rk os ns ns' i A W. apply F, (balance_racks_list_fs _ _ _ _ _ A W).
Qed.

Theorem plan_balanced_calm : forall ns o st' its,
  run_plan false (init_state ns) o = Some (st', its) -> wf ns -> rack_balanced ns = true ->
  has_drop its = false /\ forall e m, In (IMove e m) its -> m_kind m <> KAcross.
Proof.
  intros ns o st' its H Hwf Hb.
  destruct (run_plan_done _ _ _ _ H Hwf (rack_balanced_spec _ Hb)) as [_ [_ C]].
  split; [apply calm_no_drop; exact C|].
  intros e m Hin. rewrite Forall_forall in C. apply (C _ Hin).
Qed.

Theorem plan_conserves_snapshot : forall ns o st' its,
  run_plan false (init_state ns) o = Some (st', its) ->
  wf ns -> bits32 ns = true -> has_dup ns = false -> rack_balanced ns = true ->
  (forall v s, total (nodes st') v s = total ns v s) /\ exactly_once_after ns (nodes st').
Proof.
  intros ns o st' its H Hwf HB HD HR.
  destruct (plan_balanced_calm _ _ _ _ H Hwf HR) as [ND _].
  exact (plan_conserves_partial _ _ _ _ H Hwf (unique_of_snapshot _ HB HD) ND).
Qed.

Theorem plan_conserves_key_printed : forall ns o st' its,
  run_plan false (init_state ns) o = Some (st', its) -> wf ns ->
  forall v s, dup_key ns v s = false -> printed_norack (events_of its) v s = false ->
    total (nodes st') v s = total ns v s.
Proof.
  intros ns o st' its H Hwf v s HD HP.
  assert (U : (total (nodes (init_state ns)) v s <= 1)%nat).
  { simpl. unfold dup_key in HD. apply Nat.ltb_ge in HD. exact HD. }
  destruct (plan_conserves_key _ _ _ _ H Hwf v s U) as [_ [C _]].
  destruct (plan_drops_are_printed _ _ _ _ H Hwf) as [_ P]. apply C. rewrite P. exact HP.
Qed.

Lemma example_balanced : rack_balanced ex_rack_nodes = true /\ rack_balanced ex_nodes = false.
Proof. split; vm_compute; reflexivity. Qed.
