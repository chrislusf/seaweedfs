(* C36 (model/Repl.v): the Go string operations on clean absolute paths ([abs k], k a list of
   plain segments) as operations on such lists; then events outside the watched directory, the
   signature filter, Replicator.Replicate, single LocalSink calls, witnesses. *)
From Coq Require Import List NArith ZArith Bool String Ascii Arith Lia.
From SW Require Import proof.StringFacts proof.ListFacts model.Repl.
Import ListNotations.
Local Open Scope list_scope.

Lemma slen_app : forall a b, String.length (a ^^ b) = String.length a + String.length b.
Proof. induction a as [|x a IH]; intros; simpl; [reflexivity|rewrite IH; reflexivity]. Qed.

Lemma drop_app : forall a b, drop (String.length a) (a ^^ b) = b.
Proof. induction a as [|x a IH]; intros; simpl; auto. Qed.

Lemma nonempty_app_r : forall a b, nonempty b = true -> nonempty (a ^^ b) = true.
Proof. destruct a; simpl; auto. Qed.

Lemma ends_cons : forall x y s, ends_with_slash (String x (String y s)) = ends_with_slash (String y s).
Proof. reflexivity. Qed.
Lemma trim_cons : forall x y s,
  trim_suffix_slash (String x (String y s)) = String x (trim_suffix_slash (String y s)).
Proof. reflexivity. Qed.
Lemma trim_right_cons : forall x s,
  trim_right_slashes (String x s) =
  if is_slash x && negb (nonempty (trim_right_slashes s)) then EmptyString
  else String x (trim_right_slashes s).
Proof. reflexivity. Qed.

Lemma ends_app : forall a b, nonempty b = true -> ends_with_slash (a ^^ b) = ends_with_slash b.
Proof.
  induction a as [|x a IH]; intros b Hb; [reflexivity|].
  change (String x a ^^ b) with (String x (a ^^ b)).
  pose proof (nonempty_app_r a b Hb) as Hn.
  destruct (a ^^ b) as [|y r] eqn:E; [discriminate|].
  rewrite ends_cons, <- E. apply IH; auto.
Qed.

Lemma trim_id : forall s, ends_with_slash s = false -> trim_suffix_slash s = s.
Proof.
  induction s as [|x s IH]; intros H; [reflexivity|].
  destruct s as [|y s].
  - simpl in *. rewrite H. reflexivity.
  - rewrite trim_cons. f_equal. apply IH. exact H.
Qed.

Lemma trim_app_slash : forall a, trim_suffix_slash (a ^^ "/") = a.
Proof.
  induction a as [|x a IH]; [reflexivity|].
  change (String x a ^^ "/") with (String x (a ^^ "/")).
  destruct (a ^^ "/") as [|y r] eqn:E.
  - destruct a; discriminate.
  - rewrite trim_cons. f_equal. exact IH.
Qed.

Lemma ends_true_inv : forall s, ends_with_slash s = true -> s = trim_suffix_slash s ^^ "/".
Proof.
  induction s as [|x s IH]; intros H; [discriminate|].
  destruct s as [|y s].
  - simpl in *. rewrite H. unfold is_slash in H. apply Ascii.eqb_eq in H. subst. reflexivity.
  - rewrite trim_cons. change (String x (trim_suffix_slash (String y s)) ^^ "/")
      with (String x (trim_suffix_slash (String y s) ^^ "/")).
    f_equal. apply IH. exact H.
Qed.

Lemma trim_right_id : forall s, ends_with_slash s = false -> trim_right_slashes s = s.
Proof.
  induction s as [|x s IH]; intros H; [reflexivity|].
  rewrite trim_right_cons. destruct s as [|y s].
  - simpl in *. rewrite H. reflexivity.
  - rewrite IH by exact H. simpl. rewrite andb_false_r. reflexivity.
Qed.

Lemma trim_right_app_slash : forall a, nonempty a = true -> ends_with_slash a = false ->
  trim_right_slashes (a ^^ "/") = a.
Proof.
  induction a as [|x a IH]; intros Hn He; [discriminate|].
  change (String x a ^^ "/") with (String x (a ^^ "/")).
  rewrite trim_right_cons. destruct a as [|y a].
  - simpl in *. rewrite He. reflexivity.
  - rewrite IH; [|reflexivity|exact He]. simpl. rewrite andb_false_r. reflexivity.
Qed.

Lemma split_nonnil : forall s, split_slash s <> [].
Proof.
  induction s as [|x s IH]; simpl; [discriminate|].
  destruct (is_slash x); [discriminate|]. destruct (split_slash s); discriminate.
Qed.

Lemma split_app : forall a b, split_slash (a ^^ "/" ^^ b) = split_slash a ++ split_slash b.
Proof.
  induction a as [|x a IH]; intros b; [reflexivity|].
  change (String x a ^^ "/" ^^ b) with (String x (a ^^ "/" ^^ b)).
  cbn [split_slash]. rewrite IH.
  destruct (is_slash x); [reflexivity|].
  pose proof (split_nonnil a) as Hn. destruct (split_slash a); [congruence|reflexivity].
Qed.

Lemma split_noslash : forall x, no_slash x = true -> split_slash x = [x].
Proof.
  induction x as [|c x IH]; intros H; [reflexivity|].
  cbn [no_slash] in H. apply andb_true_iff in H. destruct H as [Hc Hx].
  cbn [split_slash]. apply negb_true_iff in Hc. rewrite Hc, IH by auto. reflexivity.
Qed.

Lemma segs_app : forall a b, segs (a ^^ "/" ^^ b) = segs a ++ segs b.
Proof. intros. unfold segs. rewrite split_app, filter_app. reflexivity. Qed.

(* the strings on which filepath.Clean only drops the empty components ([clean_plain_comps]):
   every component is empty or plain *)
Definition plain_comps (s : string) : bool :=
  forallb (fun x => negb (nonempty x) || plain x) (split_slash s).

Lemma plain_comps_app : forall a b, plain_comps (a ^^ "/" ^^ b) = plain_comps a && plain_comps b.
Proof. intros. unfold plain_comps. rewrite split_app, forallb_app. reflexivity. Qed.

Lemma plain_facts : forall x, plain x = true ->
  nonempty x = true /\ String.eqb x "." = false /\ String.eqb x ".." = false /\ no_slash x = true.
Proof.
  intros x H. unfold plain in H. repeat (apply andb_true_iff in H; destruct H as [H ?]).
  repeat split; auto; apply negb_true_iff; auto.
Qed.

Lemma segs_plain : forall x, plain x = true -> segs x = [x].
Proof.
  intros x H. destruct (plain_facts x H) as [Hn [_ [_ Hs]]].
  unfold segs. rewrite split_noslash by auto. simpl. rewrite Hn. reflexivity.
Qed.

Lemma plain_comps_of_plain : forall x, plain x = true -> plain_comps x = true.
Proof.
  intros x H. destruct (plain_facts x H) as [_ [_ [_ Hs]]].
  unfold plain_comps. rewrite split_noslash by auto. simpl. rewrite H, orb_true_r. reflexivity.
Qed.

(* the path without its leading slash.  [abs k] is "/" ^^ render_rel k, also for the root, while
   [render []] is "": Replicate trims the source directory to [render s], filer.sync
   normalises it to [abs s], hence the facts below come once per rendering *)
Definition render_rel (k : list string) : string :=
  match k with [] => EmptyString | x :: k' => x ^^ render k' end.

Lemma abs_render_rel : forall k, abs k = "/" ^^ render_rel k.
Proof. destruct k; reflexivity. Qed.

Lemma render_app : forall a b, render (a ++ b) = render a ^^ render b.
Proof.
  induction a as [|x a IH]; intros; simpl; [reflexivity|].
  rewrite IH, append_assoc. reflexivity.
Qed.

Lemma segs_x_render : forall l x, plain x = true -> forallb plain l = true ->
  segs (x ^^ render l) = x :: l /\ plain_comps (x ^^ render l) = true.
Proof.
  induction l as [|y l IH]; intros x Hx Hl.
  - simpl. rewrite append_nil_r. split; [apply segs_plain|apply plain_comps_of_plain]; auto.
  - simpl in Hl. apply andb_true_iff in Hl. destruct Hl as [Hy Hl].
    cbn [render]. destruct (IH y Hy Hl) as [I1 I2].
    rewrite segs_app, plain_comps_app, I1, I2, segs_plain, plain_comps_of_plain by auto. split; reflexivity.
Qed.

Lemma segs_render_rel : forall k, forallb plain k = true -> segs (render_rel k) = k /\ plain_comps (render_rel k) = true.
Proof.
  destruct k as [|x k]; intros H; [split; reflexivity|].
  simpl in H. apply andb_true_iff in H. destruct H. apply segs_x_render; auto.
Qed.

Lemma segs_render : forall k, forallb plain k = true -> segs (render k) = k /\ plain_comps (render k) = true.
Proof.
  destruct k as [|x k]; intros H; [split; reflexivity|].
  change (render (x :: k)) with (EmptyString ^^ "/" ^^ render_rel (x :: k)).
  rewrite segs_app, plain_comps_app. destruct (segs_render_rel (x :: k) H) as [A B]. rewrite A, B. split; reflexivity.
Qed.

Lemma segs_abs : forall k, forallb plain k = true -> segs (abs k) = k /\ plain_comps (abs k) = true.
Proof.
  intros k H. rewrite abs_render_rel. change ("/" ^^ render_rel k) with (EmptyString ^^ "/" ^^ render_rel k).
  rewrite segs_app, plain_comps_app. destruct (segs_render_rel k H) as [A B]. rewrite A, B. split; reflexivity.
Qed.

Lemma is_clean_abs_inv : forall s, is_clean_abs s = true ->
  exists k, forallb plain k = true /\ s = abs k /\ segs s = k.
Proof.
  intros s H. unfold is_clean_abs in H. apply andb_true_iff in H. destruct H as [Hp He].
  apply String.eqb_eq in He. exists (segs s). auto.
Qed.

Lemma is_clean_abs_abs : forall k, forallb plain k = true -> is_clean_abs (abs k) = true.
Proof.
  intros k H. unfold is_clean_abs. destruct (segs_abs k H) as [A _]. rewrite A, H, String.eqb_refl. reflexivity.
Qed.

Lemma plain_last : forall l x, forallb plain l = true -> plain x = true -> forallb plain (l ++ [x]) = true.
Proof. intros. rewrite forallb_app. simpl. rewrite H, H0. reflexivity. Qed.

Lemma ends_noslash : forall y, nonempty y = true -> no_slash y = true -> ends_with_slash y = false.
Proof.
  induction y as [|c y IH]; intros Hn Hs; [discriminate|].
  cbn [no_slash] in Hs. apply andb_true_iff in Hs. destruct Hs as [Hc Hs].
  destruct y as [|d y].
  - simpl. apply negb_true_iff. exact Hc.
  - rewrite ends_cons. apply IH; auto.
Qed.

Lemma ends_abs : forall k, forallb plain k = true -> k <> [] -> ends_with_slash (abs k) = false.
Proof.
  intros k H Hne. destruct (exists_last Hne) as [k' [y E]]. subst k.
  rewrite forallb_app in H. apply andb_true_iff in H. destruct H as [_ Hy]. simpl in Hy. rewrite andb_true_r in Hy.
  destruct (plain_facts y Hy) as [Hn [_ [_ Hs]]].
  assert (A : abs (k' ++ [y]) = render k' ^^ "/" ^^ y).
  { destruct k' as [|z k']; [simpl; rewrite append_nil_r; reflexivity|].
    change (abs ((z :: k') ++ [y])) with (render ((z :: k') ++ [y])).
    rewrite render_app. simpl. rewrite append_nil_r. reflexivity. }
  rewrite A, (ends_app (render k')), (ends_app "/") by auto. apply ends_noslash; assumption.
Qed.

Lemma child_abs : forall d x, forallb plain d = true -> child (abs d) x = abs (d ++ [x]).
Proof.
  intros d x Hd. unfold child. destruct d as [|y d].
  - simpl. rewrite append_nil_r. reflexivity.
  - rewrite ends_abs by (auto; discriminate).
    change (abs (y :: d)) with (render (y :: d)).
    change (abs ((y :: d) ++ [x])) with (render ((y :: d) ++ [x])).
    rewrite render_app. simpl. rewrite append_nil_r. reflexivity.
Qed.

Lemma lprefix_inv : forall s k, lprefix s k = true -> exists r, k = s ++ r.
Proof.
  induction s as [|x s IH]; intros k H; [exists k; reflexivity|].
  destruct k as [|y k]; [discriminate|]. simpl in H. apply andb_true_iff in H. destruct H as [E H].
  apply String.eqb_eq in E. subst. destruct (IH _ H) as [r Hr]. exists r. simpl. congruence.
Qed.

Lemma lprefix_app : forall s r, lprefix s (s ++ r) = true.
Proof. induction s as [|x s IH]; intros; simpl; [reflexivity|]. rewrite String.eqb_refl, IH. reflexivity. Qed.

Lemma list_eqb_eq : forall a b, list_eqb a b = true <-> a = b.
Proof. exact (eqb_list_eq String.eqb String.eqb_eq). Qed.

Lemma trim_render : forall s, forallb plain s = true -> trim_suffix_slash (render s) = render s.
Proof.
  intros s H. destruct s as [|x s]; [reflexivity|].
  apply trim_id. apply (ends_abs (x :: s)); [auto|discriminate].
Qed.

(* [key == dir || HasPrefix(key, dir + "/")] for dir = render s (no trailing slash; "" for the root) *)
Lemma dir_test : forall s k, forallb plain s = true -> forallb plain k = true ->
  String.eqb (abs k) (render s) || String.prefix (render s ^^ "/") (abs k) = lprefix s k.
Proof.
  intros s k Hs Hk. destruct (lprefix s k) eqn:L.
  - destruct (lprefix_inv _ _ L) as [r Hr]. subst k.
    destruct r as [|x r].
    + rewrite app_nil_r. destruct s as [|y s].
      * reflexivity.
      * change (abs (y :: s)) with (render (y :: s)). rewrite String.eqb_refl. reflexivity.
    + assert (E : abs (s ++ x :: r) = (render s ^^ "/") ^^ render_rel (x :: r)).
      { destruct s; [reflexivity|]. change (abs ((s :: s0) ++ x :: r)) with (render ((s :: s0) ++ x :: r)).
        rewrite render_app, append_assoc. reflexivity. }
      rewrite E, prefix_app, orb_true_r. reflexivity.
  - apply not_true_is_false. intro H. apply orb_true_iff in H. destruct H as [H|H].
    + apply String.eqb_eq in H.
      assert (E : segs (abs k) = segs (render s)) by congruence.
      destruct (segs_abs k Hk) as [A _]. destruct (segs_render s Hs) as [B _].
      rewrite A, B in E. subst. rewrite <- (app_nil_r s) in L at 2. rewrite lprefix_app in L. discriminate.
    + apply prefix_exists in H. destruct H as [r Hr]. rewrite append_assoc in Hr.
      assert (E : segs (abs k) = segs (render s ^^ "/" ^^ r)) by congruence.
      rewrite segs_app in E. destruct (segs_abs k Hk) as [A _]. destruct (segs_render s Hs) as [B _].
      rewrite A, B in E. subst. rewrite lprefix_app in L. discriminate.
Qed.

(* pathIsUnder against a normalised source path *)
Lemma under_abs : forall s k, forallb plain s = true -> forallb plain k = true ->
  under (abs k) (abs s) = lprefix s k.
Proof.
  intros s k Hs Hk. unfold under. destruct s as [|x s].
  - change (trim_suffix_slash (abs [])) with EmptyString. simpl (lprefix [] k).
    rewrite abs_render_rel. change (EmptyString ^^ "/") with "/"%string.
    rewrite (prefix_app "/" (render_rel k)), orb_true_r. reflexivity.
  - change (abs (x :: s)) with (render (x :: s)). rewrite trim_render by auto.
    apply dir_test; auto.
Qed.

Lemma clean_segs_plain_comps : forall rooted l acc,
  forallb (fun x => negb (nonempty x) || plain x) l = true ->
  clean_segs rooted acc l = rev acc ++ filter nonempty l.
Proof.
  induction l as [|x l IH]; intros acc H; simpl; [rewrite app_nil_r; reflexivity|].
  simpl in H. apply andb_true_iff in H. destruct H as [Hx Hl].
  destruct x as [|c x'].
  - simpl. apply IH; auto.
  - simpl in Hx. destruct (plain_facts _ Hx) as [_ [H1 [H2 _]]].
    rewrite H1, H2. cbn [String.eqb orb nonempty]. rewrite IH by auto. simpl.
    rewrite <- app_assoc. reflexivity.
Qed.

Lemma join_sep_abs : forall l, "/" ^^ join_sep l = abs l.
Proof.
  induction l as [|x l IH]; [reflexivity|].
  destruct l as [|y l].
  - simpl. rewrite append_nil_r. reflexivity.
  - change (join_sep (x :: y :: l)) with (x ^^ "/" ^^ join_sep (y :: l)).
    change (abs (x :: y :: l)) with ("/" ^^ x ^^ abs (y :: l)). rewrite <- IH. reflexivity.
Qed.

Lemma clean_plain_comps : forall s, is_rooted s = true -> plain_comps s = true -> clean s = abs (segs s).
Proof.
  intros s Hr Hg. unfold clean. destruct s as [|c s]; [discriminate|].
  rewrite Hr. unfold plain_comps in Hg. rewrite clean_segs_plain_comps by auto. simpl rev. simpl app.
  apply join_sep_abs.
Qed.

Lemma rooted_abs_app : forall t x, is_rooted (abs t ^^ x) = true.
Proof. intros. rewrite abs_render_rel. reflexivity. Qed.

Lemma nonempty_abs : forall t, nonempty (abs t) = true.
Proof. intros. rewrite abs_render_rel. reflexivity. Qed.

Lemma join2 : forall t x, forallb plain t = true -> plain_comps x = true ->
  join [abs t; x] = abs (t ++ segs x).
Proof.
  intros t x Ht Hx. cbn [join]. rewrite nonempty_abs.
  change (join_sep [abs t; x]) with (abs t ^^ "/" ^^ x).
  destruct (segs_abs t Ht) as [A B].
  rewrite clean_plain_comps.
  - rewrite segs_app, A. reflexivity.
  - apply rooted_abs_app.
  - rewrite plain_comps_app, B, Hx. reflexivity.
Qed.

Lemma join3 : forall t d x, forallb plain t = true -> plain_comps d = true -> plain_comps x = true ->
  join [abs t; d; x] = abs (t ++ segs d ++ segs x).
Proof.
  intros t d x Ht Hd Hx. cbn [join]. rewrite nonempty_abs.
  change (join_sep [abs t; d; x]) with (abs t ^^ "/" ^^ d ^^ "/" ^^ x).
  destruct (segs_abs t Ht) as [A B].
  rewrite clean_plain_comps.
  - rewrite !segs_app, A. reflexivity.
  - apply rooted_abs_app.
  - rewrite !plain_comps_app, B, Hd, Hx. reflexivity.
Qed.

(* slicing a key below the source directory *)
Lemma drop_abs_abs : forall s r, forallb plain s = true -> forallb plain r = true ->
  segs (drop (String.length (abs s)) (abs (s ++ r))) = r /\
  plain_comps (drop (String.length (abs s)) (abs (s ++ r))) = true.
Proof.
  intros s r Hs Hr. destruct s as [|x s].
  - simpl app. change (abs []) with "/"%string. rewrite (abs_render_rel r).
    change (drop (String.length "/") ("/" ^^ render_rel r)) with (render_rel r). apply segs_render_rel; auto.
  - change (abs (x :: s)) with (render (x :: s)).
    change (abs ((x :: s) ++ r)) with (render ((x :: s) ++ r)).
    rewrite render_app, drop_app. apply segs_render; auto.
Qed.

Lemma drop_render_abs : forall s r, forallb plain s = true -> forallb plain r = true ->
  segs (drop (String.length (render s)) (abs (s ++ r))) = r /\
  plain_comps (drop (String.length (render s)) (abs (s ++ r))) = true.
Proof.
  intros s r Hs Hr. destruct s as [|x s].
  - simpl. apply segs_abs; auto.
  - apply (drop_abs_abs (x :: s) r); auto.
Qed.

(* a clean relative path is not empty and neither starts nor ends with a slash; [z] is what
   follows it when the leading slashes are trimmed ("" and "/" are used) *)
Lemma render_rel_trim : forall x l z, forallb plain (x :: l) = true ->
  trim_left_slashes ("/" ^^ render_rel (x :: l) ^^ z) = render_rel (x :: l) ^^ z /\
  nonempty (render_rel (x :: l)) = true /\ ends_with_slash (render_rel (x :: l)) = false.
Proof.
  intros x l z H. pose proof (ends_abs (x :: l) H) as E. simpl in H. apply andb_true_iff in H. destruct H as [Hx _].
  destruct (plain_facts x Hx) as [Hn [_ [_ Hs]]]. destruct x as [|c x]; [discriminate|].
  simpl in Hs. apply andb_true_iff in Hs. destruct Hs as [Hc _]. apply negb_true_iff in Hc.
  split; [simpl; rewrite Hc; reflexivity|]. split; [reflexivity|].
  rewrite abs_render_rel, ends_app in E by reflexivity. apply E. discriminate.
Qed.

Lemma wf_src_inv : forall s0, wf_src s0 = true ->
  exists s, forallb plain s = true /\ segs s0 = s /\
            "/" ^^ trim_slashes s0 = abs s /\ trim_suffix_slash s0 = render s.
Proof.
  intros s0 H. unfold wf_src in H. apply orb_true_iff in H. destruct H as [H|H].
  - destruct (is_clean_abs_inv _ H) as [s [Hp [E Hs]]]. exists s. subst s0.
    repeat split; auto; destruct s as [|x s]; try reflexivity.
    + destruct (render_rel_trim x s EmptyString Hp) as [A [_ C]]. rewrite !append_nil_r in A.
      unfold trim_slashes. rewrite abs_render_rel, A, trim_right_id by exact C. reflexivity.
    + apply trim_id. apply (ends_abs (x :: s)); [auto|discriminate].
  - apply andb_true_iff in H. destruct H as [H Hne]. apply andb_true_iff in H. destruct H as [He Hc].
    destruct (is_clean_abs_inv _ Hc) as [s [Hp [E Hs]]]. apply negb_true_iff in Hne. rewrite E in Hne.
    destruct s as [|x s]; [discriminate|]. pose proof (ends_true_inv _ He) as Hs0. rewrite E in Hs0.
    exists (x :: s). repeat split; auto; rewrite Hs0.
    + change (abs (x :: s) ^^ "/") with (abs (x :: s) ^^ "/" ^^ EmptyString).
      rewrite segs_app. destruct (segs_abs (x :: s) Hp) as [A _]. rewrite A. apply app_nil_r.
    + destruct (render_rel_trim x s "/" Hp) as [A [B C]]. unfold trim_slashes. rewrite abs_render_rel.
      change (("/" ^^ render_rel (x :: s)) ^^ "/") with ("/" ^^ render_rel (x :: s) ^^ "/").
      rewrite A, trim_right_app_slash by assumption. reflexivity.
Qed.

Lemma lprefix_snoc : forall s d x,
  lprefix s (d ++ [x]) = lprefix s d || list_eqb (d ++ [x]) s.
Proof.
  induction s as [|a s IH]; intros d x; [reflexivity|].
  destruct d as [|b d]; simpl.
  - rewrite String.eqb_sym. destruct s; reflexivity.
  - rewrite IH, andb_orb_distrib_r, (String.eqb_sym b a). reflexivity.
Qed.

Lemma lprefix_len : forall s k, lprefix s k = true -> List.length s <= List.length k.
Proof.
  intros s k H. destruct (lprefix_inv _ _ H) as [r Hr]. subst. rewrite app_length. lia.
Qed.

Lemma inside_snoc : forall c d x, inside c (d ++ [x]) = lprefix (src_segs c) d.
Proof.
  intros c d x. unfold inside. rewrite lprefix_snoc, app_length. simpl.
  destruct (lprefix (src_segs c) d) eqn:L.
  - apply lprefix_len in L. apply Nat.ltb_lt. lia.
  - destruct (list_eqb (d ++ [x]) (src_segs c)) eqn:E; [|reflexivity].
    apply list_eqb_eq in E. rewrite <- E, app_length. simpl. apply Nat.ltb_irrefl.
Qed.

Lemma abs_len_mono : forall s p, lprefix s p = true ->
  Nat.ltb (String.length (abs p)) (String.length (abs s)) = false.
Proof.
  intros s p H. apply Nat.ltb_ge. destruct (lprefix_inv _ _ H) as [r Hr]. subst p.
  destruct s as [|x s].
  - simpl app. rewrite (abs_render_rel r). simpl. lia.
  - change (abs ((x :: s) ++ r)) with (render ((x :: s) ++ r)).
    rewrite render_app, slen_app. change (abs (x :: s)) with (render (x :: s)). lia.
Qed.

(* [s] and [t] are the components of the source and of the target directory of [c]; the
   two normalisations of the source (filer_sync.go, Replicate) both lead to [s] *)
Record config_segs (c : config) (s t : list string) : Prop := {
  cs_plain_src : forallb plain s = true;
  cs_plain_tgt : forallb plain t = true;
  cs_src : src_segs c = s;
  cs_tgt : tgt_segs c = t;
  cs_sync_src : "/" ^^ trim_slashes (src c) = abs s;      (* filer.sync's sourcePath *)
  cs_repl_src : trim_suffix_slash (src c) = render s;     (* Replicate's dir *)
  cs_tgt_abs : tgt c = abs t
}.

Lemma wf_config_inv : forall c, wf_config c = true -> exists s t, config_segs c s t.
Proof.
  intros c H. unfold wf_config in H. apply andb_true_iff in H. destruct H as [Hs Ht].
  destruct (wf_src_inv _ Hs) as [s [Ps [Es [En Et]]]].
  destruct (is_clean_abs_inv _ Ht) as [t [Pt [Et1 Et2]]].
  exists s, t. unfold src_segs, tgt_segs. split; auto.
Qed.

Lemma wf_event_inv : forall ev, wf_event ev = true ->
  is_clean_abs (ev_dir ev) = true /\
  opt_all (fun o => plain (e_name o)) (ev_old ev) = true /\
  opt_all (fun n => plain (e_name n) && is_clean_abs (ev_new_parent ev)) (ev_new ev) = true /\
  match ev_old ev, ev_new ev with
  | None, Some _ => String.eqb (ev_dir ev) (ev_new_parent ev)
  | _, _ => true
  end = true.
Proof.
  intros ev H. unfold wf_event in H.
  apply andb_true_iff in H. destruct H as [H H4].
  apply andb_true_iff in H. destruct H as [H H3].
  apply andb_true_iff in H. destruct H as [H1 H2]. auto.
Qed.

Lemma wf_old_key : forall ev o, wf_event ev = true -> ev_old ev = Some o ->
  forallb plain (segs (ev_dir ev) ++ [e_name o]) = true.
Proof.
  intros ev o He Eo. destruct (wf_event_inv ev He) as [Hd [Hold _]]. rewrite Eo in Hold.
  destruct (is_clean_abs_inv _ Hd) as [d [Pd [_ Sd]]]. rewrite Sd. apply plain_last; assumption.
Qed.

Lemma wf_new_key : forall ev n, wf_event ev = true -> ev_new ev = Some n ->
  forallb plain (segs (ev_new_parent ev) ++ [e_name n]) = true.
Proof.
  intros ev n He En. destruct (wf_event_inv ev He) as [_ [_ [Hnew _]]]. rewrite En in Hnew.
  apply andb_true_iff in Hnew. destruct Hnew as [Pn Cp].
  destruct (is_clean_abs_inv _ Cp) as [p [Pp [_ Sp]]]. rewrite Sp. apply plain_last; assumption.
Qed.

Lemma lprefix_plain_inv : forall s k, lprefix s k = true -> forallb plain k = true ->
  exists r, k = s ++ r /\ forallb plain r = true.
Proof.
  intros s k L Pk. destruct (lprefix_inv _ _ L) as [r Hr]. subst k. exists r.
  rewrite forallb_app in Pk. apply andb_true_iff in Pk. tauto.
Qed.

Lemma map_path_app : forall c s t r, config_segs c s t -> map_path c (s ++ r) = abs (t ++ r).
Proof. intros c s t r [_ _ Es Et _ _ _]. unfold map_path. rewrite Es, Et, skipn_app_length. reflexivity. Qed.

(* non-incremental: Join(target, key[len(source):]) *)
Lemma map_key : forall c s t k, config_segs c s t -> forallb plain k = true -> lprefix s k = true ->
  join [tgt c; drop (String.length (abs s)) (abs k)] = map_path c k.
Proof.
  intros c s t k Hc Pk L. destruct (lprefix_plain_inv _ _ L Pk) as [r [Hr Pr]]. subst k.
  pose proof Hc as [Ps Pt _ _ _ _ Etgt]. destruct (drop_abs_abs s r Ps Pr) as [A B].
  rewrite Etgt, join2, A by auto. symmetry. apply (map_path_app c s t r Hc).
Qed.

(* the same for Replicate: Join(sinkDir, "", key[len(dir):]) *)
Lemma map_key_r : forall c s t k, config_segs c s t -> forallb plain k = true -> lprefix s k = true ->
  join [tgt c; EmptyString; drop (String.length (render s)) (abs k)] = map_path c k.
Proof.
  intros c s t k Hc Pk L. destruct (lprefix_plain_inv _ _ L Pk) as [r [Hr Pr]]. subst k.
  pose proof Hc as [Ps Pt _ _ _ _ Etgt]. destruct (drop_render_abs s r Ps Pr) as [A B].
  rewrite Etgt, join3, A by auto. symmetry. apply (map_path_app c s t r Hc).
Qed.

(* incremental sinks (filer.backup with is_incremental): the date folder after the target *)
Lemma map_key_inc : forall c s t k dk, config_segs c s t -> forallb plain k = true -> plain dk = true ->
  lprefix s k = true ->
  join [tgt c; dk; drop (String.length (abs s)) (abs k)] = map_path_inc c dk k.
Proof.
  intros c s t k dk Hc Pk Pd L. destruct (lprefix_plain_inv _ _ L Pk) as [r [Hr Pr]]. subst k.
  pose proof Hc as [Ps Pt Es Et _ _ Etgt]. destruct (drop_abs_abs s r Ps Pr) as [A B].
  rewrite Etgt, join3 by (auto using plain_comps_of_plain). rewrite A, segs_plain by auto.
  unfold map_path_inc. rewrite Es, Et, skipn_app_length. reflexivity.
Qed.

Lemma abs_inj : forall a b, forallb plain a = true -> forallb plain b = true -> abs a = abs b -> a = b.
Proof.
  intros a b Ha Hb E. destruct (segs_abs a Ha) as [A _]. destruct (segs_abs b Hb) as [B _].
  rewrite <- A, <- B, E. reflexivity.
Qed.

Lemma map_path_inj : forall c k1 k2, wf_config c = true -> forallb plain k1 = true -> forallb plain k2 = true ->
  inside c k1 = true -> inside c k2 = true -> map_path c k1 = map_path c k2 -> k1 = k2.
Proof.
  intros c k1 k2 Hc P1 P2 I1 I2 E. destruct (wf_config_inv c Hc) as [s [t Hcs]].
  pose proof Hcs as [_ Pt Es _ _ _ _]. unfold inside in I1, I2. rewrite Es in I1, I2.
  apply andb_true_iff in I1. destruct I1 as [L1 _]. apply andb_true_iff in I2. destruct I2 as [L2 _].
  destruct (lprefix_plain_inv _ _ L1 P1) as [r1 [H1 Pr1]]. destruct (lprefix_plain_inv _ _ L2 P2) as [r2 [H2 Pr2]].
  subst k1 k2. rewrite !(map_path_app c s t) in E by exact Hcs.
  apply abs_inj in E; [|rewrite forallb_app, Pt; auto|rewrite forallb_app, Pt; auto].
  apply app_inv_head in E. congruence.
Qed.

Lemma join_child : forall l x, forallb plain l = true -> plain x = true ->
  join [abs l; x] = abs (l ++ [x]).
Proof.
  intros l x Hl Hx. rewrite join2 by (auto using plain_comps_of_plain). rewrite segs_plain by auto. reflexivity.
Qed.

Lemma join_mapped : forall c p x, wf_config c = true -> forallb plain (p ++ [x]) = true ->
  inside c (p ++ [x]) = true -> join [map_path c p; x] = map_path c (p ++ [x]).
Proof.
  intros c p x Hc P L. destruct (wf_config_inv c Hc) as [s [t Hcs]]. pose proof Hcs as [_ Pt Es _ _ _ _].
  rewrite inside_snoc, Es in L. rewrite forallb_app in P. apply andb_true_iff in P. destruct P as [Pp Px].
  simpl in Px. rewrite andb_true_r in Px.
  destruct (lprefix_plain_inv _ _ L Pp) as [r [Hr Pr]]. subst p.
  rewrite <- app_assoc, !(map_path_app c s t) by exact Hcs.
  rewrite join_child by (auto; rewrite forallb_app, Pt, Pr; reflexivity).
  rewrite <- app_assoc. reflexivity.
Qed.

(* from here on the proofs rewrite with the lemmas above instead of unfolding; also for
   ReplEmit.v and ReplLocal.v *)
Global Arguments join : simpl never.
Global Arguments clean : simpl never.
Global Arguments drop : simpl never.
Global Arguments abs : simpl never.
Global Arguments render : simpl never.
Global Arguments child : simpl never.
Global Arguments under : simpl never.
Global Arguments lprefix : simpl never.
Global Arguments list_eqb : simpl never.
Global Arguments map_path : simpl never.
Global Arguments map_path_inc : simpl never.
Local Arguments String.length : simpl never.
Local Arguments Nat.ltb : simpl never.

Lemma outside_parent : forall s d x, negb (lprefix s (d ++ [x])) = true -> lprefix s d = false.
Proof.
  intros s d x H. apply negb_true_iff in H. rewrite lprefix_snoc in H. apply orb_false_iff in H. apply H.
Qed.

Theorem sync_outside_ignored : forall c ev,
  wf_config c = true -> wf_event ev = true -> all_outside c ev = true ->
  sync_process c ev = Nothing.
Proof.
  intros c ev Hc He Ho.
  destruct (wf_config_inv c Hc) as [s [t [Ps Pt Es Et En _ Etgt]]].
  destruct (wf_event_inv ev He) as [Hd [Hold [Hnew Hsame]]].
  destruct (is_clean_abs_inv _ Hd) as [d [Pd [Ed Sd]]].
  unfold all_outside, old_key, new_key in Ho. rewrite Es, Sd in Ho.
  unfold sync_process. rewrite En.
  destruct (ev_old ev) as [o|]; destruct (ev_new ev) as [n|]; simpl in Ho, Hnew, Hsame |- *.
  - apply andb_true_iff in Hnew. destruct Hnew as [_ Cp].
    destruct (is_clean_abs_inv _ Cp) as [p [Pp [Ep Sp]]].
    rewrite Sp in Ho. apply andb_true_iff in Ho. destruct Ho as [O1 O2].
    rewrite Ep, Ed, !under_abs, (outside_parent _ _ _ O1), (outside_parent _ _ _ O2) by auto. reflexivity.
  - rewrite andb_true_r in Ho. rewrite Ed, under_abs, (outside_parent _ _ _ Ho) by auto. reflexivity.
  - apply String.eqb_eq in Hsame. rewrite <- Hsame, Sd in Ho.
    rewrite <- Hsame, Ed, !under_abs, (outside_parent _ _ _ Ho) by auto. reflexivity.
  - (* no entry at all *) destruct (negb _ && _); reflexivity.
Qed.

Theorem replicate_outside_ignored : forall c k ev,
  wf_config c = true -> forallb plain k = true -> lprefix (src_segs c) k = false ->
  replicate c (abs k) ev = Nothing.
Proof.
  intros c k ev Hc Pk Ho.
  destruct (wf_config_inv c Hc) as [s [t [Ps Pt Es Et _ Er Etgt]]].
  unfold replicate. destruct (ev_from_other ev && sink_is_filer c); [reflexivity|].
  rewrite Er, <- negb_orb, dir_test by auto. rewrite Es in Ho. rewrite Ho. reflexivity.
Qed.

Theorem sync_no_echo : forall c ev,
  target_sig c <> 0%Z -> In (target_sig c) (ev_sigs ev) -> sync_filtered c ev = Nothing.
Proof.
  intros c ev Hz Hin. unfold sync_filtered.
  assert (E : carries_sig c ev = true).
  { unfold carries_sig. apply existsb_exists. exists (target_sig c). split; auto.
    rewrite Z.eqb_refl. simpl. apply negb_true_iff. apply Z.eqb_neq. auto. }
  rewrite E. reflexivity.
Qed.

Theorem sync_filter_transparent : forall c ev,
  ~ In (target_sig c) (ev_sigs ev) -> sync_filtered c ev = sync_process c ev.
Proof.
  intros c ev Hn. unfold sync_filtered.
  assert (E : carries_sig c ev = false).
  { unfold carries_sig. apply not_true_is_false. intro H. apply existsb_exists in H.
    destruct H as [x [Hx Hb]]. apply andb_true_iff in Hb. destruct Hb as [Hb _].
    apply Z.eqb_eq in Hb. subst. auto. }
  rewrite E. reflexivity.
Qed.

Theorem replicate_no_echo : forall c key ev,
  ev_from_other ev = true -> sink_is_filer c = true -> replicate c key ev = Nothing.
Proof. intros c key ev H1 H2. unfold replicate. rewrite H1, H2. reflexivity. Qed.

(* Replicate's dispatch test and key mapping, for the key of an entry [x] in directory [d]
   that is not the watched directory itself *)
Lemma replicate_key : forall c s t d x,
  config_segs c s t -> forallb plain d = true -> plain x = true -> list_eqb (d ++ [x]) s = false ->
  String.eqb (child (abs d) x) (render s) || String.prefix (render s ^^ "/") (child (abs d) x) = lprefix s d /\
  (lprefix s d = true ->
   join [tgt c; EmptyString; drop (String.length (render s)) (child (abs d) x)] = map_path c (d ++ [x])).
Proof.
  intros c s t d x Hc Pd Px R. pose proof (cs_plain_src _ _ _ Hc) as Ps.
  assert (L : lprefix s (d ++ [x]) = lprefix s d) by (rewrite lprefix_snoc, R; apply orb_false_r).
  rewrite child_abs, dir_test, L by (auto using plain_last). split; [reflexivity|].
  intros D. apply (map_key_r c s t); [exact Hc|auto using plain_last|congruence].
Qed.

(* what Replicate does with a well-formed event: the reference plan for an event with one
   entry; an event with both entries is handled by its old key only, NewParentPath unmapped *)
Lemma replicate_event : forall c ev,
  wf_config c = true -> wf_event ev = true -> incremental c = false ->
  ev_from_other ev && sink_is_filer c = false -> touches_root c ev = false ->
  replicate c (event_key ev) ev =
  match ev_old ev, ev_new ev with
  | Some o, Some n =>
      if inside c (segs (ev_dir ev) ++ [e_name o])
      then UpdateOr (Update (map_path c (segs (ev_dir ev) ++ [e_name o])) (ev_new_parent ev) n (ev_delete_chunks ev))
                    (Delete (map_path c (segs (ev_dir ev) ++ [e_name o])) (e_isdir o) false)
                    (Create (map_path c (segs (ev_dir ev) ++ [e_name o])) n)
      else Nothing
  | _, _ => mirror_spec c ev
  end.
Proof.
  intros c ev Hc He Hi Hecho Hroot.
  destruct (wf_config_inv c Hc) as [s [t Hcs]]. pose proof Hcs as [_ _ Es _ _ Er _].
  destruct (wf_event_inv ev He) as [Hd [Hold [Hnew Hsame]]].
  destruct (is_clean_abs_inv _ Hd) as [d [Pd [Ed Sd]]].
  unfold touches_root, old_key, new_key in Hroot. rewrite Es, Sd in Hroot.
  unfold replicate, mirror_spec, event_key. rewrite Hecho, Er, Sd, Hi, Ed, <- negb_orb.
  destruct (ev_old ev) as [o|]; destruct (ev_new ev) as [n|]; simpl in Hold, Hnew, Hroot |- *.
  - apply orb_false_iff in Hroot. destruct Hroot as [R1 _].
    destruct (replicate_key c s t d (e_name o) Hcs Pd Hold R1) as [T K].
    rewrite T, inside_snoc, Es. destruct (lprefix s d); simpl; [rewrite (K eq_refl)|]; reflexivity.
  - rewrite orb_false_r in Hroot.
    destruct (replicate_key c s t d (e_name o) Hcs Pd Hold Hroot) as [T K].
    rewrite T, inside_snoc, Es. destruct (lprefix s d); simpl; [rewrite (K eq_refl)|]; reflexivity.
  - apply andb_true_iff in Hnew. destruct Hnew as [Pn Cp].
    destruct (is_clean_abs_inv _ Cp) as [p [Pp [Ep Sp]]]. rewrite Sp in Hroot |- *. rewrite Ep.
    destruct (replicate_key c s t p (e_name n) Hcs Pp Pn Hroot) as [T K].
    rewrite T, inside_snoc, Es. destruct (lprefix s p); simpl; [rewrite (K eq_refl)|]; reflexivity.
  - (* no entry at all *) destruct (_ || _); reflexivity.
Qed.

(* outside [replicate_unsafe] (finding 0) that is the reference plan *)
Theorem replicate_mirror_partial : forall c ev,
  wf_config c = true -> wf_event ev = true -> incremental c = false ->
  ev_from_other ev && sink_is_filer c = false ->
  touches_root c ev = false -> replicate_unsafe c ev = false ->
  replicate c (event_key ev) ev = mirror_spec c ev.
Proof.
  intros c ev Hc He Hi Hecho Hroot Hsafe. rewrite replicate_event by assumption.
  unfold mirror_spec, replicate_unsafe, old_key, new_key in *.
  destruct (ev_old ev) as [o|]; destruct (ev_new ev) as [n|]; try reflexivity.
  simpl in Hsafe |- *. apply negb_false_iff in Hsafe.
  destruct (inside c (segs (ev_dir ev) ++ [e_name o])) eqn:Io; simpl in Hsafe.
  - apply andb_true_iff in Hsafe. destruct Hsafe as [E Hnp].
    apply list_eqb_eq in E. apply String.eqb_eq in Hnp. rewrite <- E, Io, Hnp. reflexivity.
  - rewrite orb_false_r in Hsafe. apply negb_true_iff in Hsafe. rewrite Hsafe. reflexivity.
Qed.

(* whenever [replicate_unsafe] holds the two plans differ *)
Theorem replicate_unsafe_exact : forall c ev,
  wf_config c = true -> wf_event ev = true -> incremental c = false ->
  ev_from_other ev && sink_is_filer c = false ->
  touches_root c ev = false -> replicate_unsafe c ev = true ->
  replicate c (event_key ev) ev <> mirror_spec c ev.
Proof.
  intros c ev Hc He Hi Hecho Hroot Hsafe. rewrite replicate_event by assumption.
  unfold mirror_spec, replicate_unsafe, old_key, new_key in *.
  destruct (ev_old ev) as [o|] eqn:Eo; destruct (ev_new ev) as [n|] eqn:En; try discriminate.
  simpl in Hsafe |- *. apply negb_true_iff in Hsafe.
  destruct (inside c (segs (ev_dir ev) ++ [e_name o])) eqn:Io;
    destruct (inside c (segs (ev_new_parent ev) ++ [e_name n])) eqn:In; simpl in Hsafe; try discriminate.
  intro E. injection E as E1 E2.
  apply (map_path_inj c) in E2; auto using wf_old_key, wf_new_key.
  rewrite E2, <- E1, String.eqb_refl, andb_true_r in Hsafe.
  assert (X : list_eqb (segs (ev_new_parent ev) ++ [e_name n]) (segs (ev_new_parent ev) ++ [e_name n]) = true)
    by (apply list_eqb_eq; reflexivity).
  congruence.
Qed.

(* the statement without the [replicate_unsafe] hypothesis *)
Definition mirror_full_replicate : Prop := forall c ev,
  wf_config c = true -> wf_event ev = true -> incremental c = false ->
  ev_from_other ev && sink_is_filer c = false ->
  touches_root c ev = false -> replicate c (event_key ev) ev = mirror_spec c ev.

Definition w_cfg : config :=
  {| src := "/data"; tgt := "/backup"; incremental := false; sink_is_filer := false; target_sig := 0 |}.
Definition w_entry (n : string) : entry := {| e_name := n; e_isdir := false; e_date := "2021-03-04"; e_data := [] |}.
(* /other/x moved to /data/x *)
Definition w_rename_in : event :=
  {| ev_dir := "/other"; ev_old := Some (w_entry "x"); ev_new := Some (w_entry "x");
     ev_new_parent := "/data"; ev_delete_chunks := false; ev_from_other := false; ev_sigs := [] |}.
(* /data/x updated in place *)
Definition w_update : event :=
  {| ev_dir := "/data"; ev_old := Some (w_entry "x"); ev_new := Some (w_entry "x");
     ev_new_parent := "/data"; ev_delete_chunks := false; ev_from_other := false; ev_sigs := [] |}.

Theorem replicate_mirror_refuted : ~ mirror_full_replicate.
Proof.
  intro H. specialize (H w_cfg w_update eq_refl eq_refl eq_refl eq_refl eq_refl).
  vm_compute in H. discriminate.
Qed.

Lemma witnesses_triggers : replicate_unsafe w_cfg w_update = true.
Proof. vm_compute. reflexivity. Qed.

(* a move from outside into the watched directory creates the entry *)
Example rename_in_creates :
  sync_process w_cfg w_rename_in = Do (Create "/backup/x" (w_entry "x")).
Proof. vm_compute. reflexivity. Qed.

(* UpdateEntry of an entry that stays where it is rewrites the file *)
Theorem local_update_in_place : forall t key np e dc,
  is_multipart key = false -> join [np; e_name e] = key ->
  local_do t (Update key np e dc) =
  (fst (local_create t key e), (local_exists t key, snd (local_create t key e))).
Proof.
  intros t key np e dc Hm Hj. unfold local_do. rewrite Hm, Hj, String.eqb_refl. simpl.
  destruct (local_create t key e). reflexivity.
Qed.

(* a moved entry: UpdateEntry reports "not found" and touches nothing, so the
   plan deletes the old key and creates the new one, on every tree *)
Theorem local_move : forall t key np n dc isdir cr,
  is_multipart key = false -> join [np; e_name n] <> key ->
  fst (exec_plan _ local_do t (UpdateOr (Update key np n dc) (Delete key isdir false) cr)) =
  fst (local_do (local_delete t key) cr).
Proof.
  intros t key np n dc isdir cr Hm Hj. unfold exec_plan.
  assert (E : local_do t (Update key np n dc) = (t, (false, false))).
  { unfold local_do. rewrite Hm. apply String.eqb_neq in Hj. rewrite Hj. reflexivity. }
  rewrite E. simpl. destruct (local_do (local_delete t key) cr) as [t' [f e]]. reflexivity.
Qed.

Definition w_lcfg : config :=
  {| src := "/data"; tgt := "/t"; incremental := false; sink_is_filer := false; target_sig := 0 |}.
Definition w_lcreate : event :=
  {| ev_dir := "/data"; ev_old := None; ev_new := Some (w_entry "a");
     ev_new_parent := "/data"; ev_delete_chunks := false; ev_from_other := false; ev_sigs := [] |}.
Definition w_lrename : event :=
  {| ev_dir := "/data"; ev_old := Some (w_entry "a"); ev_new := Some (w_entry "b");
     ev_new_parent := "/data"; ev_delete_chunks := true; ev_from_other := false; ev_sigs := [] |}.

(* create, then rename: the backup holds the file at its new path only *)
Example local_rename_history :
  wf_config w_lcfg = true /\ forallb wf_event [w_lcreate; w_lrename] = true /\
  files_of (fst (run_local w_lcfg [] [w_lcreate; w_lrename])) = ["/t/b"%string] /\
  spec_files w_lcfg [w_lcreate; w_lrename] = ["/t/b"%string].
Proof. vm_compute. auto. Qed.

(* create a, update x in place, create a again, delete x: the file set follows the reference *)
Example local_single_ops :
  let evs := [w_lcreate; w_update; w_lcreate;
              {| ev_dir := "/data"; ev_old := Some (w_entry "x"); ev_new := None; ev_new_parent := "";
                 ev_delete_chunks := true; ev_from_other := false; ev_sigs := [] |}] in
  files_of (fst (run_local w_lcfg [] evs)) = spec_files w_lcfg evs.
Proof. vm_compute. reflexivity. Qed.

(* strings.HasPrefix(key, dir): "/data2/x" passes for dir "/data", while the
   component-wise test rejects it *)
Example legacy_prefix_sibling :
  String.prefix "/data" "/data2/x" = true /\ under "/data2/x" "/data" = false /\
  replicate w_cfg "/data2/x" w_update = Nothing.
Proof. vm_compute. auto. Qed.
