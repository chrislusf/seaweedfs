(* C22: without the trigger hypothesis the property fails in the faithful model (and in the
   Go code: case 1 of the correspondence harness makes the same five appends). *)
From Coq Require Import List ZArith NArith Bool Lia.
From SW Require Import model.LogBuf proof.LogBufProofs proof.LogBufInv proof.LogBufSteps
  proof.LogBufMain proof.LogBufSafety.
Import ListNotations.
Local Open Scope Z_scope.

Definition far_iv : Z := 1000000000000000.

(* Three sealed, unflushed buffers still fit the ring (100-byte buffers, 10 records of 32 bytes,
   3 per buffer, no flush completes): no trigger, and the subscriber's first memory read
   returns records 1, 2, 3. *)
Definition witness_alias : list op :=
  map (fun i => Add (1000 + 10 * Z.of_nat i) 28 (N.of_nat (S i))) (seq 0 10) ++ [SubStep; SubStep].

Lemma witness_alias_ok :
  run_trig far_iv true (sys0 100 0) witness_alias = None /\
  map e_id (got (subs (run far_iv true (sys0 100 0) witness_alias))) = [1; 2; 3]%N.
Proof. vm_compute. split; reflexivity. Qed.

(* finding 0: four seals while no flush completes push the first sealed buffer out of the
   3-slot ring.  (Records larger than the buffer: one record per buffer, a fresh array each
   time.)  Record 1 is never delivered although everything is flushed afterwards and the
   subscriber catches up. *)
Definition witness_evict : list op :=
  [Add 1000 167 1; Add 1010 167 2; Add 1020 167 3; Add 1030 417 4; Add 1040 417 5;
   SubStep; SubStep; SubStep;
   FlushWrite; FlushMark; FlushWrite; FlushMark; FlushWrite; FlushMark; FlushWrite; FlushMark;
   SubStep; SubStep; SubStep].

Lemma wf_witness_evict : ops_wf witness_evict.
Proof. unfold witness_evict. repeat constructor. Qed.

Lemma trig_witness_evict : run_trig far_iv true (sys0 100 0) witness_evict = Some 0%N.
Proof. vm_compute. reflexivity. Qed.

Lemma got_witness_evict :
  map e_id (got (subs (run far_iv true (sys0 100 0) witness_evict))) = [2; 3; 4; 5]%N /\
  map e_id (run_events far_iv true (sys0 100 0) witness_evict) = [1; 2; 3; 4; 5]%N.
Proof. vm_compute. split; reflexivity. Qed.

Theorem no_skip_refuted : exists iv c t0 ops,
  0 <= t0 /\ ops_wf ops /\
  ~ exists rest, filter (later t0) (run_events iv true (sys0 c t0) ops)
                 = got (subs (run iv true (sys0 c t0) ops)) ++ rest.
Proof.
  exists far_iv, 100, 0, witness_evict. split; [lia|]. split; [exact wf_witness_evict|].
  (* got = 2, 3, 4, 5 against the appended 1 .. 5 (got_witness_evict) *)
  intros [rest H]. vm_compute in H. inversion H.
Qed.

(* flushFn = nil (the aggregated buffer of MetaAggregator):
   copyToFlush then sets lastFlushTime := stopTime at once, nothing is handed to any flush
   function, and a reader that is behind the last seal is sent to "disk" for ever: with the
   buffer's own flushed data as the persisted log (empty), it never receives the sealed
   events, however many steps it takes.  No trigger of finding 0 is involved. *)
Definition witness_nilflush : list op := [Add 1000 28 1; Seal; SubStep; SubStep].

Lemma run_repeat_fix : forall iv hf y o n, step iv hf y o = y -> run iv hf y (repeat o n) = y.
Proof.
  intros iv hf y o n H. induction n as [|n IH]; [reflexivity|].
  cbn [repeat run]. rewrite H. exact IH.
Qed.

Theorem nil_flush_stuck :
  ops_wf witness_nilflush /\
  run_trig far_iv false (sys0 100 0) witness_nilflush = None /\
  map e_id (filter (later 0) (run_events far_iv false (sys0 100 0) witness_nilflush)) = [1%N] /\
  forall n, got (subs (run far_iv false (sys0 100 0) (witness_nilflush ++ repeat SubStep n))) = [].
Proof.
  split; [repeat constructor|]. split; [vm_compute; reflexivity|]. split; [vm_compute; reflexivity|].
  intros n. rewrite run_app, run_repeat_fix; vm_compute; reflexivity.
Qed.

(* non-vacuity of the partial theorems: a schedule with timestamp adjustment, size rotation,
   an interval seal, a lagging flush and a subscriber starting in the middle stays outside
   the trigger, and the subscriber gets records 3..8 *)
Definition example_ops : list op :=
  [Add 1000 26 1; Add 1000 26 2; Add 990 26 3; Add 1020 26 4; SubStep; SubStep;
   Add 1030 26 5; Seal; FlushWrite; Add 1040 26 6; SubLoop; FlushMark; SubStep;
   FlushWrite; FlushMark; Add 1050 26 7; Add 1060 26 8; SubStep; SubStep; SubLoop].
Lemma example_ok :
  ops_wf example_ops /\ run_trig 1000000 true (sys0 100 1001) example_ops = None /\
  map e_ts (run_events 1000000 true (sys0 100 1001) example_ops) = [1000; 1001; 1002; 1020; 1030; 1040; 1050; 1060] /\
  map e_id (got (subs (run 1000000 true (sys0 100 1001) example_ops))) = [3; 4; 5; 6; 7; 8]%N.
Proof. split; [repeat constructor|]. vm_compute. repeat split; reflexivity. Qed.
