(* C04: what a volume loaded from a pair of files serves, the setting shared by the theorems
   about a compaction, a deleted blob is never resurrected, and the witnesses of the findings. *)
From Coq Require Import List NArith ZArith Bool Lia Permutation.
From SW Require Import model.Volume model.Compaction.
From SW Require Import proof.CompactionInv proof.CompactionRead proof.CompactionCopy proof.CompactionMakeup.
Import ListNotations.
Local Open Scope N_scope.

Lemma save_idx_get : forall db k, asc db ->
  idx_get (save_idx db) k = match idx_get db k with
                            | Some e => if entry_dead e then None else Some e
                            | None => None
                            end.
Proof.
  intros db k Ha. unfold save_idx.
  pose proof (asc_nodup _ (asc_filter (fun e => negb (entry_dead e)) db Ha)) as Hnd.
  rewrite idx_get_rev by exact Hnd. rewrite idx_get_filter by (apply asc_nodup; exact Ha).
  destruct (idx_get db k) as [e|]; [|reflexivity]. destruct (entry_dead e); reflexivity.
Qed.

Lemma content_files : forall R I E a b k,
  content {| recs := R; nm := load_idx I; dat_end := E; no_write_or_delete := a; no_write_can_delete := b |} k =
  match idx_get I k with
  | Some e => if entry_valid e
              then match find_rec R (ie_off e) with
                   | Some r => if (Z.of_N (r_size r) =? ie_size e)%Z then Some (pl r) else None
                   | None => None
                   end
              else None
  | None => None
  end.
Proof.
  intros. unfold content. cbn [nm]. rewrite load_live.
  destruct (idx_get I k) as [e|]; [|reflexivity]. destruct (entry_valid e); [|reflexivity].
  unfold read_data. cbn [recs]. destruct (find_rec R (ie_off e)) as [r|]; [|reflexivity].
  destruct (Z.of_N (r_size r) =? ie_size e)%Z; reflexivity.
Qed.

Lemma content_files_put : forall R I E a b k o r,
  idx_get I k = Some {| ie_key := k; ie_off := o; ie_size := Z.of_N (r_size r) |} ->
  o <> 0 -> 0 < r_size r -> find_rec R o = Some r ->
  content {| recs := R; nm := load_idx I; dat_end := E; no_write_or_delete := a; no_write_can_delete := b |} k =
  Some (pl r).
Proof.
  intros R I E a b k o r Hi Ho Hp Hf. rewrite content_files, Hi.
  rewrite (proj2 (entry_valid_true _)) by (simpl; split; [exact Ho | lia]).
  simpl. rewrite Hf, Z.eqb_refl. reflexivity.
Qed.

Lemma dead_entry : forall s k e, cinv s -> live (nm (cv s)) k = None -> idx_get (cidx s) k = Some e ->
  size_valid (ie_size e) = false.
Proof.
  intros s k e H L G. destruct (idx_entry_cases _ _ _ H G) as [E|L']; [rewrite E; reflexivity | congruence].
Qed.

Lemma reload_content : forall s k a b, cinv s -> nzid s k ->
  content {| recs := recs (cv s); nm := load_idx (cidx s); dat_end := dat_end (cv s);
             no_write_or_delete := a; no_write_can_delete := b |} k = content (cv s) k.
Proof.
  intros s k a b H Hz. unfold content at 2.
  destruct (live (nm (cv s)) k) as [[off size]|] eqn:L.
  - destruct (live_facts _ _ _ _ H L) as [Hs0 [Ho [Hi [r [Hf [Hsz [Hid Hc]]]]]]].
    pose proof (live_size _ _ _ _ Hz L) as Hnz. subst size. unfold content in Hc. rewrite L in Hc. rewrite Hc.
    apply content_files_put with (o := off); auto. lia.
  - rewrite content_files. destruct (idx_get (cidx s) k) as [e|] eqn:G; [|reflexivity].
    unfold entry_valid. rewrite (dead_entry _ _ _ H L G), andb_false_r. reflexivity.
Qed.

Lemma no_entry_content : forall s1 s2 d k, cinv s1 -> cinv s2 -> grows s1 s2 ->
  cidx s2 = d ++ cidx s1 -> no_entry_in d k -> content (cv s2) k = content (cv s1) k.
Proof.
  intros s1 s2 d k H1 H2 G Hd Hn.
  assert (Hi : idx_get (cidx s2) k = idx_get (cidx s1) k) by (rewrite Hd, idx_get_app, Hn; reflexivity).
  pose proof (live_by_idx s1 s2 k H1 H2 Hi) as Hl.
  destruct (live (nm (cv s1)) k) as [[off size]|] eqn:L1.
  - destruct (live_facts _ _ _ _ H1 L1) as [_ [_ [_ [r [Hf [Hsz [_ Hc]]]]]]]. rewrite Hc.
    unfold content, read_data. rewrite Hl, (grows_find _ _ _ _ H1 G Hf), Hsz, Z.eqb_refl. reflexivity.
  - unfold content. rewrite Hl, L1. reflexivity.
Qed.

Lemma compacted_files_il_nil : forall g al now_s ord h1 h2,
  compacted_files_il g al now_s ord h1 [] h2 = compacted_files g al now_s ord h1 h2.
Proof. intros g [] now_s ord h1 h2; reflexivity. Qed.

(* [s1]: the volume when the compaction starts, [s2]: when it commits, [d]: the .idx entries
   appended in between *)
Record setting (g : cfg) (al : alg) (now_s : N) (ord : list N) (h1 : list cevent) (sched : list (list cevent))
               (h2 : list cevent) (s1 s2 : cvol) (d : idxlog) : Prop := {
  st_s1 : s1 = c_exec (g_vttl g) cinit h1;
  st_s2 : s2 = c_exec (g_vttl g) cinit (h1 ++ concat sched ++ h2);
  st_i1 : cinv s1;
  st_i2 : cinv s2;
  st_grows : grows s1 s2;
  st_d : cidx s2 = d ++ cidx s1;
  st_nodup : NoDup ord;
  st_ord : forall k, In k ord <-> idx_get d k <> None;
  st_src : forall k e, idx_get d k = Some e -> ent_src (cv s2) e;
  st_copy : copy_spec (no_entry_in d) (g_vttl g) now_s s1 (copied al (g_vttl g) now_s sched s1);
  st_files : compacted_files_il g al now_s ord h1 sched h2 =
             if makeup_fails (length (cidx s1)) s2 then old_files s2
             else fold_left (mstep (cv s2) d) ord (files_of (copied al (g_vttl g) now_s sched s1))
}.

Lemma setting_intro : forall g al now_s ord h1 sched h2,
  Permutation ord (default_ord g h1 (concat sched ++ h2)) ->
  exists s1 s2 d, setting g al now_s ord h1 sched h2 s1 s2 d.
Proof.
  intros g al now_s ord h1 sched h2 P. set (hm := concat sched ++ h2) in *.
  set (s1 := c_exec (g_vttl g) cinit h1). set (s2 := c_exec (g_vttl g) s1 hm).
  assert (I1 : cinv s1) by (apply c_exec_inv, cinv_init).
  assert (I2 : cinv s2) by (apply c_exec_inv; exact I1).
  pose proof (exec_grows (g_vttl g) hm s1 I1) as G. fold s2 in G.
  destruct (g_idx _ _ G) as [d Hd].
  assert (Hdiff : diff_entries (length (cidx s1)) (cidx s2) = d) by (rewrite Hd; apply diff_entries_app).
  unfold default_ord, touched in P. fold s1 in P. fold s2 in P. rewrite Hdiff in P.
  destruct (ord_facts ord d P) as [Hnd Hord].
  exists s1, s2, d. constructor; auto.
  - symmetry. apply c_exec_app.
  - intros k e Hg. apply (idx_ent_src s2 k); [exact I2|]. rewrite Hd, idx_get_app, Hg. reflexivity.
  - apply (copied_spec al (g_vttl g) now_s sched h2 s1 s2 d); auto.
  - unfold compacted_files_il. cbv zeta. fold s1. fold hm. fold s2. rewrite makeup_unfold, Hdiff. reflexivity.
Qed.

Definition gone (s : cvol) (id : N) : Prop :=
  match nm_get (nm (cv s)) id with None => True | Some nv => (nv_size nv < 0)%Z end.

Lemma gone_idx : forall s id, cinv s -> gone s id ->
  idx_get (cidx s) id = None \/ exists e, idx_get (cidx s) id = Some e /\ (ie_size e < 0)%Z.
Proof.
  intros s id H Hg. pose proof (ci_ent _ H id) as He. unfold ent_ok, gone in *.
  destruct (nm_get (nm (cv s)) id) as [nv|]; [|left; exact He]. destruct He as [_ He].
  rewrite (proj2 (Z.leb_gt _ _) Hg) in He. destruct He as [o He]. right. eexists. split; [exact He | simpl; lia].
Qed.

(* No hypothesis on payloads, TTLs, sizes, the algorithm, the writers during the copy loop, the
   map iteration order or the integrity check: a key without needle-map entry, or whose entry is
   a tombstone, in the never-compacted volume cannot be read after the commit. *)
Lemma gone_unreadable : forall g al now_s now_r ord h1 sched h2 id,
  Permutation ord (default_ord g h1 (concat sched ++ h2)) ->
  gone (c_exec (g_vttl g) cinit (h1 ++ concat sched ++ h2)) id ->
  read_of (commit (compacted_files_il g al now_s ord h1 sched h2)) now_r id = None.
Proof.
  intros g al now_s now_r ord h1 sched h2 id P Hg.
  destruct (setting_intro g al now_s ord h1 sched h2 P) as [s1 [s2 [d [E1 E2 I1 I2 G Hd Hnd Hord Hsrc CS EF]]]].
  rewrite <- E2 in Hg. apply gone_idx in Hg; [|exact I2].
  unfold read_of. apply read_dead, commit_dead. rewrite EF.
  destruct (makeup_fails (length (cidx s1)) s2); [exact Hg|].
  set (a := copied al (g_vttl g) now_s sched s1) in *.
  destruct (idx_get d id) as [e|] eqn:Gd.
  - (* made up: the new entry has the size of the newest old one *)
    assert (Hin : In id ord) by (apply Hord; congruence).
    destruct (makeup_key (cv s2) d ord (files_of a) id e Hnd (cs_sorted _ _ _ _ _ CS) Hsrc Hin Gd) as [o [Hi _]].
    rewrite Hd, idx_get_app, Gd in Hg. destruct Hg as [Hg|[e' [Hg Hneg]]]; [discriminate|]. inversion Hg; subst e'.
    right. eexists. split; [exact Hi | exact Hneg].
  - (* no entry in between: the copy loop keeps an entry only for a key that is alive *)
    left. rewrite makeup_idx_other by (intro Hin; apply Hord in Hin; contradiction).
    change (f_idx (files_of a)) with (save_idx (a_db a)). rewrite save_idx_get by apply CS.
    destruct (idx_get (a_db a) id) as [e0|] eqn:G0; [|reflexivity]. exfalso.
    destruct (cs_some _ _ _ _ _ CS id e0 Gd G0) as [r' [_ [_ Hc]]].
    destruct (content_facts _ _ _ I1 Hc) as [off [r [L _]]]. destruct (live_facts _ _ _ _ I1 L) as [Hs [_ [Hi1 _]]].
    rewrite Hd, idx_get_app, Gd, Hi1 in Hg. destruct Hg as [Hg|[e' [Hg Hneg]]]; [discriminate|].
    inversion Hg; subst e'. simpl in Hneg. lia.
Qed.

Theorem no_resurrect : forall g al now_s now_r ord h1 h2 id,
  Permutation ord (default_ord g h1 h2) ->
  (exists nv, nm_get (nm (twin g h1 h2)) id = Some nv /\ (nv_size nv < 0)%Z) ->
  read_of (compacted g al now_s ord h1 h2) now_r id = None.
Proof.
  intros g al now_s now_r ord h1 h2 id P [nv [Gnv Hneg]]. unfold compacted. rewrite <- compacted_files_il_nil.
  apply gone_unreadable; [exact P|]. unfold gone. unfold twin in Gnv. simpl. rewrite Gnv. exact Hneg.
Qed.

Definition writable (s : cvol) : Prop := no_write_or_delete (cv s) = false.

Lemma step_writable : forall vt s ev, cinv s -> writable s -> writable (fst (c_step vt s ev)).
Proof. intros vt s ev H W. destruct (c_step_adds vt s ev H); exact W. Qed.

Lemma step_other : forall vt s ev id, cinv s -> mentions id ev = false ->
  nm_get (nm (cv (fst (c_step vt s ev)))) id = nm_get (nm (cv s)) id.
Proof.
  intros vt s ev id H Hm. unfold mentions in Hm.
  destruct (c_step_adds vt s ev H) as [|n En|k c nv Ek _ _|off _ _]; simpl; try reflexivity.
  - rewrite En in Hm. rewrite adjust_id, Hm. reflexivity.
  - rewrite Ek in Hm. apply nm_get_delete_neq. apply N.eqb_neq. exact Hm.
Qed.

Lemma exec_other : forall vt h s id, cinv s -> existsb (mentions id) h = false ->
  nm_get (nm (cv (c_exec vt s h))) id = nm_get (nm (cv s)) id.
Proof.
  induction h as [|ev h IH]; intros s id H Hm; [reflexivity|].
  simpl in Hm. apply orb_false_elim in Hm. destruct Hm as [M1 M2].
  unfold c_exec. simpl. fold (c_exec vt (fst (c_step vt s ev)) h).
  rewrite IH by (try apply c_step_inv; assumption). apply step_other; assumption.
Qed.

Lemma delete_gone : forall s id c t, writable s -> nzid s id -> gone (fst (fst (c_delete s id c t))) id.
Proof.
  intros s id c t W Hz. unfold c_delete. unfold writable in W. rewrite W. unfold gone.
  destruct (nm_get (nm (cv s)) id) as [nv|] eqn:G; [|simpl; rewrite G; exact I].
  destruct (size_valid (nv_size nv)) eqn:V.
  - simpl. unfold nm_delete. rewrite G, V. simpl. rewrite N.eqb_refl. simpl. apply size_valid_pos in V. lia.
  - simpl. rewrite G. exact (size_invalid_neg _ V (Hz nv G)).
Qed.

Lemma history_gone : forall vt h s id, cinv s -> writable s -> nzid s id ->
  last_is_delete id h = true -> (forall ev, In ev h -> ev_ne_on id ev) -> gone (c_exec vt s h) id.
Proof.
  induction h as [|ev h IH]; intros s id H W Hz Hl Hne; [discriminate|].
  simpl in Hl. unfold c_exec. simpl. fold (c_exec vt (fst (c_step vt s ev)) h).
  destruct (existsb (mentions id) h) eqn:M.
  - apply IH; auto.
    + apply c_step_inv; exact H.
    + apply step_writable; assumption.
    + apply step_nzid; auto. apply Hne. left. reflexivity.
    + intros e He. apply Hne. right. exact He.
  - unfold gone. rewrite exec_other by (try apply c_step_inv; assumption).
    destruct ev as [t o]. simpl in Hl. destruct o as [n|k c|off]; try discriminate.
    apply N.eqb_eq in Hl. subst k. unfold c_step. cbn [fst snd]. apply delete_gone; assumption.
Qed.

Theorem no_resurrect_history : forall g al now_s now_r ord h1 h2 id,
  Permutation ord (default_ord g h1 h2) ->
  last_is_delete id (h1 ++ h2) = true ->
  no_empty_on id (h1 ++ h2) = true ->
  read_of (compacted g al now_s ord h1 h2) now_r id = None.
Proof.
  intros g al now_s now_r ord h1 h2 id P Hl Hne. unfold compacted. rewrite <- compacted_files_il_nil.
  apply gone_unreadable; [exact P|].
  apply history_gone; [apply cinv_init | reflexivity | discriminate | exact Hl | apply no_empty_on_forall; exact Hne].
Qed.

(* The three ways the statement without hypotheses fails (findings 0, 1, 2). *)
Definition nd (id : N) (data : bytes) (flags lastmod : N) (t : N * N) : needle :=
  {| n_id := id; n_cookie := 7; n_data := data; n_flags := flags; n_name := []; n_mime := []; n_pairs := [];
     n_lastmod := lastmod; n_ttl := t |}.

Definition g4 : cfg := {| g_vttl := (0, 0) |}.
Definition sec : N := 1000000000.

(* finding 0: an empty blob *)
Definition w_empty_h1 : list cevent :=
  [(1000 * sec, CWrite (nd 1 [] 8 1000 (0, 0))); (1000 * sec, CWrite (nd 2 [7] 8 1000 (0, 0)))].

Lemma refuted_empty :
  Permutation [] (default_ord g4 w_empty_h1 []) /\
  ttl_consistent (g_vttl g4) 1000 (1001 * sec) w_empty_h1 = true /\
  reload_noop g4 Index 1000 [] w_empty_h1 [] = true /\
  read_of (compacted g4 Index 1000 [] w_empty_h1 []) (1001 * sec) 1 = None /\
  read_of (twin g4 w_empty_h1 []) (1001 * sec) 1 = Some (0%Z, blank_view 0).
Proof. vm_compute. repeat split; try reflexivity; apply Permutation_refl. Qed.

(* finding 1: a needle with its own TTL (3 days) in a volume without TTL *)
Definition w_ttl_h1 : list cevent :=
  [(1000 * sec, CWrite (nd 1 [5] 24 1000 (3, 3))); (1000 * sec, CWrite (nd 2 [7] 8 1000 (0, 0)))].

Lemma refuted_ttl :
  Permutation [] (default_ord g4 w_ttl_h1 []) /\
  has_empty (w_ttl_h1 ++ []) = false /\
  reload_noop g4 Index 1000 [] w_ttl_h1 [] = true /\
  read_of (compacted g4 Index 1000 [] w_ttl_h1 []) (1001 * sec) 1 = None /\
  read_of (twin g4 w_ttl_h1 []) (1001 * sec) 1 = Some (1%Z, view_of (nd 1 [5] 24 1000 (3, 3))).
Proof. vm_compute. repeat split; try reflexivity; apply Permutation_refl. Qed.

(* finding 2: scan-based compaction, the largest key is not the last record *)
Definition w_scan_h1 : list cevent :=
  [(1000 * sec, CWrite (nd 2 [5] 8 1000 (0, 0))); (1000 * sec, CWrite (nd 1 [7] 8 1000 (0, 0)))].

Lemma refuted_scan :
  Permutation [] (default_ord g4 w_scan_h1 []) /\
  has_empty (w_scan_h1 ++ []) = false /\
  ttl_consistent (g_vttl g4) 1000 (1001 * sec) w_scan_h1 = true /\
  check_files (compacted_files g4 Scan 1000 [] w_scan_h1 []) = (0%nat, Some 48, false) /\
  read_of (compacted g4 Scan 1000 [] w_scan_h1 []) (1001 * sec) 1 = None /\
  read_of (twin g4 w_scan_h1 []) (1001 * sec) 1 = Some (1%Z, view_of (nd 1 [7] 8 1000 (0, 0))).
Proof. vm_compute. repeat split; try reflexivity; apply Permutation_refl. Qed.

Lemma refuted_empty_neq :
  Permutation [] (default_ord g4 w_empty_h1 []) /\
  ttl_consistent (g_vttl g4) 1000 (1001 * sec) w_empty_h1 = true /\
  reload_noop g4 Index 1000 [] w_empty_h1 [] = true /\
  read_of (compacted g4 Index 1000 [] w_empty_h1 []) (1001 * sec) 1 <> read_of (twin g4 w_empty_h1 []) (1001 * sec) 1.
Proof.
  destruct refuted_empty as [A [B [D [E F]]]]. repeat split; auto. rewrite E, F. discriminate.
Qed.

Lemma refuted_ttl_neq :
  Permutation [] (default_ord g4 w_ttl_h1 []) /\
  has_empty (w_ttl_h1 ++ []) = false /\
  reload_noop g4 Index 1000 [] w_ttl_h1 [] = true /\
  read_of (compacted g4 Index 1000 [] w_ttl_h1 []) (1001 * sec) 1 <> read_of (twin g4 w_ttl_h1 []) (1001 * sec) 1.
Proof.
  destruct refuted_ttl as [A [B [D [E F]]]]. repeat split; auto. rewrite E, F. discriminate.
Qed.

Lemma refuted_scan_neq :
  Permutation [] (default_ord g4 w_scan_h1 []) /\
  has_empty (w_scan_h1 ++ []) = false /\ ttl_consistent (g_vttl g4) 1000 (1001 * sec) w_scan_h1 = true /\
  read_of (compacted g4 Scan 1000 [] w_scan_h1 []) (1001 * sec) 1 <> read_of (twin g4 w_scan_h1 []) (1001 * sec) 1.
Proof.
  destruct refuted_scan as [A [B [C [_ [E F]]]]]. repeat split; auto. rewrite E, F. discriminate.
Qed.

(* a write beyond 32 GiB (a hole in the old .dat) while the compaction runs reads the same on both
   volumes, for both iteration orders of the map: makeupDiff replaces the whole offset, also with
   5-byte offsets *)
Definition w_hi_h1 : list cevent := [(1000 * sec, CWrite (nd 1 [5] 8 1000 (0, 0)))].
Definition w_hi_h2 : list cevent :=
  [(1000 * sec, CWrite (nd 3 [6] 8 1000 (0, 0))); (0, CPad 34359738432); (1000 * sec, CWrite (nd 2 [7] 8 1000 (0, 0)))].

Lemma beyond_32g_ok : forall ord, ord = [2; 3] \/ ord = [3; 2] ->
  reload_noop g4 Index 1000 ord w_hi_h1 w_hi_h2 = true /\
  map (read_of (compacted g4 Index 1000 ord w_hi_h1 w_hi_h2) (1001 * sec)) [1; 2; 3] =
  map (read_of (twin g4 w_hi_h1 w_hi_h2) (1001 * sec)) [1; 2; 3] /\
  read_of (twin g4 w_hi_h1 w_hi_h2) (1001 * sec) 2 = Some (1%Z, view_of (nd 2 [7] 8 1000 (0, 0))).
Proof. intros ord [->| ->]; vm_compute; repeat split; reflexivity. Qed.

Definition ex_h1 : list cevent :=
  [(1, CWrite (nd 1 [1] 8 1000 (0, 0))); (2, CWrite (nd 2 [2] 8 1000 (0, 0)));
   (3, CWrite (nd 1 [3; 3] 8 1000 (0, 0))); (4, CDelete 2 7); (5, CWrite (nd 3 [4] 24 1000 (1, 1)))].
Definition ex_h2 : list cevent :=
  [(6, CWrite (nd 2 [5] 8 1000 (0, 0))); (7, CDelete 1 7); (8, CWrite (nd 4 [6] 8 1000 (0, 0)))].

Lemma example_ok : forall al,
  let ord := default_ord g4 ex_h1 ex_h2 in
  has_empty (ex_h1 ++ ex_h2) = false /\
  ttl_consistent (g_vttl g4) 1000 (1001 * sec) ex_h1 = true /\
  reload_noop g4 al 1000 ord ex_h1 ex_h2 = true /\
  map (fun k => option_map fst (read_of (compacted g4 al 1000 ord ex_h1 ex_h2) (1001 * sec) k)) [1; 2; 3; 4; 5]
  = [None; Some 1%Z; None; Some 1%Z; None] /\
  map (fun k => option_map fst (read_of (twin g4 ex_h1 ex_h2) (1001 * sec) k)) [1; 2; 3; 4; 5]
  = [None; Some 1%Z; None; Some 1%Z; None].
Proof. intros []; vm_compute; repeat split; reflexivity. Qed.
