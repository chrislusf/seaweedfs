(* C34: the volume server's JWT check (model/Jwt.v).  What an accepted check says about the
   token; where the token check and ParsePath cut a file id (at the last '_') and what ParsePath
   makes of the base; then the handlers: the store is reached only with parseURLPath's reading of
   the path, checked and parsed without error ([proceed_authorized]); the refusals are its
   contrapositives. *)
From Coq Require Import List NArith ZArith Bool String Ascii Arith.
From SW Require Import model.Jwt.
Import ListNotations.
Local Open Scope string_scope.

Lemma sempty_spec : forall s, reflect (s = "") (sempty s).
Proof. intros [|c s]; constructor; [reflexivity|discriminate]. Qed.

Lemma decode_ok_facts : forall key t, decode_ok key t = true ->
  t_wellformed t = true /\ t_alg t = AlgHMAC /\ t_signed_with t = key /\
  t_exp_ok t = true /\ t_nbf_ok t = true /\ t_iat_ok t = true.
Proof.
  intros key t H. unfold decode_ok in H.
  repeat (apply andb_true_iff in H; destruct H as [H ?]).
  repeat split; auto.
  - destruct (t_alg t); simpl in *; congruence.
  - apply String.eqb_eq. assumption.
Qed.

Definition valid_token_for (tab : toktab) (key : string) (rq : request) (claim : string) : Prop :=
  exists t, get_jwt rq <> "" /\ lookup (get_jwt rq) tab = Some t /\
            t_wellformed t = true /\ t_alg t = AlgHMAC /\ t_signed_with t = key /\
            t_exp_ok t = true /\ t_nbf_ok t = true /\ t_iat_ok t = true /\
            t_fid t = claim.

(* maybeCheckJwtAuthorization under a configured key: the request carries a token that decodes
   under that key and whose claim is the compared text *)
Lemma check_jwt_token : forall tab cfg w rq vid fid,
  key_for cfg w <> "" -> check_jwt tab cfg w rq vid fid = true ->
  get_jwt rq <> "" /\
  exists t, lookup (get_jwt rq) tab = Some t /\ decode_ok (key_for cfg w) t = true /\
            t_fid t = vid ++ "," ++ strip_suffix fid.
Proof.
  intros tab cfg w rq vid fid Hk H. unfold check_jwt in H.
  destruct (sempty_spec (key_for cfg w)); [contradiction|].
  destruct (sempty_spec (get_jwt rq)); [discriminate|].
  destruct (lookup (get_jwt rq) tab) as [t|]; [|discriminate].
  destruct (decode_ok (key_for cfg w) t) eqn:Ed; [|discriminate].
  apply String.eqb_eq in H. split; [assumption|]. exists t. auto.
Qed.

Theorem check_jwt_sound : forall tab cfg w rq vid fid,
  key_for cfg w <> "" -> check_jwt tab cfg w rq vid fid = true ->
  valid_token_for tab (key_for cfg w) rq (vid ++ "," ++ strip_suffix fid).
Proof.
  intros tab cfg w rq vid fid Hk H.
  destruct (check_jwt_token _ _ _ _ _ _ Hk H) as (Ht & t & Hl & Hd & Hf).
  apply decode_ok_facts in Hd as (H1 & H2 & H3 & H4 & H5 & H6). exists t. repeat split; auto.
Qed.

Theorem check_jwt_no_key : forall tab cfg w rq vid fid, key_for cfg w = "" -> check_jwt tab cfg w rq vid fid = true.
Proof. intros tab cfg w rq vid fid H. unfold check_jwt. rewrite H. reflexivity. Qed.

Theorem check_jwt_missing : forall tab cfg w rq vid fid, key_for cfg w <> "" -> get_jwt rq = "" ->
  check_jwt tab cfg w rq vid fid = false.
Proof.
  intros tab cfg w rq vid fid Hk Ht. unfold check_jwt.
  destruct (sempty_spec (key_for cfg w)); [contradiction|]. rewrite Ht. reflexivity.
Qed.

Theorem get_jwt_source : forall rq,
  (rq_query_jwt rq <> "" /\ get_jwt rq = rq_query_jwt rq) \/
  (rq_query_jwt rq = "" /\
   ((7 < String.length (rq_auth rq) /\ upper_s (substring 0 6 (rq_auth rq)) = "BEARER" /\
     get_jwt rq = substring 7 (String.length (rq_auth rq) - 7) (rq_auth rq)) \/
    get_jwt rq = "")).
Proof.
  intros rq. unfold get_jwt. destruct (sempty_spec (rq_query_jwt rq)); simpl; [right|left; auto].
  split; [assumption|].
  destruct (Nat.ltb_spec 7 (String.length (rq_auth rq))); simpl; [|right; reflexivity].
  destruct (String.eqb_spec (upper_s (substring 0 6 (rq_auth rq))) "BEARER"); auto.
Qed.

Fixpoint no_us (s : string) : bool :=
  match s with EmptyString => true | String c s' => negb (Ascii.eqb c c_us) && no_us s' end.

Lemma last_us_none : forall s, no_us s = true -> last_index_nat c_us s = None.
Proof.
  induction s as [|c s IH]; intros H; simpl in *; auto.
  apply andb_true_iff in H. destruct H as [H1 H2]. rewrite IH by assumption.
  apply negb_true_iff in H1. rewrite H1. reflexivity.
Qed.

Lemma last_us_app : forall x n, no_us n = true ->
  last_index_nat c_us (x ++ String c_us n) = Some (String.length x).
Proof.
  induction x as [|c x IH]; intros n H; simpl.
  - rewrite last_us_none by assumption. reflexivity.
  - rewrite IH by assumption. reflexivity.
Qed.

(* the two halves of x ++ String c y, cut at the position of c *)
Lemma substring_prefix : forall x y, substring 0 (String.length x) (x ++ y) = x.
Proof.
  induction x as [|c x IH]; intros y; simpl.
  - destruct y; reflexivity.
  - rewrite IH. reflexivity.
Qed.

Lemma substring_full : forall y, substring 0 (String.length y) y = y.
Proof. induction y as [|c y IH]; simpl; [reflexivity|rewrite IH; reflexivity]. Qed.

Lemma substring_skip : forall x c y,
  substring (S (String.length x)) (String.length (x ++ String c y) - S (String.length x)) (x ++ String c y) = y.
Proof.
  induction x as [|a x IH]; intros c y; simpl.
  - rewrite Nat.sub_0_r. apply substring_full.
  - apply IH.
Qed.

Lemma split_delta_plain : forall f, no_us f = true -> split_delta f = (f, "").
Proof. intros f H. unfold split_delta. rewrite last_us_none by assumption. reflexivity. Qed.

Lemma split_delta_app : forall x n, x <> "" -> no_us n = true ->
  split_delta (x ++ String c_us n) = (x, n).
Proof.
  intros x n Hx Hn. unfold split_delta. rewrite last_us_app by assumption.
  destruct x as [|c x]; [congruence|]. cbn [String.length].
  rewrite (substring_prefix (String c x)), (substring_skip (String c x)). reflexivity.
Qed.

(* the token check and ParsePath cut the file id at the same place *)
Lemma strip_split : forall f, strip_suffix f = fst (split_delta f).
Proof. intros f. unfold strip_suffix, split_delta. destruct (last_index_nat c_us f) as [[|i]|]; reflexivity. Qed.

(* "<base>_<n>" is checked as "<base>" *)
Lemma strip_suffix_app : forall x n, x <> "" -> no_us n = true ->
  strip_suffix (x ++ String c_us n) = x.
Proof. intros x n Hx Hn. rewrite strip_split, split_delta_app by assumption. reflexivity. Qed.
Lemma strip_suffix_plain : forall x, no_us x = true -> strip_suffix x = x.
Proof. intros x H. rewrite strip_split, split_delta_plain by assumption. reflexivity. Qed.

(* a token for the base file id opens every sub-file "<fid>_<n>" *)
Theorem check_jwt_suffix : forall tab cfg w rq vid base n,
  base <> "" -> no_us base = true -> no_us n = true ->
  check_jwt tab cfg w rq vid (base ++ String c_us n) = check_jwt tab cfg w rq vid base.
Proof.
  intros tab cfg w rq vid base n Hb Hnb Hn. unfold check_jwt.
  rewrite strip_suffix_app by assumption. rewrite strip_suffix_plain by assumption. reflexivity.
Qed.

Lemma prefix_length_le : forall s m, String.length (substring 0 m s) <= String.length s.
Proof. induction s as [|c s IH]; intros [|m]; simpl; auto using Nat.le_0_l, le_n_S. Qed.

Lemma strip_suffix_len : forall f, String.length (strip_suffix f) <= String.length f.
Proof.
  intros f. unfold strip_suffix. destruct (last_index_nat c_us f) as [[|i]|]; auto using prefix_length_le.
Qed.

Lemma parse_uint_bound : forall h b s v, parse_uint h b s = Some v -> (v < 2 ^ b)%N.
Proof.
  intros h b s v H. unfold parse_uint in H. destruct (sempty s); [discriminate|].
  destruct (parse_digits h s 0) as [x|]; [|discriminate].
  destruct (N.ltb_spec x (2 ^ b)); [|discriminate]. injection H as <-. assumption.
Qed.

Lemma parse_nic_some : forall s id ck, parse_nic s = Some (id, ck) ->
  8 < String.length s /\ (id < 2 ^ 64)%N.
Proof.
  intros s id ck H. unfold parse_nic in H.
  destruct (Nat.leb_spec (String.length s) 8); [discriminate|]. destruct (Nat.ltb 24 (String.length s)); [discriminate|].
  destruct (parse_uint true 64 (substring 0 (String.length s - 8) s)) as [x|] eqn:E; [|discriminate].
  destruct (parse_uint true 32 (substring (String.length s - 8) 8 s)) as [y|]; [|discriminate].
  injection H as <- <-. split; [assumption|]. eapply parse_uint_bound; eassumption.
Qed.

(* ParsePath's own length test adds nothing: a base that parses has more than 8 characters *)
Lemma parsed_base_long : forall f p, parse_nic (strip_suffix f) = Some p ->
  Nat.leb (String.length f) 8 = false.
Proof.
  intros f [id ck] H. apply parse_nic_some in H as [Hl _].
  apply Nat.leb_gt. eapply Nat.lt_le_trans; [exact Hl|apply strip_suffix_len].
Qed.

(* the number ParsePath adds to the needle id: 0 without a _suffix, the suffix read as a decimal
   uint64, none when the suffix is not one *)
Definition delta_of (f : string) : option N :=
  if sempty (snd (split_delta f)) then Some 0%N else parse_uint false 64 (snd (split_delta f)).

(* Needle.ParsePath by what ParseNeedleIdCookie makes of the base (the text the token check
   compares): its needle plus the delta when the base parses, nothing otherwise *)
Lemma parse_path_st_sum : forall f,
  parse_path_st f =
  match parse_nic (strip_suffix f), delta_of f with
  | Some (id, ck), Some d => ((((id + d) mod 2 ^ 64)%N, ck), true)
  | Some (id, ck), None => ((id, ck), false)
  | None, _ => ((0, 0)%N, false)
  end.
Proof.
  intros f. pose proof (parsed_base_long f) as Hl. unfold parse_path_st, delta_of.
  rewrite strip_split in *. destruct (split_delta f) as [base delta]. cbn [fst snd] in *.
  destruct (parse_nic base) as [[id ck]|] eqn:En; [|destruct (Nat.leb (String.length f) 8); reflexivity].
  rewrite (Hl _ eq_refl). apply parse_nic_some in En as [_ Hid].
  destruct (sempty delta); [rewrite N.add_0_r, N.mod_small by assumption; reflexivity|].
  destruct (parse_uint false 64 delta); reflexivity.
Qed.

(* whatever ParsePath leaves in n when the base parses: the base's needle, plus a delta *)
Lemma parse_path_st_base : forall f id ck, parse_nic (strip_suffix f) = Some (id, ck) ->
  exists d, fst (parse_path_st f) = (((id + d) mod 2 ^ 64)%N, ck).
Proof.
  intros f id ck H. rewrite parse_path_st_sum, H. destruct (delta_of f) as [d|]; [exists d; reflexivity|].
  exists 0%N. apply parse_nic_some in H as [_ Hid]. rewrite N.add_0_r, N.mod_small by assumption. reflexivity.
Qed.

Lemma parse_path_base : forall f id' ck, parse_path f = Some (id', ck) ->
  exists id d, parse_nic (strip_suffix f) = Some (id, ck) /\ delta_of f = Some d /\
               id' = ((id + d) mod 2 ^ 64)%N.
Proof.
  intros f id' ck H. unfold parse_path in H. rewrite parse_path_st_sum in H.
  destruct (parse_nic (strip_suffix f)) as [[id ck0]|]; [|discriminate].
  destruct (delta_of f) as [d|]; [|discriminate].
  injection H as <- <-. exists id, d. auto.
Qed.

Lemma digits_no_comma : forall v acc r b, parse_digits false v acc = Some r ->
  index_nat c_comma (v ++ String c_comma b) = Some (String.length v).
Proof.
  induction v as [|c v IH]; intros acc r b H.
  - reflexivity.
  - cbn [parse_digits] in H. destruct (digit_of false c) as [d|] eqn:Ed; [|discriminate].
    cbn [append index_nat String.length]. destruct (Ascii.eqb_spec c c_comma) as [->|_].
    + discriminate.
    + rewrite (IH _ _ b H). reflexivity.
Qed.

(* the claim text "<vid>,<base>" denotes, for needle.ParseFileIdFromString, exactly the numbers that
   NewVolumeId and ParseNeedleIdCookie read from its two halves *)
Theorem claim_den_app : forall v b vol id ck,
  parse_vid v = Some vol -> parse_nic b = Some (id, ck) -> claim_den (v ++ "," ++ b) = Some (vol, id, ck).
Proof.
  intros v b vol id ck Hv Hb. unfold claim_den.
  change (v ++ "," ++ b) with (v ++ String c_comma b).
  assert (Hi : index_nat c_comma (v ++ String c_comma b) = Some (String.length v)).
  { unfold parse_vid, parse_uint in Hv. destruct (sempty v); [discriminate|].
    destruct (parse_digits false v 0) eqn:Ed; [|discriminate]. eapply digits_no_comma; eassumption. }
  rewrite Hi. destruct v as [|c v]; [discriminate|]. cbn [String.length].
  rewrite (substring_prefix (String c v)), (substring_skip (String c v)), Hv, Hb. reflexivity.
Qed.

Lemma parse_path_plain : forall f id ck, no_us f = true -> parse_path f = Some (id, ck) -> parse_nic f = Some (id, ck).
Proof.
  intros f id ck Hn H. unfold parse_path, parse_path_st in H.
  destruct (Nat.leb (String.length f) 8); [discriminate|].
  rewrite (split_delta_plain f Hn) in H.
  destruct (parse_nic f) as [[i c]|]; [|discriminate]. simpl in H. assumption.
Qed.

(* "<base>_<n>" addresses needle id + n (mod 2^64) with the cookie of <base> *)
Theorem parse_path_suffix_adds : forall base n id ck d,
  no_us n = true -> n <> "" -> parse_nic base = Some (id, ck) -> parse_uint false 64 n = Some d ->
  parse_path (base ++ String c_us n) = Some (((id + d) mod 2 ^ 64)%N, ck).
Proof.
  intros base n id ck d Hn Hne Hb Hd.
  assert (Hx : base <> "") by (intros ->; discriminate).
  unfold parse_path, parse_path_st.
  rewrite (parsed_base_long _ (id, ck)) by (rewrite strip_suffix_app; assumption).
  rewrite split_delta_app, Hb by assumption.
  destruct n as [|a n0]; [congruence|]. cbn [sempty]. rewrite Hd. reflexivity.
Qed.

(* an upload reaches the store only where a DELETE of the same path would, and only with the
   needle that its own reading of the path gives *)
Lemma post_proceed : forall tab cfg rq v f a, post tab cfg rq = Proceed v f a ->
  delete tab cfg rq = Proceed v f a /\
  exists u, upload_fid (rq_path rq) = Some u /\ parse_path u = parse_path f.
Proof.
  intros tab cfg rq v f a H. unfold post in H. unfold delete.
  destruct (parse_url_path (rq_path rq)) as [[vid fid]|]; [|discriminate].
  destruct (parse_vid vid) as [vol|]; [|discriminate].
  destruct (check_jwt tab cfg true rq vid fid); [|discriminate]. simpl in *.
  destruct (upload_fid (rq_path rq)) as [u|]; [|discriminate].
  destruct (parse_path u) as [[uid uck]|] eqn:Eu; [|discriminate].
  destruct (parse_path fid) as [[id ck]|] eqn:Ep; [|discriminate].
  destruct (N.eqb_spec id uid) as [<-|]; [|discriminate].
  destruct (N.eqb_spec ck uck) as [<-|]; [|discriminate].
  injection H as <- <- <-. split; [reflexivity|]. exists u. rewrite Eu, Ep. auto.
Qed.

(* Proceed v f a: v,f are parseURLPath's reading of the path, the check passed on them; a is, for EVERY
   method (reads, uploads and deletes), what NewVolumeId / ParsePath
   make of v / f, both without error; for an upload the needle CreateNeedleFromRequest built from its own
   reading of the path equals ParsePath f *)
Theorem proceed_authorized : forall tab cfg rq v f a, handle tab cfg rq = Proceed v f a ->
  parse_url_path (rq_path rq) = Some (v, f) /\
  check_jwt tab cfg (is_write_method (rq_method rq)) rq v f = true /\
  (exists vol id ck, parse_vid v = Some vol /\ parse_path f = Some (id, ck) /\ a = (vol, id, ck)) /\
  (is_upload (rq_method rq) = true ->
     exists u, upload_fid (rq_path rq) = Some u /\ parse_path u = parse_path f) /\
  (is_write_method (rq_method rq) = true -> rq_public rq = false /\ whitelist_blocks cfg rq = false).
Proof.
  intros tab cfg rq v f a H. unfold handle in H.
  (* GET/HEAD and DELETE run the same steps, under the read key (w = false) and the write key *)
  assert (Hacc : forall w : bool, (if w then delete tab cfg rq else get_or_head tab cfg rq) = Proceed v f a ->
            parse_url_path (rq_path rq) = Some (v, f) /\ check_jwt tab cfg w rq v f = true /\
            exists vol id ck, parse_vid v = Some vol /\ parse_path f = Some (id, ck) /\ a = (vol, id, ck)).
  { intros w Hw. destruct w; unfold get_or_head, delete in Hw.
    all: destruct (parse_url_path (rq_path rq)) as [[vid fid]|]; [|discriminate].
    all: destruct (check_jwt tab cfg _ rq vid fid) eqn:Ec; [|discriminate].
    all: destruct (parse_vid vid) as [vol|] eqn:Ev; [|discriminate].
    all: destruct (parse_path fid) as [[id ck]|] eqn:Ep; [|discriminate].
    all: injection Hw as <- <- <-.
    all: repeat split; auto; exists vol, id, ck; auto. }
  (* writes come through the private port and past the white list; an upload is let through only
     where a DELETE of the same path would be *)
  destruct (rq_method rq) eqn:Em; cbn [is_upload is_write_method].
  - (* GET *) destruct (Hacc false H) as (Hp & Hc & Ha). repeat split; auto; discriminate.
  - (* HEAD *) destruct (Hacc false H) as (Hp & Hc & Ha). repeat split; auto; discriminate.
  - (* POST *) destruct (rq_public rq); [discriminate|]. destruct (whitelist_blocks cfg rq); [discriminate|].
    apply post_proceed in H as (H & Hu). destruct (Hacc true H) as (Hp & Hc & Ha). repeat split; auto.
  - (* PUT *) destruct (rq_public rq); [discriminate|]. destruct (whitelist_blocks cfg rq); [discriminate|].
    apply post_proceed in H as (H & Hu). destruct (Hacc true H) as (Hp & Hc & Ha). repeat split; auto.
  - (* DELETE *) destruct (rq_public rq); [discriminate|]. destruct (whitelist_blocks cfg rq); [discriminate|].
    destruct (Hacc true H) as (Hp & Hc & Ha). repeat split; auto; discriminate.
Qed.

Definition is_proceed (o : hresult) : bool := match o with Proceed _ _ _ => true | _ => false end.

Lemma not_proceed : forall o, (forall v f a, o <> Proceed v f a) -> is_proceed o = false.
Proof. intros [| | | |v f a] H; [reflexivity..|]. destruct (H v f a eq_refl). Qed.

(* a refused request is answered 401 (or 400 for an upload whose volume id does not parse,
   or is not routed at all on the public port): the store step is not reached *)
Theorem reject_before_touch : forall tab cfg rq vid fid,
  parse_url_path (rq_path rq) = Some (vid, fid) ->
  check_jwt tab cfg (is_write_method (rq_method rq)) rq vid fid = false ->
  handle tab cfg rq = Unauthorized \/
  (handle tab cfg rq = BadRequest /\ is_upload (rq_method rq) = true /\ parse_vid vid = None) \/
  (handle tab cfg rq = NoRoute /\ is_write_method (rq_method rq) = true /\ rq_public rq = true).
Proof.
  intros tab cfg rq vid fid Hp H. unfold handle, get_or_head, post, delete. rewrite Hp.
  destruct (rq_method rq) eqn:Em; simpl in *.
  - (* GET *) rewrite H. left. reflexivity.
  - (* HEAD *) rewrite H. left. reflexivity.
  - (* POST: the volume id is parsed before the check *)
    destruct (rq_public rq); [right; right; auto|]. destruct (whitelist_blocks cfg rq); [left; reflexivity|].
    destruct (parse_vid vid); [|right; left; auto]. rewrite H. left. reflexivity.
  - (* PUT *)
    destruct (rq_public rq); [right; right; auto|]. destruct (whitelist_blocks cfg rq); [left; reflexivity|].
    destruct (parse_vid vid); [|right; left; auto]. rewrite H. left. reflexivity.
  - (* DELETE *)
    destruct (rq_public rq); [right; right; auto|]. destruct (whitelist_blocks cfg rq); [left; reflexivity|].
    rewrite H. left. reflexivity.
Qed.

Corollary reject_not_proceed : forall tab cfg rq vid fid,
  parse_url_path (rq_path rq) = Some (vid, fid) ->
  check_jwt tab cfg (is_write_method (rq_method rq)) rq vid fid = false ->
  is_proceed (handle tab cfg rq) = false.
Proof.
  intros tab cfg rq vid fid Hp H. apply not_proceed. intros v f a E.
  apply proceed_authorized in E as (Hp' & Hc & _). congruence.
Qed.

(* a path on which parseURLPath panics never reaches the store either *)
Theorem panic_not_proceed : forall tab cfg rq, parse_url_path (rq_path rq) = None ->
  is_proceed (handle tab cfg rq) = false.
Proof.
  intros tab cfg rq Hp. apply not_proceed. intros v f a E.
  apply proceed_authorized in E as (Hp' & _). congruence.
Qed.

(* an upload whose own reading of the path gives another needle than the checked fid (or none) is
   refused *)
Theorem upload_other_needle_refused : forall tab cfg rq v f u,
  is_upload (rq_method rq) = true ->
  parse_url_path (rq_path rq) = Some (v, f) -> upload_fid (rq_path rq) = Some u ->
  parse_path u <> parse_path f ->
  is_proceed (handle tab cfg rq) = false.
Proof.
  intros tab cfg rq v f u Hu Hp Hf Hne. apply not_proceed. intros v' f' a E.
  apply proceed_authorized in E as (Hp' & _ & _ & Hup & _).
  destruct (Hup Hu) as (u' & Hf' & He). congruence.
Qed.

(* for every method: a path whose volume id or file id does not parse never
   reaches the store - 401 when the check fails, else 400 *)
Theorem unparsed_not_proceed : forall tab cfg rq v f,
  parse_url_path (rq_path rq) = Some (v, f) ->
  parse_vid v = None \/ parse_path f = None ->
  is_proceed (handle tab cfg rq) = false.
Proof.
  intros tab cfg rq v f Hp Hu. apply not_proceed. intros v' f' a E.
  apply proceed_authorized in E as (Hp' & _ & (vol & id & ck & Ev & Ep & _) & _).
  destruct Hu; congruence.
Qed.

Theorem delete_unparsed_bad_request : forall tab cfg rq v f,
  rq_method rq = DELETE -> rq_public rq = false -> whitelist_blocks cfg rq = false ->
  parse_url_path (rq_path rq) = Some (v, f) ->
  check_jwt tab cfg true rq v f = true ->
  parse_vid v = None \/ parse_path f = None ->
  handle tab cfg rq = BadRequest.
Proof.
  intros tab cfg rq v f Hm Hpub Hwl Hp Hc Hu. unfold handle. rewrite Hm, Hpub, Hwl.
  unfold delete. rewrite Hp, Hc. simpl.
  destruct (parse_vid v) as [vol|]; [|reflexivity].
  destruct Hu as [Hu|Hu]; [discriminate|]. rewrite Hu. reflexivity.
Qed.

(* c34_accept_sound: with the key of the request's class configured, the store is reached
   only with a present, well-formed, unexpired HMAC token signed with THAT key whose claim is
   textually "<vid>,<fid without _suffix>" of the file the path names *)
Theorem accept_sound : forall tab cfg rq v f a,
  key_for cfg (is_write_method (rq_method rq)) <> "" ->
  handle tab cfg rq = Proceed v f a ->
  valid_token_for tab (key_for cfg (is_write_method (rq_method rq))) rq (v ++ "," ++ strip_suffix f).
Proof.
  intros tab cfg rq v f a Hk H. apply proceed_authorized in H.
  destruct H as [Hp [Hc _]]. apply check_jwt_sound; assumption.
Qed.

(* c34_names_target, every method: the text the token had to repeat denotes, for the file id parser
   ParseFileIdFromString, the volume and cookie the store operation is called with, and a needle id
   from which the addressed one differs by some d mod 2^64 (d is not tied to the path here) *)
Theorem proceed_names_target : forall tab cfg rq v f a,
  handle tab cfg rq = Proceed v f a ->
  exists vol id ck d, claim_den (v ++ "," ++ strip_suffix f) = Some (vol, id, ck) /\
                      a = (vol, ((id + d) mod 2 ^ 64)%N, ck).
Proof.
  intros tab cfg rq v f a H.
  apply proceed_authorized in H as (_ & _ & (vol & id' & ck & Ev & Ep & ->) & _).
  apply parse_path_base in Ep as (id & d & En & _ & ->).
  exists vol, id, ck, d. split; [apply claim_den_app; assumption|reflexivity].
Qed.

(* with a token: its claim denotes the addressed volume and cookie (the needle id as above) *)
Theorem accept_names_target : forall tab cfg rq v f a,
  key_for cfg (is_write_method (rq_method rq)) <> "" ->
  handle tab cfg rq = Proceed v f a ->
  exists t vol id ck d, lookup (get_jwt rq) tab = Some t /\
     decode_ok (key_for cfg (is_write_method (rq_method rq))) t = true /\
     claim_den (t_fid t) = Some (vol, id, ck) /\ a = (vol, ((id + d) mod 2 ^ 64)%N, ck).
Proof.
  intros tab cfg rq v f a Hk H.
  destruct (proceed_names_target tab cfg rq v f a H) as (vol & id & ck & d & Hc & Ha).
  apply proceed_authorized in H as (_ & H & _).
  apply check_jwt_token in H as (_ & t & Hl & Hd & Hf); [|assumption].
  exists t, vol, id, ck, d. rewrite Hf. auto.
Qed.

(* under a configured key the store is never reached with
   a token whose claim denotes no file *)
Corollary accept_claim_denotes : forall tab cfg rq v f a,
  key_for cfg (is_write_method (rq_method rq)) <> "" ->
  handle tab cfg rq = Proceed v f a ->
  exists t, lookup (get_jwt rq) tab = Some t /\ claim_den (t_fid t) <> None.
Proof.
  intros tab cfg rq v f a Hk H.
  destruct (accept_names_target tab cfg rq v f a Hk H) as (t & vol & id & ck & d & Hl & _ & Hc & _).
  exists t. split; [assumption|]. rewrite Hc. discriminate.
Qed.

(* a file id without a _suffix (every method): the claim denotes exactly the addressed needle *)
Theorem proceed_names_exact : forall tab cfg rq v f a,
  handle tab cfg rq = Proceed v f a -> no_us f = true ->
  claim_den (v ++ "," ++ strip_suffix f) = Some a.
Proof.
  intros tab cfg rq v f a H Hn.
  apply proceed_authorized in H as (_ & _ & (vol & id & ck & Ev & Ep & ->) & _).
  rewrite (strip_suffix_plain f Hn). apply claim_den_app; [assumption|].
  apply parse_path_plain; assumption.
Qed.

(* witnesses: a write key, a token per claim text, a request per method and path *)
Definition w_key : string := "wkey".
Definition mk_tok (claim : string) : token :=
  {| t_wellformed := true; t_alg := AlgHMAC; t_signed_with := w_key; t_exp_ok := true; t_nbf_ok := true;
     t_iat_ok := true; t_fid := claim; t_den := claim_den claim; t_names_target := false |}.
Definition w_tok : token := mk_tok "3,01637037d6".
Definition w_cfg : config := {| write_key := w_key; read_key := ""; wl_active := false |}.
Definition mk_rq (m : meth) (path : string) : request :=
  {| rq_public := false; rq_method := m; rq_query_jwt := "T"; rq_auth := ""; rq_path := path; rq_wl_pass := false |}.

Definition r_rq : request := mk_rq DELETE "/x3,01637037d6".
Definition r_tab : toktab := [("T", mk_tok "x3,01637037d6")].

(* a token whose claim repeats the unparsable text passes the (textual) check, and
   the request is answered 400 before the store; volume 0 / needle 1 stays; the same on GET and PUT *)
Example repaired_delete_witness :
  check_jwt r_tab w_cfg true r_rq "x3" "01637037d6" = true /\
  claim_den "x3,01637037d6" = None /\
  handle r_tab w_cfg r_rq = BadRequest /\
  store_step (handle r_tab w_cfg r_rq) DELETE
    {| w_vols := [0%N; 3%N]; w_live := [{| n_vol := 0; n_id := 1; n_ck := 1668298710; n_content := 1 |}] |}
  = {| e_status := 400; e_live := [{| n_vol := 0; n_id := 1; n_ck := 1668298710; n_content := 1 |}]; e_disclosed := [] |} /\
  handle [("T", mk_tok "3,zz637037d6")] w_cfg (mk_rq DELETE "/3,zz637037d6") = BadRequest /\
  handle [("T", mk_tok "3,01637037d6")] w_cfg (mk_rq DELETE "/3,01637037d6_x") = BadRequest /\
  handle r_tab w_cfg (mk_rq GET "/x3,01637037d6") = BadRequest /\
  handle r_tab {| write_key := ""; read_key := w_key; wl_active := false |} (mk_rq GET "/x3,01637037d6") = BadRequest /\
  handle r_tab w_cfg (mk_rq PUT "/x3,01637037d6") = BadRequest.
Proof. vm_compute. repeat split. Qed.

(* a token for file 1, an upload path whose file name
   carries file 2 — answered 400 before the store *)
Definition w_rq : request := mk_rq PUT "/3/01637037d6/x,02637037d6".

Example repaired_witness :
  parse_url_path (rq_path w_rq) = Some ("3", "01637037d6") /\
  upload_fid (rq_path w_rq) = Some "02637037d6" /\
  parse_path "01637037d6" = Some (1, 1668298710)%N /\ parse_path "02637037d6" = Some (2, 1668298710)%N /\
  handle [("T", w_tok)] w_cfg w_rq = BadRequest.
Proof. vm_compute. repeat split. Qed.

(* non-vacuity and the textual quirk: the same token on the plain URL is fine and addresses needle 1,
   "_1" addresses needle 2 under the token of needle 1, a zero-padded volume id in the claim is refused
   although it denotes the same volume *)
Example accept_example :
  let rq := {| rq_public := false; rq_method := DELETE; rq_query_jwt := ""; rq_auth := "Bearer T";
               rq_path := "/3,01637037d6_1"; rq_wl_pass := false |} in
  let up := mk_rq PUT "/3,01637037d6.txt" in
  handle [("T", w_tok)] w_cfg rq = Proceed "3" "01637037d6_1" (3, 2, 1668298710)%N /\
  handle [("T", w_tok)] w_cfg up = Proceed "3" "01637037d6" (3, 1, 1668298710)%N /\
  claim_den "3,01637037d6" = Some (3, 1, 1668298710)%N /\ claim_den "03,01637037d6" = Some (3, 1, 1668298710)%N /\
  handle [("T", mk_tok "03,01637037d6")] w_cfg rq = Unauthorized /\
  handle [("T", {| t_wellformed := true; t_alg := AlgNone; t_signed_with := ""; t_exp_ok := true; t_nbf_ok := true;
                   t_iat_ok := true; t_fid := "3,01637037d6"; t_den := None; t_names_target := true |})] w_cfg rq = Unauthorized /\
  handle [] w_cfg rq = Unauthorized.
Proof. vm_compute. repeat split. Qed.
