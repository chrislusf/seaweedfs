(* C22: the invariant of the LogBuffer model and what one read returns under it, for
   flushFn <> nil (hf = false is treated only by the witness in LogBufRefute). *)
From Coq Require Import List ZArith NArith Bool Lia.
From SW Require Import proof.ListFacts model.LogBuf proof.LogBufProofs.
Import ListNotations.
Local Open Scope Z_scope.

Lemma zeroT_neg : zeroT < 0.
Proof. unfold zeroT. lia. Qed.

(* ghost view of the ring: events of the sealed buffers that have left the ring, and the
   sealed buffers the three slots stand for *)
Record ghost := { ev_old : list entry; r0 : option seg; r1 : option seg; r2 : option seg }.
Definition dat (o : option seg) : list entry := match o with Some g => g_data g | None => [] end.
Definition sealed (gh : ghost) : list entry := ev_old gh ++ dat (r0 gh) ++ dat (r1 gh) ++ dat (r2 gh).
(* every event appended so far, in append order *)
Definition E_of (gh : ghost) (s : st) : list entry :=
  ev_old gh ++ dat (r0 gh) ++ dat (r1 gh) ++ dat (r2 gh) ++ cur s.

Lemma E_of_sealed : forall gh s, E_of gh s = sealed gh ++ cur s.
Proof. intros. unfold E_of, sealed. rewrite <- !app_assoc. reflexivity. Qed.

Definition all_le (l : list entry) (t : Z) : Prop := forall e, In e l -> e_ts e <= t.

Lemma all_le_app : forall a b t, all_le (a ++ b) t <-> all_le a t /\ all_le b t.
Proof.
  unfold all_le. intros a b t. split.
  - intros H. split; intros e He; apply H, in_or_app; auto.
  - intros [Ha Hb] e He. apply in_app_or in He. destruct He; auto.
Qed.

Definition seg_ok (g : seg) : Prop :=
  g_data g <> [] /\ g_start g = e_ts (hd dummy_entry (g_data g)) /\ g_stop g = last_ts (g_data g) 0.
Definition oseg_ok (o : option seg) : Prop := match o with Some g => seg_ok g | None => True end.

(* slot m stands for sealed buffer o; its bytes are intact unless lastFlushTime covers it *)
Definition slot_is (lf : Z) (m : mem) (o : option seg) : Prop :=
  match o with
  | None => m_size m = 0 /\ m_start m = zeroT /\ m_stop m = zeroT
  | Some g => m_start m = g_start g /\ m_stop m = g_stop g /\ m_size m = recs_len (g_data g) /\
              (m_stop m <= lf \/ exists rest, m_arr m = map Rec (g_data g) ++ rest)
  end.

Definition cur_times (s : st) : Prop :=
  match cur s with
  | [] => stopT s <= 0
  | e :: _ => startT s = e_ts e /\ stopT s = last_ts (cur s) 0
  end.

(* lastFlushTime is the end of what has been flushed and acknowledged *)
Definition FlushInv (s : st) : Prop :=
  match inflight s with
  | None => lastFlush s = last_ts (concat (disk s)) zeroT
  | Some g => exists d', disk s = d' ++ [g_data g] /\ lastFlush s = last_ts (concat d') zeroT
  end.

Record InvCore (gh : ghost) (s : st) : Prop := {
  i_incr : incr 0 (E_of gh s);
  i_last : all_le (E_of gh s) (lastTs s);
  i_last0 : 0 <= lastTs s;
  i_len : forall e, In e (E_of gh s) -> 0 < e_len e;
  i_ok0 : oseg_ok (r0 gh);
  i_ok1 : oseg_ok (r1 gh);
  i_ok2 : oseg_ok (r2 gh);
  i_s0 : slot_is (lastFlush s) (s0 s) (r0 gh);
  i_s1 : slot_is (lastFlush s) (s1 s) (r1 gh);
  i_s2 : slot_is (lastFlush s) (s2 s) (r2 gh);
  (* what has left the ring is covered by lastFlushTime: this is what the trigger hypothesis buys *)
  i_old : all_le (ev_old gh) (lastFlush s);
  (* disk, then queue, then current buffer are all events, in order *)
  i_disk : concat (disk s) ++ concat (map g_data (queue s)) ++ cur s = E_of gh s;
  i_dne : forall g, In g (disk s) -> g <> [];
  i_q : forall g, In g (queue s) -> seg_ok g;
  i_flush : FlushInv s;
  i_infl : forall g, inflight s = Some g -> seg_ok g
}.

(* InvCore does not mention startT, stopT, cap, tail (InvCore_ext); cur_times is the part about
   startT / stopT, which set_start inside AddToBuffer changes and write_inv re-establishes *)
Definition Inv (gh : ghost) (s : st) : Prop := InvCore gh s /\ cur_times s.

Lemma incr_middle : forall a b c lo, incr lo (a ++ b ++ c) -> incr lo b.
Proof.
  intros a b c lo H. apply incr_app in H. destruct H as [Ha H]. apply incr_app in H.
  eapply incr_weaken; [|apply H]. apply (incr_lo_le_last _ _ Ha).
Qed.

Lemma cur_incr : forall gh s, InvCore gh s -> incr 0 (cur s).
Proof.
  intros gh s HI. pose proof (i_incr _ _ HI) as Hinc. rewrite E_of_sealed, <- (app_nil_r (cur s)) in Hinc.
  exact (incr_middle _ _ _ _ Hinc).
Qed.

Lemma disk_incr : forall gh s, InvCore gh s -> incr 0 (concat (disk s)).
Proof.
  intros gh s HI. pose proof (i_incr _ _ HI) as Hinc. rewrite <- (i_disk _ _ HI) in Hinc.
  apply incr_app in Hinc. apply Hinc.
Qed.

Lemma cur_le_stop : forall gh s, Inv gh s -> all_le (cur s) (stopT s).
Proof.
  intros gh s [HI Hcur] e He. pose proof (cur_incr _ _ HI) as Hc.
  unfold cur_times in Hcur. destruct (cur s); [destruct He|]. destruct Hcur as [_ ->].
  apply incr_in_le_last; assumption.
Qed.

Lemma seg_ok_bounds : forall g lo e, seg_ok g -> incr lo (g_data g) -> In e (g_data g) ->
  g_start g <= e_ts e <= g_stop g.
Proof.
  intros g lo e [Hne [Hs Ht]] Hi Hin. rewrite Hs, Ht.
  destruct (g_data g) as [|x l] eqn:Hd; [contradiction|]. cbn [hd].
  destruct Hi as [H1 H2]. rewrite last_ts_cons. destruct Hin as [->|Hin].
  - split; [lia|]. apply incr_lo_le_last. exact H2.
  - split; [pose proof (incr_lb _ _ _ H2 Hin); lia|]. apply incr_in_le_last; auto.
Qed.

(* X is a contiguous piece of E, everything before it at or below t, everything in it later
   than t: what a read at position t may return *)
Definition splits (E : list entry) (t : Z) (X : list entry) : Prop :=
  exists E1 E3, E = E1 ++ X ++ E3 /\ (forall e, In e E1 -> e_ts e <= t) /\ (forall e, In e X -> t < e_ts e).

Lemma splits_nil : forall E t, splits E t [].
Proof. intros. exists [], E. split; [reflexivity|]. split; intros; contradiction. Qed.

Lemma splits_last_gt : forall E t X, splits E t X -> X <> [] -> t < last_ts X t.
Proof.
  intros E t X [_ [_ [_ [_ HX]]]] Hne. destruct (last_ts_in X t Hne) as [el [Hel <-]]. auto.
Qed.

(* if everything before the piece P of E is at or below t, the events of P later than t are a
   read result at t *)
Lemma splits_piece : forall A P B lo t, incr lo (A ++ P ++ B) -> all_le A t ->
  splits (A ++ P ++ B) t (filter (fun e => t <? e_ts e) P).
Proof.
  intros A P B lo t Hinc HA. apply incr_app in Hinc. destruct Hinc as [_ Hinc].
  apply incr_app in Hinc. destruct Hinc as [HP _].
  destruct (incr_split _ _ t HP) as [pre [Heq Hpre]].
  exists (A ++ pre), B. split; [rewrite Heq at 1; rewrite <- !app_assoc; reflexivity|]. split.
  - apply all_le_app. auto.
  - intros e He. apply filter_In in He. lia.
Qed.

Lemma filter_later_nil : forall t l, filter (fun e => t <? e_ts e) l = [] -> all_le l t.
Proof.
  intros t l H e He. destruct (t <? e_ts e) eqn:E; [|lia].
  assert (Hin : In e (filter (fun e => t <? e_ts e) l)) by (apply filter_In; auto).
  rewrite H in Hin. destruct Hin.
Qed.

(* one slot of the ring scan, ReadFromBuffer not having answered ResumeFromDisk (lf = zeroT or
   lf <= t): it falls through when nothing in the slot is later than t *)
Lemma scan_slot_spec : forall lf m o t,
  slot_is lf m o -> oseg_ok o -> incr 0 (dat o) -> (forall e, In e (dat o) -> 0 < e_len e) ->
  (lf = zeroT \/ lf <= t) -> 0 <= t ->
  match filter (fun e => t <? e_ts e) (dat o) with
  | [] => scan_slot m t = None
  | (_ :: _) as X => exists c, scan_slot m t = Some (RChunk c) /\ decode c = (X, DOk)
  end.
Proof.
  intros lf m o t Hslot Hok Hinc Hlen Hlf Ht. pose proof zeroT_neg as Hz. unfold scan_slot.
  destruct o as [g|]; cbn [dat slot_is oseg_ok] in *.
  2:{ destruct Hslot as [_ [-> ->]]. destruct (t <? zeroT) eqn:E1; [lia|].
      cbn [filter]. rewrite andb_false_r. reflexivity. }
  destruct Hslot as [Hst [Hsp [Hsz Harr]]].
  assert (Hb : forall e, In e (g_data g) -> m_start m <= e_ts e <= m_stop m).
  { intros e He. rewrite Hst, Hsp. apply (seg_ok_bounds g 0 e Hok Hinc He). }
  assert (Hintact : t < m_stop m -> exists rest, m_arr m = map Rec (g_data g) ++ rest).
  { intros Hlt. destruct Harr as [Hm|Hm]; [lia|exact Hm]. }
  destruct (incr_split _ _ t Hinc) as [pre [Heq Hpre]].
  destruct (t <? m_start m) eqn:E1; [|destruct ((m_start m <=? t) && (t <? m_stop m)) eqn:E2].
  - (* the whole buffer is later than t *)
    rewrite filter_all_true by (intros e He; specialize (Hb e He); lia).
    destruct Hok as [Hne _]. destruct (last_ts_in _ 0 Hne) as [el [Hel _]].
    destruct Hintact as [rest ->]; [specialize (Hb el Hel); lia|].
    rewrite Hsz, take_bytes_recs. generalize (decode_recs _ Hlen).
    destruct (g_data g); [congruence|]. eauto.
  - (* t falls inside: the last record is later than t *)
    destruct Hintact as [rest Hrest]; [lia|].
    destruct (filter (fun e => t <? e_ts e) (g_data g)) as [|x suf] eqn:Hf.
    { exfalso. destruct Hok as [Hne [_ Hk]]. destruct (last_ts_in _ 0 Hne) as [el [Hel1 Hel2]].
      apply filter_later_nil in Hf. specialize (Hf _ Hel1). lia. }
    assert (Hx : t < e_ts x).
    { assert (Hin : In x (x :: suf)) by (left; reflexivity). rewrite <- Hf in Hin. apply filter_In in Hin. lia. }
    rewrite Hrest, Heq, (locate_recs pre x suf rest t 0 Hpre Hx). cbn [Z.add].
    assert (Hle : recs_len pre <= m_size m).
    { rewrite Hsz, Heq, recs_len_app. pose proof (recs_len_nonneg (x :: suf)). lia. }
    destruct (m_size m <? recs_len pre) eqn:E4; [lia|].
    eexists. split; [reflexivity|].
    rewrite Hsz, Heq, take_bytes_recs, drop_bytes_recs. apply decode_recs.
    intros e He. apply Hlen. rewrite Heq. apply in_or_app. right. exact He.
  - (* the buffer ends at or before t *)
    rewrite filter_all_false; [reflexivity|]. intros e He. specialize (Hb e He). lia.
Qed.

Lemma mid_bounds : forall lo hi, lo <= hi -> lo <= (lo + hi) / 2 <= hi.
Proof.
  intros. split; [apply Z.div_le_lower_bound; lia|].
  apply Z.lt_succ_r. apply Z.div_lt_upper_bound; lia.
Qed.

Lemma bsearch_sound : forall fuel l t lo hi mid,
  0 <= lo -> bsearch fuel l t lo hi = Some mid ->
  lo <= mid <= hi /\ t < ts_at l mid /\ (0 < mid -> ts_at l (mid - 1) <= t).
Proof.
  induction fuel as [|f IH]; intros l t lo hi mid Hlo H; [discriminate|].
  cbn [bsearch] in H. destruct (hi <? lo) eqn:E0; [discriminate|].
  pose proof (mid_bounds lo hi ltac:(lia)) as Hm.
  destruct (ts_at l ((lo + hi) / 2) <=? t) eqn:E1.
  - apply IH in H; [|lia]. lia.
  - destruct ((if 0 <? (lo + hi) / 2 then ts_at l ((lo + hi) / 2 - 1) else 0) <=? t) eqn:E2.
    + inversion H; subst mid. split; [lia|]. split; [lia|]. intros Hpos.
      destruct (0 <? (lo + hi) / 2) eqn:E3; lia.
    + apply IH in H; [|lia]. lia.
Qed.

(* the search window shrinks at every step and keeps ts(lo-1) <= t < ts(hi): it cannot run
   out of fuel or close empty *)
Lemma bsearch_complete : forall l t fuel lo hi,
  0 <= t -> 0 <= lo <= hi -> hi - lo < Z.of_nat fuel ->
  (lo = 0 \/ ts_at l (lo - 1) <= t) -> t < ts_at l hi ->
  exists mid, bsearch fuel l t lo hi = Some mid.
Proof.
  intros l t fuel. induction fuel as [|f IH]; intros lo hi Ht Hlo Hf Hinv Hhi; [lia|].
  cbn [bsearch]. destruct (hi <? lo) eqn:E0; [lia|].
  pose proof (mid_bounds lo hi ltac:(lia)) as Hm.
  set (mid := (lo + hi) / 2) in *.
  destruct (ts_at l mid <=? t) eqn:E1.
  - assert (mid < hi). { destruct (Z.eq_dec mid hi) as [Heq|]; [rewrite Heq in E1; lia|lia]. }
    apply IH; try lia. right. replace (mid + 1 - 1) with mid by lia. lia.
  - destruct ((if 0 <? mid then ts_at l (mid - 1) else 0) <=? t) eqn:E2; [eauto|].
    assert (mid < hi).
    { destruct (Z.eq_dec mid hi) as [Heq|]; [|lia]. exfalso.
      assert (lo = mid).
      { unfold mid in Heq. pose proof (Z.div_mod (lo + hi) 2 ltac:(lia)).
        pose proof (Z.mod_pos_bound (lo + hi) 2 ltac:(lia)). lia. }
      destruct (0 <? mid) eqn:E3; [|lia]. destruct Hinv as [Hinv|Hinv]; [lia|].
      rewrite <- H in E2. lia. }
    apply IH; try lia; exact Hinv.
Qed.

(* in a strictly increasing list with something later than t, it finds where that begins *)
Lemma bsearch_later : forall l lo0 t, incr lo0 l -> 0 <= t ->
  filter (fun e => t <? e_ts e) l <> [] ->
  exists mid, bsearch (S (S (length l))) l t 0 (Z.of_nat (length l) - 1) = Some mid /\
              skipn (Z.to_nat mid) l = filter (fun e => t <? e_ts e) l.
Proof.
  intros l lo0 t Hinc Ht Hne. destruct (incr_split l lo0 t Hinc) as [pre [Heq Hpre]].
  remember (filter (fun e => t <? e_ts e) l) as X eqn:HX.
  assert (Hlater : forall e, In e X -> t < e_ts e) by (subst X; intros e He; apply filter_In in He; lia).
  clear HX. subst l. rewrite app_length in *.
  assert (0 < length X)%nat by (destruct X; [congruence|cbn; lia]).
  (* positions below |pre| hold timestamps <= t, the others later ones *)
  assert (Hlo : forall k, 0 <= k < Z.of_nat (length pre) -> ts_at (pre ++ X) k <= t).
  { intros k Hk. unfold ts_at. rewrite app_nth1 by lia. apply Hpre, nth_In. lia. }
  assert (Hhi : forall k, Z.of_nat (length pre) <= k < Z.of_nat (length pre + length X) -> t < ts_at (pre ++ X) k).
  { intros k Hk. unfold ts_at. rewrite app_nth2 by lia. apply Hlater, nth_In. lia. }
  destruct (bsearch_complete (pre ++ X) t (S (S (length pre + length X))) 0 (Z.of_nat (length pre + length X) - 1))
    as [mid Hb]; try lia; [apply Hhi; lia|].
  exists mid. split; [exact Hb|]. apply bsearch_sound in Hb; [|lia]. destruct Hb as [Hm [Hgt Hprev]].
  assert (Hmid : Z.to_nat mid = length pre).
  { destruct (Z_lt_le_dec mid (Z.of_nat (length pre))) as [Hl|Hl]; [specialize (Hlo mid); lia|].
    destruct (Z.eq_dec mid (Z.of_nat (length pre))); [lia|]. specialize (Hhi (mid - 1)). lia. }
  rewrite Hmid, skipn_app, skipn_all, Nat.sub_diag. reflexivity.
Qed.

Lemma scan_slot_not_resume : forall m t, scan_slot m t <> Some RResume.
Proof.
  intros m t. unfold scan_slot. destruct (t <? m_start m); [discriminate|].
  destruct ((m_start m <=? t) && (t <? m_stop m)); [|discriminate].
  destruct (locate (m_arr m) t 0) as [p|]; [|discriminate]. destruct (m_size m <? p); discriminate.
Qed.

Lemma rfb_resume : forall s t, read_from_buffer s t = RResume -> lastFlush s <> zeroT /\ t < lastFlush s.
Proof.
  intros s t H. unfold read_from_buffer in H.
  destruct (negb (lastFlush s =? zeroT) && (t <? lastFlush s)) eqn:E0.
  { apply andb_true_iff in E0. destruct E0 as [A B]. apply negb_true_iff in A. split; lia. }
  exfalso. destruct (t =? stopT s); [discriminate|]. destruct (stopT s <? t); [discriminate|].
  destruct (t <? startT s).
  - pose proof (scan_slot_not_resume (s0 s) t). pose proof (scan_slot_not_resume (s1 s) t).
    pose proof (scan_slot_not_resume (s2 s) t).
    destruct (scan_slot (s0 s) t); [congruence|]. destruct (scan_slot (s1 s) t); [congruence|].
    destruct (scan_slot (s2 s) t); [congruence|discriminate].
  - destruct (bsearch _ _ _ _ _); discriminate.
Qed.

(* what a returned buffer c holds: the events later than t of one of the buffers, everything
   before them being at or below t -- of the current buffer if no sealed one has any *)
Definition chunk_ok (gh : ghost) (s : st) (t : Z) (c : list cell) : Prop :=
  exists X, decode c = (X, DOk) /\ X <> [] /\ splits (E_of gh s) t X /\
            (all_le (sealed gh) t -> exists pre, cur s = pre ++ X).

(* the scan of the slot that stands for the sealed buffer between A and B, everything in A
   being at or below t: it answers, or everything in the slot is at or below t too *)
Lemma slot_read : forall gh s t m o A B,
  InvCore gh s -> slot_is (lastFlush s) m o -> oseg_ok o ->
  (lastFlush s = zeroT \/ lastFlush s <= t) -> 0 <= t ->
  sealed gh = A ++ dat o ++ B -> all_le A t ->
  match scan_slot m t with
  | Some (RChunk c) => chunk_ok gh s t c
  | Some _ => False
  | None => all_le (A ++ dat o) t
  end.
Proof.
  intros gh s t m o A B HI Hslot Hok Hlf Ht Hsl HA.
  pose proof (i_incr _ _ HI) as Hinc. pose proof (i_len _ _ HI) as HL.
  rewrite E_of_sealed, Hsl, <- !app_assoc in *.
  pose proof (scan_slot_spec _ _ _ t Hslot Hok (incr_middle _ _ _ _ Hinc)
                ltac:(intros; apply HL; rewrite !in_app_iff; tauto) Hlf Ht) as S.
  destruct (filter _ (dat o)) as [|y Y] eqn:F.
  - rewrite S. apply all_le_app. split; [exact HA|apply filter_later_nil, F].
  - destruct S as [c [-> Hd]]. rewrite <- F in *. eexists. split; [exact Hd|]. split; [congruence|]. split.
    + rewrite E_of_sealed, Hsl, <- !app_assoc. apply (splits_piece _ _ _ 0); assumption.
    + rewrite Hsl. intros Hs. exfalso. assert (Hy : In y (filter (fun e => t <? e_ts e) (dat o))) by (rewrite F; left; reflexivity).
      apply filter_In in Hy. specialize (Hs y ltac:(rewrite !in_app_iff; tauto)). lia.
Qed.

(* ReadFromBuffer(t) under the invariant: it never reads bytes that are not a record; it
   sends the reader to the disk only below lastFlushTime and reports nothing only at or after
   the last record. *)
Lemma read_from_buffer_spec : forall gh s t,
  Inv gh s -> 0 <= t ->
  match read_from_buffer s t with
  | RResume => lastFlush s <> zeroT /\ t < lastFlush s
  | RNil => stopT s <= t
  | RChunk c => chunk_ok gh s t c
  | RPanic => False
  end.
Proof.
  intros gh s t [HI Hcur] Ht. pose proof zeroT_neg as Hz. unfold read_from_buffer.
  destruct (negb (lastFlush s =? zeroT) && (t <? lastFlush s)) eqn:E0.
  { apply andb_true_iff in E0. destruct E0 as [A B]. apply negb_true_iff in A. lia. }
  assert (Hlf : lastFlush s = zeroT \/ lastFlush s <= t).
  { apply andb_false_iff in E0. destruct E0 as [E0|E0]; [apply negb_false_iff in E0|]; lia. }
  destruct (t =? stopT s) eqn:E1; [lia|]. destruct (stopT s <? t) eqn:E2; [lia|].
  pose proof (i_incr _ _ HI) as Hinc. pose proof (cur_incr _ _ HI) as Hc.
  unfold cur_times in Hcur. destruct (cur s) as [|x l] eqn:Ecur; [lia|]. rewrite <- Ecur in *.
  destruct Hcur as [Hstart Hstop].
  (* the events of the current buffer later than t, when everything sealed is at or below t *)
  assert (Hfin : forall c, all_le (sealed gh) t -> decode c = (filter (fun e => t <? e_ts e) (cur s), DOk) ->
                           filter (fun e => t <? e_ts e) (cur s) <> [] -> chunk_ok gh s t c).
  { intros c Hsl Hd Hne. eexists. split; [exact Hd|]. split; [exact Hne|]. split.
    - pose proof (splits_piece (sealed gh) (cur s) [] 0 t) as Hsp.
      rewrite app_nil_r, <- E_of_sealed in Hsp. apply Hsp; assumption.
    - intros _. destruct (incr_split _ _ t Hc) as [pre [Heq _]]. eauto. }
  assert (Hdec : forall X, (forall e, In e X -> In e (cur s)) -> decode (map Rec X) = (X, DOk)).
  { intros X HX. apply decode_recs. intros e He. apply (i_len _ _ HI). rewrite E_of_sealed.
    apply in_or_app. auto. }
  destruct (t <? startT s) eqn:E3.
  - assert (Hold : all_le (ev_old gh) t).
    { intros e He. pose proof (i_old _ _ HI e He).
      pose proof (incr_lb _ 0 e Hinc ltac:(apply in_or_app; auto)). lia. }
    pose proof (slot_read gh s t _ _ _ (dat (r1 gh) ++ dat (r2 gh)) HI (i_s0 _ _ HI) (i_ok0 _ _ HI) Hlf Ht eq_refl Hold) as S0.
    destruct (scan_slot (s0 s) t) as [[]|]; try contradiction; [exact S0|].
    pose proof (slot_read gh s t _ _ _ (dat (r2 gh)) HI (i_s1 _ _ HI) (i_ok1 _ _ HI) Hlf Ht (app_assoc _ _ _) S0) as S1.
    destruct (scan_slot (s1 s) t) as [[]|]; try contradiction; [exact S1|].
    pose proof (slot_read gh s t _ _ _ [] HI (i_s2 _ _ HI) (i_ok2 _ _ HI) Hlf Ht
                  ltac:(unfold sealed; rewrite app_nil_r, !app_assoc; reflexivity) S1) as S2.
    destruct (scan_slot (s2 s) t) as [[]|]; try contradiction; [exact S2|].
    (* the whole current buffer: it starts after t *)
    assert (Hall : filter (fun e => t <? e_ts e) (cur s) = cur s).
    { apply filter_all_true. intros e He. rewrite Ecur in Hc, He. destruct Hc as [_ Hc].
      destruct He as [<-|He]; [lia|]. pose proof (incr_lb _ _ _ Hc He). lia. }
    apply Hfin; rewrite ?Hall; auto; [|congruence].
    unfold sealed. rewrite !app_assoc. exact S2.
  - (* startT <= t < stopT: the binary search finds the first record later than t *)
    assert (Hne : filter (fun e => t <? e_ts e) (cur s) <> []).
    { destruct (last_ts_in (cur s) 0 ltac:(congruence)) as [el [Hel Heq]].
      intro Hn. apply filter_later_nil in Hn. specialize (Hn el Hel). lia. }
    destruct (bsearch_later _ _ t Hc Ht Hne) as [mid [-> ->]].
    apply Hfin; auto; [|apply Hdec; intros e He; apply filter_In in He; tauto].
    (* everything sealed is below the first record of the current buffer, which is <= t *)
    intros e He. rewrite E_of_sealed, Ecur in Hinc.
    pose proof (incr_app_lt _ _ _ e x Hinc He (or_introl eq_refl)). lia.
Qed.

(* the same for one ReadFromBuffer with decoding: classes 0 (nothing), 1 (go to the disk),
   2 (data) only, and the position moves to the last event handed over *)
Lemma read_once_spec : forall gh s t,
  Inv gh s -> 0 <= t ->
  match read_once s t with
  | (cls, X, t') =>
    t' = last_ts X t /\ splits (E_of gh s) t X /\
    ((cls = 0%N /\ X = [] /\ stopT s <= t) \/
     (cls = 1%N /\ X = [] /\ lastFlush s <> zeroT /\ t < lastFlush s) \/
     (cls = 2%N /\ X <> [] /\ (all_le (sealed gh) t -> exists pre, cur s = pre ++ X)))
  end.
Proof.
  intros gh s t HI Ht. pose proof (read_from_buffer_spec gh s t HI Ht) as Hsp. unfold read_once.
  destruct (read_from_buffer s t) as [| |c|].
  - split; [reflexivity|]. split; [apply splits_nil|]. right. left. tauto.
  - split; [reflexivity|]. split; [apply splits_nil|]. left. tauto.
  - destruct Hsp as [X [-> [Hne [Hs Hc]]]]. split; [reflexivity|]. split; [exact Hs|]. right. right. tauto.
  - destruct Hsp.
Qed.
