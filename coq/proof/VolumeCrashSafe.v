(* Proofs about model/VolumeCrash.v (C03): the crash-safety statement, its proof at
   every crash point that write order allows, and concrete crash points (among them those of
   the two repaired findings). *)
From Coq Require Import List NArith ZArith Bool Lia ZifyBool ZifyN ZifyNat.
From SW Require Import model.Needle proof.NeedleProofs model.VolumeCrash proof.VolumeCrashProofs
  proof.VolumeCrashLoad proof.VolumeCrashSpec proof.VolumeCrashSim.
Import ListNotations.
Local Open Scope N_scope.

(* The property at one crash point of history [h]: the volume comes up, writable; every key
   reads exactly as it did in the running volume right after [h1], the operations whose index
   entries survived (so blobs that reached both files come back with their content and deleted
   ones stay deleted); and a fresh blob can be written and read back. *)
Definition crash_safe_at (crc : list N -> N) (h : list op) (dcut icut : N) : Prop :=
  exists h1 h2 L,
    h = h1 ++ h2 /\ len (p_idx (p_run h1)) = icut / NeedleMapEntrySize /\
    load crc (crash (p_run h) dcut icut) = Loaded L /\ l_nwod L = false /\
    (forall k, l_read crc L k = p_read (p_run h1) k) /\
    (forall n, rec_ok n -> data n <> [] -> checksum n = crc (data n) ->
       (forall o, In o h -> op_key o <> id n) ->
       exists L2, l_write crc L n = (L2, WOk) /\ l_read crc L2 (id n) = ROk (dview Ver n)).

Lemma len_idx_of : forall l, len (idx_of l) = len l.
Proof. intros. unfold idx_of, len. rewrite map_length. reflexivity. Qed.

Section WithCrc.
  Variable crc : list N -> N.

  Lemma fresh_key_unbound : forall h k, Forall (wf_op crc) h -> (forall o, In o h -> op_key o <> k) ->
    nm_get (p_map (p_run h)) k = None.
  Proof.
    intros h k Hwf Hfresh. pose proof (inv_run crc h Hwf) as HI.
    destruct (nm_get (p_map (p_run h)) k) as [nv|] eqn:Eg; [|reflexivity]. exfalso.
    destruct (map_from_idx crc _ HI k nv Eg) as [e [Hin [Hk _]]].
    destruct (entry_in_idx crc _ e HI Hin) as [o [r [Hr He]]].
    destruct (recs_from_ops crc h Hwf o r Hr) as [x [Hx ->]].
    apply (Hfresh x Hx). rewrite <- op_rec_key, <- Hk, He. reflexivity.
  Qed.

  (* every number of index entries is the index length of some prefix of the history *)
  Lemma split_at_index : forall h ie, Forall (wf_op crc) h -> ie <= len (p_idx (p_run h)) ->
    exists h1 h2, h = h1 ++ h2 /\ len (p_idx (p_run h1)) = ie.
  Proof.
    induction h as [|o h IH] using rev_ind; intros ie Hwf Hle.
    - exists [], []. split; [reflexivity|]. cbn in *. lia.
    - apply Forall_app in Hwf. destruct Hwf as [Hwf Ho]. inversion Ho as [|? ? Hwo _]; subst.
      pose proof (inv_run crc h Hwf) as HI.
      rewrite p_run_app in Hle. cbn [fold_left] in Hle.
      destruct (step_extends crc (p_run h) o HI) as [X [Y [Z [_ [EY [_ [HY _]]]]]]].
      destruct (N.le_gt_cases ie (len (p_idx (p_run h)))) as [Hsmall|Hbig].
      + destruct (IH ie Hwf Hsmall) as [h1 [h2 [E1 E2]]].
        exists h1, (h2 ++ [o]). split; [rewrite E1, app_assoc; reflexivity|assumption].
      + exists (h ++ [o]), []. split; [rewrite app_nil_r; reflexivity|].
        rewrite p_run_app. cbn [fold_left]. rewrite EY in *. rewrite len_app in *. unfold len in *. lia.
  Qed.

  Lemma rec_end_pos : forall st i, i <> 0 ->
    rec_end st i = match nth_error (p_recs st) (N.to_nat (N.pred i)) with
                   | Some (off, r) => off + len (encode Ver (a_n r))
                   | None => len (p_dat st)
                   end.
  Proof. intros st i H. destruct i; [congruence|reflexivity]. Qed.

  (* the end of the last record that the prefix [st1] knows about *)
  Lemma rec_end_prefix : forall st1 st Z, Inv crc st1 -> p_recs st = p_recs st1 ++ Z ->
    rec_end st (len (p_recs st1)) = len (p_dat st1).
  Proof.
    intros st1 st Z HI HZ.
    destruct (snoc_case _ (p_recs st1)) as [Hnil|[l' [[o r] Hs]]].
    - rewrite Hnil. cbn [len length N.of_nat rec_end]. rewrite (inv_dat crc st1 HI), Hnil. reflexivity.
    - rewrite Hs. unfold len at 1. rewrite app_length. cbn [length].
      replace (N.of_nat (length l' + 1)) with (N.succ (N.of_nat (length l'))) by lia.
      rewrite rec_end_pos by lia.
      replace (N.to_nat (N.pred (N.succ (N.of_nat (length l'))))) with (length l') by lia.
      rewrite HZ, Hs, <- app_assoc, nth_error_app2 by lia. rewrite Nat.sub_diag. cbn [app nth_error].
      pose proof (inv_lay crc st1 HI) as Hl. rewrite Hs in Hl. apply lay_app in Hl. destruct Hl as [_ [Ho _]].
      rewrite (inv_dat crc st1 HI), Hs, len_dat_of, cat_app, len_app. cbn [cat map concat snd]. rewrite app_nil_r. lia.
  Qed.

  (* what comes up at a crash point that write order allows *)
  Lemma reopen_core : forall h dcut icut, Forall (wf_op crc) h ->
    admissible (p_run h) dcut icut = true ->
    exists h1 h2 D,
      h = h1 ++ h2 /\ len (p_idx (p_run h1)) = icut / NeedleMapEntrySize /\
      load crc (crash (p_run h) dcut icut)
        = Loaded {| l_dat := D; l_idx := p_idx (p_run h1); l_map := p_map (p_run h1); l_nwod := false |} /\
      good_dat (p_run h1) D /\ Forall (wf_op crc) h1.
  Proof.
    intros h dcut icut Hwf Hadm.
    unfold admissible in Hadm.
    remember (icut / NeedleMapEntrySize) as ie eqn:Eie.
    apply andb_true_iff in Hadm. destruct Hadm as [Hadm Hend]. apply andb_true_iff in Hadm. destruct Hadm as [Hicut Hdcut].
    assert (Hie : ie <= len (p_idx (p_run h))) by (unfold NeedleMapEntrySize in *; lia).
    destruct (split_at_index h ie Hwf Hie) as [h1 [h2 [Hh Hlen]]].
    pose proof Hwf as Hwf'. rewrite Hh in Hwf'. apply Forall_app in Hwf'. destruct Hwf' as [Hwf1 Hwf2].
    pose proof (inv_run crc h1 Hwf1) as HI1.
    set (st1 := p_run h1) in *. set (st := p_run h) in *.
    assert (Hst : st = fold_left p_step h2 st1) by (unfold st, st1; rewrite Hh; apply p_run_app).
    destruct (fold_extends crc h2 st1 HI1 Hwf2) as [X [Y [Z [EX [EY EZ]]]]]. rewrite <- Hst in EX, EY, EZ.
    assert (Hrl : len (p_recs st1) = ie) by (rewrite <- Hlen, (inv_idx crc st1 HI1), len_idx_of; reflexivity).
    pose proof (rec_end_prefix st1 st Z HI1 EZ) as Hre. rewrite Hrl in Hre.
    assert (Hge : len (p_dat st1) <= dcut) by lia.
    set (T := takeN (dcut - len (p_dat st1)) X).
    set (torn := if ie <? len (p_idx st) then icut mod NeedleMapEntrySize else 0).
    assert (Hcrash : crash st dcut icut = {| f_dat := p_dat st1 ++ T; f_idx := p_idx st1; f_torn := torn |}).
    { unfold crash. rewrite <- Eie. f_equal.
      - rewrite EX. apply takeN_app_ge. assumption.
      - rewrite EY. apply takeN_app. assumption. }
    destruct (load_core crc st1 T torn HI1) as [D [Hload HD]].
    exists h1, h2, D.
    split; [assumption|]. split; [exact Hlen|]. split; [rewrite Hcrash; assumption|]. split; assumption.
  Qed.

  Theorem crash_safe : forall h dcut icut, Forall (wf_op crc) h ->
    admissible (p_run h) dcut icut = true ->
    crash_safe_at crc h dcut icut.
  Proof.
    intros h dcut icut Hwf Hadm.
    destruct (reopen_core h dcut icut Hwf Hadm) as [h1 [h2 [D [Hh [Hlen [Hload [HD Hwf1]]]]]]].
    pose proof (inv_run crc h1 Hwf1) as HI1.
    eexists h1, h2, _. split; [assumption|]. split; [assumption|]. split; [exact Hload|]. split; [reflexivity|]. split.
    - intros k. apply (sim_read crc _ _ _ k (sim_reopen crc _ D _ HI1 HD) eq_refl).
    - intros n Hok Hne Hck Hfresh. apply write_core; try assumption.
      apply fresh_key_unbound; [assumption|]. intros o Ho. apply Hfresh. rewrite Hh. apply in_or_app. left. assumption.
  Qed.

  (* in terms of the operations: the reopened volume reads as the specification says after
     the operations h1 whose records are the [icut / 16] surviving index entries *)
  Theorem crash_safe_per_spec : forall h dcut icut, Forall (wf_op crc) h ->
    admissible (p_run h) dcut icut = true ->
    exists h1 h2 L, h = h1 ++ h2 /\ snd (s_run h1) = icut / NeedleMapEntrySize /\
      load crc (crash (p_run h) dcut icut) = Loaded L /\ l_nwod L = false /\
      forall k, l_read crc L k = s_read (fst (s_run h1)) k.
  Proof.
    intros h dcut icut Hwf Ha.
    destruct (crash_safe h dcut icut Hwf Ha) as [h1 [h2 [L [Hh [Hlen [Hl [Hn [Hr _]]]]]]]].
    assert (Hwf1 : Forall (wf_op crc) h1) by (rewrite Hh in Hwf; apply Forall_app in Hwf; tauto).
    destruct (running_reads_spec crc h1 Hwf1) as [Hs1 Hs2].
    exists h1, h2, L. split; [assumption|]. split; [rewrite Hs1; assumption|]. split; [assumption|].
    split; [assumption|]. intros k. rewrite Hr. apply Hs2.
  Qed.

  (* The reopened volume is from then on indistinguishable from the volume that ran [h1] -- the
     operations whose index entries survived -- and never stopped: after ANY further operations
     [h'] (fresh keys, overwrites, rewrites of deleted keys, deletes, refused and repeated writes)
     every key reads exactly as in the running volume after [h1 ++ h'], and every further
     operation is answered as the running volume answers it. *)
  Definition crash_safe_forever_at (h : list op) (dcut icut : N) : Prop :=
    exists h1 h2 L,
      h = h1 ++ h2 /\ len (p_idx (p_run h1)) = icut / NeedleMapEntrySize /\
      load crc (crash (p_run h) dcut icut) = Loaded L /\ l_nwod L = false /\
      forall h', Forall (wf_op crc) h' ->
        (forall k, l_read crc (l_after crc L h') k = p_read (p_run (h1 ++ h')) k) /\
        (forall o, wf_op crc o -> snd (l_step crc (l_after crc L h') o) = p_res (p_run (h1 ++ h')) o).

  Theorem crash_safe_forever : forall h dcut icut, Forall (wf_op crc) h ->
    admissible (p_run h) dcut icut = true -> crash_safe_forever_at h dcut icut.
  Proof.
    intros h dcut icut Hwf Hadm.
    destruct (reopen_core h dcut icut Hwf Hadm) as [h1 [h2 [D [Hh [Hlen [Hload [HD Hwf1]]]]]]].
    pose proof (inv_run crc h1 Hwf1) as HI1.
    eexists h1, h2, _. split; [assumption|]. split; [assumption|]. split; [exact Hload|]. split; [reflexivity|].
    intros h' Hwf'. rewrite p_run_app.
    pose proof (sim_reopen crc (p_run h1) D (p_idx (p_run h1)) HI1 HD) as HS0.
    pose proof (sim_after crc _ h' _ _ HS0 Hwf') as HS.
    split.
    - intros k. apply (sim_read crc _ _ _ k HS eq_refl).
    - intros o Ho. apply (sim_step crc _ _ _ o HS Ho). reflexivity.
  Qed.

  (* in terms of the operations: the specification after h1 ++ h' *)
  Theorem crash_safe_forever_per_spec : forall h dcut icut, Forall (wf_op crc) h ->
    admissible (p_run h) dcut icut = true ->
    exists h1 h2 L, h = h1 ++ h2 /\ snd (s_run h1) = icut / NeedleMapEntrySize /\
      load crc (crash (p_run h) dcut icut) = Loaded L /\ l_nwod L = false /\
      forall h', Forall (wf_op crc) h' ->
        forall k, l_read crc (l_after crc L h') k = s_read (fst (s_run (h1 ++ h'))) k.
  Proof.
    intros h dcut icut Hwf Ha.
    destruct (crash_safe_forever h dcut icut Hwf Ha) as [h1 [h2 [L [Hh [Hlen [Hl [Hn Hc]]]]]]].
    assert (Hwf1 : Forall (wf_op crc) h1) by (rewrite Hh in Hwf; apply Forall_app in Hwf; tauto).
    destruct (running_reads_spec crc h1 Hwf1) as [Hs1 _].
    exists h1, h2, L. split; [assumption|]. split; [rewrite Hs1; assumption|]. split; [assumption|].
    split; [assumption|]. intros h' Hwf' k. destruct (Hc h' Hwf') as [Hr _]. rewrite (Hr k).
    assert (Hall : Forall (wf_op crc) (h1 ++ h')) by (apply Forall_app; split; assumption).
    destruct (running_reads_spec crc (h1 ++ h') Hall) as [_ Hs2]. apply Hs2.
  Qed.
End WithCrc.

(* hello / world!! / delete key 1 / second version *)
Definition w_needle (k c : N) (d : list N) (ts : N) : needle :=
  {| cookie := c; id := k; data := d; flags := 0; name := []; mime := []; pairs_size := 0; pairs := [];
     last_modified := 0; ttl := None; checksum := toy_crc d; append_at_ns := ts |}.

Definition w_history : list op :=
  [ Write (w_needle 1 17 [104; 101; 108; 108; 111] 1000);
    Write (w_needle 2 305419896 [119; 111; 114; 108; 100; 33; 33] 2000);
    Delete 1 17 3000;
    Write (w_needle 2 305419896 [115; 101; 99; 111; 110; 100; 32; 118; 101; 114; 115; 105; 111; 110] 4000) ].

Lemma w_history_wf : Forall (wf_op toy_crc) w_history.
Proof.
  repeat constructor; try discriminate;
    unfold ranges_ok; vm_compute; repeat split; try reflexivity; discriminate.
Qed.

(* records start at 8, 48, 96, 128 (the tombstone); the file ends at 176 *)
Lemma w_layout : map fst (p_recs (p_run w_history)) = [8; 48; 96; 128] /\ len (p_dat (p_run w_history)) = 176.
Proof. vm_compute. split; reflexivity. Qed.

Definition w_fresh : needle := w_needle 9 7 [102; 114; 101; 115; 104] 0.

(* further operations on the reopened volume: rewrite of key 1 (deleted in the history), delete of
   key 2, a fresh key, the same bytes again (unchanged), key 1 with another cookie (refused) *)
Definition w_post : list op :=
  [ Write (w_needle 1 17 [97; 103; 97; 105; 110] 0);
    Delete 2 305419896 0;
    Write w_fresh;
    Write w_fresh;
    Write (w_needle 1 81 [110; 111] 0) ].

(* the crash point of the repaired finding c03-tombstone-tail-readonly: three index entries
   survive (the last one is the tombstone of key 1) and the data file holds five more bytes, the
   beginning of the fourth record.  The tail is cut, the volume is writable, key 1 stays deleted;
   it serves the further operations; stopped again with the last index entry torn (9 bytes
   missing), it comes up with five entries, the record of key 9 behind them is cut off. *)
Lemma witness_tombstone_tail :
  admissible (p_run w_history) 133 48 = true /\ tombstone_tail (p_run w_history) 133 48 = true /\
  observe toy_crc (crash (p_run w_history) 133 48) [1; 2; 9] w_post 9 =
    {| o_load := 0; o_readonly := false; o_dat_len := 128; o_idx_len := 48;
       o_reads := [(2, 0, []); (0, 305419896, [119; 111; 114; 108; 100; 33; 33]); (1, 0, [])];
       o_post := [(0, 0%Z); (0, 12%Z); (0, 0%Z); (1, 0%Z); (3, 0%Z)];
       o_reads2 := [(0, 17, [97; 103; 97; 105; 110]); (2, 0, []); (0, 7, [102; 114; 101; 115; 104])];
       o_dat_len2 := 240; o_idx_len2 := 96; o_load3 := 0; o_readonly3 := false;
       o_reads3 := [(0, 17, [97; 103; 97; 105; 110]); (2, 0, []); (1, 0, [])];
       o_dat_len3 := 200; o_idx_len3 := 80 |}.
Proof. vm_compute. repeat split; reflexivity. Qed.

(* the same with a whole fourth record behind the tombstone, and a clean second stop *)
Lemma witness_tombstone_then_record :
  admissible (p_run w_history) 176 48 = true /\ tombstone_tail (p_run w_history) 176 48 = true /\
  observe toy_crc (crash (p_run w_history) 176 48) [1; 2; 9] w_post 0 =
    {| o_load := 0; o_readonly := false; o_dat_len := 128; o_idx_len := 48;
       o_reads := [(2, 0, []); (0, 305419896, [119; 111; 114; 108; 100; 33; 33]); (1, 0, [])];
       o_post := [(0, 0%Z); (0, 12%Z); (0, 0%Z); (1, 0%Z); (3, 0%Z)];
       o_reads2 := [(0, 17, [97; 103; 97; 105; 110]); (2, 0, []); (0, 7, [102; 114; 101; 115; 104])];
       o_dat_len2 := 240; o_idx_len2 := 96; o_load3 := 0; o_readonly3 := false;
       o_reads3 := [(0, 17, [97; 103; 97; 105; 110]); (2, 0, []); (0, 7, [102; 114; 101; 115; 104])];
       o_dat_len3 := 240; o_idx_len3 := 96 |}.
Proof. vm_compute. repeat split; reflexivity. Qed.

(* the crash point of the repaired finding c03-torn-index-entry-panic: the second index entry is
   torn after 7 bytes.  The torn bytes are dropped and the volume comes up with one entry; the
   delete of key 2 (whose record lies behind the cut) finds nothing. *)
Lemma witness_torn_index :
  admissible (p_run w_history) 96 23 = true /\ torn_index 23 = true /\
  observe toy_crc (crash (p_run w_history) 96 23) [1; 2; 9] w_post 0 =
    {| o_load := 0; o_readonly := false; o_dat_len := 48; o_idx_len := 16;
       o_reads := [(0, 17, [104; 101; 108; 108; 111]); (1, 0, []); (1, 0, [])];
       o_post := [(0, 0%Z); (0, 0%Z); (0, 0%Z); (1, 0%Z); (3, 0%Z)];
       o_reads2 := [(0, 17, [97; 103; 97; 105; 110]); (1, 0, []); (0, 7, [102; 114; 101; 115; 104])];
       o_dat_len2 := 128; o_idx_len2 := 48; o_load3 := 0; o_readonly3 := false;
       o_reads3 := [(0, 17, [97; 103; 97; 105; 110]); (1, 0, []); (0, 7, [102; 114; 101; 115; 104])];
       o_dat_len3 := 128; o_idx_len3 := 48 |}.
Proof. vm_compute. repeat split; reflexivity. Qed.

(* one more crash point of the same history: two index entries, the data file cut nine bytes
   into the tombstone's record; the second stop loses the last index entry whole *)
Lemma witness_torn_record :
  admissible (p_run w_history) 105 32 = true /\
  observe toy_crc (crash (p_run w_history) 105 32) [1; 2; 9] w_post 16 =
    {| o_load := 0; o_readonly := false; o_dat_len := 96; o_idx_len := 32;
       o_reads := [(0, 17, [104; 101; 108; 108; 111]); (0, 305419896, [119; 111; 114; 108; 100; 33; 33]); (1, 0, [])];
       o_post := [(0, 0%Z); (0, 12%Z); (0, 0%Z); (1, 0%Z); (3, 0%Z)];
       o_reads2 := [(0, 17, [97; 103; 97; 105; 110]); (2, 0, []); (0, 7, [102; 114; 101; 115; 104])];
       o_dat_len2 := 208; o_idx_len2 := 80; o_load3 := 0; o_readonly3 := false;
       o_reads3 := [(0, 17, [97; 103; 97; 105; 110]); (2, 0, []); (1, 0, [])];
       o_dat_len3 := 168; o_idx_len3 := 64 |}.
Proof. vm_compute. repeat split; reflexivity. Qed.

(* a crash point that write order excludes (the index is ahead of the data: two entries, the
   second record missing) is outside the theorem; the safety half still covers it *)
Lemma not_admissible_example : admissible (p_run w_history) 60 32 = false.
Proof. vm_compute. reflexivity. Qed.

(* the payload may be empty *)
Definition wf_any (crc : list N -> N) (o : op) : Prop :=
  match o with
  | Write n => rec_ok n /\ checksum n = crc (data n)
  | Delete k c ts => k < 2 ^ 64 /\ c < 2 ^ 32 /\ ts < 2 ^ 64
  end.

Lemma is_nil_false : forall A (l : list A), is_nil l = false -> l <> [].
Proof. intros A [|x l] H; [discriminate|discriminate]. Qed.

Lemma wf_any_op : forall crc h, Forall (wf_any crc) h -> has_empty_write h = false -> Forall (wf_op crc) h.
Proof.
  intros crc h. induction h as [|o h IH]; intros Hw He; [constructor|].
  inversion Hw as [|? ? Ho Hh]; subst. cbn [has_empty_write existsb] in He. apply orb_false_iff in He.
  destruct He as [He1 He2]. constructor; [|apply IH; assumption].
  destruct o as [n|k c ts]; [|exact Ho]. destruct Ho as [H1 H2].
  split; [assumption|]. split; [apply is_nil_false; assumption|assumption].
Qed.

(* hello / EMPTY / x, stopped cleanly *)
Definition w_empty_history : list op :=
  [ Write (w_needle 1 17 [104; 101; 108; 108; 111] 1000);
    Write (w_needle 2 305419896 [] 2000);
    Write (w_needle 3 4294967283 [120] 3000) ].

Lemma w_empty_history_wf : Forall (wf_any toy_crc) w_empty_history.
Proof.
  repeat constructor; try discriminate;
    unfold ranges_ok; vm_compute; repeat split; try reflexivity; discriminate.
Qed.

(* the volume is stopped with both files whole: the running volume answered (0, nil) for key 2
   (class 3), the reopened one does not know the key (class 1); the other keys are as before *)
Lemma witness_empty_blob :
  admissible (p_run w_empty_history) 120 48 = true /\
  len (p_dat (p_run w_empty_history)) = 120 /\ len (p_idx (p_run w_empty_history)) = 3 /\
  empty_live (p_run w_empty_history) 2 = true /\ key_has_empty_write w_empty_history 2 = true /\
  map (fun k => rres_proj (p_read (p_run w_empty_history) k)) [1; 2; 3] =
    [(0, 17, [104; 101; 108; 108; 111]); (3, 0, []); (0, 4294967283, [120])] /\
  o_reads (observe toy_crc (crash (p_run w_empty_history) 120 48) [1; 2; 3] [] 0) =
    [(0, 17, [104; 101; 108; 108; 111]); (1, 0, []); (0, 4294967283, [120])].
Proof. vm_compute. repeat split; reflexivity. Qed.

(* with empty payloads allowed the full statement fails, at a clean stop *)
Theorem crash_safe_refuted : exists crc h dcut icut, Forall (wf_any crc) h /\
  admissible (p_run h) dcut icut = true /\ ~ crash_safe_at crc h dcut icut.
Proof.
  exists toy_crc, w_empty_history, 120, 48. split; [exact w_empty_history_wf|]. split; [vm_compute; reflexivity|].
  intros [h1 [h2 [L [Hh [Hlen [Hload [_ [Hr _]]]]]]]].
  (* three index entries survive: h1 is the whole history *)
  assert (E1 : h1 = w_empty_history).
  { unfold w_empty_history in Hh.
    do 3 (destruct h1 as [|? h1]; [vm_compute in Hlen; discriminate Hlen|injection Hh as <- Hh]).
    destruct h1; [reflexivity|discriminate Hh]. }
  subst h1. specialize (Hr 2).
  vm_compute in Hload. injection Hload as <-. vm_compute in Hr. discriminate Hr.
Qed.

(* it holds for histories that store no empty blob (decidable) *)
Theorem crash_safe_partial : forall crc h dcut icut, Forall (wf_any crc) h -> has_empty_write h = false ->
  admissible (p_run h) dcut icut = true -> crash_safe_at crc h dcut icut.
Proof. intros crc h dcut icut Hw He. apply crash_safe. apply wf_any_op; assumption. Qed.
