(* Per-key conservation for the ec.balance model (C16).
   The two known findings are about ONE (volume, shard) each: a shard that is on two
   nodes in the snapshot (finding 1) and a picked shard that is abandoned (finding 0).
   This file proves that nothing else is affected: for every key (v0, s0) that is on at
   most one node in the snapshot, whatever happens to other keys (duplicates, drops),
   the number of copies of (v0, s0) never grows, is conserved unless (v0, s0) itself is
   abandoned, and no move of (v0, s0) targets a node that already holds it. *)
From Coq Require Import List NArith ZArith Bool Lia Arith.
From SW Require Import model.EcBalance proof.EcBalanceBase proof.EcBalanceInv.
Import ListNotations.
Local Open Scope N_scope.

Lemma unique_other_key : forall ns src v s x, wf_ids ns -> (total ns v s <= 1)%nat ->
  hb ns src v s = true -> x <> src -> hb ns x v s = false.
Proof.
  intros ns src v s x Hwf U Hs Hne.
  pose proof (total_del ns src v s v s Hwf) as T. unfold same in T. rewrite !N.eqb_refl, Hs in T. simpl in T.
  assert (T0 : total (upd_node ns src (del_shard v s)) v s = 0%nat) by lia.
  pose proof (hb_false_of_total0 _ x _ _ T0) as X. rewrite hb_del in X.
  destruct (N.eqb_spec x src); [contradiction|]. simpl in X. rewrite andb_true_r in X. exact X.
Qed.

Section Key.
Variables v0 s0 : N.

Definition is_key (v s : N) : bool := (v0 =? v) && (s0 =? s).
Lemma is_key_true : forall v s, is_key v s = true -> v = v0 /\ s = s0.
Proof. intros v s K. apply andb_true_iff in K. destruct K as [K1 K2]. apply N.eqb_eq in K1, K2. auto. Qed.

Definition key_move_ok (i : item) : Prop :=
  match i with
  | IMove _ m => m_vid m = v0 -> m_shard m = s0 -> m_dst_held m = false
  | _ => True
  end.
Definition kmoves_ok (its : list item) : Prop := Forall key_move_ok its.
Definition uk (ns : list node) : Prop := (total ns v0 s0 <= 1)%nat.

Definition key_ok (ns ns' : list node) (its : list item) : Prop :=
  wf ns' /\ (total ns' v0 s0 <= total ns v0 s0)%nat /\
  (drops_key its v0 s0 = false -> total ns' v0 s0 = total ns v0 s0) /\ kmoves_ok its.

Lemma drops_key_app : forall a b, drops_key (a ++ b) v0 s0 = drops_key a v0 s0 || drops_key b v0 s0.
Proof. intros. unfold drops_key. apply existsb_app. Qed.

Lemma drops_key_has_drop : forall its, has_drop its = false -> drops_key its v0 s0 = false.
Proof.
  induction its as [|i its IH]; intros H; [reflexivity|].
  unfold has_drop in H. simpl in H. apply orb_false_iff in H. destruct H as [H1 H2].
  unfold drops_key. simpl. fold (drops_key its v0 s0). rewrite (IH H2).
  destruct i; simpl in *; try reflexivity; discriminate.
Qed.

Lemma key_ok_refl : forall ns, wf ns -> key_ok ns ns [].
Proof. intros. split; auto. split; [lia|]. split; [intros; reflexivity|constructor]. Qed.

Lemma key_ok_trans : forall a b c i1 i2, key_ok a b i1 -> key_ok b c i2 -> key_ok a c (i1 ++ i2).
Proof.
  intros a b c i1 i2 [A1 [B1 [C1 D1]]] [A2 [B2 [C2 D2]]]. split; auto. split; [lia|]. split.
  - rewrite drops_key_app. intros X. apply orb_false_iff in X. destruct X as [X1 X2].
    rewrite (C2 X2), (C1 X1). reflexivity.
  - apply Forall_app. auto.
Qed.

Lemma key_ok_uk : forall a b i, key_ok a b i -> uk a -> uk b.
Proof. intros a b i [_ [B _]] U. unfold uk in *. lia. Qed.

(* copies of the key in the books + pending in the picked map: constant through the picks,
   lowered only by an abandoned pick of the key *)
Definition phik (ns : list node) (picked : list (N * N)) (v : N) : nat :=
  (total ns v0 s0 + (if N.eqb v0 v then b2n (pin picked s0) else 0))%nat.

Lemma pick_step_key : forall ns picked v id s, wf ns -> (phik ns picked v <= 1)%nat -> hb ns id v s = true ->
  phik (upd_node ns id (del_shard v s)) (pset picked s id) v = phik ns picked v.
Proof.
  intros ns picked v id s Hwf Hphi Hb. unfold phik in *.
  pose proof (total_del ns id v s v0 s0 (proj1 Hwf)) as T. unfold same in T. rewrite Hb, andb_true_r in T.
  rewrite pin_pset. destruct (N.eqb_spec v0 v) as [E|E].
  - subst v. destruct (N.eqb_spec s s0) as [E2|E2].
    + subst s. rewrite N.eqb_refl. simpl in T. rewrite orb_true_r.
      pose proof (hb_total _ _ _ _ Hb) as T1. destruct (pin picked s0); simpl in *; lia.
    + simpl in T. destruct (N.eqb_spec s0 s); [congruence|]. rewrite orb_false_r. lia.
  - simpl in T. lia.
Qed.

Lemma phik_nil : forall ns v, phik ns [] v = total ns v0 s0.
Proof. intros. unfold phik, pin. simpl. destruct (v0 =? v); simpl; lia. Qed.

(* one move of shard (v,s) onto a node that does not hold the key, seen from the key *)
Lemma move_key_total : forall ns src v c s dst, wf_ids ns -> present ns dst -> src <> dst ->
  (is_key v s = true -> hb ns dst v s = false) ->
  (total (move_shard ns src v c s dst) v0 s0 + b2n (is_key v s && hb ns src v s) =
   total ns v0 s0 + b2n (is_key v s))%nat.
Proof.
  intros ns src v c s dst Hwf G Hne Hd.
  pose proof (move_total ns src v c s dst v0 s0 Hwf G Hne) as M. unfold same in M.
  rewrite (N.eqb_sym s s0) in M. fold (is_key v s) in M. destruct (is_key v s); [rewrite Hd in M by reflexivity|]; exact M.
Qed.

(* doBalanceEcShardsAcrossRacks of volume v, step by step: the potential never exceeds one, never
   grows, and stays put unless the step abandons a pick of the key *)
Definition key_step (v : N) (avg : Z) (x y : across_st) (its : list item) : Prop :=
  NoDup (map fst (x_picked x)) -> (phik (x_ns x) (x_picked x) v <= 1)%nat ->
  NoDup (map fst (x_picked y)) /\
  (phik (x_ns y) (x_picked y) v <= phik (x_ns x) (x_picked x) v)%nat /\
  (drops_key its v0 s0 = false -> phik (x_ns y) (x_picked y) v = phik (x_ns x) (x_picked x) v) /\
  kmoves_ok its.

Lemma key_step_refl : forall v avg x, key_step v avg x x [].
Proof. intros v avg x Nd _. split; [exact Nd|]. split; [lia|]. split; [reflexivity|constructor]. Qed.
Lemma key_step_trans : forall v avg a b c i1 i2, key_step v avg a b i1 -> key_step v avg b c i2 -> key_step v avg a c (i1 ++ i2).
Proof.
  intros v avg a b c i1 i2 H1 H2 Nd Hp. destruct (H1 Nd Hp) as [N1 [L1 [E1 M1]]].
  destruct (H2 N1) as [N2 [L2 [E2 M2]]]; [lia|]. split; [exact N2|]. split; [lia|]. split; [|apply Forall_app; auto].
  rewrite drops_key_app. intros X. apply orb_false_iff in X. destruct X as [X1 X2]. rewrite (E2 X2), (E1 X1). reflexivity.
Qed.

Lemma key_step_pick : across_pick key_step.
Proof.
  intros v avg ns rk rsc picked id s Hwf Hb _ Nd Hp. simpl in *.
  rewrite (pick_step_key ns picked v id s Hwf Hp Hb).
  split; [apply keys_pset_nodup; exact Nd|]. split; [lia|]. split; [reflexivity|constructor].
Qed.

Lemma key_step_drop : forall v avg ns rk rsc rk' rsc' picked s src picked' e, ptake picked s = Some (src, picked') ->
  key_step v avg (Ax ns rk rsc picked) (Ax ns rk' rsc' picked') [IDrop v s src e].
Proof.
  intros v avg ns rk rsc rk' rsc' picked s src picked' e P Nd _. simpl.
  destruct (ptake_spec _ _ _ _ P Nd) as [_ [Pin' Pnd]]. split; [exact Pnd|].
  unfold phik, drops_key. rewrite Pin'. simpl. rewrite (N.eqb_sym v v0), (N.eqb_sym s s0).
  split; [|split; [|constructor; [exact I|constructor]]];
    destruct (v0 =? v), (pin picked s0), (s0 =? s); simpl; intros; try discriminate; lia.
Qed.

Lemma key_step_move : across_move key_step.
Proof.
  intros c v avg ns rk rsc picked s src picked' r dst Hwf P _ G _ Hne _ Nd Hphi. simpl in *.
  destruct (ptake_spec _ _ _ _ P Nd) as [Pin [Pin' Pnd]].
  assert (Hne' : src <> dst) by congruence.
  (* when the key itself was picked it is on no node, so it lands on a node that does not hold it *)
  assert (T0 : is_key v s = true -> total ns v0 s0 = 0%nat).
  { intros K. destruct (is_key_true v s K). subst v s.
    unfold phik in Hphi. rewrite N.eqb_refl, Pin in Hphi. simpl in Hphi. lia. }
  assert (Hd : is_key v s = true -> hb ns dst v s = false).
  { intros K. pose proof (T0 K) as Z. destruct (is_key_true v s K). subst v s. apply hb_false_of_total0. exact Z. }
  pose proof (move_key_total ns src v c s dst (proj1 Hwf) G Hne' Hd) as M.
  assert (Hk : phik (move_shard ns src v c s dst) picked' v = phik ns picked v).
  { unfold phik, is_key in *. rewrite Pin'. destruct (v0 =? v) eqn:Kv; simpl in *; [|lia].
    destruct (s0 =? s) eqn:Ks; simpl in *; [|rewrite andb_true_r; lia].
    apply N.eqb_eq in Kv. apply N.eqb_eq in Ks. subst v s.
    rewrite (hb_false_of_total0 _ src _ _ (T0 eq_refl)) in M. rewrite Pin, andb_false_r. simpl in *. lia. }
  rewrite Hk. split; [exact Pnd|]. split; [lia|]. split; [reflexivity|]. constructor; [|constructor].
  simpl. intros Ev Es. subst v s. apply Hd. unfold is_key. rewrite !N.eqb_refl. reflexivity.
Qed.

Lemma key_step_norack : across_norack key_step.
Proof. intros v avg ns rk rsc picked s src picked' _ P. now apply key_step_drop. Qed.
Lemma key_step_none : across_none key_step.
Proof. intros v avg ns rk rsc picked s src picked' r _ P _ _ _. now apply key_step_drop. Qed.

Lemma across_vid_key : forall c st o st' its,
  across_vid c st o = Some (st', its) -> wf (nodes st) -> uk (nodes st) ->
  key_ok (nodes st) (nodes st') its.
Proof.
  intros c st o st' its H Hwf U.
  destruct (across_vid_A key_step key_step_refl key_step_trans key_step_pick key_step_norack key_step_move key_step_none _ _ _ _ _ H Hwf) as [W [rsc' Q]].
  destruct (Q (NoDup_nil _)) as [_ R]; simpl in *; rewrite !phik_nil in *; [exact U|]. split; [exact W|exact R].
Qed.

(* phases that abandon nothing *)
Definition kquiet (ns ns' : list node) (its : list item) : Prop :=
  wf ns' /\ total ns' v0 s0 = total ns v0 s0 /\ kmoves_ok its /\ has_drop its = false.

Lemma kquiet_refl : forall ns, wf ns -> kquiet ns ns [].
Proof. intros. split; auto. split; auto. split; [constructor|reflexivity]. Qed.
Lemma kquiet_trans : forall a b c i1 i2, kquiet a b i1 -> kquiet b c i2 -> kquiet a c (i1 ++ i2).
Proof.
  intros a b c i1 i2 [A1 [B1 [C1 D1]]] [A2 [B2 [C2 D2]]]. split; auto. split; [lia|]. split.
  - apply Forall_app. auto.
  - rewrite has_drop_app, D1, D2. reflexivity.
Qed.
Lemma kquiet_key : forall a b i, kquiet a b i -> key_ok a b i.
Proof.
  intros a b i [A [B [C D]]]. split; auto. split; [lia|]. split; auto.
Qed.
Lemma kquiet_uk : forall a b i, kquiet a b i -> uk a -> uk b.
Proof. intros a b i [_ [B _]] U. unfold uk in *. lia. Qed.
Lemma kquiet_print : forall ns e, wf ns -> kquiet ns ns [IEvent e].
Proof. intros. split; auto. split; auto. split; [constructor; [exact I|constructor]|reflexivity]. Qed.

(* [kquiet] for a key that is on at most one node *)
Definition key_once_quiet (ns ns' : list node) (its : list item) : Prop := uk ns -> kquiet ns ns' its.

Lemma key_once_quiet_refl : forall ns, wf ns -> key_once_quiet ns ns [].
Proof. intros ns W _. apply kquiet_refl. exact W. Qed.
Lemma key_once_quiet_trans : forall a b c i1 i2, key_once_quiet a b i1 -> key_once_quiet b c i2 -> key_once_quiet a c (i1 ++ i2).
Proof. intros a b c i1 i2 H1 H2 U. eapply kquiet_trans; [|apply H2; eapply kquiet_uk]; eauto. Qed.

(* one move inside a rack of a shard the source holds: if it is the key, the key is on no other node *)
Lemma key_once_quiet_local_move : forall k line, local_move key_once_quiet k line.
Proof.
  intros k line ns src v c s dst lim Hwf G Hne _ Hs _ _ U.
  assert (Hd : is_key v s = true -> hb ns dst v s = false).
  { intros K. destruct (is_key_true v s K). subst v s.
    eapply unique_other_key; eauto. apply Hwf. }
  pose proof (move_key_total ns src v c s dst (proj1 Hwf) G Hne Hd) as M. rewrite Hs, andb_true_r in M.
  split; [apply wf_move; auto|]. split; [lia|]. split; [|reflexivity].
  constructor; [|constructor]. simpl. intros Ev Es. subst v s. apply Hd. unfold is_key. rewrite !N.eqb_refl. reflexivity.
Qed.

Lemma within_vids_key : forall os c nracks ns ns' its,
  within_vids c nracks ns os = Some (ns', its) -> wf ns -> uk ns -> kquiet ns ns' its.
Proof.
  intros os c nracks ns ns' its H Hwf. apply (within_vids_L key_once_quiet key_once_quiet_refl key_once_quiet_trans) in H; auto; [apply H| |].
  - intros ns0 src over v s W _. apply kquiet_print. exact W.
  - apply key_once_quiet_local_move.
Qed.

Lemma balance_racks_list_key : forall os nracks ns ns' its,
  balance_racks_list nracks ns os = Some (ns', its) -> wf ns -> uk ns -> kquiet ns ns' its.
Proof.
  intros os nracks ns ns' its H Hwf. apply (balance_racks_list_L key_once_quiet key_once_quiet_refl key_once_quiet_trans) in H; auto; [apply H|].
  apply key_once_quiet_local_move.
Qed.

Lemma run_plan_key : forall st o st' its,
  run_plan false st o = Some (st', its) -> wf (nodes st) -> uk (nodes st) ->
  key_ok (nodes st) (nodes st') its.
Proof.
  intros st o st' its H Hwf.
  apply (run_plan_T (fun a b i => uk (nodes a) -> key_ok (nodes a) (nodes b) i)) in H; auto; [apply H|..].
  - intros a W _. apply key_ok_refl. exact W.
  - intros a b c i1 i2 H1 H2 U. eapply key_ok_trans; [|apply H2; eapply key_ok_uk]; eauto.
  - intros a c W _. apply kquiet_key, kquiet_print, W.
  - intros a v s n k W _. apply kquiet_key, kquiet_print, W.
  - intros c a o0 b i A W U. eapply across_vid_key; eauto.
  - intros c nracks rk os ns ns' i A W U. apply kquiet_key. eapply within_vids_key; eauto.
  - intros nracks rk os ns ns' i A W U. apply kquiet_key. eapply balance_racks_list_key; eauto.
Qed.

End Key.


Theorem plan_conserves_key : forall st o st' its,
  run_plan false st o = Some (st', its) -> wf (nodes st) ->
  forall v s, (total (nodes st) v s <= 1)%nat ->
    (total (nodes st') v s <= total (nodes st) v s)%nat /\
    (drops_key its v s = false -> total (nodes st') v s = total (nodes st) v s) /\
    (forall e m, In (IMove e m) its -> m_vid m = v -> m_shard m = s -> m_dst_held m = false).
Proof.
  intros st o st' its H Hwf v s U.
  destruct (run_plan_key v s _ _ _ _ H Hwf U) as [_ [A [B C]]].
  split; auto. split; auto. intros e m Hin.
  unfold kmoves_ok in C. rewrite Forall_forall in C. apply (C _ Hin).
Qed.
