(* C33. compression.go never panics in the working tree and panics in the pinned tree exactly on
   magic + bad header (Section GzFacts, any blob type, shared with C24); under [laws], what a stored
   needle [holds] is what every unencrypted fetch returns (fetch_plain), whence [roundtrip]. *)
From Coq Require Import List Arith NArith Bool String Lia ZifyBool.
From SW Require Import proof.ListFacts model.UploadCodec.
Import ListNotations.
Local Open Scope N_scope.

Lemma len_app : forall {A} (a b : list A), len (a ++ b) = len a + len b.
Proof. intros. unfold len. rewrite app_length. lia. Qed.

Lemma len_nat : forall {A} (l : list A) n, List.length l = n -> len l = N.of_nat n.
Proof. intros. unfold len. congruence. Qed.

(* compression.go over any blob type; no law on the library is needed *)
Section GzFacts.
Context {blob : Type}.
Variable L : gzlib blob.

(* the working tree (ungzipData checks the error of gzip.NewReader) *)
Lemma decompress_no_panic : forall input, decompress_data true L input <> DPanic.
Proof.
  intros input. unfold decompress_data, ungzip_data.
  destruct (is_gzipped_content L input); [destruct (gz_gunzip L input)|]; discriminate.
Qed.

Lemma maybe_decompress_no_panic : forall input, maybe_decompress_data true L input <> MPanic.
Proof.
  intros input. unfold maybe_decompress_data.
  pose proof (decompress_no_panic input) as H.
  destruct (decompress_data true L input); try discriminate. congruence.
Qed.

(* the pinned code panics exactly on the gzip magic followed by an invalid header *)
Lemma decompress_pinned_panic_iff : forall input,
  decompress_data false L input = DPanic <->
  is_gzipped_content L input = true /\ gz_gunzip L input = GzHdrErr.
Proof.
  intros input. unfold decompress_data, ungzip_data.
  destruct (is_gzipped_content L input).
  - destruct (gz_gunzip L input); split; intros H; try discriminate; try (destruct H; discriminate); auto.
  - split; intros H; [discriminate | destruct H; discriminate].
Qed.

Lemma maybe_decompress_not_gz : forall rep input,
  is_gzipped_content L input = false -> maybe_decompress_data rep L input = MVal input.
Proof. intros rep input H. unfold maybe_decompress_data, decompress_data. rewrite H. reflexivity. Qed.

(* the two laws for any blob type (used by C24; C33 has them as fields of [laws]) *)
Hypothesis law_gunzip_gzip : forall x, gz_gunzip L (gz_gzip L x) = GzOk x.
Hypothesis law_gzip_magic : forall x, is_gzipped_content L (gz_gzip L x) = true.

Lemma decompress_gzip : forall rep x, decompress_data rep L (gz_gzip L x) = DOk x.
Proof. intros. unfold decompress_data, ungzip_data. rewrite law_gzip_magic, law_gunzip_gzip. reflexivity. Qed.

(* MaybeDecompressData (MaybeGzipData x) = x whenever x itself does not carry the gzip magic *)
Lemma maybe_decompress_maybe_gzip : forall rep x,
  is_gzipped_content L x = false ->
  maybe_decompress_data rep L (maybe_gzip_data L x) = MVal x.
Proof.
  intros rep x H. unfold maybe_gzip_data. rewrite H.
  destruct (gz_len L x * 9 <? gz_len L (gz_gzip L x) * 10).
  - apply maybe_decompress_not_gz; assumption.
  - unfold maybe_decompress_data. rewrite decompress_gzip. reflexivity.
Qed.
End GzFacts.

Record laws (O : oracle) : Prop := {
  law_gunzip_gzip_b : forall x, o_gunzip O (o_gzip O x) = GzOk x;
  law_gzip_magic_b : forall x, head2 (o_gzip O x) = Some (31, 139);
  law_open_seal : forall k n x, o_open O k n (o_seal O k n x) = Some x }.

Lemma glib_magic : forall O, laws O -> forall x, is_gzipped_content (glib O) (o_gzip O x) = true.
Proof. intros O HL x. unfold is_gzipped_content. simpl. rewrite (law_gzip_magic_b O HL). reflexivity. Qed.

(* the bytes the caller means: the data itself, or (isInputCompressed) its gunzip *)
Definition clear_of (O : oracle) (u : upload_in) : option bytes :=
  if u_ic u then
    if is_gzipped_content (glib O) (u_data u) then
      match o_gunzip O (u_data u) with GzOk x => Some x | _ => None end
    else Some (u_data u)
  else Some (u_data u).

Lemma decrypt_encrypt : forall O, laws O -> forall k n x, List.length n = 12%nat ->
  decrypt O k (encrypt O k n x) = Some x.
Proof.
  intros O HL k n x Hn. unfold decrypt, encrypt.
  rewrite len_app, (len_nat n 12 Hn).
  replace (N.of_nat 12 + len (o_seal O k n x) <? 12) with false by lia.
  rewrite (firstn_app_exact n _ 12 Hn), (skipn_app_exact n _ 12 Hn).
  apply (law_open_seal O HL).
Qed.

Lemma slice_min : forall (b : bytes) off size, off + size <= len b ->
  slice off (N.min (off + size) (len b) - off) b = slice off size b.
Proof. intros b off size H. rewrite N.min_l by assumption. replace (off + size - off) with size by lia. reflexivity. Qed.

Lemma upload_cipher : forall O u c, u_cipher u = true -> clear_of O u = Some c ->
  upload O u = ({| w_body := encrypt O (u_key u) (u_nonce u) c; w_ce_gzip := false; w_filename := ""%string |},
                {| r_size := len c; r_gzip := false; r_key := Some (u_key u); r_mime := effective_mime O u |}).
Proof.
  intros O u c Hc H. unfold upload. rewrite Hc, andb_false_r.
  unfold clear_of in H. destruct (u_ic u); [|inversion H; reflexivity].
  unfold decompress_data, ungzip_data.
  destruct (is_gzipped_content (glib O) (u_data u)); [|inversion H; reflexivity].
  simpl gz_gunzip. destruct (o_gunzip O (u_data u)); inversion H; reflexivity.
Qed.

Lemma upload_plain_key : forall O u, u_cipher u = false -> r_key (snd (upload O u)) = None.
Proof.
  intros O u Hc. unfold upload. rewrite Hc.
  match goal with |- context [let '(a, b) := ?X in _] => destruct X end. reflexivity.
Qed.

(* the content a stored needle stands for: its bytes, or their gunzip when it is
   flagged compressed and carries the gzip magic *)
Inductive holds (O : oracle) : needle -> bytes -> Prop :=
| holds_raw : forall d, holds O {| n_data := d; n_compressed := false |} d
| holds_flagged : forall d, is_gzipped_content (glib O) d = false ->
    holds O {| n_data := d; n_compressed := true |} d
| holds_gzip : forall d c, is_gzipped_content (glib O) d = true -> o_gunzip O d = GzOk c ->
    holds O {| n_data := d; n_compressed := true |} c.

(* an unencrypted fetch returns that content: a full fetch gets it gzipped or not and
   gunzips on the client, a ranged fetch has the server decompress and slice *)
Lemma fetch_plain : forall O n clear gz, holds O n clear ->
  (forall off size, off + size <= len clear -> fetch O n None gz true off size = FOk clear) /\
  (forall off size, 0 < size -> off + size <= len clear ->
     fetch O n None gz false off size = FOk (slice off size clear)).
Proof.
  intros O n clear gz H.
  assert (Hr : forall (A : Type) off size (body : bytes) (x y : A), 0 < size -> off + size <= len body ->
    (if (size =? 0) || (len body <? off) then x else y) = y).
  { intros A off size body x y Hp Hle.
    replace (size =? 0) with false by lia. replace (len body <? off) with false by lia. reflexivity. }
  unfold fetch, fetch_gen, server_get, read_body, decompress_ignore_err, decompress_data, ungzip_data.
  destruct H as [d|d Hm|d c Hm Hg]; cbn [n_data n_compressed]; rewrite ?Hm; cbn [gz_gunzip glib andb]; rewrite ?Hg.
  - (* stored as it is: served as it is, whole or sliced *)
    split; intros off size; [intros _; reflexivity|intros Hp Hle]. cbn. rewrite (Hr _ off size) by assumption.
    cbn. rewrite slice_min by assumption. reflexivity.
  - (* flagged compressed, no magic: the server's decompression leaves the bytes alone *)
    split; intros off size; [intros _; reflexivity|intros Hp Hle]. cbn. rewrite (Hr _ off size) by assumption.
    cbn. rewrite slice_min by assumption. reflexivity.
  - (* gzip: a full fetch gets the gzip and gunzips on the client; a ranged one has the server gunzip *)
    split; intros off size; [intros _; cbn; rewrite Hg; reflexivity|intros Hp Hle]. cbn.
    rewrite (Hr _ off size) by assumption. cbn. rewrite slice_min by assumption. reflexivity.
Qed.

Theorem roundtrip : forall O, laws O -> forall u clear,
  List.length (u_nonce u) = 12%nat -> clear_of O u = Some clear ->
  let w := fst (upload O u) in let r := snd (upload O u) in
  r_size r = len clear /\
  (forall off size, off + size <= len clear ->
     fetch O (server_store w) (r_key r) (r_gzip r) true off size = FOk clear) /\
  (forall off size, 0 < size -> off + size <= len clear ->
     fetch O (server_store w) (r_key r) (r_gzip r) false off size = FOk (slice off size clear)).
Proof.
  intros O HL u clear Hn Hclear. cbv zeta.
  destruct (u_cipher u) eqn:Hc.
  - (* encrypted *)
    rewrite (upload_cipher O u clear Hc Hclear). simpl fst. simpl snd.
    split; [reflexivity|].
    assert (Hget : forall off size full, off + size <= len clear ->
              fetch O (server_store {| w_body := encrypt O (u_key u) (u_nonce u) clear; w_ce_gzip := false; w_filename := ""%string |})
                    (Some (u_key u)) false full off size = if full then FOk clear else FOk (slice off size clear)).
    { intros off size full Hle. unfold fetch, fetch_gen, server_store, server_get, http_get_all, read_body. simpl.
      rewrite (decrypt_encrypt O HL _ _ _ Hn).
      replace (len clear <? off + size) with false by lia.
      reflexivity. }
    split; intros off size; intros; [apply (Hget off size true) | apply (Hget off size false)]; assumption.
  - (* not encrypted: by what the stored needle holds *)
    unfold upload. rewrite Hc. simpl negb. rewrite andb_true_r.
    unfold clear_of in Hclear.
    destruct (u_ic u) eqn:Hic.
    + (* the caller says the data is gzip already: sent as it is, flagged compressed *)
      assert (Hsg : should_gzip_now O u = false) by (unfold should_gzip_now; rewrite Hic; reflexivity).
      rewrite Hsg. unfold decompress_data, ungzip_data.
      destruct (is_gzipped_content (glib O) (u_data u)) eqn:Hmag.
      * simpl gz_gunzip. destruct (o_gunzip O (u_data u)) eqn:Hgun; try discriminate.
        inversion Hclear; subst out. split; [reflexivity|].
        apply fetch_plain. apply holds_gzip; assumption.
      * inversion Hclear; subst clear. split; [reflexivity|].
        apply fetch_plain. apply holds_flagged; assumption.
    + inversion Hclear; subst clear.
      destruct (should_gzip_now O u); (split; [reflexivity|]); apply fetch_plain.
      * (* gzipped by the client *)
        apply holds_gzip; [apply (glib_magic O HL) | apply (law_gunzip_gzip_b O HL)].
      * (* sent as it is *)
        apply holds_raw.
Qed.

(* the download path of the working tree never panics, whatever the oracle does *)
Lemma read_body_no_panic : forall O r, read_body true O r <> FPanic.
Proof.
  intros O r. unfold read_body.
  destruct (rs_ce_gzip r); [destruct (o_gunzip O (rs_body r))|]; discriminate.
Qed.

Theorem fetch_no_panic : forall O n key gz full off size, fetch O n key gz full off size <> FPanic.
Proof.
  intros O n key gz full off size. unfold fetch, fetch_gen.
  destruct key as [k|].
  - unfold http_get_all.
    pose proof (read_body_no_panic O (server_get O n {| g_accept_gzip := true; g_range := None |})) as H.
    destruct (read_body true O (server_get O n {| g_accept_gzip := true; g_range := None |})) as [b| |]; try congruence.
    destruct (400 <=? rs_status _); [discriminate|].
    destruct (decrypt O k b); [|discriminate].
    destruct (len _ <? off + size); [discriminate|]. destruct full; discriminate.
  - destruct (400 <=? rs_status _); [discriminate | apply read_body_no_panic].
Qed.

(* FPanic only comes out of read_body on GzHdrErr with rs_ce_gzip, and server_get sets rs_ce_gzip
   only for a compressed needle with the magic asked with Accept-Encoding: gzip, i.e. full or encrypted *)
Theorem pinned_fetch_panic_iff : forall O n key gz full off size,
  fetch_gen false O n key gz full off size = FPanic <-> pinned_fetch_panic O n key full = true.
Proof.
  intros O n key gz full off size. unfold pinned_fetch_panic, fetch_gen.
  destruct key as [k|].
  - unfold http_get_all, read_body, server_get. simpl.
    destruct (n_compressed n); simpl.
    + destruct (is_gzipped_content (glib O) (n_data n)); simpl.
      * destruct (o_gunzip O (n_data n)); simpl.
        -- destruct (decrypt O k out); [destruct (len _ <? off + size); [|destruct full]|]; split; intro H; discriminate.
        -- split; intro H; discriminate.
        -- split; intro H; reflexivity.
      * destruct (decrypt O k _); [destruct (len _ <? off + size); [|destruct full]|]; split; intro H; discriminate.
    + destruct (decrypt O k _); [destruct (len _ <? off + size); [|destruct full]|]; split; intro H; discriminate.
  - unfold read_body, server_get.
    destruct full; simpl.
    + destruct (n_compressed n); simpl.
      * destruct (is_gzipped_content (glib O) (n_data n)); simpl.
        -- destruct (o_gunzip O (n_data n)); simpl; split; intro H; try discriminate; reflexivity.
        -- split; intro H; discriminate.
      * split; intro H; discriminate.
    + rewrite andb_false_r.
      destruct (n_compressed n); simpl;
        destruct ((size =? 0) || (len _ <? off)); simpl; split; intro H; discriminate.
Qed.

(* a concrete oracle that satisfies the laws (non-vacuity, witnesses) *)
Definition toy : oracle :=
  {| o_gzip := fun x => 31 :: 139 :: 8 :: x;
     o_gunzip := fun b => match b with
                          | 31 :: 139 :: 8 :: x => GzOk x
                          | _ => GzHdrErr
                          end;
     o_detect := fun d => match d with
                          | 104 :: _ => "text/plain; charset=utf-8"%string
                          | _ => "application/octet-stream"%string
                          end;
     o_seal := fun _ _ x => 7 :: x;
     o_open := fun _ _ c => match c with 7 :: x => Some x | _ => None end |}.

Lemma toy_laws : laws toy.
Proof. constructor; intros; reflexivity. Qed.

Definition junk_upload : upload_in :=
  {| u_name := "junk"%string; u_cipher := false; u_data := [31; 139; 0; 1; 2]; u_ic := true;
     u_mime := ""%string; u_key := []; u_nonce := [] |}.

(* the pinned download path panics on junk_upload, the working tree returns an error *)
Theorem pinned_fetch_after_upload_panics : exists O u, laws O /\
  fetch_gen false O (server_store (fst (upload O u))) (r_key (snd (upload O u))) (r_gzip (snd (upload O u))) true 0 5 = FPanic /\
  fetch O (server_store (fst (upload O u))) (r_key (snd (upload O u))) (r_gzip (snd (upload O u))) true 0 5 = FErr.
Proof. exists toy, junk_upload. split; [exact toy_laws | vm_compute; split; reflexivity]. Qed.

Theorem pinned_decompress_panics : exists (L : gzlib bytes) input, decompress_data false L input = DPanic.
Proof. exists (glib toy), [31; 139]. vm_compute. reflexivity. Qed.
