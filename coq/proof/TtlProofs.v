(* C09, model/Ttl.v: the read window; when a rule that removes a record from second D on removes it
   while a read still returns it (removed_early_iff, behind compaction_early_iff and expiry_early_iff);
   which unit SecondsToTTL picks (seconds_to_ttl_spec); a chunk of a filer entry against the entry's life. *)
From Coq Require Import List NArith ZArith Bool String Ascii Lia DecimalString DecimalPos DecimalN.
From Coq Require Import ZifyBool ZifyN.
From SW Require Import model.Ttl.
Import ListNotations.
Local Open Scope N_scope.

Ltac Zify.zify_post_hook ::= Z.to_euclidean_division_equations.

Arguments N.mul : simpl never.
Arguments N.add : simpl never.
Arguments N.pow : simpl never.
Arguments N.modulo : simpl never.
Arguments N.div : simpl never.
Arguments Z.mul : simpl never.
Arguments Z.quot : simpl never.
Arguments Z.rem : simpl never.

Lemma read_visible_spec : forall now n,
  read_visible now n = negb (expiring n) || (now <? read_deadline n).
Proof.
  intros now n. unfold expiring, read_visible.
  destruct (has_ttl n); simpl; auto.
  destruct (minutes (n_ttl n) =? 0); simpl; auto.
Qed.

Lemma read_window : forall now n, expiring n = true ->
  (read_visible now n = true <-> now < read_deadline n).
Proof. intros now n He. rewrite read_visible_spec, He. apply N.ltb_lt. Qed.

Lemma read_never_expires : forall now n, expiring n = false -> read_visible now n = true.
Proof. intros now n He. rewrite read_visible_spec, He. reflexivity. Qed.

Lemma read_expiry_monotone : forall now now' n, now <= now' ->
  read_visible now n = false -> read_visible now' n = false.
Proof.
  intros now now' n Hle. rewrite !read_visible_spec.
  destruct (expiring n); simpl; auto. lia.
Qed.

Lemma NS_pos : 0 < NS. Proof. reflexivity. Qed.

Lemma minutes_empty : minutes EMPTY_TTL = 0. Proof. reflexivity. Qed.

Lemma div_NS_ge : forall now c, c <= now / NS <-> c * NS <= now.
Proof. intros now c. unfold NS. lia. Qed.

Lemma compaction_keeps_spec : forall now_s vttl n,
  compaction_keeps now_s vttl n = negb (has_ttl n) || (now_s <? compact_deadline_s vttl n).
Proof. intros. unfold compaction_keeps. destruct (has_ttl n); simpl; lia. Qed.

(* A rule that removes the record from second D on (when it applies) does so at an
   instant at which a read still returns it iff the record never expires on read or
   second D begins before the read deadline; the witness is the first instant of D. *)
Lemma removed_early_iff : forall n (applies : bool) D (removed : N -> Prop),
  (forall t, removed t <-> applies = true /\ D <= t) ->
  ((exists now, read_visible now n = true /\ removed (now / NS))
   <-> applies && (negb (expiring n) || (D * NS <? read_deadline n)) = true).
Proof.
  intros n applies D removed Hrm. split.
  - intros [now [Hr Hc]]. apply Hrm in Hc. destruct Hc as [Hg Hc]. subst applies.
    rewrite read_visible_spec in Hr. destruct (expiring n); simpl in *; auto.
    apply div_NS_ge in Hc. lia.
  - intro H. apply andb_true_iff in H. destruct H as [Hg H]. exists (D * NS). split.
    + rewrite read_visible_spec. exact H.
    + apply Hrm. split; [exact Hg|]. apply div_NS_ge. lia.
Qed.

Lemma compaction_early_iff : forall vttl n,
  (exists now, read_visible now n = true /\ compaction_keeps (now / NS) vttl n = false)
  <-> compaction_early vttl n = true.
Proof.
  intros vttl n.
  apply (removed_early_iff n (has_ttl n) (compact_deadline_s vttl n) (fun t => compaction_keeps t vttl n = false)).
  intro t. unfold compaction_keeps. rewrite negb_false_iff, andb_true_iff, N.leb_le. reflexivity.
Qed.

(* the two ways to be early: the volume's span is shorter than the needle's (or the
   needle never expires on read), or LastModified lies before AppendAtNs *)
Definition early_by_ttl (vttl : ttl) (n : needle) : bool :=
  has_ttl n && (negb (expiring n) || (volume_span_s vttl <? minutes (n_ttl n) * 60)).
Definition early_by_stamp (n : needle) : bool :=
  has_ttl n && (last_modified n * NS <? append_at_ns n).

Lemma compaction_early_causes : forall vttl n,
  compaction_early vttl n = true -> early_by_ttl vttl n = true \/ early_by_stamp n = true.
Proof.
  intros vttl n. unfold compaction_early, early_by_ttl, early_by_stamp.
  destruct (has_ttl n); simpl; [|discriminate].
  destruct (expiring n); simpl; auto.
  unfold compact_deadline_s, read_deadline, MIN_NS, NS. intro H.
  destruct (N.ltb_spec (volume_span_s vttl) (minutes (n_ttl n) * 60)); auto.
  right. lia.
Qed.

(* with a TTL at least as long on the volume side, compaction is early by at most the
   distance between LastModified and AppendAtNs: a blob dropped at second [now_s]
   is unreadable from second [now_s + k] on, when AppendAtNs <= (LastModified + k) s *)
Lemma compaction_early_bound : forall vttl n k now_s now,
  expiring n = true ->
  minutes (n_ttl n) * 60 <= volume_span_s vttl ->
  append_at_ns n <= (last_modified n + k) * NS ->
  compaction_keeps now_s vttl n = false ->
  (now_s + k) * NS <= now ->
  read_visible now n = false.
Proof.
  intros vttl n k now_s now He Hs Ha Hc Hn.
  rewrite compaction_keeps_spec in Hc. rewrite read_visible_spec. rewrite He. simpl.
  destruct (has_ttl n); simpl in *; [|discriminate].
  unfold compact_deadline_s, read_deadline, MIN_NS, NS in *. lia.
Qed.

Lemma volume_expired_spec : forall now_s v,
  volume_expired now_s v = volume_can_expire v && (v_last_mod v + (minutes (v_ttl v) + 1) * 60 <=? now_s).
Proof.
  intros now_s v. unfold volume_expired, volume_can_expire.
  destruct (v_limit v =? 0); simpl; auto.
  destruct (v_size v <=? SUPER_BLOCK_SIZE); simpl; auto.
  destruct (minutes (v_ttl v) =? 0); simpl; auto.
  lia.
Qed.

Lemma volume_deleted_spec : forall now_s v,
  volume_deleted now_s v = volume_can_expire v && (delete_from_s v <=? now_s).
Proof.
  intros now_s v. unfold volume_deleted. rewrite volume_expired_spec.
  destruct (volume_can_expire v) eqn:Hc; simpl; auto.
  unfold expired_long_enough, delete_from_s.
  unfold volume_can_expire in Hc.
  destruct (minutes (v_ttl v) =? 0) eqn:Hm; [rewrite !andb_false_r in Hc; discriminate|].
  destruct (v_io_error v); simpl.
  - rewrite orb_true_r, andb_true_r. reflexivity.
  - rewrite orb_false_r. lia.
Qed.

Lemma expiry_early_iff : forall v n,
  (exists now, read_visible now n = true /\ volume_deleted (now / NS) v = true)
  <-> expiry_early v n = true.
Proof.
  intros v n.
  apply (removed_early_iff n (volume_can_expire v) (delete_from_s v) (fun t => volume_deleted t v = true)).
  intro t. rewrite volume_deleted_spec, andb_true_iff, N.leb_le. reflexivity.
Qed.

(* the heartbeat deletes no earlier than the first second at which the volume counts
   as expired *)
Lemma delete_from_ge : forall v, v_last_mod v + (minutes (v_ttl v) + 1) * 60 <= delete_from_s v.
Proof. intro v. unfold delete_from_s. destruct (v_io_error v); lia. Qed.

Lemma expiry_safe_sufficient : forall v n,
  expiring n = true ->
  minutes (n_ttl n) <= minutes (v_ttl v) ->
  append_at_ns n <= (v_last_mod v + 60) * NS ->
  expiry_early v n = false.
Proof.
  intros v n He Hm Ha. unfold expiry_early. rewrite He. simpl.
  destruct (volume_can_expire v); simpl; auto.
  pose proof (delete_from_ge v). unfold read_deadline, MIN_NS, NS in *. lia.
Qed.

Lemma removed_early_exact : forall vttl v n,
  compaction_early vttl n || expiry_early v n = false <->
  (forall now, read_visible now n = true ->
     compaction_keeps (now / NS) vttl n = true /\ volume_deleted (now / NS) v = false).
Proof.
  intros vttl v n. rewrite orb_false_iff, <- !not_true_iff_false.
  rewrite <- compaction_early_iff, <- expiry_early_iff. split.
  - intros [H1 H2] now Hr. split.
    + destruct (compaction_keeps (now / NS) vttl n) eqn:E; [reflexivity|]. exfalso. eauto.
    + destruct (volume_deleted (now / NS) v) eqn:E; [|reflexivity]. exfalso. eauto.
  - intro H. split; intros [now [Hr E]]; destruct (H now Hr) as [Hk Hd]; congruence.
Qed.

Definition upload_trigger (u : upload) : bool :=
  compaction_early (read_ttl (u_vttl u)) (stored_of u) || expiry_early (volume_of u) (stored_of u).

Definition not_removed_early_at (u : upload) (now : N) : Prop :=
  read_visible now (stored_of u) = true ->
  compaction_keeps (now / NS) (read_ttl (u_vttl u)) (stored_of u) = true /\
  volume_deleted (now / NS) (volume_of u) = false.

Lemma not_removed_early_partial : forall u, upload_trigger u = false ->
  forall now, not_removed_early_at u now.
Proof. intros u H. exact (proj1 (removed_early_exact _ _ _) H). Qed.

Lemma not_removed_early_exact : forall u,
  (forall now, not_removed_early_at u now) <-> upload_trigger u = false.
Proof. intro u. symmetry. exact (removed_early_exact _ _ _). Qed.

(* concrete uploads for which the full statement fails; times are 2026-ish *)
Definition T0 : N := 1790000000.

(* a 1d blob in a 1h volume *)
Definition w_longer_ttl : upload :=
  {| u_vttl := "1h"; u_req_ttl := "1d"; u_ts := 0; u_t0_s := T0; u_parse_s := T0; u_append_ns := T0 * NS;
     u_size := 88; u_limit := 2^30; u_io_error := false |}.
(* a 1d blob in a volume without TTL *)
Definition w_no_volume_ttl : upload :=
  {| u_vttl := ""; u_req_ttl := "1d"; u_ts := 0; u_t0_s := T0; u_parse_s := T0; u_append_ns := T0 * NS;
     u_size := 88; u_limit := 2^30; u_io_error := false |}.
(* a blob inheriting 137y: uint32(minutes*60) wraps to 294 days *)
Definition w_span_wrap : upload :=
  {| u_vttl := "137y"; u_req_ttl := ""; u_ts := 0; u_t0_s := T0; u_parse_s := T0; u_append_ns := T0 * NS;
     u_size := 88; u_limit := 2^30; u_io_error := false |}.
(* same TTL, ts= one day before the upload *)
Definition w_old_ts : upload :=
  {| u_vttl := "1h"; u_req_ttl := ""; u_ts := T0 - 86400; u_t0_s := T0; u_parse_s := T0; u_append_ns := T0 * NS;
     u_size := 88; u_limit := 2^30; u_io_error := false |}.
(* same TTL, no ts=, the upload took 10 s between parsing and appending *)
Definition w_slow_upload : upload :=
  {| u_vttl := "1h"; u_req_ttl := ""; u_ts := 0; u_t0_s := T0; u_parse_s := T0; u_append_ns := (T0 + 10) * NS;
     u_size := 88; u_limit := 2^30; u_io_error := false |}.
(* same TTL, old ts=, into a volume loaded 67 minutes earlier: the heartbeat deletes the volume *)
Definition w_stale_stamp : upload :=
  {| u_vttl := "1h"; u_req_ttl := ""; u_ts := T0 - 86400; u_t0_s := T0; u_parse_s := T0 + 4000; u_append_ns := (T0 + 4000) * NS;
     u_size := 88; u_limit := 2^30; u_io_error := false |}.

Lemma not_removed_early_refuted :
  (exists now, upload_ordered w_longer_ttl = true /\ read_visible now (stored_of w_longer_ttl) = true /\
     compaction_keeps (now / NS) (read_ttl (u_vttl w_longer_ttl)) (stored_of w_longer_ttl) = false /\
     volume_deleted (now / NS) (volume_of w_longer_ttl) = true) /\
  (exists now, upload_ordered w_no_volume_ttl = true /\ read_visible now (stored_of w_no_volume_ttl) = true /\
     compaction_keeps (now / NS) (read_ttl (u_vttl w_no_volume_ttl)) (stored_of w_no_volume_ttl) = false) /\
  (exists now, upload_ordered w_span_wrap = true /\ read_visible now (stored_of w_span_wrap) = true /\
     compaction_keeps (now / NS) (read_ttl (u_vttl w_span_wrap)) (stored_of w_span_wrap) = false) /\
  (exists now, upload_ordered w_old_ts = true /\ read_visible now (stored_of w_old_ts) = true /\
     compaction_keeps (now / NS) (read_ttl (u_vttl w_old_ts)) (stored_of w_old_ts) = false) /\
  (exists now, upload_ordered w_slow_upload = true /\ read_visible now (stored_of w_slow_upload) = true /\
     compaction_keeps (now / NS) (read_ttl (u_vttl w_slow_upload)) (stored_of w_slow_upload) = false) /\
  (exists now, upload_ordered w_stale_stamp = true /\ read_visible now (stored_of w_stale_stamp) = true /\
     volume_deleted (now / NS) (volume_of w_stale_stamp) = true).
Proof.
  repeat split.
  - exists ((T0 + 2 * 3600) * NS). vm_compute. repeat split.
  - exists ((T0 + 1) * NS). vm_compute. repeat split.
  - exists ((T0 + 300 * 86400) * NS). vm_compute. repeat split.
  - exists ((T0 + 60) * NS). vm_compute. repeat split.
  - exists ((T0 + 3605) * NS). vm_compute. repeat split.
  - exists ((T0 + 4300) * NS). vm_compute. repeat split.
Qed.

(* a sufficient condition for the partial statement: no ts=, the upload carries no TTL or
   the volume's own, the volume's span does not wrap, and the record is appended exactly at
   the second boundary at which the request was parsed (AppendAtNs = LastModified * 10^9) *)
Lemma upload_safe_sufficient : forall u,
  u_ts u = 0 ->
  (u_req_ttl u = EmptyString \/ u_req_ttl u = u_vttl u) ->
  (u_vttl u = EmptyString \/ 0 < minutes (read_ttl (u_vttl u))) ->
  minutes (read_ttl (u_vttl u)) * 60 < 2^32 ->
  u_parse_s u < 2^40 ->
  u_append_ns u = u_parse_s u * NS ->
  upload_trigger u = false.
Proof.
  intros u Hts Hreq Hpos Hwrap Hp Ha. unfold upload_trigger.
  set (vt := read_ttl (u_vttl u)) in *.
  (* the stored record inherits the volume's TTL and is stamped with the parse clock *)
  assert (Hst : stored_of u =
     {| has_ttl := negb (String.eqb (u_vttl u) EmptyString); has_lm := true; n_ttl := vt;
        last_modified := u_parse_s u; append_at_ns := u_parse_s u * NS |}).
  { unfold stored_of, write_needle, create_needle. simpl. rewrite Hts, Ha. simpl.
    rewrite (N.mod_small (u_parse_s u)) by assumption.
    destruct Hreq as [Hr|Hr]; rewrite Hr; simpl.
    all: destruct (String.eqb_spec (u_vttl u) EmptyString) as [E|E]; simpl; auto.
    all: subst vt; rewrite E; reflexivity. }
  assert (Hlm : u_parse_s u <= v_last_mod (volume_of u)).
  { unfold volume_of, vol_stamp_after_write, create_needle. simpl. rewrite Hts. simpl.
    destruct (N.ltb_spec (u_t0_s u) (u_parse_s u)); lia. }
  rewrite Hst. clear Hst.
  unfold compaction_early, expiry_early, expiring, volume_can_expire. cbn [has_ttl has_lm n_ttl v_ttl volume_of].
  fold vt.
  destruct (String.eqb_spec (u_vttl u) EmptyString) as [E|E]; cbn [negb andb orb].
  - (* no volume TTL: no TTL flag on the record, and the volume cannot expire *)
    replace (minutes vt) with 0 by (subst vt; rewrite E; reflexivity).
    rewrite !andb_false_r. reflexivity.
  - destruct Hpos as [Hv|Hv]; [contradiction|].
    destruct (N.eqb_spec (minutes vt) 0) as [|_]; [lia|]. cbn [negb andb orb].
    (* compaction and the read deadline fall on the same instant; the volume goes later *)
    pose proof (delete_from_ge (volume_of u)) as Hd. cbn [v_ttl volume_of] in Hd. fold vt in Hd.
    unfold compact_deadline_s, volume_span_s, read_deadline. cbn [last_modified append_at_ns n_ttl].
    rewrite N.mod_small by assumption.
    apply orb_false_iff. split; [|apply andb_false_iff; right]; apply N.ltb_ge; unfold MIN_NS, NS; lia.
Qed.

Local Open Scope string_scope.

Lemma split_last_app : forall d c, split_last (d ++ String c EmptyString) = (d, c).
Proof.
  induction d as [|x d IH]; intro c; simpl; auto.
  rewrite IH. destruct (d ++ String c EmptyString) eqn:E; auto.
  destruct d; discriminate.
Qed.

Lemma dec_head : forall n, exists ch r, dec n = String ch r /\ is_digit ch = true /\
  Ascii.eqb ch "-" = false /\ Ascii.eqb ch "+" = false.
Proof.
  intro n. unfold dec.
  assert (Hnn : N.to_uint n <> Decimal.Nil).
  { destruct n; simpl; [discriminate|apply DecimalPos.Unsigned.to_uint_nonnil]. }
  destruct (N.to_uint n); try congruence; simpl; eexists; eexists; repeat split.
Qed.

Lemma digits_value_dec : forall n, digits_value (dec n) = Some n.
Proof.
  intro n. destruct (dec_head n) as [ch [r [E _]]].
  unfold digits_value. rewrite E. rewrite <- E. unfold dec.
  rewrite NilEmpty.usu. rewrite DecimalN.Unsigned.of_to. reflexivity.
Qed.

Lemma atoi_dec : forall n, atoi (dec n) = Z.of_N n.
Proof.
  intro n. pose proof (digits_value_dec n) as Hd.
  destruct (dec_head n) as [ch [r [E [_ [Hm Hp]]]]].
  unfold atoi. rewrite E in *. rewrite Hm, Hp, Hd. reflexivity.
Qed.

(* ReadTTL of what SecondsToTTL prints, for a non-negative count *)
Lemma read_fmt : forall q c, (0 <= q)%Z -> is_digit c = false ->
  read_ttl (fmt_ttl q c) = {| t_count := byte_of_z q; t_unit := to_stored_byte c |}.
Proof.
  intros q c Hq Hc. unfold fmt_ttl, dec_z.
  destruct (Z.ltb_spec q 0); [lia|].
  unfold read_ttl.
  destruct (dec_head (Z.to_N q)) as [ch [r [E _]]].
  rewrite split_last_app. rewrite E at 1. simpl. rewrite Hc.
  rewrite atoi_dec. rewrite Z2N.id by assumption. reflexivity.
Qed.

Local Close Scope string_scope.

Lemma byte_of_z_small : forall q, (0 <= q < 256)%Z -> byte_of_z q = Z.to_N q.
Proof. intros q H. unfold byte_of_z. rewrite Z.mod_small by assumption. reflexivity. Qed.

(* case split on the condition of the first [if] of the goal *)
Ltac split_if :=
  match goal with |- context [if ?b then _ else _] => destruct b eqn:? end.

Definition units : list (Z * ascii) :=
  [(SEC_YEAR, "y"); (SEC_MONTH, "M"); (SEC_WEEK, "w"); (SEC_DAY, "d"); (SEC_HOUR, "h"); (SEC_MINUTE, "m")]%char.

Lemma units_read : forall U c, In (U, c) units -> (60 <= U)%Z /\
  forall q, (0 <= q < 256)%Z -> (60 * Z.of_N (minutes (read_ttl (fmt_ttl q c))) = U * q)%Z.
Proof.
  intros U c H. unfold units, SEC_YEAR, SEC_MONTH, SEC_WEEK, SEC_DAY, SEC_HOUR, SEC_MINUTE in H. simpl in H.
  repeat (destruct H as [H|H];
    [inversion H; split; [discriminate|]; intros q Hq;
     rewrite read_fmt, byte_of_z_small by (reflexivity || lia); unfold minutes; simpl; lia|]).
  destruct H.
Qed.

(* SecondsToTTL prints s / U for a unit U in which the count is a byte.  U divides s
   whenever some unit does with a byte count (the exact tests come first, and the first
   test after them is on minutes); from a minute on the count is not zero (a unit is
   tried only when 256 of a finer one are too few). *)
Lemma seconds_to_ttl_spec : forall s, (0 < s < 2^31)%Z -> exists U c,
  seconds_to_ttl s = fmt_ttl (s / U) c /\ In (U, c) units /\ (s / U < 256)%Z /\
  representable s = (s mod U =? 0)%Z /\ (60 <= s -> U <= s)%Z.
Proof.
  intros s Hs. unfold seconds_to_ttl, representable, units.
  cbn [existsb]. cbv zeta.
  unfold SEC_YEAR, SEC_MONTH, SEC_WEEK, SEC_DAY, SEC_HOUR, SEC_MINUTE.
  rewrite !Z.quot_div_nonneg, !Z.rem_mod_nonneg by lia.
  destruct (Z.eqb_spec s 0) as [|_]; [lia|].
  repeat split_if; [do 2 eexists; split; [reflexivity|]; split; [simpl; tauto|] .. | ].
  all: lia.
Qed.

(* SecondsToTTL never rounds up, is exact precisely on the representable values, and
   yields "never expires" precisely below one minute *)
Lemma filer_minutes_spec : forall s, (0 < s < 2^31)%Z ->
  let m := (60 * Z.of_N (minutes (filer_volume_ttl s)))%Z in
  (m <= s)%Z /\ (m = s <-> representable s = true) /\ (m = 0 <-> s < 60)%Z.
Proof.
  intros s Hs. destruct (seconds_to_ttl_spec s Hs) as (U & c & E & HI & Hq & Hr & Hd).
  destruct (units_read _ _ HI) as (HU & Hm).
  assert (0 <= s / U)%Z by (apply Z.div_pos; lia).
  unfold filer_volume_ttl. rewrite E, Hm by lia.
  rewrite Hr. pose proof (Z.mul_div_le s U). pose proof (Z.mod_eq s U).
  repeat split; try lia. intro. rewrite Z.div_small; lia.
Qed.

Lemma filer_ttl_rounds_down : forall s, (0 < s < 2^31)%Z ->
  (60 * Z.of_N (minutes (filer_volume_ttl s)) <= s)%Z /\
  (60 * Z.of_N (minutes (filer_volume_ttl s)) = s <-> representable s = true)%Z.
Proof. intros s Hs. split; apply (filer_minutes_spec s Hs). Qed.

Lemma filer_covers_iff : forall s, (0 < s < 2^31)%Z ->
  ttl_covers (filer_volume_ttl s) s = (s <? 60)%Z || representable s.
Proof.
  intros s Hs. destruct (filer_minutes_spec s Hs) as (Hle & Hr & H0).
  unfold ttl_covers. destruct (representable s); lia.
Qed.

Lemma filer_covers_refuted :
  exists s, (0 < s < 2^31)%Z /\ ttl_covers (filer_volume_ttl s) s = false /\
            (60 * Z.of_N (minutes (filer_volume_ttl s)) < s)%Z.
Proof. exists 90%Z. vm_compute. repeat split; discriminate. Qed.

Lemma filer_covers_refuted_hours :
  filer_volume_ttl 15360 = {| t_count := 4; t_unit := 2 |} /\ ttl_covers (filer_volume_ttl 15360) 15360 = false.
Proof. vm_compute. split; reflexivity. Qed.

Lemma filer_covers_partial : forall s, (0 < s < 2^31)%Z ->
  (s <? 60)%Z || representable s = true -> ttl_covers (filer_volume_ttl s) s = true.
Proof. intros s Hs H. rewrite filer_covers_iff by assumption. exact H. Qed.

Lemma representable_multiple : forall U c,
  In U [SEC_YEAR; SEC_MONTH; SEC_WEEK; SEC_DAY; SEC_HOUR; SEC_MINUTE] ->
  (1 <= c <= 255)%Z -> representable (c * U) = true.
Proof.
  intros U c HU Hc. unfold representable. apply existsb_exists. exists U. split; auto.
  assert (0 < U)%Z by (simpl in HU; unfold SEC_YEAR, SEC_MONTH, SEC_WEEK, SEC_DAY, SEC_HOUR, SEC_MINUTE in HU; lia).
  rewrite Z.quot_div_nonneg, Z.rem_mod_nonneg by nia.
  rewrite Z.mod_mul, Z.div_mul by lia. lia.
Qed.

Lemma filer_ttl_exact_on_multiples : forall U c,
  In U [SEC_YEAR; SEC_MONTH; SEC_WEEK; SEC_DAY; SEC_HOUR; SEC_MINUTE] ->
  (1 <= c <= 255)%Z -> (c * U < 2^31)%Z ->
  (60 * Z.of_N (minutes (filer_volume_ttl (c * U))) = c * U)%Z /\
  ttl_covers (filer_volume_ttl (c * U)) (c * U) = true.
Proof.
  intros U c HU Hc Hlt.
  assert (0 < U)%Z by (simpl in HU; unfold SEC_YEAR, SEC_MONTH, SEC_WEEK, SEC_DAY, SEC_HOUR, SEC_MINUTE in HU; lia).
  assert (Hs : (0 < c * U < 2^31)%Z) by nia.
  pose proof (representable_multiple U c HU Hc) as Hr.
  split.
  - apply (filer_ttl_rounds_down _ Hs). exact Hr.
  - apply filer_covers_partial; auto. rewrite Hr. apply orb_true_r.
Qed.

(* a chunk of an entry with TtlSec = s: uploaded without ttl= into a volume created
   with SecondsToTTL(s); it inherits that TTL *)
Definition chunk_of (s : Z) (parse_s append_ns : N) : needle :=
  write_needle (seconds_to_ttl s) (create_needle EmptyString 0 parse_s) append_ns.

Lemma chunk_of_ttl : forall s p a,
  n_ttl (chunk_of s p a) = filer_volume_ttl s /\ has_lm (chunk_of s p a) = true /\
  append_at_ns (chunk_of s p a) = a.
Proof.
  intros s p a. unfold chunk_of, write_needle, create_needle, filer_volume_ttl. simpl.
  destruct (String.eqb (seconds_to_ttl s) EmptyString) eqn:E; simpl; auto.
  apply String.eqb_eq in E. rewrite E. auto.
Qed.

(* The HTTP path uploads the chunks and only then stamps Crtime := time.Now(): the chunk's
   append time lies up to the upload latency k before the entry's Crtime.  Then the chunk
   is readable at every instant that is at least k before the end of the entry's life,
   when the TTL covers. *)
Lemma visible_entry_chunk_bound : forall s crtime p a k now,
  (0 < s < 2^31)%Z ->
  ttl_covers (filer_volume_ttl s) s = true ->
  crtime * NS < a + k ->
  entry_visible (now + k) crtime s = true ->
  read_visible now (chunk_of s p a) = true.
Proof.
  intros s crtime p a k now Hs Hc Ha Hv.
  rewrite read_visible_spec.
  destruct (expiring (chunk_of s p a)) eqn:He; simpl; auto.
  destruct (chunk_of_ttl s p a) as [Ht [_ Hap]].
  unfold read_deadline. rewrite Ht, Hap.
  unfold expiring in He. rewrite Ht in He.
  unfold ttl_covers in Hc. unfold entry_visible in Hv. unfold MIN_NS, NS in *.
  destruct (minutes (filer_volume_ttl s) =? 0) eqn:Em.
  - rewrite andb_false_r in He. discriminate.
  - lia.
Qed.

(* k = 0: the chunk was appended after the second the entry's Crtime was truncated to *)
Lemma visible_entry_chunk_readable : forall s crtime p a now,
  (0 < s < 2^31)%Z ->
  ttl_covers (filer_volume_ttl s) s = true ->
  crtime * NS < a ->
  entry_visible now crtime s = true ->
  read_visible now (chunk_of s p a) = true.
Proof.
  intros s crtime p a now Hs Hc Ha Hv.
  apply (visible_entry_chunk_bound s crtime p a 0 now); rewrite ?N.add_0_r; assumption.
Qed.

(* every record written through the HTTP upload path carries the last-modified flag
   and its real append time: a blob uploaded with (or inheriting) a TTL of m > 0
   minutes is readable exactly during the m minutes after it was appended *)
Lemma read_window_upload : forall u now,
  has_ttl (stored_of u) = true -> 0 < minutes (n_ttl (stored_of u)) ->
  (read_visible now (stored_of u) = true <->
   now < u_append_ns u + minutes (n_ttl (stored_of u)) * 60000000000).
Proof.
  intros u now Ht Hm.
  assert (He : expiring (stored_of u) = true).
  { assert (Hlm : has_lm (stored_of u) = true) by reflexivity.
    unfold expiring. rewrite Ht, Hlm.
    destruct (N.eqb_spec (minutes (n_ttl (stored_of u))) 0) as [E|E]; [lia|]. reflexivity. }
  apply (read_window now _ He).
Qed.

(* finding 0: when the TTL does not cover, the entry outlives its data *)
Lemma visible_entry_chunk_expired :
  exists s crtime p a now, (0 < s < 2^31)%Z /\ crtime * NS < a /\ crtime <= p /\ p * NS <= a /\
    entry_visible now crtime s = true /\ read_visible now (chunk_of s p a) = false.
Proof.
  exists 90%Z, T0, T0, (T0 * NS + 1), ((T0 + 75) * NS). vm_compute. repeat split; discriminate.
Qed.
