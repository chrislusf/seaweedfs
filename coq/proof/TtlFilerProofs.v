(* C09, filer histories of model/Ttl.v: an entry is visible exactly while now <= Crtime + TtlSec
   (filer_find_window); a history that keeps a name keeps its Crtime and TtlSec (keeps_run), so no
   modification extends or shortens its life; safe histories leave only readable chunks (safe_run);
   many uploads into one volume. *)
From Coq Require Import List NArith ZArith Bool String Lia.
From Coq Require Import ZifyBool ZifyN.
From SW Require Import model.Ttl proof.TtlProofs.
Import ListNotations.
Local Open Scope N_scope.

Arguments N.mul : simpl never.
Arguments N.add : simpl never.

Lemma fs_get_put : forall st p e q,
  fs_get (fs_put st p e) q = if q =? p then Some e else fs_get st q.
Proof.
  induction st as [|[k x] r IH]; intros p e q; simpl.
  - destruct (N.eqb_spec q p); reflexivity.
  - destruct (N.eqb_spec p k) as [Epk|Epk].
    + subst k. simpl. destruct (N.eqb_spec q p); reflexivity.
    + destruct (p <? k) eqn:Elt; simpl.
      * destruct (N.eqb_spec q p); reflexivity.
      * rewrite IH. destruct (N.eqb_spec q k) as [Eqk|Eqk].
        -- subst k. destruct (N.eqb_spec q p); [congruence|reflexivity].
        -- reflexivity.
Qed.

Lemma fs_get_del : forall st p q,
  fs_get (fs_del st p) q = if q =? p then None else fs_get st q.
Proof.
  induction st as [|[k x] r IH]; intros p q; simpl.
  - destruct (q =? p); reflexivity.
  - unfold fs_del in *. simpl. destruct (N.eqb_spec k p) as [E|E]; simpl.
    + subst k. rewrite IH. destruct (N.eqb_spec q p); reflexivity.
    + rewrite IH. destruct (N.eqb_spec q k) as [Eqk|Eqk].
      * subst k. destruct (N.eqb_spec q p); [congruence|reflexivity].
      * reflexivity.
Qed.

Lemma fs_get_in : forall st p e, fs_get st p = Some e -> In (p, e) st.
Proof.
  induction st as [|[k x] r IH]; intros p e H; simpl in *; [discriminate|].
  destruct (N.eqb_spec p k).
  - inversion H; subst. left; reflexivity.
  - right. apply IH; exact H.
Qed.

Lemma fs_get_expire_keep : forall now st p e,
  fs_get st p = Some e -> fe_visible now e = true -> fs_get (fs_expire now st) p = Some e.
Proof.
  induction st as [|[k x] r IH]; intros p e H Hv; simpl in *; [discriminate|].
  unfold fs_expire in *. simpl.
  destruct (N.eqb_spec p k) as [E|E].
  - inversion H; subst. rewrite Hv. simpl. rewrite N.eqb_refl. reflexivity.
  - destruct (fe_visible now x); simpl.
    + destruct (N.eqb_spec p k); [congruence|]. apply IH; assumption.
    + apply IH; assumption.
Qed.

Lemma entry_visible_spec : forall now c s,
  entry_visible now c s = true <-> (s <= 0)%Z \/ now <= (c + Z.to_N s) * NS.
Proof.
  intros now c s. unfold entry_visible, NS. split; intro H.
  - destruct (Z.ltb_spec 0 s); [|left; lia]. right. simpl in H.
    apply negb_true_iff in H. apply N.ltb_ge in H. lia.
  - apply negb_true_iff. destruct (Z.ltb_spec 0 s); simpl; [|reflexivity].
    apply N.ltb_ge. destruct H as [H|H]; lia.
Qed.

(* Filer.FindEntry returns the stored entry exactly while now <= Crtime + TtlSec
   (TtlSec <= 0: always) -- Mtime plays no role *)
Lemma filer_find_window : forall now st p e,
  snd (filer_find now st p) = Some e <->
  fs_get st p = Some e /\ ((fe_ttl e <= 0)%Z \/ now <= (fe_crtime e + Z.to_N (fe_ttl e)) * NS).
Proof.
  intros now st p e. unfold filer_find.
  destruct (fs_get st p) as [x|] eqn:G; simpl.
  - destruct (fe_visible now x) eqn:V; simpl.
    + split.
      * intro H; inversion H; subst. split; auto. apply entry_visible_spec. exact V.
      * intros [H _]. exact H.
    + split; [discriminate|]. intros [H W]. inversion H; subst.
      apply entry_visible_spec in W. unfold fe_visible in V. congruence.
  - split; [discriminate|]. intros [H _]; discriminate.
Qed.

Lemma filer_find_mtime_irrelevant : forall now st p e m,
  fs_get st p = Some e ->
  let e' := {| fe_crtime := fe_crtime e; fe_mtime := m; fe_ttl := fe_ttl e; fe_chunks := fe_chunks e |} in
  (snd (filer_find now st p) = None <-> snd (filer_find now (fs_put st p e') p) = None).
Proof.
  intros now st p e m G e'. unfold filer_find. rewrite G, fs_get_put, N.eqb_refl.
  unfold fe_visible. simpl.
  destruct (entry_visible now (fe_crtime e) (fe_ttl e)); simpl; split; auto; discriminate.
Qed.

Lemma find_self_visible : forall now st p e,
  fs_get st p = Some e -> fe_visible now e = true -> filer_find now st p = (st, Some e).
Proof. intros now st p e G V. unfold filer_find. rewrite G, V. reflexivity. Qed.

Lemma find_other : forall now st q p, (p =? q) = false ->
  fs_get (fst (filer_find now st q)) p = fs_get st p.
Proof.
  intros now st q p E. unfold filer_find.
  destruct (fs_get st q) as [x|]; simpl; auto.
  destruct (fe_visible now x); simpl; auto.
  rewrite fs_get_del, E. reflexivity.
Qed.

(* CreateEntry over / UpdateEntry of a visible entry stores the OLD Crtime *)
Lemma filer_write_keeps_crtime : forall now st p oe e o,
  snd (filer_find now st p) = Some oe ->
  o = FCreate p e false \/ o = FUpdate p e ->
  fs_get (fst (filer_step now st o)) p = Some (fe_merge oe e) /\
  fe_crtime (fe_merge oe e) = fe_crtime oe.
Proof.
  intros now st p oe e o F Ho. split; [|reflexivity].
  destruct Ho; subst o; simpl;
    destruct (filer_find now st p) as [st1 old]; simpl in F; subst old; simpl;
    rewrite fs_get_put, N.eqb_refl; reflexivity.
Qed.

Lemma find_visible : forall t st p e q,
  fs_get st p = Some e -> fe_visible t e = true ->
  exists st1 old, filer_find t st q = (st1, old) /\ fs_get st1 p = Some e /\
                  (if p =? q then old = Some e else True).
Proof.
  intros t st p e q G V. destruct (N.eqb_spec p q) as [<-|E].
  - rewrite (find_self_visible _ _ _ _ G V). eauto.
  - pose proof (find_other t st q p (proj2 (N.eqb_neq _ _) E)) as Fo.
    destruct (filer_find t st q) as [st1 old]. simpl in Fo. rewrite G in Fo. eauto.
Qed.

Lemma keeps_step : forall p s c t o st e,
  fs_get st p = Some e -> fe_crtime e = c -> fe_ttl e = s ->
  fop_keeps p s o = true -> t <= (c + Z.to_N s) * NS ->
  exists e', fs_get (fst (filer_step t st o)) p = Some e' /\ fe_crtime e' = c /\ fe_ttl e' = s.
Proof.
  intros p s c t o st e G Hc Hs K Ht.
  assert (V : fe_visible t e = true).
  { unfold fe_visible. apply entry_visible_spec. right. rewrite Hc, Hs. exact Ht. }
  destruct o as [q e1|q e1 excl|q e1|q| |q]; simpl in K |- *.
  1, 6: (* raw insert or delete of another name *)
    rewrite ?fs_get_put, ?fs_get_del; rewrite N.eqb_sym in K; apply negb_true_iff in K; rewrite K; eauto.
  4: { (* a listing keeps visible entries *)
       exists e. split; auto. apply fs_get_expire_keep; assumption. }
  (* create, update, find: the lookup leaves e under p; what is then put under q = p is
     the merge with e, which keeps Crtime and, by K, TtlSec *)
  all: destruct (find_visible t st p e q G V) as (st1 & old & -> & G1 & Ho); rewrite ?(N.eqb_sym q p) in K.
  all: destruct (p =? q) eqn:Epq; [subst old|destruct old as [oe|]]; try destruct excl; simpl.
  all: rewrite ?fs_get_put, ?Epq; eauto.
  all: eexists; split; [reflexivity|]; simpl; split; [exact Hc|lia].
Qed.

Lemma filer_run_fst_cons : forall st t o r,
  fst (filer_run st ((t, o) :: r)) = fst (filer_run (fst (filer_step t st o)) r).
Proof.
  intros st t o r. simpl. destruct (filer_step t st o) as [st1 res]. simpl.
  destruct (filer_run st1 r) as [st2 out]. reflexivity.
Qed.

Lemma keeps_run : forall l st p e0 s,
  fs_get st p = Some e0 -> fe_ttl e0 = s ->
  forallb (fun to => fop_keeps p s (snd to)) l = true ->
  forallb (fun to => fst to <=? (fe_crtime e0 + Z.to_N s) * NS) l = true ->
  exists e, fs_get (fst (filer_run st l)) p = Some e /\ fe_crtime e = fe_crtime e0 /\ fe_ttl e = s.
Proof.
  induction l as [|[t o] r IH]; intros st p e0 s G Hs K T.
  - exists e0. auto.
  - simpl in K, T. apply andb_true_iff in K. destruct K as [K1 K2].
    apply andb_true_iff in T. destruct T as [T1 T2]. apply N.leb_le in T1.
    destruct (keeps_step p s (fe_crtime e0) t o st e0 G eq_refl Hs K1 T1) as [e' [G' [C' S']]].
    rewrite filer_run_fst_cons. rewrite <- C' in *. apply (IH _ p e' s G' S' K2 T2).
Qed.

(* However often an entry with TtlSec = s is rewritten, updated, appended to, looked up
   or listed during its life (every write keeping TtlSec = s), it is gone at every
   instant after Crtime + s: modifications (which move Mtime) never extend its life. *)
Theorem filer_life_not_extended : forall l st p e0 s now,
  fs_get st p = Some e0 -> fe_ttl e0 = s -> (0 < s)%Z ->
  forallb (fun to => fop_keeps p s (snd to)) l = true ->
  forallb (fun to => fst to <=? (fe_crtime e0 + Z.to_N s) * NS) l = true ->
  (fe_crtime e0 + Z.to_N s) * NS < now ->
  snd (filer_find now (fst (filer_run st l)) p) = None.
Proof.
  intros l st p e0 s now G Hs Hpos K T Hnow.
  destruct (keeps_run l st p e0 s G Hs K T) as [e [G' [C S]]].
  destruct (snd (filer_find now (fst (filer_run st l)) p)) as [x|] eqn:F; [|reflexivity].
  apply filer_find_window in F. destruct F as [Gx W].
  assert (x = e) by congruence. subst x. rewrite C, S in W. lia.
Qed.

(* until Crtime + s it stays visible: nothing removes it early *)
Theorem filer_life_not_shortened : forall l st p e0 s now,
  fs_get st p = Some e0 -> fe_ttl e0 = s ->
  forallb (fun to => fop_keeps p s (snd to)) l = true ->
  forallb (fun to => fst to <=? (fe_crtime e0 + Z.to_N s) * NS) l = true ->
  now <= (fe_crtime e0 + Z.to_N s) * NS ->
  exists e, snd (filer_find now (fst (filer_run st l)) p) = Some e /\ fe_crtime e = fe_crtime e0.
Proof.
  intros l st p e0 s now G Hs K T Hnow.
  destruct (keeps_run l st p e0 s G Hs K T) as [e [G' [C S]]].
  exists e. split; [|exact C].
  apply filer_find_window. split; [exact G'|]. right. rewrite C, S. exact Hnow.
Qed.

Lemma chunk_outlives_readable : forall now c s n,
  chunk_outlives c s n = true -> entry_visible now c s = true -> read_visible now n = true.
Proof.
  intros now c s n O V. rewrite read_visible_spec.
  unfold chunk_outlives in O. destruct (expiring n); simpl in *; auto.
  apply andb_true_iff in O. destruct O as [Hs Hd].
  apply entry_visible_spec in V. apply N.ltb_lt in Hd. apply N.ltb_lt. lia.
Qed.

(* sufficient: the chunk's TTL covers TtlSec and it was appended after the second the
   entry's Crtime was truncated to *)
Lemma chunk_outlives_sufficient : forall c s n,
  (0 < s)%Z -> (s <= 60 * Z.of_N (minutes (n_ttl n)))%Z -> c * NS < append_at_ns n ->
  chunk_outlives c s n = true.
Proof.
  intros c s n Hs Hc Ha. unfold chunk_outlives.
  destruct (expiring n); simpl; auto.
  apply andb_true_iff. split; [lia|]. apply N.ltb_lt. unfold read_deadline, MIN_NS, NS in *. lia.
Qed.

Definition fs_all_safe (tab : N -> needle) (st : fstore) : Prop :=
  forall q e, In (q, e) st -> fe_safe tab e = true.

Lemma in_fs_put : forall st p e q x, In (q, x) (fs_put st p e) -> (q, x) = (p, e) \/ In (q, x) st.
Proof.
  induction st as [|[k y] r IH]; intros p e q x H; simpl in *.
  - destruct H as [H|[]]. left; auto.
  - destruct (p =? k).
    + destruct H as [H|H]; [left; auto|right; right; exact H].
    + destruct (p <? k).
      * destruct H as [H|H]; [left; auto|right; exact H].
      * destruct H as [H|H]; [right; left; exact H|].
        destruct (IH _ _ _ _ H); [left; auto|right; right; auto].
Qed.

Lemma safe_put : forall tab st p e, fs_all_safe tab st -> fe_safe tab e = true -> fs_all_safe tab (fs_put st p e).
Proof.
  intros tab st p e A S q x H. destruct (in_fs_put _ _ _ _ _ H) as [E|I].
  - inversion E; subst; exact S.
  - apply (A q); exact I.
Qed.

Lemma safe_filter : forall tab st f, fs_all_safe tab st -> fs_all_safe tab (filter f st).
Proof. intros tab st f A q x H. apply filter_In in H. apply (A q). apply H. Qed.

Lemma safe_find : forall tab now st p, fs_all_safe tab st -> fs_all_safe tab (fst (filer_find now st p)).
Proof.
  intros tab now st p A. unfold filer_find.
  destruct (fs_get st p) as [x|]; simpl; auto.
  destruct (fe_visible now x); simpl; auto. apply safe_filter; exact A.
Qed.

Lemma safe_step : forall tab now st o,
  fs_all_safe tab st ->
  match fop_stored now st o with Some e => fe_safe tab e = true | None => True end ->
  fs_all_safe tab (fst (filer_step now st o)).
Proof.
  intros tab now st o A S.
  destruct o as [q e1|q e1 excl|q e1|q| |q]; simpl in *.
  1: apply safe_put; assumption.
  4, 5: apply safe_filter; exact A.
  (* create, update, find: the store the lookup leaves is safe, then at most one put *)
  all: pose proof (safe_find tab now st q A) as A1;
       destruct (filer_find now st q) as [st1 [oe|]]; try destruct excl; simpl in *.
  all: auto using safe_put.
Qed.

Lemma safe_run : forall tab l st,
  fs_all_safe tab st -> filer_run_safe tab st l = true -> fs_all_safe tab (fst (filer_run st l)).
Proof.
  induction l as [|[t o] r IH]; intros st A S; simpl in *; auto.
  apply andb_true_iff in S. destruct S as [S1 S2].
  pose proof (filer_run_fst_cons st t o r) as E. simpl in E. rewrite E.
  apply IH; auto. apply safe_step; auto.
  destruct (fop_stored t st o); auto.
Qed.

Lemma safe_run_readable : forall tab l now q e,
  filer_run_safe tab [] l = true ->
  In (q, e) (fst (filer_run [] l)) -> fe_visible now e = true ->
  forall c, In c (fe_chunks e) -> read_visible now (tab c) = true.
Proof.
  intros tab l now q e S I V c Hc.
  assert (Sf : fe_safe tab e = true).
  { apply (safe_run tab l [] (fun _ _ H => match H with end) S q e I). }
  unfold fe_safe in Sf. rewrite forallb_forall in Sf.
  apply (chunk_outlives_readable now (fe_crtime e) (fe_ttl e)); auto.
Qed.

(* Over every history of creates, updates, raw inserts, deletes, lookups and listings,
   at any clocks: if every write leaves an entry whose chunks outlive it, then whenever
   a lookup returns an entry, every chunk it points at can be read at that instant. *)
Theorem filer_history_safe : forall tab l now p e,
  filer_run_safe tab [] l = true ->
  snd (filer_find now (fst (filer_run [] l)) p) = Some e ->
  forall c, In c (fe_chunks e) -> read_visible now (tab c) = true.
Proof.
  intros tab l now p e S F. apply filer_find_window in F. destruct F as [G W].
  apply (safe_run_readable tab l now p e S (fs_get_in _ _ _ G)).
  apply entry_visible_spec. exact W.
Qed.

(* the same for a listing *)
Theorem filer_history_safe_list : forall tab l now q e,
  filer_run_safe tab [] l = true ->
  In (q, e) (fs_expire now (fst (filer_run [] l))) ->
  forall c, In c (fe_chunks e) -> read_visible now (tab c) = true.
Proof.
  intros tab l now q e S I. apply filter_In in I. destruct I as [I V].
  exact (safe_run_readable tab l now q e S I V).
Qed.

(* the stamp of a volume after a list of uploads: raised to the largest LastModified *)
Definition uploads_stamp (t0 : N) (us : list upload) : N :=
  fold_left (fun s u => vol_stamp_after_write s
               (last_modified (create_needle (u_req_ttl u) (u_ts u) (u_parse_s u)))) us t0.

Definition volume_of_uploads (vttl : string) (t0 size limit : N) (ioerr : bool) (us : list upload) : volume :=
  {| v_ttl := read_ttl vttl; v_last_mod := uploads_stamp t0 us;
     v_size := size; v_limit := limit; v_io_error := ioerr |}.

(* per needle: the exact sets of c09_compaction_early_iff / c09_expiry_early_iff *)
Definition uploads_trigger (vttl : string) (v : volume) (us : list upload) : bool :=
  existsb (fun u => compaction_early (read_ttl vttl) (stored_of u) || expiry_early v (stored_of u)) us.

Theorem volume_not_removed_early_partial : forall vttl t0 size limit ioerr us,
  let v := volume_of_uploads vttl t0 size limit ioerr us in
  uploads_trigger vttl v us = false ->
  forall u now, In u us -> read_visible now (stored_of u) = true ->
    compaction_keeps (now / NS) (read_ttl vttl) (stored_of u) = true /\
    volume_deleted (now / NS) v = false.
Proof.
  intros vttl t0 size limit ioerr us v T u now I. apply (proj1 (removed_early_exact _ _ _)).
  destruct (compaction_early (read_ttl vttl) (stored_of u) || expiry_early v (stored_of u)) eqn:E; [|reflexivity].
  rewrite <- T. symmetry. apply existsb_exists. exists u. auto.
Qed.

(* the trigger is exact per needle: a needle inside it is removed while readable *)
Theorem volume_removed_early_in_trigger : forall vttl v us,
  uploads_trigger vttl v us = true ->
  exists u now, In u us /\ read_visible now (stored_of u) = true /\
    (compaction_keeps (now / NS) (read_ttl vttl) (stored_of u) = false \/ volume_deleted (now / NS) v = true).
Proof.
  intros vttl v us T. unfold uploads_trigger in T. apply existsb_exists in T.
  destruct T as [u [I H]]. apply orb_true_iff in H. destruct H as [H|H].
  - apply compaction_early_iff in H. destruct H as [now [R K]]. exists u, now. auto.
  - apply expiry_early_iff in H. destruct H as [now [R K]]. exists u, now. auto.
Qed.

(* non-vacuity and the multi-step shape: created at T0 with TtlSec 60, appended to 57 s
   later (Mtime moves, Crtime stays), visible at T0+60, gone at T0+61.5 *)
Definition ex_tab (c : N) : needle :=
  if c =? 0 then chunk_of 60 T0 (T0 * NS + 1) else chunk_of 60 (T0 + 57) ((T0 + 57) * NS + 5).
Definition ex_e0 : fentry := {| fe_crtime := T0; fe_mtime := T0; fe_ttl := 60; fe_chunks := [0] |}.
Definition ex_e1 : fentry := {| fe_crtime := T0 + 57; fe_mtime := T0 + 57; fe_ttl := 60; fe_chunks := [0; 1] |}.
Definition ex_hist : list (N * fop) :=
  [(T0 * NS + 7, FCreate 3 ex_e0 false); ((T0 + 57) * NS + 9, FCreate 3 ex_e1 false)].

Lemma filer_history_example :
  filer_run_safe ex_tab [] ex_hist = true /\
  snd (filer_find ((T0 + 60) * NS) (fst (filer_run [] ex_hist)) 3) =
    Some {| fe_crtime := T0; fe_mtime := T0 + 57; fe_ttl := 60; fe_chunks := [0; 1] |} /\
  snd (filer_find ((T0 + 61) * NS + 500000000) (fst (filer_run [] ex_hist)) 3) = None /\
  read_visible ((T0 + 61) * NS + 500000000) (ex_tab 0) = false.
Proof. vm_compute. repeat split. Qed.

(* inside the last k nanoseconds of [visible_entry_chunk_bound] the visible entry does point at expired data,
   even for an exactly representable TtlSec: TtlSec 60, chunk appended 5 ms before Crtime *)
Lemma visible_entry_chunk_uploaded_first :
  exists s crtime p a now, (0 < s < 2^31)%Z /\ ttl_covers (filer_volume_ttl s) s = true /\
    p * NS <= a /\ a < crtime * NS /\ crtime * NS <= a + 5000000 /\
    entry_visible now crtime s = true /\ read_visible now (chunk_of s p a) = false.
Proof.
  exists 60%Z, T0, (T0 - 1), (T0 * NS - 5000000), ((T0 + 60) * NS - 1000000).
  vm_compute. repeat split; discriminate.
Qed.

(* two of the Examples of props/C09.v (about uploads and SecondsToTTL) *)
Lemma not_removed_early_example :
  let u := {| u_vttl := "3d"; u_req_ttl := ""; u_ts := 0; u_t0_s := T0; u_parse_s := T0 + 5;
              u_append_ns := (T0 + 5) * NS; u_size := 4096; u_limit := 2^30; u_io_error := false |} in
  upload_ordered u = true /\ upload_trigger u = false /\ expiring (stored_of u) = true /\
  read_visible ((T0 + 2 * 86400) * NS) (stored_of u) = true /\
  compaction_keeps (T0 + 2 * 86400) (read_ttl "3d") (stored_of u) = true /\
  read_visible ((T0 + 5 + 3 * 86400) * NS) (stored_of u) = false /\
  volume_deleted (T0 + 4 * 86400) (volume_of u) = true.
Proof. vm_compute. repeat split. Qed.

Lemma filer_example :
  filer_volume_ttl 7200 = {| t_count := 2; t_unit := 2 |} /\ ttl_covers (filer_volume_ttl 7200) 7200 = true /\
  filer_volume_ttl 31104000 = {| t_count := 12; t_unit := 5 |} /\
  seconds_to_ttl 90 = "1m"%string /\ seconds_to_ttl 15360 = "4h"%string /\ seconds_to_ttl 30 = "0m"%string.
Proof. vm_compute. repeat split. Qed.
