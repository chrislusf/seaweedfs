(* Proofs about model/VidMap.v (C35).
   (1) Every update acts on the list a volume's slice denotes as [list_step] does, in the
   cache ([view_apply], under [wf]: slices lie in the heap and distinct volumes own distinct
   arrays) and in the reference ([r_find_apply]): so the cache holds the reference's lists
   ([sim], [view_is_reference]).  (2) No update writes a cell denoted by a slice header
   that was handed out ([held], [apply_frame]): snapshots are stable, and a lookup that
   reads its slice late answers as the atomic one.  (3) The reference's lists on the
   history alone ([live]). *)
From Coq Require Import String List NArith ZArith Bool Arith Lia Permutation.
From SW Require Import proof.ListFacts model.VidMap.
Import ListNotations.
Local Open Scope string_scope.
Local Open Scope list_scope.

Lemma set_nth_length : forall {A} i (x : A) l, length (set_nth i x l) = length l.
Proof. induction i as [|i IH]; intros x [|y l]; simpl; auto. Qed.

Lemma nth_set_nth_same : forall {A} i (x d : A) l, i < length l -> nth i (set_nth i x l) d = x.
Proof.
  induction i as [|i IH]; intros x d [|y l] H; simpl in *; try lia; auto.
  apply IH. lia.
Qed.

Lemma nth_set_nth_other : forall {A} i j (x d : A) l, i <> j -> nth j (set_nth i x l) d = nth j l d.
Proof.
  induction i as [|i IH]; intros j x d [|y l] H; simpl; auto.
  - destruct j; [congruence|reflexivity].
  - destruct j; auto.
Qed.

Lemma firstn_set_nth_ge : forall {A} n i (x : A) l, n <= i -> firstn n (set_nth i x l) = firstn n l.
Proof.
  induction n as [|n IH]; intros i x l H; [reflexivity|].
  destruct i as [|i]; [lia|]. destruct l as [|y l]; simpl; auto.
  f_equal. apply IH. lia.
Qed.

Lemma firstn_S_set_nth : forall {A} i (x : A) l, i < length l ->
  firstn (S i) (set_nth i x l) = firstn i l ++ [x].
Proof.
  induction i as [|i IH]; intros x [|y l] H; simpl in *; try lia; auto.
  f_equal. apply IH. lia.
Qed.

Lemma firstn_snoc_pad : forall {A} (a : list A) x pad n, length a = n ->
  firstn (S n) (a ++ x :: pad) = a ++ [x].
Proof.
  intros A a x pad n H. change (a ++ x :: pad) with (a ++ [x] ++ pad). rewrite app_assoc.
  apply firstn_app_exact. rewrite app_length. simpl. lia.
Qed.

Lemma map_nth_seq : forall {A} (l : list A) d, map (fun i => nth i l d) (seq 0 (length l)) = l.
Proof.
  induction l as [|x l IH]; intro d; simpl; auto. f_equal.
  rewrite <- seq_shift, map_map. exact (IH d).
Qed.

(* vid2Locations and the reference map are association lists in which the first binding wins *)
Section Assoc.
  Context {V : Type}.
  Fixpoint afind (v : N) (m : list (N * V)) : option V :=
    match m with
    | [] => None
    | (w, s) :: m' => if N.eqb v w then Some s else afind v m'
    end.
  Definition drop_key (v : N) (m : list (N * V)) := filter (fun e => negb (N.eqb v (fst e))) m.

  Lemma afind_drop : forall v w m, afind w (drop_key v m) = if N.eqb w v then None else afind w m.
  Proof.
    intros v w m. unfold drop_key. induction m as [|[x sx] m IH]; simpl; [now destruct (N.eqb w v)|].
    destruct (N.eqb_spec v x) as [<-|E1]; simpl; rewrite IH; [now destruct (N.eqb w v)|].
    destruct (N.eqb_spec w x) as [->|E2]; [|reflexivity]. now destruct (N.eqb_spec x v); [subst|].
  Qed.

  Lemma afind_put : forall v w s m,
    afind w ((v, s) :: drop_key v m) = if N.eqb w v then Some s else afind w m.
  Proof. intros; simpl. rewrite afind_drop. now destruct (N.eqb w v). Qed.
End Assoc.

(* find_vid / r_find are [afind], put_vid / r_put and del_vid / r_remove its updates *)
Lemma find_put : forall v w s m, find_vid w (put_vid v s m) = if N.eqb w v then Some s else find_vid w m.
Proof. exact (@afind_put slice). Qed.
Lemma find_del : forall v w m, find_vid w (del_vid v m) = if N.eqb w v then None else find_vid w m.
Proof. exact (@afind_drop slice). Qed.
Lemma r_find_put : forall v w ls r, r_find w (r_put v ls r) = if N.eqb w v then Some ls else r_find w r.
Proof. exact (@afind_put (list loc)). Qed.
Lemma r_find_remove : forall v w r, r_find w (r_remove v r) = if N.eqb w v then None else r_find w r.
Proof. exact (@afind_drop (list loc)). Qed.

Arguments put_vid : simpl never.
Arguments del_vid : simpl never.
Arguments r_put : simpl never.
Arguments r_remove : simpl never.
Arguments grow : simpl never.

(* the slice lies in the heap, len <= cap, and its array has cap cells *)
Definition ok_slice (h : list (list loc)) (s : slice) : Prop :=
  s_arr s < length h /\ s_len s <= s_cap s /\ length (nth (s_arr s) h []) = s_cap s.

(* every slice of the map is ok, and two volumes never share an array *)
Definition wf (m : vmap) : Prop :=
  (forall v s, find_vid v (v2l m) = Some s -> ok_slice (heap m) s) /\
  (forall v w s1 s2, find_vid v (v2l m) = Some s1 -> find_vid w (v2l m) = Some s2 ->
                     s_arr s1 = s_arr s2 -> v = w).

Lemma wf_new : forall h d, wf (new_vid_map h d).
Proof. intros h d. split; simpl; intros; discriminate. Qed.

Lemma cells_length : forall h s, ok_slice h s -> length (cells h s) = s_len s.
Proof. intros h s [H1 [H2 H3]]. unfold cells. rewrite firstn_length. lia. Qed.

(* volume v gets a fresh array: first location, append beyond the capacity, delete *)
Definition alloc (m : vmap) (v : N) (arr : list loc) (len cap : nat) : vmap :=
  {| heap := heap m ++ [arr];
     v2l := put_vid v {| s_arr := length (heap m); s_len := len; s_cap := cap |} (v2l m);
     data_center := data_center m |}.
Definition add_inplace (m : vmap) (v : N) (l : loc) (s : slice) : vmap :=
  {| heap := set_nth (s_arr s) (set_nth (s_len s) l (nth (s_arr s) (heap m) [])) (heap m);
     v2l := put_vid v {| s_arr := s_arr s; s_len := S (s_len s); s_cap := s_cap s |} (v2l m);
     data_center := data_center m |}.
Definition cut (i : nat) (cs : list loc) : list loc := firstn i cs ++ skipn (S i) cs.
Arguments cut : simpl never.
Definition del_last (m : vmap) (v : N) : vmap :=
  {| heap := heap m; v2l := del_vid v (v2l m); data_center := data_center m |}.

Inductive add_case (m : vmap) (v : N) (l : loc) : vmap -> Prop :=
| AddFresh : find_vid v (v2l m) = None -> add_case m v l (alloc m v [l] 1 1)
| AddDup : forall s, find_vid v (v2l m) = Some s -> has_url (url l) (cells (heap m) s) = true ->
    add_case m v l m
| AddInplace : forall s, find_vid v (v2l m) = Some s -> has_url (url l) (cells (heap m) s) = false ->
    s_len s < s_cap s -> add_case m v l (add_inplace m v l s)
| AddGrow : forall s, find_vid v (v2l m) = Some s -> has_url (url l) (cells (heap m) s) = false ->
    s_cap s <= s_len s ->
    add_case m v l (alloc m v (cells (heap m) s ++ [l] ++ repeat zero_loc (grow (s_cap s) - S (s_len s)))
                          (S (s_len s)) (grow (s_cap s))).

Lemma add_cases : forall m v l, add_case m v l (add_location m v l).
Proof.
  intros m v l. unfold add_location.
  destruct (find_vid v (v2l m)) as [s|] eqn:F.
  - destruct (has_url (url l) (cells (heap m) s)) eqn:H.
    + eapply AddDup; eauto.
    + destruct (Nat.ltb_spec (s_len s) (s_cap s)).
      * apply AddInplace; auto.
      * apply AddGrow; auto.
  - apply AddFresh; auto.
Qed.

Inductive del_case (m : vmap) (v : N) (l : loc) : vmap -> Prop :=
| DelNoVid : find_vid v (v2l m) = None -> del_case m v l m
| DelNoUrl : forall s, find_vid v (v2l m) = Some s ->
    index_of_url (url l) (cells (heap m) s) = None -> del_case m v l m
| DelLast : forall s i, find_vid v (v2l m) = Some s ->
    index_of_url (url l) (cells (heap m) s) = Some i -> s_len s = 1 -> del_case m v l (del_last m v)
| DelAt : forall s i, find_vid v (v2l m) = Some s ->
    index_of_url (url l) (cells (heap m) s) = Some i -> s_len s <> 1 ->
    del_case m v l (alloc m v (cut i (cells (heap m) s)) (s_len s - 1) (s_len s - 1)).

Lemma del_cases : forall m v l, del_case m v l (delete_location m v l).
Proof.
  intros m v l. unfold delete_location.
  destruct (find_vid v (v2l m)) as [s|] eqn:F.
  - destruct (index_of_url (url l) (cells (heap m) s)) as [i|] eqn:I.
    + destruct (Nat.eqb_spec (s_len s) 1) as [E|E].
      * eapply DelLast; eauto.
      * apply DelAt; auto.
    + eapply DelNoUrl; eauto.
  - apply DelNoVid; auto.
Qed.

Lemma index_of_url_spec : forall u ls,
  match index_of_url u ls with
  | Some i => i < length ls /\ has_url u ls = true /\ remove_url u ls = firstn i ls ++ skipn (S i) ls
  | None => has_url u ls = false /\ remove_url u ls = ls
  end.
Proof.
  intros u ls. induction ls as [|l ls IH]; simpl; auto.
  destruct (String.eqb (url l) u) eqn:E; simpl.
  - repeat split; auto. lia.
  - destruct (index_of_url u ls) as [i|]; simpl.
    + destruct IH as [H1 [H2 H3]]. repeat split; auto; try lia. rewrite H3. reflexivity.
    + destruct IH as [H1 H2]. split; auto. rewrite H2. reflexivity.
Qed.

Lemma cut_length : forall i (cs : list loc), i < length cs ->
  length (cut i cs) = length cs - 1.
Proof. intros i cs H. unfold cut. rewrite app_length, firstn_length, skipn_length. lia. Qed.

(* a header [hd] of volume v is "held safely" when its array is in the heap and whoever
   owns that array now is v itself, with at least as many elements *)
Definition held (m : vmap) (v : N) (hd : slice) : Prop :=
  s_arr hd < length (heap m) /\
  forall w s, find_vid w (v2l m) = Some s -> s_arr s = s_arr hd -> w = v /\ s_len hd <= s_len s.

Lemma held_current : forall m v s, wf m -> find_vid v (v2l m) = Some s -> held m v s.
Proof.
  intros m v s [W1 W2] F. split; [apply (W1 v s F)|]. intros w s' F' E.
  assert (w = v) by (eapply W2; eauto). subst w. rewrite F in F'. now inversion F'.
Qed.

(* NO update touches the cells a held header denotes: appends write behind them
   or into a fresh array, deletes build a fresh array, a reset drops the map *)
Lemma alloc_frame : forall m w arr len cap v hd, held m v hd ->
  cells (heap (alloc m w arr len cap)) hd = cells (heap m) hd /\ held (alloc m w arr len cap) v hd.
Proof.
  intros m w arr len cap v hd [Ha Hown]. unfold held, cells; cbn. rewrite app_nth1 by auto.
  split; [reflexivity|]. split; [rewrite app_length; cbn; lia|].
  intros x sx. rewrite find_put. destruct (N.eqb x w); [|apply Hown].
  intros Fx E. inversion Fx; subst sx. cbn in E. lia.
Qed.

Lemma apply_frame : forall m e v hd, wf m -> held m v hd ->
  cells (heap (apply m e)) hd = cells (heap m) hd /\ held (apply m e) v hd.
Proof.
  intros m e v hd W Hh. pose proof Hh as [Ha Hown]. pose proof W as [W1 W2].
  destruct e as [w l|w l|]; cbn.
  - destruct (add_cases m w l) as [F|s F D|s F D Hlt|s F D Hge]; auto using alloc_frame.
    (* in place: the written cell lies behind the held ones *)
    destruct (W1 w s F) as [Hs1 [Hs2 Hs3]]. unfold held, add_inplace, cells; cbn. split; [|split].
    + destruct (Nat.eq_dec (s_arr s) (s_arr hd)) as [E|E]; [|now rewrite nth_set_nth_other].
      rewrite <- E, nth_set_nth_same by auto. apply firstn_set_nth_ge. now apply (Hown w s).
    + now rewrite set_nth_length.
    + intros x sx. rewrite find_put. destruct (N.eqb_spec x w) as [->|_]; [|apply Hown].
      intros Fx E. inversion Fx; subst sx. cbn in E. destruct (Hown w s F E). split; [assumption|cbn; lia].
  - destruct (del_cases m w l) as [F|s F I|s i F I L1|s i F I L1]; auto using alloc_frame.
    (* the entry goes: the heap is untouched *)
    split; [reflexivity|]. split; [exact Ha|]. cbn. intros x sx. rewrite find_del.
    destruct (N.eqb x w); [discriminate|apply Hown].
  - split; [reflexivity|]. split; [exact Ha|]. cbn. intros; discriminate.
Qed.

Definition view_list (m : vmap) (v : N) : list loc := match view m v with Some ls => ls | None => [] end.

Lemma alloc_wf : forall m v arr len cap, wf m -> length arr = cap -> len <= cap ->
  wf (alloc m v arr len cap).
Proof.
  intros m v arr len cap [W1 W2] Hc Hl. split; cbn.
  - intros x sx. rewrite find_put. destruct (N.eqb x v); intros Fx.
    + inversion Fx; subst sx. unfold ok_slice; cbn. rewrite app_length, nth_middle. cbn. lia.
    + destruct (W1 x sx Fx) as [A [B C]]. unfold ok_slice. rewrite app_length, app_nth1 by auto. cbn. lia.
  - intros x y s1 s2. rewrite !find_put.
    destruct (N.eqb_spec x v) as [->|E1], (N.eqb_spec y v) as [->|E2]; intros Fx Fy Ea; auto.
    + inversion Fx; subst s1. cbn in Ea. destruct (W1 y s2 Fy). lia.
    + inversion Fy; subst s2. cbn in Ea. destruct (W1 x s1 Fx). lia.
    + eauto.
Qed.

Lemma apply_wf : forall m e, wf m -> wf (apply m e).
Proof.
  intros m e W. pose proof W as [W1 W2]. destruct e as [w l|w l|]; cbn.
  - destruct (add_cases m w l) as [F|s F D|s F D Hlt|s F D Hge]; auto.
    + now apply alloc_wf.
    + destruct (W1 w s F) as [Hs1 [Hs2 Hs3]]. split; cbn.
      * intros x sx. rewrite find_put. destruct (N.eqb_spec x w) as [->|E]; intros Fx.
        -- inversion Fx; subst. unfold ok_slice; cbn.
           rewrite set_nth_length, nth_set_nth_same, set_nth_length by auto. lia.
        -- destruct (W1 x sx Fx) as [A [B C]].
           assert (s_arr s <> s_arr sx) by (intro Hc; apply E; eapply W2; eauto).
           unfold ok_slice. rewrite set_nth_length, nth_set_nth_other by auto. lia.
      * intros x y s1 s2. rewrite !find_put.
        destruct (N.eqb_spec x w) as [->|E1], (N.eqb_spec y w) as [->|E2]; intros Fx Fy Ea; auto.
        -- inversion Fx; subst s1. cbn in Ea. eapply W2; eauto.
        -- inversion Fy; subst s2. cbn in Ea. eapply W2; eauto.
        -- eauto.
    + destruct (W1 w s F) as [Hs1 [Hs2 Hs3]]. apply alloc_wf; [exact W| |unfold grow; destruct (s_cap s); lia].
      rewrite !app_length, repeat_length, cells_length by (split; auto). cbn.
      unfold grow. destruct (s_cap s); lia.
  - destruct (del_cases m w l) as [F|s F I|s i F I L1|s i F I L1]; auto.
    + split; cbn.
      * intros x sx. rewrite find_del. destruct (N.eqb x w); [discriminate|apply W1].
      * intros x y s1 s2. rewrite !find_del. destruct (N.eqb x w), (N.eqb y w); try discriminate. apply W2.
    + pose proof (index_of_url_spec (url l) (cells (heap m) s)) as Sp. rewrite I in Sp.
      destruct Sp as [Hi _]. apply alloc_wf; [exact W| |lia].
      rewrite cut_length by exact Hi. now rewrite cells_length by (apply (W1 w s F)).
  - apply wf_new.
Qed.

(* what an update does to the list of volume v, in the cache and in the reference alike *)
Definition list_step (e : ev) (v : N) (o : option (list loc)) : option (list loc) :=
  match e with
  | EvAdd w l =>
      if N.eqb v w
      then Some (match o with Some ls => if has_url (url l) ls then ls else ls ++ [l] | None => [l] end)
      else o
  | EvDel w l =>
      if N.eqb v w
      then match o with
           | Some ls => if has_url (url l) ls
                        then match remove_url (url l) ls with [] => None | ls' => Some ls' end
                        else o
           | None => None
           end
      else o
  | EvReset => None
  end.

Lemma r_find_apply : forall r e v, r_find v (r_apply r e) = list_step e v (r_find v r).
Proof.
  intros r [w l|w l|] v; simpl; [unfold r_add|unfold r_del|reflexivity];
    destruct (N.eqb_spec v w) as [->|E].
  (* each branch of r_add / r_del is r_put, r_remove or the identity at key w *)
  - destruct (r_find w r) as [ls|] eqn:F; [destruct (has_url (url l) ls)|];
      rewrite ?r_find_put, ?N.eqb_refl; auto.
  - (* another volume: untouched *)
    apply N.eqb_neq in E.
    destruct (r_find w r) as [ls|]; [destruct (has_url (url l) ls)|]; now rewrite ?r_find_put, ?E.
  - destruct (r_find w r) as [ls|] eqn:F; [destruct (has_url (url l) ls); [destruct (remove_url (url l) ls)|]|];
      rewrite ?r_find_put, ?r_find_remove, ?N.eqb_refl; auto.
  - (* another volume: untouched *)
    apply N.eqb_neq in E.
    destruct (r_find w r) as [ls|]; [destruct (has_url (url l) ls); [destruct (remove_url (url l) ls)|]|];
      now rewrite ?r_find_put, ?r_find_remove, ?E.
Qed.

Lemma view_alloc : forall m v arr len cap, view (alloc m v arr len cap) v = Some (firstn len arr).
Proof.
  intros. unfold view, get_locations, alloc; cbn. rewrite find_put, N.eqb_refl. cbn.
  unfold cells; cbn. now rewrite nth_middle.
Qed.

Lemma view_apply : forall m e v, wf m -> view (apply m e) v = list_step e v (view m v).
Proof.
  intros m e v W. pose proof W as [W1 W2].
  (* a volume whose slice header the update keeps: its cells are untouched (frame) *)
  assert (Hother : find_vid v (v2l (apply m e)) = find_vid v (v2l m) -> view (apply m e) v = view m v).
  { intros Fv. unfold view, get_locations. rewrite Fv.
    destruct (find_vid v (v2l m)) as [s|] eqn:F; cbn; [|reflexivity].
    f_equal. apply (apply_frame m e v s); auto using held_current. }
  destruct e as [w l|w l|]; [| |reflexivity]; cbn [list_step];
    (destruct (N.eqb_spec v w) as [->|E];
     [|apply Hother; apply N.eqb_neq in E; cbn]).
  - (* add, the volume itself *)
    unfold view at 2, get_locations. cbn [apply].
    destruct (add_cases m w l) as [F|s F D|s F D Hlt|s F D Hge]; rewrite F; cbn [option_map]; rewrite ?D.
    + apply view_alloc.
    + unfold view, get_locations. now rewrite F.
    + unfold view, get_locations, add_inplace; cbn. rewrite find_put, N.eqb_refl. cbn. f_equal.
      destruct (W1 w s F) as [Hs1 [Hs2 Hs3]]. unfold cells; cbn. rewrite nth_set_nth_same by auto.
      apply firstn_S_set_nth. lia.
    + rewrite view_alloc. f_equal. apply firstn_snoc_pad. apply cells_length, (W1 w s F).
  - (* add, another volume *)
    destruct (add_cases m w l); cbn; now rewrite ?find_put, ?E.
  - (* delete, the volume itself *)
    unfold view at 2, get_locations. cbn [apply].
    destruct (del_cases m w l) as [F|s F I|s i F I L1|s i F I L1]; rewrite F; cbn [option_map];
      try (pose proof (index_of_url_spec (url l) (cells (heap m) s)) as Sp; rewrite I in Sp).
    + unfold view, get_locations. now rewrite F.
    + destruct Sp as [-> _]. unfold view, get_locations. now rewrite F.
    + destruct Sp as [Hi [-> Hr]]. unfold view, get_locations, del_last; cbn. rewrite find_del, N.eqb_refl. cbn.
      pose proof (cut_length i _ Hi) as Lc. rewrite cells_length in Lc by (apply (W1 w s F)).
      unfold cut in Lc. rewrite <- Hr in Lc. destruct (remove_url _ _); [reflexivity|cbn in Lc; lia].
    + destruct Sp as [Hi [-> Hr]]. rewrite view_alloc.
      pose proof (cut_length i _ Hi) as Lc. pose proof (cells_length _ _ (W1 w s F)) as Ls.
      fold (cut i (cells (heap m) s)) in Hr. rewrite Hr, firstn_all2 by lia.
      destruct (cut i (cells (heap m) s)); [cbn in Lc; lia|reflexivity].
  - (* delete, another volume *)
    destruct (del_cases m w l); cbn; now rewrite ?find_put, ?find_del, ?E.
Qed.

(* the refinement relation: every volume's slice denotes the reference list *)
Definition sim (m : vmap) (r : rmap) : Prop := wf m /\ forall v, view m v = r_find v r.

Lemma apply_sim : forall m r e, sim m r -> sim (apply m e) (r_apply r e).
Proof.
  intros m r e [W V]. split; [now apply apply_wf|]. intros v. now rewrite view_apply, r_find_apply, V.
Qed.

Lemma init_sim : forall d, sim (init d) [].
Proof. intro d. split; [apply wf_new|reflexivity]. Qed.

Lemma run_sim : forall evs m r, sim m r -> sim (run m evs) (r_run r evs).
Proof.
  induction evs as [|e evs IH]; intros m r S; simpl; auto.
  apply IH. apply apply_sim. auto.
Qed.

(* the cache holds exactly the reference's lists, for every history *)
Theorem view_is_reference : forall d evs v,
  view (run (init d) evs) v = r_find v (r_run [] evs).
Proof. intros. apply run_sim. apply init_sim. Qed.

Lemma apply_dc : forall m e, data_center (apply m e) = data_center m.
Proof.
  intros m [w l|w l|]; simpl; auto.
  - destruct (add_cases m w l); reflexivity.
  - destruct (del_cases m w l); reflexivity.
Qed.

Lemma run_dc : forall evs m, data_center (run m evs) = data_center m.
Proof.
  induction evs as [|e evs IH]; intros m; simpl; auto.
  rewrite IH. apply apply_dc.
Qed.

Theorem data_center_kept : forall d evs, data_center (run (init d) evs) = d.
Proof. intros. rewrite run_dc. reflexivity. Qed.

(* LookupVolumeServerUrl's ordering loop *)
Lemma order_locs_acc : forall d ls acc,
  fold_left (order_step d) ls acc =
  rev (filter (same_dc d) ls) ++ acc ++ filter (fun l => negb (same_dc d l)) ls.
Proof.
  induction ls as [|l ls IH]; intros acc; simpl.
  - rewrite app_nil_r. reflexivity.
  - rewrite IH. unfold order_step. destruct (same_dc d l); simpl.
    + rewrite <- app_assoc. reflexivity.
    + rewrite <- app_assoc. reflexivity.
Qed.

Lemma order_locs_spec : forall d ls,
  order_locs d ls = rev (filter (same_dc d) ls) ++ filter (fun l => negb (same_dc d l)) ls.
Proof. intros. unfold order_locs. rewrite order_locs_acc. reflexivity. Qed.

(* same data center first: the ordered list is its own-DC locations followed by the others *)
Lemma order_locs_split : forall d ls, exists a b,
  order_locs d ls = a ++ b /\ forallb (same_dc d) a = true /\
  forallb (fun l => negb (same_dc d l)) b = true /\ Permutation (order_locs d ls) ls.
Proof.
  intros d ls. rewrite order_locs_spec. eexists. eexists. split; [reflexivity|]. split; [|split].
  - apply forallb_forall. intros x Hx. apply in_rev in Hx. apply filter_In in Hx. tauto.
  - apply forallb_forall. intros x Hx. apply filter_In in Hx. tauto.
  - induction ls as [|x ls IH]; simpl; auto.
    destruct (same_dc d x); simpl.
    + rewrite <- app_assoc. simpl. eapply perm_trans; [apply Permutation_sym, Permutation_middle|].
      constructor. auto.
    + eapply perm_trans; [apply Permutation_sym, Permutation_middle|]. constructor. auto.
Qed.

(* the property's statement: ordered by the CLIENT's data center (the cache's own data center
   is the client's, whatever happened), for every history of notifications and lost connections *)
Theorem sequential_exact : forall d evs v,
  lookup_locs (run (init d) evs) v = r_lookup d (r_run [] evs) v.
Proof.
  intros d evs v. unfold lookup_locs, r_lookup. rewrite view_is_reference, data_center_kept.
  destruct (r_find v (r_run [] evs)); [|reflexivity]. now rewrite order_locs_spec.
Qed.

Lemma has_url_in : forall u ls, has_url u ls = true <-> In u (map url ls).
Proof.
  intros u ls. unfold has_url. rewrite existsb_exists. rewrite in_map_iff. split.
  - intros [l [H1 H2]]. apply String.eqb_eq in H2. eauto.
  - intros [l [H1 H2]]. exists l. split; auto. apply String.eqb_eq. auto.
Qed.

Lemma has_url_false : forall u ls, has_url u ls = false <-> ~ In u (map url ls).
Proof.
  intros. rewrite <- has_url_in. destruct (has_url u ls); split; intro H; auto; try discriminate.
  exfalso. apply H. reflexivity.
Qed.

Lemma remove_url_in : forall u ls x, In x (map url (remove_url u ls)) -> In x (map url ls).
Proof.
  induction ls as [|l ls IH]; simpl; auto. intros x H.
  destruct (String.eqb (url l) u); simpl in *; auto. destruct H; auto.
Qed.

Lemma remove_url_nodup : forall u ls, NoDup (map url ls) -> NoDup (map url (remove_url u ls)).
Proof.
  induction ls as [|l ls IH]; simpl; intro H; auto.
  inversion H as [|? ? Hn Hd]; subst.
  destruct (String.eqb (url l) u); simpl; auto.
  constructor; auto. intro Hin. apply Hn. eapply remove_url_in; eauto.
Qed.

Lemma find_url_none : forall u ls, find_url u ls = None <-> has_url u ls = false.
Proof.
  intros u ls. unfold find_url, has_url. induction ls as [|l ls IH]; simpl; [tauto|].
  destruct (String.eqb (url l) u); simpl; auto. split; discriminate.
Qed.

Lemma find_url_snoc : forall u ls l,
  find_url u (ls ++ [l]) =
  match find_url u ls with Some x => Some x | None => if String.eqb (url l) u then Some l else None end.
Proof.
  intros u ls l. unfold find_url. induction ls as [|x ls IH]; simpl; auto.
  destruct (String.eqb (url x) u); auto.
Qed.

Lemma find_url_remove : forall u u' ls, NoDup (map url ls) ->
  find_url u (remove_url u' ls) = if String.eqb u' u then None else find_url u ls.
Proof.
  induction ls as [|l ls IH]; simpl; intro H.
  - destruct (String.eqb u' u); reflexivity.
  - inversion H as [|? ? Hn Hd]; subst.
    destruct (String.eqb (url l) u') eqn:E1.
    + apply String.eqb_eq in E1. subst u'.
      destruct (String.eqb (url l) u) eqn:E2.
      * apply String.eqb_eq in E2. subst u.
        apply find_url_none. apply has_url_false. auto.
      * unfold find_url. simpl. try rewrite E2. reflexivity.
    + unfold find_url in *. simpl. destruct (String.eqb (url l) u) eqn:E2.
      * apply String.eqb_eq in E2. subst u.
        destruct (String.eqb u' (url l)) eqn:E3; auto.
        apply String.eqb_eq in E3. subst u'. rewrite String.eqb_refl in E1. discriminate.
      * apply IH. auto.
Qed.

Definition r_list (r : rmap) (v : N) : list loc := match r_find v r with Some ls => ls | None => [] end.
Definition lst (o : option (list loc)) : list loc := match o with Some ls => ls | None => [] end.

(* a list in either map has each Url once and is not empty *)
Definition list_good (o : option (list loc)) : Prop :=
  match o with Some ls => NoDup (map url ls) /\ ls <> [] | None => True end.

Lemma list_step_good : forall e v o, list_good o -> list_good (list_step e v o).
Proof.
  intros [w l|w l|] v o H; simpl; auto; destruct (N.eqb v w); auto; destruct o as [ls|]; simpl in *; auto.
  - destruct (has_url (url l) ls) eqn:D; [exact H|]. split.
    + rewrite map_app. apply (Permutation_NoDup (Permutation_cons_append _ _)).
      constructor; [now apply has_url_false|apply H].
    + intros Hc. apply app_eq_nil in Hc. now destruct Hc.
  - split; [constructor; [intros []|constructor]|discriminate].
  - destruct (has_url (url l) ls); [|exact H].
    destruct (remove_url (url l) ls) as [|x xs] eqn:Hrm; [exact I|].
    split; [|discriminate]. rewrite <- Hrm. apply remove_url_nodup, H.
Qed.

Lemma list_step_live : forall e v u o, list_good o ->
  find_url u (lst (list_step e v o)) = live_step v u (find_url u (lst o)) e.
Proof.
  intros [w l|w l|] v u o H; simpl; [| |reflexivity]; destruct (N.eqb v w); simpl; auto;
    destruct o as [ls|]; simpl.
  - destruct (has_url (url l) ls) eqn:D.
    + destruct (String.eqb (url l) u) eqn:E2; auto.
      apply String.eqb_eq in E2. subst u.
      destruct (find_url (url l) ls) eqn:Fu; auto. apply find_url_none in Fu. congruence.
    + rewrite find_url_snoc. destruct (find_url u ls); destruct (String.eqb (url l) u); auto.
  - unfold find_url. simpl. destruct (String.eqb (url l) u); reflexivity.
  - destruct (has_url (url l) ls) eqn:D.
    + pose proof (find_url_remove u (url l) ls (proj1 H)) as Hfr.
      destruct (remove_url (url l) ls); exact Hfr.
    + simpl. destruct (String.eqb (url l) u) eqn:E2; auto.
      apply String.eqb_eq in E2. subst u. now apply find_url_none.
  - now destruct (String.eqb (url l) u).
Qed.

Lemma r_run_spec : forall evs r v, list_good (r_find v r) ->
  list_good (r_find v (r_run r evs)) /\
  forall u, find_url u (r_list (r_run r evs) v) = fold_left (live_step v u) evs (find_url u (r_list r v)).
Proof.
  induction evs as [|e evs IH]; intros r v H; simpl; [auto|].
  destruct (IH (r_apply r e) v) as [G L]; [rewrite r_find_apply; now apply list_step_good|].
  split; [exact G|]. intros u. rewrite L. unfold r_list. rewrite r_find_apply. f_equal. now apply (list_step_live e v u).
Qed.

(* each Url at most once, and present exactly when currently added, with the
   location record of the notification that added it *)
Theorem locations_exact : forall d evs v,
  let ls := view_list (run (init d) evs) v in
  NoDup (map url ls) /\ forall u, find_url u ls = live v u evs.
Proof.
  intros d evs v ls. subst ls. unfold view_list. rewrite view_is_reference.
  destruct (r_run_spec evs [] v I) as [G L]. split; [|exact L].
  destruct (r_find v (r_run [] evs)); [apply G|constructor].
Qed.

(* "same data center first" read off the reference answer *)
Theorem same_dc_first : forall d r v ls, r_lookup d r v = Ok ls ->
  exists a b, ls = a ++ b /\ forallb (same_dc d) a = true /\ forallb (fun l => negb (same_dc d l)) b = true /\
              Permutation ls (r_list r v).
Proof.
  intros d r v ls H. unfold r_lookup, r_list in *. destruct (r_find v r) as [l0|]; [|discriminate].
  rewrite <- order_locs_spec in H. inversion H; subst. apply order_locs_split.
Qed.

Lemma run_frame : forall evs m v hd, wf m -> held m v hd ->
  cells (heap (run m evs)) hd = cells (heap m) hd.
Proof.
  induction evs as [|e evs IH]; intros m v hd W Hh; simpl; auto.
  destruct (apply_frame m e v hd W Hh) as [C Hh'].
  rewrite (IH (apply m e) v hd); auto using apply_wf.
Qed.

(* a slice handed out by GetLocations keeps denoting the list of the moment it was
   taken, whatever updates (adds, deletes, reconnects) follow, in any interleaving *)
Theorem snapshot_stable : forall d evs1 evs2 v hd,
  get_locations (run (init d) evs1) v = Some hd ->
  cells (heap (run (init d) (evs1 ++ evs2))) hd = cells (heap (run (init d) evs1)) hd.
Proof.
  intros d evs1 evs2 v hd G. unfold run at 1. rewrite fold_left_app. fold (run (init d) evs1).
  pose proof (run_sim evs1 _ _ (init_sim d)) as S.
  apply (run_frame evs2 _ v); [apply S|]. apply held_current; auto. apply S.
Qed.

(* the property's wording: what the reader sees later is the list of SOME state of
   the history (namely the state the slice was taken in) *)
Theorem snapshot_some_past_state : forall d evs1 evs2 v hd,
  get_locations (run (init d) evs1) v = Some hd ->
  exists k, k <= length (evs1 ++ evs2) /\
    view (run (init d) (firstn k (evs1 ++ evs2))) v
      = Some (cells (heap (run (init d) (evs1 ++ evs2))) hd).
Proof.
  intros d evs1 evs2 v hd G. exists (length evs1). split.
  - rewrite app_length. lia.
  - rewrite firstn_app, Nat.sub_diag, firstn_all. simpl. rewrite app_nil_r.
    rewrite (snapshot_stable d evs1 evs2 v hd G). unfold view. rewrite G. reflexivity.
Qed.

(* what an accepted string is *)
Lemma parse_uint32_sound : forall s v, parse_uint32 s = Some v ->
  s <> "" /\ digits s 0%N = Some v /\ (v < 4294967296)%N.
Proof.
  intros s v H. unfold parse_uint32 in H. destruct s as [|c s]; [discriminate|].
  destruct (digits (String c s) 0%N) as [n|] eqn:D; [|discriminate].
  destruct (N.ltb_spec n 4294967296); [|discriminate].
  inversion H; subst. repeat split; auto. discriminate.
Qed.

(* a string is answered only if it parses, and then with the locations of exactly
   the volume it denotes, which is a uint32 *)
Theorem lookup_by_string : forall m s us, lookup_volume_server_url m s = Ok us ->
  exists v ls, parse_uint32 s = Some v /\ (v < 4294967296)%N /\
               lookup_locs m v = Ok ls /\ us = map url ls.
Proof.
  intros m s us H. unfold lookup_volume_server_url in H.
  destruct (parse_uint32 s) as [v|] eqn:P; [|discriminate].
  destruct (lookup_locs m v) as [ls|e] eqn:L; [|discriminate].
  inversion H; subst. exists v, ls. repeat split; auto.
  apply (parse_uint32_sound s v P).
Qed.

Theorem lookup_by_string_rejects : forall m s, parse_uint32 s = None ->
  lookup_volume_server_url m s = Err ErrParse.
Proof. intros m s H. unfold lookup_volume_server_url. rewrite H. reflexivity. Qed.

Lemma parse_examples :
  parse_uint32 "4294967297" = None /\ parse_uint32 "4294967295" = Some 4294967295%N /\
  parse_uint32 "-1" = None /\ parse_uint32 "+2" = None /\ parse_uint32 "" = None /\
  parse_uint32 "007" = Some 7%N /\ parse_uint32 "99999999999999999999" = None.
Proof. vm_compute. repeat split; reflexivity. Qed.

Lemma events_app : forall a b, events (a ++ b) = events a ++ events b.
Proof. intros. unfold events. apply flat_map_app. Qed.

(* a message carrying a leader hint changes nothing *)
Lemma leader_hint_ignored : forall g, m_leader g <> "" -> events_of_op (Msg g) = [].
Proof.
  intros g H. simpl. destruct (String.eqb_spec (m_leader g) ""); [contradiction|reflexivity].
Qed.

(* the cache never holds "found, no locations" *)
Theorem view_nonempty : forall d evs v ls, view (run (init d) evs) v = Some ls -> ls <> [].
Proof.
  intros d evs v ls H. rewrite view_is_reference in H.
  destruct (r_run_spec evs [] v I) as [G _]. rewrite H in G. apply G.
Qed.

(* the "or not-found" clause: a lookup answers not-found exactly when NO location
   of the volume is currently added (never added, all removed, or dropped by a
   lost connection) *)
Theorem not_found_iff : forall d evs v,
  lookup_locs (run (init d) evs) v = Err ErrNotFound <-> forall u, live v u evs = None.
Proof.
  intros d evs v. pose proof (locations_exact d evs v) as [_ HL]. cbn zeta in HL.
  pose proof (view_nonempty d evs v) as HN.
  unfold lookup_locs, view_list in *.
  destruct (view (run (init d) evs) v) as [ls|] eqn:Vw.
  - split; [discriminate|]. intro Hall. exfalso.
    destruct ls as [|l ls]; [apply (HN []); reflexivity|].
    specialize (HL (url l)). rewrite Hall in HL. unfold find_url in HL. simpl in HL.
    rewrite String.eqb_refl in HL. discriminate.
  - split; auto. intros _ u. rewrite <- HL. reflexivity.
Qed.

(* "same data center first" and "never empty", composed on the cache's own lookup *)
Theorem lookup_same_dc_first : forall d evs v ls, lookup_locs (run (init d) evs) v = Ok ls ->
  exists a b, ls = a ++ b /\ forallb (same_dc d) a = true /\
              forallb (fun l => negb (same_dc d l)) b = true /\
              Permutation ls (view_list (run (init d) evs) v) /\ ls <> [].
Proof.
  intros d evs v ls H. unfold lookup_locs, view_list in *. rewrite data_center_kept in H.
  destruct (view (run (init d) evs) v) as [l0|] eqn:Vw; [|discriminate]. inversion H; subst ls.
  destruct (order_locs_split d l0) as [a [b [E [Ha [Hb P]]]]]. exists a, b. repeat split; auto.
  intro Hc. rewrite Hc in P. apply Permutation_nil in P. exact (view_nonempty d evs v l0 Vw P).
Qed.

(* LookupVolumeServerUrl takes the slice under the read lock (after evs1), then
   reads cell i after any further updates [t i] and the data center after any
   further updates [t']: the answer is the atomic lookup's answer of the moment the
   lock was held *)
Theorem concurrent_lookup : forall d evs1 (t : nat -> list ev) t' v,
  lookup_locs_conc (run (init d) evs1) (fun i => run (init d) (evs1 ++ t i))
                   (run (init d) (evs1 ++ t')) v
  = lookup_locs (run (init d) evs1) v.
Proof.
  intros d evs1 t t' v. unfold lookup_locs_conc, lookup_locs, view.
  destruct (get_locations (run (init d) evs1) v) as [hd|] eqn:G; cbn [option_map]; auto.
  rewrite !data_center_kept. f_equal. f_equal.
  pose proof (run_sim evs1 _ _ (init_sim d)) as [[W1 _] _].
  pose proof (cells_length _ _ (W1 v hd G)) as L.
  unfold read_cells.
  transitivity (map (fun i => nth i (cells (heap (run (init d) evs1)) hd) zero_loc) (seq 0 (s_len hd))).
  - apply map_ext_in. intros i Hi. apply in_seq in Hi.
    rewrite <- (snapshot_stable d evs1 (t i) v hd G). unfold cells.
    rewrite nth_firstn_lt by lia. reflexivity.
  - set (c := cells (heap (run (init d) evs1)) hd) in *. rewrite <- L. apply map_nth_seq.
Qed.

Lemma in_window_spec : forall p n lo,
  in_window p lo n = true <-> exists j, lo <= j < lo + n /\ p j = true.
Proof.
  induction n as [|n IH]; intros lo; simpl.
  - split; [discriminate|]. intros [j [H _]]. lia.
  - destruct (p lo) eqn:P.
    + split; auto. intros _. exists lo. split; [lia|auto].
    + rewrite IH. split; intros [j [H1 H2]].
      * exists j. split; [lia|auto].
      * exists j. split; auto. destruct (Nat.eq_dec j lo); [subst; congruence|lia].
Qed.

(* [window_ok p lo hi] decides "some update index j with lo <= j <= hi explains the answer" *)
Theorem window_ok_spec : forall p lo hi,
  window_ok p lo hi = true <-> exists j, lo <= j <= hi /\ p j = true.
Proof.
  intros. unfold window_ok. rewrite in_window_spec.
  split; intros [j [H1 H2]]; exists j; split; auto; lia.
Qed.

(* view_is_reference, locations_exact and not_found_iff at the prefix of length j (the state
   a reader sees that takes the read lock after j of the updates), in the form the window
   checker of check/C35.v uses *)
Theorem concurrent_get_exact : forall d evs j v,
  let ls := view_list (run (init d) (firstn j evs)) v in
  view (run (init d) (firstn j evs)) v = r_find v (r_run [] (firstn j evs)) /\
  NoDup (map url ls) /\ (forall u, find_url u ls = live v u (firstn j evs)) /\
  (view (run (init d) (firstn j evs)) v = None <-> forall u, live v u (firstn j evs) = None).
Proof.
  intros d evs j v ls. subst ls. split; [apply view_is_reference|].
  destruct (locations_exact d (firstn j evs) v) as [H1 H2]. split; [exact H1|]. split; [exact H2|].
  rewrite <- not_found_iff with (d := d). unfold lookup_locs.
  destruct (view (run (init d) (firstn j evs)) v); split; intro H; try discriminate; auto.
Qed.

(* values for example_witnesses *)
Definition dcA : string := "dcA".
Definition locA : loc := {| url := "u1"; public_url := "p1"; dc := "dcA" |}.
Definition locB : loc := {| url := "u2"; public_url := "p2"; dc := "dcB" |}.
Definition reconnect_witness : list ev := [EvReset; EvAdd 1%N locB; EvAdd 1%N locA].
Definition locC : loc := {| url := "u3"; public_url := "p3"; dc := "dcA" |}.
Definition alias_before : list ev := [EvAdd 1%N locA; EvAdd 1%N locB; EvAdd 1%N locC].
Definition alias_after : list ev := [EvDel 1%N locA].
Definition last_gone : list ev := [EvAdd 1%N locA; EvDel 1%N locA].

(* the slice handed out before the delete still shows u1 u2 u3 *)
Lemma alias_witness_read :
  map url (cells (heap (run (init dcA) (alias_before ++ alias_after))) {| s_arr := 2; s_len := 3; s_cap := 4 |})
  = ["u1"; "u2"; "u3"].
Proof. reflexivity. Qed.

Lemma example_witnesses :
  (* a slice held across a delete still shows what it showed *)
  (exists hd, get_locations (run (init dcA) alias_before) 1%N = Some hd /\
     map url (cells (heap (run (init dcA) (alias_before ++ alias_after))) hd) = ["u1"; "u2"; "u3"]) /\
  map url (view_list (run (init dcA) (alias_before ++ alias_after)) 1%N) = ["u2"; "u3"] /\
  (* own data center first after a reconnect *)
  lookup_locs (run (init dcA) reconnect_witness) 1%N = Ok [locA; locB] /\
  (* an id string that is no uint32 is rejected *)
  lookup_volume_server_url (run (init dcA) [EvAdd 1%N locA]) "4294967297" = Err ErrParse /\
  lookup_volume_server_url (run (init dcA) [EvAdd 1%N locA]) "1" = Ok ["u1"] /\
  (* the last location removed: not-found, not "found, empty" *)
  lookup_locs (run (init dcA) last_gone) 1%N = Err ErrNotFound /\
  get_locations (run (init dcA) last_gone) 1%N = None /\
  (* and a held slice still shows it *)
  (exists hd, get_locations (run (init dcA) [EvAdd 1%N locA]) 1%N = Some hd /\
     map url (cells (heap (run (init dcA) (last_gone ++ [EvReset; EvAdd 1%N locB]))) hd) = ["u1"]) /\
  (* the window checker: an answer explained by index 2 only *)
  window_ok (fun j => Nat.eqb j 2) 1 3 = true /\ window_ok (fun j => Nat.eqb j 2) 3 5 = false.
Proof.
  vm_compute. repeat split; try reflexivity; eexists; split; reflexivity.
Qed.
