(* C19: directories in name order (wf), the candidates of a request (cand), deleting expired
   entries, the leveldb iterator.  The idea every continuation lemma rests on is sel_cont. *)
From Coq Require Import List NArith Bool String Ascii Arith Lia.
From SW Require Import proof.ListFacts model.Listing proof.ListingBase.
Import ListNotations.
Local Open Scope string_scope.
Local Open Scope list_scope.
Local Notation length := List.length.

Inductive sorted : dirst -> Prop :=
| sorted_nil : sorted []
| sorted_cons : forall e l, (forall x, In x l -> slt (ename e) (ename x)) -> sorted l -> sorted (e :: l).

(* children in strict byte order of their names (so names are unique), no empty name *)
Definition wf (d : dirst) : Prop := sorted d /\ forall e, In e d -> ename e <> "".

Lemma sorted_filter : forall f d, sorted d -> sorted (filter f d).
Proof.
  intros f d H. induction H as [|e l Hlt Hs IH]; simpl; [constructor|].
  destruct (f e); auto. constructor; auto.
  intros x Hx. apply filter_In in Hx. apply Hlt. tauto.
Qed.

Lemma wf_filter : forall f d, wf d -> wf (filter f d).
Proof.
  intros f d [Hs Hn]. split; [apply sorted_filter; auto|].
  intros e He. apply filter_In in He. apply Hn. tauto.
Qed.

Lemma sorted_app : forall l1 l2, sorted (l1 ++ l2) ->
  sorted l1 /\ sorted l2 /\ forall x y, In x l1 -> In y l2 -> slt (ename x) (ename y).
Proof.
  induction l1 as [|e l1 IH]; intros l2 H; simpl in *.
  - repeat split; auto. constructor. intros x y [].
  - inversion H as [|? ? Hlt Hs]; subst. destruct (IH l2 Hs) as [H1 [H2 H3]].
    repeat split; auto.
    + constructor; auto. intros x Hx. apply Hlt. apply in_or_app. auto.
    + intros x y [Hx|Hx] Hy; [subst; apply Hlt; apply in_or_app; auto|auto].
Qed.

Lemma sorted_firstn : forall n d, sorted d -> sorted (firstn n d).
Proof. intros n d H. rewrite <- (firstn_skipn n d) in H. apply sorted_app in H. tauto. Qed.

Lemma sorted_skipn : forall n d, sorted d -> sorted (skipn n d).
Proof. intros n d H. rewrite <- (firstn_skipn n d) in H. apply sorted_app in H. tauto. Qed.

Lemma sorted_unique : forall d e1 e2, sorted d -> In e1 d -> In e2 d -> ename e1 = ename e2 -> e1 = e2.
Proof.
  intros d e1 e2 H. induction H as [|e l Hlt Hs IH]; intros H1 H2 Hn; [destruct H1|].
  destruct H1 as [H1|H1], H2 as [H2|H2]; subst; auto.
  - exfalso. specialize (Hlt _ H2). rewrite Hn in Hlt. eapply slt_irrefl; eauto.
  - exfalso. specialize (Hlt _ H1). rewrite Hn in Hlt. eapply slt_irrefl; eauto.
Qed.

Lemma wfb_wf : forall d, wfb d = true -> wf d.
Proof.
  intros d H. unfold wfb in H. apply andb_true_iff in H. destruct H as [Hs Hn]. split.
  - clear Hn. induction d as [|e d IH]; [constructor|].
    simpl in Hs. apply andb_true_iff in Hs. destruct Hs as [H1 H2].
    specialize (IH H2). constructor; auto.
    intros x Hx. destruct d as [|e' d]; [destruct Hx|].
    simpl in H1. apply ltb_slt in H1.
    destruct Hx as [Hx|Hx]; [subst; auto|].
    inversion IH as [|? ? Hlt Hs']; subst. eapply slt_trans; eauto.
  - intros e He. rewrite forallb_forall in Hn. specialize (Hn e He).
    intro Hc. unfold ename in *. rewrite Hc in Hn. discriminate.
Qed.

Lemma last_name_cons : forall e l, l <> [] -> last_name (e :: l) = last_name l.
Proof. intros e [|x l] H; [congruence|reflexivity]. Qed.

Lemma last_name_app_ne : forall l1 l2, l2 <> [] -> last_name (l1 ++ l2) = last_name l2.
Proof.
  induction l1 as [|x l1 IH]; intros l2 H; [reflexivity|].
  cbn [app]. rewrite last_name_cons; [apply IH; exact H|].
  destruct l1; [exact H|discriminate].
Qed.

Lemma last_name_app1 : forall l e, last_name (l ++ [e]) = ename e.
Proof. intros l e. apply (last_name_app_ne l [e]). discriminate. Qed.

Lemma last_name_nil : forall l, (forall e, In e l -> ename e <> "") -> last_name l = "" -> l = [].
Proof.
  intros l Hn H. destruct l as [|x l] using rev_ind; auto.
  rewrite last_name_app1 in H. exfalso. apply (Hn x); auto. apply in_or_app. right. left. auto.
Qed.

Lemma last_name_in : forall l, l <> [] -> exists l' e, l = l' ++ [e] /\ last_name l = ename e.
Proof.
  intros l H. destruct (exists_last H) as [l' [e He]]. exists l', e. split; auto.
  subst. apply last_name_app1.
Qed.

Lemma sorted_le_last : forall l x, sorted l -> In x l -> sle (ename x) (last_name l).
Proof.
  intros l x Hs Hx. assert (Hne : l <> []) by (intro; subst; destruct Hx).
  destruct (last_name_in l Hne) as [l' [e [El En]]]. rewrite En. subst l.
  apply in_app_or in Hx. destruct Hx as [Hx|[Hx|[]]]; [|subst; apply sle_refl].
  left. apply sorted_app in Hs. destruct Hs as [_ [_ H]]. apply H; auto. left. auto.
Qed.

(* the children a store call has to visit: after start, with prefix p, expired or not *)
Definition sel (start : string) (incl : bool) (p : string) (e : entry) : bool :=
  after start incl (ename e) && String.prefix p (ename e).
Definition cand (start : string) (incl : bool) (p : string) (d : dirst) : dirst :=
  filter (sel start incl p) d.

Lemma after_true : forall start incl n, after start incl n = true <-> (if incl then sle start n else slt start n).
Proof. intros. unfold after. destruct incl; [apply leb_sle|apply ltb_slt]. Qed.

Lemma after_sle : forall start incl n, after start incl n = true -> sle start n.
Proof. intros start incl n H. apply after_true in H. destruct incl; auto. left. auto. Qed.

Lemma after_above : forall start incl x n, sle start x -> slt x n -> after start incl n = true.
Proof.
  intros. apply after_true. pose proof (sle_slt_trans _ _ _ H H0). destruct incl; auto. left. auto.
Qed.

(* Following the last name of a non-empty initial segment of the selection
   (exclusive) selects exactly the rest. *)
Lemma sel_cont : forall (g : entry -> bool) d start incl l1 l2,
  sorted d ->
  filter (fun e => after start incl (ename e) && g e) d = l1 ++ l2 -> l1 <> [] ->
  filter (fun e => after (last_name l1) false (ename e) && g e) d = l2.
Proof.
  intros g d start incl l1 l2 Hs E Hne.
  assert (HS : sorted (l1 ++ l2)) by (rewrite <- E; apply sorted_filter; auto).
  destruct (sorted_app _ _ HS) as [Hs1 [Hs2 H12]].
  destruct (last_name_in l1 Hne) as [l1' [e1 [El En]]].
  assert (Hin1 : In e1 (l1 ++ l2)) by (subst l1; apply in_or_app; left; apply in_or_app; right; left; auto).
  assert (Hsel1 : after start incl (ename e1) = true).
  { rewrite <- E in Hin1. apply filter_In in Hin1. destruct Hin1 as [_ H]. apply andb_true_iff in H. tauto. }
  transitivity (filter (fun e => String.ltb (last_name l1) (ename e)) (l1 ++ l2)).
  - rewrite <- E. rewrite filter_filter. apply filter_ext_in. intros e _.
    change (after (last_name l1) false (ename e)) with (String.ltb (last_name l1) (ename e)).
    destruct (String.ltb (last_name l1) (ename e)) eqn:El1.
    + rewrite (after_above start incl (ename e1) (ename e)); [destruct (g e); reflexivity| |].
      * eapply after_sle; eauto.
      * rewrite <- En. apply ltb_slt. auto.
    + rewrite andb_false_r. reflexivity.
  - rewrite filter_app. rewrite (filter_all_false _ l1), (filter_all_true _ l2); auto.
    + intros x Hx. apply ltb_slt. rewrite En. apply H12; auto. subst l1. apply in_or_app. right. left. auto.
    + intros x Hx. apply ltb_false. apply sorted_le_last; auto.
Qed.

Lemma cand_cont : forall d start incl p L,
  sorted d -> firstn L (cand start incl p d) <> [] ->
  cand (last_name (firstn L (cand start incl p d))) false p d = skipn L (cand start incl p d).
Proof.
  intros d start incl p L Hs Hne. unfold cand, sel.
  apply (sel_cont (fun e => String.prefix p (ename e)) d start incl); auto.
  symmetry. apply firstn_skipn.
Qed.

Lemma del_expired_nil : forall d, del_expired [] d = d.
Proof. intros. unfold del_expired. apply filter_all_true. intros. reflexivity. Qed.

Lemma del_expired_app : forall v1 v2 d, del_expired v2 (del_expired v1 d) = del_expired (v1 ++ v2) d.
Proof.
  intros. unfold del_expired. rewrite filter_filter. apply filter_ext_in. intros e _.
  rewrite existsb_app, negb_orb. reflexivity.
Qed.

Lemma wf_del_expired : forall v d, wf d -> wf (del_expired v d).
Proof. intros. apply wf_filter. auto. Qed.

Lemma del_expired_in : forall v d e, In e (del_expired v d) -> In e d.
Proof. intros v d e H. apply filter_In in H. tauto. Qed.

Lemma filter_del_expired : forall (f : entry -> bool) v d,
  (forall e u, In e d -> f e = true -> In u v -> eexp u = true -> ename u = ename e -> False) ->
  filter f (del_expired v d) = filter f d.
Proof.
  intros f v d H. unfold del_expired. rewrite filter_filter. apply filter_ext_in. intros e He.
  destruct (f e) eqn:Ef; [|apply andb_false_r]. rewrite andb_true_r.
  apply negb_true_iff. apply not_true_iff_false. intro Hex.
  apply existsb_exists in Hex. destruct Hex as [u [Hu Hue]].
  apply andb_true_iff in Hue. destruct Hue as [Hx Hue]. apply String.eqb_eq in Hue.
  exact (H e u He Ef Hu Hx Hue).
Qed.

Lemma filter_del_expired_above : forall (f : entry -> bool) v d x,
  (forall e, In e v -> sle (ename e) x) ->
  (forall e, f e = true -> slt x (ename e)) ->
  filter f (del_expired v d) = filter f d.
Proof.
  intros f v d x Hv Hf. apply filter_del_expired. intros e u _ Ef Hu _ Hue.
  specialize (Hv u Hu). specialize (Hf e Ef). rewrite Hue in Hv.
  eapply slt_irrefl. eapply sle_slt_trans; eauto.
Qed.

Lemma del_expired_live : forall v d, wf d -> (forall e, In e v -> In e d) ->
  filter elive (del_expired v d) = filter elive d.
Proof.
  intros v d [Hs _] Hv. apply filter_del_expired. intros e u He El Hu Hx Hue.
  assert (u = e) by (eapply sorted_unique; eauto). subst u.
  unfold elive, eexp in *. rewrite Hx in El. discriminate.
Qed.

Lemma del_expired_subset_live : forall v d e, In e d -> elive e = true -> wf d -> (forall u, In u v -> In u d) ->
  In e (del_expired v d).
Proof.
  intros v d e He El Hwf Hv.
  assert (H : In e (filter elive (del_expired v d))).
  { rewrite del_expired_live; auto. apply filter_In. auto. }
  apply filter_In in H. tauto.
Qed.

Lemma seek_spec : forall k d, sorted d ->
  sorted (seek k d) /\
  (forall e, In e (seek k d) -> sle k (ename e)) /\
  (forall e, In e (seek k d) -> In e d) /\
  (forall f : entry -> bool, (forall e, In e d -> slt (ename e) k -> f e = false) -> filter f d = filter f (seek k d)).
Proof.
  intros k d H. induction H as [|e l Hlt Hs IH]; simpl.
  - split; [constructor|]. split; [intros x []|]. split; [intros x []|]. auto.
  - destruct (String.ltb (ename e) k) eqn:E.
    + destruct IH as [I1 [I2 [I3 I4]]].
      split; [auto|]. split; [auto|]. split; [intros x Hx; right; auto|].
      intros f Hf. rewrite (Hf e); [|left; auto|apply ltb_slt; auto].
      apply I4. intros. apply Hf; auto.
    + apply ltb_false in E.
      split; [constructor; auto|]. split; [|split; auto].
      intros x [Hx|Hx]; [subst; auto|]. eapply sle_trans; eauto. left. auto.
Qed.

Lemma lvl_iter_spec : forall p start incl l L,
  sorted l -> (forall e, In e l -> ename e <> "") ->
  (forall e, In e l -> sle p (ename e)) -> (forall e, In e l -> sle start (ename e)) ->
  lvl_iter l start incl L p = firstn L (filter (sel start incl p) l).
Proof.
  intros p start incl l. induction l as [|e l IH]; intros L Hs Hn Hp Hst; [rewrite firstn_nil; reflexivity|].
  inversion Hs as [|? ? Hlt Hs']; subst.
  assert (IH' : forall L, lvl_iter l start incl L p = firstn L (filter (sel start incl p) l)).
  { intros. apply IH; auto; intros; [apply Hn|apply Hp|apply Hst]; right; auto. }
  cbn [lvl_iter filter]. unfold sel at 1.
  destruct (String.prefix p (ename e)) eqn:Ep; cbn [negb].
  - rewrite (proj2 (String.eqb_neq _ _) (Hn e (or_introl eq_refl))).
    (* no name is below start: the start name itself is skipped exactly when it is excluded *)
    assert (Ha : String.eqb (ename e) start && negb incl = negb (after start incl (ename e))).
    { specialize (Hst e (or_introl eq_refl)). unfold after.
      destruct (String.eqb_spec (ename e) start) as [->|Es]; cbn [andb].
      - rewrite (proj2 (leb_sle start start) (sle_refl _)), (proj2 (ltb_false start start) (sle_refl _)).
        destruct incl; reflexivity.
      - symmetry. apply negb_false_iff. destruct Hst as [H|H]; [|congruence].
        destruct incl; [apply leb_sle; left; exact H|apply ltb_slt; exact H]. }
    rewrite Ha, andb_true_r. destruct (after start incl (ename e)); cbn [negb]; [|apply IH'].
    destruct L as [|L]; [reflexivity|]. cbn [firstn]. f_equal. apply IH'.
  - rewrite andb_false_r.
    rewrite filter_all_false; [rewrite firstn_nil; reflexivity|].
    intros x Hx. unfold sel. rewrite (prefix_past p (ename e) (ename x)); [apply andb_false_r| |auto|].
    + apply Hp. left. auto.
    + left. apply Hlt. auto.
Qed.

Lemma lvl_iter_sub : forall p start incl l L e,
  In e (lvl_iter l start incl L p) -> In e l /\ String.prefix p (ename e) = true.
Proof.
  intros p start incl l. induction l as [|x l IH]; intros L e H; [destruct H|].
  assert (Hr : forall L', In e (lvl_iter l start incl L' p) -> In e (x :: l) /\ String.prefix p (ename e) = true).
  { intros L' H'. destruct (IH L' e H'). split; [right|]; assumption. }
  cbn [lvl_iter] in H. destruct (String.prefix p (ename x)) eqn:Ep; cbn [negb] in H; [|destruct H].
  destruct (String.eqb (ename x) ""); [exact (Hr _ H)|].
  destruct (String.eqb (ename x) start && negb incl); [exact (Hr _ H)|].
  destruct L as [|L]; [destruct H|]. destruct H as [H|H]; [|exact (Hr _ H)].
  subst. split; [left; reflexivity|exact Ep].
Qed.

Lemma lvl_iter_prefix : forall p start incl l L e, In e (lvl_iter l start incl L p) -> String.prefix p (ename e) = true.
Proof. intros p start incl l L e H. exact (proj2 (lvl_iter_sub _ _ _ _ _ _ H)). Qed.

Lemma lvl_iter_in : forall p start incl l L e, In e (lvl_iter l start incl L p) -> In e l.
Proof. intros p start incl l L e H. exact (proj1 (lvl_iter_sub _ _ _ _ _ _ H)). Qed.
