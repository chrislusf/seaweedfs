(* C06: the locator (ec_locate.go) reads back exactly the original bytes. *)
From Coq Require Import List ZArith NArith Bool Lia ZifyBool.
From SW Require Import model.EC proof.ECProofs.
Import ListNotations.
Local Open Scope Z_scope.

Lemma quot_rem_pos a b : 0 <= a -> 0 < b ->
  exists q r, Z.quot a b = q /\ Z.rem a b = r /\ a = b * q + r /\ 0 <= r < b /\ 0 <= q.
Proof.
  intros Ha Hb. exists (a / b), (a mod b).
  rewrite Z.quot_div_nonneg, Z.rem_mod_nonneg by lia.
  pose proof (Z.div_mod a b ltac:(lia)). pose proof (Z.mod_pos_bound a b ltac:(lia)).
  pose proof (Z.div_pos a b ltac:(lia) ltac:(lia)). repeat split; lia.
Qed.

Lemma dslice_datz dat D a n : (0 < n -> a + n <= D) -> dslice (datz dat D) a n = dslice dat a n.
Proof.
  intros H. apply map_zrange_ext. intros t Ht. unfold datz.
  destruct (a + t <? D) eqn:E; [reflexivity|lia].
Qed.

(* io.CopyN of m bytes from byte r of block k of shard i *)
Lemma region_copy dat D sh b proc bs n i k r m : region dat D sh b proc bs n ->
  0 <= i < 10 -> 0 <= k < n -> 0 <= r -> 0 <= m -> r + m <= bs ->
  copy_n (znth sh i []) (b + k * bs + r) m =
  Some (dslice (datz dat D) (proc + k * (bs * 10) + i * bs + r) m).
Proof.
  intros Hreg Hi Hk Hr Hm Hrm. destruct (Hreg i Hi) as [Hlen Hnth]. unfold copy_n.
  assert ((k + 1) * bs <= n * bs) by nia.
  destruct (b + k * bs + r + m <=? zlen (znth sh i [])) eqn:E; [|lia].
  f_equal. apply map_zrange_ext. intros t Ht.
  replace (b + k * bs + r + t) with (b + k * bs + (r + t)) by lia.
  rewrite Hnth by lia. f_equal. lia.
Qed.

Lemma read_exact_copy sh off n : 0 <= off -> read_exact sh off n = copy_n sh off n.
Proof. intros H. unfold read_exact, copy_n. destruct (0 <=? off) eqn:E; [reflexivity|lia]. Qed.

(* ReadAt of m bytes at byte inner of block bi, counted through the rows of the region *)
Lemma region_read dat D sh b proc bs n bi inner m off : region dat D sh b proc bs n -> 0 <= b ->
  0 <= bi < n * 10 -> 0 <= inner -> 0 <= m -> inner + m <= bs -> proc + bi * bs + inner + m <= D ->
  off = b + Z.quot bi 10 * bs + inner ->
  read_exact (znth sh (Z.rem bi 10) []) off m = Some (dslice dat (proc + bi * bs + inner) m).
Proof.
  intros Hreg Hb Hbi Hin Hm Hle HD ->.
  destruct (quot_rem_pos bi 10 ltac:(lia) ltac:(lia)) as (row & j & -> & -> & Hbij & Hj & Hrow).
  rewrite read_exact_copy by nia.
  rewrite (region_copy dat D sh b proc bs n) by (auto; lia).
  rewrite dslice_datz by nia. subst bi. do 2 f_equal. lia.
Qed.

Section Read.
  Variables (dat : Z -> byte) (L S D R s : Z) (sh : list (list byte)).
  Hypothesis HL : 0 < L.
  Hypothesis HS : 0 < S.
  Hypothesis Hlay : layout L S D R s.
  Hypothesis EF : enc_facts dat L S D R s sh.

  (* where block bi of the large or small area starts in the .dat, and its size *)
  Definition blk_start (large : bool) (bi : Z) : Z := if large then bi * L else R * (L * 10) + bi * S.
  Definition blk_size (large : bool) : Z := if large then L else S.

  Lemma read_block large bi inner n :
    0 <= bi -> (large = true -> bi < R * 10) -> 0 <= inner -> 0 < n -> inner + n <= blk_size large ->
    blk_start large bi + inner + n <= D ->
    read_interval L S sh (mkI bi inner n large R) = Some (dslice dat (blk_start large bi + inner) n).
  Proof.
    intros Hbi Hlt Hin Hn Hle HD. destruct (layout_bounds L S D R s HL Hlay) as (HR & Hs & Hend & _).
    unfold read_interval, to_shard_offset. cbn [i_block i_large i_inner i_rows i_size].
    destruct large; cbn [blk_start blk_size] in *.
    - apply (region_read dat D sh 0 0 L R); try lia. apply EF.
    - assert (bi * S < s * 10 * S) by lia.
      apply (region_read dat D sh (R * L) (R * (L * 10)) S s); try nia. apply EF.
  Qed.

  (* the loop of LocateData, started in block bi of either area *)
  Lemma loop_reads : forall fuel large bi inner size,
    0 <= bi -> (large = true -> bi < R * 10) -> 0 <= inner < blk_size large -> 0 <= size ->
    (Z.to_nat size <= fuel)%nat -> blk_start large bi + inner + size <= D ->
    read_intervals L S sh (locate_loop fuel L S R bi large inner size) =
    Some (dslice dat (blk_start large bi + inner) size).
  Proof.
    induction fuel as [|f IH]; intros large bi inner size Hbi Hlt Hin Hsz Hf HD.
    - assert (size = 0) by lia. subst. reflexivity.
    - cbn [locate_loop]. destruct (size >? 0) eqn:E0.
      2:{ assert (size = 0) by lia. subst. reflexivity. }
      replace (if large then L - inner else S - inner) with (blk_size large - inner)
        by (destruct large; reflexivity).
      destruct (size <=? blk_size large - inner) eqn:E1; cbn [read_intervals]; rewrite read_block by lia.
      + rewrite app_nil_r. reflexivity.
      + (* the next block starts where this one ends, also when it is the first small block *)
        assert (Hnext : blk_start large bi + inner + (blk_size large - inner) =
                        if large && (bi + 1 =? R * 10) then blk_start false 0 + 0
                        else blk_start large (bi + 1) + 0).
        { destruct large; cbn [andb blk_start blk_size]; [destruct (bi + 1 =? R * 10) eqn:E2|]; lia. }
        destruct (large && (bi + 1 =? R * 10)) eqn:E2.
        all: rewrite IH by (cbn [blk_size]; lia).
        all: rewrite <- Hnext, dslice_app by lia.
        all: do 2 f_equal; lia.
  Qed.

  (* LocateData with any datSize argument from which the repaired formula
     recovers the encoder's number of large rows *)
  Lemma locate_data_reads datSize offset size :
    n_large_rows L datSize = R ->
    0 <= offset -> 0 <= size -> offset + size <= D ->
    read_intervals L S sh (locate_data L S datSize offset size) = Some (dslice dat offset size).
  Proof.
    intros Hn Hoff Hsz HD. unfold locate_data, locate_offset, locate_within. rewrite Hn.
    destruct (offset <? R * (L * 10)) eqn:E.
    - destruct (quot_rem_pos offset L Hoff HL) as (q & r & -> & -> & Ho & Hrb & Hq0).
      rewrite loop_reads by (cbn [blk_start blk_size]; nia). do 2 f_equal. cbn [blk_start]. lia.
    - destruct (quot_rem_pos (offset - R * (L * 10)) S ltac:(lia) HS) as (q & r & -> & -> & Ho & Hrb & Hq0).
      rewrite loop_reads by (cbn [blk_start blk_size]; lia). do 2 f_equal. cbn [blk_start]. lia.
  Qed.
End Read.

(* the repaired formula gives R for every size in (R large rows, R + 1 large rows] *)
Lemma n_large_rows_eq L X R : 0 < L ->
  X = 0 /\ R = 0 \/ 0 <= R /\ R * (L * 10) < X <= R * (L * 10) + L * 10 ->
  n_large_rows L X = R.
Proof.
  intros HL [[-> ->]|[HR HX]]; unfold n_large_rows.
  - change (0 - 1) with (- (1)). rewrite Z.quot_opp_l, Z.quot_small by lia. reflexivity.
  - rewrite Z.quot_div_nonneg by nia.
    symmetry. apply Z.div_unique with (r := X - 1 - R * (L * 10)); lia.
Qed.

Lemma n_large_rows_true L S D R s : 0 < L -> 0 < S -> 0 <= D -> layout L S D R s -> n_large_rows L D = R.
Proof.
  intros HL HS HD (H1 & H2 & H3 & H4). apply n_large_rows_eq; [exact HL|].
  destruct (Z.eq_dec D 0) as [->|Hne]; [left|right].
  - split; [reflexivity|]. apply H3. lia.
  - specialize (H4 ltac:(lia)). lia.
Qed.

Lemma n_large_rows_prod L S D R s m : 0 < L -> 0 < S -> 0 <= D -> L = m * S -> layout L S D R s ->
  n_large_rows L (10 * (R * L + s * S)) = R.
Proof.
  intros HL HS HD Hm Hlay. apply n_large_rows_eq; [exact HL|].
  destruct (Z.eq_dec D 0) as [->|Hne]; [left|right].
  - destruct Hlay as (_ & _ & H3 & _). destruct (H3 ltac:(lia)) as [-> ->]. split; reflexivity.
  - pose proof (layout_small_rows L S D R s m HS HL Hm ltac:(lia) Hlay). destruct Hlay as (H1 & _). nia.
Qed.

(* block sizes as the code requires them: positive, small | large, and both multiples
   of the encoder's buffer (encodeData: otherwise glog.Fatalf) *)
Definition sizes_ok (L S buf : Z) : Prop :=
  0 < buf /\ (exists ms, 0 < ms /\ S = ms * buf) /\ (exists m, 0 < m /\ L = m * S).

Lemma sizes_ok_pos L S buf : sizes_ok L S buf -> 0 < L /\ 0 < S /\ 0 < buf.
Proof. intros [Hb [[ms [Hms HS]] [m [Hm HL]]]]. subst. nia. Qed.

Lemma shards_facts dat L S buf D : sizes_ok L S buf -> 0 <= D ->
  exists R s, 0 < L /\ 0 < S /\ layout L S D R s /\ n_large_rows L D = R /\
              enc_facts dat L S D R s (data_shards dat L S buf D).
Proof.
  intros Hok HD. destruct (sizes_ok_pos _ _ _ Hok) as [HL [HS Hb]].
  destruct Hok as [_ [[ms [Hms HSb]] [m [Hm HLs]]]].
  destruct (encode_layout_spec L S D HL HS) as [R [s [Hlay Hrows]]].
  exists R, s. split; [exact HL|]. split; [exact HS|]. split; [exact Hlay|].
  split; [exact (n_large_rows_true L S D R s HL HS HD Hlay)|].
  apply data_shard_facts with (ml := m * ms) (ms := ms); auto; try nia.
Qed.

(* reads located from the TRUE .dat size *)
Theorem read_exact_true_size : forall dat L S buf D offset size,
  sizes_ok L S buf -> 0 <= offset -> 0 <= size -> offset + size <= D ->
  read_intervals L S (data_shards dat L S buf D) (locate_data L S D offset size) =
  Some (dslice dat offset size).
Proof.
  intros dat L S buf D offset size Hok Hoff Hsz HD.
  destruct (shards_facts dat L S buf D Hok ltac:(lia)) as (R & s & HL & HS & Hlay & HR & EF).
  apply (locate_data_reads dat L S D R s _ HL HS Hlay EF D offset size); lia.
Qed.

(* the production path: the locator is fed 10 x (size of shard file 0) *)
Theorem read_exact_prod : forall dat L S buf D offset size,
  sizes_ok L S buf -> 0 <= offset -> 0 <= size -> offset + size <= D ->
  read_needle_prod L S (data_shards dat L S buf D) offset size = Some (dslice dat offset size).
Proof.
  intros dat L S buf D offset size Hok Hoff Hsz HD.
  destruct (shards_facts dat L S buf D Hok ltac:(lia)) as (R & s & HL & HS & Hlay & _ & EF).
  unfold read_needle_prod. rewrite (ef_len EF 0) by lia.
  apply (locate_data_reads dat L S D R s _ HL HS Hlay EF); try lia.
  destruct Hok as [_ [_ [m [Hm HLs]]]].
  apply (n_large_rows_prod L S D R s m HL HS ltac:(lia) HLs Hlay).
Qed.
