(* C06, decode + mount: the decoded volume serves what the encoded volume
   served when some entry is live and no live entry lies behind that of the largest key
   (decode_mount_serves; the record-level model of the decoder does not see the row layout, so the
   trigger of finding 2 plays no part in the proof); the three refutations. *)
From Coq Require Import List NArith ZArith Bool Lia.
From SW Require Import model.Volume model.Compaction model.ECVolume.
From SW Require Import proof.CompactionInv proof.CompactionRead proof.CompactionCopy proof.CompactionMakeup
                       proof.CompactionTail proof.CompactionProofs.
Import ListNotations.
Local Open Scope N_scope.

Lemma ecx_of_get : forall idx k,
  idx_get (ecx_of idx) k = match idx_get idx k with
                           | Some e => if ecx_dead e then None else Some e
                           | None => None
                           end.
Proof. exact (replay_get ecx_dead). Qed.

Lemma ecx_of_asc : forall idx, asc (ecx_of idx).
Proof. exact (replay_asc ecx_dead). Qed.

(* FindDatFileSize is the largest end of a live entry *)
Lemma fds_acc : forall l a,
  let v := fold_left (fun acc e => if size_deleted (ie_size e) then acc
                                   else if acc <? entry_stop e then entry_stop e else acc) l a in
  a <= v /\ (forall e, In e l -> size_deleted (ie_size e) = false -> entry_stop e <= v) /\
  (v = a \/ exists e, In e l /\ size_deleted (ie_size e) = false /\ v = entry_stop e).
Proof.
  induction l as [|x l IH]; simpl; intro a; [split; [lia | split; [intros e [] | left; reflexivity]]|].
  destruct (size_deleted (ie_size x)) eqn:D.
  - destruct (IH a) as [A [B C]]. split; [exact A|]. split.
    + intros e [->|Hin] He; [congruence | apply B; assumption].
    + destruct C as [C|[e [Hin He]]]; [left; exact C | right; exists e; auto].
  - destruct (a <? entry_stop x) eqn:E; [apply N.ltb_lt in E; destruct (IH (entry_stop x)) as [A [B C]]
                                        | apply N.ltb_ge in E; destruct (IH a) as [A [B C]]].
    + split; [lia|]. split; [intros e [->|Hin] He; [exact A | apply B; assumption]|].
      right. destruct C as [C|[e [Hin He]]]; [exists x; auto | exists e; auto].
    + split; [exact A|]. split; [intros e [->|Hin] He; [lia | apply B; assumption]|].
      destruct C as [C|[e [Hin He]]]; [left; exact C | right; exists e; auto].
Qed.

Lemma fds_ge : forall ecx e, In e ecx -> size_deleted (ie_size e) = false -> entry_stop e <= find_dat_size ecx.
Proof. intros ecx. apply (fds_acc ecx 0). Qed.

Lemma fds_pick : forall ecx, find_dat_size ecx = 0 \/
  exists e, In e ecx /\ size_deleted (ie_size e) = false /\ find_dat_size ecx = entry_stop e.
Proof. intro ecx. apply (fds_acc ecx 0). Qed.

Lemma sorted_disjoint : forall l E r1 r2, sorted_recs l E -> In r1 l -> In r2 l ->
  r_off r1 < r_off r2 -> r_off r1 + actual_size (r_size r1) <= r_off r2.
Proof.
  induction l as [|x l IH]; intros E r1 r2 H H1 H2 Hlt; [contradiction|].
  inversion H as [|? ? ? Hb H5]; subst. destruct H1 as [->|H1]; destruct H2 as [->|H2].
  - lia.
  - destruct (sorted_recs_bound _ _ _ H5 H2) as [_ B]. pose proof (actual_size_pos (r_size r2)). lia.
  - destruct (sorted_recs_bound _ _ _ H5 H1) as [_ B]. exact B.
  - eapply IH; eauto.
Qed.

Lemma find_rec_filter : forall d l off r, find_rec l off = Some r -> off < d ->
  find_rec (filter (fun r => r_off r <? d) l) off = Some r.
Proof.
  induction l as [|x l IH]; simpl; intros off r H Hlt; [discriminate|].
  destruct (r_off x =? off) eqn:E.
  - apply N.eqb_eq in E. assert (L : r_off x <? d = true) by (apply N.ltb_lt; lia).
    rewrite L. simpl. rewrite (proj2 (N.eqb_eq _ _) E). exact H.
  - destruct (r_off x <? d); [simpl; rewrite E|]; apply IH; assumption.
Qed.

Lemma ecx_entry_rec : forall s e, cinv s -> In e (ecx_file s) ->
  size_deleted (ie_size e) = false /\ ie_off e <> 0 /\
  exists r, find_rec (recs (cv s)) (ie_off e) = Some r /\ Z.of_N (r_size r) = ie_size e /\
            entry_stop e = ie_off e + actual_size (r_size r).
Proof.
  intros s e H Hin. destruct (replay_in ecx_dead _ _ Hin) as [G D].
  unfold ecx_dead in D. apply orb_false_iff in D. destruct D as [_ Ds]. apply Z.eqb_neq in Ds.
  destruct (idx_entry_cases _ _ _ H G) as [E|L]; [contradiction|].
  destruct (live_facts _ _ _ _ H L) as [Hs [Ho [_ [r [Hf [Hsz _]]]]]].
  split; [apply size_deleted_nonneg; exact Hs|]. split; [exact Ho|].
  exists r. split; [exact Hf|]. split; [exact Hsz|]. unfold entry_stop. rewrite <- Hsz, N2Z.id. reflexivity.
Qed.

Lemma rev_head_in : forall (A : Type) (l : list A) x t, rev l = x :: t -> In x l.
Proof. intros A l x t H. apply in_rev. rewrite H. left. reflexivity. Qed.

Lemma last_entry_stop : forall s last t, cinv s ->
  rev (ecx_file s) = last :: t -> sorted_idx_truncates s = false ->
  dat_size s = entry_stop last.
Proof.
  intros s last t H Hr T. unfold sorted_idx_truncates in T. rewrite Hr in T.
  pose proof (rev_head_in _ _ _ _ Hr) as Hlast.
  destruct (ecx_entry_rec _ _ H Hlast) as [Ll [_ [rl [Hfl [_ El]]]]].
  pose proof (fds_ge _ _ Hlast Ll) as Hge. fold (dat_size s) in Hge. rewrite El in Hge |- *.
  pose proof (actual_size_pos (r_size rl)).
  destruct (fds_pick (ecx_file s)) as [Z0|[e [Hin [Le Hv]]]]; fold (dat_size s) in *; [lia|].
  assert (Hoff : ie_off e <= ie_off last).
  { destruct (ie_off last <? ie_off e) eqn:C; [|apply N.ltb_ge in C; exact C].
    exfalso. assert (X : existsb (fun e => negb (size_deleted (ie_size e)) && (ie_off last <? ie_off e)) (ecx_file s) = true).
    { apply existsb_exists. exists e. split; [exact Hin|]. rewrite Le, C. reflexivity. }
    congruence. }
  destruct (ecx_entry_rec _ _ H Hin) as [_ [_ [r [Hf [_ Ee]]]]]. rewrite Ee in Hv.
  destruct (N.eq_dec (ie_off e) (ie_off last)) as [Eq|Ne].
  - rewrite Eq in Hf. rewrite Hfl in Hf. inversion Hf; subst r. rewrite Hv, Eq. reflexivity.
  - exfalso. pose proof (find_rec_off _ _ _ Hf) as O1. pose proof (find_rec_off _ _ _ Hfl) as O2.
    pose proof (sorted_disjoint _ _ r rl (ci_sorted _ H) (find_rec_In _ _ _ Hf) (find_rec_In _ _ _ Hfl)) as Dj.
    lia.
Qed.

Lemma decoded_tail_ok : forall s, cinv s -> sorted_idx_truncates s = false ->
  tail_ok (f_recs (decoded_files s)) (f_end (decoded_files s)) (f_idx (decoded_files s)).
Proof.
  intros s H T. unfold tail_ok, decoded_files. cbn [f_recs f_end f_idx].
  destruct (rev (ecx_file s)) as [|last t] eqn:Hr; [exact I|].
  pose proof (last_entry_stop _ _ _ H Hr T) as Hd.
  destruct (ecx_entry_rec _ _ H (rev_head_in _ _ _ _ Hr)) as [_ [Ho [r [Hf [Hsz El]]]]].
  rewrite El in Hd. pose proof (actual_size_pos (r_size r)) as Hp.
  apply (verify_put_ok _ _ last r); auto. apply find_rec_filter; [exact Hf | lia].
Qed.

Theorem decode_mount_check_noop : forall vt h,
  no_pad h = true ->
  sorted_idx_truncates (c_exec vt cinit h) = false ->
  check_noop (check_files (decoded_files (c_exec vt cinit h))) = true.
Proof.
  intros vt h _ T. apply tail_ok_noop. apply decoded_tail_ok; [|exact T].
  apply c_exec_inv. exact cinv_init.
Qed.

Lemma no_live_false : forall s, no_live_entry s = false -> exists e, In e (ecx_file s) /\ size_deleted (ie_size e) = false.
Proof.
  intro s. unfold no_live_entry. induction (ecx_file s) as [|x l IH]; simpl; [discriminate|].
  intro H. apply andb_false_iff in H. destruct H as [H|H].
  - exists x. auto.
  - destruct (IH H) as [e [Hin He]]. exists e. auto.
Qed.

Lemma decoded_content : forall s k, cinv s -> nzid s k ->
  content {| recs := f_recs (decoded_files s); nm := load_idx (f_idx (decoded_files s));
             dat_end := f_end (decoded_files s); no_write_or_delete := false; no_write_can_delete := false |} k
  = content (cv s) k.
Proof.
  intros s k H Hz. unfold decoded_files. cbn [f_recs f_end f_idx]. unfold content at 2.
  destruct (live (nm (cv s)) k) as [[off size]|] eqn:L.
  - destruct (live_facts _ _ _ _ H L) as [Hs0 [Ho [Hi [r [Hf [Hsz [Hid Hc]]]]]]].
    pose proof (live_size _ _ _ _ Hz L) as Hnz. subst size. unfold content in Hc. rewrite L in Hc. rewrite Hc.
    set (e := {| ie_key := k; ie_off := off; ie_size := Z.of_N (r_size r) |}) in *.
    assert (Dd : ecx_dead e = false).
    { unfold ecx_dead. simpl. rewrite (proj2 (N.eqb_neq _ _) Ho). simpl. apply Z.eqb_neq. lia. }
    assert (Hg : idx_get (ecx_file s) k = Some e) by (unfold ecx_file; rewrite ecx_of_get, Hi, Dd; reflexivity).
    pose proof (idx_get_In _ _ _ Hg) as Hin.
    destruct (ecx_entry_rec _ _ H Hin) as [Le [_ [r0 [Hf0 [_ Ee]]]]]. simpl in Hf0, Ee.
    rewrite Hf in Hf0. inversion Hf0; subst r0.
    pose proof (fds_ge _ _ Hin Le) as Hge. fold (dat_size s) in Hge. rewrite Ee in Hge.
    pose proof (actual_size_pos (r_size r)).
    apply content_files_put with (o := off); auto;
      [rewrite idx_get_rev by (apply asc_nodup, ecx_of_asc); exact Hg | lia | apply find_rec_filter; [exact Hf | lia]].
  - rewrite content_files, idx_get_rev by (apply asc_nodup, ecx_of_asc). unfold ecx_file. rewrite ecx_of_get.
    destruct (idx_get (cidx s) k) as [e|] eqn:G; [|reflexivity]. destruct (ecx_dead e); [reflexivity|].
    unfold entry_valid. rewrite (dead_entry _ _ _ H L G), andb_false_r. reflexivity.
Qed.

Lemma decode_mount_serves : forall vt h now id,
  has_empty h = false ->
  no_live_entry (c_exec vt cinit h) = false ->
  sorted_idx_truncates (c_exec vt cinit h) = false ->
  exists m, mounted (c_exec vt cinit h) = Some m /\
            dat_end m = dat_size (c_exec vt cinit h) /\
            no_write_or_delete m = false /\
            read_of m now id = read_of (cv (c_exec vt cinit h)) now id.
Proof.
  intros vt h now id He Hl T. set (s := c_exec vt cinit h) in *.
  assert (H : cinv s) by (apply c_exec_inv; exact cinv_init).
  assert (Hz : nzid s id).
  { apply exec_nzid; [exact cinv_init | discriminate | apply no_empty_on_forall, no_empty_all; exact He]. }
  destruct (no_live_false _ Hl) as [e [Hin Le]].
  pose proof (fds_ge _ _ Hin Le) as Hge. fold (dat_size s) in Hge.
  destruct (ecx_entry_rec _ _ H Hin) as [_ [_ [r [Hf [_ Ee]]]]]. rewrite Ee in Hge.
  destruct (find_rec_bound _ _ _ _ (ci_sorted _ H) Hf) as [H8 _]. pose proof (actual_size_pos (r_size r)) as Hpos.
  unfold mounted. assert (D8 : dat_size s <? 8 = false) by (apply N.ltb_ge; lia). rewrite D8.
  eexists. split; [reflexivity|].
  rewrite (commit_noop _ (tail_ok_noop _ (decoded_tail_ok _ H T))).
  split; [reflexivity|]. split; [reflexivity|].
  unfold read_of. rewrite read_char by apply load_nz.
  rewrite read_char by exact Hz.
  rewrite decoded_content by assumption. reflexivity.
Qed.

(* the model of the decoder does not depend on the row layout or on holes in the .dat *)
Theorem decode_mount_partial : forall vt (L : Z) h now id,
  no_pad h = true -> has_empty h = false ->
  no_live_entry (c_exec vt cinit h) = false ->
  fewer_large_rows L (c_exec vt cinit h) = false ->
  sorted_idx_truncates (c_exec vt cinit h) = false ->
  exists m, mounted (c_exec vt cinit h) = Some m /\
            dat_end m = dat_size (c_exec vt cinit h) /\
            no_write_or_delete m = false /\
            read_of m now id = read_of (cv (c_exec vt cinit h)) now id.
Proof. intros vt L h now id _ He Hl _ T. exact (decode_mount_serves vt h now id He Hl T). Qed.

Definition wn (id : N) (data : bytes) : needle :=
  {| n_id := id; n_cookie := 7; n_data := data; n_flags := 0; n_name := []; n_mime := [];
     n_pairs := []; n_lastmod := 0; n_ttl := (0, 0) |}.

(* finding 0: Write(1,"aaa"), Write(2,"bbb"), Write(1,"cccc") *)
Definition w_sorted : list cevent :=
  [(1, CWrite (wn 1 [97; 97; 97])); (2, CWrite (wn 2 [98; 98; 98])); (3, CWrite (wn 1 [99; 99; 99; 99]))].

Lemma decode_mount_refuted :
  exists h id now, no_pad h = true /\ has_empty h = false /\
    read_mounted (mounted (c_exec (0, 0) cinit h)) now id <> read_of (cv (c_exec (0, 0) cinit h)) now id.
Proof. exists w_sorted, 1, 10. split; [reflexivity|]. split; [reflexivity|]. vm_compute. discriminate. Qed.

Lemma w_sorted_facts :
  decode_trigger 1073741824 (c_exec (0, 0) cinit w_sorted) = Some 0 /\
  dat_end (cv (c_exec (0, 0) cinit w_sorted)) = 128 /\ dat_size (c_exec (0, 0) cinit w_sorted) = 128 /\
  option_map dat_end (mounted (c_exec (0, 0) cinit w_sorted)) = Some 88.
Proof. vm_compute. auto. Qed.

(* finding 1: Write(1,"aaa"), Delete(1): nothing is live, FindDatFileSize = 0, no super block *)
Definition w_nolive : list cevent := [(1, CWrite (wn 1 [97; 97; 97])); (2, CDelete 1 7)].

Lemma decode_unmountable :
  exists h, no_pad h = true /\ has_empty h = false /\
    dat_size (c_exec (0, 0) cinit h) = 0 /\ mounted (c_exec (0, 0) cinit h) = None /\
    decode_trigger 1073741824 (c_exec (0, 0) cinit h) = Some 1.
Proof. exists w_nolive. vm_compute. auto. Qed.

(* finding 2 (block sizes 40/10): Write(1, 300 bytes), Write(2, 70 bytes), Delete(2): the encoded
   .dat (480 bytes) has one large row, the size FindDatFileSize computes (344) none *)
Definition w_rows : list cevent :=
  [(1, CWrite (wn 1 (repeat 65 300))); (2, CWrite (wn 2 (repeat 66 70))); (3, CDelete 2 7)].

Lemma decode_fewer_rows :
  exists h, no_pad h = true /\ has_empty h = false /\
    dat_end (cv (c_exec (0, 0) cinit h)) = 480 /\ dat_size (c_exec (0, 0) cinit h) = 344 /\
    large_rows 40 480 = 1%Z /\ large_rows 40 344 = 0%Z /\
    decode_trigger 40 (c_exec (0, 0) cinit h) = Some 2.
Proof. exists w_rows. vm_compute. repeat split; reflexivity. Qed.

(* non-vacuity: the LARGEST key is overwritten, key 1 deleted and rewritten; no trigger, reads agree *)
Definition w_clean : list cevent :=
  [(1, CWrite (wn 1 [97; 97; 97])); (2, CWrite (wn 2 [98; 98; 98])); (3, CDelete 1 7);
   (4, CWrite (wn 2 [99; 99; 99; 99]))].

Lemma decode_mount_example :
  no_pad w_clean = true /\ has_empty w_clean = false /\
  decode_trigger 1073741824 (c_exec (0, 0) cinit w_clean) = None /\
  no_live_entry (c_exec (0, 0) cinit w_clean) = false /\
  fewer_large_rows 1073741824 (c_exec (0, 0) cinit w_clean) = false /\
  sorted_idx_truncates (c_exec (0, 0) cinit w_clean) = false /\
  (forall id, In id [1; 2; 3] ->
     read_mounted (mounted (c_exec (0, 0) cinit w_clean)) 10 id = read_of (cv (c_exec (0, 0) cinit w_clean)) 10 id) /\
  read_of (cv (c_exec (0, 0) cinit w_clean)) 10 2 <> None.
Proof.
  repeat split; try reflexivity.
  - intros id [<-|[<-|[<-|[]]]]; vm_compute; reflexivity.
  - vm_compute. discriminate.
Qed.
