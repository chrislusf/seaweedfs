(* C01, refinement per key: what a read, a delete and a write do to a key that no finding has
   touched (the key's own entry of the invariant suffices). *)
From Coq Require Import List NArith ZArith Bool Lia.
From SW Require Import model.Volume proof.VolumeProofs proof.VolumeKeyProofs.
Import ListNotations.
Local Open Scope N_scope.

(* the Size of a live entry is positive, that of a deleted one negative *)
Lemma size_pos : forall s, 0 < s ->
  size_valid (Z.of_N s) = true /\ size_deleted (Z.of_N s) = false /\ (Z.of_N s =? 0)%Z = false.
Proof.
  intros s H. unfold size_valid, size_deleted.
  destruct (Z.ltb_spec 0 (Z.of_N s)), (Z.ltb_spec (Z.of_N s) 0), (Z.eqb_spec (Z.of_N s) (-1)), (Z.eqb_spec (Z.of_N s) 0);
    lia.
Qed.

Lemma size_neg : forall z, (z < 0)%Z -> size_valid z = false /\ size_deleted z = true.
Proof.
  intros z H. unfold size_valid, size_deleted.
  destruct (Z.ltb_spec 0 z), (Z.ltb_spec z 0); lia.
Qed.

Lemma read_k : forall st sp seen id c now,
  K st sp seen id ->
  match s_lookup sp id now with
  | Some (c', n) =>
      c' = n_cookie n /\
      store_read st id c false now = (ENone, Z.of_N (blen (n_data n)), exp_view n)
  | None =>
      exists e v, (e = ENotFound \/ e = EDeleted) /\
                store_read st id c false now = (e, (-1)%Z, v)
  end.
Proof.
  intros st sp seen id c now HR.
  unfold K, s_lookup, R_entry in *. unfold store_read. destruct (s_get (s_map sp) id) as [e|].
  - destruct (s_live e) as [[n t]|].
    + destruct HR as (off & r & H1 & H2 & H3 & H4 & H5 & H6 & _ & H8 & _).
      destruct (size_pos _ H4) as (_ & Hd & Hz).
      rewrite H1. cbn [nv_off nv_size]. rewrite (proj2 (N.eqb_neq _ _) H3), Hd, Hz.
      unfold read_data, view_of_rec. rewrite H2, Z.eqb_refl, (proj2 (N.ltb_lt _ _) H4), H5, !view_expired_exp.
      (* the TTL test reads the append time of the record, the specification the time of the write *)
      destruct (expirable n); cbn [andb]; [rewrite (H8 eq_refl)|].
      * destruct (negb (now <? t + ttl_minutes (v_ttl (exp_view n)) * 60000000000)); [|auto].
        exists ENotFound, (exp_view n). auto.
      * auto.
    + destruct HR as (off & sz & r & H1 & H2 & _ & H4 & _). destruct (size_neg _ H2) as [_ Hd].
      rewrite H1. cbn [nv_off nv_size]. rewrite (proj2 (N.eqb_neq _ _) H4), Hd.
      exists EDeleted, (blank_view c). auto.
  - rewrite HR. exists ENotFound, (blank_view c). auto.
Qed.

Lemma lookup_stored : forall sp id t c n, s_lookup sp id t = Some (c, n) -> s_stored sp id = Some (c, n).
Proof.
  intros sp id t c n. unfold s_lookup, s_stored. destruct (s_get (s_map sp) id) as [e|]; [|discriminate].
  destruct (s_live e) as [[n0 t0]|]; [|discriminate].
  destruct (view_expired (exp_view n0) t0 t); [discriminate | auto].
Qed.

(* with the default request options XGet projects the needle read as the base Get does *)
Lemma hproj_default : forall gun v, hproj_x gun gopt_default v = hproj v.
Proof.
  intros gun v. unfold hproj_x, hproj, served_data, gopt_default. cbn [g_gzip g_head g_name blen length N.of_nat N.eqb].
  destruct (is_compressed (v_flags v)); cbn [andb]; [|reflexivity].
  destruct (is_gzip_content (v_data v)); reflexivity.
Qed.

(* Store.DeleteVolumeNeedle on a clean key: refused on a read-only volume, else the Size of the live needle *)
Lemma delete_k : forall st sp seen id c t,
  flags_eq st sp -> bounded st -> K st sp seen id ->
  exists st', store_delete st id c t =
              (st', (if s_nwod sp then EReadOnly else ENone), (if s_nwod sp then 0%Z else Z.of_N (stored_size sp id))) /\
              K st' (if s_nwod sp then sp else spec_kill sp id) seen id.
Proof.
  intros st sp seen id c t [F1 _] [B1 B2] He.
  unfold store_delete. rewrite F1. destruct (s_nwod sp); [exists st; auto|].
  unfold spec_kill, stored_size, s_stored. unfold K in *.
  unfold R_entry in He. destruct (s_get (s_map sp) id) as [e|] eqn:Hg.
  - destruct (s_live e) as [[n tw]|] eqn:Hl.
    + destruct He as (off & r & E1 & E2 & E3 & E4 & E5 & E6 & _).
      destruct (size_pos _ E4) as (Hv & _). destruct (B2 _ _ E2) as [Hb Hs].
      rewrite E1. cbn [nv_size]. rewrite Hv. unfold append. cbn [nm].
      eexists. split.
      { rewrite Hs. change (needle_size (r_n r)) with (v_size (view_of (r_n r))). rewrite E5. reflexivity. }
      cbn [with_map s_map]. rewrite s_get_same. unfold R_entry. cbn [s_live s_cookie nm recs with_nm].
      unfold nm_delete. rewrite E1. cbn [nv_size nv_off]. rewrite Hv.
      exists off, (- Z.of_N (r_size r))%Z, r. rewrite nm_get_same.
      repeat split; auto; try lia.
      * exact (find_rec_append st (tombstone id c) t off r (conj B1 B2) E2).
      * rewrite <- E6. change (n_cookie (r_n r)) with (v_cookie (view_of (r_n r))). rewrite E5. reflexivity.
    + destruct He as (off & sz & r & E1 & E2 & E3 & E4 & E5). destruct (size_neg _ E2) as [Hv _].
      rewrite E1. cbn [nv_size]. rewrite Hv. eexists. split; [reflexivity|].
      cbn [with_map s_map]. rewrite s_get_same. unfold R_entry. cbn [s_live s_cookie].
      exists off, sz, r. auto.
  - rewrite He. eexists. split; [reflexivity|]. rewrite Hg. exact He.
Qed.

(* doWriteRequest on a clean key: acknowledged as unchanged when the specification says so,
   appended and mapped when the cookie is the stored one, refused otherwise *)
Lemma do_write_k : forall st sp seen n t,
  bounded st -> K st sp seen (n_id n) ->
  do_write st n t =
  if spec_unchanged sp n then (st, {| w_err := ENone; w_unchanged := true; w_size := 0 |})
  else if match s_get (s_map sp) (n_id n) with Some e => s_cookie e =? n_cookie n | None => true end
       then (written st n t, {| w_err := ENone; w_unchanged := false; w_size := needle_size n |})
       else (st, {| w_err := ECookie; w_unchanged := false; w_size := 0 |}).
Proof.
  intros st sp seen n t [_ B2] He. unfold K, R_entry in He.
  unfold spec_unchanged, s_stored, do_write, is_file_unchanged, written, append.
  destruct (s_get (s_map sp) (n_id n)) as [e|].
  - destruct (s_live e) as [[n0 t0]|].
    + destruct He as (off & r & E1 & E2 & E3 & E4 & E5 & E6 & _).
      destruct (size_pos _ E4) as (Hv & _). destruct (B2 _ _ E2) as [Hlt _].
      rewrite E1. cbn [nv_off nv_size]. rewrite (proj2 (N.eqb_neq _ _) E3), Hv. cbn [negb andb].
      unfold read_data, view_of_rec. rewrite E2, Z.eqb_refl, (proj2 (N.ltb_lt _ _) E4).
      change (n_cookie (r_n r)) with (v_cookie (view_of (r_n r))). rewrite E5. cbn [exp_view v_cookie v_data].
      rewrite E6. destruct (s_cookie e =? n_cookie n); cbn [andb]; [|reflexivity].
      destruct (bytes_eqb (n_data n0) (n_data n)); [reflexivity|].
      rewrite (proj2 (N.ltb_lt _ _) Hlt). reflexivity.
    + destruct He as (off & sz & r & E1 & E2 & E3 & _ & E5). destruct (size_neg _ E2) as [Hv _].
      destruct (B2 _ _ E3) as [Hlt _].
      rewrite E1. cbn [nv_off nv_size]. rewrite Hv, andb_false_r, E3, E5.
      destruct (s_cookie e =? n_cookie n); [|reflexivity].
      rewrite (proj2 (N.ltb_lt _ _) Hlt). reflexivity.
  - rewrite He. reflexivity.
Qed.

Lemma write_k : forall st sp seen n t,
  flags_eq st sp -> bounded st -> K st sp seen (n_id n) ->
  wf_needle n = true -> blen (n_data n) =? 0 = false -> fresh seen n ->
  xmatch (xexpect_write sp n t)
         (XO (OWrite (w_err (snd (store_write st n t))) (w_unchanged (snd (store_write st n t)))
                     (w_size (snd (store_write st n t))))) = true /\
  K (fst (store_write st n t)) (fst (spec_write sp n t)) (n :: seen) (n_id n).
Proof.
  intros st sp seen n t [F1 F2] HB He Hwf Hne Hfresh.
  assert (Hsame : forall sp', s_get (s_map sp') (n_id n) = s_get (s_map sp) (n_id n) -> K st sp' (n :: seen) (n_id n)).
  { intros sp' E. unfold K. rewrite E. eapply R_entry_frame; [exact He | reflexivity | auto | apply incl_tl, incl_refl]. }
  unfold xexpect_write, store_write, spec_write, is_read_only.
  rewrite F1, F2, (do_write_k _ _ _ _ _ HB He).
  destruct (s_nwod sp || s_nwcd sp); cbn [negb andb fst snd]; [auto|].
  destruct (spec_unchanged sp n) eqn:Hun.
  - (* isFileUnchanged: no conflict with the stored needle, so the new one reads back the same *)
    unfold spec_unchanged, s_stored in Hun. unfold K, R_entry in He.
    destruct (s_get (s_map sp) (n_id n)) as [e|]; [|discriminate].
    destruct (s_live e) as [[n0 t0]|]; [|discriminate].
    apply andb_true_iff in Hun. destruct Hun as [Hc Hd]. rewrite Hc. split; [reflexivity|].
    destruct He as (off & r & E1 & E2 & E3 & E4 & E5 & E6 & E7 & E8 & E9).
    apply N.eqb_eq in Hc. apply bytes_eqb_eq in Hd.
    pose proof (fresh_not_conflict _ _ _ Hfresh E9) as Hcf. unfold conflicts in Hcf.
    rewrite (proj2 (N.eqb_eq _ _) (eq_sym E7)), (proj2 (N.eqb_eq (n_cookie n) (n_cookie n0))),
      (proj2 (bytes_eqb_eq _ _) (eq_sym Hd)) in Hcf by congruence.
    apply orb_false_iff in Hcf. destruct Hcf as [Hve Hex]. apply negb_false_iff, view_eqb_eq in Hve.
    unfold K. cbn [fst with_map s_map]. rewrite s_get_same. cbn [R_entry s_live s_cookie].
    exists off, r. rewrite Hve. repeat split; auto; [congruence | left; reflexivity].
  - destruct (match s_get (s_map sp) (n_id n) with Some e => s_cookie e =? n_cookie n | None => true end);
      cbn [fst snd]; [|auto].
    split; [cbn [xmatch err_eqb Bool.eqb andb]; apply N.eqb_refl|].
    unfold K. cbn [with_map s_map]. rewrite s_get_same. cbn [R_entry s_live s_cookie].
    exists (dat_end st), {| r_off := dat_end st; r_size := needle_size n; r_at := t; r_n := n |}.
    unfold written, append, nm_set. cbn [fst with_nm nm recs find_rec r_off r_size r_n r_at].
    rewrite nm_get_same, N.eqb_refl. destruct HB as [B1 _].
    repeat split; auto; [lia | apply needle_size_pos; exact Hne | apply wf_view; exact Hwf | left; reflexivity].
Qed.
