(* Proofs about model/FilerNSRaw.v (C18): the request layer of AtomicRenameEntry (clean
   directories, plain names, buckets), histories with raw renames, the type-flip witness of known
   finding 0 and non-vacuity examples. *)
From Coq Require Import List NArith Bool String Ascii Arith Lia.
From SW Require Import model.FilerNSRaw proof.FilerNSBase proof.FilerNSCreate proof.FilerNSDelete
  proof.FilerNSRename proof.FilerNSHist.
Import ListNotations.
Local Open Scope string_scope.
Local Open Scope list_scope.

Lemma has_slash_app : forall a b, has_slash (a ++ b) = has_slash a || has_slash b.
Proof. induction a as [|c a IH]; intro b; simpl; [reflexivity|]. rewrite IH, orb_assoc. reflexivity. Qed.

Lemma split_slash_acc_no_slash : forall s cur, has_slash cur = false ->
  Forall (fun x => has_slash x = false) (split_slash_acc s cur).
Proof.
  induction s as [|c s IH]; intros cur Hc; simpl.
  - constructor; [exact Hc|constructor].
  - destruct (is_slash c) eqn:Ec.
    + constructor; [exact Hc|]. apply IH. reflexivity.
    + apply IH. rewrite has_slash_app, Hc. simpl. rewrite Ec. reflexivity.
Qed.

Lemma split_slash_no_slash : forall s, Forall (fun x => has_slash x = false) (split_slash s).
Proof. intro s. apply split_slash_acc_no_slash. reflexivity. Qed.

Lemma clean_step_valid : forall acc seg, has_slash seg = false ->
  Forall (fun n => valid_name n = true) acc -> Forall (fun n => valid_name n = true) (clean_step acc seg).
Proof.
  intros acc seg Hs Ha. unfold clean_step.
  destruct (String.eqb seg "" || String.eqb seg ".") eqn:E1; [exact Ha|].
  destruct (String.eqb seg "..") eqn:E2.
  - destruct acc; [exact Ha|]. inversion Ha; assumption.
  - constructor; [|exact Ha]. unfold valid_name. apply orb_false_iff in E1. destruct E1 as [E0 E1].
    rewrite E0, E1, E2, Hs. reflexivity.
Qed.

Lemma fold_clean_valid : forall segs acc, Forall (fun x => has_slash x = false) segs ->
  Forall (fun n => valid_name n = true) acc ->
  Forall (fun n => valid_name n = true) (fold_left clean_step segs acc).
Proof.
  induction segs as [|g segs IH]; intros acc Hs Ha; simpl; [exact Ha|].
  inversion Hs; subst. apply IH; [assumption|]. apply clean_step_valid; assumption.
Qed.

(* every segment of a cleaned directory is a plain entry name: the segment-list paths of
   model/FilerNS.v are exactly what the handler works on after path.Clean *)
Theorem clean_dir_valid : forall d, Forall (fun n => valid_name n = true) (clean_dir d).
Proof.
  intro d. unfold clean_dir. apply Forall_rev. apply fold_clean_valid; [apply split_slash_no_slash|constructor].
Qed.

Theorem rename_raw_valid : forall s od on nd nn,
  valid_name on = true -> valid_name nn = true -> can_rename (clean_dir od) (clean_dir nd) = true ->
  rename_raw s od on nd nn = rename s (clean_dir od) on (clean_dir nd) nn.
Proof. intros s od on nd nn H1 H2 H3. unfold rename_raw. rewrite H1, H2, H3. reflexivity. Qed.

Theorem rename_raw_bad_name_refused : forall s od on nd nn,
  valid_name on && valid_name nn = false -> rename_raw s od on nd nn = (s, EInvalid).
Proof. intros s od on nd nn H. unfold rename_raw. rewrite H. reflexivity. Qed.

Theorem rename_raw_cross_bucket_refused : forall s od on nd nn,
  can_rename (clean_dir od) (clean_dir nd) = false -> rename_raw s od on nd nn = (s, EInvalid).
Proof.
  intros s od on nd nn H. unfold rename_raw. rewrite H.
  destruct (negb (valid_name on && valid_name nn)); reflexivity.
Qed.

(* the handler refuses before reading anything, or it is AtomicRenameEntry of the cleaned request *)
Lemma rename_raw_cases : forall s od on nd nn,
  rename_raw s od on nd nn = (s, EInvalid) \/
  rename_raw s od on nd nn = rename s (clean_dir od) on (clean_dir nd) nn.
Proof.
  intros. unfold rename_raw. destruct (negb (valid_name on && valid_name nn)); [now left|].
  destruct (negb (can_rename (clean_dir od) (clean_dir nd))); [now left|now right].
Qed.

(* whatever the spelling of the two directories and whatever the names: when the NORMALISED target
   directory is the normalised source path or below it, the request is refused and nothing changes *)
Theorem rename_raw_into_own_subtree_refused : forall s od on nd nn,
  is_prefix (child (clean_dir od) on) (clean_dir nd) = true -> rename_raw s od on nd nn = (s, EInvalid).
Proof.
  intros s od on nd nn H. destruct (rename_raw_cases s od on nd nn) as [E|E]; rewrite E; [reflexivity|].
  now apply rename_into_own_subtree_refused.
Qed.

(* a name with a '/' is refused, so it cannot place the target below the source: e.g. /a -> "/" + "a/b"
   (the request of the defect repaired in 4bdf6264) *)
Theorem rename_raw_slash_name_refused : forall s od on nd nn,
  has_slash on = true \/ has_slash nn = true -> rename_raw s od on nd nn = (s, EInvalid).
Proof.
  intros s od on nd nn H. apply rename_raw_bad_name_refused.
  unfold valid_name. destruct H as [H|H]; rewrite H, ?orb_true_r; simpl; [reflexivity|apply andb_false_r].
Qed.

Theorem rename_raw_wf : forall s od on nd nn, wf s -> wf (fst (rename_raw s od on nd nn)).
Proof.
  intros s od on nd nn H. destruct (rename_raw_cases s od on nd nn) as [E|E]; rewrite E; [exact H|].
  now apply rename_wf.
Qed.

Theorem xstep_wf : forall s x, wf s -> wf (fst (xstep s x)).
Proof. intros s [o|od on nd nn] H; simpl; [apply step_wf|apply rename_raw_wf]; exact H. Qed.

Theorem xfinal_wf : forall xs s, wf s -> wf (xfinal s xs).
Proof. induction xs as [|x xs IH]; intros s H; simpl; [exact H|]. apply IH, xstep_wf, H. Qed.

Theorem xrun_wf : forall xs s, wf s -> Forall (fun sr => wf (fst sr)) (xrun s xs).
Proof.
  induction xs as [|x xs IH]; intros s H; simpl; constructor.
  - apply xstep_wf, H.
  - apply IH, xstep_wf, H.
Qed.

(* outside the wide trigger a raw rename does what the reference says *)
Theorem rename_raw_ref : forall s od on nd nn, wf s ->
  valid_name on && valid_name nn && can_rename (clean_dir od) (clean_dir nd) &&
    rename_trigger s (clean_dir od) on (clean_dir nd) nn = false ->
  exists se, ref_rename_raw s od on nd nn = Some (se, snd (rename_raw s od on nd nn)) /\
             equiv (fst (rename_raw s od on nd nn)) se.
Proof.
  intros s od on nd nn Hwf H. unfold ref_rename_raw, rename_raw.
  destruct (valid_name on && valid_name nn); simpl in *; [|exists s; split; [reflexivity|intro; reflexivity]].
  destruct (can_rename (clean_dir od) (clean_dir nd)); simpl in *; [|exists s; split; [reflexivity|intro; reflexivity]].
  exact (step_ref s (Rename (clean_dir od) on (clean_dir nd) nn) Hwf H).
Qed.

Lemma narrow_implies_wide : forall s od on nd nn,
  rename_trigger_n s od on nd nn = true -> rename_trigger s od on nd nn = true.
Proof. intros s od on nd nn H. unfold rename_trigger_n in H. apply andb_true_iff in H. tauto. Qed.

Lemma wide_false_narrow_false : forall s o, op_trigger s o = false -> op_trigger_n s o = false.
Proof.
  intros s [p e x|p e|p r i|od on nd nn] H; simpl in *; try reflexivity.
  unfold rename_trigger_n. rewrite H. reflexivity.
Qed.

(* the type flip inside the trigger (known finding 0, third witness):
   directory /a/b/a and file /a/b/b/a; then  mv /a/b -> /a :  the directory /a/b/a goes to /a/a, the
   file /a/b/b/a arrives at /a/b/a, and the final delete of /a/b fails on it (ENotEmpty) *)
Definition w_flip : store :=
  final [] [Create ["a"; "b"; "a"]%string (wD 1) false; Create ["a"; "b"; "b"; "a"]%string (wF 2) false].

Theorem rename_onto_ancestor_flips_type :
  exists s od on nd nn q a b,
    wf s /\ is_prefix (child od on) nd = false /\ rename_trigger_n s od on nd nn = true /\
    q <> [] /\ find s q = Some a /\ find (fst (rename s od on nd nn)) q = Some b /\ e_dir b <> e_dir a.
Proof.
  exists w_flip, ["a"%string], "b"%string, [], "a"%string, ["a"; "b"; "a"]%string. do 2 eexists.
  split; [apply wf_b_spec; vm_compute; reflexivity|].
  split; [vm_compute; reflexivity|].
  split; [vm_compute; reflexivity|].
  split; [discriminate|].
  split; [vm_compute; reflexivity|].
  split; [vm_compute; reflexivity|].
  vm_compute. discriminate.
Qed.

(* w_lost and w_half are inside the narrow trigger as well *)
Theorem witnesses_inside_narrow_trigger :
  rename_trigger_n w_lost ["a"%string] "a"%string [] "a"%string = true /\
  rename_trigger_n w_half [] "a"%string [] "b"%string = true.
Proof. split; vm_compute; reflexivity. Qed.

(* requests that spell a target below the source in different ways are refused; a valid unclean one moves the entry *)
Example ex_raw_requests :
  let s := final [] [Create ["a"; "x"]%string (wF 1) false] in
  rename_raw s "/" "a" "/" "a/b" = (s, EInvalid) /\
  rename_raw s "/" "a" "//a" "b" = (s, EInvalid) /\
  rename_raw s "/" "a" "/a/../a/./" "b" = (s, EInvalid) /\
  rename_raw s "/a" "" "/a/x2" "y" = (s, EInvalid) /\
  rename_raw s "/" "a" "/buckets/c" "a" = (s, EInvalid) /\
  clean_dir "//a/./b/../c/" = ["a"; "c"]%string /\ clean_dir "/../.." = [] /\ clean_dir "" = [] /\
  snd (rename_raw s "//a/" "x" "/b/../c" "y") = OK /\
  find (fst (rename_raw s "//a/" "x" "/b/../c" "y")) ["c"; "y"]%string = Some (wF 1).
Proof. vm_compute. repeat split; reflexivity. Qed.

(* a failing rename outside the trigger (hypotheses of the all-or-nothing theorem): a directory
   onto a file *)
Example ex_rename_fails_outside_trigger :
  let s := final [] [Create ["a"; "x"]%string (wF 1) false; Create ["b"]%string (wF 2) false] in
  wf s /\ rename_trigger s [] "a"%string [] "b"%string = false /\
  snd (rename s [] "a"%string [] "b"%string) = EIsFile.
Proof.
  cbv zeta. split; [apply final_wf, wf_nil|]. split; vm_compute; reflexivity.
Qed.

(* the hypotheses of the delete theorems *)
Example ex_delete_hypotheses :
  let s := final [] [Create ["a"; "b"; "x"]%string (wF 1) false; Create ["c"]%string (wF 2) false] in
  wf s /\ find s ["a"]%string = Some (implicit_dir (wF 1)) /\ has_children s ["a"]%string = true /\
  delete_entry s ["a"]%string false false = (s, ENotEmpty) /\
  snd (delete_entry s ["a"]%string true false) = OK /\
  keys (fst (delete_entry s ["a"]%string true false)) = [["c"]%string].
Proof.
  cbv zeta. split; [apply final_wf, wf_nil|]. vm_compute. repeat split; reflexivity.
Qed.

(* the hypotheses of the no-type-flip theorem: an update of a file by a directory is refused and a
   path present before and after a (non-trigger) rename keeps its type *)
Example ex_no_flip_hypotheses :
  let s := final [] [Create ["a"; "x"]%string (wF 1) false; Create ["b"; "x"]%string (wF 2) false] in
  let o := Rename [] "a"%string [] "c"%string in
  wf s /\ op_trigger s o = false /\
  find s ["b"; "x"]%string = Some (wF 2) /\ find (fst (step s o)) ["b"; "x"]%string = Some (wF 2) /\
  snd (step s (Update ["a"; "x"]%string (wD 9))) = EIsFile.
Proof.
  cbv zeta. split; [apply final_wf, wf_nil|]. vm_compute. repeat split; reflexivity.
Qed.
