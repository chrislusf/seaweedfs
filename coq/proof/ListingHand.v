(* C19: callbacks that stop a listing early (return false).
   A stop-aware store call is [hand] over what the plain store call visits.  As long as every
   answer of the callback is true, the stop-aware functions ( *_s ) coincide with the plain ones.
   (What a callback that does answer false gets is proved in ListingStop.v.) *)
From Coq Require Import List NArith Bool String Ascii Arith Lia.
From SW Require Import proof.ListFacts model.Listing proof.ListingBase proof.ListingStore proof.ListingScan proof.ListingPattern
                       proof.ListingProofs.
Import ListNotations.
Local Open Scope string_scope.
Local Open Scope list_scope.
Local Notation length := List.length.

Definition all_true (ans : list bool) : Prop := forallb (fun b => b) ans = true.

(* [n] answers of [ans0] have been consumed, [ans] are left; stop = the last consumed one was the
   first false *)
Definition ans_ok (ans0 : list bool) (n : nat) (ans : list bool) (stop : bool) : Prop :=
  ans = skipn n ans0 /\
  (if stop then 0 < n /\ first_false ans0 = Some (pred n) else all_true (firstn n ans0)).

Lemma first_false_skipn : forall n ans, all_true (firstn n ans) ->
  first_false ans = option_map (Nat.add n) (first_false (skipn n ans)).
Proof.
  unfold all_true. induction n as [|n IH]; intros ans Ht; [cbn [skipn]; destruct (first_false ans); reflexivity|].
  destruct ans as [|a ans]; [reflexivity|].
  cbn [firstn forallb] in Ht. apply andb_true_iff in Ht. destruct Ht as [Ha Ht]. subst a.
  cbn [skipn first_false]. rewrite (IH ans Ht). destruct (first_false (skipn n ans)); reflexivity.
Qed.

Lemma ans_ok_trans : forall ans0 n a n1 a' st,
  ans_ok ans0 n a false -> ans_ok a n1 a' st -> ans_ok ans0 (n + n1) a' st.
Proof.
  intros ans0 n a n1 a' st [A1 A2] [B1 B2]. subst a. split; [rewrite skipn_add; exact B1|].
  destruct st.
  - destruct B2 as [B2 B3]. split; [lia|].
    rewrite (first_false_skipn n ans0 A2), B3. cbn [option_map]. f_equal. lia.
  - unfold all_true in *. rewrite firstn_add, forallb_app, A2, B2. reflexivity.
Qed.

Lemma ans_ok_0 : forall ans, ans_ok ans 0 ans false.
Proof. intros. split; reflexivity. Qed.

Lemma cb_step_true : forall ms ans e, all_true ans ->
  snd (cb_step ms ans e) = true /\ all_true (fst (cb_step ms ans e)).
Proof.
  intros ms ans e H. unfold cb_step. destruct (passes ms e); [|split; auto].
  destruct ans as [|a ans]; [split; reflexivity|].
  unfold all_true in H. cbn [forallb] in H. apply andb_true_iff in H. destruct H as [Ha H].
  subst a. split; auto.
Qed.

Lemma hand_true : forall ms b ans, all_true ans ->
  h_vis (hand ms b ans) = b /\ all_true (h_ans (hand ms b ans)) /\ h_stop (hand ms b ans) = false.
Proof.
  induction b as [|e b IH]; intros ans H; cbn [hand]; [repeat split; auto|].
  destruct (cb_step_true ms ans e H) as [H1 H2]. rewrite H1. cbn [h_vis h_ans h_stop].
  destruct (IH _ H2) as [I1 [I2 I3]]. rewrite I1. repeat split; auto.
Qed.

(* the callback proper is asked about the entries that pass *)
Lemma cb_step_ans : forall ms ans e,
  ans_ok ans (if passes ms e then 1 else 0) (fst (cb_step ms ans e)) (negb (snd (cb_step ms ans e))).
Proof.
  intros ms ans e. unfold cb_step. destruct (passes ms e); [|apply ans_ok_0].
  destruct ans as [|[|] ans]; unfold ans_ok, all_true; cbn; auto.
Qed.

Lemma hand_ans : forall ms l ans,
  ans_ok ans (length (filter (passes ms) (h_vis (hand ms l ans)))) (h_ans (hand ms l ans)) (h_stop (hand ms l ans)).
Proof.
  induction l as [|e l IH]; intros ans; cbn [hand]; [apply ans_ok_0|].
  pose proof (cb_step_ans ms ans e) as H1. specialize (IH (fst (cb_step ms ans e))).
  destruct (snd (cb_step ms ans e)); cbn [h_vis h_ans h_stop filter negb] in *.
  - (* the chain answered true: e consumed 0 or 1 answers, the rest of the batch goes on *)
    pose proof (ans_ok_trans _ _ _ _ _ _ H1 IH) as H2.
    destruct (passes ms e); exact H2.
  - (* the chain answered false on e *)
    destruct (passes ms e); exact H1.
Qed.

Lemma hand_prefix : forall ms l ans,
  exists j, h_vis (hand ms l ans) = firstn j l /\ j <= length l /\
            (h_stop (hand ms l ans) = false -> h_vis (hand ms l ans) = l) /\
            (h_stop (hand ms l ans) = true -> 0 < j).
Proof.
  induction l as [|e l IH]; intros ans; cbn [hand].
  - exists 0. cbn. repeat split; auto. discriminate.
  - destruct (snd (cb_step ms ans e)).
    + destruct (IH (fst (cb_step ms ans e))) as [j [J1 [J2 [J3 J4]]]].
      exists (S j). cbn [h_vis h_stop firstn length]. rewrite J1.
      split; [reflexivity|]. split; [lia|]. split; [|intros; lia].
      intros Hs. rewrite <- J1. rewrite (J3 Hs). reflexivity.
    + exists 1. cbn [h_vis h_stop firstn length]. split; [reflexivity|]. split; [lia|].
      split; [discriminate|lia].
Qed.

Lemma hand_stop_ne : forall ms l ans, h_stop (hand ms l ans) = true -> h_vis (hand ms l ans) <> [].
Proof.
  intros ms l ans H. destruct (hand_prefix ms l ans) as [j [J1 [J2 [_ J4]]]]. specialize (J4 H).
  intro E. rewrite E in J1. assert (Hl : length (firstn j l) = 0) by (rewrite <- J1; reflexivity).
  rewrite firstn_length in Hl. lia.
Qed.

Lemma hand_app : forall ms l1 l2 ans,
  hand ms (l1 ++ l2) ans =
  if h_stop (hand ms l1 ans) then hand ms l1 ans
  else {| h_vis := h_vis (hand ms l1 ans) ++ h_vis (hand ms l2 (h_ans (hand ms l1 ans)));
          h_ans := h_ans (hand ms l2 (h_ans (hand ms l1 ans)));
          h_stop := h_stop (hand ms l2 (h_ans (hand ms l1 ans))) |}.
Proof.
  induction l1 as [|e l1 IH]; intros l2 ans; cbn [app hand].
  - cbn [h_stop h_vis h_ans app]. destruct (hand ms l2 ans); reflexivity.
  - destruct (snd (cb_step ms ans e)); [|reflexivity].
    rewrite IH. cbn [h_stop h_vis h_ans].
    destruct (h_stop (hand ms l1 (fst (cb_step ms ans e)))) eqn:Eh; [rewrite Eh|]; reflexivity.
Qed.

Lemma lvl_iter_s_hand : forall ms l start incl limit p ans,
  lvl_iter_s ms l start incl limit p ans = hand ms (lvl_iter l start incl limit p) ans.
Proof.
  induction l as [|e l IH]; intros start incl limit p ans; cbn [lvl_iter_s lvl_iter]; [reflexivity|].
  destruct (negb (String.prefix p (ename e))); [reflexivity|].
  destruct (String.eqb (ename e) ""); [apply IH|].
  destruct (String.eqb (ename e) start && negb incl); [apply IH|].
  destruct limit as [|limit]; [reflexivity|].
  cbn [hand]. destruct (snd (cb_step ms ans e)); [rewrite IH; reflexivity|reflexivity].
Qed.

Lemma pf_batch_s_hand : forall ms p batch need last ans em last',
  pf_batch p need batch last = (em, last') ->
  let r := pf_batch_s ms p need batch last ans in
  let h := hand ms em ans in
  b_em r = h_vis h /\ b_ans r = h_ans h /\ b_stop r = h_stop h /\
  b_last r = if h_stop h then last_name (h_vis h) else last'.
Proof.
  induction batch as [|e b IH]; intros need last ans em last' H; cbn [pf_batch_s pf_batch] in *.
  - inversion H; subst. cbn. auto.
  - destruct (String.prefix p (ename e)); [|exact (IH _ _ _ _ _ H)].
    destruct (snd (cb_step ms ans e)) eqn:Es.
    + destruct need as [|[|n]]; [inversion H; subst; cbn [hand]; rewrite Es; cbn; auto ..|].
      destruct (pf_batch p (S n) b (ename e)) as [em0 l0] eqn:Eb. inversion H; subst.
      specialize (IH (S n) (ename e) (fst (cb_step ms ans e)) em0 last' Eb). cbv zeta in IH.
      cbn [hand]. rewrite Es. cbn [b_em b_last b_ans b_stop h_vis h_ans h_stop].
      destruct IH as [I1 [I2 [I3 I4]]]. rewrite I1, I2, I3, I4.
      repeat split; auto.
      destruct (h_stop (hand ms em0 (fst (cb_step ms ans e)))) eqn:Eh; [|reflexivity].
      symmetry. apply last_name_cons. apply hand_stop_ne. exact Eh.
    + assert (Hem : exists t, em = e :: t).
      { destruct need as [|[|n]]; [inversion H; eauto ..|].
        destruct (pf_batch p (S n) b (ename e)). inversion H. eauto. }
      destruct Hem as [t ->]. cbn [hand]. rewrite Es. cbn. auto.
Qed.

Lemma pf_loop_acc : forall fuel d limit p last count batch acc v l,
  pf_loop fuel d limit p last count batch acc = Some (v, l) -> exists t, v = acc ++ t.
Proof.
  induction fuel as [|f IH]; intros d limit p last count batch acc v l H; cbn [pf_loop] in H.
  all: destruct (Nat.ltb count limit && negb (is_nil batch));
    [|inversion H; subst; exists []; rewrite app_nil_r; reflexivity].
  - discriminate.
  - destruct (pf_batch p (limit - count) batch last) as [em last'].
    destruct (Nat.ltb (count + length em) limit).
    + apply IH in H. destruct H as [t Ht]. exists (em ++ t). rewrite Ht, app_assoc. reflexivity.
    + inversion H; subst. exists em. reflexivity.
Qed.

(* the generic path, from any state of its loop: [v] is what the plain loop still hands on *)
Lemma pf_loop_s_hand : forall fuel ms d limit p last count batch acc ans v l,
  pf_loop fuel d limit p last count batch acc = Some (acc ++ v, l) ->
  pf_loop_s fuel ms d limit p last count batch acc ans =
  Some (acc ++ h_vis (hand ms v ans),
        (if h_stop (hand ms v ans) then last_name (h_vis (hand ms v ans)) else l),
        h_ans (hand ms v ans), h_stop (hand ms v ans)).
Proof.
  induction fuel as [|f IH]; intros ms d limit p last count batch acc ans v l H;
    cbn [pf_loop] in H; cbn [pf_loop_s].
  (* the loop is over (either fuel): nothing more is handed on *)
  all: destruct (Nat.ltb count limit && negb (is_nil batch));
    [|injection H as Hv <-; rewrite <- (app_nil_r acc) in Hv at 1; apply app_inv_head in Hv; subst v;
      cbn; rewrite app_nil_r; reflexivity].
  { discriminate. }
  destruct (pf_batch p (limit - count) batch last) as [em last'] eqn:Eb.
  destruct (pf_batch_s_hand ms p batch (limit - count) last ans em last' Eb) as [B1 [B2 [B3 B4]]]. cbv zeta in B1, B2, B3, B4.
  assert (Hv : exists t, v = em ++ t).
  { destruct (Nat.ltb (count + length em) limit).
    - apply pf_loop_acc in H as [t Ht]. exists t. rewrite <- app_assoc in Ht. exact (app_inv_head _ _ _ Ht).
    - injection H as Hv _. exists []. rewrite app_nil_r. symmetry. exact (app_inv_head _ _ _ Hv). }
  destruct Hv as [t ->]. rewrite hand_app, B1, B2, B3, B4.
  destruct (h_stop (hand ms em ans)) eqn:Eh; [rewrite !Eh; reflexivity|].
  destruct (hand_prefix ms em ans) as [j [_ [_ [J3 _]]]]. rewrite (J3 Eh). cbn [h_vis h_ans h_stop].
  destruct (Nat.ltb (count + length em) limit).
  - rewrite app_assoc in H. rewrite (IH ms _ limit p last' _ _ (acc ++ em) _ t l H), app_assoc.
    destruct (h_stop (hand ms t (h_ans (hand ms em ans)))) eqn:Et; [|reflexivity].
    rewrite last_name_app_ne by (apply hand_stop_ne; exact Et). reflexivity.
  - injection H as Hv <-. rewrite <- (app_nil_r (acc ++ em)) in Hv at 1. rewrite <- app_assoc in Hv.
    apply app_inv_head, app_inv_head in Hv. subst t. cbn. rewrite app_nil_r. reflexivity.
Qed.

Lemma hand_last : forall ms l ans,
  (if h_stop (hand ms l ans) then last_name (h_vis (hand ms l ans)) else last_name l) = last_name (h_vis (hand ms l ans)).
Proof.
  intros ms l ans. destruct (hand_prefix ms l ans) as [j [_ [_ [J3 _]]]].
  destruct (h_stop (hand ms l ans)); [reflexivity|rewrite (J3 eq_refl); reflexivity].
Qed.

Lemma wrapper_list_s_hand : forall s ms d start incl L p ans w,
  wrapper_list s d start incl L p = Some w ->
  wrapper_list_s s ms d start incl L p ans =
  Some ({| w_vis := h_vis (hand ms (w_vis w) ans);
           w_last := if h_stop (hand ms (w_vis w) ans) then last_name (h_vis (hand ms (w_vis w) ans)) else w_last w |},
        h_ans (hand ms (w_vis w) ans), h_stop (hand ms (w_vis w) ans)).
Proof.
  intros s ms d start incl L p ans w H. destruct s; cbn [wrapper_list wrapper_list_s] in *.
  - inversion H; subst. cbn [w_vis w_last]. rewrite lvl_iter_s_hand, hand_last. reflexivity.
  - unfold gen_list in H. destruct (String.eqb p "").
    + inversion H; subst. cbn [w_vis w_last]. rewrite hand_last. reflexivity.
    + destruct (pf_loop (S (length d)) d L p (last_name (mem_list d start incl L)) 0 (mem_list d start incl L) [])
        as [[v l]|] eqn:Ep; [|discriminate].
      inversion H; subst. cbn [w_vis w_last].
      rewrite (pf_loop_s_hand _ ms _ _ _ _ _ _ [] ans v l Ep). reflexivity.
Qed.

(* the stop-aware call [os] does what the plain call [o] does, up to [R] (None = no termination) *)
Definition same {A B} (R : A -> B -> Prop) (os : option A) (o : option B) : Prop :=
  match o with
  | Some r => exists rs, os = Some rs /\ R rs r
  | None => os = None
  end.

Lemma same_bind : forall {A B A' B'} (R : A -> B -> Prop) (R' : A' -> B' -> Prop) os o
                         (fs : A -> option A') (f : B -> option B'),
  same R os o -> (forall rs r, R rs r -> same R' (fs rs) (f r)) ->
  same R' (match os with Some rs => fs rs | None => None end) (match o with Some r => f r | None => None end).
Proof.
  unfold same. intros A B A' B' R R' os o fs f H Hf.
  destruct o as [r|]; [destruct H as [rs [-> HR]]; exact (Hf rs r HR)|rewrite H; reflexivity].
Qed.

Lemma pf_loop_s_none : forall fuel ms d limit p last count batch acc ans, all_true ans ->
  pf_loop fuel d limit p last count batch acc = None ->
  pf_loop_s fuel ms d limit p last count batch acc ans = None.
Proof.
  induction fuel as [|f IH]; intros ms d limit p last count batch acc ans H; cbn [pf_loop pf_loop_s].
  - destruct (Nat.ltb count limit && negb (is_nil batch)); [reflexivity|discriminate].
  - destruct (Nat.ltb count limit && negb (is_nil batch)); [|discriminate].
    destruct (pf_batch p (limit - count) batch last) as [em l] eqn:Eb.
    destruct (pf_batch_s_hand ms p batch (limit - count) last ans em l Eb) as [B1 [B2 [B3 B4]]]. cbv zeta in B1, B2, B3, B4.
    destruct (hand_true ms em ans H) as [T1 [T2 T3]]. rewrite T3 in B3, B4. rewrite T1 in B1. rewrite <- B2 in T2.
    rewrite B1, B3, B4.
    destruct (Nat.ltb (count + length em) limit); [apply IH; exact T2|discriminate].
Qed.

Lemma wrapper_list_s_true : forall s ms d start incl limit p ans, all_true ans ->
  same (fun x w => exists a, x = (w, a, false) /\ all_true a)
       (wrapper_list_s s ms d start incl limit p ans) (wrapper_list s d start incl limit p).
Proof.
  intros s ms d start incl limit p ans H. unfold same.
  destruct (wrapper_list s d start incl limit p) as [w|] eqn:E.
  - rewrite (wrapper_list_s_hand s ms d start incl limit p ans w E).
    destruct (hand_true ms (w_vis w) ans H) as [T1 [T2 T3]]. rewrite T1, T3. destruct w. eauto.
  - destruct s; [discriminate|]. cbn [wrapper_list wrapper_list_s] in *. unfold gen_list in E.
    destruct (String.eqb p ""); [discriminate|].
    rewrite pf_loop_s_none; [reflexivity|exact H|].
    destruct (pf_loop (S (length d)) d limit p (last_name (mem_list d start incl limit)) 0 (mem_list d start incl limit) [])
      as [[v l]|]; [discriminate|reflexivity].
Qed.

(* the stop-aware states seen as states of the plain functions: at the inner level
   (doListValidEntries) expired entries are owed, at the outer one (StreamListDirectoryEntries)
   missed ones; nothing once stopped *)
Definition inner_view (rs : sres) : lres :=
  {| r_count := if s_stop rs then 0 else s_exp rs; r_last := s_last rs; r_names := s_live rs; r_dir := s_dir rs |}.
Definition outer_view (rs : sres) : lres :=
  {| r_count := if s_stop rs then 0 else s_miss rs; r_last := s_last rs; r_names := s_names rs; r_dir := s_dir rs |}.

(* what the pattern closure [ms] makes of the live names *)
Definition by_closure (ms : string -> bool) (rs : sres) : Prop :=
  s_names rs = filter (fun n => negb (ms n)) (s_live rs) /\ s_miss rs = length (filter ms (s_live rs)).

Lemma by_closure_app : forall ms rs rs1 rs2, by_closure ms rs -> by_closure ms rs1 ->
  s_names rs2 = s_names rs ++ s_names rs1 -> s_live rs2 = s_live rs ++ s_live rs1 -> s_miss rs2 = s_miss rs + s_miss rs1 ->
  by_closure ms rs2.
Proof.
  intros ms rs rs1 rs2 [C1 C2] [D1 D2] E1 E2 E3. unfold by_closure.
  rewrite E1, E2, E3, C1, C2, D1, D2, !filter_app, app_length. auto.
Qed.

Definition rel_inner (ms : string -> bool) (rs : sres) (r : lres) : Prop :=
  inner_view rs = r /\ by_closure ms rs /\ s_stop rs = false /\ all_true (s_ans rs).
Definition rel_outer (rs : sres) (r : lres) : Prop :=
  outer_view rs = r /\ s_stop rs = false /\ all_true (s_ans rs).

Lemma do_list_s_true : forall s ms d start incl limit p ans, all_true ans ->
  same (rel_inner ms) (do_list_s s ms d start incl limit p ans) (do_list s d start incl limit p).
Proof.
  intros s ms d start incl limit p ans H. unfold do_list, do_list_s.
  apply (same_bind _ _ _ _ _ _ (wrapper_list_s_true s ms d start incl limit p ans H)).
  intros x w [a [-> Ha]]. eexists. split; [reflexivity|]. repeat split; auto.
Qed.

Lemma valid_loop_s_true : forall fuel s ms p rs r, rel_inner ms rs r ->
  same (rel_inner ms) (valid_loop_s fuel s ms p rs) (valid_loop fuel s p r).
Proof.
  induction fuel as [|f IH]; intros s ms p rs r [<- [C [Es Ha]]].
  all: assert (Hc : r_count (inner_view rs) = s_exp rs) by (cbn; rewrite Es; reflexivity).
  all: cbn [valid_loop valid_loop_s]; rewrite Hc, Es.
  all: destruct (s_exp rs) as [|k] eqn:Ec; [exists rs; split; [reflexivity|unfold rel_inner; auto]|].
  { reflexivity. }
  cbn [inner_view r_dir r_last].
  apply (same_bind _ _ _ _ _ _ (do_list_s_true s ms (s_dir rs) (s_last rs) false (S k) p (s_ans rs) Ha)).
  intros rs1 r1 [<- [C1 [Es1 Ha1]]].
  apply IH. split; [reflexivity|]. split; [apply (by_closure_app ms rs rs1); auto|auto].
Qed.

Lemma pattern_list_s_list_valid : forall s ms d start incl limit p ans, all_true ans ->
  same (rel_inner ms) (pattern_list_s s ms d start incl limit p ans) (list_valid s d start incl limit p).
Proof.
  intros s ms d start incl limit p ans H. unfold list_valid, pattern_list_s.
  apply (same_bind _ _ _ _ _ _ (do_list_s_true s ms d start incl limit p ans H)).
  intros rs r R. apply valid_loop_s_true. exact R.
Qed.

Lemma pattern_list_eq : forall s d start incl L p rest excl,
  pattern_list s d start incl L p rest excl =
  option_map (fun r => {| r_count := length (filter (ms_of p rest excl) (r_names r)); r_last := r_last r;
                          r_names := filter (fun n => negb (ms_of p rest excl n)) (r_names r); r_dir := r_dir r |})
             (list_valid s d start incl L p).
Proof.
  intros. unfold pattern_list, ms_of. destruct (list_valid s d start incl L p) as [r|]; [|reflexivity].
  destruct (String.eqb rest "" && String.eqb excl ""); [|reflexivity].
  cbn [option_map]. rewrite filter_all_false, filter_all_true by reflexivity. reflexivity.
Qed.

Lemma pattern_list_s_true : forall s d start incl limit p rest excl ans, all_true ans ->
  same rel_outer (pattern_list_s s (ms_of p rest excl) d start incl limit p ans) (pattern_list s d start incl limit p rest excl).
Proof.
  intros s d start incl limit p rest excl ans H. rewrite pattern_list_eq.
  pose proof (pattern_list_s_list_valid s (ms_of p rest excl) d start incl limit p ans H) as I. unfold same in *.
  destruct (list_valid s d start incl limit p) as [r|]; [|exact I].
  destruct I as [rs [E [<- [[Cn Cm] [Es Ha]]]]]. exists rs. split; [exact E|].
  split; [|auto]. unfold outer_view. rewrite Es, Cn, Cm. reflexivity.
Qed.

Lemma stream_loop_s_true : forall fuel s p rest excl rs r, rel_outer rs r ->
  same rel_outer (stream_loop_s fuel s (ms_of p rest excl) p rs) (stream_loop fuel s p rest excl r).
Proof.
  induction fuel as [|f IH]; intros s p rest excl rs r [<- [Es Ha]].
  all: assert (Hc : r_count (outer_view rs) = s_miss rs) by (cbn; rewrite Es; reflexivity).
  all: cbn [stream_loop stream_loop_s]; rewrite Hc, Es.
  all: destruct (s_miss rs) as [|k] eqn:Ec; [exists rs; split; [reflexivity|unfold rel_outer; auto]|].
  { reflexivity. }
  cbn [outer_view r_dir r_last].
  apply (same_bind _ _ _ _ _ _ (pattern_list_s_true s (s_dir rs) (s_last rs) false (S k) p rest excl (s_ans rs) Ha)).
  intros rs1 r1 [<- [Es1 Ha1]]. apply IH. split; [reflexivity|auto].
Qed.

Lemma stream_list_s_same : forall s d start incl limit prefix pat excl ans, all_true ans ->
  same rel_outer (stream_list_s s d start incl limit prefix pat excl ans) (stream_list s d start incl limit prefix pat excl).
Proof.
  intros s d start incl limit prefix pat excl ans H. unfold stream_list, stream_list_s.
  apply (same_bind _ _ _ _ _ _ (pattern_list_s_true s d start incl limit _ _ excl ans H)).
  intros rs r R. apply stream_loop_s_true. exact R.
Qed.
