(* C17: ReadAt on a chunk list (read_at_chunks), CompactFileChunks on a list without manifest
   chunks (compact_same; with manifests: ChunksWrap.v), doMaybeManifestize (manifestize_same). *)
From Coq Require Import List NArith Bool Arith Lia Permutation Sorted.
From Coq Require Import ZifyBool ZifyN ZifyNat.
From SW Require Import proof.ListFacts model.Chunks proof.ChunksProofs proof.ChunksOverlay proof.ChunksRead.
Import ListNotations.
Local Open Scope N_scope.

Lemma total_size_ge_acc : forall l acc,
  acc <= fold_left (fun a c => if a <? c_stop c then c_stop c else a) l acc /\
  forall c, In c l -> c_stop c <= fold_left (fun a c => if a <? c_stop c then c_stop c else a) l acc.
Proof.
  induction l as [|x l IH]; intros acc; simpl.
  - split; [lia|intros c []].
  - destruct (IH (if acc <? c_stop x then c_stop x else acc)) as [H1 H2]. split.
    + destruct (acc <? c_stop x) eqn:E; lia.
    + intros c [Hc|Hc]; subst; auto. destruct (acc <? c_stop c) eqn:E; lia.
Qed.

Lemma total_size_ge : forall l c, In c l -> c_stop c <= total_size l.
Proof. intros l c H. apply (total_size_ge_acc l 0). auto. Qed.

Theorem read_at_chunks : forall src fuel ms chunks d m fs buf off,
  resolve fuel ms 0 max_int64 chunks = Some (d, m) -> NoDup (map key d) ->
  (forall c, In c d -> N.of_nat (length (src (c_fid c))) = c_size c) ->
  (forall c, In c d -> c_stop c <= fs) -> fs <= max_int64 ->
  let r := read_at src (view_from_chunks fuel ms chunks 0 max_int64) fs buf off in
  let len := N.of_nat (length buf) in
  rr_n r = N.min len (fs - off) /\
  length (rr_buf r) = length buf /\
  rr_eof r = (fs <=? off + len) /\
  forall i, (i < length buf)%nat ->
    nth i (rr_buf r) 0 = if N.of_nat i <? rr_n r then overlay src d (off + N.of_nat i) else nth i buf 0.
Proof.
  intros src fuel ms chunks d m fs buf off Hres Hn Hlen Hfs Hmax.
  destruct (whole_file_views src fuel ms chunks d m fs Hres Hn Hlen Hfs Hmax) as [HV [Hsrc Hfit]].
  set (V := view_from_chunks fuel ms chunks 0 max_int64) in *.
  destruct (read_at_views src V fs buf off HV (Forall_impl _ (fun w H => proj1 H) Hfit))
    as [Rn [Rl [Re Rb]]].
  cbv zeta. repeat split; auto.
  intros i Hi. rewrite (Rb i Hi). unfold views_byte, overlay. rewrite Hsrc. reflexivity.
Qed.

Theorem compact_same : forall f ms chunks,
  Forall (fun c => c_manifest c = false) chunks ->
  Forall (fun c => c_stop c <= max_int64) chunks ->
  NoDup (map key chunks) ->
  Permutation (fst (compact_file_chunks (S f) ms chunks) ++ snd (compact_file_chunks (S f) ms chunks)) chunks /\
  forall p, overlay_src (fst (compact_file_chunks (S f) ms chunks)) p = overlay_src chunks p.
Proof.
  intros f ms chunks Hd Hmax Hn. unfold compact_file_chunks. rewrite partition_filter. simpl.
  split; [apply filter_perm_partition|].
  intros p. unfold overlay_src. rewrite winner_filter_keep; auto.
  intros w Hw. destruct (winner_in _ _ _ Hw) as [Iw Cw].
  rewrite Forall_forall in Hmax. specialize (Hmax w Iw).
  assert (Hp : p < max_int64) by (unfold covers in Cw; lia).
  pose proof (non_overlapping_overlay_data f ms chunks 0 max_int64 p Hd Hn (N.le_0_l p) Hp) as Hs.
  unfold overlay_src in Hs. rewrite Hw in Hs. unfold src_of_visibles in Hs.
  destruct (visible_at (fst (non_overlapping_visible_intervals (S f) ms chunks 0 max_int64)) p) as [v|] eqn:Ev;
    [|discriminate].
  inversion Hs as [[E1 E2]]. apply visible_at_some in Ev. destruct Ev as [Iv _].
  apply existsb_exists. exists v. split; auto. rewrite E1. apply N.eqb_refl.
Qed.

Lemma join_unit_l : forall b, join_resolved (Some ([], [])) b = b.
Proof. intros [[d m]|]; reflexivity. Qed.

Lemma join_assoc : forall a b c,
  join_resolved a (join_resolved b c) = join_resolved (join_resolved a b) c.
Proof.
  intros [[d1 m1]|] [[d2 m2]|] [[d3 m3]|]; simpl; auto. rewrite !app_assoc. reflexivity.
Qed.

Lemma resolve_app : forall f ms s e a b,
  resolve (S f) ms s e (a ++ b) = join_resolved (resolve (S f) ms s e a) (resolve (S f) ms s e b).
Proof.
  intros f ms s e a b. induction a as [|c a IH].
  - rewrite resolve_nil, join_unit_l. reflexivity.
  - simpl app. rewrite !resolve_cons, IH, join_assoc. reflexivity.
Qed.

Lemma resolve_mono : forall fuel fuel' ms ms' s e, (fuel <= fuel')%nat ->
  (forall k v, ms_lookup ms k = Some v -> ms_lookup ms' k = Some v) ->
  forall cs r, resolve fuel ms s e cs = Some r -> resolve fuel' ms' s e cs = Some r.
Proof.
  induction fuel as [|f IHf]; intros fuel' ms ms' s e Hle Hext cs r H; [discriminate|].
  destruct fuel' as [|f']; [lia|].
  revert r H. induction cs as [|c cs IHc]; intros [d m] H; [exact H|].
  rewrite resolve_cons in *. apply join_some in H.
  destruct H as [d1 [m1 [d2 [m2 [H1 [H2 [Ed Em]]]]]]]. subst d m.
  rewrite (IHc _ H2).
  assert (H1' : resolve_one f' ms' s e c = Some (d1, m1)).
  { unfold resolve_one in *. destruct (outside_window s e c); auto.
    destruct (negb (c_manifest c)); auto.
    destruct (ms_lookup ms (c_fid c)) as [sub|] eqn:El; [|discriminate].
    rewrite (Hext _ _ El).
    destruct (resolve f ms s e sub) as [[d' m']|] eqn:Er; [|discriminate].
    rewrite (IHf f' ms ms' s e (le_S_n _ _ Hle) Hext _ _ Er). exact H1. }
  rewrite H1'. reflexivity.
Qed.

Lemma resolve_perm : forall f ms s e cs cs', Permutation cs cs' ->
  forall d m, resolve (S f) ms s e cs = Some (d, m) ->
  exists d' m', resolve (S f) ms s e cs' = Some (d', m') /\ Permutation d d'.
Proof.
  intros f ms s e cs cs' P. induction P as [|x l l' P IH|x y l|l l' l'' P1 IH1 P2 IH2]; intros d m H.
  - exists d, m. auto.
  - rewrite resolve_cons in H. apply join_some in H.
    destruct H as [d1 [m1 [d2 [m2 [H1 [H2 [Ed Em]]]]]]]. subst d m.
    destruct (IH _ _ H2) as [d2' [m2' [H2' Pd]]].
    exists (d1 ++ d2'), (m1 ++ m2'). rewrite resolve_cons, H1, H2'. split; auto.
    apply Permutation_app_head. auto.
  - rewrite !resolve_cons in H. apply join_some in H.
    destruct H as [d1 [m1 [d2 [m2 [H1 [H2 [Ed Em]]]]]]]. subst d m.
    apply join_some in H2. destruct H2 as [d3 [m3 [d4 [m4 [H3 [H4 [Ed Em]]]]]]]. subst d2 m2.
    exists (d3 ++ d1 ++ d4), (m3 ++ m1 ++ m4). rewrite !resolve_cons, H1, H3, H4. split; auto.
    apply Permutation_app_swap_app.
  - destruct (IH1 _ _ H) as [d1 [m1 [H1 Pd1]]]. destruct (IH2 _ _ H1) as [d2 [m2 [H2 Pd2]]].
    exists d2, m2. split; auto. eapply perm_trans; eauto.
Qed.

Lemma fold_min_le : forall b init,
  fold_left (fun a c => if c_off c <? a then c_off c else a) b init <= init /\
  forall c, In c b -> fold_left (fun a c => if c_off c <? a then c_off c else a) b init <= c_off c.
Proof.
  induction b as [|x b IH]; intros init; simpl.
  - split; [lia|intros c []].
  - destruct (IH (if c_off x <? init then c_off x else init)) as [H1 H2]. split.
    + destruct (c_off x <? init) eqn:E; lia.
    + intros c [Hc|Hc]; subst; auto. destruct (c_off c <? init) eqn:E; lia.
Qed.

(* mergeIntoManifest: the manifest chunk spans its batch, so where it misses the window every
   chunk of the batch does *)
Lemma manifest_outside_window : forall fid mt b s e c, In c b ->
  outside_window s e (manifest_chunk_of fid mt b) = true -> outside_window s e c = true.
Proof.
  intros fid mt b s e c Hc H. unfold manifest_chunk_of, outside_window in *. unfold c_stop in *.
  cbn [c_off c_size] in H.
  pose proof (proj2 (fold_min_le b max_int64) c Hc) as Hmin.
  pose proof (proj2 (total_size_ge_acc b 0) c Hc) as Hmax. unfold c_stop in Hmax.
  lia.
Qed.

Lemma batches_concat : forall fuel k ds bs rest, batches fuel k ds = (bs, rest) -> ds = concat bs ++ rest.
Proof.
  induction fuel as [|f IH]; intros k ds bs rest H; simpl in H.
  - inversion H; subst. reflexivity.
  - destruct (Nat.leb k (length ds)).
    + destruct (batches f k (skipn k ds)) as [bs' r'] eqn:E. inversion H; subst.
      simpl. rewrite <- app_assoc. rewrite <- (IH _ _ _ _ E). symmetry. apply firstn_skipn.
    + inversion H; subst. reflexivity.
Qed.

Lemma save_batches_fst : forall next mt b r,
  fst (save_batches next mt (b :: r)) = manifest_chunk_of next mt b :: fst (save_batches (next + 1) mt r).
Proof. intros. simpl. destruct (save_batches (next + 1) mt r). reflexivity. Qed.

Lemma save_batches_snd : forall next mt b r,
  snd (save_batches next mt (b :: r)) = (next, b) :: snd (save_batches (next + 1) mt r).
Proof. intros. simpl. destruct (save_batches (next + 1) mt r). reflexivity. Qed.

Lemma saved_keys : forall bs next mt kv, In kv (snd (save_batches next mt bs)) -> next <= fst kv.
Proof.
  induction bs as [|b r IH]; intros next mt kv H.
  - destruct H.
  - rewrite save_batches_snd in H. destruct H as [H|H]; [subst; simpl; lia|].
    apply IH in H. lia.
Qed.

Lemma lookup_saved : forall bs next mt ms i b, nth_error bs i = Some b ->
  ms_lookup (snd (save_batches next mt bs) ++ ms) (next + N.of_nat i) = Some b.
Proof.
  induction bs as [|b0 r IH]; intros next mt ms i b H.
  - destruct i; discriminate.
  - rewrite save_batches_snd. simpl. destruct i as [|j]; simpl in H.
    + inversion H; subst. replace (next =? next + N.of_nat 0) with true by lia. reflexivity.
    + replace (next =? next + N.of_nat (S j)) with false by lia.
      replace (next + N.of_nat (S j)) with (next + 1 + N.of_nat j) by lia. apply IH. auto.
Qed.

Lemma lookup_app_skip : forall st ms j, (forall kv, In kv st -> fst kv <> j) ->
  ms_lookup (st ++ ms) j = ms_lookup ms j.
Proof.
  induction st as [|[k v] st IH]; intros ms j H; simpl; auto.
  pose proof (H (k, v) (or_introl eq_refl)) as Hk. simpl in Hk.
  replace (k =? j) with false by lia. apply IH. intros kv Hkv. apply H. right. auto.
Qed.

(* one level of fuel for the manifest chunks just written, one for the data chunks they list *)
Lemma resolve_saved : forall bs next mt f ms' s e,
  (forall i b, nth_error bs i = Some b -> ms_lookup ms' (next + N.of_nat i) = Some b) ->
  Forall (fun c => c_manifest c = false) (concat bs) ->
  exists mm, resolve (S (S f)) ms' s e (fst (save_batches next mt bs)) =
             Some (filter (in_window s e) (concat bs), mm).
Proof.
  induction bs as [|b r IH]; intros next mt f ms' s e Hl Hd.
  - exists []. reflexivity.
  - simpl in Hd. apply Forall_app in Hd. destruct Hd as [Hb Hr].
    destruct (IH (next + 1) mt f ms' s e) as [mm Hmm]; auto.
    { intros i b' Hi. replace (next + 1 + N.of_nat i) with (next + N.of_nat (S i)) by lia. apply Hl. exact Hi. }
    rewrite save_batches_fst, resolve_cons, Hmm. simpl concat. rewrite filter_app.
    unfold resolve_one.
    destruct (outside_window s e (manifest_chunk_of next mt b)) eqn:Eo.
    + rewrite (filter_all_false (in_window s e) b);
        [|intros c Hc; unfold in_window; rewrite (manifest_outside_window _ _ _ _ _ _ Hc Eo); reflexivity].
      exists mm. reflexivity.
    + simpl c_manifest. simpl negb. simpl c_fid.
      pose proof (Hl 0%nat b eq_refl) as H0. replace (next + N.of_nat 0) with next in H0 by lia.
      rewrite H0. rewrite (resolve_data_only f ms' s e b Hb).
      eexists. reflexivity.
Qed.

Theorem manifestize_same : forall k next mt chunks fuel ms s e d m,
  resolve fuel ms s e chunks = Some (d, m) ->
  (forall j v, ms_lookup ms j = Some v -> j < next) ->
  exists d' m',
    resolve (S fuel) (snd (maybe_manifestize k next mt chunks) ++ ms) s e
            (fst (maybe_manifestize k next mt chunks)) = Some (d', m') /\
    Permutation d d'.
Proof.
  intros k next mt chunks fuel ms s e d m Hres Hfresh.
  destruct fuel as [|f]; [discriminate|].
  unfold maybe_manifestize.
  set (ds := filter (fun c => negb (c_manifest c)) chunks).
  set (mcs := filter c_manifest chunks).
  destruct (batches (length ds) k ds) as [bs rest] eqn:Eb.
  destruct (save_batches next mt bs) as [newm st] eqn:Es. simpl fst. simpl snd.
  assert (Enewm : newm = fst (save_batches next mt bs)) by (rewrite Es; reflexivity).
  assert (Est : st = snd (save_batches next mt bs)) by (rewrite Es; reflexivity).
  pose proof (batches_concat _ _ _ _ _ Eb) as Hds.
  pose proof (data_filter chunks) as Hdata. fold ds in Hdata.
  assert (Hdata' : Forall (fun c => c_manifest c = false) (concat bs) /\
                   Forall (fun c => c_manifest c = false) rest).
  { rewrite Hds in Hdata. apply Forall_app in Hdata. exact Hdata. }
  destruct Hdata' as [Hdbs Hdrest].
  (* the original list, manifests first *)
  assert (P1 : Permutation chunks (mcs ++ ds)) by (apply Permutation_sym, filter_perm_partition).
  destruct (resolve_perm f ms s e _ _ P1 _ _ Hres) as [d2 [m2 [H2 Pd]]].
  rewrite resolve_app in H2. apply join_some in H2.
  destruct H2 as [dm [mm [dd [md [Hm [Hd [Ed Em]]]]]]]. subst d2 m2.
  rewrite (resolve_data_only f ms s e ds Hdata) in Hd. inversion Hd; subst dd md. clear Hd.
  (* the new list *)
  assert (Hext : forall j v, ms_lookup ms j = Some v -> ms_lookup (st ++ ms) j = Some v).
  { intros j v Hj. rewrite lookup_app_skip; auto. intros kv Hkv. rewrite Est in Hkv.
    apply saved_keys in Hkv. specialize (Hfresh _ _ Hj). lia. }
  pose proof (resolve_mono (S f) (S (S f)) _ _ s e (Nat.le_succ_diag_r _) Hext _ _ Hm) as Hm'.
  destruct (resolve_saved bs next mt f (st ++ ms) s e) as [mn Hn].
  { intros i b Hi. rewrite Est. apply lookup_saved. exact Hi. }
  { exact Hdbs. }
  rewrite <- Enewm in Hn.
  rewrite !resolve_app, Hm', Hn, (resolve_data_only (S f) (st ++ ms) s e rest Hdrest). simpl.
  eexists. eexists. split; [reflexivity|].
  rewrite <- filter_app, <- Hds. exact Pd.
Qed.

Theorem manifestize_overlay : forall k next mt chunks fuel ms s e d m,
  resolve fuel ms s e chunks = Some (d, m) ->
  (forall j v, ms_lookup ms j = Some v -> j < next) ->
  NoDup (map key d) ->
  forall p,
    src_of_visibles
      (fst (non_overlapping_visible_intervals (S fuel) (snd (maybe_manifestize k next mt chunks) ++ ms)
              (fst (maybe_manifestize k next mt chunks)) s e)) p = overlay_src d p.
Proof.
  intros k next mt chunks fuel ms s e d m Hres Hfresh Hn p.
  destruct (manifestize_same k next mt chunks fuel ms s e d m Hres Hfresh) as [d' [m' [H P]]].
  rewrite (non_overlapping_overlay _ _ _ _ _ d' m' H).
  - symmetry. apply overlay_perm; auto.
  - eapply Permutation_NoDup; [apply Permutation_map; exact P|exact Hn].
Qed.
