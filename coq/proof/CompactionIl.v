(* C04: compaction is invisible to readers, per key and with writers running concurrently with
   the copy loop; the history-wide, phase-structured form as a corollary. *)
From Coq Require Import List NArith ZArith Bool Lia Permutation.
From SW Require Import model.Volume model.Compaction.
From SW Require Import proof.CompactionInv proof.CompactionRead proof.CompactionCopy proof.CompactionMakeup
                       proof.CompactionProofs.
Import ListNotations.
Local Open Scope N_scope.

Lemma content_size_pos : forall s k p, cinv s -> nzid s k -> content (cv s) k = Some p -> 0 < fst (fst p).
Proof.
  intros s k p H Hz C. destruct (content_facts _ _ _ H C) as [off [r [L [_ [_ ->]]]]].
  pose proof (live_size _ _ _ _ Hz L). simpl. lia.
Qed.

(* a record that the TTL filter of the copy loop drops was written before the compaction, by a
   write the hypothesis on TTLs covers: a read refuses it *)
Lemma dropped_expired : forall vt now_s now_r h1 id r,
  In r (recs (cv (c_exec vt cinit h1))) -> n_id (r_n r) = id -> 0 < r_size r ->
  ttl_consistent_on id vt now_s now_r h1 = true ->
  ttl_dropped vt now_s (view_pl (pl r)) = true -> read_pl now_r (pl r) = None.
Proof.
  intros vt now_s now_r h1 id r Hin Hid Hpos Httl Hdrop.
  destruct (exec_provenance vt h1 cinit r cinv_init Hin) as [[]|[Hz|[n0 [Hev Hn]]]]; [lia|].
  unfold ttl_consistent_on in Httl. rewrite forallb_forall in Httl. specialize (Httl _ Hev).
  assert (Wk : writes_key id (r_at r, CWrite n0) = true).
  { unfold writes_key. simpl. apply N.eqb_eq. rewrite <- (adjust_id vt n0), <- Hn. exact Hid. }
  rewrite Wk in Httl. unfold ttl_ok in Httl. simpl in Httl. rewrite <- Hn in Httl.
  assert (Hv : view_pl (pl r) = view_of (r_n r)).
  { unfold view_pl, pl. simpl. rewrite (proj2 (N.ltb_lt _ _) Hpos). reflexivity. }
  unfold read_pl. rewrite Hv in *. rewrite Hdrop in Httl. simpl in Httl. simpl. rewrite Httl. reflexivity.
Qed.

Theorem invisible_il_key : forall g al now_s now_r ord h1 sched h2 id,
  Permutation ord (default_ord g h1 (concat sched ++ h2)) ->
  no_empty_on id (h1 ++ concat sched ++ h2) = true ->
  ttl_consistent_on id (g_vttl g) now_s now_r h1 = true ->
  check_noop (check_files (compacted_files_il g al now_s ord h1 sched h2)) = true ->
  read_of (commit (compacted_files_il g al now_s ord h1 sched h2)) now_r id =
  read_of (twin g h1 (concat sched ++ h2)) now_r id.
Proof.
  intros g al now_s now_r ord h1 sched h2 id P Hemp Httl Hnoop.
  destruct (setting_intro g al now_s ord h1 sched h2 P) as [s1 [s2 [d [E1 E2 I1 I2 G Hd Hnd Hord Hsrc CS EF]]]].
  set (vt := g_vttl g) in *. set (a := copied al vt now_s sched s1) in *.
  set (F := compacted_files_il g al now_s ord h1 sched h2) in *.
  assert (Hne : forall ev, In ev (h1 ++ concat sched ++ h2) -> ev_ne_on id ev) by (apply no_empty_on_forall; exact Hemp).
  assert (Z1 : nzid s1 id).
  { rewrite E1. apply exec_nzid; [apply cinv_init | discriminate |]. intros ev Hin. apply Hne, in_or_app. auto. }
  assert (Z2 : nzid s2 id) by (rewrite E2; apply exec_nzid; [apply cinv_init | discriminate | exact Hne]).
  unfold read_of, twin. fold vt. rewrite <- E2, (commit_noop F Hnoop).
  rewrite read_char by apply (load_nz (f_idx F)). rewrite read_char by exact Z2.
  set (fin := {| recs := f_recs F; nm := load_idx (f_idx F); dat_end := f_end F;
                 no_write_or_delete := false; no_write_can_delete := false |}).
  (* the loaded files serve what the running volume serves, or nothing where it serves an expired needle *)
  assert (Main : content fin id = content (cv s2) id \/
                 (content fin id = None /\ exists p, content (cv s2) id = Some p /\ read_pl now_r p = None)).
  { unfold fin. rewrite EF. destruct (makeup_fails (length (cidx s1)) s2).
    - (* makeupDiff failed: the old files are reloaded *)
      left. apply reload_content; assumption.
    - destruct (fold_append_only (cv s2) d ord (files_of a) (cs_sorted _ _ _ _ _ CS) Hsrc) as [_ Old].
      destruct (idx_get d id) as [e|] eqn:Gd.
      + (* the key has an .idx entry of the second phase: makeupDiff replays its newest one *)
        left. assert (Hin : In id ord) by (apply Hord; congruence).
        destruct (makeup_key (cv s2) d ord (files_of a) id e Hnd (cs_sorted _ _ _ _ _ CS) Hsrc Hin Gd) as [o [Hi Hu]].
        assert (G2 : idx_get (cidx s2) id = Some e) by (rewrite Hd, idx_get_app, Gd; reflexivity).
        destruct (live (nm (cv s2)) id) as [[off size]|] eqn:L.
        * destruct (live_facts _ _ _ _ I2 L) as [Hs0 [Ho [Hi2 [r [Hf [Hsz [_ Hc]]]]]]].
          rewrite G2 in Hi2. inversion Hi2; subst e. pose proof (live_size _ _ _ _ Z2 L) as Hnz.
          destruct Hu as [H8 [r0 [r' [Hf0 [Hf' Hpl]]]]]; [apply entry_valid_true; simpl; split; [exact Ho | lia]|].
          simpl in Hf0, Hi. rewrite Hf in Hf0. inversion Hf0; subst r0. rewrite Hc, <- Hpl.
          assert (Hs' : r_size r' = r_size r) by (inversion Hpl; reflexivity).
          rewrite <- Hsz, <- Hs' in Hi. apply content_files_put with (o := o); auto; lia.
        * rewrite content_files, Hi. unfold entry_valid. simpl. rewrite (dead_entry _ _ _ I2 L G2), andb_false_r.
          unfold content. rewrite L. reflexivity.
      + (* no .idx entry of the second phase: served from the copy, unless the TTL filter dropped it *)
        rewrite content_files, makeup_idx_other by (intro Hin; apply Hord in Hin; contradiction).
        rewrite (no_entry_content s1 s2 d id I1 I2 G Hd Gd).
        change (f_idx (files_of a)) with (save_idx (a_db a)). rewrite save_idx_get by apply CS.
        destruct (idx_get (a_db a) id) as [e0|] eqn:G0.
        * left. destruct (cs_some _ _ _ _ _ CS id e0 Gd G0) as [r' [Hf [Hsz Hc]]].
          destruct (find_rec_bound _ _ _ _ (cs_sorted _ _ _ _ _ CS) Hf) as [H8 _].
          pose proof (content_size_pos _ _ _ I1 Z1 Hc) as Hpos. simpl in Hpos.
          rewrite (proj2 (entry_dead_false e0)) by (split; lia).
          rewrite (proj2 (entry_valid_true e0)) by (split; lia).
          rewrite (Old _ _ Hf), Hsz, Z.eqb_refl. symmetry. exact Hc.
        * destruct (content (cv s1) id) as [p|] eqn:Hc; [|left; reflexivity].
          right. split; [reflexivity|]. exists p. split; [reflexivity|].
          pose proof (content_size_pos _ _ _ I1 Z1 Hc) as Hpos.
          pose proof (cs_none _ _ _ _ _ CS id p Gd G0 Hc Hpos) as Hdrop.
          destruct (content_facts _ _ _ I1 Hc) as [off [r [_ [Hf [Hid ->]]]]]. rewrite E1 in Hf.
          exact (dropped_expired vt now_s now_r h1 id r (find_rec_In _ _ _ Hf) Hid Hpos Httl Hdrop). }
  destruct Main as [->|[-> [p [-> Hp]]]]; [reflexivity | symmetry; exact Hp].
Qed.

Lemma ttl_consistent_all : forall id vt now_s now_r h,
  ttl_consistent vt now_s now_r h = true -> ttl_consistent_on id vt now_s now_r h = true.
Proof.
  intros id vt now_s now_r h H. unfold ttl_consistent in H. unfold ttl_consistent_on.
  rewrite forallb_forall in *. intros ev Hin. rewrite (H ev Hin). apply orb_true_r.
Qed.

Theorem invisible_partial : forall g al now_s now_r ord h1 h2,
  Permutation ord (default_ord g h1 h2) ->
  has_empty (h1 ++ h2) = false ->
  ttl_consistent (g_vttl g) now_s now_r h1 = true ->
  reload_noop g al now_s ord h1 h2 = true ->
  forall id, read_of (compacted g al now_s ord h1 h2) now_r id = read_of (twin g h1 h2) now_r id.
Proof.
  intros g al now_s now_r ord h1 h2 P He Ht Hn id. unfold compacted, reload_noop in *.
  rewrite <- compacted_files_il_nil in *.
  apply (invisible_il_key g al now_s now_r ord h1 [] h2 id);
    [exact P | apply no_empty_all; exact He | apply ttl_consistent_all; exact Ht | exact Hn].
Qed.

(* with writers in the middle of the scan: key 1 is overwritten after its record was copied, key 2 is deleted before the scanner
   reaches it, key 4 appears during the scan (its record is visited by the scanner and
   replayed by makeupDiff) *)
Definition il_h1 : list cevent :=
  [(1, CWrite (nd 1 [1] 8 1000 (0, 0))); (2, CWrite (nd 2 [2] 8 1000 (0, 0))); (3, CWrite (nd 3 [3] 8 1000 (0, 0)))].
Definition il_sched : list (list cevent) :=
  [[]; [(4, CWrite (nd 1 [9; 9] 8 1000 (0, 0))); (5, CDelete 2 7)]; [(6, CWrite (nd 4 [4] 8 1000 (0, 0)))]].

Lemma il_example_ok :
  let ord := default_ord g4 il_h1 (concat il_sched ++ []) in
  let F := compacted_files_il g4 Scan 1000 ord il_h1 il_sched [] in
  forallb (fun k => no_empty_on k (il_h1 ++ concat il_sched ++ []) &&
                    ttl_consistent_on k (g_vttl g4) 1000 (1001 * sec) il_h1) [1; 2; 3; 4] = true /\
  check_noop (check_files F) = true /\
  length (f_recs F) = 7%nat /\
  map (fun k => option_map fst (read_of (commit F) (1001 * sec) k)) [1; 2; 3; 4] = [Some 2%Z; None; Some 1%Z; Some 1%Z] /\
  map (fun k => option_map fst (read_of (twin g4 il_h1 (concat il_sched ++ [])) (1001 * sec) k)) [1; 2; 3; 4]
  = [Some 2%Z; None; Some 1%Z; Some 1%Z].
Proof. vm_compute. repeat split; reflexivity. Qed.

(* the per-key hypotheses are strictly weaker than the history-wide ones: an empty blob on key 1
   (finding 0) leaves the guarantee for key 2 intact *)
Lemma key_narrowing_ok :
  has_empty (w_empty_h1 ++ []) = true /\
  no_empty_on 2 (w_empty_h1 ++ concat [] ++ []) = true /\
  ttl_consistent_on 2 (g_vttl g4) 1000 (1001 * sec) w_empty_h1 = true /\
  check_noop (check_files (compacted_files_il g4 Index 1000 [] w_empty_h1 [] [])) = true /\
  read_of (commit (compacted_files_il g4 Index 1000 [] w_empty_h1 [] [])) (1001 * sec) 2 =
  Some (1%Z, view_of (nd 2 [7] 8 1000 (0, 0))).
Proof. vm_compute. repeat split; reflexivity. Qed.

Lemma key_hypotheses_weaker : forall (id : N) (vt : N * N) (now_s now_r : N) (h1 h : list cevent),
  (has_empty h = false -> no_empty_on id h = true) /\
  (ttl_consistent vt now_s now_r h1 = true -> ttl_consistent_on id vt now_s now_r h1 = true).
Proof. intros. split; [apply no_empty_all | apply ttl_consistent_all]. Qed.
