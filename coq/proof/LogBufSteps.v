(* C22: what a read of the persisted log returns, and the invariant across copyToFlush and
   across the write at the end of AddToBuffer. *)
From Coq Require Import List ZArith NArith Bool Lia.
From SW Require Import proof.ListFacts model.LogBuf proof.LogBufProofs proof.LogBufInv.
Import ListNotations.
Local Open Scope Z_scope.

Definition later (t : Z) (e : entry) : bool := t <? e_ts e.

(* ReadPersistedLogBuffer: every segment is filtered; the position reported is that of the
   last segment alone ("the last file wins") *)
Lemma read_disk_gen : forall t d acc v,
  read_disk t d acc v =
  (acc ++ filter (later t) (concat d), fold_left (fun _ g => last_ts (filter (later t) g) 0) d v).
Proof.
  intros t d. induction d as [|g d IH]; intros acc v; cbn [read_disk read_seg concat fold_left filter].
  - rewrite app_nil_r. reflexivity.
  - fold (later t). rewrite IH, filter_app, app_assoc. reflexivity.
Qed.

(* taking the position from the last segment alone loses nothing: when it has nothing later
   than t no earlier one has, the segments being non-empty and increasing *)
Lemma disk_processed : forall t d lo, incr lo (concat d) -> (forall g, In g d -> g <> []) ->
  fold_left (fun _ g => last_ts (filter (later t) g) 0) d 0 = last_ts (filter (later t) (concat d)) 0.
Proof.
  intros t d lo. destruct d as [|g d _] using rev_ind; intros Hinc Hne; [reflexivity|].
  rewrite fold_left_app, concat_app in *. cbn [fold_left concat] in *. rewrite app_nil_r in *.
  rewrite filter_app, last_ts_app.
  destruct (filter (later t) g) eqn:Hf; [|apply last_ts_default; congruence].
  rewrite filter_all_false; [reflexivity|]. intros e He.
  destruct g as [|x g]; [exfalso; apply (Hne []); [apply in_or_app; right; left|]; reflexivity|].
  pose proof (filter_later_nil _ _ Hf x (or_introl eq_refl)).
  pose proof (incr_app_lt _ _ _ e x Hinc He (or_introl eq_refl)). unfold later. lia.
Qed.

(* one ReadPersistedLogBuffer of the subscriber: it is handed the flushed events later than
   its position and moves to the last of them; it stays on the disk only after a
   ResumeFromDisk error with nothing new *)
Lemma sub_disk_spec : forall gh s u, InvCore gh s -> 0 <= lastRead u ->
  let X := filter (later (lastRead u)) (concat (disk s)) in
  splits (E_of gh s) (lastRead u) X /\
  sub_disk s u = {| lastRead := last_ts X (lastRead u);
                    on_disk := match X with [] => (mem_err u =? 1)%N | _ => false end;
                    mem_err := mem_err u; got := got u ++ X |}.
Proof.
  intros gh s u HI Hle X. pose proof (i_incr _ _ HI) as Hinc. rewrite <- (i_disk _ _ HI) in *.
  assert (Hs : splits (concat (disk s) ++ concat (map g_data (queue s)) ++ cur s) (lastRead u) X).
  { apply (splits_piece [] _ _ 0); [exact Hinc|]. intros e []. }
  split; [exact Hs|]. unfold sub_disk. rewrite read_disk_gen. cbn [app].
  rewrite (disk_processed _ _ 0 (disk_incr _ _ HI) (i_dne _ _ HI)). fold X.
  pose proof (splits_last_gt _ _ _ Hs) as Hgt. destruct X as [|x X'].
  - cbn. destruct (mem_err u =? 1)%N; reflexivity.
  - rewrite (last_ts_default _ 0 (lastRead u)) by discriminate.
    destruct (_ =? 0) eqn:Ep; [specialize (Hgt ltac:(discriminate)); lia|reflexivity].
Qed.

Lemma InvCore_ext : forall gh s s',
  cur s' = cur s -> lastTs s' = lastTs s -> lastFlush s' = lastFlush s ->
  s0 s' = s0 s -> s1 s' = s1 s -> s2 s' = s2 s ->
  disk s' = disk s -> queue s' = queue s -> inflight s' = inflight s ->
  InvCore gh s -> InvCore gh s'.
Proof.
  intros gh s s' H1 H2 H3 H4 H5 H6 H7 H8 H9 HI.
  assert (HE : E_of gh s' = E_of gh s) by (unfold E_of; rewrite H1; reflexivity).
  destruct HI. unfold FlushInv in *.
  constructor; unfold FlushInv; rewrite ?HE, ?H1, ?H2, ?H3, ?H4, ?H5, ?H6, ?H7, ?H8, ?H9; assumption.
Qed.

Lemma slot_is_mono : forall lf lf' m o, lf <= lf' -> slot_is lf m o -> slot_is lf' m o.
Proof.
  intros lf lf' m o Hle H. destruct o as [g|]; cbn [slot_is] in *; [|exact H].
  destruct H as [A [B [C D]]]. repeat split; auto. destruct D; [left; lia|right; auto].
Qed.

Lemma pos_zero_iff : forall s, (pos s =? 0) = true <-> cur s = [].
Proof.
  intros s. unfold pos. split; intros H.
  - apply recs_len_zero. lia.
  - rewrite H. reflexivity.
Qed.

(* copyToFlush with a flush function (without one lastFlushTime is set at once and nothing is
   queued: i_disk fails): the ghost ring shifts with the real one; the buffer that falls out
   was covered by lastFlushTime because the trigger did not fire *)
Lemma seal_inv : forall gh s, Inv gh s -> trig_seal s = false ->
  exists gh', Inv gh' (seal true s) /\ E_of gh' (seal true s) = E_of gh s.
Proof.
  intros gh s [HI Hcur] Htr. unfold seal. destruct (pos s =? 0) eqn:Ep.
  { exists gh. split; [split; assumption|reflexivity]. }
  unfold cur_times in Hcur. destruct (cur s) as [|x l] eqn:Hc.
  { apply pos_zero_iff in Hc. congruence. }
  set (g := {| g_start := startT s; g_stop := stopT s; g_data := x :: l |}).
  assert (Hg : seg_ok g) by (split; [discriminate|exact Hcur]).
  exists {| ev_old := ev_old gh ++ dat (r0 gh); r0 := r1 gh; r1 := r2 gh; r2 := Some g |}.
  assert (HE : (ev_old gh ++ dat (r0 gh)) ++ dat (r1 gh) ++ dat (r2 gh) ++ (x :: l) ++ []
               = ev_old gh ++ dat (r0 gh) ++ dat (r1 gh) ++ dat (r2 gh) ++ cur s).
  { rewrite Hc, app_nil_r, <- !app_assoc. reflexivity. }
  pose proof (incr_middle _ _ _ _ (i_incr _ _ HI)) as Hi0.
  pose proof (i_s0 _ _ HI) as Hs0. pose proof (i_ok0 _ _ HI) as Hk0.
  split; [split|exact HE]; [|unfold cur_times; cbn [cur stopT]; lia].
  destruct HI. constructor; unfold E_of;
    cbn [ev_old r0 r1 r2 dat cur lastTs lastFlush s0 s1 s2 disk queue inflight g g_data];
    rewrite ?HE; fold (E_of gh s); try assumption.
  - (* i_s2 *) cbn [slot_is m_start m_stop m_size m_arr g g_start g_stop g_data]. repeat split.
    + unfold pos. rewrite Hc. reflexivity.
    + right. exists (tail s). reflexivity.
  - (* i_old: the buffer of slot 0 leaves the ring *)
    apply all_le_app. split; [assumption|]. intros e He.
    destruct (r0 gh) as [g0|]; [|destruct He]. cbn [dat slot_is oseg_ok] in *.
    destruct Hs0 as [A [B [C D]]].
    pose proof (seg_ok_bounds g0 0 e Hk0 Hi0 He) as Hb.
    assert (0 < m_size (s0 s)).
    { rewrite C. destruct Hk0 as [Hn _]. destruct (g_data g0) as [|y yl]; [congruence|].
      cbn [recs_len fold_right]. pose proof (rec_len_ge4 y). pose proof (recs_len_nonneg yl).
      unfold recs_len in *. lia. }
    unfold trig_seal in Htr. rewrite Ep in Htr. cbn [negb andb] in Htr.
    destruct (0 <? m_size (s0 s)) eqn:E1; [|lia]. cbn [andb] in Htr. lia.
  - (* i_disk *) rewrite map_app, concat_app. cbn [map concat g_data]. rewrite !app_nil_r.
    rewrite <- i_disk, Hc, <- ?app_assoc. reflexivity.
  - (* i_q *) intros g' Hg'. apply in_app_or in Hg'. destruct Hg' as [Hg'|[<-|[]]]; auto.
Qed.

(* startTime is the timestamp of the buffer's first record, or of the one about to be written *)
Definition start_ok (s : st) (ts : Z) : Prop :=
  match cur s with [] => startT s = ts | x :: _ => startT s = e_ts x end.

Lemma write_inv : forall gh s e,
  InvCore gh s -> lastTs s < e_ts e -> 0 < e_len e -> start_ok s (e_ts e) ->
  Inv gh (write s e) /\ E_of gh (write s e) = E_of gh s ++ [e].
Proof.
  intros gh s e HI Hts Hlen Hstart. unfold start_ok in Hstart.
  assert (HE : E_of gh (write s e) = E_of gh s ++ [e]).
  { unfold E_of. cbn [write cur]. rewrite <- !app_assoc. reflexivity. }
  split; [|exact HE]. split.
  - destruct HI. constructor; rewrite ?HE; cbn [write lastTs lastFlush s0 s1 s2 disk queue inflight cur];
      try assumption.
    + (* i_incr: the new timestamp exceeds lastTs, which bounds all earlier ones *)
      apply incr_app. split; [assumption|]. split; [|exact I].
      destruct (E_of gh s) as [|y yl] eqn:Hy; [rewrite last_ts_nil; lia|].
      destruct (last_ts_in (y :: yl) 0 ltac:(congruence)) as [el [Hin Hel]]. rewrite <- Hel.
      specialize (i_last el Hin). lia.
    + (* i_last *) apply all_le_app. split; [|intros x [<-|[]]; lia].
      intros x Hx. specialize (i_last x Hx). lia.
    + (* i_last0 *) lia.
    + (* i_len *) intros x Hx. apply in_app_or in Hx. destruct Hx as [Hx|[<-|[]]]; auto.
    + (* i_disk *) rewrite <- i_disk, <- !app_assoc. reflexivity.
  - unfold cur_times. cbn [write cur startT stopT]. destruct (cur s) as [|x l]; cbn [app].
    + split; [exact Hstart|]. rewrite last_ts_cons, last_ts_nil. reflexivity.
    + split; [exact Hstart|]. rewrite last_ts_cons, last_ts_app, last_ts_cons, last_ts_nil. reflexivity.
Qed.
