(* Facts about model/Volume.v that the proofs about one volume (C01) and about its compaction (C04)
   both use. *)
From Coq Require Import List NArith ZArith Bool Lia.
From SW Require Import model.Volume.
Import ListNotations.
Local Open Scope N_scope.

Lemma nm_get_same : forall m k v, nm_get ((k, v) :: m) k = Some v.
Proof. intros. simpl. rewrite N.eqb_refl. reflexivity. Qed.
Lemma nm_get_other : forall m k k' v, k' <> k -> nm_get ((k', v) :: m) k = nm_get m k.
Proof. intros m k k' v H. simpl. apply N.eqb_neq in H. rewrite H. reflexivity. Qed.

Lemma actual_size_pos : forall s, 0 < actual_size s.
Proof. intro s. unfold actual_size. lia. Qed.

Lemma needle_size_pos : forall n, blen (n_data n) =? 0 = false -> 0 < needle_size n.
Proof.
  intros n H. unfold needle_size. apply N.eqb_neq in H.
  destruct (0 <? blen (n_data n)) eqn:E; [lia | apply N.ltb_ge in E; lia].
Qed.
