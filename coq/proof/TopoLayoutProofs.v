(* Proofs about model/TopoLayout.v (C11).
   Every layout operation touches one vid: [view_of l v] is what a layout knows of v,
   and each operation leaves every other vid's view alone (frame lemmas).  An event
   changes one node's volume map and then runs a list of such operations ([act]);
   [acts_inv] shows [Inv] from what each operation needs of the new map ([fits]) and
   from the untouched vids keeping their read-only flags ([same_at]). *)
From Coq Require Import List NArith Bool Lia Permutation.
From SW Require Import proof.ListFacts model.TopoLayout.
Import ListNotations.
Local Open Scope N_scope.

Lemma NoDup_snoc : forall {A} (l : list A) x, NoDup l -> ~ In x l -> NoDup (l ++ [x]).
Proof.
  intros A l x Hnd Hni. apply (Permutation_NoDup (Permutation_cons_append l x)). now constructor.
Qed.

Section AL.
  Context {V : Type}.
  Implicit Types m : list (N * V).

  Lemma aget_aset : forall m k k' (x : V), aget k' (aset k x m) = if k =? k' then Some x else aget k' m.
  Proof.
    induction m as [|[k0 y] m IH]; intros k k' x; simpl; [reflexivity|].
    destruct (N.eqb_spec k0 k) as [->|E]; simpl; [now destruct (k =? k')|].
    rewrite IH. destruct (N.eqb_spec k0 k') as [->|E']; [|reflexivity]. apply N.eqb_neq in E. now rewrite N.eqb_sym, E.
  Qed.

  Lemma aget_adel : forall m k k', aget k' (@adel V k m) = if k =? k' then None else aget k' m.
  Proof.
    induction m as [|[k0 y] m IH]; intros k k'; simpl; [now destruct (k =? k')|].
    destruct (N.eqb_spec k0 k) as [->|E]; simpl; rewrite IH; [now destruct (k =? k')|].
    destruct (N.eqb_spec k0 k') as [->|E']; [|reflexivity]. apply N.eqb_neq in E. now rewrite N.eqb_sym, E.
  Qed.

  Lemma aget_aset_eq : forall m k (x : V), aget k (aset k x m) = Some x.
  Proof. intros. now rewrite aget_aset, N.eqb_refl. Qed.

  Lemma aget_aset_neq : forall m k k' (x : V), k <> k' -> aget k' (aset k x m) = aget k' m.
  Proof. intros m k k' x H. rewrite aget_aset. now apply N.eqb_neq in H as ->. Qed.

  Lemma aget_adel_eq : forall m k, aget k (@adel V k m) = None.
  Proof. intros. now rewrite aget_adel, N.eqb_refl. Qed.

  Lemma aget_adel_neq : forall m k k', k <> k' -> aget k' (@adel V k m) = aget k' m.
  Proof. intros m k k' H. rewrite aget_adel. now apply N.eqb_neq in H as ->. Qed.

  Lemma aget_In : forall m k (x : V), aget k m = Some x -> In (k, x) m.
  Proof.
    induction m as [|[k0 y] m IH]; intros k x; simpl; [discriminate|].
    destruct (k0 =? k) eqn:E.
    - intros H; inversion H; subst. apply N.eqb_eq in E; subst; now left.
    - intros H; right; now apply IH.
  Qed.

  Lemma In_aget : forall m k (x : V), NoDup (map fst m) -> In (k, x) m -> aget k m = Some x.
  Proof.
    induction m as [|[k0 y] m IH]; intros k x Hnd Hin; simpl in *; [contradiction|].
    inversion Hnd as [|? ? Hni Hnd']; subst.
    destruct Hin as [Heq|Hin].
    - inversion Heq; subst. now rewrite N.eqb_refl.
    - destruct (k0 =? k) eqn:E.
      + apply N.eqb_eq in E; subst k0. exfalso; apply Hni.
        change k with (fst (k, x)); now apply in_map.
      + now apply IH.
  Qed.

  Lemma aget_None_notin : forall m k, aget k m = None -> ~ In k (map fst m).
  Proof.
    induction m as [|[k0 y] m IH]; intros k; simpl; [tauto|].
    destruct (k0 =? k) eqn:E; [discriminate|].
    intros H [Heq|Hin]; [subst; now rewrite N.eqb_refl in E|now apply (IH k)].
  Qed.

  Lemma in_keys_aget : forall m k, In k (map fst m) -> exists x, aget k m = Some x.
  Proof.
    intros m k Hin. destruct (aget k m) eqn:E; [eauto|].
    now apply aget_None_notin in E.
  Qed.

  Lemma keys_aset : forall m k (x : V),
    map fst (aset k x m) = if existsb (N.eqb k) (map fst m) then map fst m else map fst m ++ [k].
  Proof.
    induction m as [|[k0 y] m IH]; intros k x; simpl; [reflexivity|].
    destruct (k0 =? k) eqn:E; simpl.
    - apply N.eqb_eq in E; subst. now rewrite N.eqb_refl.
    - rewrite N.eqb_sym, E; simpl. rewrite IH. now destruct (existsb (N.eqb k) (map fst m)).
  Qed.

  Lemma existsb_eqb_In : forall (l : list N) k, existsb (N.eqb k) l = true <-> In k l.
  Proof. intros l k. exact (ListFacts.existsb_eqb_In N.eqb N.eqb_eq k l). Qed.

  Lemma NoDup_keys_aset : forall m k (x : V), NoDup (map fst m) -> NoDup (map fst (aset k x m)).
  Proof.
    intros m k x Hnd; rewrite keys_aset.
    destruct (existsb (N.eqb k) (map fst m)) eqn:E; [assumption|].
    apply NoDup_snoc; [assumption|].
    intros Hin; apply existsb_eqb_In in Hin; congruence.
  Qed.

  Lemma keys_adel : forall m k, map fst (@adel V k m) = filter (fun x => negb (x =? k)) (map fst m).
  Proof.
    induction m as [|[k0 y] m IH]; intros k; simpl; [reflexivity|].
    destruct (k0 =? k); simpl; now rewrite IH.
  Qed.

  Lemma NoDup_keys_adel : forall m k, NoDup (map fst m) -> NoDup (map fst (@adel V k m)).
  Proof. intros; rewrite keys_adel; now apply NoDup_filter. Qed.

  Lemma aget_nil_all_None : forall m, (forall k, aget k m = None) -> m = [].
  Proof.
    intros [|[k0 y] m] H; [reflexivity|].
    specialize (H k0); simpl in H; now rewrite N.eqb_refl in H.
  Qed.

  Lemma adel_nil_of_keys : forall m k, (forall k', k' <> k -> aget k' m = None) -> @adel V k m = [].
  Proof.
    intros m k H. apply aget_nil_all_None. intros k'. rewrite aget_adel.
    destruct (N.eqb_spec k k'); [reflexivity|auto].
  Qed.
End AL.

Lemma mem_In : forall n l, mem n l = true <-> In n l.
Proof. intros; apply existsb_eqb_In. Qed.

Lemma mem_false : forall n l, mem n l = false <-> ~ In n l.
Proof.
  intros n l; rewrite <- mem_In. destruct (mem n l); split; congruence.
Qed.

Lemma In_lset : forall m n l, In m (lset n l) <-> m = n \/ In m l.
Proof.
  intros m n l; unfold lset. destruct (mem n l) eqn:E.
  - apply mem_In in E. split; [tauto|]. intros [->|H]; assumption.
  - rewrite in_app_iff; simpl. split; [intros [H|[H|[]]]; auto|intros [H|H]; auto].
Qed.

Lemma NoDup_lset : forall n l, NoDup l -> NoDup (lset n l).
Proof.
  intros n l H; unfold lset. destruct (mem n l) eqn:E; [assumption|].
  apply NoDup_snoc; [assumption|now apply mem_false].
Qed.

Lemma In_lremove_sub : forall m n l, In m (lremove n l) -> In m l.
Proof.
  induction l as [|x l IH]; simpl; [tauto|].
  destruct (x =? n); simpl; [tauto|]. intros [H|H]; auto.
Qed.

Lemma In_lremove_neq : forall m n l, m <> n -> In m l -> In m (lremove n l).
Proof.
  induction l as [|x l IH]; simpl; [tauto|]. intros Hne [H|H].
  - subst x. destruct (m =? n) eqn:E; [apply N.eqb_eq in E; congruence|now left].
  - destruct (x =? n); [assumption|right; auto].
Qed.

Lemma NoDup_lremove : forall n l, NoDup l -> NoDup (lremove n l).
Proof.
  induction l as [|x l IH]; simpl; intros H; [constructor|].
  inversion H as [|? ? Hx Hl]; subst.
  destruct (x =? n); [assumption|]. constructor; [|auto].
  intros Hin; apply Hx; eapply In_lremove_sub; eauto.
Qed.

Lemma notin_lremove : forall n l, NoDup l -> ~ In n (lremove n l).
Proof.
  induction l as [|x l IH]; simpl; intros H; [tauto|].
  inversion H as [|? ? Hx Hl]; subst.
  destruct (x =? n) eqn:E.
  - apply N.eqb_eq in E; now subst.
  - simpl. intros [Heq|Hin]; [subst; now rewrite N.eqb_refl in E|now apply IH].
Qed.

Lemma In_lremove : forall m n l, NoDup l -> (In m (lremove n l) <-> m <> n /\ In m l).
Proof.
  intros m n l Hnd; split.
  - intros H; split; [|eapply In_lremove_sub; eauto].
    intros ->; now apply (notin_lremove n l).
  - intros [Hne Hin]; now apply In_lremove_neq.
Qed.

Lemma lremove_notin : forall n l, ~ In n l -> lremove n l = l.
Proof.
  induction l as [|x l IH]; simpl; intros H; [reflexivity|].
  destruct (x =? n) eqn:E; [apply N.eqb_eq in E; subst; tauto|].
  f_equal; apply IH; tauto.
Qed.

Lemma length_lremove : forall n l, In n l -> S (length (lremove n l)) = length l.
Proof.
  induction l as [|x l IH]; simpl; [tauto|]. intros H.
  destruct (x =? n) eqn:E; [reflexivity|]. simpl. f_equal. apply IH.
  destruct H as [H|H]; [subst; now rewrite N.eqb_refl in E|assumption].
Qed.

Lemma mem_lremove_neq : forall v v' l, v <> v' -> mem v' (lremove v l) = mem v' l.
Proof.
  intros v v' l Hne. destruct (mem v' l) eqn:E.
  - apply mem_In. apply mem_In in E. apply In_lremove_neq; [congruence|assumption].
  - apply mem_false. apply mem_false in E. intros H; apply E; eapply In_lremove_sub; eauto.
Qed.

Lemma mem_lremove_eq : forall v l, NoDup l -> mem v (lremove v l) = false.
Proof. intros; apply mem_false; now apply notin_lremove. Qed.

Lemma mem_snoc : forall v v' l, mem v' (l ++ [v]) = mem v' l || (v' =? v).
Proof. intros; unfold mem; rewrite existsb_app; simpl; now rewrite orb_false_r. Qed.

Lemma nlen_nil : forall l, nlen l = 0 <-> l = [].
Proof.
  intros l; unfold nlen; destruct l; simpl; split; try reflexivity; try discriminate; lia.
Qed.

Definition olist (o : option (list N)) : list N := match o with Some x => x | None => [] end.

(* volumesBinaryState: the copy maps readonlyVolumes / oversizedVolumes *)
Lemma bs_add_neq : forall v v' n m, v <> v' -> aget v' (bs_add v n m) = aget v' m.
Proof. intros; unfold bs_add; destruct (aget v m); now apply aget_aset_neq. Qed.

Lemma bs_add_eq : forall v n m, aget v (bs_add v n m) = Some (lset n (olist (aget v m))).
Proof. intros; unfold bs_add; destruct (aget v m); simpl; now rewrite aget_aset_eq. Qed.

Lemma bs_remove_neq : forall v v' n m, v <> v' -> aget v' (bs_remove v n m) = aget v' m.
Proof.
  intros; unfold bs_remove; destruct (aget v m); [|reflexivity].
  destruct (nlen (lremove n l) =? 0); [now apply aget_adel_neq|now apply aget_aset_neq].
Qed.

Lemma bs_remove_eq : forall v n m,
  aget v (bs_remove v n m) =
  match aget v m with
  | Some l => if nlen (lremove n l) =? 0 then None else Some (lremove n l)
  | None => None
  end.
Proof.
  intros; unfold bs_remove; destruct (aget v m) eqn:E; [|assumption].
  destruct (nlen (lremove n l) =? 0); [apply aget_adel_eq|apply aget_aset_eq].
Qed.

(* a copy map entry is a non-empty duplicate-free sublist of the location list *)
Definition okset (L : list N) (o : option (list N)) : Prop :=
  match o with None => True | Some rs => NoDup rs /\ rs <> [] /\ incl rs L end.

Lemma okset_mono : forall L L' o, incl L L' -> okset L o -> okset L' o.
Proof.
  intros L L' [rs|] Hi; simpl; [|tauto]. intros (A & B & C); repeat split; auto.
  eapply incl_tran; eauto.
Qed.

Lemma okset_nil : forall o, okset [] o -> o = None.
Proof.
  intros [rs|]; simpl; [|reflexivity]. intros (A & B & C). destruct rs; [congruence|].
  exfalso; apply (C n); now left.
Qed.

Lemma okset_add : forall L v n m, In n L -> okset L (aget v m) -> okset L (aget v (bs_add v n m)).
Proof.
  intros L v n m Hin H; rewrite bs_add_eq; simpl. destruct (aget v m) as [rs|]; simpl in *.
  - destruct H as (A & B & C). repeat split.
    + now apply NoDup_lset.
    + intros E. assert (In n (lset n rs)) by (apply In_lset; now left). rewrite E in H; contradiction.
    + intros x Hx; apply In_lset in Hx; destruct Hx as [->|Hx]; auto.
  - repeat split; [unfold lset; simpl; constructor; [tauto|constructor]|discriminate|].
    intros x [<-|[]]; assumption.
Qed.

Lemma okset_remove : forall L v n m, okset L (aget v m) -> okset (lremove n L) (aget v (bs_remove v n m)).
Proof.
  intros L v n m H; rewrite bs_remove_eq. destruct (aget v m) as [rs|]; simpl in *; [|exact I].
  destruct (nlen (lremove n rs) =? 0) eqn:E; simpl; [exact I|].
  destruct H as (A & B & C). repeat split.
  - now apply NoDup_lremove.
  - intros E'; rewrite E' in E; discriminate.
  - intros x Hx. apply In_lremove in Hx; [|assumption]. destruct Hx as [Hne Hx].
    apply In_lremove_neq; auto.
Qed.

Lemma okset_remove_keep_locs : forall L v n m, okset L (aget v m) -> okset L (aget v (bs_remove v n m)).
Proof.
  intros L v n m H. apply (okset_mono (lremove n L)); [|now apply okset_remove].
  intros x; apply In_lremove_sub.
Qed.

(* what layout l knows about vid v: its locations, whether it is writable, its read-only
   and oversized copy lists *)
Record view := { w_loc : option (list N); w_w : bool; w_ro : option (list N); w_os : option (list N) }.
Definition view_of (l : layout) (v : N) : view :=
  {| w_loc := aget v (l_loc l); w_w := mem v (l_writ l); w_ro := aget v (l_ro l); w_os := aget v (l_os l) |}.

Lemma view_ext : forall l l' v,
  aget v (l_loc l') = aget v (l_loc l) -> mem v (l_writ l') = mem v (l_writ l) ->
  aget v (l_ro l') = aget v (l_ro l) -> aget v (l_os l') = aget v (l_os l) ->
  view_of l' v = view_of l v.
Proof. intros l l' v A B C D; unfold view_of; now rewrite A, B, C, D. Qed.

Lemma loc_olist : forall l v, loc l v = olist (aget v (l_loc l)).
Proof. reflexivity. Qed.

Lemma loc_In_aget : forall l v n, In n (loc l v) -> aget v (l_loc l) = Some (loc l v).
Proof. intros l v n; unfold loc. now destruct (aget v (l_loc l)). Qed.

(* layout-only invariant of one vid *)
Definition Jv (w : view) : Prop :=
  (w_loc w = None -> w_w w = false) /\
  NoDup (olist (w_loc w)) /\
  okset (olist (w_loc w)) (w_ro w) /\ okset (olist (w_loc w)) (w_os w).

Definition LJ (l : layout) : Prop := NoDup (l_writ l) /\ forall v, Jv (view_of l v).

(* writable => enough copies and no registered replica is read-only *)
Definition I3v (c : cfg) (ns : nodes) (v : N) (w : view) : Prop :=
  w_w w = true ->
  enough c (nlen (olist (w_loc w))) = true /\
  forall m i, In m (olist (w_loc w)) -> ginfo ns m v = Some i -> vi_ro i = false.

Lemma LJ_NoDup_loc : forall l v, LJ l -> NoDup (loc l v).
Proof. intros l v [_ HJ]. apply (HJ v). Qed.

Lemma LJ_upd : forall v l, LJ l -> forall l', NoDup (l_writ l') ->
  (forall v', v <> v' -> view_of l' v' = view_of l v') -> Jv (view_of l' v) -> LJ l'.
Proof.
  intros v l [_ HJ] l' Hnd Hfr Hv; split; [exact Hnd|]. intros v'.
  destruct (N.eq_dec v v') as [<-|Hne]; [exact Hv|]. rewrite Hfr by assumption. apply HJ.
Qed.

Lemma Jv_ext : forall w w', w_loc w' = w_loc w -> w_ro w' = w_ro w -> w_os w' = w_os w ->
  (w_loc w = None -> w_w w' = false) -> Jv w -> Jv w'.
Proof.
  intros w w' A B C D (J1 & J2 & J3 & J4); unfold Jv; rewrite A, B, C; repeat split; auto.
Qed.

Lemma remove_writable_frame : forall v v' l, v <> v' -> view_of (remove_writable v l) v' = view_of l v'.
Proof. intros; apply view_ext; simpl; auto. now apply mem_lremove_neq. Qed.

Lemma set_writable_frame : forall v v' l, v <> v' -> view_of (set_writable v l) v' = view_of l v'.
Proof.
  intros v v' l Hne; unfold set_writable. destruct (mem v (l_writ l)); [reflexivity|].
  apply view_ext; simpl; auto. rewrite mem_snoc.
  destruct (v' =? v) eqn:E; [apply N.eqb_eq in E; congruence|apply orb_false_r].
Qed.

Lemma ensure_frame : forall c ns v v' l, v <> v' -> view_of (ensure c ns v l) v' = view_of l v'.
Proof.
  intros c ns v v' l Hne; unfold ensure.
  destruct (enough c (nlen (loc l v)) && all_writable ns v (loc l v)).
  - destruct (negb (bs_true v (l_os l))); [now apply set_writable_frame|reflexivity].
  - now apply remove_writable_frame.
Qed.

Lemma reg_loop_spec : forall ns v locs l,
  let l' := reg_loop ns v locs l in
  l_loc l' = l_loc l /\ l_os l' = l_os l /\
  (l_writ l' = l_writ l \/ l_writ l' = lremove v (l_writ l)) /\
  (forall v', v <> v' -> aget v' (l_ro l') = aget v' (l_ro l)) /\
  (forall L, incl locs L -> okset L (aget v (l_ro l)) -> okset L (aget v (l_ro l'))).
Proof.
  induction locs as [|m rest IH]; intros l; simpl.
  - repeat split; auto.
  - destruct (ginfo ns m v) as [i|] eqn:Ei.
    + destruct (vi_ro i).
      * simpl. repeat split; auto.
        -- intros; now apply bs_add_neq.
        -- intros L Hi Hok. apply okset_add; [apply Hi; now left|assumption].
      * specialize (IH (with_ro (bs_remove v m (l_ro l)) l)). simpl in IH.
        destruct IH as (A & B & C & D & E). repeat split; auto.
        -- intros v' Hne. rewrite D by assumption. now apply bs_remove_neq.
        -- intros L Hi Hok. apply E; [intros x Hx; apply Hi; now right|].
           now apply okset_remove_keep_locs.
    + simpl. repeat split; auto.
      * intros; now apply bs_remove_neq.
      * intros L Hi Hok. now apply okset_remove_keep_locs.
Qed.

Lemma remember_oversized_spec : forall c vi n l,
  let l' := remember_oversized c vi n l in
  l_loc l' = l_loc l /\ l_writ l' = l_writ l /\ l_ro l' = l_ro l /\
  (forall v', vi_id vi <> v' -> aget v' (l_os l') = aget v' (l_os l)) /\
  (forall L, In n L -> okset L (aget (vi_id vi) (l_os l)) -> okset L (aget (vi_id vi) (l_os l'))).
Proof.
  intros c vi n l; unfold remember_oversized. destruct (c_limit c <=? vi_size vi); simpl; repeat split; auto.
  - intros; now apply bs_add_neq.
  - intros; now apply okset_add.
  - intros; now apply bs_remove_neq.
  - intros; now apply okset_remove_keep_locs.
Qed.

Lemma register_volume_spec : forall c ns vi n l,
  let l' := register_volume c ns vi n l in
  (forall v', vi_id vi <> v' -> view_of l' v' = view_of l v') /\
  aget (vi_id vi) (l_loc l') = Some (lset n (loc l (vi_id vi))) /\ (LJ l -> LJ l').
Proof.
  intros c ns vi n l; unfold register_volume.
  set (v := vi_id vi). set (locs := lset n (loc l v)). set (l1 := with_loc _ l).
  destruct (remember_oversized_spec c vi n (reg_loop ns v locs l1)) as (A & B & C & D & E).
  destruct (reg_loop_spec ns v locs l1) as (A' & B' & C' & D' & E').
  fold v in D, E. cbv zeta.
  assert (Hfr : forall v', v <> v' ->
    view_of (remember_oversized c vi n (reg_loop ns v locs l1)) v' = view_of l v').
  { intros v' Hne. apply view_ext.
    - rewrite A, A'. now apply aget_aset_neq.
    - rewrite B. destruct C' as [->| ->]; [reflexivity|now apply mem_lremove_neq].
    - rewrite C. now apply D'.
    - rewrite D, B' by assumption. reflexivity. }
  split; [exact Hfr|]. split; [rewrite A, A'; apply aget_aset_eq|]. intros HL. pose proof HL as [Hnd HJ].
  apply (LJ_upd v l HL); [|exact Hfr|].
  - rewrite B. destruct C' as [->| ->]; [assumption|now apply NoDup_lremove].
  - destruct (HJ v) as (J1 & J2 & J3 & J4). unfold Jv; simpl. rewrite A, A', C. simpl.
    rewrite aget_aset_eq; simpl.
    assert (Hi : incl (loc l v) locs) by (intros x Hx; apply In_lset; now right).
    split; [discriminate|]. split; [now apply NoDup_lset|]. split.
    + apply E'; [apply incl_refl|]. now apply (okset_mono (loc l v)).
    + apply E; [apply In_lset; now left|]. rewrite B'. now apply (okset_mono (loc l v)).
Qed.

Lemma register_layout_frame : forall c ns vi n v' l,
  vi_id vi <> v' -> view_of (register_layout c ns vi n l) v' = view_of l v'.
Proof.
  intros; unfold register_layout. rewrite ensure_frame by assumption. now apply register_volume_spec.
Qed.

(* UnRegisterVolume and SetVolumeUnavailable begin alike: replica n leaves v's three lists *)
Definition drop (v n : N) (l : layout) : layout :=
  with_os (bs_remove v n (l_os l))
    (with_ro (bs_remove v n (l_ro l)) (with_loc (aset v (lremove n (loc l v)) (l_loc l)) l)).

Lemma unregister_volume_eq : forall c ns v n l,
  unregister_volume c ns v n l =
  if mem n (loc l v) then
    let l4 := ensure c ns v (drop v n l) in
    if nlen (lremove n (loc l v)) =? 0 then with_loc (adel v (l_loc l4)) l4 else l4
  else l.
Proof. intros; unfold unregister_volume, drop, loc. now destruct (aget v (l_loc l)). Qed.

Lemma set_unavailable_eq : forall c n v l,
  set_unavailable c n v l =
  if mem n (loc l v) then
    if nlen (lremove n (loc l v)) <? c_copy c then remove_writable v (drop v n l) else drop v n l
  else l.
Proof. intros; unfold set_unavailable, drop, loc. now destruct (aget v (l_loc l)). Qed.

Lemma drop_frame : forall v n v' l, v <> v' -> view_of (drop v n l) v' = view_of l v'.
Proof. intros; apply view_ext; simpl; auto using aget_aset_neq, bs_remove_neq. Qed.

Lemma drop_own : forall v n l, LJ l -> In n (loc l v) ->
  LJ (drop v n l) /\ loc (drop v n l) v = lremove n (loc l v).
Proof.
  intros v n l HL Hin. pose proof HL as [Hnd HJ]. destruct (HJ v) as (_ & J2 & J3 & J4).
  split; [|unfold loc at 1; simpl; now rewrite aget_aset_eq].
  apply (LJ_upd v l HL); [exact Hnd|intros; now apply drop_frame|].
  unfold Jv; simpl. rewrite aget_aset_eq; simpl.
  split; [discriminate|]. split; [now apply NoDup_lremove|]. split; now apply okset_remove.
Qed.

Lemma unregister_volume_frame : forall c ns v n v' l,
  v <> v' -> view_of (unregister_volume c ns v n l) v' = view_of l v'.
Proof.
  intros c ns v n v' l Hne. rewrite unregister_volume_eq.
  destruct (mem n (loc l v)); [|reflexivity]. cbv zeta.
  rewrite <- (drop_frame v n v' l), <- (ensure_frame c ns v v' (drop v n l)) by assumption.
  destruct (_ =? 0); [|reflexivity]. apply view_ext; simpl; auto. now apply aget_adel_neq.
Qed.

Lemma set_unavailable_frame : forall c n v v' l,
  v <> v' -> view_of (set_unavailable c n v l) v' = view_of l v'.
Proof.
  intros c n v v' l Hne. rewrite set_unavailable_eq.
  destruct (mem n (loc l v)); [|reflexivity].
  destruct (_ <? _); [rewrite remove_writable_frame by assumption|]; now apply drop_frame.
Qed.

Lemma enough_zero : forall c, 1 <= c_copy c -> enough c 0 = false.
Proof.
  intros c Hc; unfold enough. apply orb_false_iff; split.
  - apply N.eqb_neq; lia.
  - apply andb_false_iff; right. apply N.ltb_ge; lia.
Qed.

Lemma all_writable_spec : forall ns v locs,
  all_writable ns v locs = true <-> (forall m i, In m locs -> ginfo ns m v = Some i -> vi_ro i = false).
Proof.
  intros ns v locs; unfold all_writable; rewrite forallb_forall; split.
  - intros H m i Hin Hi. specialize (H m Hin). rewrite Hi in H. now apply negb_true_iff in H.
  - intros H m Hin. destruct (ginfo ns m v) as [i|] eqn:E; [|reflexivity].
    apply negb_true_iff; eapply H; eauto.
Qed.

Section Ops.
  Variable c : cfg.
  Hypothesis Hc : 1 <= c_copy c.

  Lemma I3v_loc : forall ns v l, I3v c ns v (view_of l v) -> loc l v = [] -> mem v (l_writ l) = false.
  Proof.
    intros ns v l H En. destruct (mem v (l_writ l)) eqn:Ew; [|reflexivity].
    destruct (H Ew) as [H1 _]. change (olist (w_loc (view_of l v))) with (loc l v) in H1.
    rewrite En in H1. change (nlen []) with 0 in H1. now rewrite enough_zero in H1.
  Qed.

  Lemma remove_writable_own : forall v l, LJ l ->
    LJ (remove_writable v l) /\ mem v (l_writ (remove_writable v l)) = false.
  Proof.
    intros v l HL. pose proof HL as [Hnd HJ].
    assert (Hm : mem v (lremove v (l_writ l)) = false) by now apply mem_lremove_eq.
    split; [|exact Hm].
    apply (LJ_upd v l HL); [simpl; now apply NoDup_lremove|intros; now apply remove_writable_frame|].
    now apply (Jv_ext (view_of l v)).
  Qed.

  Lemma ensure_own : forall ns v l, LJ l ->
    let l' := ensure c ns v l in
    LJ l' /\ I3v c ns v (view_of l' v) /\ l_loc l' = l_loc l.
  Proof.
    intros ns v l HL; unfold ensure.
    destruct (enough c (nlen (loc l v)) && all_writable ns v (loc l v)) eqn:E.
    - apply andb_true_iff in E; destruct E as [E1 E2].
      assert (HI : forall l', l_loc l' = l_loc l -> I3v c ns v (view_of l' v)).
      { intros l' Hl _. simpl. rewrite Hl. split; [exact E1|]. now apply all_writable_spec. }
      destruct (negb (bs_true v (l_os l))); [|now auto].
      unfold set_writable. destruct (mem v (l_writ l)) eqn:Em; [now auto|].
      split; [|now auto]. pose proof HL as [Hnd HJ].
      apply (LJ_upd v l HL); [simpl; apply NoDup_snoc; [assumption|now apply mem_false]| |].
      + intros v' Hne. apply (set_writable_frame v v' l) in Hne. unfold set_writable in Hne.
        now rewrite Em in Hne.
      + apply (Jv_ext (view_of l v)); auto. intros En.
        apply (I3v_loc ns v); [now apply HI|]. unfold loc; simpl in *. now rewrite En.
    - destruct (remove_writable_own v l HL) as (A & B). split; [exact A|split; [|reflexivity]].
      intros Hw. simpl in Hw, B. congruence.
  Qed.

  Lemma ensure_keeps : forall ns v l, l_ro (ensure c ns v l) = l_ro l /\ l_os (ensure c ns v l) = l_os l.
  Proof.
    intros; unfold ensure, set_writable, remove_writable.
    destruct (_ && _); [destruct (negb _); [destruct (mem _ _)|]|]; simpl; auto.
  Qed.

  Lemma register_layout_own : forall ns vi n l, LJ l ->
    let l' := register_layout c ns vi n l in
    LJ l' /\ aget (vi_id vi) (l_loc l') = Some (lset n (loc l (vi_id vi))) /\
    I3v c ns (vi_id vi) (view_of l' (vi_id vi)).
  Proof.
    intros ns vi n l HL; unfold register_layout.
    destruct (register_volume_spec c ns vi n l) as (_ & B & A).
    destruct (ensure_own ns (vi_id vi) _ (A HL)) as (A' & B' & C').
    split; [exact A'|split; [|exact B']]. rewrite C'. exact B.
  Qed.

  Lemma unregister_volume_own : forall ns v n l, LJ l ->
    let l' := unregister_volume c ns v n l in
    LJ l' /\ loc l' v = lremove n (loc l v) /\
    (I3v c ns v (view_of l v) -> I3v c ns v (view_of l' v)).
  Proof.
    intros ns v n l HL; cbv zeta. rewrite unregister_volume_eq.
    destruct (mem n (loc l v)) eqn:Em.
    2:{ apply mem_false in Em. rewrite lremove_notin by exact Em. auto. }
    apply mem_In in Em. cbv zeta.
    destruct (drop_own v n l HL Em) as [HL3 _].
    destruct (ensure_own ns v (drop v n l) HL3) as (A & B & C).
    set (l4 := ensure c ns v (drop v n l)) in *.
    assert (Hloc4 : aget v (l_loc l4) = Some (lremove n (loc l v))) by (rewrite C; apply aget_aset_eq).
    destruct (nlen (lremove n (loc l v)) =? 0) eqn:E0; [|unfold loc at 1; rewrite Hloc4; auto].
    apply N.eqb_eq, nlen_nil in E0. rewrite E0 in *.
    assert (Hw : mem v (l_writ l4) = false) by (apply (I3v_loc ns v l4 B); unfold loc; now rewrite Hloc4).
    split; [|split].
    - apply (LJ_upd v l4 A); [apply A| |].
      + intros v' Hne. apply view_ext; simpl; auto. now apply aget_adel_neq.
      + destruct A as [_ A]. destruct (A v) as (_ & _ & K3 & K4). simpl in K3, K4.
        rewrite Hloc4 in K3, K4. unfold Jv; simpl. rewrite aget_adel_eq; simpl.
        repeat split; auto. constructor.
    - unfold loc at 1; simpl. now rewrite aget_adel_eq.
    - intros _ Hw'. simpl in Hw'. rewrite Hw in Hw'; discriminate.
  Qed.

  Lemma view_empty_of_LJ : forall l, LJ l -> l_loc l = [] -> forall v, view_of empty_layout v = view_of l v.
  Proof.
    intros l [_ HJ] He v. destruct (HJ v) as (J1 & J2 & J3 & J4).
    simpl in J1, J3, J4. rewrite He in J1, J3, J4; simpl in J1, J3, J4.
    apply okset_nil in J3. apply okset_nil in J4.
    unfold view_of; simpl. rewrite He, J3, J4, J1; reflexivity.
  Qed.

  Lemma LJ_empty : LJ empty_layout.
  Proof. split; [constructor|]. intros v; unfold Jv; simpl. repeat split; auto. constructor. Qed.

  Lemma unregister_layout_view : forall ns v n l, LJ l -> forall v',
    view_of (unregister_layout c ns v n l) v' = view_of (unregister_volume c ns v n l) v'.
  Proof.
    intros ns v n l HL v'; unfold unregister_layout.
    destruct (l_loc (unregister_volume c ns v n l)) eqn:E; [|reflexivity].
    apply view_empty_of_LJ; [|exact E]. apply (unregister_volume_own ns v n l HL).
  Qed.

  Lemma LJ_of_views : forall l l', LJ l -> NoDup (l_writ l') -> (forall v, view_of l' v = view_of l v) -> LJ l'.
  Proof. intros l l' [_ HJ] Hnd H; split; [exact Hnd|]. intros v; rewrite H; apply HJ. Qed.

  Lemma unregister_layout_own : forall ns v n l, LJ l ->
    let l' := unregister_layout c ns v n l in
    LJ l' /\ loc l' v = lremove n (loc l v) /\
    (I3v c ns v (view_of l v) -> I3v c ns v (view_of l' v)).
  Proof.
    intros ns v n l HL.
    destruct (unregister_volume_own ns v n l HL) as (A & B & C).
    pose proof (unregister_layout_view ns v n l HL) as HV.
    split; [|split].
    - unfold unregister_layout in *. destruct (l_loc (unregister_volume c ns v n l)); [apply LJ_empty|exact A].
    - rewrite <- B. unfold loc.
      change (aget v (l_loc (unregister_layout c ns v n l))) with (w_loc (view_of (unregister_layout c ns v n l) v)).
      now rewrite HV.
    - intros H. rewrite HV. now apply C.
  Qed.

  Lemma unregister_layout_frame : forall ns v n v' l, LJ l -> v <> v' ->
    view_of (unregister_layout c ns v n l) v' = view_of l v'.
  Proof.
    intros. rewrite unregister_layout_view by assumption. now apply unregister_volume_frame.
  Qed.

  Lemma enough_pred : forall k, enough c (N.succ k) = true -> c_copy c <= k -> enough c k = true.
  Proof.
    intros k H Hle; unfold enough in *. apply orb_true_iff in H. apply orb_true_iff.
    destruct H as [H|H].
    - apply N.eqb_eq in H. lia.
    - apply andb_true_iff in H; destruct H as [H1 H2]. apply N.ltb_lt in H2.
      destruct (N.eq_dec k (c_copy c)) as [->|Hne]; [left; apply N.eqb_refl|].
      right; rewrite H1; simpl. apply N.ltb_lt; lia.
  Qed.

  Lemma set_unavailable_own : forall ns n v l, LJ l ->
    let l' := set_unavailable c n v l in
    LJ l' /\ loc l' v = lremove n (loc l v) /\
    (I3v c ns v (view_of l v) -> I3v c ns v (view_of l' v)).
  Proof.
    intros ns n v l HL; cbv zeta. rewrite set_unavailable_eq.
    destruct (mem n (loc l v)) eqn:Em.
    2:{ apply mem_false in Em. rewrite lremove_notin by exact Em. auto. }
    apply mem_In in Em. destruct (drop_own v n l HL Em) as [HL3 Hloc3].
    destruct (nlen (lremove n (loc l v)) <? c_copy c) eqn:Elt.
    - destruct (remove_writable_own v _ HL3) as (A & B). split; [exact A|split; [exact Hloc3|]].
      intros _ Hw. simpl in Hw, B. congruence.
    - split; [exact HL3|split; [exact Hloc3|]].
      intros H3 Hw. destruct (H3 Hw) as [H31 H32].
      change (olist (w_loc (view_of l v))) with (loc l v) in H31, H32.
      change (olist (w_loc (view_of (drop v n l) v))) with (loc (drop v n l) v). rewrite Hloc3. split.
      + apply N.ltb_ge in Elt. apply enough_pred; [|exact Elt].
        apply length_lremove in Em. unfold nlen in *. rewrite <- Em in H31. now rewrite Nat2N.inj_succ in H31.
      + intros m i Hin. apply H32. eapply In_lremove_sub; eauto.
  Qed.
End Ops.

Definition ids (l : list vinfo) : list N := map vi_id l.
Definition find_id (v : N) (l : list vinfo) : option vinfo := find (fun a => vi_id a =? v) l.

Lemma in_actual_spec : forall actual v, in_actual actual v = true <-> In v (ids actual).
Proof.
  intros; unfold in_actual, ids; rewrite existsb_exists, in_map_iff; split.
  - intros (a & Ha & E); apply N.eqb_eq in E; eauto.
  - intros (a & E & Ha); exists a; split; [assumption|now apply N.eqb_eq].
Qed.

Lemma find_id_Some : forall v l a, find_id v l = Some a -> In a l /\ vi_id a = v.
Proof. intros v l a H. apply find_some in H. now rewrite N.eqb_eq in H. Qed.

Lemma find_id_None : forall v l, ~ In v (ids l) -> find_id v l = None.
Proof.
  intros v l H. destruct (find_id v l) as [a|] eqn:E; [|reflexivity].
  apply find_id_Some in E. destruct E as [Ha <-]. exfalso; apply H. now apply in_map.
Qed.

Lemma find_id_In : forall l a, NoDup (ids l) -> In a l -> find_id (vi_id a) l = Some a.
Proof.
  induction l as [|x l IH]; intros a Hnd Ha; simpl in *; [contradiction|].
  inversion Hnd as [|? ? Hx Hl]; subst. unfold find_id; simpl. destruct Ha as [->|Ha].
  - now rewrite N.eqb_refl.
  - destruct (vi_id x =? vi_id a) eqn:E; [|now apply IH].
    apply N.eqb_eq in E. exfalso; apply Hx. rewrite E. now apply in_map.
Qed.

Definition is_new (vs : vols) (a : vinfo) : bool :=
  match aget (vi_id a) vs with None => true | Some _ => false end.
Definition is_chg (vs : vols) (a : vinfo) : bool :=
  match aget (vi_id a) vs with Some old => negb (Bool.eqb (vi_ro old) (vi_ro a)) | None => false end.

Lemma fold_aset_get : forall {V} (g : vinfo -> V) xs m v, NoDup (ids xs) ->
  aget v (fold_left (fun m a => aset (vi_id a) (g a) m) xs m) =
  match find_id v xs with Some a => Some (g a) | None => aget v m end.
Proof.
  induction xs as [|x xs IH]; intros m v Hnd; simpl; [reflexivity|].
  inversion Hnd as [|? ? Hx Hrest]; subst. rewrite IH by assumption.
  unfold find_id; simpl; fold (find_id v xs). destruct (vi_id x =? v) eqn:E.
  - apply N.eqb_eq in E; subst v. rewrite (find_id_None _ _ Hx). apply aget_aset_eq.
  - destruct (find_id v xs); [reflexivity|]. apply aget_aset_neq. now apply N.eqb_neq.
Qed.

Lemma fold_adel_get : forall {A V} (k : A -> N) ds (m : list (N * V)) v,
  aget v (fold_left (fun m d => adel (k d) m) ds m) = if mem v (map k ds) then None else aget v m.
Proof.
  induction ds as [|d ds IH]; intros m v; simpl; [reflexivity|].
  rewrite IH. unfold mem; simpl; fold (mem v (map k ds)). destruct (v =? k d) eqn:E; simpl.
  - apply N.eqb_eq in E; subst. destruct (mem _ _); [reflexivity|apply aget_adel_eq].
  - destruct (mem _ _); [reflexivity|]. apply aget_adel_neq. intros H; subst; now rewrite N.eqb_refl in E.
Qed.

(* the loop of doAddOrUpdateVolume over the reported volumes *)
Lemma fold_aou_vols : forall actual u,
  u_vols (fold_left add_or_update actual u) = fold_left (fun m a => aset (vi_id a) a m) actual (u_vols u).
Proof.
  induction actual as [|a rest IH]; intros u; simpl; [reflexivity|].
  rewrite IH. f_equal. unfold add_or_update. now destruct (aget _ _).
Qed.

(* the "new" / "read-only flag changed" lists of that loop: each reported volume is judged against
   the map the loop started from, here given as any map [vs] that agrees with it on the reported ids *)
Lemma fold_aou_spec : forall actual u vs, NoDup (ids actual) ->
  (forall a, In a actual -> aget (vi_id a) (u_vols u) = aget (vi_id a) vs) ->
  let u' := fold_left add_or_update actual u in
  u_new u' = u_new u ++ filter (is_new vs) actual /\
  u_chg u' = u_chg u ++ filter (is_chg vs) actual.
Proof.
  induction actual as [|a rest IH]; intros u vs Hnd Hag; simpl.
  - now rewrite !app_nil_r.
  - inversion Hnd as [|? ? Ha Hrest]; subst.
    destruct (IH (add_or_update u a) vs Hrest) as (N1 & C1).
    { intros r Hr. change (add_or_update u a) with (fold_left add_or_update [a] u).
      rewrite fold_aou_vols. simpl. rewrite aget_aset_neq; [apply Hag; now right|].
      intros E; apply Ha; rewrite E; now apply in_map. }
    rewrite N1, C1. unfold add_or_update, is_new, is_chg. rewrite <- (Hag a (or_introl eq_refl)).
    destruct (aget (vi_id a) (u_vols u)) as [old|]; simpl; [|now rewrite <- app_assoc].
    destruct (Bool.eqb (vi_ro old) (vi_ro a)); simpl; now rewrite <- ?app_assoc.
Qed.

Lemma fold_keys : forall {A V} (f : list (N * V) -> A -> list (N * V)) xs m,
  (forall m a, NoDup (map fst m) -> NoDup (map fst (f m a))) ->
  NoDup (map fst m) -> NoDup (map fst (fold_left f xs m)).
Proof. induction xs as [|x xs IH]; intros m Hf H; simpl; auto. Qed.

(* keys agree with the ids of the stored infos *)
Definition vols_ok (vs : vols) : Prop :=
  NoDup (map fst vs) /\ forall v i, aget v vs = Some i -> vi_id i = v.

Lemma deleted_of_spec : forall vs actual, vols_ok vs ->
  forall v, In v (ids (deleted_of vs actual)) <-> (aget v vs <> None /\ ~ In v (ids actual)).
Proof.
  intros vs actual [Hnd Hid] v; unfold deleted_of, ids. rewrite map_map, in_map_iff. split.
  - intros ([k i] & E & Hin). apply filter_In in Hin; destruct Hin as [Hin Hf]; simpl in *.
    apply (In_aget vs k i Hnd) in Hin. rewrite (Hid k i Hin) in E. subst k. split; [congruence|].
    intros H; apply in_actual_spec in H. rewrite H in Hf; discriminate.
  - intros [H1 H2]. destruct (aget v vs) as [i|] eqn:E; [|congruence].
    exists (v, i); split; [now apply Hid|]. apply filter_In; split; [now apply aget_In|]; simpl.
    destruct (in_actual actual v) eqn:Ea; [apply in_actual_spec in Ea; tauto|reflexivity].
Qed.

Lemma after_update : forall vs dels news, vols_ok vs -> NoDup (ids news) ->
  let u := fold_left add_or_update news
             {| u_vols := fold_left (fun m d => adel (vi_id d) m) dels vs; u_new := []; u_chg := [] |} in
  vols_ok (u_vols u) /\
  forall v, aget v (u_vols u) =
    match find_id v news with Some a => Some a | None => if mem v (ids dels) then None else aget v vs end.
Proof.
  intros vs dels news [Hnd Hid] Hn u. subst u. rewrite fold_aou_vols. cbn [u_vols].
  assert (V : forall v, aget v (fold_left (fun m a => aset (vi_id a) a m) news
                                  (fold_left (fun m d => adel (vi_id d) m) dels vs)) =
     match find_id v news with Some a => Some a | None => if mem v (ids dels) then None else aget v vs end).
  { intros v. now rewrite fold_aset_get, fold_adel_get. }
  split; [split|exact V].
  - apply fold_keys; [intros; now apply NoDup_keys_aset|].
    apply fold_keys; [intros; now apply NoDup_keys_adel|exact Hnd].
  - intros v i. rewrite V. destruct (find_id v news) as [a|] eqn:E.
    + intros Hi; inversion Hi; subst. now apply find_id_Some in E.
    + destruct (mem v (ids dels)); [discriminate|apply Hid].
Qed.

(* DataNode.UpdateVolumes: the node's map becomes the reported list *)
Lemma update_volumes_spec : forall vs actual, vols_ok vs -> NoDup (ids actual) ->
  exists vs', update_volumes vs actual =
      ({| u_vols := vs'; u_new := filter (is_new vs) actual; u_chg := filter (is_chg vs) actual |},
       deleted_of vs actual) /\
    vols_ok vs' /\ forall v, aget v vs' = find_id v actual.
Proof.
  intros vs actual Hvs Hnd; unfold update_volumes.
  pose proof (deleted_of_spec vs actual Hvs) as Dspec. set (dels := deleted_of vs actual) in *.
  set (vs1 := fold_left (fun m d => adel (vi_id d) m) dels vs).
  destruct (after_update vs dels actual Hvs Hnd) as (A & B). fold vs1 in A, B.
  (* none of the reported volumes was deleted, so "new" and "changed" refer to the old map *)
  destruct (fold_aou_spec actual {| u_vols := vs1; u_new := []; u_chg := [] |} vs Hnd) as (N1 & C1).
  { intros a Ha. subst vs1. simpl. rewrite fold_adel_get. destruct (mem (vi_id a) (map vi_id dels)) eqn:E; [|reflexivity].
    apply mem_In, Dspec in E. exfalso; apply E. now apply in_map. }
  simpl in N1, C1.
  destruct (fold_left add_or_update actual _) as [vs' nw cg]; simpl in *. subst nw cg.
  exists vs'; split; [reflexivity|split; [exact A|]].
  intros v; rewrite B. destruct (find_id v actual) eqn:E; [reflexivity|].
  destruct (mem v (ids dels)) eqn:Ed; [reflexivity|].
  destruct (aget v vs) eqn:Ea; [|reflexivity]. exfalso. apply mem_false in Ed. apply Ed, Dspec.
  split; [congruence|]. intros H. apply in_map_iff in H. destruct H as (a & <- & Ha).
  now rewrite find_id_In in E.
Qed.

Lemma ids_short : forall l, ids (map short_info l) = l.
Proof. intros; unfold ids; rewrite map_map; simpl. apply map_id. Qed.

Lemma find_id_short : forall v l, find_id v (map short_info l) = if mem v l then Some (short_info v) else None.
Proof.
  induction l as [|x l IH]; simpl; [reflexivity|]. unfold find_id, mem in *; simpl.
  rewrite (N.eqb_sym v x). destruct (x =? v) eqn:E; simpl; [apply N.eqb_eq in E; now subst|exact IH].
Qed.

(* DataNode.DeltaUpdateVolumes with the short infos of an incremental heartbeat *)
Lemma delta_update_volumes_spec : forall vs news dels, vols_ok vs -> NoDup news ->
  let vs' := delta_update_volumes vs (map short_info news) (map short_info dels) in
  vols_ok vs' /\
  forall v, aget v vs' = if mem v news then Some (short_info v) else if mem v dels then None else aget v vs.
Proof.
  intros vs news dels Hvs Hnd; unfold delta_update_volumes.
  destruct (after_update vs (map short_info dels) (map short_info news) Hvs) as (A & B).
  - now rewrite ids_short.
  - split; [exact A|]. intros v. rewrite B, find_id_short, ids_short.
    now destruct (mem v news).
Qed.

Definition nodes_ok (ns : nodes) : Prop :=
  NoDup (map fst ns) /\ forall n vs, aget n ns = Some vs -> vols_ok vs.

Lemma vols_ok_nil : vols_ok [].
Proof. split; [constructor|]. intros v i H; discriminate. Qed.

Lemma node_vols_ok : forall ns n, nodes_ok ns -> vols_ok (node_vols ns n).
Proof.
  intros ns n [_ H]; unfold node_vols. destruct (aget n ns) eqn:E; [eauto|apply vols_ok_nil].
Qed.

Lemma ginfo_node_vols : forall ns n v, ginfo ns n v = aget v (node_vols ns n).
Proof. intros; unfold ginfo, node_vols. now destruct (aget n ns). Qed.

Lemma ginfo_aset : forall ns n m vs v, ginfo (aset n vs ns) m v = if n =? m then aget v vs else ginfo ns m v.
Proof. intros; unfold ginfo. rewrite aget_aset. now destruct (n =? m). Qed.

Lemma ginfo_adel : forall ns n m v, ginfo (adel n ns) m v = if n =? m then None else ginfo ns m v.
Proof. intros; unfold ginfo. rewrite aget_adel. now destruct (n =? m). Qed.

Lemma nodes_ok_aset : forall ns n vs, nodes_ok ns -> vols_ok vs -> nodes_ok (aset n vs ns).
Proof.
  intros ns n vs [A B] Hv; split; [now apply NoDup_keys_aset|].
  intros m vs' H. destruct (N.eq_dec n m) as [<-|Hne].
  - rewrite aget_aset_eq in H; inversion H; now subst.
  - rewrite aget_aset_neq in H by assumption. eauto.
Qed.

Lemma nodes_ok_adel : forall ns n, nodes_ok ns -> nodes_ok (adel n ns).
Proof.
  intros ns n [A B]; split; [now apply NoDup_keys_adel|].
  intros m vs' H. destruct (N.eq_dec n m) as [<-|Hne].
  - rewrite aget_adel_eq in H; discriminate.
  - rewrite aget_adel_neq in H by assumption. eauto.
Qed.

Lemma ginfo_id : forall ns n v i, nodes_ok ns -> ginfo ns n v = Some i -> vi_id i = v.
Proof.
  intros ns n v i Hns Hi. rewrite ginfo_node_vols in Hi. now apply (node_vols_ok ns n Hns).
Qed.

Lemma nodupb_spec : forall l, nodupb l = true -> NoDup l.
Proof.
  induction l as [|x l IH]; simpl; intros H; [constructor|].
  apply andb_true_iff in H. destruct H as [H1 H2]. constructor; [|auto].
  apply negb_true_iff in H1. now apply mem_false.
Qed.

Lemma wf_incr : forall news dels, nodupb news && nodupb dels && forallb (fun v => negb (mem v dels)) news = true ->
  NoDup news /\ forall v, In v news -> ~ In v dels.
Proof.
  intros news dels H. apply andb_true_iff in H. destruct H as [H H3]. apply andb_true_iff in H. destruct H as [H1 _].
  split; [now apply nodupb_spec|].
  intros v Hv. rewrite forallb_forall in H3. apply mem_false, negb_true_iff. now apply H3.
Qed.

(* the registered state after an event: a full heartbeat replaces the node's volumes by the
   reported list; an incremental one adds short infos and removes entries *)
Lemma step_ginfo : forall c s e, nodes_ok (s_nodes s) -> wf_event e = true ->
  nodes_ok (s_nodes (step c s e)) /\
  forall m v, ginfo (s_nodes (step c s e)) m v =
    match e with
    | EFull n vs => if n =? m then find_id v vs else ginfo (s_nodes s) m v
    | EIncr n news dels =>
        if n =? m then if mem v news then Some (short_info v)
                       else if mem v dels then None else ginfo (s_nodes s) n v
        else ginfo (s_nodes s) m v
    | ECollect => ginfo (s_nodes s) m v
    | EDisconnect n => if n =? m then None else ginfo (s_nodes s) m v
    end.
Proof.
  intros c s [n vs|n news dels| |n] Hns Hwf; cbn [step]; simpl in Hwf.
  - unfold sync_full.
    destruct (update_volumes_spec _ vs (node_vols_ok _ n Hns) (nodupb_spec _ Hwf)) as (vs' & -> & Hok & Hget).
    simpl. split; [now apply nodes_ok_aset|]. intros m v. now rewrite ginfo_aset, Hget.
  - apply wf_incr in Hwf. destruct Hwf as (H1 & _). unfold sync_incr; simpl.
    destruct (delta_update_volumes_spec _ news dels (node_vols_ok _ n Hns) H1) as [Hok Hget].
    split; [now apply nodes_ok_aset|]. intros m v. now rewrite ginfo_aset, Hget, <- ginfo_node_vols.
  - auto.
  - split; [now apply nodes_ok_adel|]. intros; apply ginfo_adel.
Qed.

Lemma I3v_transfer : forall c ns ns' v w,
  (forall m i, In m (olist (w_loc w)) -> ginfo ns' m v = Some i ->
               exists i0, ginfo ns m v = Some i0 /\ vi_ro i0 = vi_ro i) ->
  I3v c ns v w -> I3v c ns' v w.
Proof.
  intros c ns ns' v w H H3 Hw. destruct (H3 Hw) as [A B]. split; [exact A|].
  intros m i Hin Hi. destruct (H m i Hin Hi) as (i0 & E0 & Er). rewrite <- Er. eauto.
Qed.

Record Inv (c : cfg) (s : state) : Prop := {
  inv_LJ : LJ (s_lay s);
  inv_nodes : nodes_ok (s_nodes s);
  inv_loc : forall v m, In m (loc (s_lay s) v) <-> (exists i, ginfo (s_nodes s) m v = Some i);
  inv_w : forall v, I3v c (s_nodes s) v (view_of (s_lay s) v)
}.

(* the last two clauses of Inv, for one vid *)
Definition Inv_at (c : cfg) (ns : nodes) (v : N) (w : view) : Prop :=
  (forall m, In m (olist (w_loc w)) <-> exists i, ginfo ns m v = Some i) /\ I3v c ns v w.

Lemma Inv_at_of_Inv : forall c s v, Inv c s -> Inv_at c (s_nodes s) v (view_of (s_lay s) v).
Proof. intros c s v [_ _ A B]; split; [apply A|apply B]. Qed.

Lemma Inv_of_Inv_at : forall c ns l, LJ l -> nodes_ok ns -> (forall v, Inv_at c ns v (view_of l v)) ->
  Inv c {| s_nodes := ns; s_lay := l |}.
Proof. intros c ns l A B H; constructor; auto; intros v; apply (H v). Qed.

(* the layout operations the events are made of *)
Inductive act := Reg (a : vinfo) | Unreg (v : N) | Ens (v : N) | Unav (v : N).
Definition akey (a : act) : N := match a with Reg a => vi_id a | Unreg v | Ens v | Unav v => v end.
Definition do_act (c : cfg) (ns : nodes) (n : N) (l : layout) (a : act) : layout :=
  match a with
  | Reg a => register_layout c ns a n l
  | Unreg v => unregister_layout c ns v n l
  | Ens v => ensure c ns v l
  | Unav v => set_unavailable c n v l
  end.

Section Events.
  Variable c : cfg.
  Hypothesis Hc : 1 <= c_copy c.

  Lemma do_act_LJ : forall ns n l a, LJ l -> LJ (do_act c ns n l a).
  Proof.
    intros ns n l [a|v|v|v] H; simpl.
    - now apply register_layout_own.
    - now apply unregister_layout_own.
    - now apply ensure_own.
    - now apply (set_unavailable_own c Hc ns).
  Qed.

  Lemma do_act_frame : forall ns n l a v, LJ l -> akey a <> v -> view_of (do_act c ns n l a) v = view_of l v.
  Proof.
    intros ns n l [a|w|w|w] v H Hne; simpl in *.
    - now apply register_layout_frame.
    - now apply unregister_layout_frame.
    - now apply ensure_frame.
    - now apply set_unavailable_frame.
  Qed.

  Lemma acts_LJ : forall ns n acts l, LJ l -> LJ (fold_left (do_act c ns n) acts l).
  Proof. induction acts as [|a acts IH]; intros l H; simpl; auto using do_act_LJ. Qed.

  Lemma acts_untouched : forall ns n acts l v, LJ l -> ~ In v (map akey acts) ->
    view_of (fold_left (do_act c ns n) acts l) v = view_of l v.
  Proof.
    induction acts as [|a acts IH]; intros l v HL Hni; simpl; [reflexivity|].
    simpl in Hni. rewrite IH; [apply do_act_frame|apply do_act_LJ|]; tauto.
  Qed.

  (* Node n's volumes change from [ns0] to [ns], the other nodes stay; then layout
     operations run. *)
  Section Sync.
    Variables (ns0 ns : nodes) (n : N).
    Hypothesis Hm : forall v m, n <> m -> ginfo ns m v = ginfo ns0 m v.

    (* what an operation needs of n's new volumes *)
    Definition fits (a : act) : Prop :=
      match a with
      | Reg a => exists i, ginfo ns n (vi_id a) = Some i
      | Unreg v | Unav v => ginfo ns n v = None
      | Ens v => (exists i, ginfo ns n v = Some i) <-> (exists i, ginfo ns0 n v = Some i)
      end.
    (* ... and a vid without operation: n holds it as before, with the same read-only flag *)
    Definition same_at (v : N) : Prop :=
      ((exists i, ginfo ns n v = Some i) <-> (exists i, ginfo ns0 n v = Some i)) /\
      forall i i0, ginfo ns n v = Some i -> ginfo ns0 n v = Some i0 -> vi_ro i0 = vi_ro i.

    Lemma held_others : forall v m, n <> m ->
      ((exists i, ginfo ns m v = Some i) <-> (exists i, ginfo ns0 m v = Some i)).
    Proof. intros v m Hne. now rewrite Hm. Qed.

    Lemma I3v_others : forall v w,
      (forall i, In n (olist (w_loc w)) -> ginfo ns n v = Some i ->
                 exists i0, ginfo ns0 n v = Some i0 /\ vi_ro i0 = vi_ro i) ->
      I3v c ns0 v w -> I3v c ns v w.
    Proof.
      intros v w H. apply I3v_transfer. intros m i Hin Hi.
      destruct (N.eq_dec n m) as [<-|Hne]; [now apply H|]. rewrite Hm in Hi by assumption. eauto.
    Qed.

    (* UnRegisterVolume and SetVolumeUnavailable alike: n leaves v's locations *)
    Lemma removal_establishes_Inv_at : forall v l l', LJ l -> Inv_at c ns0 v (view_of l v) -> ginfo ns n v = None ->
      loc l' v = lremove n (loc l v) /\ (I3v c ns v (view_of l v) -> I3v c ns v (view_of l' v)) ->
      Inv_at c ns v (view_of l' v).
    Proof.
      intros v l l' HL [H0 HI] Hf [B C]. split.
      - intros m. change (In m (loc l' v) <-> (exists i, ginfo ns m v = Some i)).
        rewrite B, In_lremove by now apply LJ_NoDup_loc. unfold loc. rewrite (H0 m).
        destruct (N.eq_dec n m) as [<-|Hne].
        + rewrite Hf. split; [tauto|intros [i Hi]; discriminate].
        + rewrite held_others by assumption. split; [tauto|intros H; split; [congruence|exact H]].
      - apply C, I3v_others; [|exact HI]. intros i _ Hi. congruence.
    Qed.

    Lemma act_establishes_Inv_at : forall a l, LJ l -> Inv_at c ns0 (akey a) (view_of l (akey a)) -> fits a ->
      Inv_at c ns (akey a) (view_of (do_act c ns n l a) (akey a)).
    Proof.
      intros [a|v|v|v] l HL H Hf; simpl in *.
      - destruct H as [H0 _]. destruct (register_layout_own c Hc ns a n l HL) as (_ & B & C). split; [|exact C].
        intros m. simpl. rewrite B; simpl. rewrite In_lset. unfold loc. rewrite (H0 m).
        destruct (N.eq_dec n m) as [<-|Hne]; [tauto|]. rewrite held_others by assumption.
        split; [intros [E|K]; [congruence|exact K]|tauto].
      - apply (removal_establishes_Inv_at v l); auto. now apply unregister_layout_own.
      - destruct H as [H0 _]. destruct (ensure_own c Hc ns v l HL) as (_ & B & C). split; [|exact B].
        intros m. simpl. rewrite C, (H0 m).
        destruct (N.eq_dec n m) as [<-|Hne]; [now symmetry|symmetry; now apply held_others].
      - apply (removal_establishes_Inv_at v l); auto. now apply (set_unavailable_own c Hc ns).
    Qed.

    Lemma untouched_keeps_Inv_at : forall v w, Inv_at c ns0 v w -> same_at v -> Inv_at c ns v w.
    Proof.
      intros v w [H0 HI] [Hs Hr]. split.
      - intros m. rewrite (H0 m).
        destruct (N.eq_dec n m) as [<-|Hne]; [now symmetry|symmetry; now apply held_others].
      - apply I3v_others; [|exact HI]. intros i _ Hi.
        destruct (proj1 Hs (ex_intro _ i Hi)) as [i0 Hi0]. exists i0; split; [exact Hi0|eauto].
    Qed.

  End Sync.

  (* each operation establishes the invariant at its vid, from the old node state or the new
     one, so a vid may be operated on any number of times *)
  Lemma acts_touched : forall ns0 ns n, (forall v m, n <> m -> ginfo ns m v = ginfo ns0 m v) ->
    forall acts l v, LJ l -> (forall a, In a acts -> fits ns0 ns n a) -> In v (map akey acts) ->
    Inv_at c ns0 v (view_of l v) \/ Inv_at c ns v (view_of l v) ->
    Inv_at c ns v (view_of (fold_left (do_act c ns n) acts l) v).
  Proof.
    intros ns0 ns n Hm. induction acts as [|a acts IH]; intros l v HL Hf Hin H; simpl in *; [contradiction|].
    destruct (N.eq_dec (akey a) v) as [<-|Hne].
    - assert (K : Inv_at c ns (akey a) (view_of (do_act c ns n l a) (akey a))).
      { destruct H; [apply (act_establishes_Inv_at ns0 ns n Hm); auto|apply (act_establishes_Inv_at ns ns n); auto].
        specialize (Hf a (or_introl eq_refl)). destruct a; simpl in *; tauto. }
      destruct (in_dec N.eq_dec (akey a) (map akey acts)); [apply IH; auto using do_act_LJ|].
      now rewrite acts_untouched by auto using do_act_LJ.
    - destruct Hin as [E|Hin]; [contradiction|]. apply IH; auto using do_act_LJ.
      now rewrite do_act_frame.
  Qed.

  Lemma acts_inv : forall s ns n acts, Inv c s -> nodes_ok ns ->
    (forall v m, n <> m -> ginfo ns m v = ginfo (s_nodes s) m v) ->
    (forall a, In a acts -> fits (s_nodes s) ns n a) ->
    (forall v, ~ In v (map akey acts) -> same_at (s_nodes s) ns n v) ->
    Inv c {| s_nodes := ns; s_lay := fold_left (do_act c ns n) acts (s_lay s) |}.
  Proof.
    intros s ns n acts HI Hns Hm Hf Hs.
    apply Inv_of_Inv_at; [apply acts_LJ, HI|exact Hns|].
    intros v. destruct (in_dec N.eq_dec v (map akey acts)) as [Hin|Hni].
    - apply (acts_touched (s_nodes s) ns n Hm); auto; [apply HI|]. left. now apply Inv_at_of_Inv.
    - rewrite acts_untouched by (assumption || apply HI). apply (untouched_keeps_Inv_at (s_nodes s) ns n Hm); auto using Inv_at_of_Inv.
  Qed.

  (* Both heartbeats replace n's volume map by [vs'] and then register [nw], unregister
     [dels] and re-check [cg]; what each list needs of [vs'] is all that is left to show. *)
  Lemma sync_inv : forall s n vs' nw dels cg, Inv c s -> vols_ok vs' ->
    let ns0 := s_nodes s in let ns := aset n vs' ns0 in
    (forall x, In x nw -> exists i, aget (vi_id x) vs' = Some i) ->
    (forall x, In x dels -> aget (vi_id x) vs' = None) ->
    (forall x, In x cg -> (exists i, aget (vi_id x) vs' = Some i) <-> (exists i, ginfo ns0 n (vi_id x) = Some i)) ->
    (forall v, ~ In v (ids nw ++ ids dels ++ ids cg) ->
       ((exists i, aget v vs' = Some i) <-> (exists i, ginfo ns0 n v = Some i)) /\
       forall i i0, aget v vs' = Some i -> ginfo ns0 n v = Some i0 -> vi_ro i0 = vi_ro i) ->
    Inv c {| s_nodes := ns;
             s_lay := fold_left (fun l vi => ensure c ns (vi_id vi) l) cg
                        (fold_left (fun l vi => unregister_layout c ns (vi_id vi) n l) dels
                           (fold_left (fun l vi => register_layout c ns vi n l) nw (s_lay s))) |}.
  Proof.
    intros s n vs' nw dels cg HI Hok ns0 ns HR HU HE HS.
    set (acts := map Reg nw ++ map (fun d => Unreg (vi_id d)) dels ++ map (fun g => Ens (vi_id g)) cg).
    replace (fold_left _ cg _) with (fold_left (do_act c ns n) acts (s_lay s))
      by (subst acts; now rewrite !fold_left_app, !fold_left_map).
    assert (Hn : forall v, ginfo ns n v = aget v vs') by (intros; subst ns; now rewrite ginfo_aset, N.eqb_refl).
    apply (acts_inv s ns n _ HI); [apply nodes_ok_aset; [apply HI|exact Hok]| | |].
    - intros v m Hne. subst ns. rewrite ginfo_aset. now apply N.eqb_neq in Hne as ->.
    - intros a Ha. subst acts. rewrite !in_app_iff, !in_map_iff in Ha.
      destruct Ha as [(x & <- & Hx)|[(x & <- & Hx)|(x & <- & Hx)]]; simpl; rewrite Hn; auto.
    - intros v Hv. subst acts. rewrite !map_app, !map_map in Hv. unfold same_at. rewrite Hn. now apply HS.
  Qed.

  (* SyncDataNodeRegistration *)
  Lemma sync_full_inv : forall n actual s, Inv c s -> NoDup (ids actual) -> Inv c (sync_full c n actual s).
  Proof.
    intros n actual s HI Hnd. unfold sync_full. set (vs0 := node_vols (s_nodes s) n).
    pose proof (node_vols_ok _ n (inv_nodes _ _ HI)) as Hvs0. fold vs0 in Hvs0.
    destruct (update_volumes_spec vs0 actual Hvs0 Hnd) as (vs' & -> & Vok & Vget).
    pose proof (deleted_of_spec vs0 actual Hvs0) as Dspec.
    apply (sync_inv s n vs'); auto.
    - intros x Hx. apply filter_In in Hx. rewrite Vget, find_id_In by tauto. eauto.
    - intros x Hx. rewrite Vget. apply find_id_None, (Dspec (vi_id x)). now apply in_map.
    - intros x Hx. apply filter_In in Hx. destruct Hx as [Hx Hg]. unfold is_chg in Hg.
      rewrite Vget, find_id_In, ginfo_node_vols by assumption. fold vs0.
      destruct (aget (vi_id x) vs0); [split; eauto|discriminate].
    - (* no operation on v: n neither gained nor lost it, and its read-only flag is as before *)
      intros v Hv. rewrite !in_app_iff in Hv. rewrite Vget, ginfo_node_vols. fold vs0.
      destruct (find_id v actual) as [a|] eqn:Ea.
      + apply find_id_Some in Ea. destruct Ea as [Ha <-].
        destruct (aget (vi_id a) vs0) as [old|] eqn:Eo.
        * split; [split; eauto|]. intros i i0 E1 E2. inversion E1; inversion E2; subst.
          destruct (Bool.eqb (vi_ro i0) (vi_ro i)) eqn:Er; [now apply eqb_prop|]. exfalso; apply Hv.
          right; right. apply in_map, filter_In. split; [exact Ha|]. unfold is_chg. now rewrite Eo, Er.
        * exfalso; apply Hv. left. apply in_map, filter_In. split; [exact Ha|]. unfold is_new. now rewrite Eo.
      + destruct (aget v vs0) as [old|] eqn:Eo.
        * exfalso; apply Hv. right; left. apply Dspec. split; [congruence|].
          intros H. apply in_map_iff in H. destruct H as (a & <- & Ha). now rewrite find_id_In in Ea.
        * split; [split; intros [i Hi]; discriminate|intros i i0 Hi; discriminate].
  Qed.

  (* IncrementalSyncDataNodeRegistration *)
  Lemma sync_incr_inv : forall n news dels s, Inv c s ->
    NoDup news -> (forall v, In v news -> ~ In v dels) ->
    Inv c (sync_incr c n news dels s).
  Proof.
    intros n news dels s HI Hnn Hdj. unfold sync_incr; cbv zeta.
    destruct (delta_update_volumes_spec _ news dels (node_vols_ok _ n (inv_nodes _ _ HI)) Hnn) as [Vok Vget].
    apply (sync_inv s n _ (map short_info news) (map short_info dels) []); auto.
    - intros x Hx. apply in_map_iff in Hx. destruct Hx as (v & <- & Hv). rewrite Vget; simpl.
      apply mem_In in Hv as ->. eauto.
    - intros x Hx. apply in_map_iff in Hx. destruct Hx as (v & <- & Hv). rewrite Vget; simpl.
      destruct (mem v news) eqn:E; [apply mem_In in E; now apply Hdj in E|]. now apply mem_In in Hv as ->.
    - intros x [].
    - intros v Hv. rewrite !ids_short, app_nil_r, in_app_iff in Hv. rewrite Vget, <- ginfo_node_vols.
      destruct (mem v news) eqn:E1; [apply mem_In in E1; tauto|].
      destruct (mem v dels) eqn:E2; [apply mem_In in E2; tauto|].
      split; [reflexivity|]. intros i i0 H1 H2. congruence.
  Qed.

  (* a sweep of the full-volume collector only removes vids from writables *)
  Lemma collect_spec : forall vs l, LJ l ->
    let l' := fold_left (fun l v => set_capacity_full v l) vs l in
    LJ l' /\ l_loc l' = l_loc l /\
    (forall v, mem v (l_writ l') = true -> mem v (l_writ l) = true /\ ~ In v vs).
  Proof.
    induction vs as [|x vs IH]; intros l HL; simpl.
    - split; [exact HL|split; [reflexivity|]]. intros v Hv; split; [exact Hv|tauto].
    - destruct (remove_writable_own x l HL) as (A & B).
      destruct (IH (remove_writable x l) A) as (A' & B' & C').
      split; [exact A'|split; [exact B'|]].
      intros v Hv. destruct (C' v Hv) as [Hm Hni].
      destruct (N.eq_dec x v) as [<-|Hne]; [congruence|].
      simpl in Hm. rewrite mem_lremove_neq in Hm by assumption. split; [exact Hm|]. intros [H|H]; auto.
  Qed.

  Lemma collect_inv : forall s, Inv c s -> Inv c (collect_full c s).
  Proof.
    intros s [HLJ Hns Hloc Hw]; unfold collect_full.
    destruct (collect_spec (full_vids c (s_nodes s)) (s_lay s) HLJ) as (A & B & C).
    constructor; simpl.
    - exact A.
    - exact Hns.
    - intros v m. unfold loc. rewrite B. apply Hloc.
    - intros v Hv. simpl in Hv. destruct (C v Hv) as [Hv0 _].
      destruct (Hw v Hv0) as [W1 W2]. simpl in *. rewrite B. split; assumption.
  Qed.

  (* UnRegisterDataNode *)
  Lemma disconnect_inv : forall n s, Inv c s -> Inv c (disconnect c n s).
  Proof.
    intros n s HI; unfold disconnect. pose proof (inv_nodes _ _ HI) as Hns.
    assert (Hacts : fold_left (do_act c (adel n (s_nodes s)) n) (map (fun p => Unav (fst p)) (node_vols (s_nodes s) n)) (s_lay s)
                    = fold_left (fun l p => set_unavailable c n (fst p) l) (node_vols (s_nodes s) n) (s_lay s))
      by apply fold_left_map.
    rewrite <- Hacts.
    assert (Hn : forall v, ginfo (adel n (s_nodes s)) n v = None) by (intros; now rewrite ginfo_adel, N.eqb_refl).
    apply (acts_inv s _ n _ HI).
    - now apply nodes_ok_adel.
    - intros v m Hne. rewrite ginfo_adel. now apply N.eqb_neq in Hne as ->.
    - intros a Ha. apply in_map_iff in Ha. destruct Ha as (p & <- & _). apply Hn.
    - intros v Hv. rewrite map_map in Hv. unfold same_at. rewrite Hn, ginfo_node_vols.
      destruct (aget v (node_vols (s_nodes s) n)) as [i|] eqn:E.
      + exfalso; apply Hv. apply aget_In in E. now apply (in_map fst) in E.
      + split; [reflexivity|discriminate].
  Qed.

  Lemma init_inv : Inv c init.
  Proof.
    constructor; simpl.
    - apply LJ_empty.
    - split; [constructor|]. intros n vs H; discriminate.
    - intros v m. split; [intros []|intros [i H]; discriminate].
    - intros v H; discriminate.
  Qed.

  Lemma step_inv : forall s e, Inv c s -> wf_event e = true -> Inv c (step c s e).
  Proof.
    intros s [n vs|n news dels| |n] HI Hwf; simpl in *.
    - apply sync_full_inv; [assumption|]. now apply nodupb_spec.
    - apply wf_incr in Hwf. now apply sync_incr_inv.
    - now apply collect_inv.
    - now apply disconnect_inv.
  Qed.

  Lemma run_inv : forall es s, Inv c s -> forallb wf_event es = true -> Inv c (run c s es).
  Proof.
    induction es as [|e es IH]; intros s HI Hwf; simpl in *; [assumption|].
    apply andb_true_iff in Hwf. destruct Hwf as [H1 H2].
    apply IH; [now apply step_inv|assumption].
  Qed.

End Events.

Lemma holders_spec : forall ns v n, nodes_ok ns ->
  (In n (holders ns v) <-> exists i, ginfo ns n v = Some i).
Proof.
  intros ns v n [Hnd _]; unfold holders, ginfo. rewrite in_map_iff. split.
  - intros ([k vs] & E & Hin); simpl in E; subst k. apply filter_In in Hin. destruct Hin as [Hin Hf]; simpl in Hf.
    rewrite (In_aget ns n vs Hnd Hin). destruct (aget v vs); [eauto|discriminate].
  - intros [i Hi]. destruct (aget n ns) as [vs|] eqn:E; [|discriminate].
    exists (n, vs); split; [reflexivity|]. apply filter_In; split; [now apply aget_In|]; simpl. now rewrite Hi.
Qed.

Lemma holders_NoDup : forall ns v, nodes_ok ns -> NoDup (holders ns v).
Proof. intros ns v [Hnd _]; unfold holders. now apply NoDup_map_filter. Qed.

Definition small_v (c : cfg) (ns : nodes) (v : N) : Prop :=
  forall n i, ginfo ns n v = Some i -> vi_size i < c_limit c.

Section Theorems.
  Variable c : cfg.
  Hypothesis Hc : 1 <= c_copy c.

  Definition wf_history (es : list event) : Prop := forallb wf_event es = true.

  Lemma reach_inv : forall es, wf_history es -> Inv c (run c init es).
  Proof. intros es H; apply run_inv; [assumption|apply init_inv|exact H]. Qed.

  Lemma inv_lookup : forall s v n, Inv c s -> In n (loc (s_lay s) v) <-> In n (holders (s_nodes s) v).
  Proof. intros s v n HI. rewrite (inv_loc _ _ HI). symmetry. apply holders_spec, HI. Qed.

  (* Lookup returns exactly the registered servers, each once *)
  Lemma lookup_exact : forall es, wf_history es -> forall v,
    let s := run c init es in
    NoDup (lookup s v) /\ forall n, In n (lookup s v) <-> In n (holders (s_nodes s) v).
  Proof.
    intros es Hwf v s. pose proof (reach_inv es Hwf) as HI.
    split; [apply LJ_NoDup_loc, HI|]. intros n. now apply inv_lookup.
  Qed.

  Lemma inv_lookup_len : forall s v, Inv c s -> nlen (loc (s_lay s) v) = nlen (holders (s_nodes s) v).
  Proof.
    intros s v HI. unfold nlen. f_equal. apply Permutation_length, NoDup_Permutation.
    - apply LJ_NoDup_loc, HI.
    - apply holders_NoDup, HI.
    - intros n. now apply inv_lookup.
  Qed.

  (* the part of the criterion that holds on every history: replica count and writability *)
  Lemma writable_copies_rw_inv : forall s v, Inv c s -> writable s v = true ->
    enough c (nlen (holders (s_nodes s) v)) = true /\
    forallb (replica_rw (s_nodes s) v) (holders (s_nodes s) v) = true.
  Proof.
    intros s v HI Hw. destruct (inv_w _ _ HI v Hw) as [A B].
    change (olist (w_loc (view_of (s_lay s) v))) with (loc (s_lay s) v) in A, B.
    split; [now rewrite <- inv_lookup_len|].
    apply forallb_forall. intros n Hn. apply inv_lookup in Hn; [|exact HI].
    destruct (proj1 (inv_loc _ _ HI v n) Hn) as [i Hi].
    unfold replica_rw. rewrite Hi. apply negb_true_iff. now apply (B n i).
  Qed.

  Lemma crit_of_parts : forall ns v,
    enough c (nlen (holders ns v)) = true ->
    forallb (replica_rw ns v) (holders ns v) = true ->
    small_v c ns v -> crit c ns v = true.
  Proof.
    intros ns v A B S. unfold crit. rewrite A; simpl. apply forallb_forall. intros n Hn.
    rewrite forallb_forall in B. specialize (B n Hn). unfold replica_rw in B. unfold replica_ok.
    destruct (ginfo ns n v) as [i|] eqn:E; [|discriminate]. rewrite B; simpl.
    apply N.ltb_lt. eauto.
  Qed.

  (* the sizes of v stay below the limit as long as no full heartbeat reports one at or over it *)
  Lemma small_step : forall s e v, 0 < c_limit c -> nodes_ok (s_nodes s) -> wf_event e = true ->
    (forall n vs a, e = EFull n vs -> In a vs -> vi_id a = v -> vi_size a < c_limit c) ->
    small_v c (s_nodes s) v -> small_v c (s_nodes (step c s e)) v.
  Proof.
    intros s e v Hl Hns Hwf Hr Hs m i. rewrite (proj2 (step_ginfo c s e Hns Hwf)).
    destruct e as [n vs|n news dels| |n].
    - (* full heartbeat: m's infos are the reported ones *)
      destruct (n =? m); [|apply Hs]. intros Hi.
      apply find_id_Some in Hi. destruct Hi. now apply (Hr n vs).
    - (* incremental heartbeat: a new entry has size 0 *)
      destruct (n =? m); [|apply Hs]. intros Hi.
      destruct (mem v news); [inversion Hi; exact Hl|]. destruct (mem v dels); [discriminate|]. now apply (Hs n).
    - apply Hs.
    - destruct (n =? m); [discriminate|apply Hs].
  Qed.

  Lemma small_run : forall es s v, 0 < c_limit c -> Inv c s -> forallb wf_event es = true ->
    (forall n vs a, In (EFull n vs) es -> In a vs -> vi_id a = v -> vi_size a < c_limit c) ->
    small_v c (s_nodes s) v -> small_v c (s_nodes (run c s es)) v.
  Proof.
    induction es as [|e es IH]; intros s v Hl HI Hwf Hr Hs; simpl in *; [assumption|].
    apply andb_true_iff in Hwf. destruct Hwf as [W1 W2].
    apply IH; auto; [now apply step_inv| |].
    - intros n vs a H. apply (Hr n vs a). now right.
    - apply small_step; auto; [apply HI|]. intros n vs a ->. apply (Hr n vs a). now left.
  Qed.

  (* the writable clause of C11 at full strength *)
  Definition writable_sound : Prop :=
    forall es, wf_history es -> forall v,
      let s := run c init es in writable s v = true -> crit c (s_nodes s) v = true.

  Lemma writable_copies_rw : forall es, wf_history es -> forall v,
    let s := run c init es in
    writable s v = true ->
    enough c (nlen (holders (s_nodes s) v)) = true /\
    forallb (replica_rw (s_nodes s) v) (holders (s_nodes s) v) = true.
  Proof. intros es Hwf v s. apply writable_copies_rw_inv. now apply reach_inv. Qed.

  (* the whole criterion for a vid none of whose full reports is at or over the limit *)
  Lemma crit_when_small : 0 < c_limit c -> forall es, wf_history es -> forall v,
    (forall n vs a, In (EFull n vs) es -> In a vs -> vi_id a = v -> vi_size a < c_limit c) ->
    let s := run c init es in writable s v = true -> crit c (s_nodes s) v = true.
  Proof.
    intros Hl es Hwf v Hr s Hw. pose proof (reach_inv es Hwf) as HI.
    destruct (writable_copies_rw_inv _ v HI Hw) as [A B]. apply crit_of_parts; auto.
    apply (small_run es init v Hl (init_inv c) Hwf Hr). intros n i H; discriminate.
  Qed.

  Lemma writable_sound_partial : 0 < c_limit c ->
    forall es, wf_history es -> trigger_size c es = false -> forall v,
      let s := run c init es in writable s v = true -> crit c (s_nodes s) v = true.
  Proof.
    intros Hl es Hwf Ht v. apply crit_when_small; auto. intros n vs a He Ha _. apply N.leb_gt.
    exact (existsb_false_in _ _ _ (existsb_false_in (reports_full c) es _ Ht He) Ha).
  Qed.

  Lemma full_vids_spec : forall ns n v i, nodes_ok ns -> ginfo ns n v = Some i ->
    c_limit c <= vi_size i -> In v (full_vids c ns).
  Proof.
    intros ns n v i Hns Hi Hsz. pose proof (ginfo_id ns n v i Hns Hi) as Hid.
    unfold ginfo in Hi. destruct (aget n ns) as [vs|] eqn:E; [|discriminate].
    unfold full_vids. apply in_flat_map. exists (n, vs); split; [now apply aget_In|]. simpl.
    apply in_map_iff. exists (v, i); split; [exact Hid|]. apply filter_In; split; [now apply aget_In|]. simpl.
    now apply N.leb_le.
  Qed.

  Lemma after_collect_registered_small : forall es, wf_history es -> forall v,
    writable (run c init (es ++ [ECollect])) v = true ->
    forall n i, ginfo (s_nodes (run c init es)) n v = Some i -> vi_size i < c_limit c.
  Proof.
    intros es Hwf v Hw n i Hi. pose proof (reach_inv es Hwf) as HI0.
    unfold run in Hw. rewrite fold_left_app in Hw.
    destruct (collect_spec (full_vids c (s_nodes (run c init es))) _ (inv_LJ _ _ HI0)) as (_ & _ & C).
    destruct (C v Hw) as [_ Hni].
    destruct (N.lt_ge_cases (vi_size i) (c_limit c)) as [Hlt|Hge]; [exact Hlt|].
    exfalso; apply Hni. eapply full_vids_spec; eauto. apply HI0.
  Qed.

  (* the whole criterion on every history right after a sweep of the full-volume collector *)
  Lemma writable_sound_after_collect : forall es, wf_history es -> forall v,
    let s := run c init (es ++ [ECollect]) in writable s v = true -> crit c (s_nodes s) v = true.
  Proof.
    intros es Hwf v s Hw.
    assert (Hwf' : wf_history (es ++ [ECollect])).
    { unfold wf_history in *. rewrite forallb_app, Hwf. reflexivity. }
    destruct (writable_copies_rw_inv s v (reach_inv _ Hwf') Hw) as [A B].
    apply crit_of_parts; auto. intros n i Hi. apply (after_collect_registered_small es Hwf v Hw n).
    subst s. unfold run in Hi. now rewrite fold_left_app in Hi.
  Qed.
End Theorems.

Definition cfg000 : cfg := {| c_copy := 1; c_asmin := false; c_limit := 100 |}.
Definition vi (v sz : N) (ro : bool) : vinfo := {| vi_id := v; vi_size := sz; vi_ro := ro |}.
(* finding 0: a volume removed as full is re-admitted: size report, sweep, read-only flag
   set and cleared *)
Definition readmit_history : list event :=
  [EFull 1 [vi 1 10 false]; EFull 1 [vi 1 150 false]; ECollect;
   EFull 1 [vi 1 150 true]; EFull 1 [vi 1 150 false]].

Lemma writable_sound_refuted : ~ writable_sound cfg000.
Proof.
  intros H. specialize (H readmit_history eq_refl 1). vm_compute in H. specialize (H eq_refl). discriminate.
Qed.

(* the size clause also fails between a size report and the next sweep *)
Lemma size_lag_witness :
  let s := run cfg000 init [EFull 1 [vi 1 10 false]; EFull 1 [vi 1 150 false]] in
  writable s 1 = true /\ crit cfg000 (s_nodes s) 1 = false.
Proof. vm_compute; split; reflexivity. Qed.

(* non-vacuity: a two-replica history that is well formed, has no trigger, and
   ends with volume 1 writable and volume 2 not (one replica read-only) *)
Definition cfg001 : cfg := {| c_copy := 2; c_asmin := false; c_limit := 100 |}.
Definition sample_history : list event :=
  [EFull 1 [vi 1 10 false; vi 2 20 false]; EIncr 2 [1] []; EFull 2 [vi 1 30 false; vi 2 20 true];
   EDisconnect 1; EFull 1 [vi 1 10 false; vi 2 20 false]].
Lemma sample_history_ok :
  wf_history sample_history /\ trigger_size cfg001 sample_history = false /\
  let s := run cfg001 init sample_history in
  writable s 1 = true /\ writable s 2 = false /\ lookup s 1 = [2; 1] /\ crit cfg001 (s_nodes s) 1 = true.
Proof. vm_compute; repeat split; reflexivity. Qed.
