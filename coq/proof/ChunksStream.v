(* C17: StreamContent (zeros for holes; a window end offset+size beyond MaxInt64 means "to the
   end") and ReadAll write the overlay. *)
From Coq Require Import List NArith Bool Arith Lia Permutation Sorted.
From Coq Require Import ZifyBool ZifyN ZifyNat.
From SW Require Import model.Chunks proof.ChunksProofs proof.ChunksOverlay proof.ChunksRead.
Import ListNotations.
Local Open Scope N_scope.

(* the positions a, a+1, ..., b-1 *)
Definition nrange (a b : N) : list N := map (fun i => a + N.of_nat i) (seq 0 (N.to_nat (b - a))).

Lemma map_seq_shift : forall {A} n s (f : nat -> A),
  map f (seq s n) = map (fun i => f (s + i)%nat) (seq 0 n).
Proof.
  induction n as [|n IH]; intros s f; simpl; auto.
  f_equal; [f_equal; lia|]. rewrite (IH (S s) f). rewrite (IH 1%nat (fun i => f (s + i)%nat)).
  apply map_ext. intros i. f_equal. lia.
Qed.

Lemma nrange_length : forall a b, length (nrange a b) = N.to_nat (b - a).
Proof. intros. unfold nrange. rewrite map_length, seq_length. reflexivity. Qed.

Lemma in_nrange : forall a b q, In q (nrange a b) -> a <= q /\ q < b.
Proof.
  intros a b q H. unfold nrange in H. apply in_map_iff in H. destruct H as [i [E Hi]].
  apply in_seq in Hi. lia.
Qed.

Lemma nrange_split : forall a b c, a <= b -> b <= c -> nrange a c = nrange a b ++ nrange b c.
Proof.
  intros a b c H1 H2. unfold nrange.
  replace (N.to_nat (c - a)) with (N.to_nat (b - a) + N.to_nat (c - b))%nat by lia.
  rewrite seq_app, map_app. f_equal. simpl. rewrite map_seq_shift.
  apply map_ext. intros i. lia.
Qed.

Lemma nrange_empty : forall a, nrange a a = [].
Proof. intros a. unfold nrange. rewrite N.sub_diag. reflexivity. Qed.

Lemma map_const_repeat : forall {A B} (f : A -> B) c l, (forall x, In x l -> f x = c) ->
  map f l = repeat c (length l).
Proof.
  intros A B f c l. induction l as [|x l IH]; intros H; simpl; auto.
  rewrite (H x) by (left; auto). f_equal. apply IH. intros y Hy. apply H. right. auto.
Qed.

Lemma skipn_nth_error : forall {A} (l : list A) i x, nth_error l i = Some x -> skipn i l = x :: skipn (S i) l.
Proof.
  induction l as [|y l IH]; intros [|i] x H; simpl in *; try discriminate.
  - inversion H. reflexivity.
  - apply IH. auto.
Qed.

Lemma slice_map : forall n (d : list N) off, (off + n <= length d)%nat ->
  firstn n (skipn off d) = map (fun i => nth (off + i) d 0) (seq 0 n).
Proof.
  induction n as [|n IH]; intros d off H; [reflexivity|].
  rewrite (skipn_nth_error d off (nth off d 0)) by (apply nth_error_nth'; lia). rewrite firstn_cons. cbn [seq map]. f_equal; [f_equal; lia|].
  rewrite (IH d (S off)) by lia. rewrite (map_seq_shift n 1%nat).
  apply map_ext. intros i. f_equal. lia.
Qed.

(* a byte range of a chunk, indexed by file positions *)
Lemma slice_as_range : forall (d : list N) off n logic, off + n <= N.of_nat (length d) ->
  firstn (N.to_nat n) (skipn (N.to_nat off) d) =
  map (fun q => nth (N.to_nat (off + (q - logic))) d 0) (nrange logic (logic + n)).
Proof.
  intros d off n logic H. rewrite slice_map by lia. unfold nrange. rewrite map_map.
  replace (N.to_nat (logic + n - logic)) with (N.to_nat n) by lia.
  apply map_ext. intros i. f_equal. lia.
Qed.

Definition fetch_ok (src : chunk_source) (w : chunk_view) : Prop :=
  fetch_view src w = firstn (N.to_nat (cv_size w)) (skipn (N.to_nat (cv_off w)) (src (cv_fid w))) /\
  cv_off w + cv_size w <= N.of_nat (length (src (cv_fid w))).

(* a view whose size is the chunk's size is the whole chunk *)
Lemma view_in_fetch : forall (src : chunk_source) c w,
  view_in c w -> N.of_nat (length (src (c_fid c))) = c_size c -> fetch_ok src w.
Proof.
  intros src c w Hin L. pose proof (view_in_data src c w Hin L) as Hd.
  split; auto. unfold fetch_view. destruct (cv_size w =? cv_csize w) eqn:Efull; auto.
  destruct Hin as [E [Ecs _]]. rewrite E in *.
  assert (Hoff : cv_off w = 0) by lia.
  assert (Hsz : N.to_nat (cv_size w) = length (src (c_fid c))) by lia.
  rewrite Hoff, Hsz. simpl. symmetry. apply firstn_all.
Qed.

(* what is written is, position by position, what the views show, up to the end E of the last view *)
Lemma stream_views_spec : forall src ws pos,
  views_ok ws -> (forall w, In w ws -> pos <= cv_logic w /\ fetch_ok src w) ->
  exists E,
    stream_views src ws pos = (map (fun q => byte_of src (src_of_views ws q)) (nrange pos E), E) /\
    pos <= E /\ (forall q, E <= q -> src_of_views ws q = None) /\
    (E = pos \/ exists w, In w ws /\ E = cv_end w).
Proof.
  intros src ws. induction ws as [|w rest IH]; intros pos Hok Hws.
  - exists pos. simpl. rewrite nrange_empty. repeat split; auto. lia.
  - pose proof Hok as [Hs Hf]. inversion Hf as [|? ? Hne _]; subst.
    destruct (Hws w (or_introl eq_refl)) as [Hpos [F1 F2]].
    destruct (IH (cv_end w) (iok_tail _ _ _ _ Hok)) as [E [Eq [I1 [I2 I3]]]].
    { intros w' Hw'. split; [exact (ss_in_cons _ _ _ _ Hs Hw')|apply Hws; right; auto]. }
    exists E. simpl. fold (cv_end w). rewrite Eq.
    split; [|split; [lia|split]].
    + f_equal.
      rewrite (nrange_split pos (cv_logic w) E), (nrange_split (cv_logic w) (cv_end w) E) by lia.
      rewrite !map_app. f_equal; [|f_equal].
      * (* the gap: zeros *)
        rewrite (map_const_repeat _ 0), nrange_length; auto.
        intros q Hq. apply in_nrange in Hq. rewrite views_before by (auto; lia). reflexivity.
      * (* the view's data *)
        rewrite F1. unfold cv_end. rewrite (slice_as_range _ _ _ (cv_logic w)) by lia.
        apply map_ext_in. intros q Hq. apply in_nrange in Hq.
        rewrite src_views_here by (unfold cv_end; lia). reflexivity.
      * (* the rest *)
        apply map_ext_in. intros q Hq. apply in_nrange in Hq. rewrite src_views_skip by lia. reflexivity.
    + intros q Hq. rewrite src_views_skip by lia. apply I2. lia.
    + right. destruct I3 as [I3|[w' [Hw' I3]]]; [exists w|exists w']; simpl; auto.
Qed.

(* StreamContent's loop over the views of a window: the overlay up to the end E of the last view,
   and no chunk shows a byte of the window from E on *)
Lemma stream_window : forall src fuel ms chunks d m off size,
  resolve fuel ms off (off + size) chunks = Some (d, m) -> NoDup (map key d) ->
  (forall c, In c d -> N.of_nat (length (src (c_fid c))) = c_size c) ->
  exists E,
    stream_views src (view_from_chunks fuel ms chunks off size) off = (map (overlay src d) (nrange off E), E) /\
    off <= E /\ E <= off + size /\ (E = off \/ exists c, In c d /\ E <= c_stop c) /\
    (forall p, E <= p -> p < off + size -> overlay_src d p = None).
Proof.
  intros src fuel ms chunks d m off size Hres Hn Hlen.
  destruct (window_views fuel ms chunks d m off size Hres Hn) as [HV [HVsrc HW]].
  rewrite Forall_forall in HW.
  destruct (stream_views_spec src _ off HV) as [E [Eq [S1 [S2 S3]]]].
  { intros w Hw. destruct (HW w Hw) as [W1 [_ [c [Ic Hin]]]]. split; auto.
    apply (view_in_fetch src c); auto. }
  assert (HE : E <= off + size /\ (E = off \/ exists c, In c d /\ E <= c_stop c)).
  { destruct S3 as [S3|[w [Hw S3]]]; [split; [lia|auto]|].
    destruct (HW w Hw) as [_ [W2 [c [Ic Hin]]]]. subst E. split; auto.
    right. exists c. split; auto. apply Hin. }
  exists E. rewrite Eq. split; [|split; [auto|split; [tauto|split; [tauto|]]]].
  - f_equal. apply map_ext_in. intros q Hq. apply in_nrange in Hq. unfold overlay. rewrite HVsrc.
    replace ((off <=? q) && (q <? off + size)) with true by lia. reflexivity.
  - intros p Hp1 Hp2. rewrite <- (S2 p Hp1), HVsrc.
    replace ((off <=? p) && (p <? off + size)) with true by lia. reflexivity.
Qed.

Lemma overlay_hole_range : forall src d a b, (forall p, a <= p -> p < b -> overlay_src d p = None) ->
  map (overlay src d) (nrange a b) = repeat 0 (N.to_nat (b - a)).
Proof.
  intros src d a b H. rewrite (map_const_repeat _ 0), nrange_length; auto.
  intros q Hq. apply in_nrange in Hq. unfold overlay. rewrite H by lia. reflexivity.
Qed.

Lemma clamp_stop_facts : forall off size, off <= max_int64 ->
  off <= clamp_stop off size /\ clamp_stop off size <= max_int64 /\
  off + (clamp_stop off size - off) = clamp_stop off size.
Proof. intros off size H. unfold clamp_stop. destruct (max_int64 <? off + size) eqn:E; lia. Qed.

Lemma view_from_chunks_w_eq : forall fuel ms chunks off size, off <= max_int64 ->
  view_from_chunks_w fuel ms chunks off size =
  view_from_chunks fuel ms chunks off (clamp_stop off size - off).
Proof.
  intros fuel ms chunks off size H. destruct (clamp_stop_facts off size H) as [_ [_ E]].
  unfold view_from_chunks_w, view_from_chunks, view_from_visibles_w, view_from_visibles.
  rewrite E. reflexivity.
Qed.

(* without a wrap the clamp does nothing *)
Lemma view_from_chunks_w_nowrap : forall fuel ms chunks off size, off + size <= max_int64 ->
  view_from_chunks_w fuel ms chunks off size = view_from_chunks fuel ms chunks off size.
Proof.
  intros. rewrite view_from_chunks_w_eq by lia. unfold clamp_stop.
  replace (max_int64 <? off + size) with false by lia. f_equal. lia.
Qed.

Theorem stream_content_w_spec : forall src fuel ms chunks d m off size,
  off <= max_int64 -> size <= max_int64 ->
  resolve fuel ms off (clamp_stop off size) chunks = Some (d, m) -> NoDup (map key d) ->
  (forall c, In c d -> N.of_nat (length (src (c_fid c))) = c_size c) ->
  ((size =? max_int64) || (max_int64 <? off + size) = true -> forall c, In c d -> c_stop c <= total_size chunks) ->
  total_size chunks <= max_int64 ->
  let stop := if (size =? max_int64) || (max_int64 <? off + size) then total_size chunks else off + size in
  stream_content_w src fuel ms chunks off size = map (overlay src d) (nrange off stop).
Proof.
  intros src fuel ms chunks d m off size Ho Hs Hres Hn Hlen Hall Htot stop.
  destruct (clamp_stop_facts off size Ho) as [C1 [C2 C3]].
  unfold stream_content_w. fold stop. rewrite view_from_chunks_w_eq by auto.
  set (size' := clamp_stop off size - off) in *. rewrite <- C3 in Hres.
  destruct (stream_window src fuel ms chunks d m off size' Hres Hn Hlen) as [E [Eq [E1 [E2 [E3 E4]]]]].
  rewrite Eq.
  assert (Hstop : stop <= off + size').
  { rewrite C3. unfold stop, clamp_stop.
    destruct (size =? max_int64) eqn:X1; destruct (max_int64 <? off + size) eqn:X2; simpl; lia. }
  destruct (N.le_gt_cases E stop) as [Hpos|Hpos].
  - rewrite (nrange_split off E stop), map_app by lia. f_equal.
    symmetry. apply overlay_hole_range. intros p P1 P2. apply E4; lia.
  - (* the range ends before it starts: no view, nothing written *)
    assert (HE : E = off).
    { destruct E3 as [E3|[c [Ic Hc]]]; auto. exfalso. unfold stop in *.
      destruct ((size =? max_int64) || (max_int64 <? off + size)) eqn:Es.
      - specialize (Hall eq_refl c Ic). lia.
      - unfold clamp_stop in C3. replace (max_int64 <? off + size) with false in C3 by lia. lia. }
    subst E. rewrite nrange_empty. unfold nrange. replace (stop - off) with 0 by lia. reflexivity.
Qed.

Lemma stream_content_w_nowrap : forall src fuel ms chunks off size, off + size <= max_int64 ->
  stream_content_w src fuel ms chunks off size = stream_content src fuel ms chunks off size.
Proof.
  intros src fuel ms chunks off size H. unfold stream_content_w, stream_content.
  rewrite view_from_chunks_w_nowrap by auto.
  replace (max_int64 <? off + size) with false by lia. rewrite orb_false_r. reflexivity.
Qed.

Theorem stream_content_spec : forall src fuel ms chunks d m off size,
  resolve fuel ms off (off + size) chunks = Some (d, m) -> NoDup (map key d) ->
  (forall c, In c d -> N.of_nat (length (src (c_fid c))) = c_size c) ->
  off + size <= max_int64 ->
  (size = max_int64 -> forall c, In c d -> c_stop c <= total_size chunks) ->
  total_size chunks <= max_int64 ->
  let stop := if size =? max_int64 then total_size chunks else off + size in
  stream_content src fuel ms chunks off size = map (overlay src d) (nrange off stop).
Proof.
  intros src fuel ms chunks d m off size Hres Hn Hlen Hov Hall Htot.
  rewrite <- stream_content_w_nowrap by auto.
  assert (Hc : clamp_stop off size = off + size).
  { unfold clamp_stop. replace (max_int64 <? off + size) with false by lia. reflexivity. }
  rewrite <- Hc in Hres.
  pose proof (stream_content_w_spec src fuel ms chunks d m off size) as W.
  replace (max_int64 <? off + size) with false in W by lia. rewrite orb_false_r in W.
  apply W; auto; try lia. intros Es. apply Hall. lia.
Qed.

(* ReadAll: the overlay of [0, E) where E is the end of the content (no chunk has a byte in [E, MaxInt64)) *)
Theorem read_all_spec : forall src fuel ms chunks d m,
  resolve fuel ms 0 max_int64 chunks = Some (d, m) -> NoDup (map key d) ->
  (forall c, In c d -> N.of_nat (length (src (c_fid c))) = c_size c) ->
  exists E, read_all src fuel ms chunks = map (overlay src d) (nrange 0 E) /\
            (forall p, E <= p -> p < max_int64 -> overlay_src d p = None).
Proof.
  intros src fuel ms chunks d m Hres Hn Hlen. unfold read_all.
  rewrite view_from_chunks_w_eq by (unfold max_int64; lia).
  change (clamp_stop 0 max_int64 - 0) with max_int64.
  destruct (stream_window src fuel ms chunks d m 0 max_int64 Hres Hn Hlen) as [E [Eq [_ [_ [_ E4]]]]].
  rewrite Eq. exists E. split; [reflexivity|exact E4].
Qed.
