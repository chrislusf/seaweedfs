(* The copy loops of Compact (a scan of the .dat, with writers running meanwhile) and Compact2
   (a walk over the loaded .idx).  Both are runs of one loop that copies the records a selector
   picks; what the rest of the development needs of either is [copy_spec], and it is only
   needed on the keys that get no .idx entry while the compaction is pending: every other
   key is overridden by makeupDiff. *)
From Coq Require Import List NArith ZArith Bool Lia.
From SW Require Import proof.ListFacts model.Volume model.Compaction proof.CompactionInv proof.CompactionRead.
Import ListNotations.
Local Open Scope N_scope.

Lemma fold_left_ext_fn : forall {A B} (f g : A -> B -> A) l a,
  (forall a x, f a x = g a x) -> fold_left f l a = fold_left g l a.
Proof. intros A B f g l. induction l as [|x l IH]; intros a H; simpl; [reflexivity|]. rewrite H. apply IH. exact H. Qed.

Lemma nth_skipn_In : forall {A} (l : list A) i j r, nth_error l j = Some r -> (i <= j)%nat -> In r (skipn i l).
Proof.
  intros A. induction l as [|x l IH]; intros i j r H Hle.
  - destruct j; discriminate.
  - destruct i as [|i]; [exact (nth_error_In _ _ H)|].
    destruct j as [|j]; [lia|]. simpl in H. simpl. apply (IH i j r H). lia.
Qed.

Lemma live_facts : forall s k off size, cinv s -> live (nm (cv s)) k = Some (off, size) ->
  (0 <= size)%Z /\ off <> 0 /\
  idx_get (cidx s) k = Some {| ie_key := k; ie_off := off; ie_size := size |} /\
  exists r, find_rec (recs (cv s)) off = Some r /\ Z.of_N (r_size r) = size /\ n_id (r_n r) = k /\
            content (cv s) k = Some (pl r).
Proof.
  intros s k off size H L. destruct (live_inv _ _ _ _ L) as [nv [G [<- [<- [Ho Hs]]]]].
  pose proof (ci_ent _ H k) as He. unfold ent_ok in He. rewrite G in He. destruct He as [_ He].
  rewrite (proj2 (Z.leb_le _ _) Hs) in He. destruct He as [Hi [r [Hf [Hsz Hid]]]].
  repeat split; auto. exists r. repeat split; auto.
  unfold content, read_data. rewrite L, Hf, Hsz, Z.eqb_refl. reflexivity.
Qed.

Lemma content_facts : forall s k p, cinv s -> content (cv s) k = Some p ->
  exists off r, live (nm (cv s)) k = Some (off, Z.of_N (r_size r)) /\
                find_rec (recs (cv s)) off = Some r /\ n_id (r_n r) = k /\ p = pl r.
Proof.
  intros s k p H C. unfold content in C. destruct (live (nm (cv s)) k) as [[off size]|] eqn:L; [|discriminate].
  destruct (live_facts _ _ _ _ H L) as [_ [_ [_ [r [Hf [Hsz [Hid Hc]]]]]]].
  unfold content in Hc. rewrite L in Hc. rewrite Hc in C. inversion C. subst size. exists off, r. auto.
Qed.

Lemma idx_entry_cases : forall s k e, cinv s -> idx_get (cidx s) k = Some e ->
  ie_size e = (-1)%Z \/ live (nm (cv s)) k = Some (ie_off e, ie_size e).
Proof.
  intros s k e H Hi. pose proof (ci_ent _ H k) as He. unfold ent_ok in He.
  destruct (nm_get (nm (cv s)) k) as [nv|] eqn:G; [|congruence]. destruct He as [_ He].
  destruct (0 <=? nv_size nv)%Z eqn:S.
  - destruct He as [Hi' [r [Hf _]]]. rewrite Hi in Hi'. inversion Hi'; subst e. right. simpl.
    destruct (find_rec_bound _ _ _ _ (ci_sorted _ H) Hf) as [H8 _]. apply Z.leb_le in S. apply (live_intro _ _ _ G); lia.
  - destruct He as [o Hi']. rewrite Hi in Hi'. inversion Hi'; subst e. left. reflexivity.
Qed.

Lemma idx_live : forall s k e, cinv s -> idx_get (cidx s) k = Some e -> entry_dead e = false ->
  live (nm (cv s)) k = Some (ie_off e, ie_size e).
Proof.
  intros s k e H Hi Hd. apply entry_dead_false in Hd.
  destruct (idx_entry_cases _ _ _ H Hi) as [E|L]; [lia | exact L].
Qed.

Lemma live_by_idx : forall s s' k, cinv s -> cinv s' -> idx_get (cidx s') k = idx_get (cidx s) k ->
  live (nm (cv s')) k = live (nm (cv s)) k.
Proof.
  assert (Half : forall s s' k off size, cinv s -> cinv s' -> idx_get (cidx s') k = idx_get (cidx s) k ->
            live (nm (cv s)) k = Some (off, size) -> live (nm (cv s')) k = Some (off, size)).
  { intros s s' k off size H H' Hi L. destruct (live_facts _ _ _ _ H L) as [Hs [Ho [Hi1 _]]].
    rewrite <- Hi in Hi1. apply (idx_live _ _ _ H' Hi1). apply entry_dead_false. auto. }
  intros s s' k H H' Hi. destruct (live (nm (cv s)) k) as [[off size]|] eqn:L; [eapply Half; eauto|].
  destruct (live (nm (cv s')) k) as [[off size]|] eqn:L'; [|reflexivity].
  rewrite (Half s' s k off size H' H (eq_sym Hi) L') in L. discriminate.
Qed.

Definition visit {X} (sel : X -> option rec) (a : cacc) (x : X) : cacc :=
  match sel x with Some r => copy_rec a r | None => a end.

(* [P]: the visits made so far *)
Record copy_inv {X} (sel : X -> option rec) (P : list X) (a : cacc) : Prop := {
  j_sorted : sorted_recs (a_recs a) (a_end a);
  j_asc : asc (a_db a);
  j_some : forall k e, idx_get (a_db a) k = Some e ->
      exists r' x r, find_rec (a_recs a) (ie_off e) = Some r' /\ Z.of_N (r_size r') = ie_size e /\
                     In x P /\ sel x = Some r /\ n_id (r_n r) = k /\ pl r' = pl r;
  j_none : forall x r, In x P -> sel x = Some r -> idx_get (a_db a) (n_id (r_n r)) <> None
}.

Lemma copy_inv_step : forall X (sel : X -> option rec) P a x, copy_inv sel P a -> copy_inv sel (x :: P) (visit sel a x).
Proof.
  intros X sel P a x [Hs Ha Hsome Hnone]. unfold visit. destruct (sel x) as [r|] eqn:Sx.
  - constructor; simpl.
    + constructor; simpl; [lia | exact Hs].
    + apply db_set_asc. exact Ha.
    + intros k e H. rewrite db_get_set in H. simpl in H. destruct (n_id (r_n r) =? k) eqn:E.
      * apply N.eqb_eq in E. inversion H; subst. simpl.
        eexists. exists x, r. rewrite N.eqb_refl. repeat split; auto.
      * destruct (Hsome k e H) as [r' [x0 [r0 [Hf [Hsz [Hin [Hsel [Hid Hpl]]]]]]]]. exists r', x0, r0.
        pose proof (find_rec_keep _ _ {| r_off := a_end a; r_size := r_size r; r_at := r_at r; r_n := r_n r |}
                      _ _ Hs eq_refl Hf) as Hk. simpl in Hk. repeat split; auto.
    + intros x0 r0 [<-|Hin] Hsel.
      * rewrite Sx in Hsel. inversion Hsel; subst. rewrite db_get_set. simpl. rewrite N.eqb_refl. discriminate.
      * rewrite db_get_set. simpl. destruct (n_id (r_n r) =? n_id (r_n r0)); [discriminate|]. eapply Hnone; eauto.
  - constructor; auto.
    + intros k e H. destruct (Hsome k e H) as [r' [x0 [r0 [Hf [Hsz [Hin [Hsel [Hid Hpl]]]]]]]].
      exists r', x0, r0. repeat split; auto. right. exact Hin.
    + intros x0 r0 [<-|Hin] Hsel; [congruence | eapply Hnone; eauto].
Qed.

Lemma copy_inv_fold : forall X (sel : X -> option rec) L P a,
  copy_inv sel P a -> copy_inv sel (rev L ++ P) (fold_left (visit sel) L a).
Proof.
  intros X sel. induction L as [|x L IH]; intros P a H; simpl; [exact H|].
  rewrite <- app_assoc. simpl. apply IH. apply copy_inv_step. exact H.
Qed.

Record copy_spec (U : N -> Prop) (vt : N * N) (now_s : N) (s : cvol) (a : cacc) : Prop := {
  cs_sorted : sorted_recs (a_recs a) (a_end a);
  cs_asc : asc (a_db a);
  (* an entry of the new index points to a copy of the record a read of the key parses *)
  cs_some : forall k e, U k -> idx_get (a_db a) k = Some e ->
      exists r', find_rec (a_recs a) (ie_off e) = Some r' /\ Z.of_N (r_size r') = ie_size e /\
                 content (cv s) k = Some (pl r');
  (* no entry: nothing readable, an empty blob, or dropped by the TTL filter *)
  cs_none : forall k p, U k -> idx_get (a_db a) k = None -> content (cv s) k = Some p -> 0 < fst (fst p) ->
      ttl_dropped vt now_s (view_pl p) = true
}.

(* the loop is right when it selects only records a read would parse and misses none of them *)
Lemma visit_spec : forall X (sel : X -> option rec) L (U : N -> Prop) vt now_s s,
  (forall x r, In x L -> sel x = Some r -> U (n_id (r_n r)) -> content (cv s) (n_id (r_n r)) = Some (pl r)) ->
  (forall k p, U k -> content (cv s) k = Some p -> 0 < fst (fst p) -> ttl_dropped vt now_s (view_pl p) = false ->
     exists x r, In x L /\ sel x = Some r /\ n_id (r_n r) = k) ->
  copy_spec U vt now_s s (fold_left (visit sel) L acc0).
Proof.
  intros X sel L U vt now_s s Hkept Hall.
  assert (J0 : copy_inv sel [] acc0).
  { constructor; simpl; [constructor; lia | constructor | discriminate | intros x r []]. }
  destruct (copy_inv_fold X sel L [] acc0 J0) as [Js Ja Jsome Jnone]. rewrite app_nil_r in *.
  constructor; auto.
  - intros k e Hu Hg. destruct (Jsome k e Hg) as [r' [x [r [Hf [Hsz [Hin [Hsel [Hid Hpl]]]]]]]]. exists r'. split; [exact Hf|]. split; [exact Hsz|].
    rewrite <- in_rev in Hin. subst k. rewrite Hpl. apply (Hkept x r Hin Hsel Hu).
  - intros k p Hu Hg Hc Hpos. destruct (ttl_dropped vt now_s (view_pl p)) eqn:D; [reflexivity|]. exfalso.
    destruct (Hall k p Hu Hc Hpos D) as [x [r [Hin [Hsel Hid]]]].
    apply (Jnone x r); [rewrite <- in_rev; exact Hin | exact Hsel | rewrite Hid; exact Hg].
Qed.

Definition sel_index (vt : N * N) (now_s : N) (st : vol) (e : ientry) : option rec :=
  if entry_dead e then None
  else match read_data st (ie_off e) (ie_size e) with
       | None => None
       | Some r => if ttl_dropped vt now_s (view_of_rec r) then None else Some r
       end.

Lemma index_visit_eq : forall vt now_s st a e, index_visit vt now_s st a e = visit (sel_index vt now_s st) a e.
Proof.
  intros. unfold index_visit, visit, sel_index. destruct (entry_dead e); [reflexivity|].
  destruct (read_data st (ie_off e) (ie_size e)) as [r|]; [|reflexivity].
  destruct (ttl_dropped vt now_s (view_of_rec r)); reflexivity.
Qed.

Lemma compact_index_visit : forall vt now_s s,
  compact_index vt now_s s = fold_left (visit (sel_index vt now_s (cv s))) (db_load (cidx s)) acc0.
Proof. intros. apply fold_left_ext_fn, index_visit_eq. Qed.

Lemma sel_index_some : forall vt now_s s x r, cinv s -> In x (db_load (cidx s)) ->
  sel_index vt now_s (cv s) x = Some r -> n_id (r_n r) = ie_key x /\ content (cv s) (ie_key x) = Some (pl r).
Proof.
  intros vt now_s s x r H Hin Hsel.
  destruct (replay_in entry_dead _ _ Hin) as [G D].
  destruct (live_facts _ _ _ _ H (idx_live _ _ _ H G D)) as [_ [_ [_ [r1 [Hf [Hsz [Hid Hc]]]]]]].
  unfold sel_index, read_data in Hsel. rewrite D, Hf, Hsz, Z.eqb_refl in Hsel.
  destruct (ttl_dropped vt now_s (view_of_rec r1)); [discriminate|]. inversion Hsel; subst r1. auto.
Qed.

Lemma index_spec : forall U vt now_s s, cinv s -> copy_spec U vt now_s s (compact_index vt now_s s).
Proof.
  intros U vt now_s s H. rewrite compact_index_visit. apply visit_spec.
  - intros x r Hin Hsel _. destruct (sel_index_some _ _ _ _ _ H Hin Hsel) as [-> Hc]. exact Hc.
  - intros k p _ Hc Hpos Hd. destruct (content_facts _ _ _ H Hc) as [off [r [L [Hf [Hid ->]]]]].
    destruct (live_facts _ _ _ _ H L) as [Hs [Ho [Hi _]]].
    set (x := {| ie_key := k; ie_off := off; ie_size := Z.of_N (r_size r) |}) in *.
    assert (D : entry_dead x = false) by (apply entry_dead_false; auto).
    exists x, r. split; [apply (idx_get_In _ k); rewrite db_load_get, Hi, D; reflexivity|].
    split; [|exact Hid]. unfold sel_index, read_data. rewrite D. simpl. rewrite Hf, Z.eqb_refl.
    rewrite view_of_rec_pl, Hd. reflexivity.
Qed.

Definition sel_scan (vt : N * N) (now_s : N) (x : nmap * rec) : option rec :=
  if negb (ttl_dropped vt now_s (view_of_rec (snd x))) &&
     match nm_get (fst x) (n_id (r_n (snd x))) with
     | Some nv => (nv_off nv =? r_off (snd x)) && (0 <? nv_size nv)%Z && size_valid (nv_size nv)
     | None => false
     end
  then Some (snd x) else None.

Lemma scan_visit_eq : forall vt now_s m a r, scan_visit vt now_s m a r = visit (sel_scan vt now_s) a (m, r).
Proof.
  intros. unfold scan_visit, visit, sel_scan. simpl.
  destruct (ttl_dropped vt now_s (view_of_rec r)); simpl; [reflexivity|].
  destruct (nm_get m (n_id (r_n r))) as [nv|]; [|reflexivity].
  destruct ((nv_off nv =? r_off r) && (0 <? nv_size nv)%Z && size_valid (nv_size nv)); reflexivity.
Qed.

Lemma sel_scan_some : forall vt now_s m r r', sel_scan vt now_s (m, r) = Some r' <->
  r' = r /\ ttl_dropped vt now_s (view_of_rec r) = false /\
  exists nv, nm_get m (n_id (r_n r)) = Some nv /\ nv_off nv = r_off r /\ (0 < nv_size nv)%Z.
Proof.
  intros vt now_s m r r'. unfold sel_scan. simpl. split.
  - destruct (ttl_dropped vt now_s (view_of_rec r)); simpl; [discriminate|].
    destruct (nm_get m (n_id (r_n r))) as [nv|]; [|discriminate].
    destruct ((nv_off nv =? r_off r) && (0 <? nv_size nv)%Z && size_valid (nv_size nv)) eqn:C; [|discriminate].
    intro H. inversion H; subst. apply andb_prop in C. destruct C as [C _]. apply andb_prop in C. destruct C as [C1 C2].
    split; [reflexivity|]. split; [reflexivity|]. exists nv. repeat split; [apply N.eqb_eq; exact C1 | apply Z.ltb_lt; exact C2].
  - intros [-> [-> [nv [-> [Ho Hp]]]]]. simpl.
    rewrite (proj2 (N.eqb_eq _ _) Ho), (proj2 (Z.ltb_lt _ _) Hp), (proj2 (size_valid_pos _) Hp). reflexivity.
Qed.

(* what the scanner visits: the record and the live map at the moment of the lookup *)
Fixpoint il_trace (vt : N * N) (sched : list (list cevent)) (s : cvol) (i : nat) : list (nmap * rec) :=
  match sched with
  | [] => map (fun r => (nm (cv s), r)) (skipn i (rev (recs (cv s))))
  | evs :: sched' =>
      match nth_error (rev (recs (cv s))) i with
      | Some r => let s' := c_exec vt s evs in (nm (cv s'), r) :: il_trace vt sched' s' (S i)
      | None => []
      end
  end.

Lemma scan_il_trace : forall vt now_s sched s i a,
  scan_il vt now_s sched s i a = fold_left (visit (sel_scan vt now_s)) (il_trace vt sched s i) a.
Proof.
  intros vt now_s. induction sched as [|evs sched IH]; intros s i a; simpl.
  - rewrite fold_left_map. apply fold_left_ext_fn. intros a0 r. apply scan_visit_eq.
  - destruct (nth_error (rev (recs (cv s))) i) as [r|]; [|reflexivity].
    simpl. rewrite IH, scan_visit_eq. reflexivity.
Qed.

(* a visit happens in a state between the start of the compaction and the commit *)
Definition mid (s1 s2 : cvol) (x : nmap * rec) : Prop :=
  exists s', fst x = nm (cv s') /\ cinv s' /\ grows s1 s' /\ grows s' s2 /\ In (snd x) (recs (cv s')).

Lemma il_trace_mid : forall vt s1 s2 tl sched s i,
  cinv s -> grows s1 s -> c_exec vt s (concat sched ++ tl) = s2 ->
  forall x, In x (il_trace vt sched s i) -> mid s1 s2 x.
Proof.
  intros vt s1 s2 tl. induction sched as [|evs sched IH]; intros s i H G E x Hin; simpl in Hin.
  - apply in_map_iff in Hin. destruct Hin as [r [<- Hr]].
    exists s. simpl. split; [reflexivity|]. split; [exact H|]. split; [exact G|]. split.
    + rewrite <- E. apply exec_grows. exact H.
    + rewrite in_rev. eapply skipn_in; exact Hr.
  - destruct (nth_error (rev (recs (cv s))) i) as [r|] eqn:N; [|destruct Hin].
    set (s' := c_exec vt s evs) in *.
    assert (H' : cinv s') by (apply c_exec_inv; exact H).
    assert (Gs : grows s s') by (apply exec_grows; exact H).
    assert (E' : c_exec vt s' (concat sched ++ tl) = s2).
    { rewrite <- E. simpl. rewrite <- app_assoc. unfold s'. symmetry. apply c_exec_app. }
    destruct Hin as [<-|Hin].
    + exists s'. simpl. split; [reflexivity|]. split; [exact H'|]. split; [eapply grows_trans; eauto|]. split.
      * rewrite <- E'. apply exec_grows. exact H'.
      * apply nth_error_In in N. rewrite <- in_rev in N. destruct Gs as [[newr [R _]] _ _]. rewrite R.
        apply in_or_app. right. exact N.
    + apply (IH s' (S i) H' (grows_trans _ _ _ G Gs) E' x Hin).
Qed.

(* the scanner reads the file as it grows: nothing present at the start is skipped *)
Lemma il_trace_complete : forall vt sched s i j r, cinv s ->
  nth_error (rev (recs (cv s))) j = Some r -> (i <= j)%nat ->
  exists m, In (m, r) (il_trace vt sched s i).
Proof.
  intros vt. induction sched as [|evs sched IH]; intros s i j r H N Hle; simpl.
  - exists (nm (cv s)). apply in_map_iff. exists r. split; [reflexivity|]. eapply nth_skipn_In; eauto.
  - destruct (nth_error (rev (recs (cv s))) i) as [r0|] eqn:Ni.
    + destruct (Nat.eq_dec i j) as [Heq|Hne].
      * subst j. rewrite N in Ni. inversion Ni; subst r0. eexists. left. reflexivity.
      * set (s' := c_exec vt s evs).
        assert (N' : nth_error (rev (recs (cv s'))) j = Some r).
        { destruct (exec_grows vt evs s H) as [[newr [R _]] _ _]. fold s' in R. rewrite R, rev_app_distr.
          rewrite nth_error_app1; [exact N|]. apply nth_error_Some. congruence. }
        destruct (IH s' (S i) j r (c_exec_inv vt evs s H) N') as [m Hm]; [lia|].
        exists m. right. exact Hm.
    + exfalso. apply nth_error_None in Ni.
      assert (X : nth_error (rev (recs (cv s))) j = None) by (apply nth_error_None; lia). congruence.
Qed.

Lemma mid_idx : forall s1 s2 s' d k, grows s1 s' -> grows s' s2 -> cidx s2 = d ++ cidx s1 -> idx_get d k = None ->
  idx_get (cidx s') k = idx_get (cidx s1) k.
Proof.
  intros s1 s2 s' d k [_ [d1 D1] _] [_ [d2 D2] _] Hd Hn.
  rewrite D1 in D2. rewrite app_assoc in D2. rewrite D2 in Hd. apply app_inv_tail in Hd. subst d.
  rewrite idx_get_app in Hn. rewrite D1, idx_get_app.
  destruct (idx_get d2 k); [discriminate|]. rewrite Hn. reflexivity.
Qed.

Definition no_entry_in (d : idxlog) (k : N) : Prop := idx_get d k = None.

(* The concurrency argument: a visit consults the live map of some state between the start of the
   compaction and the commit; a key that got no .idx entry in between has there the map entry it
   had at the start. *)
Lemma scan_il_spec : forall vt now_s sched tl s1 s2 d,
  cinv s1 -> c_exec vt s1 (concat sched ++ tl) = s2 -> cidx s2 = d ++ cidx s1 ->
  copy_spec (no_entry_in d) vt now_s s1 (scan_il vt now_s sched s1 0 acc0).
Proof.
  intros vt now_s sched tl s1 s2 d H1 E Hd. rewrite scan_il_trace.
  set (T := il_trace vt sched s1 0).
  assert (LiveEq : forall x k, In x T -> no_entry_in d k ->
            exists s', fst x = nm (cv s') /\ cinv s' /\ grows s1 s' /\ In (snd x) (recs (cv s')) /\
                       live (nm (cv s')) k = live (nm (cv s1)) k).
  { intros x k Hin Hn.
    destruct (il_trace_mid vt s1 s2 tl sched s1 0%nat H1 (grows_refl s1) E x Hin) as [s' [Em [I' [G1 [G2 Hr]]]]].
    exists s'. split; [exact Em|]. split; [exact I'|]. split; [exact G1|]. split; [exact Hr|].
    apply live_by_idx; [exact H1 | exact I' |]. eapply mid_idx; eauto. }
  apply visit_spec.
  - intros [m r0] r Hin Hsel Hu. apply sel_scan_some in Hsel. destruct Hsel as [-> [_ [nv [Gnv [Ho Hp]]]]].
    destruct (LiveEq _ _ Hin Hu) as [s' [Em [I' [G1 [Hr Hl]]]]]. simpl in Em, Hr. subst m.
    destruct (sorted_recs_bound _ _ _ (ci_sorted _ I') Hr) as [Hb8 _].
    assert (L : live (nm (cv s')) (n_id (r_n r0)) = Some (nv_off nv, nv_size nv)) by (apply live_intro; [exact Gnv | lia | lia]).
    rewrite Hl in L. destruct (live_facts _ _ _ _ H1 L) as [_ [_ [_ [r1 [Hf1 [_ [_ Hc]]]]]]].
    pose proof (grows_find _ _ _ _ H1 G1 Hf1) as Hf'. rewrite Ho in Hf'.
    rewrite (find_rec_sorted _ _ _ (ci_sorted _ I') Hr) in Hf'. inversion Hf'; subst r1. exact Hc.
  - intros k p Hu Hc Hpos Hdrop. destruct (content_facts _ _ _ H1 Hc) as [off [r [L [Hf [Hid ->]]]]].
    pose proof (find_rec_In _ _ _ Hf) as Hin. rewrite in_rev in Hin. destruct (In_nth_error _ _ Hin) as [j Hj].
    destruct (il_trace_complete vt sched s1 0%nat j r H1 Hj) as [m Hm]; [lia|]. fold T in Hm.
    destruct (LiveEq _ _ Hm Hu) as [s' [Em [_ [_ [_ Hl]]]]]. simpl in Em. subst m.
    exists (nm (cv s'), r), r. split; [exact Hm|]. split; [|exact Hid].
    rewrite L in Hl. destruct (live_inv _ _ _ _ Hl) as [nv [G [Eo [Es _]]]].
    apply sel_scan_some. split; [reflexivity|]. split; [rewrite view_of_rec_pl; exact Hdrop|].
    exists nv. rewrite Hid. split; [exact G|]. split; [rewrite Eo; symmetry; eapply find_rec_off; eauto|].
    simpl in Hpos. lia.
Qed.

Definition copied (al : alg) (vt : N * N) (now_s : N) (sched : list (list cevent)) (s : cvol) : cacc :=
  match al with Scan => scan_il vt now_s sched s 0 acc0 | Index => compact_index vt now_s s end.

Lemma copied_spec : forall al vt now_s sched tl s1 s2 d,
  cinv s1 -> c_exec vt s1 (concat sched ++ tl) = s2 -> cidx s2 = d ++ cidx s1 ->
  copy_spec (no_entry_in d) vt now_s s1 (copied al vt now_s sched s1).
Proof.
  intros [] vt now_s sched tl s1 s2 d H1 E Hd.
  - eapply scan_il_spec; eauto.
  - apply index_spec. exact H1.
Qed.
