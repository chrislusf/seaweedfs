(* C17: ViewFromVisibleIntervals, ChunkReadAt.ReadAt on a view list, and the views of a window
   of a chunk list (what ReadAt, StreamContent and the stream reader start from). *)
From Coq Require Import List NArith Bool Arith Lia Permutation Sorted.
From Coq Require Import ZifyBool ZifyN ZifyNat.
From SW Require Import proof.ListFacts model.Chunks proof.ChunksProofs proof.ChunksOverlay.
Import ListNotations.
Local Open Scope N_scope.

Definition cv_end (w : chunk_view) : N := cv_logic w + cv_size w.
Definition views_ok (ws : list chunk_view) : Prop := iok cv_logic cv_end ws.

Lemma view_of_in : forall off stop v w, In w (view_of off stop v) ->
  cv_fid w = v_fid v /\ cv_csize w = v_csize v /\
  cv_logic w = N.max off (v_start v) /\ cv_end w = N.min stop (v_stop v) /\
  cv_logic w < cv_end w /\ cv_off w = cv_logic w - v_start v + v_coff v.
Proof.
  intros off stop v w H. unfold view_of in H.
  destruct (N.max off (v_start v) <? N.min stop (v_stop v)) eqn:E; [|destruct H].
  destruct H as [H|[]]. subst w. unfold cv_end. simpl. repeat split; lia.
Qed.

Lemma view_of_make : forall off stop v, N.max off (v_start v) < N.min stop (v_stop v) ->
  exists w, In w (view_of off stop v).
Proof.
  intros off stop v H. unfold view_of.
  destruct (N.max off (v_start v) <? N.min stop (v_stop v)) eqn:E; [eexists; left; reflexivity|lia].
Qed.

Theorem views_ok_of : forall vs off size, vis_ok vs -> views_ok (view_from_visibles vs off size).
Proof.
  intros vs off size Hok. apply (iok_flat_map v_start v_stop); auto.
  intros v _. unfold view_of.
  destruct (N.max off (v_start v) <? N.min (off + size) (v_stop v)) eqn:E;
    [|split; [apply iok_nil|intros ? []]].
  split; [split; repeat constructor|intros w [Hw|[]]; subst w]; unfold cv_end; simpl; lia.
Qed.

Lemma src_views_cons : forall w rest q,
  src_of_views (w :: rest) q =
  if cvcovers w q then Some (cv_fid w, cv_off w + (q - cv_logic w)) else src_of_views rest q.
Proof. intros. unfold src_of_views. simpl. destruct (cvcovers w q); reflexivity. Qed.

Lemma src_views_here : forall w rest q, cv_logic w <= q -> q < cv_end w ->
  src_of_views (w :: rest) q = Some (cv_fid w, cv_off w + (q - cv_logic w)).
Proof.
  intros w rest q H1 H2. rewrite src_views_cons.
  replace (cvcovers w q) with true by (unfold cvcovers, cv_end in *; lia). reflexivity.
Qed.

Lemma src_views_skip : forall w rest q, q < cv_logic w \/ cv_end w <= q ->
  src_of_views (w :: rest) q = src_of_views rest q.
Proof.
  intros w rest q H. rewrite src_views_cons.
  replace (cvcovers w q) with false by (unfold cvcovers, cv_end in *; lia). reflexivity.
Qed.

Lemma views_find_unique : forall ws w p, views_ok ws -> In w ws -> cvcovers w p = true ->
  find (fun x => cvcovers x p) ws = Some w.
Proof. intros ws w p. exact (ifind_unique cv_logic cv_end ws w p). Qed.

Lemma views_find_none : forall ws p, (forall w, In w ws -> cvcovers w p = false) ->
  find (fun x => cvcovers x p) ws = None.
Proof. intros ws p. exact (ifind_none cv_logic cv_end ws p). Qed.

Theorem views_src : forall vs off size p, vis_ok vs ->
  src_of_views (view_from_visibles vs off size) p =
  if (off <=? p) && (p <? off + size) then src_of_visibles vs p else None.
Proof.
  intros vs off size p Hok.
  pose proof (views_ok_of vs off size Hok) as Hok'.
  unfold src_of_views.
  destruct ((off <=? p) && (p <? off + size)) eqn:Ew.
  - unfold src_of_visibles. destruct (visible_at vs p) as [v|] eqn:Ev.
    + apply visible_at_some in Ev. destruct Ev as [Hv Hc]. unfold vcovers in Hc.
      destruct (view_of_make off (off + size) v) as [w Hw]; [lia|].
      pose proof (view_of_in _ _ _ _ Hw) as P.
      rewrite (views_find_unique _ w p Hok').
      * destruct P as [P1 [_ [P3 [P4 [P5 P6]]]]]. rewrite P1. f_equal. f_equal. lia.
      * unfold view_from_visibles. apply in_flat_map. exists v. auto.
      * unfold cvcovers. unfold cv_end in P. lia.
    + rewrite views_find_none; auto. intros w Hw.
      unfold view_from_visibles in Hw. apply in_flat_map in Hw. destruct Hw as [v [Hv Hw]].
      pose proof (find_none _ _ Ev v Hv) as Hn. simpl in Hn. unfold vcovers in Hn.
      pose proof (view_of_in _ _ _ _ Hw) as P. unfold cvcovers. unfold cv_end in P. lia.
  - rewrite views_find_none; auto. intros w Hw.
    unfold view_from_visibles in Hw. apply in_flat_map in Hw. destruct Hw as [v [Hv Hw]].
    pose proof (view_of_in _ _ _ _ Hw) as P. unfold cvcovers. unfold cv_end in P. lia.
Qed.

Lemma write_at_length : forall buf pos bs, length (write_at buf pos bs) = length buf.
Proof.
  induction buf as [|x t IH]; intros pos bs; simpl; auto.
  destruct pos as [|k]; [destruct bs as [|b bs']|]; simpl; auto.
Qed.

Lemma nth_write_at : forall buf pos bs i d, (i < length buf)%nat ->
  nth i (write_at buf pos bs) d =
  if (pos <=? i)%nat && (i <? pos + length bs)%nat then nth (i - pos) bs d else nth i buf d.
Proof.
  induction buf as [|x t IH]; intros pos bs i d H; simpl in H; [lia|].
  destruct pos as [|k].
  - destruct bs as [|b bs']; [destruct i; reflexivity|].
    destruct i as [|j]; [reflexivity|]. simpl. rewrite IH by lia. simpl. rewrite Nat.sub_0_r. reflexivity.
  - destruct i as [|j]; [reflexivity|]. simpl. rewrite IH by lia. reflexivity.
Qed.

Lemma read_chunk_slice_eq : forall src w boff blen,
  boff + blen <= N.of_nat (length (src (cv_fid w))) ->
  read_chunk_slice src w boff blen = firstn (N.to_nat blen) (skipn (N.to_nat boff) (src (cv_fid w))).
Proof.
  intros src w boff blen H. unfold read_chunk_slice.
  replace (N.min blen (N.of_nat (length (src (cv_fid w))) - boff)) with blen by lia. reflexivity.
Qed.

(* read_step (model/Chunks.v) in named parts: [gap_state] zeroes the gap before the view,
   [read_body] copies from the view (read_step_eq) *)
Definition read_body (src : chunk_source) (offset : N) (w : chunk_view) (st1 : rstate) : rstate * bool :=
  let cstart := N.max (cv_logic w) (r_start st1) in
  let cstop := N.min (cv_logic w + cv_size w) (r_start st1 + r_rem st1) in
  if cstop <=? cstart then (st1, false)
  else
    let boff := cstart - cv_logic w + cv_off w in
    let blen := cstop - cstart in
    let slice := read_chunk_slice src w boff blen in
    let copied := N.min blen (N.of_nat (length slice)) in
    ({| r_buf := write_at (r_buf st1) (N.to_nat (r_start st1 - offset)) (firstn (N.to_nat copied) slice);
        r_start := r_start st1 + copied; r_rem := r_rem st1 - copied; r_n := r_n st1 + copied |}, false).

Definition gap_state (offset : N) (w : chunk_view) (st : rstate) : rstate :=
  let gap := cv_logic w - r_start st in
  let zeroed := N.min gap (r_rem st) in
  {| r_buf := zero_at (r_buf st) (r_start st - offset) zeroed;
     r_start := cv_logic w; r_rem := r_rem st - gap; r_n := r_n st + zeroed |}.

Lemma read_step_eq : forall src offset w st,
  read_step src offset w st =
  if r_start st <? cv_logic w then
    if r_rem (gap_state offset w st) =? 0 then (gap_state offset w st, true)
    else read_body src offset w (gap_state offset w st)
  else read_body src offset w st.
Proof. reflexivity. Qed.

(* what ReadAt needs of a view: it ends inside the file and its bytes exist in the chunk *)
Definition view_fits (src : chunk_source) (fs : N) (w : chunk_view) : Prop :=
  cv_end w <= fs /\ cv_off w + cv_size w <= N.of_nat (length (src (cv_fid w))).

Section Read.
  Variables (src : chunk_source) (V : list chunk_view) (fs : N) (buf0 : list N) (off : N).

  Definition views_byte (q : N) : N := byte_of src (src_of_views V q).

  Definition rinv (st : rstate) : Prop :=
    length (r_buf st) = length buf0 /\
    r_n st + r_rem st = N.of_nat (length buf0) /\            (* delivered + still wanted *)
    (0 < r_rem st -> r_start st = off + r_n st) /\          (* a gap may overshoot once nothing is wanted *)
    (r_n st = 0 \/ off + r_n st <= fs) /\                   (* gives n = min len (fs - off) with truncated - *)
    (forall i, (i < length buf0)%nat ->
       nth i (r_buf st) 0 = if N.of_nat i <? r_n st then views_byte (off + N.of_nat i) else nth i buf0 0).

  Lemma rinv_start : rinv {| r_buf := buf0; r_start := off; r_rem := N.of_nat (length buf0); r_n := 0 |}.
  Proof.
    unfold rinv. cbn [r_buf r_start r_rem r_n]. repeat split; auto; try lia.
    intros i Hi. replace (N.of_nat i <? 0) with false by lia. reflexivity.
  Qed.

  Lemma rinv_advance : forall st bs k rem' start',
    rinv st -> 0 < r_rem st -> k = N.of_nat (length bs) -> k <= r_rem st ->
    (forall j, (j < length bs)%nat -> nth j bs 0 = views_byte (r_start st + N.of_nat j)) ->
    off + r_n st + k <= fs ->
    rem' = r_rem st - k -> (0 < rem' -> start' = r_start st + k) ->
    rinv {| r_buf := write_at (r_buf st) (N.to_nat (r_start st - off)) bs;
            r_start := start'; r_rem := rem'; r_n := r_n st + k |}.
  Proof.
    intros st bs k rem' start' [I1 [I2 [I3 [I4 I5]]]] Hrem Hk Hle Hbs Hfs Hrem' Hstart'.
    specialize (I3 Hrem).
    unfold rinv. simpl. repeat split.
    - rewrite write_at_length. auto.
    - lia.
    - intros H. rewrite (Hstart' H). lia.
    - right. lia.
    - intros i Hi. specialize (I5 i Hi). rewrite nth_write_at by lia.
      destruct ((N.to_nat (r_start st - off) <=? i)%nat &&
                (i <? N.to_nat (r_start st - off) + length bs)%nat) eqn:E.
      + rewrite Hbs by lia. replace (N.of_nat i <? r_n st + k) with true by lia. f_equal. lia.
      + rewrite I5. destruct (N.of_nat i <? r_n st) eqn:E1;
          [replace (N.of_nat i <? r_n st + k) with true by lia
          |replace (N.of_nat i <? r_n st + k) with false by lia]; reflexivity.
  Qed.

  (* from the read position on, the views still to come answer like the whole list *)
  Definition rest_ok (st : rstate) (ws : list chunk_view) : Prop :=
    0 < r_rem st -> forall q, r_start st <= q -> src_of_views V q = src_of_views ws q.

  Lemma views_before : forall w rest q, views_ok (w :: rest) -> q < cv_logic w ->
    src_of_views (w :: rest) q = None.
  Proof.
    intros w rest q [Hs Hf] Hq. unfold src_of_views. rewrite views_find_none; auto.
    intros w' [Hw'|Hw']; [subst w'; unfold cvcovers; lia|].
    pose proof (ss_in_cons _ _ _ _ Hs Hw') as Hle. simpl in Hle.
    inversion Hf as [|? ? Hw _]; subst. unfold cvcovers, cv_end in *. lia.
  Qed.

  Lemma gap_step : forall w rest st,
    views_ok (w :: rest) -> cv_end w <= fs ->
    rinv st -> 0 < r_rem st -> rest_ok st (w :: rest) -> r_start st < cv_logic w ->
    rinv (gap_state off w st) /\ rest_ok (gap_state off w st) (w :: rest).
  Proof.
    intros w rest st Hok Hend Hinv Hrem Hrest Hgap.
    pose proof Hinv as [I1 [I2 [I3 [I4 I5]]]]. specialize (I3 Hrem).
    assert (Hne : cv_logic w < cv_end w).
    { destruct Hok as [_ Hf]. inversion Hf; subst. auto. }
    unfold gap_state, zero_at. split.
    - apply rinv_advance; auto.
      + rewrite repeat_length. lia.
      + lia.
      + intros j Hj. rewrite repeat_length in Hj. rewrite nth_repeat.
        unfold views_byte. rewrite (Hrest Hrem) by lia. rewrite views_before; auto. lia.
      + unfold cv_end in *. lia.
      + lia.
      + simpl. lia.
    - unfold rest_ok. simpl. intros H q Hq. apply Hrest; auto. lia.
  Qed.

  Lemma body_step : forall w rest st,
    views_ok (w :: rest) -> view_fits src fs w ->
    rinv st -> 0 < r_rem st -> rest_ok st (w :: rest) -> cv_logic w <= r_start st ->
    snd (read_body src off w st) = false /\
    rinv (fst (read_body src off w st)) /\ rest_ok (fst (read_body src off w st)) rest.
  Proof.
    intros w rest st Hok [Hend Hdata] Hinv Hrem Hrest Hlog.
    pose proof Hinv as [I1 [I2 [I3 [I4 I5]]]]. specialize (I3 Hrem).
    unfold read_body.
    rewrite (N.max_r (cv_logic w) (r_start st)) by lia.
    destruct (N.min (cv_logic w + cv_size w) (r_start st + r_rem st) <=? r_start st) eqn:Eskip.
    - (* the view ends before the read position: continue *)
      simpl. split; auto. split; auto.
      intros H q Hq. rewrite (Hrest H q Hq). apply src_views_skip. unfold cv_end. lia.
    - set (cstop := N.min (cv_logic w + cv_size w) (r_start st + r_rem st)) in *.
      set (boff := r_start st - cv_logic w + cv_off w).
      set (blen := cstop - r_start st).
      assert (Hfit : boff + blen <= N.of_nat (length (src (cv_fid w))))
        by (unfold blen, boff, cstop in *; lia).
      assert (Hslice_len : length (read_chunk_slice src w boff blen) = N.to_nat blen).
      { rewrite read_chunk_slice_eq, firstn_length, skipn_length by auto. lia. }
      assert (Hslice_nth : forall j, (j < N.to_nat blen)%nat ->
                nth j (read_chunk_slice src w boff blen) 0 = nth (N.to_nat boff + j) (src (cv_fid w)) 0).
      { intros j Hj. rewrite read_chunk_slice_eq, nth_firstn_lt by auto. apply nth_skipn. }
      rewrite Hslice_len.
      replace (N.min blen (N.of_nat (N.to_nat blen))) with blen by lia.
      simpl. split; auto. split.
      + apply rinv_advance; auto.
        * rewrite firstn_length, Hslice_len. lia.
        * unfold blen, cstop. lia.
        * intros j Hj. rewrite firstn_length, Hslice_len in Hj.
          rewrite nth_firstn_lt by lia. rewrite Hslice_nth by lia.
          unfold views_byte. rewrite (Hrest Hrem) by lia.
          rewrite src_views_here by (unfold cv_end, blen, cstop in *; lia).
          simpl. f_equal. unfold boff. lia.
        * unfold blen, cstop, cv_end in *. lia.
      + intros H q Hq. simpl in H, Hq. rewrite (Hrest Hrem q) by lia.
        apply src_views_skip. unfold cv_end, blen, cstop in *. lia.
  Qed.

  (* one iteration: the invariant survives; the loop goes on with the remaining views, or it
     breaks because the gap has used up the buffer *)
  Lemma read_step_spec : forall w rest st,
    views_ok (w :: rest) -> view_fits src fs w -> rinv st -> 0 < r_rem st -> rest_ok st (w :: rest) ->
    rinv (fst (read_step src off w st)) /\
    if snd (read_step src off w st) then r_rem (fst (read_step src off w st)) = 0
    else rest_ok (fst (read_step src off w st)) rest.
  Proof.
    intros w rest st Hok Hfit Hinv Hrem Hrest. rewrite read_step_eq.
    destruct (r_start st <? cv_logic w) eqn:Eg.
    - destruct (gap_step w rest st Hok (proj1 Hfit) Hinv Hrem Hrest) as [G1 G2]; [lia|].
      destruct (r_rem (gap_state off w st) =? 0) eqn:E1.
      + cbn [fst snd]. split; auto. lia.
      + assert (Hrem1 : 0 < r_rem (gap_state off w st)) by lia.
        destruct (body_step w rest (gap_state off w st) Hok Hfit G1 Hrem1 G2) as [B1 B2];
          [simpl; lia|].
        rewrite B1. exact B2.
    - destruct (body_step w rest st Hok Hfit Hinv Hrem Hrest) as [B1 B2]; [lia|].
      rewrite B1. exact B2.
  Qed.

  Lemma read_loop_spec : forall ws st,
    views_ok ws -> Forall (view_fits src fs) ws -> rinv st -> rest_ok st ws ->
    rinv (read_loop src off ws st) /\ rest_ok (read_loop src off ws st) [].
  Proof.
    induction ws as [|w rest IH]; intros st Hok Hfit Hinv Hrest; simpl; auto.
    destruct (r_rem st =? 0) eqn:E0.
    - split; auto. intros H. lia.
    - assert (Hrem : 0 < r_rem st) by lia. inversion Hfit as [|? ? Hw Hfit']; subst.
      destruct (read_step_spec w rest st Hok Hw Hinv Hrem Hrest) as [S1 S2].
      destruct (read_step src off w st) as [st' [|]]; simpl in S1, S2.
      + split; auto. intros H. lia.
      + apply IH; auto. eapply iok_tail; eauto.
  Qed.

  Theorem read_at_views :
    views_ok V -> Forall (view_fits src fs) V ->
    let r := read_at src V fs buf0 off in
    let len := N.of_nat (length buf0) in
    rr_n r = N.min len (fs - off) /\
    length (rr_buf r) = length buf0 /\
    rr_eof r = (fs <=? off + len) /\
    forall i, (i < length buf0)%nat ->
      nth i (rr_buf r) 0 = if N.of_nat i <? rr_n r then views_byte (off + N.of_nat i) else nth i buf0 0.
  Proof.
    intros Hok Hfit.
    destruct (read_loop_spec V _ Hok Hfit rinv_start) as [Hinv Hrest]; [intros H q Hq; reflexivity|].
    unfold read_at. set (st := read_loop src off V _) in *.
    cbv zeta.
    destruct ((0 <? r_rem st) && (r_start st <? fs)) eqn:Etail.
    - (* tail: zeros up to the file size *)
      assert (Hrem : 0 < r_rem st) by lia.
      set (delta := N.min (r_rem st) (fs - r_start st)).
      pose proof Hinv as [I1 [I2 [I3 [I4 I5]]]]. specialize (I3 Hrem).
      assert (Hadv : rinv {| r_buf := write_at (r_buf st) (N.to_nat (r_start st - off)) (repeat 0 (N.to_nat delta));
                             r_start := r_start st + delta; r_rem := r_rem st - delta; r_n := r_n st + delta |}).
      { apply rinv_advance; auto.
        - rewrite repeat_length. lia.
        - unfold delta. lia.
        - intros j Hj. rewrite nth_repeat. unfold views_byte. rewrite (Hrest Hrem) by lia. reflexivity.
        - unfold delta. lia. }
      destruct Hadv as [A1 [A2 [A3 [A4 A5]]]]. simpl in *.
      unfold zero_at. repeat split; auto. unfold delta. lia.
    - simpl. pose proof Hinv as [I1 [I2 [I3 [I4 I5]]]]. repeat split; auto. lia.
  Qed.
End Read.

(* [w] shows bytes of chunk [c], at the chunk's own offsets *)
Definition view_in (c : chunk) (w : chunk_view) : Prop :=
  cv_fid w = c_fid c /\ cv_csize w = c_size c /\ c_off c + cv_off w = cv_logic w /\ cv_end w <= c_stop c.

Lemma view_in_data : forall (src : chunk_source) c w,
  view_in c w -> N.of_nat (length (src (c_fid c))) = c_size c ->
  cv_off w + cv_size w <= N.of_nat (length (src (cv_fid w))).
Proof. intros src c w [E [_ [H1 H2]]] L. rewrite E, L. unfold cv_end, c_stop in *. lia. Qed.

(* the views of the window [off, off+size): well-formed, they answer like the overlay inside the
   window, and each lies in the window and inside one of the resolved chunks *)
Lemma window_views : forall fuel ms chunks d m off size,
  resolve fuel ms off (off + size) chunks = Some (d, m) -> NoDup (map key d) ->
  let V := view_from_chunks fuel ms chunks off size in
  views_ok V /\
  (forall p, src_of_views V p = if (off <=? p) && (p <? off + size) then overlay_src d p else None) /\
  Forall (fun w => off <= cv_logic w /\ cv_end w <= off + size /\ exists c, In c d /\ view_in c w) V.
Proof.
  intros fuel ms chunks d m off size Hres Hn. unfold view_from_chunks.
  destruct (non_overlapping_spec _ _ _ _ _ _ _ Hres) as [Hvok [Hfrom Hsrc]].
  set (vs := fst (non_overlapping_visible_intervals fuel ms chunks off (off + size))) in *.
  split; [apply views_ok_of; auto|]. split.
  - intros p. rewrite views_src, Hsrc; auto.
  - apply Forall_forall. intros w Hw. apply in_flat_map in Hw. destruct Hw as [v [Hv Hw]].
    apply view_of_in in Hw. rewrite Forall_forall in Hfrom.
    destruct (Hfrom v Hv) as [c [Ic F]].
    split; [lia|]. split; [lia|]. exists c. split; auto. unfold view_in, visible_in in *. lia.
Qed.

(* the views of a whole file: what ReadAt needs, and they answer like the overlay everywhere *)
Lemma whole_file_views : forall (src : chunk_source) fuel ms chunks d m fs,
  resolve fuel ms 0 max_int64 chunks = Some (d, m) -> NoDup (map key d) ->
  (forall c, In c d -> N.of_nat (length (src (c_fid c))) = c_size c) ->
  (forall c, In c d -> c_stop c <= fs) -> fs <= max_int64 ->
  let V := view_from_chunks fuel ms chunks 0 max_int64 in
  views_ok V /\ (forall p, src_of_views V p = overlay_src d p) /\
  Forall (fun w => view_fits src fs w /\ exists c, In c d /\ c_fid c = cv_fid w) V.
Proof.
  intros src fuel ms chunks d m fs Hres Hn Hlen Hfs Hmax.
  destruct (window_views fuel ms chunks d m 0 max_int64 Hres Hn) as [HV [HVsrc HW]].
  split; auto. split.
  - intros p. rewrite HVsrc. destruct ((0 <=? p) && (p <? 0 + max_int64)) eqn:E; auto.
    (* no chunk reaches beyond the file size *)
    unfold overlay_src. destruct (winner d p) as [c|] eqn:Ew; auto.
    apply winner_in in Ew. destruct Ew as [Ic Cc]. specialize (Hfs c Ic). unfold covers in Cc. lia.
  - eapply Forall_impl; [|exact HW]. intros w [_ [_ [c [Ic Hin]]]].
    split; [|exists c; split; [auto|symmetry; apply Hin]].
    split; [|apply (view_in_data src c w Hin (Hlen c Ic))].
    specialize (Hfs c Ic). destruct Hin as [_ [_ [_ Hin]]]. lia.
Qed.
