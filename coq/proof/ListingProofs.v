(* C19: the invariant of the Filer's refill rounds (doListValidEntries re-lists for the expired
   entries it saw, StreamListDirectoryEntries for the entries the pattern closure dropped), the
   selection the implementation computes, and what it has to do with the requested one. *)
From Coq Require Import List NArith Bool String Ascii Arith Lia.
From SW Require Import proof.ListFacts model.Listing proof.ListingBase proof.ListingStore proof.ListingScan proof.ListingPattern.
Import ListNotations.
Local Open Scope string_scope.
Local Open Scope list_scope.
Local Notation length := List.length.

Lemma eexp_negb_elive : forall e, eexp e = negb (elive e).
Proof. intros [n b]. unfold eexp, elive. simpl. rewrite negb_involutive. reflexivity. Qed.

Lemma filter_map_comm : forall {A B} (f : B -> bool) (g : A -> B) l,
  filter f (map g l) = map g (filter (fun x => f (g x)) l).
Proof. induction l as [|x l IH]; simpl; auto. destruct (f (g x)); simpl; rewrite IH; auto. Qed.

Lemma length_filter_map : forall {A B} (f : B -> bool) (g : A -> B) l,
  length (filter f (map g l)) = length (filter (fun x => f (g x)) l).
Proof. intros. rewrite filter_map_comm, map_length. reflexivity. Qed.

Lemma firstn_nil_skipn : forall {A} n (l : list A), firstn n l = [] -> skipn n l = l.
Proof. intros A n l H. rewrite <- (firstn_skipn n l) at 2. rewrite H. reflexivity. Qed.

Lemma keep_last_ne : forall a b, a <> "" -> keep_last a b <> "".
Proof. intros a b Ha. unfold keep_last. destruct (String.eqb_spec b ""); auto. Qed.

(* on entries: good p rest excl = passes (missed p rest excl) of the model *)
Definition okE (p rest excl : string) (e : entry) : bool := negb (missed p rest excl (ename e)).
Definition good (p rest excl : string) (e : entry) : bool := elive e && okE p rest excl e.

Lemma good_filter : forall p rest excl l, filter (good p rest excl) l = filter (okE p rest excl) (filter elive l).
Proof. intros. rewrite filter_filter. reflexivity. Qed.

Lemma ms_of_missed : forall p rest excl n, ms_of p rest excl n = missed p rest excl n.
Proof.
  intros. unfold ms_of. destruct (String.eqb_spec rest ""); destruct (String.eqb_spec excl ""); cbn [andb]; auto.
  subst. reflexivity.
Qed.

Lemma names_good : forall p rest excl l,
  filter (fun n => negb (ms_of p rest excl n)) (map ename (filter elive l)) = map ename (filter (good p rest excl) l).
Proof.
  intros. rewrite filter_map_comm, good_filter. f_equal.
  apply filter_ext_in. intros e _. unfold okE. rewrite ms_of_missed. reflexivity.
Qed.

(* the selection the implementation computes, entry-wise *)
Definition impl_sel (start : string) (incl : bool) (prefix pat excl : string) (d : dirst) : list entry :=
  filter (good (eff_prefix prefix pat) (snd (split_pattern pat)) excl) (cand start incl (eff_prefix prefix pat) d).

Lemma impl_sel_spec : forall start incl prefix pat excl d,
  trig_narrow prefix pat = false ->
  impl_sel start incl prefix pat excl d = filter (spec_sel start incl prefix pat excl) d.
Proof.
  intros start incl prefix pat excl d Ht. unfold impl_sel, cand. rewrite filter_filter.
  apply filter_ext_in. intros e _. unfold sel, good, okE, spec_sel.
  rewrite <- (match_agrees_narrow prefix pat excl (ename e) Ht).
  destruct (after start incl (ename e)), (elive e), (String.prefix (eff_prefix prefix pat) (ename e)); reflexivity.
Qed.

Lemma trig_narrow_none : forall prefix, trig_narrow prefix "" = false.
Proof. intros. unfold trig_narrow, trig_both. cbn. rewrite andb_false_r. reflexivity. Qed.

Lemma trig_both_none : forall prefix, trig_both prefix "" = false.
Proof. intros. unfold trig_both. cbn. apply andb_false_r. Qed.

Lemma spec_names_impl : forall d start incl prefix,
  spec_names d start incl prefix "" "" = map ename (impl_sel start incl prefix "" "" d).
Proof. intros. unfold spec_names. rewrite impl_sel_spec by apply trig_narrow_none. reflexivity. Qed.

Lemma spec_names_live : forall d d' start incl prefix pat excl,
  filter elive d' = filter elive d ->
  spec_names d' start incl prefix pat excl = spec_names d start incl prefix pat excl.
Proof.
  intros d d' start incl prefix pat excl H. unfold spec_names. f_equal.
  assert (E : forall l, filter (spec_sel start incl prefix pat excl) l =
                        filter (fun e => after start incl (ename e) && spec_match prefix pat excl (ename e)) (filter elive l)).
  { intros l. rewrite filter_filter. apply filter_ext_in. intros e _. unfold spec_sel.
    rewrite andb_assoc. reflexivity. }
  rewrite !E, H. reflexivity.
Qed.

Lemma last_str_map : forall l, last_str (map ename l) = last_name l.
Proof.
  induction l as [|x l IH]; simpl; auto. rewrite IH. destruct l; reflexivity.
Qed.

Lemma spec_names_cont : forall d start incl prefix pat excl L,
  wf d -> firstn L (spec_names d start incl prefix pat excl) <> [] ->
  spec_names d (last_str (firstn L (spec_names d start incl prefix pat excl))) false prefix pat excl =
  skipn L (spec_names d start incl prefix pat excl).
Proof.
  intros d start incl prefix pat excl L [Hs _] Hne. unfold spec_names in *.
  rewrite firstn_map in *. rewrite last_str_map, skipn_map. f_equal.
  set (g := fun e : entry => elive e && spec_match prefix pat excl (ename e)).
  assert (E : forall st inc, filter (spec_sel st inc prefix pat excl) d =
                             filter (fun e => after st inc (ename e) && g e) d).
  { intros. apply filter_ext_in. intros e _. unfold spec_sel, g.
    destruct (elive e), (after st inc (ename e)); reflexivity. }
  rewrite !E in *. apply (sel_cont g d start incl); auto.
  - symmetry. apply firstn_skipn.
  - intro H. apply Hne. rewrite H. reflexivity.
Qed.

(* the matches are strictly increasing, hence pairwise different *)
Lemma sorted_nodup_names : forall l, sorted l -> NoDup (map ename l).
Proof.
  intros l H. induction H as [|e l Hlt Hs IH]; simpl; constructor; auto.
  intro Hin. apply in_map_iff in Hin. destruct Hin as [x [Hx Hin]].
  specialize (Hlt x Hin). rewrite Hx in Hlt. eapply slt_irrefl; eauto.
Qed.

Theorem spec_names_nodup : forall d start incl prefix pat excl,
  wf d -> NoDup (spec_names d start incl prefix pat excl).
Proof. intros d start incl prefix pat excl [Hs _]. apply sorted_nodup_names. apply sorted_filter. auto. Qed.

(* the call terminates, the page is the first L matches in name order, hasMore is exact,
   and the directory lost expired children only *)
Definition exact_at (s : store) (d : dirst) (start : string) (incl : bool) (L : nat) (prefix pat excl : string) : Prop :=
  exists names more r,
    list_entries s d start incl L prefix pat excl = Some (names, more, r) /\
    names = firstn L (spec_names d start incl prefix pat excl) /\
    more = Nat.ltb L (length (spec_names d start incl prefix pat excl)) /\
    wf (r_dir r) /\ filter elive (r_dir r) = filter elive d.

(* the state after a refill round that returned r1 *)
Definition join (r r1 : lres) : lres :=
  {| r_count := r_count r1; r_last := keep_last (r_last r) (r_last r1);
     r_names := r_names r ++ r_names r1; r_dir := r_dir r1 |}.

(* where a level stands: the first m of the candidates c of the original request have been
   consumed; [f] selects the entries the level passes on (live entries; live entries that match) *)
Definition lpos (f : entry -> bool) (d0 : dirst) (c : list entry) (p : string) (r : lres) (m : nat) : Prop :=
  r_names r = map ename (filter f (firstn m c)) /\
  r_dir r = del_expired (firstn m c) d0 /\
  (r_last r <> "" -> cand (r_last r) false p (r_dir r) = skipn m c) /\
  (r_last r = "" -> firstn m c = []).

(* ... and what it still owes: the page of L0 selected entries is what was passed on plus the
   first [r_count r] selected ones among the remaining candidates *)
Definition linv (f : entry -> bool) (d0 : dirst) (c : list entry) (p : string) (L0 : nat) (r : lres) (m : nat) : Prop :=
  lpos f d0 c p r m /\
  r_count r <= length (firstn m c) /\
  firstn L0 (filter f c) = filter f (firstn m c) ++ firstn (r_count r) (filter f (skipn m c)).

Lemma linv_last : forall f d0 c p L0 r m, linv f d0 c p L0 r m -> 0 < r_count r -> r_last r <> "".
Proof. intros f d0 c p L0 r m [[_ [_ [_ Inone]]] [Ibound _]] Hpos E. rewrite (Inone E) in Ibound. simpl in Ibound. lia. Qed.

Lemma linv_progress : forall f d0 c p L0 r m, linv f d0 c p L0 r m -> 0 < r_count r -> length (skipn m c) < length c.
Proof. intros f d0 c p L0 r m [_ [Ibound _]] Hpos. rewrite firstn_length in Ibound. rewrite skipn_length. lia. Qed.

Lemma linv_names_le : forall f d0 c p L0 r m, linv f d0 c p L0 r m ->
  length (r_names r) + Nat.min (r_count r) (length (filter f (skipn m c))) <= L0.
Proof.
  intros f d0 c p L0 r m [[Inames _] [_ Ipage]].
  apply (f_equal (@List.length entry)) in Ipage. rewrite app_length, !firstn_length in Ipage.
  rewrite Inames, map_length. lia.
Qed.

(* one refill round: the sub-listing started at lastFileName (exclusive) *)
Lemma lpos_step : forall f d0 c p r m r1 m1,
  lpos f d0 c p r m -> r_last r <> "" ->
  lpos f (r_dir r) (cand (r_last r) false p (r_dir r)) p r1 m1 ->
  lpos f d0 c p (join r r1) (m + m1).
Proof.
  intros f d0 c p r m r1 m1 [Inames [Idir [Inext Inone]]] Hl [Pnames [Pdir [Pnext Pnone]]].
  rewrite (Inext Hl) in *. unfold lpos, join. cbn [r_names r_dir r_last].
  split; [|split; [|split]].
  - rewrite Inames, Pnames, <- map_app, <- filter_app, <- firstn_add. reflexivity.
  - rewrite Pdir, Idir, del_expired_app, <- firstn_add. reflexivity.
  - intros _. rewrite skipn_add. unfold keep_last. destruct (String.eqb_spec (r_last r1) "") as [E|E].
    + specialize (Pnone E). rewrite Pdir, Pnone, del_expired_nil, (Inext Hl). symmetry. apply firstn_nil_skipn. exact Pnone.
    + exact (Pnext E).
  - intros E. exfalso. exact (keep_last_ne _ _ Hl E).
Qed.

(* ... with limit = the number of entries still owed *)
Lemma linv_step : forall f d0 c p L0 r m k r1 m1,
  linv f d0 c p L0 r m -> r_count r = S k ->
  linv f (r_dir r) (cand (r_last r) false p (r_dir r)) p (S k) r1 m1 ->
  linv f d0 c p L0 (join r r1) (m + m1).
Proof.
  intros f d0 c p L0 r m k r1 m1 Hinv Ec [P [Pbound Ppage]].
  assert (Hl : r_last r <> "") by (apply (linv_last _ _ _ _ _ _ _ Hinv); lia).
  destruct Hinv as [I [Ibound Ipage]].
  split; [exact (lpos_step _ _ _ _ _ _ _ _ I Hl P)|].
  destruct I as [_ [_ [Inext _]]]. rewrite (Inext Hl) in *. cbn [join r_count].
  split.
  - rewrite firstn_add, app_length. lia.
  - rewrite Ipage, Ec, Ppage, app_assoc, <- filter_app, <- firstn_add, <- skipn_add. reflexivity.
Qed.

(* a store call, seen from doListDirectoryEntries *)
Lemma scan_linv : forall d start incl L p w, scan_ok d start incl L p w ->
  linv elive d (cand start incl p d) p L
    {| r_count := length (filter eexp (w_vis w)); r_last := w_last w;
       r_names := map ename (filter elive (w_vis w)); r_dir := del_expired (w_vis w) d |} L.
Proof.
  intros d start incl L p w [H1 [H2 H3]].
  unfold linv, lpos. cbn [r_names r_count r_dir r_last]. rewrite H1 in *.
  split; [auto|]. split; [apply filter_length_le|].
  rewrite (firstn_filter_refill elive _ L). do 2 f_equal. f_equal.
  apply filter_ext_in. intros e _. symmetry. apply eexp_negb_elive.
Qed.

(* doListPatternMatchedEntries: a finished page of live entries, seen through the pattern closure,
   owes as many matching entries as it dropped *)
Lemma linv_pattern : forall p rest excl d c L r0 m,
  linv elive d c p L r0 m -> r_count r0 = 0 ->
  linv (good p rest excl) d c p L
    {| r_count := length (filter (ms_of p rest excl) (r_names r0)); r_last := r_last r0;
       r_names := filter (fun n => negb (ms_of p rest excl n)) (r_names r0); r_dir := r_dir r0 |} m.
Proof.
  intros p rest excl d c L r0 m [[Vnames [Vdir [Vnext Vnone]]] [_ Vpage]] V0.
  rewrite V0 in Vpage. cbn [firstn] in Vpage. rewrite app_nil_r in Vpage.
  assert (Hcount : length (filter (ms_of p rest excl) (r_names r0)) =
                   length (filter (fun e => negb (okE p rest excl e)) (filter elive (firstn m c)))).
  { rewrite Vnames, length_filter_map. f_equal. apply filter_ext_in. intros e _.
    unfold okE. rewrite negb_involutive, ms_of_missed. reflexivity. }
  unfold linv, lpos. cbn [r_names r_count r_last r_dir].
  split; [split; [rewrite Vnames; apply names_good|auto]|]. split.
  - rewrite Hcount. etransitivity; [apply filter_length_le|apply filter_length_le].
  - rewrite (good_filter p rest excl c).
    rewrite (firstn_filter_refill (okE p rest excl) (filter elive c) L).
    assert (Hsk : skipn L (filter elive c) = filter elive (skipn m c)).
    { apply (firstn_app_skipn_eq _ (filter elive (firstn m c))); [apply filter_firstn_skipn|exact Vpage]. }
    rewrite Vpage, Hsk. rewrite <- !good_filter. rewrite Hcount. reflexivity.
Qed.

Lemma linv_done : forall f d0 c p T r m, linv f d0 c p T r m -> r_count r = 0 ->
  r_names r = map ename (firstn T (filter f c)) /\
  (r_last r <> "" -> filter f (cand (r_last r) false p (r_dir r)) = skipn T (filter f c)) /\
  (r_last r = "" -> r_names r = []).
Proof.
  intros f d0 c p T r m [[Inames [_ [Inext Inone]]] [_ Ipage]] H0.
  rewrite H0 in Ipage. cbn [firstn] in Ipage. rewrite app_nil_r in Ipage.
  split; [rewrite Ipage; exact Inames|]. split.
  - intros Hl. rewrite (Inext Hl). symmetry.
    apply (firstn_app_skipn_eq _ (filter f (firstn m c))); [apply filter_firstn_skipn|exact Ipage].
  - intros El. rewrite Inames, (Inone El). reflexivity.
Qed.

Lemma lpos_dir : forall f d start incl p r m, wf d -> lpos f d (cand start incl p d) p r m ->
  wf (r_dir r) /\ filter elive (r_dir r) = filter elive d.
Proof.
  intros f d start incl p r m Hwf [_ [Idir _]]. rewrite Idir.
  split; [apply wf_del_expired; exact Hwf|]. apply del_expired_live; [exact Hwf|].
  intros e He. eapply cand_in. eapply firstn_in. exact He.
Qed.
