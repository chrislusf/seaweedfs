(* C22: loopFlush and AddToBuffer preserve the invariant outside the known-finding trigger;
   the range of events a subscriber has received, and how one read extends it. *)
From Coq Require Import List ZArith NArith Bool Lia.
From SW Require Import proof.ListFacts model.LogBuf proof.LogBufProofs proof.LogBufInv proof.LogBufSteps.
Import ListNotations.
Local Open Scope Z_scope.

Lemma flush_write_inv : forall gh s, Inv gh s -> Inv gh (flush_write s).
Proof.
  intros gh s [HI Hcur]. unfold flush_write.
  destruct (inflight s) as [gi|] eqn:Ei; [split; assumption|].
  destruct (queue s) as [|g q] eqn:Eq; [split; assumption|].
  split; [|exact Hcur]. destruct HI.
  assert (Hg : seg_ok g) by (apply i_q; rewrite Eq; left; reflexivity).
  constructor; unfold E_of; cbn [lastTs lastFlush s0 s1 s2 disk queue inflight cur]; fold (E_of gh s);
    try assumption.
  - (* i_disk: the head of the queue moves to the disk *)
    rewrite concat_app. cbn [concat]. rewrite app_nil_r, <- i_disk, Eq. cbn [map concat].
    rewrite <- !app_assoc. reflexivity.
  - (* i_dne *) intros x Hx. apply in_app_or in Hx. destruct Hx as [Hx|[<-|[]]]; [auto|apply Hg].
  - (* i_q *) intros x Hx. apply i_q. rewrite Eq. right. exact Hx.
  - (* i_flush: what is acknowledged does not change *)
    unfold FlushInv in *. rewrite Ei in i_flush. cbn [inflight disk lastFlush]. eauto.
  - (* i_infl *) intros g' Hg'. inversion Hg'; subst g'. exact Hg.
Qed.

(* the buffer whose flush is being acknowledged ends at or after lastFlushTime, and its
   last event is on the disk *)
Lemma inflight_facts : forall gh s g, InvCore gh s -> inflight s = Some g ->
  lastFlush s <= g_stop g /\ exists e, In e (concat (disk s)) /\ e_ts e = g_stop g.
Proof.
  intros gh s g HI Hi. pose proof zeroT_neg as Hz.
  destruct (i_infl _ _ HI g Hi) as [Hne [_ Hstop]].
  (* lastFlushTime is time.Time{} or the last event flushed before g *)
  pose proof (i_flush _ _ HI) as HF. unfold FlushInv in HF. rewrite Hi in HF. destruct HF as [d' [Hd HF]].
  pose proof (disk_incr _ _ HI) as Hdk.
  rewrite Hd, concat_app in *. cbn [concat] in *. rewrite app_nil_r in *.
  destruct (last_ts_in (g_data g) 0 Hne) as [el [Hel1 Hel2]].
  assert (Hin : In el (concat d' ++ g_data g)) by (apply in_or_app; right; exact Hel1).
  split; [|exists el; split; [exact Hin|congruence]].
  rewrite HF.
  destruct (concat d') as [|x l] eqn:Ec; [rewrite last_ts_nil; pose proof (incr_lb _ _ _ Hdk Hin); lia|].
  destruct (last_ts_in (x :: l) zeroT ltac:(discriminate)) as [e [He1 He2]]. rewrite <- He2, Hstop, <- Hel2.
  pose proof (incr_app_lt _ _ _ e el Hdk He1 Hel1). lia.
Qed.

Lemma flush_mark_inv : forall gh s, Inv gh s -> Inv gh (flush_mark s).
Proof.
  intros gh s [HI Hcur]. unfold flush_mark.
  destruct (inflight s) as [g|] eqn:Ei; [|split; assumption].
  destruct (inflight_facts gh s g HI Ei) as [Hle Hex].
  split; [|exact Hcur]. destruct HI.
  constructor; unfold E_of; cbn [lastTs lastFlush s0 s1 s2 disk queue inflight cur]; fold (E_of gh s);
    try assumption; try (eapply slot_is_mono; eassumption).
  - (* i_old: lastFlushTime only grows *) intros e He. specialize (i_old e He). lia.
  - (* i_flush: the acknowledged buffer is the last one on the disk *)
    unfold FlushInv in *. rewrite Ei in i_flush. cbn [inflight disk lastFlush].
    destruct i_flush as [d' [Hd _]]. destruct (i_infl g Ei) as [Hne [_ Hstop]].
    rewrite Hd, concat_app. cbn [concat]. rewrite app_nil_r, last_ts_app, Hstop.
    apply last_ts_default. exact Hne.
  - (* i_infl *) discriminate.
Qed.

(* the state in which AddToBuffer writes the record: same events; the start time is that of the
   first record or, in an empty buffer, the new timestamp *)
Lemma add_pre_inv : forall iv gh s ev len,
  Inv gh s -> add_trig iv true s ev len = None ->
  exists gh', InvCore gh' (add_pre iv true s ev len) /\
              E_of gh' (add_pre iv true s ev len) = E_of gh s /\
              start_ok (add_pre iv true s ev len) (adjust_ts (lastTs s) ev).
Proof.
  intros iv gh s ev len [HI Hcur] Htr. set (ts := adjust_ts (lastTs s) ev).
  unfold add_trig in Htr. unfold add_pre. fold ts in Htr. fold ts.
  set (sa := if pos s =? 0 then set_start s ts else s) in *.
  assert (Hsa : Inv gh sa /\ E_of gh sa = E_of gh s /\ start_ok sa ts).
  { unfold sa, start_ok. destruct (pos s =? 0) eqn:Ep.
    - apply pos_zero_iff in Ep. split; [split|split].
      + eapply InvCore_ext; [..|exact HI]; reflexivity.
      + unfold cur_times in *. cbn [set_start cur stopT]. rewrite Ep in *. exact Hcur.
      + reflexivity.
      + cbn [set_start cur startT]. rewrite Ep. reflexivity.
    - split; [split; assumption|]. split; [reflexivity|].
      unfold cur_times in Hcur. destruct (cur s) eqn:Hc; [|tauto].
      apply pos_zero_iff in Hc. congruence. }
  destruct Hsa as [Hinv [HE Hst]]. destruct (rotates iv sa ts _); [|exists gh; split; [apply Hinv|auto]].
  (* rotation: whatever the buffer held is sealed, the new buffer is empty *)
  cbn [andb] in Htr. destruct (trig_seal sa) eqn:Ets; [discriminate|].
  destruct (seal_inv gh sa Hinv Ets) as [gh' [[HI' _] HE']].
  assert (Hc' : cur (seal true sa) = []).
  { unfold seal. destruct (pos sa =? 0) eqn:Ep; [apply pos_zero_iff; exact Ep|reflexivity]. }
  exists gh'. rewrite <- HE, <- HE'.
  (* realloc or not: InvCore does not look at cap and tail *)
  destruct (cap _ <? _); (split; [eapply InvCore_ext; [..|exact HI']; reflexivity|]);
    (split; [reflexivity|]); unfold start_ok; cbn [realloc set_start cur startT]; rewrite Hc'; reflexivity.
Qed.

Lemma add_inv : forall iv gh s ev len id,
  Inv gh s -> add_trig iv true s ev len = None -> 0 < len ->
  exists gh', Inv gh' (add iv true s ev len id) /\
              E_of gh' (add iv true s ev len id) = E_of gh s ++ [new_entry s ev len id].
Proof.
  intros iv gh s ev len id HInv Htr Hlen.
  destruct (add_pre_inv iv gh s ev len HInv Htr) as [gh' [HI' [HE' Hst]]].
  exists gh'. unfold add.
  destruct (write_inv gh' (add_pre iv true s ev len) {| e_ts := adjust_ts (lastTs s) ev; e_len := len; e_id := id |} HI')
    as [Hinv HE'']; cbn [e_ts e_len]; auto.
  - rewrite (add_pre_frame lastTs) by (auto using seal_lastTs). apply adjust_gt.
  - split; [exact Hinv|]. rewrite HE'', HE'. reflexivity.
Qed.

Definition in_range (t0 hi : Z) (e : entry) : bool := (t0 <? e_ts e) && (e_ts e <=? hi).

(* what the subscriber has been handed so far is exactly the appended events with
   t0 < ts <= lastRead, in append order; the position is the start or at most the last
   assigned timestamp [lts], so that a later append does not fall into the range *)
Definition SubInv (t0 : Z) (E : list entry) (lts : Z) (u : sub) : Prop :=
  t0 <= lastRead u /\ got u = filter (in_range t0 (lastRead u)) E /\
  (lastRead u = t0 \/ lastRead u <= lts).

(* a read at t that returned X moves the range from (t0, t] to (t0, last X] *)
Lemma range_extend : forall E lo t0 t X, incr lo E -> splits E t X -> t0 <= t ->
  filter (in_range t0 (last_ts X t)) E = filter (in_range t0 t) E ++ X.
Proof.
  intros E lo t0 t X Hinc [E1 [E3 [-> [H1 HX]]]] Ht0.
  destruct X as [|x X']; [rewrite last_ts_nil, app_nil_r; reflexivity|].
  set (X := x :: X') in *. set (t' := last_ts X t).
  destruct (last_ts_in X t ltac:(discriminate)) as [el [Hel1 Hel2]]. fold t' in Hel2.
  pose proof (HX _ Hel1) as Hlt.
  assert (HX' : forall e, In e X -> e_ts e <= t').
  { intros e He. apply incr_app in Hinc. destruct Hinc as [_ Hinc]. apply incr_app in Hinc.
    destruct Hinc as [Hinc _]. unfold t'. rewrite (last_ts_default X t (last_ts E1 lo)) by discriminate.
    apply incr_in_le_last; assumption. }
  assert (H3 : forall e, In e E3 -> t' < e_ts e).
  { intros e He. rewrite app_assoc in Hinc. rewrite <- Hel2.
    apply (incr_app_lt _ _ _ el e Hinc); [apply in_or_app; right; exact Hel1|exact He]. }
  rewrite !filter_app.
  rewrite (filter_all_true _ X) by (intros e He; specialize (HX _ He); specialize (HX' _ He); unfold in_range; lia).
  rewrite (filter_all_false (in_range t0 t) X) by (intros e He; specialize (HX _ He); unfold in_range; lia).
  rewrite !(filter_all_false _ E3) by (intros e He; specialize (H3 _ He); unfold in_range; lia).
  rewrite !app_nil_r. f_equal. apply filter_ext_in. intros e He. specialize (H1 _ He). unfold in_range. lia.
Qed.
