(* Proofs about model/SeqGrow.v: concurrent GrowByCountAndType requests -- C13.
   Under the lock discipline of the code ([gstep true]: NextVolumeId's read and the
   raft apply of a request happen while that request holds VolumeGrowth.accessLock)
   volume ids handed out are strictly increasing, hence unique, for EVERY
   interleaving of the requests' steps; with a lock that does not cover that
   region ([gstep false]) the same id is handed out twice. *)
From Coq Require Import List NArith Bool Arith Lia Sorted.
From SW Require Import model.Seq model.SeqGrow proof.SeqProofs.
Import ListNotations.
Local Open Scope N_scope.

Lemma gev_okb_spec : forall e1 e2, gev_okb e1 e2 = true <-> gev_ok e1 e2.
Proof.
  intros [a1 v1|a1 v1|v1] [a2 v2|a2 v2|v2]; simpl; rewrite ?N.ltb_lt, ?N.leb_le; tauto.
Qed.

Lemma gtrace_okb_spec : forall tr, gtrace_okb tr = true <-> ForallOrdPairs gev_ok tr.
Proof. exact (fop_okb_spec gev_okb gev_ok gtrace_okb gev_okb_spec eq_refl (fun _ _ => eq_refl)). Qed.

(* the cell of request b after request a's cell was set to q (nothing changes when a is not
   a request of the machine; its cell then reads GIdle) *)
Lemma gpc_gset : forall s mx h a q b,
  gpc_of (gset s mx h a q) b = q /\ b = a \/
  gpc_of (gset s mx h a q) b = gpc_of s b /\ (b <> a \/ gpc_of s b = GIdle).
Proof.
  intros. unfold gpc_of, gset. simpl. destruct (Nat.eq_dec a b) as [<-|E].
  - destruct (Nat.lt_ge_cases a (length (gpcs s))) as [L|L].
    + left. split; [apply nth_setnth_eq; exact L|reflexivity].
    + right. rewrite !nth_overflow; [auto|exact L|rewrite length_setnth; exact L].
  - right. split; [apply nth_setnth_neq; exact E|left; congruence].
Qed.

Lemma gpc_in_range : forall s a, gpc_of s a <> GIdle -> (a < length (gpcs s))%nat.
Proof.
  intros s a H. destruct (Nat.ltb a (length (gpcs s))) eqn:L; [apply Nat.ltb_lt; exact L|].
  apply Nat.ltb_ge in L. exfalso. apply H. unfold gpc_of. apply nth_overflow. exact L.
Qed.

Definition busy (q : gpc) : bool := match q with GHold _ | GProp _ _ => true | _ => false end.

(* every event is at or below the maximum, a proposal at most one above; a pending proposal
   [next] is above every grant but may equal an earlier proposal (a failed one is proposed again) *)
Definition ev_below (mx : N) (e : gev) : Prop :=
  match e with EGrant _ v => v <= mx | ESeen v => v <= mx | EProp _ v => v <= mx + 1 end.
Definition ev_before (next : N) (e : gev) : Prop :=
  match e with EGrant _ v => v < next | EProp _ v => v <= next | ESeen _ => True end.

(* events are bounded by the maximum; a request in GHold/GProp is the lock holder; a pending
   proposal is above everything granted *)
Record GInv (s : gst) (past : list gev) : Prop := {
  gi_ev : forall e, In e past -> ev_below (gmax s) e;
  gi_excl : forall b, busy (gpc_of s b) = true -> gholder s = Some b;
  gi_pend : forall b n next, gpc_of s b = GProp n next ->
            next <= gmax s + 1 /\ forall e, In e past -> ev_before next e }.

Lemma ginit_inv : forall nact m0, GInv (ginit nact m0) [].
Proof.
  intros nact m0. constructor; simpl.
  - intros e [].
  - intros b. unfold gpc_of. simpl. rewrite nth_repeat. simpl. discriminate.
  - intros b n next. unfold gpc_of. simpl. rewrite nth_repeat. discriminate.
Qed.

(* GInv holds again after gset s mx h a q when the events are below mx, q busy implies
   h = Some a, a proposal q is above the events, and either no other request is busy or h, mx
   and the events are unchanged *)
Lemma GInv_set : forall s past a q h mx past', GInv s past ->
  (forall e, In e past' -> ev_below mx e) ->
  (busy q = true -> h = Some a) ->
  (forall n next, q = GProp n next -> next <= mx + 1 /\ forall e, In e past' -> ev_before next e) ->
  ((forall b, b <> a -> busy (gpc_of s b) = false) \/ (h = gholder s /\ mx = gmax s /\ past' = past)) ->
  GInv (gset s mx h a q) past'.
Proof.
  intros s past a q h mx past' [Hev Hex Hpd] Hev' Hq Hqp Hoth.
  constructor; cbn [gset gmax gholder]; [exact Hev'| |].
  - intros b Hb. destruct (gpc_gset s mx h a q b) as [[Hc ->]|[Hc Hn]]; rewrite Hc in Hb; [auto|].
    destruct Hn as [Hn|Hn]; [|rewrite Hn in Hb; discriminate].
    destruct Hoth as [Ho|[-> _]]; [rewrite (Ho b Hn) in Hb; discriminate|auto].
  - intros b n next Hb. destruct (gpc_gset s mx h a q b) as [[Hc ->]|[Hc Hn]]; rewrite Hc in Hb; [eauto|].
    destruct Hn as [Hn|Hn]; [|congruence].
    destruct Hoth as [Ho|[_ [-> ->]]]; [specialize (Ho b Hn); rewrite Hb in Ho; discriminate|eauto].
Qed.

Lemma gstep_ok : forall s past o, GInv s past -> gfit_guard s o = true ->
  match snd (gstep true s o) with
  | Some x => GInv (fst (gstep true s o)) (x :: past) /\ (forall old, In old past -> gev_ok old x)
  | None => GInv (fst (gstep true s o)) past
  end.
Proof.
  intros s past o HI Hg. pose proof HI as [Hev Hex Hpd].
  (* the lock holder is the only busy request *)
  assert (Hheld : forall a, gholder s = Some a -> forall b, b <> a -> busy (gpc_of s b) = false).
  { intros a Ha b Hb. destruct (busy (gpc_of s b)) eqn:Eb; [|reflexivity]. specialize (Hex b Eb). congruence. }
  destruct o as [a n|a|a|a r|v]; simpl in *.
  - destruct (gpc_of s a) eqn:Ea; simpl; try exact HI.
    apply (GInv_set _ past); [assumption|assumption|discriminate|discriminate|right; auto].
  - destruct (gpc_of s a) as [|n|n|n next] eqn:Ea; simpl; try exact HI.
    unfold lock_busy. destruct (gholder s) as [h|] eqn:Eh; simpl; [exact HI|].
    assert (Hfree : forall b, b <> a -> busy (gpc_of s b) = false).
    { intros b _. destruct (busy (gpc_of s b)) eqn:Eb; [|reflexivity]. specialize (Hex b Eb). discriminate. }
    destruct (n =? 0) eqn:En; simpl;
      (apply (GInv_set _ past); [assumption|assumption|auto; discriminate|discriminate|left; exact Hfree]).
  - destruct (gpc_of s a) as [|n|n|n next] eqn:Ea; simpl; try exact HI.
    apply N.ltb_lt in Hg. rewrite (N.mod_small (gmax s + 1)) by lia.
    assert (Ha : gholder s = Some a) by (apply Hex; rewrite Ea; reflexivity).
    pose proof (Hheld a Ha) as Hoth.
    split.
    + apply (GInv_set _ past); [assumption| |auto| |left; exact Hoth].
      * intros e [<-|He]; [simpl; lia|auto].
      * intros n0 next Hq. inversion Hq; subst. split; [lia|].
        intros e [<-|He]; [simpl; lia|]. specialize (Hev e He). destruct e; simpl in *; auto; lia.
    + intros old Ho. specialize (Hev old Ho). destruct old; simpl in *; auto; lia.
  - destruct (gpc_of s a) as [|n|n|n next] eqn:Ea; simpl; try exact HI.
    assert (Ha : gholder s = Some a) by (apply Hex; rewrite Ea; reflexivity).
    pose proof (Hheld a Ha) as Hoth.
    destruct (Hpd a n next Ea) as [Hn Hp].
    assert (Hrel : forall old, In old past -> gev_ok old (EGrant a next)).
    { intros old Ho. specialize (Hp old Ho). destruct old; simpl; auto. }
    assert (Hev' : forall e, In e (EGrant a next :: past) -> ev_below (N.max (gmax s) next) e).
    { intros e [<-|He]; [simpl; lia|]. specialize (Hev e He). destruct e; simpl in *; lia. }
    destruct r; [destruct (n - 1 =? 0)| |]; simpl.
    (* a raft error grants nothing *)
    3: (apply (GInv_set _ past); [assumption|assumption|discriminate|discriminate|left; exact Hoth]).
    all: split; [|exact Hrel]; (apply (GInv_set _ past); [assumption|assumption|auto; discriminate|discriminate|left; exact Hoth]).
  - split.
    + constructor; simpl.
      * intros e [<-|He]; [simpl; lia|]. specialize (Hev e He). destruct e; simpl in *; lia.
      * exact Hex.
      * intros b n next Hb. destruct (Hpd b n next Hb) as [H1 H2]. split; [lia|].
        intros e [<-|He]; [exact I|apply H2; exact He].
    + intros old Ho. destruct old; simpl; auto.
Qed.

Theorem grow_trace_ok : forall nact m0 sched, gfits true (ginit nact m0) sched = true ->
  ForallOrdPairs gev_ok (somes (snd (grow_run true (ginit nact m0) sched))).
Proof.
  intros nact m0 sched Hf. unfold grow_run, gfits in *.
  exact (grun_fop _ _ _ (gstep true) gfit_guard gev_ok GInv gstep_ok sched _ (ginit_inv nact m0) Hf).
Qed.

Lemma grants_picks : forall l, grants l = picks (fun e => match e with EGrant _ v => Some v | _ => None end) (somes l).
Proof. induction l as [|[[a v|a v|v]|] l IH]; simpl; rewrite ?IH; reflexivity. Qed.

Lemma grants_sorted : forall l, ForallOrdPairs gev_ok (somes l) -> StronglySorted N.lt (grants l).
Proof.
  intros l H. rewrite grants_picks. apply (picks_sorted gev_ok); [|exact H].
  intros [? ?|? ?|?] [? ?|? ?|?] x y Ea Eb Hab; inversion Ea; inversion Eb; subst; exact Hab.
Qed.

Theorem grow_sorted : forall nact m0 sched, gfits true (ginit nact m0) sched = true ->
  StronglySorted N.lt (grants (snd (grow_run true (ginit nact m0) sched))).
Proof. intros. apply grants_sorted. apply grow_trace_ok. auto. Qed.

Theorem grow_unique : forall nact m0 sched, gfits true (ginit nact m0) sched = true ->
  NoDup (grants (snd (grow_run true (ginit nact m0) sched))).
Proof. intros. apply sorted_nodup. apply grow_sorted. auto. Qed.

Lemma gstep_max_mono : forall lk s o, gmax s <= gmax (fst (gstep lk s o)).
Proof.
  intros lk s o. destruct o as [a n|a|a|a r|v]; simpl;
    try (destruct (gpc_of s a); simpl; try lia;
         repeat match goal with
                | |- context [match ?r with GOk => _ | GRaftErr => _ | GAllocErr => _ end] => destruct r
                | |- context [if ?c then _ else _] => destruct c
                end; simpl; lia).
  lia.
Qed.

(* the lock must cover NextVolumeId: two requests of two volumes each, every step of request 0
   immediately followed by the same step of request 1 (the schedule of seeded/C13-c) *)
Definition grow_wit : list gop :=
  [GStart 0 2; GStart 1 2; GLock 0; GLock 1; GRead 0; GRead 1; GApply 0 GOk; GApply 1 GOk;
   GRead 0; GRead 1; GApply 0 GOk; GApply 1 GOk].

Lemma grow_unlocked_refuted :
  exists sched, gfits false (ginit 2 3) sched = true /\
                grants (snd (grow_run false (ginit 2 3) sched)) = [4; 4; 5; 5] /\
                ~ NoDup (grants (snd (grow_run false (ginit 2 3) sched))).
Proof.
  exists grow_wit. split; [vm_compute; reflexivity|]. split; [vm_compute; reflexivity|].
  vm_compute. intro H. inversion H as [|? ? Hn _]; subst. apply Hn. left. reflexivity.
Qed.

(* the same steps on the locked machine: request 1 stays blocked on the lock
   until request 0 has returned *)
Example grow_example :
  let sched := grow_wit ++ [GLock 1; GRead 1; GHb 9; GApply 1 GOk; GRead 1; GApply 1 GAllocErr] in
  gfits true (ginit 2 3) sched = true /\
  somes (snd (grow_run true (ginit 2 3) sched)) =
    [EProp 0 4; EGrant 0 4; EProp 0 5; EGrant 0 5; EProp 1 6; ESeen 9; EGrant 1 6; EProp 1 10; EGrant 1 10] /\
  gallocs 1 sched (snd (grow_run true (ginit 2 3) sched)) = [(0%nat, 4); (0%nat, 5); (1%nat, 6); (1%nat, 10)].
Proof. repeat split; vm_compute; reflexivity. Qed.
