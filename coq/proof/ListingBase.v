(* C19: the byte order on names: slt / sle are String.ltb / String.leb as propositions (ltb_slt,
   leb_sle); prefixes in that order; and the refill identity for pages of a filtered list. *)
From Coq Require Import List NArith Bool String Ascii Arith Lia.
From SW Require Import proof.StringFacts model.Listing.
Import ListNotations.
Local Open Scope string_scope.
Local Open Scope list_scope.
Local Notation length := List.length.

Definition slt (a b : string) : Prop := String.compare a b = Lt.
Definition sle (a b : string) : Prop := slt a b \/ a = b.

Lemma scmp_eq : forall a b, String.compare a b = Eq <-> a = b.
Proof. intros a b. split; [apply String.compare_eq_iff|intros ->; apply str_compare_refl]. Qed.

Lemma slt_trans : forall a b c, slt a b -> slt b c -> slt a c.
Proof. exact str_compare_lt_trans. Qed.

Lemma slt_irrefl : forall a, ~ slt a a.
Proof. unfold slt. intros a H. rewrite str_compare_refl in H. discriminate. Qed.

Lemma slt_asym : forall a b, slt a b -> ~ slt b a.
Proof. intros a b H1 H2. apply (slt_irrefl a). eapply slt_trans; eauto. Qed.

Lemma scmp_gt : forall a b, String.compare a b = Gt <-> slt b a.
Proof.
  intros a b. unfold slt. rewrite (String.compare_antisym b a).
  destruct (String.compare a b); simpl; split; intro H; congruence.
Qed.

Lemma slt_total : forall a b, slt a b \/ a = b \/ slt b a.
Proof.
  intros a b. destruct (String.compare a b) eqn:E.
  - right. left. apply scmp_eq. auto.
  - left. auto.
  - right. right. apply scmp_gt. auto.
Qed.

Lemma ltb_slt : forall a b, String.ltb a b = true <-> slt a b.
Proof. intros a b. unfold String.ltb, slt. destruct (String.compare a b); split; intro H; congruence. Qed.

Lemma ltb_false : forall a b, String.ltb a b = false <-> sle b a.
Proof.
  intros a b. unfold String.ltb, sle. destruct (String.compare a b) eqn:E.
  - apply scmp_eq in E. subst. split; auto.
  - split; [discriminate|]. intros [H|H]; [exfalso; eapply slt_asym; eauto|subst; exfalso; eapply slt_irrefl; eauto].
  - apply scmp_gt in E. split; auto.
Qed.

Lemma leb_sle : forall a b, String.leb a b = true <-> sle a b.
Proof.
  intros a b. unfold String.leb, sle. destruct (String.compare a b) eqn:E.
  - apply scmp_eq in E. subst. split; auto.
  - split; auto.
  - apply scmp_gt in E. split; [discriminate|].
    intros [H|H]; [exfalso; eapply slt_asym; eauto|subst; exfalso; eapply slt_irrefl; eauto].
Qed.

Lemma sle_refl : forall a, sle a a.
Proof. right. reflexivity. Qed.

Lemma sle_trans : forall a b c, sle a b -> sle b c -> sle a c.
Proof.
  intros a b c [H1|H1] [H2|H2]; subst; unfold sle; auto. left. eapply slt_trans; eauto.
Qed.

Lemma sle_slt_trans : forall a b c, sle a b -> slt b c -> slt a c.
Proof. intros a b c [H|H] H2; subst; auto. eapply slt_trans; eauto. Qed.

Lemma slt_sle_trans : forall a b c, slt a b -> sle b c -> slt a c.
Proof. intros a b c H [H2|H2]; subst; auto. eapply slt_trans; eauto. Qed.

Lemma sle_antisym : forall a b, sle a b -> sle b a -> a = b.
Proof.
  intros a b [H1|H1] [H2|H2]; subst; auto. exfalso. eapply slt_asym; eauto.
Qed.

Lemma sle_empty : forall a, sle "" a.
Proof. intros [|c a]; [right; reflexivity|left; reflexivity]. Qed.

Lemma slt_empty : forall a, a <> "" -> slt "" a.
Proof. intros [|c a] H; [congruence|reflexivity]. Qed.

Lemma not_slt_sle : forall a b, ~ slt a b -> sle b a.
Proof. intros a b H. destruct (slt_total a b) as [H1|[H1|H1]]; [tauto|subst; apply sle_refl|left; auto]. Qed.

Lemma prefix_sle : forall p n, String.prefix p n = true -> sle p n.
Proof.
  induction p as [|c p IH]; intros n H.
  - apply sle_empty.
  - destruct n as [|d n]; simpl in H; [discriminate|].
    destruct (ascii_dec c d); [|discriminate]. subst d.
    destruct (IH n H) as [H1|H1].
    + left. unfold slt in *. simpl. rewrite ascii_compare_refl. auto.
    + right. congruence.
Qed.

Lemma sle_cons_inv : forall x a y b, sle (String x a) (String y b) -> Ascii.compare x y = Lt \/ (x = y /\ sle a b).
Proof.
  intros x a y b [H|H]; [|inversion H; right; split; [reflexivity|apply sle_refl]].
  unfold slt in H. simpl in H. destruct (Ascii.compare x y) eqn:E; try discriminate; [right|left; reflexivity].
  apply Ascii.compare_eq_iff in E. split; [exact E|left; exact H].
Qed.

(* the names with prefix p form an interval of the order that starts at p: once a name above p
   is outside, everything above that name is outside too *)
Lemma prefix_past : forall p n m, sle p n -> String.prefix p n = false -> sle n m -> String.prefix p m = false.
Proof.
  induction p as [|c p IH]; intros n m Hpn Hn Hnm; [destruct n; discriminate|].
  destruct n as [|d n]; [destruct Hpn; discriminate|]. destruct m as [|e m]; [reflexivity|].
  cbn [String.prefix] in *. destruct (ascii_dec c e) as [<-|]; [|reflexivity].
  destruct (sle_cons_inv _ _ _ _ Hpn) as [H1|[<- H1]], (sle_cons_inv _ _ _ _ Hnm) as [H2|[E2 H2]].
  - pose proof (ascii_compare_lt_trans _ _ _ H1 H2) as H. rewrite ascii_compare_refl in H. discriminate.
  - subst d. rewrite ascii_compare_refl in H1. discriminate.
  - rewrite ascii_compare_refl in H2. discriminate.
  - destruct (ascii_dec c c); [|congruence]. exact (IH n m H1 Hn H2).
Qed.

Lemma filter_firstn_skipn : forall {A} (f : A -> bool) m (l : list A),
  filter f l = filter f (firstn m l) ++ filter f (skipn m l).
Proof. intros. rewrite <- filter_app, firstn_skipn. auto. Qed.

Lemma length_filter_split : forall {A} (f : A -> bool) l,
  length (filter f l) + length (filter (fun x => negb (f x)) l) = length l.
Proof. induction l as [|x l IH]; simpl; auto. destruct (f x); simpl; lia. Qed.

(* the refill identity: a page of L items of which k fail the filter is completed by the
   first k passing items of the remainder *)
Lemma firstn_filter_refill : forall {A} (f : A -> bool) (c : list A) (L : nat),
  firstn L (filter f c) =
  filter f (firstn L c) ++
  firstn (length (filter (fun x => negb (f x)) (firstn L c))) (filter f (skipn L c)).
Proof.
  intros. rewrite (filter_firstn_skipn f L c) at 1.
  pose proof (length_filter_split f (firstn L c)) as Hs.
  rewrite firstn_app, firstn_all2 by (pose proof (firstn_le_length L c); lia). f_equal.
  destruct (Nat.le_gt_cases L (length c)) as [H|H].
  - rewrite firstn_length_le in Hs by exact H. f_equal. lia.
  - rewrite skipn_all2 by lia. cbn [filter]. rewrite !firstn_nil. reflexivity.
Qed.

Lemma firstn_app_skipn_eq : forall {A} (X a b : list A) k, X = a ++ b -> firstn k X = a -> skipn k X = b.
Proof.
  intros A X a b k -> H. apply (app_inv_head a). rewrite <- H at 1. apply firstn_skipn.
Qed.

Lemma firstn_filter_prefix : forall {A} (f : A -> bool) m (c : list A),
  firstn (length (filter f (firstn m c))) (filter f c) = filter f (firstn m c).
Proof.
  intros. rewrite (filter_firstn_skipn f m c).
  rewrite firstn_app, Nat.sub_diag, firstn_all. cbn [firstn]. rewrite app_nil_r. reflexivity.
Qed.

Lemma length_filter_firstn_le : forall {A} (f : A -> bool) m (c : list A),
  length (filter f (firstn m c)) <= length (filter f c).
Proof. intros. rewrite (filter_firstn_skipn f m c). rewrite app_length. lia. Qed.

Lemma is_nil_true : forall {A} (l : list A), is_nil l = true -> l = [].
Proof. intros A [|x l] H; [auto|discriminate]. Qed.
Lemma is_nil_false : forall {A} (l : list A), is_nil l = false -> l <> [].
Proof. intros A [|x l] H; [discriminate|congruence]. Qed.

Lemma firstn_nil_inv : forall {A} n (l : list A), firstn n l = [] -> 0 < n -> l = [].
Proof. intros A n l H Hn. destruct n; [lia|]. destruct l; [auto|discriminate]. Qed.
