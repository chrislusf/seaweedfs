(* C40, one replication request: [create_needle o (replicate o (create_needle o q))] against
   [create_needle o q], field by field.  Name (path.Base is idempotent), pairs, last-modified,
   TTL and decoded content always agree (Section Replica); the mime type agrees exactly
   outside [trig_mime] ([trig_mime_spec]). *)
From Coq Require Import List NArith Bool String Ascii Lia.
From SW Require Import model.ReplWrite.
Import ListNotations.
Local Open Scope string_scope.
Local Open Scope N_scope.

Lemma after_last_slash_noslash : forall s, existsb_slash (after_last_slash s) = false.
Proof.
  induction s as [|c r IH]; [reflexivity|]. cbn [after_last_slash].
  destruct (existsb_slash r) eqn:Er; [exact IH|].
  destruct (Ascii.eqb c slash) eqn:Ec; [exact Er|].
  cbn [existsb_slash]. rewrite Ec, Er. reflexivity.
Qed.

Lemma after_last_slash_id : forall s, existsb_slash s = false -> after_last_slash s = s.
Proof.
  intros [|c r] H; [reflexivity|]. cbn [existsb_slash] in H. apply orb_false_iff in H. destruct H as [Hc Hr].
  cbn [after_last_slash]. rewrite Hr, Hc. reflexivity.
Qed.

Lemma strip_slashes_id : forall s, existsb_slash s = false -> strip_slashes s = s.
Proof.
  induction s as [|c r IH]; intros H; [reflexivity|].
  cbn [existsb_slash] in H. apply orb_false_iff in H. destruct H as [Hc Hr].
  cbn [strip_slashes]. rewrite (IH Hr). destruct r; [rewrite Hc; reflexivity | reflexivity].
Qed.

Lemma after_strip_nonempty : forall s,
  strip_slashes s = EmptyString \/ after_last_slash (strip_slashes s) <> EmptyString.
Proof.
  induction s as [|c r IH]; [left; reflexivity|]. cbn [strip_slashes].
  destruct (strip_slashes r) as [|c' r'] eqn:Er.
  - destruct (Ascii.eqb c slash) eqn:Ec; [left; reflexivity|]. right.
    cbn [after_last_slash existsb_slash]. rewrite Ec. discriminate.
  - right. destruct IH as [IH|IH]; [discriminate|].
    cbn [after_last_slash]. destruct (existsb_slash (String c' r')); [exact IH|].
    destruct (Ascii.eqb c slash); discriminate.
Qed.

Lemma base_noslash_id : forall u, u <> EmptyString -> existsb_slash u = false -> base u = u.
Proof.
  intros u Hne Hns. unfold base. destruct u as [|c r]; [congruence|].
  rewrite (strip_slashes_id _ Hns). apply after_last_slash_id. exact Hns.
Qed.

Theorem base_idempotent : forall s, base (base s) = base s.
Proof.
  intros s. unfold base at 2 3. destruct s as [|c r]; [reflexivity|].
  destruct (after_strip_nonempty (String c r)) as [H|H].
  - rewrite H. reflexivity.
  - destruct (strip_slashes (String c r)) as [|c' r'] eqn:E; [reflexivity|].
    apply base_noslash_id; [exact H | apply after_last_slash_noslash].
Qed.

(* parsing a parsed name again changes nothing *)
Lemma parsed_name_fix : forall q,
  match parsed_name q with EmptyString => EmptyString | nm => base nm end = parsed_name q.
Proof.
  intros q. unfold parsed_name. destruct (q_put q); [reflexivity|].
  destruct (q_name q) as [|c r] eqn:E; [reflexivity|]. cbv iota.
  destruct (base (String c r)) as [|c' r'] eqn:Eb; [reflexivity|].
  rewrite <- Eb. apply base_idempotent.
Qed.

Lemma pairs_eqb_refl : forall p, pairs_eqb p p = true.
Proof.
  induction p as [|[k v] p IH]; [reflexivity|]. cbn. rewrite !String.eqb_refl. exact IH.
Qed.

Lemma ttl_norm_idem : forall t, ttl_norm (ttl_norm t) = ttl_norm t.
Proof.
  intros [c u]. unfold ttl_norm.
  destruct ((c =? 0) || (u =? 0) || (6 <? u)) eqn:E; [reflexivity|]. rewrite E. reflexivity.
Qed.

Lemma ttl_norm_zero : forall t, (fst (ttl_norm t) =? 0) && (snd (ttl_norm t) =? 0) = true -> ttl_norm t = (0, 0).
Proof.
  intros t H. apply andb_true_iff in H. destruct H as [H1 H2].
  apply N.eqb_eq in H1. apply N.eqb_eq in H2. destruct (ttl_norm t) as [a b]. cbn in *. congruence.
Qed.

Lemma keep256_short : forall s, slen s <? 256 = true -> keep256 s = s.
Proof. intros s H. unfold keep256. rewrite H. reflexivity. Qed.

Lemma keep256_idem : forall s, keep256 (keep256 s) = keep256 s.
Proof. intros s. unfold keep256. destruct (slen s <? 256) eqn:E; [rewrite E|]; reflexivity. Qed.

Lemma n_mime_keep : forall o q, n_mime (create_needle o q) = keep256 (parsed_mime o q).
Proof. reflexivity. Qed.

Lemma n_name_keep : forall o q, n_name (create_needle o q) = keep256 (parsed_name q).
Proof. reflexivity. Qed.

Lemma parsed_name_replicate : forall o q,
  parsed_name (replicate o (create_needle o q)) = keep256 (parsed_name q).
Proof.
  intros o q.
  assert (H1 : q_put (replicate o (create_needle o q)) = false) by reflexivity.
  assert (H2 : q_name (replicate o (create_needle o q)) = keep256 (parsed_name q)) by reflexivity.
  unfold parsed_name at 1. rewrite H1, H2. unfold keep256.
  destruct (slen (parsed_name q) <? 256); [apply parsed_name_fix | reflexivity].
Qed.

Lemma name_view : forall o q,
  (if n_has_name (create_needle o q) then n_name (create_needle o q) else "") = keep256 (parsed_name q).
Proof.
  intros o q. cbn [create_needle n_has_name n_name]. unfold keep256.
  destruct (slen (parsed_name q) <? 256); reflexivity.
Qed.

Lemma mime_view : forall o q,
  (if n_has_mime (create_needle o q) then n_mime (create_needle o q) else "") = n_mime (create_needle o q).
Proof.
  intros o q. cbn [create_needle n_has_mime n_mime].
  destruct (slen (parsed_mime o q) <? 256); reflexivity.
Qed.

Lemma gz_now_compressed : forall o n, n_compressed n = true -> repl_gz_now o n = false.
Proof. intros o n H. unfold repl_gz_now. rewrite H. reflexivity. Qed.

Section Replica.
Variable o : oracles.
Variable q : request.
Local Notation Np := (create_needle o q).
Local Notation Rq := (replicate o (create_needle o q)).
Local Notation Nr := (create_needle o (replicate o (create_needle o q))).

Lemma replica_name_view :
  (if n_has_name Nr then n_name Nr else "") = (if n_has_name Np then n_name Np else "").
Proof. rewrite !name_view, parsed_name_replicate. apply keep256_idem. Qed.

Lemma replica_pairs_view :
  (if n_has_pairs Nr then n_pairs Nr else []) = (if n_has_pairs Np then n_pairs Np else []).
Proof.
  cbn [create_needle replicate n_has_pairs n_pairs q_pairs].
  destruct (q_pairs q); reflexivity.
Qed.

Lemma replica_lastmod : n_lastmod Nr = n_lastmod Np.
Proof.
  cbn [create_needle replicate n_lastmod q_ts].
  destruct (q_ts q =? 0) eqn:E; [reflexivity|]. rewrite E. reflexivity.
Qed.

Lemma replica_ttl_view :
  (if n_ttl_set Nr then ttl_norm (n_ttl Nr) else (0, 0)) = (if n_ttl_set Np then ttl_norm (n_ttl Np) else (0, 0)).
Proof.
  cbn [create_needle replicate n_ttl_set n_ttl q_ttl_set q_ttl].
  destruct (q_ttl_set q); [|reflexivity]. cbv iota.
  remember (ttl_norm (q_ttl q)) as T eqn:ET.
  destruct ((fst T =? 0) && (snd T =? 0)) eqn:E; cbn [negb]; cbv iota; subst T.
  - symmetry. apply ttl_norm_zero. exact E.
  - apply ttl_norm_idem.
Qed.

(* two unfoldings of [replicate], used as rewrite rules *)
Lemma replica_compressed : n_compressed Nr = n_compressed Np || repl_gz_now o Np.
Proof. reflexivity. Qed.

Lemma replica_body :
  n_body Nr = if repl_gz_now o Np
              then {| b_len := b_len (n_body Np); b_crc := b_crc (n_body Np); b_gz := true |}
              else n_body Np.
Proof. reflexivity. Qed.

(* the decoded content: a body the replication client gzips decodes to the same bytes *)
Lemma replica_content :
  (if n_compressed Nr then b_gz (n_body Nr) else true) = (if n_compressed Np then b_gz (n_body Np) else true) /\
  b_len (n_body Nr) = b_len (n_body Np) /\ b_crc (n_body Nr) = b_crc (n_body Np).
Proof.
  rewrite replica_compressed, replica_body. destruct (n_compressed Np) eqn:E.
  - rewrite (gz_now_compressed o _ E). cbn [orb]. auto.
  - cbn [orb]. destruct (repl_gz_now o Np); cbn [b_len b_crc b_gz]; auto.
Qed.

Lemma replica_body_nonempty : body_empty (n_body Np) = false -> body_empty (n_body Nr) = false.
Proof.
  intros H. rewrite replica_body. destruct (repl_gz_now o Np); [reflexivity | exact H].
Qed.

(* trigger 0 says exactly that the payload is not empty and the replica derives another
   mime type than the primary keeps *)
Lemma trig_mime_spec :
  trig_mime o q = negb (body_empty (n_body Np)) && negb (String.eqb (n_mime Nr) (n_mime Np)).
Proof.
  unfold trig_mime. cbv zeta. rewrite <- andb_assoc. f_equal.
  (* the type the replication client attaches, and the one the replica's parser expects *)
  set (t := if String.eqb (repl_mtype1 o Np) "" then tbe o (ext_filepath (n_name Np)) else repl_mtype1 o Np).
  set (e := tbe o (ext_lastindex (parsed_name Rq))).
  assert (H1 : n_mime Nr = keep256 (if n_cm Np then "" else
                 if negb (String.eqb t "") && negb (String.eqb t octet) && negb (String.eqb e t) then t else ""))
    by reflexivity.
  rewrite H1. clear H1.
  destruct (n_cm Np) eqn:Ecm; cbn [negb andb].
  - (* chunk manifest: neither side keeps a mime *)
    assert (E0 : n_mime Np = "").
    { assert (Hcm0 : n_cm Np = if q_put q then false else q_cm q) by reflexivity.
      rewrite n_mime_keep. unfold parsed_mime. rewrite Hcm0 in Ecm.
      destruct (q_put q); [discriminate|]. rewrite Ecm. reflexivity. }
    rewrite E0. reflexivity.
  - destruct (String.eqb (n_mime Np) octet) eqn:Eoct; cbn [orb].
    + (* the primary keeps application/octet-stream, which the replica drops *)
      apply String.eqb_eq in Eoct.
      assert (Et : t = octet) by (unfold t, repl_mtype1; rewrite Eoct, andb_false_r; reflexivity).
      rewrite Et, Eoct. reflexivity.
    + destruct (String.eqb (n_mime Np) "") eqn:Eempty; cbn [andb].
      * (* the primary keeps no mime: the replica must derive none *)
        apply String.eqb_eq in Eempty. rewrite Eempty, (String.eqb_sym e t).
        destruct (String.eqb_spec t "") as [E1|E1]; [rewrite E1; reflexivity|].
        destruct (String.eqb t octet), (String.eqb t e); cbn [negb andb];
          rewrite ?andb_false_r, ?andb_true_r; reflexivity.
      * (* the primary keeps a mime other than octet-stream: it travels as the part's Content-Type *)
        assert (Et : t = n_mime Np) by (unfold t, repl_mtype1; rewrite Eempty, andb_false_r, Eempty; reflexivity).
        assert (Hext : String.eqb e (n_mime Np) = false).
        { (* the replica sees the same file name, or none *)
          unfold e. rewrite parsed_name_replicate. rewrite n_mime_keep in *.
          unfold parsed_mime in *. destruct (q_put q) eqn:Eput.
          - (* PUT: no file name at all *)
            unfold parsed_name. rewrite Eput. cbn [keep256 slen String.length N.of_nat N.ltb N.compare ext_lastindex tbe].
            rewrite String.eqb_sym. exact Eempty.
          - destruct (q_cm q); [cbv in Eempty; discriminate|].
            destruct (negb (String.eqb (q_ctype q) "") && negb (String.eqb (q_ctype q) octet)
                      && negb (String.eqb (tbe o (ext_lastindex (parsed_name q))) (q_ctype q))) eqn:Econd;
              [|cbv in Eempty; discriminate].
            apply andb_true_iff in Econd. destruct Econd as [_ Hne]. apply negb_true_iff in Hne.
            unfold keep256 in Eempty |- *.
            destruct (slen (q_ctype q) <? 256); [|cbv in Eempty; discriminate].
            destruct (slen (parsed_name q) <? 256); [exact Hne|].
            cbn [ext_lastindex tbe]. rewrite String.eqb_sym. exact Eempty. }
        rewrite Et, Eempty, Eoct, Hext. cbn [negb andb].
        rewrite n_mime_keep, keep256_idem, String.eqb_refl. reflexivity.
Qed.

Lemma replica_mime :
  body_empty (n_body Np) = false ->
  trig_mime o q = false ->
  n_mime Nr = n_mime Np.
Proof.
  intros Hb H. rewrite trig_mime_spec, Hb in H. apply negb_false_iff in H. apply String.eqb_eq. exact H.
Qed.

End Replica.
