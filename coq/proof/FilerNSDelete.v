(* Proofs about model/FilerNS.v (C18): DeleteEntryMetaAndData. *)
From Coq Require Import List NArith Bool String Arith Lia Permutation.
From SW Require Import model.FilerNS proof.FilerNSBase proof.FilerNSCreate.
Import ListNotations.
Local Open Scope list_scope.

Lemma is_prefix_of_child : forall (d : path) n q, is_prefix (d ++ [n]) q = true -> is_prefix d q = true.
Proof.
  intros d n q H. apply is_prefix_true in H. destruct H as [r Hr]. apply is_prefix_true.
  exists ([n] ++ r). rewrite app_assoc. exact Hr.
Qed.

(* the state of the loop of doBatchDeleteFolderMetaAndData in closed form: on top of g, everything
   below the children of d whose names are in D is gone *)
Definition emptied (d : path) (D : name -> bool) (g : path -> option entry) (q : path) : option entry :=
  match strip_prefix d q with
  | Some (n :: _ :: _) => if D n then None else g q
  | _ => g q
  end.

(* emptying one more child, n, is adding n to D *)
Lemma emptied_step : forall d D g n q,
  match strip_prefix (d ++ [n]) q with Some (_ :: _) => None | _ => emptied d D g q end =
  emptied d (fun m => String.eqb n m || D m) g q.
Proof.
  intros. rewrite strip_prefix_child. unfold emptied.
  destruct (strip_prefix d q) as [[|m [|m' r]]|]; try reflexivity; destruct (String.eqb n m); reflexivity.
Qed.

Lemma batch_delete_recursive_ok : forall f s d ign e, wf s -> d <> [] -> find s d = Some e ->
  (forall q x, find s q = Some x -> is_prefix d q = true -> List.length q < List.length d + f) ->
  exists s', batch_delete f s d true ign = (s', OK) /\ wf s' /\
    forall q, find s' q = match strip_prefix d q with Some (_ :: _) => None | _ => find s q end.
Proof.
  induction f as [|f IH]; intros s d ign e Hwf Hd He Hb.
  - exfalso. specialize (Hb d e He (is_prefix_refl d)). lia.
  - cbn [batch_delete]. cbn [negb andb].
    set (step := fun (s0 : store) (c : name * entry) =>
                   if e_dir (snd c)
                   then let (s2, r2) := batch_delete f s0 (child d (fst c)) true ign in
                        if is_fuel r2 then (s2, r2) else if is_err r2 && negb ign then (s2, r2) else (s2, OK)
                   else (s0, OK)).
    assert (Hloop : forall cs D s0, (forall c, In c cs -> find s (d ++ [fst c]) = Some (snd c)) ->
              wf s0 -> (forall q, find s0 q = emptied d D (find s) q) ->
              exists s1 D', iter_err step cs s0 = (s1, OK) /\ wf s1 /\
                (forall q, find s1 q = emptied d D' (find s) q) /\
                (forall m, D m = true \/ (exists ce, In (m, ce) cs /\ e_dir ce = true) -> D' m = true)).
    { induction cs as [|[n ce] cs IHcs]; intros D s0 Hcs Hwf0 Hf0.
      { exists s0, D. split; [reflexivity|]. split; [exact Hwf0|]. split; [exact Hf0|].
        intros m [H|[ce [[] _]]]. exact H. }
      assert (Hcs' : forall c, In c cs -> find s (d ++ [fst c]) = Some (snd c)) by (intros; apply Hcs; now right).
      cbn [iter_err]. unfold step at 1. cbn [fst snd]. destruct (e_dir ce) eqn:Edir.
      - assert (Hc0 : find s0 (d ++ [n]) = Some ce).
        { rewrite Hf0. unfold emptied. rewrite strip_prefix_app. apply (Hcs (n, ce)). now left. }
        destruct (IH s0 (child d n) ign ce Hwf0 (snoc_nonnil d n) Hc0) as [s1 [Hbd [Hwf1 Hf1]]].
        { intros q x Hq Hp. unfold child in *. rewrite app_length. simpl.
          assert (Hq' : find s q = Some x).
          { rewrite Hf0 in Hq. unfold emptied in Hq.
            destruct (strip_prefix d q) as [[|m [|? ?]]|]; try exact Hq. destruct (D m); [discriminate|exact Hq]. }
          specialize (Hb q x Hq' (is_prefix_of_child _ _ _ Hp)). lia. }
        rewrite Hbd. cbn [is_fuel is_err andb].
        destruct (IHcs (fun m => String.eqb n m || D m) s1 Hcs' Hwf1) as [s2 [D' [Hit [Hwf2 [Hf2 HD']]]]].
        { intro q. rewrite Hf1, <- emptied_step. unfold child.
          destruct (strip_prefix (d ++ [n]) q) as [[|? ?]|]; auto. }
        exists s2, D'. split; [exact Hit|]. split; [exact Hwf2|]. split; [exact Hf2|].
        intros m [Hm|[ce' [[E|Hin] Hd']]]; apply HD'.
        + left. now rewrite Hm, orb_true_r.
        + inversion E; subst. left. now rewrite String.eqb_refl.
        + right. eauto.
      - cbn [is_err]. destruct (IHcs D s0 Hcs' Hwf0 Hf0) as [s2 [D' [Hit [Hwf2 [Hf2 HD']]]]].
        exists s2, D'. split; [exact Hit|]. split; [exact Hwf2|]. split; [exact Hf2|].
        intros m [Hm|[ce' [[E|Hin] Hd']]]; apply HD'; [now left|inversion E; congruence|right; eauto]. }
    destruct (Hloop (list_children s d) (fun _ => false) s) as [s1 [D [Hit [Hwf1 [Hf1 HD]]]]].
    + intros [n ce] Hin. apply list_children_spec in Hin; [exact Hin|apply Hwf].
    + exact Hwf.
    + intro q. unfold emptied. destruct (strip_prefix d q) as [[|? [|? ?]]|]; reflexivity.
    + rewrite Hit. cbn [is_err].
      (* every entry two or more levels below d is gone: its ancestor below d is a directory, hence done *)
      assert (Hgone : forall n m r, find s1 (d ++ n :: m :: r) = None).
      { intros n m r. rewrite Hf1. unfold emptied. rewrite strip_prefix_app.
        destruct (find s (d ++ n :: m :: r)) as [x|] eqn:Ex; [|now destruct (D n)].
        rewrite (app_cons_assoc d) in Ex.
        destruct (tree_ok_ancestors s (proj2 Hwf) (m :: r) (d ++ [n]) x Ex (snoc_nonnil d n)) as [de [Hde Hdd]]; [discriminate|].
        rewrite (HD n); [reflexivity|]. right. exists de. split; [|exact Hdd].
        apply list_children_spec; [apply Hwf|exact Hde]. }
      eexists. split; [reflexivity|]. split.
      * split; [apply keys_filter_NoDup, Hwf1|].
        unfold delete_folder_children.
        apply (tree_ok_filter (fun k => negb (is_child_of d k))); [apply Hwf1|].
        intros d0 n0 e0 Hf0 Hk. destruct d0 as [|a0 d0']; auto. right.
        destruct (is_child_of d (a0 :: d0')) eqn:Ec; auto.
        apply is_child_of_spec in Ec. destruct Ec as [m Em]. rewrite Em in Hf0.
        rewrite <- app_assoc in Hf0. simpl in Hf0. rewrite Hgone in Hf0. discriminate.
      * intro q. rewrite find_delete_folder_children. unfold is_child_of.
        destruct (strip_prefix d q) as [[|m [|m' r]]|] eqn:Es.
        -- rewrite Hf1. unfold emptied. now rewrite Es.
        -- reflexivity.
        -- apply strip_prefix_spec in Es. subst q. apply Hgone.
        -- rewrite Hf1. unfold emptied. now rewrite Es.
Qed.

Lemma batch_delete_nonrec_empty : forall f s d ign, list_children s d = [] ->
  batch_delete (S f) s d false ign = (delete_folder_children s d, OK).
Proof. intros f s d ign H. cbn [batch_delete]. rewrite H. reflexivity. Qed.

Lemma batch_delete_nonrec_nonempty : forall f s d ign, list_children s d <> [] ->
  batch_delete (S f) s d false ign = (s, ENotEmpty).
Proof. intros f s d ign H. cbn [batch_delete]. destruct (list_children s d); [congruence|reflexivity]. Qed.

Lemma find_ref_remove_subtree : forall s p q,
  find (ref_remove_subtree s p) q = if is_prefix p q then None else find s q.
Proof.
  intros. unfold ref_remove_subtree. rewrite (find_filter_key (fun k => negb (is_prefix p k))).
  destruct (is_prefix p q); reflexivity.
Qed.

Lemma ref_remove_subtree_wf : forall s p, wf s -> wf (ref_remove_subtree s p).
Proof.
  intros s p Hwf. split; [apply keys_filter_NoDup, Hwf|].
  unfold ref_remove_subtree. apply (tree_ok_filter (fun k => negb (is_prefix p k))); [apply Hwf|].
  intros d n e Hf Hk. destruct d as [|a d]; auto. right.
  apply negb_true_iff. apply negb_true_iff in Hk. apply is_prefix_false. intros r Hr.
  rewrite is_prefix_false in Hk. apply (Hk (r ++ [n])). rewrite Hr, <- app_assoc. reflexivity.
Qed.

Lemma wf_equiv : forall a b, NoDup (keys b) -> equiv a b -> wf a -> wf b.
Proof. intros a b Hnd He [_ Ht]. split; auto. eapply tree_ok_equiv; eauto. Qed.

Lemma has_children_list : forall s d, NoDup (keys s) ->
  (has_children s d = false <-> list_children s d = []).
Proof. intros. rewrite has_children_false, list_children_nil; tauto. Qed.

Lemma no_children_nothing_below : forall s p, tree_ok s -> p <> [] ->
  (forall n, find s (p ++ [n]) = None) -> forall m r, find s (p ++ m :: r) = None.
Proof.
  intros s p Hs Hp Hn m r.
  replace (p ++ m :: r) with ((p ++ [m]) ++ r) by (rewrite <- app_assoc; reflexivity).
  apply tree_ok_absent_below; auto. apply snoc_nonnil.
Qed.

(* removing p from a store that has lost everything strictly below p, and nothing else, is the
   reference delete *)
Lemma delete_one_subtree : forall s s1 p, wf s -> NoDup (keys s1) ->
  (forall q, find s1 q = match strip_prefix p q with Some (_ :: _) => None | _ => find s q end) ->
  wf (delete_one s1 p) /\ equiv (delete_one s1 p) (ref_remove_subtree s p).
Proof.
  intros s s1 p Hwf Hnd Hf.
  assert (Heq : equiv (delete_one s1 p) (ref_remove_subtree s p)).
  { intro q. unfold delete_one. rewrite find_remove, find_ref_remove_subtree, Hf. unfold is_prefix.
    destruct (path_eqb_spec p q) as [<-|Hpq].
    - rewrite strip_prefix_refl. reflexivity.
    - destruct (strip_prefix p q) as [[|m r]|] eqn:Es; auto.
      apply strip_prefix_spec in Es. rewrite app_nil_r in Es. congruence. }
  split; [|exact Heq].
  eapply wf_equiv; [apply keys_filter_NoDup, Hnd|apply equiv_sym, Heq|apply ref_remove_subtree_wf, Hwf].
Qed.

(* ignoreRecursiveError is without effect in the model: the store never fails, so no sub-delete can *)
Theorem delete_entry_ref : forall s p rec ign, wf s ->
  wf (fst (delete_entry s p rec ign)) /\
  snd (delete_entry s p rec ign) = snd (ref_delete s p rec) /\
  equiv (fst (delete_entry s p rec ign)) (fst (ref_delete s p rec)).
Proof.
  intros s p rec ign Hwf. unfold delete_entry, delete_entry_fuel, ref_delete.
  destruct (path_eqb_spec p []) as [->|Hp]; [cbn [fst snd]; split; [assumption|split; [reflexivity|apply equiv_refl]]|].
  destruct p as [|a0 p0] eqn:Ep; [congruence|]. rewrite <- Ep in *. clear Ep a0 p0.
  rewrite find_entry_nonroot by assumption.
  destruct (find s p) as [e|] eqn:Ef; [|cbn [fst snd]; split; [assumption|split; [reflexivity|apply equiv_refl]]].
  destruct (e_dir e) eqn:Ed; cbn [andb].
  - destruct rec; cbn [negb andb].
    + 
      destruct (batch_delete_recursive_ok (default_fuel s) s p ign e Hwf Hp Ef) as [s1 [Hbd [Hwf1 Hf1]]].
      { intros q x Hq _. apply max_len_find in Hq. unfold default_fuel. lia. }
      rewrite Hbd. cbn [is_err fst snd].
      destruct (delete_one_subtree s s1 p Hwf (proj1 Hwf1) Hf1); auto.
    + 
      unfold default_fuel. destruct (has_children s p) eqn:Hc.
      * rewrite batch_delete_nonrec_nonempty.
        -- cbn [is_err fst snd]. split; [assumption|split; [reflexivity|apply equiv_refl]].
        -- intro E. apply has_children_list in E; [congruence|apply Hwf].
      * rewrite batch_delete_nonrec_empty by (apply has_children_list; [apply Hwf|exact Hc]).
        cbn [is_err fst snd].
        destruct (delete_one_subtree s (delete_folder_children s p) p Hwf (keys_filter_NoDup _ s (proj1 Hwf))); [|auto].
        intro q. rewrite find_delete_folder_children. unfold is_child_of.
        destruct (strip_prefix p q) as [[|m [|m' r]]|] eqn:Es; auto.
        apply strip_prefix_spec in Es. subst q.
        apply (no_children_nothing_below s p (proj2 Hwf) Hp). now apply has_children_false.
  - (* a file: nothing is below it *)
    cbn [fst snd]. destruct (delete_one_subtree s s p Hwf (proj1 Hwf)); [|auto].
    intro q. destruct (strip_prefix p q) as [[|m r]|] eqn:Es; auto.
    apply strip_prefix_spec in Es. subst q. eapply tree_ok_file_below; eauto; [apply Hwf|discriminate].
Qed.

Lemma delete_entry_wf : forall s p rec ign, wf s -> wf (fst (delete_entry s p rec ign)).
Proof. intros. apply delete_entry_ref. assumption. Qed.

Theorem delete_nonrec_nonempty : forall s p e ign, wf s -> p <> [] ->
  find s p = Some e -> e_dir e = true -> has_children s p = true ->
  delete_entry s p false ign = (s, ENotEmpty).
Proof.
  intros s p e ign Hwf Hp Hf Hd Hc. unfold delete_entry, delete_entry_fuel.
  destruct p as [|a0 p0] eqn:Ep.
  - congruence.
  - rewrite <- Ep in *. rewrite find_entry_nonroot by congruence. rewrite Hf, Hd.
    unfold default_fuel. rewrite batch_delete_nonrec_nonempty; [reflexivity|].
    intro E. apply has_children_list in E; [congruence|apply Hwf].
Qed.

Theorem delete_removes_subtree : forall s p rec ign s', wf s -> p <> [] ->
  delete_entry s p rec ign = (s', OK) ->
  forall q, find s' q = if is_prefix p q then None else find s q.
Proof.
  intros s p rec ign s' Hwf Hp H q.
  destruct (delete_entry_ref s p rec ign Hwf) as [_ [Hr He]]. rewrite H in *. simpl in *.
  rewrite He. unfold ref_delete in *. destruct p as [|a0 p0] eqn:Ep; [congruence|]. rewrite <- Ep in *.
  destruct (find s p) as [e|]; [|discriminate].
  destruct (e_dir e && negb rec && has_children s p); [discriminate|].
  simpl. apply find_ref_remove_subtree.
Qed.

Theorem delete_rec_succeeds : forall s p e ign, wf s -> p <> [] -> find s p = Some e ->
  snd (delete_entry s p true ign) = OK.
Proof.
  intros s p e ign Hwf Hp Hf. destruct (delete_entry_ref s p true ign Hwf) as [_ [Hr _]]. rewrite Hr.
  unfold ref_delete. destruct p as [|a0 p0] eqn:Ep; [congruence|]. rewrite <- Ep in *.
  rewrite Hf. rewrite andb_false_r. reflexivity.
Qed.
