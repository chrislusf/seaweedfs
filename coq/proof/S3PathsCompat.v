(* C29: a syntactic sufficient condition for the walk-based triggers of model/S3Paths.v.  On
   the routes whose strings are keys, upload ids and copy sources, no ".." segment in any
   string implies req_climbs = false, and no ".uploads" segment besides implies
   req_enters_uploads = false; so the partial theorems of S3PathsProofs.v apply. *)
From Coq Require Import List NArith Bool String Ascii Arith Lia.
From SW Require Import proof.ListFacts model.S3List model.S3Paths proof.S3PathsProofs.
Import ListNotations.
Local Open Scope list_scope.
Local Open Scope string_scope.

Definition old_route (r : route) : bool :=
  match r with
  | RList _ _ _ _ | RListUploads | RPutBucket | RDeleteBucket | RHeadBucket | RPostPolicy => false
  | _ => true
  end.

Section NoSeg.
  Variable bad : string -> bool.          (* the segment names that do not occur *)
  Variable forbid : string -> bool.
  Hypothesis bad_dotdot : bad ".." = true.
  Hypothesis forbid_bad : forall s, forbid s = true -> bad s = true.
  Hypothesis bad_empty : bad "" = false.
  Hypothesis bad_dot : bad "." = false.

  (* no segment of the list, resp. of the string split at "/", is one of the absent names *)
  Definition okl (l : list string) : Prop := forall s, In s l -> bad s = false.
  Definition free (s : string) : Prop := okl (split_slash s).

  Lemma okl_esc : forall L st, okl L -> escapes forbid st L = false.
  Proof.
    induction L as [|s L IH]; intros st O; [reflexivity|].
    assert (Bs : bad s = false) by (apply O; left; reflexivity).
    assert (OL : okl L) by (intros x Hx; apply O; right; exact Hx).
    simpl. destruct (skip_seg s); [apply IH; exact OL|].
    destruct (s =? "..") eqn:ED.
    - apply String.eqb_eq in ED. subst s. rewrite bad_dotdot in Bs. discriminate.
    - assert (Fs : forbid s = false).
      { destruct (forbid s) eqn:EF; [|reflexivity]. rewrite (forbid_bad s EF) in Bs. discriminate. }
      destruct st as [|t st']; [rewrite Fs|]; apply IH; exact OL.
  Qed.

  Lemma free_esc : forall s, free s -> escapes forbid [] (split_slash s) = false.
  Proof. intros s H. apply okl_esc. exact H. Qed.

  Lemma okl_nodd : forall l, okl l -> nodd l.
  Proof. intros l H s Hs E. subst s. rewrite (H _ Hs) in bad_dotdot. discriminate. Qed.

  Lemma okl_app : forall a b, okl a -> okl b -> okl (a ++ b).
  Proof. intros a b Ha Hb s Hs. apply in_app_or in Hs. destruct Hs; [apply Ha | apply Hb]; assumption. Qed.

  Lemma okl_app_l : forall a b, okl (a ++ b) -> okl a.
  Proof. intros a b H s Hs. apply H. apply in_or_app. left. exact Hs. Qed.

  Lemma okl_app_r : forall a b, okl (a ++ b) -> okl b.
  Proof. intros a b H s Hs. apply H. apply in_or_app. right. exact Hs. Qed.

  Lemma okl_one : forall s, bad s = false -> okl [s].
  Proof. intros s H x [E|[]]. subst x. exact H. Qed.

  Lemma okl_cons : forall s l, bad s = false -> okl l -> okl (s :: l).
  Proof. intros s l H O x [E|Hx]; [subst x; exact H | exact (O x Hx)]. Qed.

  Lemma free_slash : forall k, free (String slash k) <-> free k.
  Proof.
    intros k. unfold free. change (String slash k) with ("" ++ String slash k). rewrite split_app_slash. simpl.
    split; intros H.
    - intros x Hx. apply H. right. exact Hx.
    - apply okl_cons; assumption.
  Qed.

  Lemma free_norm_object : forall o, free o -> free (norm_object o).
  Proof.
    intros o H. unfold norm_object. destruct (starts_with_slash o); [exact H|].
    change ("/" ++ o) with (String slash o). apply free_slash. exact H.
  Qed.

  Lemma okl_trim : forall s, okl (split_slash s) -> okl (split_slash (trim_leading_slash s)).
  Proof.
    intros s O. destruct s as [|c r]; [exact O|]. simpl. destruct (Ascii.eqb c slash) eqn:E; [|exact O].
    apply Ascii.eqb_eq in E. subst c.
    change (String slash r) with ("" ++ String slash r) in O. rewrite split_app_slash in O. exact (okl_app_r _ _ O).
  Qed.

  Lemma okl_split_join : forall L, okl L -> Forall (fun s => no_slash s = true) L -> okl (split_slash (join_slash L)).
  Proof.
    intros L O N. destruct L as [|a L'].
    - simpl. apply okl_one. exact bad_empty.
    - rewrite split_join; [exact O | discriminate | exact N].
  Qed.

  Lemma filter_keep_props : forall S, okl S -> Forall (fun s => no_slash s = true) S ->
    okl (filter keep S) /\ Forall (fun s => no_slash s = true) (filter keep S).
  Proof.
    intros S O N. split.
    - intros s Hs. apply filter_In in Hs. apply O. exact (proj1 Hs).
    - apply Forall_forall. intros s Hs. apply filter_In in Hs. rewrite Forall_forall in N. apply N. exact (proj1 Hs).
  Qed.

  Lemma okl_clean_any : forall x, okl (split_slash x) -> okl (split_slash (clean x)).
  Proof.
    intros x O.
    assert (N : Forall (fun s => no_slash s = true) (split_slash x)) by (apply Forall_forall; intros s Hs; exact (split_segs_no_slash _ _ Hs)).
    destruct (filter_keep_props _ O N) as [OL NL].
    unfold clean. destruct (starts_with_slash x).
    - rewrite norm_nodd by (apply okl_nodd; exact O).
      change ("/" ++ join_slash (filter keep (split_slash x))) with ("" ++ String slash (join_slash (filter keep (split_slash x)))).
      rewrite split_app_slash. apply okl_app; [apply okl_one; exact bad_empty | apply okl_split_join; assumption].
    - rewrite norm_nodd by (apply okl_nodd; exact O).
      destruct (filter keep (split_slash x)) as [|a L'] eqn:EL.
      + apply okl_one. exact bad_dot.
      + rewrite <- EL. apply okl_split_join; rewrite EL; assumption.
  Qed.

  (* completeMultipartUpload's directory and entry name have no new segments *)
  Lemma free_complete_rel : forall key, free key -> free (complete_rel_dir key ++ "/" ++ path_base key).
  Proof.
    intros key O. unfold free in *.
    assert (OE : okl (split_slash (path_base key))).
    { unfold path_base. destruct (key =? ""); [apply okl_one; exact bad_dot|].
      destruct (last_nonempty (split_slash key)) as [s|] eqn:EL.
      - pose proof (last_nonempty_in _ _ EL) as Hin.
        rewrite (no_slash_split s (split_segs_no_slash _ _ Hin)). apply okl_one. apply O. exact Hin.
      - simpl. intros s [E|[E|[]]]; subst s; exact bad_empty. }
    assert (OD : okl (split_slash (path_dir key))).
    { unfold path_dir. destruct (rcut_slash key) as [[d0 n]|] eqn:R; [|apply okl_one; exact bad_dot].
      apply okl_clean_any. change (d0 ++ "/") with (d0 ++ String slash "").
      rewrite split_app_slash. pose proof (rcut_split _ _ _ R) as S. rewrite S in O.
      apply okl_app; [exact (okl_app_l _ _ O) | apply okl_one; exact bad_empty]. }
    assert (ODD : okl (split_slash (complete_rel_dir key))).
    { unfold complete_rel_dir. apply okl_trim. destruct (path_dir key =? "."); [apply okl_one; exact bad_empty | exact OD]. }
    rewrite split_app_sep. apply okl_app; assumption.
  Qed.

  Lemma dec1_nopct : forall pre t, no_pct pre = true -> dec1 (pre ++ t) = pre ++ dec1 t.
  Proof.
    intros pre t NP. unfold dec1. rewrite (pct_decode_nopct pre t NP). destruct (pct_decode t); reflexivity.
  Qed.

  Lemma free_dec1_tail : forall pre k, no_pct pre = true ->
    free (dec1 (pre ++ String slash k)) -> free (dec1 (String slash k)).
  Proof.
    intros pre k NP H. rewrite (dec1_nopct pre _ NP) in H. rewrite dec1_slash in *.
    apply free_slash. unfold free in H. rewrite split_app_slash in H. exact (okl_app_r _ _ H).
  Qed.

  (* what the syntactic trigger says: none of the strings an object route builds its paths
     from (obj_paths) has a segment among the absent names *)
  Definition seg_free (q : req) : Prop := forall s, In s (obj_paths q) -> free s.

  Lemma src_rel_empty : forall q, (q_src q =? "") = true -> dec1 (src_rel q) = "/".
  Proof. intros q H. apply String.eqb_eq in H. unfold src_rel. rewrite H. reflexivity. Qed.

  Definition esc_free (s : string) : Prop := escapes forbid [] (split_slash s) = false.

  Lemma cover_object : forall q, seg_free q -> esc_free (rel_object q).
  Proof.
    intros q H. apply free_esc. unfold rel_object.
    apply free_norm_object. apply H. left. reflexivity.
  Qed.

  Lemma cover_object_dec : forall q, bad_bucket (q_bucket q) = false -> seg_free q -> esc_free (dec1 (rel_object q)).
  Proof.
    intros q G H. apply free_esc. unfold rel_object.
    destruct (norm_object_form (q_object q)) as [k Ek].
    assert (A : free (dec1 (bucket_dir (q_bucket q) ++ norm_object (q_object q)))) by (apply H; right; left; reflexivity).
    rewrite Ek in *.
    destruct (good_spec _ G) as [_ [_ NP]].
    exact (free_dec1_tail (bucket_dir (q_bucket q)) k (no_pct_bucket_dir _ NP) A).
  Qed.

  Lemma cover_src : forall q, ((q_src q =? "") = false -> bad_bucket (src_bucket q) = false) ->
    seg_free q -> esc_free (dec1 (src_rel q)).
  Proof.
    intros q GS H. destruct (q_src q =? "") eqn:E.
    - unfold esc_free. rewrite (src_rel_empty q E). reflexivity.
    - apply free_esc.
      assert (A : free (dec1 (src_path q))) by (apply H; unfold obj_paths; rewrite E; right; right; left; reflexivity).
      pose proof (GS eq_refl) as G.
      unfold src_path in A. unfold src_bucket in G. unfold src_rel.
      destruct (src_form (dec1 (q_src q))) as [sb [o ES]]. rewrite ES in *. simpl in *.
      destruct (good_spec _ G) as [_ [_ NP]].
      exact (free_dec1_tail (bucket_dir sb) o (no_pct_bucket_dir _ NP) A).
  Qed.

  Lemma cover_keys : forall q k, seg_free q -> In k (q_keys q) -> esc_free k.
  Proof.
    intros q k H Hk. apply free_esc. apply H.
    right. right. apply in_or_app. right. exact Hk.
  Qed.
  Lemma cover_object_rels : forall q, object_route (q_route q) = true -> bad_bucket (q_bucket q) = false ->
    ((q_src q =? "") = false -> bad_bucket (src_bucket q) = false) -> seg_free q ->
    forall s, In s (rels q) -> esc_free s.
  Proof.
    intros q OB G GS OF s Hs.
    pose proof (cover_object q OF) as CO. pose proof (cover_object_dec q G OF) as CD.
    pose proof (cover_src q GS OF) as CS.
    unfold rels in Hs. destruct (q_route q); try discriminate OB; simpl in Hs;
      repeat (destruct Hs as [Hs|Hs]; [subst s; assumption|]); try destruct Hs.
    exact (cover_keys q s OF Hs).
  Qed.
End NoSeg.

(* the absent segment names of the two instances: "..", and ".." or ".uploads" *)
Definition bad_dd (s : string) : bool := s =? "..".
Definition bad_up (s : string) : bool := (s =? "..") || (s =? ".uploads").

Lemma has_seg_okl : forall x s, has_seg x s = false -> forall y, In y (split_slash s) -> (y =? x) = false.
Proof.
  intros x s H y Hy. unfold has_seg in H.
  destruct (y =? x) eqn:E; [|reflexivity]. apply String.eqb_eq in E. subst y.
  assert (existsb (String.eqb x) (split_slash s) = true).
  { apply existsb_exists. exists x. split; [exact Hy | apply String.eqb_refl]. }
  rewrite H in H0. discriminate.
Qed.

Lemma free_dd_of : forall s, has_dotdot s = false -> free bad_dd s.
Proof. intros s H y Hy. unfold bad_dd. exact (has_seg_okl ".." s H y Hy). Qed.

Lemma free_up_of : forall s, has_dotdot s = false -> has_seg ".uploads" s = false -> free bad_up s.
Proof.
  intros s H1 H2 y Hy. unfold bad_up.
  rewrite (has_seg_okl ".." s H1 y Hy). rewrite (has_seg_okl ".uploads" s H2 y Hy). reflexivity.
Qed.

Lemma forbid_none_bad : forall bad s, forbid_none s = true -> bad s = true.
Proof. intros bad s H. discriminate. Qed.

Lemma forbid_uploads_bad : forall s, forbid_uploads s = true -> bad_up s = true.
Proof. intros s H. unfold forbid_uploads in H. unfold bad_up. rewrite H. apply orb_true_r. Qed.

Lemma existsb_app_false : forall A (f : A -> bool) l1 l2, existsb f (l1 ++ l2) = false -> existsb f l1 = false /\ existsb f l2 = false.
Proof. intros A f l1 l2 H. rewrite existsb_app in H. apply orb_false_iff in H. exact H. Qed.

Lemma seg_free_dd : forall q, req_dotdot q = false -> seg_free bad_dd q.
Proof.
  intros q T s Hs. unfold req_dotdot in T. apply orb_false_iff in T. destruct T as [T1 _].
  apply existsb_app_false in T1. apply free_dd_of. exact (existsb_false_in _ _ s (proj1 T1) Hs).
Qed.

Lemma seg_src_good : forall q, req_dotdot q = false -> (q_src q =? "") = false -> bad_bucket (src_bucket q) = false.
Proof.
  intros q H E. unfold req_dotdot in H. apply orb_false_iff in H. destruct H as [_ H].
  rewrite E in H. simpl in H. exact H.
Qed.

Lemma seg_src_bad : forall q, req_dotdot q = false -> src_bad q = false.
Proof.
  intros q T. unfold src_bad.
  assert (K : negb (src_bucket q =? "") && bad_bucket (src_bucket q) = false).
  { destruct (q_src q =? "") eqn:E.
    - apply String.eqb_eq in E. unfold src_bucket. rewrite E. reflexivity.
    - rewrite (seg_src_good q T E). apply andb_false_r. }
  destruct (q_route q); try reflexivity; exact K.
Qed.

Lemma up_rel_free_dd : forall q, has_dotdot (q_upload q) = false -> climbs (up_rel q) = false.
Proof.
  intros q H. unfold climbs, up_rel. rewrite split_uploads_rel.
  apply (okl_esc bad_dd forbid_none eq_refl (forbid_none_bad bad_dd)).
  apply okl_cons; [reflexivity | exact (free_dd_of _ H)].
Qed.

Lemma part_rel_free_dd : forall q, bad_bucket (q_bucket q) = false ->
  has_dotdot (dec1 (uploads_dir (q_bucket q) ++ "/" ++ q_upload q ++ "/" ++ q_part q)) = false ->
  climbs (dec1 (part_rel q)) = false.
Proof.
  intros q G H. unfold climbs, part_rel. rewrite dec1_uploads_rel. rewrite split_uploads_rel.
  apply (okl_esc bad_dd forbid_none eq_refl (forbid_none_bad bad_dd)).
  apply okl_cons; [reflexivity|].
  pose proof (free_dd_of _ H) as A.
  destruct (good_spec _ G) as [_ [_ NP]].
  change (uploads_dir (q_bucket q) ++ "/" ++ q_upload q ++ "/" ++ q_part q)
    with (uploads_dir (q_bucket q) ++ String slash (q_upload q ++ "/" ++ q_part q)) in A.
  pose proof (free_dec1_tail bad_dd eq_refl _ _ (no_pct_uploads _ NP) A) as B.
  rewrite dec1_slash in B. exact (proj1 (free_slash bad_dd eq_refl _) B).
Qed.

Theorem dotdot_covers_climbs : forall q,
  old_route (q_route q) = true -> bad_bucket (q_bucket q) = false ->
  req_dotdot q = false -> req_climbs q = false.
Proof.
  intros q OR G T. pose proof (seg_free_dd q T) as OF.
  unfold req_climbs. rewrite (seg_src_bad q T), orb_false_r. apply existsb_false_iff.
  destruct (object_route (q_route q)) eqn:OB;
    [exact (cover_object_rels bad_dd forbid_none eq_refl (forbid_none_bad bad_dd) eq_refl q OB G (seg_src_good q T) OF)|].
  (* the multipart routes: the upload id, the part path, the completed object *)
  pose proof (cover_src bad_dd forbid_none eq_refl (forbid_none_bad bad_dd) eq_refl q (seg_src_good q T) OF) as CS.
  assert (TM : has_dotdot (q_upload q) = false /\
               has_dotdot (dec1 (uploads_dir (q_bucket q) ++ "/" ++ q_upload q ++ "/" ++ q_part q)) = false).
  { unfold req_dotdot in T. apply orb_false_iff in T. destruct T as [T1 _].
    apply existsb_app_false in T1. destruct T1 as [_ TM]. unfold mp_paths in TM. split.
    - apply (existsb_false_in _ _ _ TM). left. reflexivity.
    - apply (existsb_false_in _ _ _ TM). right. left. reflexivity. }
  destruct TM as [TU TP].
  pose proof (up_rel_free_dd q TU) as CU. pose proof (part_rel_free_dd q G TP) as CP.
  assert (CC : climbs (complete_rel q) = false).
  { unfold climbs, complete_rel.
    apply (free_esc bad_dd forbid_none eq_refl (forbid_none_bad bad_dd)).
    apply (free_complete_rel bad_dd eq_refl eq_refl eq_refl).
    unfold rel_object. destruct (norm_object_form (q_object q)) as [k Ek]. rewrite Ek.
    change (trim_leading_slash (String slash k)) with k.
    pose proof (free_norm_object bad_dd eq_refl _ (OF _ (or_introl eq_refl))) as A. rewrite Ek in A.
    exact (proj1 (free_slash bad_dd eq_refl k) A). }
  intros s Hs. unfold rels in Hs.
  destruct (q_route q); try discriminate OR; try discriminate OB; simpl in Hs;
    repeat (destruct Hs as [Hs|Hs]; [subst s; assumption|]); destruct Hs.
Qed.

(* the containment theorem in its purely syntactic form *)
Theorem contained_partial : forall fx q,
  old_route (q_route q) = true ->
  bad_bucket (q_bucket q) = false -> req_dotdot q = false -> all_contained fx q = true.
Proof.
  intros fx q OR G T. pose proof (dotdot_covers_climbs q OR G T) as C.
  apply all_contained_routed; [exact (proj2 (orb_false_elim _ _ G)) | exact C|].
  intros k Hk. exact (cover_keys bad_dd forbid_none eq_refl (forbid_none_bad bad_dd) q k (seg_free_dd q T) Hk).
Qed.

Lemma seg_free_up : forall q, req_dotdot q = false -> existsb (has_seg ".uploads") (obj_paths q) = false ->
  seg_free bad_up q.
Proof.
  intros q T TU s Hs. unfold req_dotdot in T. apply orb_false_iff in T. destruct T as [T1 _].
  apply existsb_app_false in T1.
  apply free_up_of; [exact (existsb_false_in _ _ s (proj1 T1) Hs) | exact (existsb_false_in _ _ s TU Hs)].
Qed.

Theorem uploads_seg_covers_enters : forall q,
  old_route (q_route q) = true -> bad_bucket (q_bucket q) = false ->
  req_dotdot q = false -> req_uploads_seg q = false -> req_enters_uploads q = false.
Proof.
  intros q OR G T TU. unfold req_enters_uploads.
  destruct (object_route (q_route q)) eqn:OB; [|reflexivity]. simpl.
  unfold req_uploads_seg in TU. rewrite OB in TU. simpl in TU.
  rewrite (seg_src_bad q T), orb_false_r. apply existsb_false_iff.
  exact (cover_object_rels bad_up forbid_uploads eq_refl forbid_uploads_bad eq_refl q OB G (seg_src_good q T)
           (seg_free_up q T TU)).
Qed.

Theorem uploads_hidden_partial : forall fx q,
  old_route (q_route q) = true ->
  bad_bucket (q_bucket q) = false -> q_bucket q <> ".uploads" ->
  req_dotdot q = false -> req_uploads_seg q = false -> uploads_hidden fx q = true.
Proof.
  intros fx q OR G NU T TU.
  exact (uploads_hidden_routed fx q (proj2 (orb_false_elim _ _ G)) NU (uploads_seg_covers_enters q OR G T TU)).
Qed.
