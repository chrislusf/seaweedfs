(* C06: rebuildEcFiles regenerates every lost shard byte-identically, relative to
   the Reed-Solomon oracle (MDS law per byte column). *)
From Coq Require Import List ZArith NArith Bool Lia ZifyBool.
From SW Require Import proof.ListFacts model.EC proof.ECProofs proof.ECReadProofs.
Import ListNotations.
Local Open Scope Z_scope.

Lemma list_eq_map_znth {A} (d : A) : forall l, map (fun m => znth l m d) (zrange 0 (zlen l)) = l.
Proof.
  induction l as [|x l IH].
  - reflexivity.
  - rewrite zlen_cons. rewrite zrange_cons by apply zlen_nonneg. cbn [map]. rewrite znth_cons_0. f_equal.
    rewrite <- IH at 2. apply map_zrange_ext. intros t Ht.
    rewrite znth_cons_pos by lia. f_equal. lia.
Qed.

Lemma zlen_slice l start B : 0 <= start -> zlen (slice l start B) = Z.max 0 (Z.min B (zlen l - start)).
Proof.
  intros Hs. unfold slice, zlen. rewrite firstn_length, skipn_length. lia.
Qed.

Lemma znth_slice l start B t d : 0 <= start -> 0 <= t < zlen (slice l start B) ->
  znth (slice l start B) t d = znth l (start + t) d.
Proof.
  intros Hs Ht. rewrite zlen_slice in Ht by lia. unfold slice, znth, zlen in *.
  rewrite nth_firstn_lt by lia. rewrite nth_skipn. f_equal; lia.
Qed.

Definition seg (l : list byte) (a n : Z) : list byte := dslice (fun p => znth l p 0%N) a n.

Lemma seg_full l : seg l 0 (zlen l) = l.
Proof. unfold seg, dslice. apply list_eq_map_znth. Qed.

Lemma slice_seg l start B : 0 <= start ->
  slice l start B = seg l start (Z.max 0 (Z.min B (zlen l - start))).
Proof.
  intros Hs. rewrite <- (zlen_slice l start B Hs).
  rewrite <- (list_eq_map_znth 0%N (slice l start B)) at 1.
  unfold seg, dslice. apply map_zrange_ext. intros t Ht.
  rewrite znth_slice by lia. f_equal; lia.
Qed.

Lemma map_option_apply_mask {A B} (f : A -> B) : forall p l,
  map (option_map f) (apply_mask p l) = apply_mask p (map f l).
Proof.
  induction p as [|b p IH]; intros l; [reflexivity|].
  destruct l as [|x l]; [reflexivity|]. cbn. rewrite IH. destruct b; reflexivity.
Qed.

Lemma znth_apply_mask {A} (d : A) : forall p l i, length p = length l -> 0 <= i < zlen l ->
  znth (apply_mask p l) i None = if znth p i true then Some (znth l i d) else None.
Proof.
  induction p as [|b p IH]; intros l i Hl Hi.
  - destruct l; [unfold zlen in Hi; cbn in Hi; lia|discriminate].
  - destruct l as [|x l]; [discriminate|]. cbn [apply_mask]. rewrite zlen_cons in Hi.
    destruct (Z.eq_dec i 0) as [->|Hi0].
    + rewrite !znth_cons_0. reflexivity.
    + rewrite !znth_cons_pos by lia. apply IH; [cbn in Hl; lia|lia].
Qed.

Lemma length_apply_mask {A} : forall p (l : list A), length p = length l ->
  length (apply_mask p l) = length l.
Proof.
  induction p as [|b p IH]; intros [|x l] H; try discriminate; cbn; [reflexivity|].
  f_equal. apply IH. injection H. auto.
Qed.

Lemma in_apply_mask {A} (x : A) : forall p l, In (Some x) (apply_mask p l) -> In x l.
Proof.
  induction p as [|b p IH]; intros [|y l]; cbn; try tauto.
  intros [H|H]; [destruct b; [left; congruence|discriminate]|right; eauto].
Qed.

Definition has_some {A} (l : list (option A)) : bool :=
  existsb (fun o => match o with Some _ => true | None => false end) l.

Lemma no_some_all_lost {A} : forall p (l : list A), length p = length l ->
  has_some (apply_mask p l) = false -> count_lost p = zlen p.
Proof.
  induction p as [|b p IH]; intros l Hl H; [reflexivity|].
  destruct l as [|x l]; [discriminate|]. cbn in H. destruct b; [discriminate|].
  cbn in H. unfold count_lost in *. cbn [filter negb]. rewrite !zlen_cons. rewrite (IH l); auto.
Qed.

Lemma all_some_map_some {A B} (f : A -> B) : forall l, all_some (map (fun x => Some (f x)) l) = Some (map f l).
Proof. induction l as [|x l IH]; cbn; [reflexivity|]. rewrite IH. reflexivity. Qed.

Lemma read_fold_stuck B start : forall shs st, (forall i, st <> RsGo i) ->
  fold_left (rb_read_step B start) shs st = st.
Proof.
  induction shs as [|sh shs IH]; intros st Hst; [reflexivity|].
  cbn [fold_left]. destruct st as [i| |]; [exfalso; eapply Hst; reflexivity| |]; cbn; apply IH; congruence.
Qed.

(* the per-shard part of the read loop of rebuildEcFiles, the present shards having length len *)
Lemma read_fold B start len : 0 <= start ->
  let n := Z.max 0 (Z.min B (len - start)) in
  forall shs ibds, (forall l, In (Some l) shs -> zlen l = len) ->
  fold_left (rb_read_step B start) shs (RsGo ibds) =
  if has_some shs then
    (if n =? 0 then RsReturn else if (ibds =? 0) || (ibds =? n) then RsGo n else RsErr)
  else RsGo ibds.
Proof.
  intros Hstart n. induction shs as [|sh shs IH]; intros ibds Hlen; [reflexivity|].
  cbn [fold_left has_some existsb]. destruct sh as [l|].
  - cbn [rb_read_step orb]. rewrite zlen_slice by lia. rewrite (Hlen l (or_introl eq_refl)). fold n.
    destruct (n =? 0) eqn:En.
    + apply read_fold_stuck. congruence.
    + destruct (ibds =? 0) eqn:E0.
      * rewrite Z.eqb_refl. rewrite IH by (intros; apply Hlen; right; auto).
        fold (has_some shs). destruct (has_some shs); auto.
        rewrite Z.eqb_refl, orb_true_r. reflexivity.
      * cbn [orb]. destruct (ibds =? n) eqn:E1.
        -- rewrite IH by (intros; apply Hlen; right; auto).
           fold (has_some shs). destruct (has_some shs).
           ++ rewrite E0, E1. reflexivity.
           ++ assert (ibds = n) by lia. subst. reflexivity.
        -- apply read_fold_stuck. congruence.
  - cbn [rb_read_step orb]. apply IH. intros; apply Hlen; right; auto.
Qed.

Lemma len0_fold len : 0 <= len -> forall (shs : list (option (list byte))) acc,
  (forall l, In (Some l) shs -> zlen l = len) ->
  fold_left (fun acc sh => match sh with Some l => Z.max acc (zlen l) | None => acc end) shs acc =
  if has_some shs then Z.max acc len else acc.
Proof.
  intros Hlen. induction shs as [|sh shs IH]; intros acc H; [reflexivity|].
  cbn [fold_left has_some existsb]. destruct sh as [l|].
  - rewrite (H l (or_introl eq_refl)). rewrite IH by (intros; apply H; right; auto).
    fold (has_some shs). cbn [orb]. destruct (has_some shs); lia.
  - cbn [orb]. apply IH. intros; apply H; right; auto.
Qed.

Section RS.
  Variable rs_col : list byte -> list byte.
  Variable rs_rec : list (option byte) -> option (list byte).
  (* Encode yields 4 parity bytes per column *)
  Hypothesis rs_col_len : forall d, length d = 10%nat -> length (rs_col d) = 4%nat.
  (* MDS: any column of data+parity with at most 4 erasures is reconstructed *)
  Hypothesis rs_mds : forall d present, length d = 10%nat -> length present = 14%nat ->
    count_lost present <= 4 -> rs_rec (apply_mask present (d ++ rs_col d)) = Some (d ++ rs_col d).

  (* what generateEcFiles wrote: 14 files of one length, every byte column a codeword *)
  Definition well_coded (shards : list (list byte)) (len : Z) : Prop :=
    length shards = 14%nat /\ 0 <= len /\
    Forall (fun l => zlen l = len) shards /\
    (forall t, 0 <= t < len -> exists d, length d = 10%nat /\ column shards t = d ++ rs_col d).

  Lemma wc_len shards len i : well_coded shards len -> 0 <= i < 14 -> zlen (znth shards i []) = len.
  Proof.
    intros (H14 & _ & Hlen & _) Hi. rewrite Forall_forall in Hlen. apply Hlen, nth_In. lia.
  Qed.

  Lemma all_shards_well_coded dat L S buf D : 0 < buf ->
    exists len, well_coded (all_shards rs_col dat L S buf D) len.
  Proof.
    intros Hbuf.
    set (bs := all_batches buf (encode_layout L S D)).
    set (F := fun (i : Z) (b : batch) =>
                if i <? 10 then data_buf dat D buf i b else parity_buf rs_col dat D buf (i - 10) b).
    assert (HF : forall i b, zlen (F i b) = buf).
    { intros i [bstart bsz]. unfold F, data_buf, parity_buf, read_zfill.
      destruct (i <? 10); rewrite zlen_map; apply zlen_zrange; lia. }
    assert (Hsh : all_shards rs_col dat L S buf D = map (fun i => concat (map (F i) bs)) (zrange 0 14)).
    { (* both sides are maps over the literal index lists [0..9] ++ [0..3] / [0..13] *)
      reflexivity. }
    exists (zlen bs * buf). unfold well_coded. rewrite Hsh.
    split; [rewrite map_length; reflexivity|]. split; [pose proof (zlen_nonneg bs); nia|]. split.
    - apply Forall_forall. intros l Hin. apply in_map_iff in Hin as (i & <- & _).
      apply (concat_uniform (F i) buf 0%N (0, 0) ltac:(lia) (HF i) bs).
    - intros t Ht.
      pose proof (Z.div_mod t buf ltac:(lia)) as Hdm. pose proof (Z.mod_pos_bound t buf Hbuf) as Hmb.
      set (q := t / buf) in *. set (r := t mod buf) in *.
      assert (Hq : 0 <= q < zlen bs) by nia.
      set (datab := map (fun i => data_buf dat D buf i (znth bs q (0, 0))) (zrange 0 10)).
      assert (Hd : length (column datab r) = 10%nat).
      { unfold column, datab. rewrite !map_length. apply zcount_length. }
      exists (column datab r). split; [exact Hd|].
      unfold column at 1. rewrite map_map.
      transitivity (map (fun i => znth (F i (znth bs q (0, 0))) r 0%N) (zrange 0 14)).
      { apply map_ext_in. intros i Hi. apply in_zrange in Hi.
        replace t with (q * buf + r) by lia.
        apply (concat_uniform (F i) buf 0%N (0, 0) ltac:(lia) (HF i) bs); lia. }
      change 14 with (10 + 4). rewrite zrange_app, map_app by lia.
      apply (f_equal2 (@app byte)).
      + unfold column, datab. rewrite map_map. reflexivity.
      + rewrite <- (list_eq_map_znth (0%N : byte) (rs_col (column datab r))).
        unfold zlen at 1. rewrite (rs_col_len _ Hd).
        apply map_zrange_ext. intros m Hm. unfold F.
        destruct (0 + 10 + m <? 10) eqn:E; [lia|]. unfold parity_buf. fold datab.
        rewrite znth_map_zrange by lia. f_equal; lia.
  Qed.

  Section Loop.
    Variables (shards : list (list byte)) (len B : Z) (present : list bool).
    Hypothesis WC : well_coded shards len.
    Hypothesis HB : 0 < B.
    Hypothesis Hp14 : length present = 14%nat.
    Hypothesis Hlost : count_lost present <= 4.

    Let shs := apply_mask present shards.

    Lemma shs_len : forall l, In (Some l) shs -> zlen l = len.
    Proof.
      intros l Hin. destruct WC as (_ & _ & Hlen & _). rewrite Forall_forall in Hlen.
      apply Hlen, (in_apply_mask l present), Hin.
    Qed.

    Lemma shs_has_some : has_some shs = true.
    Proof.
      destruct (has_some shs) eqn:E; auto. exfalso.
      pose proof (no_some_all_lost present shards ltac:(destruct WC; lia) E) as H.
      unfold zlen in H. rewrite Hp14 in H. lia.
    Qed.

    Lemma znth_shs i : 0 <= i < 14 ->
      znth shs i None = if znth present i true then Some (znth shards i []) else None.
    Proof.
      intros Hi. apply znth_apply_mask; destruct WC as [H14 _]; [lia|unfold zlen; lia].
    Qed.

    Lemma reconstruct_chunk start n : 0 <= start -> 0 <= n -> start + n <= len ->
      n = Z.max 0 (Z.min B (len - start)) ->
      reconstruct rs_rec n (map (option_map (fun l => slice l start B)) shs) =
      Some (map (fun i => seg (znth shards i []) start n) (zrange 0 14)).
    Proof.
      intros Hstart Hn Hle Hnn. destruct WC as [H14 [Hlen0 [Hlen Hcol]]].
      unfold reconstruct. subst shs. rewrite map_option_apply_mask.
      assert (Hcols : map (fun t => rs_rec (ocolumn (apply_mask present (map (fun l => slice l start B) shards)) t)) (zrange 0 n) =
                      map (fun t => Some (column shards (start + t))) (zrange 0 n)).
      { apply map_ext_in. intros t Ht. apply in_zrange in Ht.
        unfold ocolumn. rewrite map_option_apply_mask.
        assert (Hc : map (fun b => znth b t 0%N) (map (fun l => slice l start B) shards) = column shards (start + t)).
        { unfold column. rewrite map_map. apply map_ext_in. intros l Hl.
          rewrite Forall_forall in Hlen.
          apply znth_slice; [lia|]. rewrite zlen_slice, (Hlen l Hl) by lia. lia. }
        rewrite Hc. destruct (Hcol (start + t) ltac:(lia)) as [d [Hd10 Hd]].
        rewrite Hd. apply rs_mds; auto. }
      rewrite Hcols. rewrite all_some_map_some. f_equal.
      apply map_ext_in. intros i Hi. apply in_zrange in Hi.
      rewrite map_map. unfold seg, dslice. apply map_zrange_ext. intros t Ht.
      unfold column. rewrite znth_map with (d' := []) by (unfold zlen, byte in *; lia). f_equal; lia.
    Qed.

    Definition rebuilt_upto (start : Z) (outs : list (list byte)) : Prop :=
      length outs = 14%nat /\
      forall i, 0 <= i < 14 ->
        znth outs i [] = if znth present i true then znth shards i [] else seg (znth shards i []) 0 start.

    Lemma rebuilt_upto_final outs : rebuilt_upto len outs -> outs = shards.
    Proof.
      intros [Ho Hi]. destruct WC as [H14 _].
      rewrite <- (list_eq_map_znth [] outs), <- (list_eq_map_znth [] shards).
      unfold zlen. rewrite Ho, H14. apply map_ext_in. intros i Hin. apply in_zrange in Hin.
      rewrite Hi by lia. destruct (znth present i true); auto.
      rewrite <- (wc_len shards len i WC) by lia. apply seg_full.
    Qed.

    (* the loop makes c reads of n0 bytes each: whole buffers (also when len = 0), or one short read *)
    Variables (n0 c : Z).
    Hypothesis Hlen_c : len = c * n0.
    Hypothesis Hn0 : 0 <= n0.
    Hypothesis Hchunk : forall j, 0 <= j < c -> Z.min B (len - j * n0) = n0 /\ 0 < n0.

    (* ibds, the size of the first read, is still unset (0) in the first round *)
    Lemma rebuild_loop_exact : forall fuel j ibds outs,
      0 <= j <= c -> (Z.to_nat (c - j) < fuel)%nat -> ibds = 0 \/ ibds = n0 -> rebuilt_upto (j * n0) outs ->
      rebuild_loop rs_rec fuel B (j * n0) ibds shs outs = Some shards.
    Proof.
      induction fuel as [|f IH]; intros j ibds outs Hj Hf Hibds HI; [lia|].
      cbn [rebuild_loop].
      assert (Hst : 0 <= j * n0) by nia.
      rewrite (read_fold B (j * n0) len Hst shs _ shs_len). rewrite shs_has_some.
      destruct (Z.eq_dec j c) as [->|Hne].
      - (* everything regenerated: the next read returns 0 bytes *)
        replace (Z.max 0 (Z.min B (len - c * n0))) with 0 by lia.
        cbn. f_equal. apply rebuilt_upto_final. rewrite Hlen_c. exact HI.
      - destruct (Hchunk j ltac:(lia)) as [Hmin Hpos].
        replace (Z.max 0 (Z.min B (len - j * n0))) with n0 by lia.
        destruct (n0 =? 0) eqn:E0; [lia|].
        destruct ((ibds =? 0) || (ibds =? n0)) eqn:Eor; [|lia].
        assert (Hjn : (j + 1) * n0 <= c * n0) by nia.
        rewrite (reconstruct_chunk (j * n0) n0) by lia.
        replace (j * n0 + n0) with ((j + 1) * n0) by lia.
        apply IH; [lia|lia|right; reflexivity|].
        destruct HI as [Ho Hi]. split; [rewrite map_length; apply zcount_length|].
        intros i Hi14. rewrite znth_map_zrange, Z.add_0_l, znth_shs, Hi by lia.
        destruct (znth present i true); [reflexivity|].
        rewrite znth_map_zrange, Z.add_0_l by lia.
        unfold seg. replace (j * n0) with (0 + j * n0) at 2 by lia.
        rewrite dslice_app by lia. f_equal. lia.
    Qed.
  End Loop.

  Lemma rebuilt_upto_init shards len present : well_coded shards len -> length present = 14%nat ->
    rebuilt_upto shards present 0 (map (fun sh => match sh with Some l => l | None => [] end) (apply_mask present shards)).
  Proof.
    intros WC Hp. destruct WC as [H14 _].
    assert (Hl : length (apply_mask present shards) = 14%nat) by (rewrite length_apply_mask; lia).
    split; [rewrite map_length; exact Hl|]. intros i Hi.
    rewrite znth_map with (d' := None) by (unfold zlen; lia).
    rewrite (znth_apply_mask [] present shards i) by (unfold zlen; lia).
    destruct (znth present i true); reflexivity.
  Qed.

  Theorem rebuild_well_coded : forall shards len B present,
    well_coded shards len -> 0 < B -> length present = 14%nat -> count_lost present <= 4 ->
    (len mod B = 0 \/ len < B) ->
    rebuild rs_rec B (apply_mask present shards) = Some shards.
  Proof.
    intros shards len B present WC HB Hp Hlost Hlen.
    assert (Hlen0 : 0 <= len) by apply WC.
    unfold rebuild.
    rewrite (len0_fold len Hlen0 _ 0 (shs_len shards len present WC)).
    rewrite (shs_has_some shards len present WC Hp Hlost).
    replace (Z.max 0 len) with len by lia.
    rewrite Z.quot_div_nonneg by lia.
    assert (Hnc : exists n0 c, 0 <= c <= len / B + 1 /\ len = c * n0 /\ 0 <= n0 /\
                    forall j, 0 <= j < c -> Z.min B (len - j * n0) = n0 /\ 0 < n0).
    { pose proof (Z.div_mod len B ltac:(lia)) as Hdm. pose proof (Z.div_pos len B Hlen0 HB) as Hq.
      destruct (Z.eq_dec (len mod B) 0) as [Hmod|Hmod].
      - exists B, (len / B). split; [lia|]. split; [lia|]. split; [lia|]. intros j Hj. nia.
      - assert (len <> 0) by (intros ->; apply Hmod, Z.mod_0_l; lia).
        exists len, 1. split; [lia|]. split; [lia|]. split; [lia|].
        intros j Hj. assert (j = 0) by lia. subst j. lia. }
    destruct Hnc as (n0 & c & Hc & Hlc & Hn0 & Hchunk).
    apply (rebuild_loop_exact shards len B present WC HB Hp Hlost n0 c Hlc Hn0 Hchunk _ 0 0);
      [lia|lia|left; reflexivity|].
    rewrite Z.mul_0_l. apply (rebuilt_upto_init shards len present WC Hp).
  Qed.

  (* for the shards generateEcFiles writes *)
  Theorem rebuild_exact : forall dat L S buf D B present,
    sizes_ok L S buf -> 0 < B -> length present = 14%nat -> count_lost present <= 4 ->
    let shards := all_shards rs_col dat L S buf D in
    let len := zlen (znth shards 0 []) in
    (len mod B = 0 \/ len < B) ->
    rebuild rs_rec B (apply_mask present shards) = Some shards.
  Proof.
    intros dat L S buf D B present Hok HB Hp Hlost shards len Hlen.
    destruct (sizes_ok_pos _ _ _ Hok) as [_ [_ Hb]].
    destruct (all_shards_well_coded dat L S buf D Hb) as [len' WC].
    assert (len = len') by (apply (wc_len _ _ 0 WC); lia).
    subst len'. eapply rebuild_well_coded; eauto.
  Qed.
End RS.
