(* The statements of C16 about model/EcBalance.v: one move, whole plans in dry run, the
   decidable snapshot trigger, and the concrete runs (witnesses of the findings, non-vacuity). *)
From Coq Require Import List NArith ZArith Bool Lia Arith.
From SW Require Import model.EcBalance proof.EcBalanceBase proof.EcBalanceInv proof.EcBalanceSpread proof.EcBalanceKey.
Import ListNotations.
Local Open Scope N_scope.

(* every (v,s) present in ns is on exactly one node of ns', every absent one on none *)
Definition exactly_once_after (ns ns' : list node) : Prop :=
  forall v s, ((1 <= total ns v s)%nat -> total ns' v s = 1%nat) /\ (total ns v s = 0%nat -> total ns' v s = 0%nat).

Lemma node_free_upd : forall ns id f x, keeps_id_rack f ->
  node_free (upd_node ns id f) x =
  if x =? id then match get_node ns id with Some n => n_free (f n) | None => 0%Z end else node_free ns x.
Proof.
  intros. unfold node_free. rewrite get_upd by auto. destruct (x =? id); auto.
  destruct (get_node ns id); reflexivity.
Qed.

Theorem move_conserves : forall ns src v c s dst,
  wf ns -> present ns dst -> src <> dst -> In s shard_range ->
  hb ns src v s = true -> hb ns dst v s = false ->
  let ns' := move_shard ns src v c s dst in
  wf ns' /\
  (forall v' s', total ns' v' s' = total ns v' s') /\
  hb ns' dst v s = true /\ hb ns' src v s = false /\
  node_free ns' dst = (node_free ns dst - 1)%Z /\ node_free ns' src = (node_free ns src + 1)%Z /\
  (forall x, x <> src -> x <> dst -> node_free ns' x = node_free ns x).
Proof.
  intros ns src v c s dst Hwf [nd Gd] Hne Hin Hs Hd ns'.
  assert (Hb : In s bit_range) by (apply shard_in_bit_range; auto).
  subst ns'. split; [apply wf_move; auto|]. split.
  { intros v' s'. pose proof (move_total ns src v c s dst v' s' (proj1 Hwf) (ex_intro _ nd Gd) Hne) as M.
    rewrite Hs, Hd in M. destruct (same v s v' s'); simpl in M; lia. }
  assert (Hne' : dst <> src) by congruence.
  unfold move_shard. split.
  { rewrite hb_del, (hb_add _ _ _ _ _ _ _ _ (ex_intro _ nd Gd)). rewrite !N.eqb_refl. simpl.
    destruct (N.eqb_spec dst src); [contradiction|]. simpl. rewrite orb_true_r. reflexivity. }
  split.
  { fold (move_shard ns src v c s dst). rewrite hb_move_src; [|exists nd; auto|auto].
    rewrite N.eqb_refl. apply andb_false_r. }
  unfold hb, node_bits in Hs, Hd. rewrite Gd in Hd.
  destruct (get_node ns src) as [nsrc|] eqn:Gs; [|rewrite has_zero in Hs; discriminate].
  assert (Gs1 : get_node (upd_node ns dst (add_shard v c s)) src = Some nsrc).
  { rewrite get_upd by auto with c16. destruct (N.eqb_spec src dst); [contradiction|auto]. }
  split; [|split].
  - rewrite node_free_upd by auto with c16. destruct (N.eqb_spec dst src); [contradiction|].
    rewrite node_free_upd by auto with c16. rewrite N.eqb_refl, Gd.
    unfold node_free. rewrite Gd. apply free_add_shard; auto.
  - rewrite node_free_upd by auto with c16. rewrite N.eqb_refl, Gs1.
    unfold node_free. rewrite Gs. apply free_del_shard; auto. eapply wf_get; eauto.
  - intros x Hx1 Hx2. rewrite node_free_upd by auto with c16. destruct (N.eqb_spec x src); [contradiction|].
    rewrite node_free_upd by auto with c16. destruct (N.eqb_spec x dst); [contradiction|reflexivity].
Qed.

(* under [unique] every (v,s) satisfies total <= 1, so run_plan_key applies to each;
   0 < m_dst_free comes from run_plan_spread *)
Theorem run_plan_ok : forall st o st' its,
  run_plan false st o = Some (st', its) -> wf (nodes st) -> unique (nodes st) ->
  phase_ok (nodes st) (nodes st') its.
Proof.
  intros st o st' its H Hwf U.
  assert (K : forall v s, key_ok v s (nodes st) (nodes st') its) by (intros; eapply run_plan_key; eauto; apply U).
  destruct (run_plan_spread _ _ _ _ H Hwf) as [W [S _]].
  split; [exact W|]. split; [intros v s; apply (K v s)|]. split.
  - intros D v s. apply (K v s). apply drops_key_has_drop. exact D.
  - unfold moves_ok. apply Forall_forall. intros i Hi. unfold guards_ok in S. rewrite Forall_forall in S.
    destruct i as [e|e m|]; simpl; auto. split.
    + destruct (K (m_vid m) (m_shard m)) as [_ [_ [_ M]]]. unfold kmoves_ok in M.
      rewrite Forall_forall in M. apply (M _ Hi); reflexivity.
    + apply (S _ Hi).
Qed.

Theorem plan_targets : forall st o st' its,
  run_plan false st o = Some (st', its) -> wf (nodes st) -> unique (nodes st) ->
  forall e m, In (IMove e m) its -> m_dst_held m = false /\ (0 < m_dst_free m)%Z.
Proof.
  intros st o st' its H Hwf U e m Hin.
  destruct (run_plan_ok _ _ _ _ H Hwf U) as [_ [_ [_ M]]].
  unfold moves_ok in M. rewrite Forall_forall in M. apply (M _ Hin).
Qed.

Lemma testbit_high : forall b s, b < 4294967296 -> 32 <= s -> N.testbit b s = false.
Proof.
  intros b s Hb Hs. destruct (N.eq_dec b 0) as [E|E]; [subst; apply N.bits_0|].
  apply N.bits_above_log2. assert (L : N.log2 b < 32).
  { apply N.log2_lt_pow2; [lia|]. change (2 ^ 32) with 4294967296. exact Hb. }
  lia.
Qed.

Lemma find_bits_lt : forall es v, forallb (fun e => e_bits e <? 4294967296) es = true -> find_bits es v < 4294967296.
Proof.
  induction es as [|e es IH]; intros v H; simpl in *; [lia|].
  apply andb_true_iff in H. destruct H as [H1 H2]. destruct (e_vid e =? v); auto. apply N.ltb_lt. exact H1.
Qed.

Lemma filter_nil_len : forall (A : Type) (f : A -> bool) l, (forall x, In x l -> f x = false) -> length (filter f l) = 0%nat.
Proof. induction l as [|x l IH]; intros H; simpl; auto. rewrite (H x) by (left; auto). apply IH. intros. apply H. right. auto. Qed.

(* the snapshot trigger: no shard on two nodes *)
Theorem unique_of_snapshot : forall ns, bits32 ns = true -> has_dup ns = false -> unique ns.
Proof.
  intros ns HB HD v s.
  destruct (in_dec N.eq_dec v (all_vids ns)) as [Hv|Hv].
  - destruct (N.lt_ge_cases s 32) as [Hs|Hs].
    + unfold has_dup in HD.
      destruct (1 <? total ns v s)%nat eqn:E; [|apply Nat.ltb_ge in E; exact E].
      exfalso. assert (X : existsb (fun v => existsb (fun s => (1 <? total ns v s)%nat) bit_range) (all_vids ns) = true).
      { apply existsb_exists. exists v. split; auto. apply existsb_exists. exists s. split; auto. apply in_bit_range. exact Hs. }
      congruence.
    + rewrite total_eq, filter_nil_len; [lia|]. intros n Hn. unfold holds, has, find.
      apply testbit_high; auto. apply find_bits_lt. unfold bits32 in HB. rewrite forallb_forall in HB. apply HB. exact Hn.
  - rewrite total_eq, filter_nil_len; [lia|]. intros n Hn. unfold holds, find.
    rewrite find_bits_notin; [apply has_zero|]. intros X. apply Hv. unfold all_vids. apply dedup_In.
    apply in_flat_map. exists n. split; auto.
Qed.

Theorem plan_conserves_partial : forall st o st' its,
  run_plan false st o = Some (st', its) -> wf (nodes st) -> unique (nodes st) -> has_drop its = false ->
  (forall v s, total (nodes st') v s = total (nodes st) v s) /\ exactly_once_after (nodes st) (nodes st').
Proof.
  intros st o st' its H Hwf U HD.
  destruct (run_plan_ok _ _ _ _ H Hwf U) as [_ [_ [C _]]]. specialize (C HD). split; auto.
  intros v s. rewrite C. specialize (U v s). split; intros; lia.
Qed.

Theorem plan_never_duplicates : forall st o st' its,
  run_plan false st o = Some (st', its) -> wf (nodes st) -> unique (nodes st) ->
  wf (nodes st') /\ unique (nodes st') /\ forall v s, (total (nodes st') v s <= total (nodes st) v s)%nat.
Proof.
  intros st o st' its H Hwf U. pose proof (run_plan_ok _ _ _ _ H Hwf U) as P.
  split; [apply P|]. split; [eapply phase_ok_unique; eauto|apply P].
Qed.

Theorem plan_rack_spread : forall st o st' its,
  run_plan false st o = Some (st', its) -> wf (nodes st) ->
  forall e m, In (IMove e m) its ->
    (m_kind m = KAcross -> (m_dst_rack_count m <= m_limit m)%Z) /\
    (m_kind m <> KAcross -> m_src_rack m = m_dst_rack m).
Proof.
  intros st o st' its H Hwf e m Hin.
  destruct (run_plan_spread _ _ _ _ H Hwf) as [_ [S _]].
  unfold guards_ok in S. rewrite Forall_forall in S. destruct (S _ Hin) as [A [B _]]. split; assumption.
Qed.

Theorem plan_move_free : forall st o st' its,
  run_plan false st o = Some (st', its) -> wf (nodes st) ->
  forall e m, In (IMove e m) its -> (0 < m_dst_free m)%Z.
Proof.
  intros st o st' its H Hwf e m Hin.
  destruct (run_plan_spread _ _ _ _ H Hwf) as [_ [S _]].
  unfold guards_ok in S. rewrite Forall_forall in S. destruct (S _ Hin) as [_ [_ C]]. exact C.
Qed.

Definition mk_node (id rack : N) (free : Z) (es : list entry) : node :=
  {| n_id := id; n_dc := 0; n_rack := rack; n_free := free; n_disk := Some es |}.
Definition mk_entry (v b : N) : entry := {| e_vid := v; e_coll := 1; e_bits := b |}.

Ltac nodup_tac := repeat (constructor; [simpl; intuition discriminate|]); try constructor.
Ltac wf_tac := split; [unfold wf_ids; simpl; nodup_tac | repeat (constructor; [simpl; nodup_tac|]); try constructor].

(* finding 0: rack 1 has no free slot; the 7 picked shards of volume 1 leave the books.
   The run starts from [init_state], so the racks are those collectRacks builds. *)
Definition w_drop_nodes : list node := [mk_node 0 0 5 [mk_entry 1 16383]; mk_node 1 1 0 []].
Definition w_drop_orc : plan_orc :=
  {| po_rounds := [{| ro_coll := 1; ro_dedup := [{| dd_vid := 1; dd_keeps := [] |}];
                      ro_across := [{| av_vid := 1; av_racks := [(0, [0])];
                                       av_moves := [(0, NoRack); (1, NoRack); (2, NoRack); (3, NoRack);
                                                    (4, NoRack); (5, NoRack); (6, NoRack)] |}];
                      ro_within := [{| wv_vid := 1; wv_racks := [{| wr_rack := 0; wr_dests := [] |}] |}] |}];
     po_racks := Some [{| rb_rack := 0; rb_steps := [] |}; {| rb_rack := 1; rb_steps := [] |}] |}.

Lemma w_drop_wf : wf w_drop_nodes.
Proof. wf_tac. Qed.
Lemma w_drop_unique : unique w_drop_nodes.
Proof. apply unique_of_snapshot; vm_compute; reflexivity. Qed.

Theorem plan_conserves_refuted :
  ~ (forall st o st' its, wf (nodes st) -> unique (nodes st) ->
       run_plan false st o = Some (st', its) -> exactly_once_after (nodes st) (nodes st')).
Proof.
  intros H.
  destruct (run_plan false (init_state w_drop_nodes) w_drop_orc) as [[st' its]|] eqn:R; [|vm_compute in R; discriminate].
  specialize (H (init_state w_drop_nodes) w_drop_orc st' its w_drop_wf w_drop_unique R 1 0).
  vm_compute in R. inv R. destruct H as [H _]. vm_compute in H. specialize (H (le_n 1)). discriminate.
Qed.

(* finding 1: shard 1.1 on two nodes; the dry run prints "keeping" and leaves both copies in the books *)
Definition w_dup_nodes : list node := [mk_node 0 0 5 [mk_entry 1 3]; mk_node 1 0 5 [mk_entry 1 6]].
Definition w_dup_orc : plan_orc :=
  {| po_rounds := [{| ro_coll := 1; ro_dedup := [{| dd_vid := 1; dd_keeps := [0] |}];
                      ro_across := [{| av_vid := 1; av_racks := [(0, [])]; av_moves := [] |}];
                      ro_within := [{| wv_vid := 1; wv_racks := [{| wr_rack := 0; wr_dests := [] |}] |}] |}];
     po_racks := Some [{| rb_rack := 0; rb_steps := [(0, 1)] |}] |}.

Theorem dry_run_dedup_refuted :
  ~ (forall st o st' its, wf (nodes st) -> run_plan false st o = Some (st', its) -> has_drop its = false ->
       exactly_once_after (nodes st) (nodes st')).
Proof.
  intros H.
  destruct (run_plan false (init_state w_dup_nodes) w_dup_orc) as [[st' its]|] eqn:R; [|vm_compute in R; discriminate].
  assert (W : wf (nodes (init_state w_dup_nodes))) by wf_tac.
  specialize (H (init_state w_dup_nodes) w_dup_orc st' its W R).
  vm_compute in R. inv R. specialize (H eq_refl 1 1). destruct H as [H _]. vm_compute in H.
  assert (X : (1 <= 2)%nat) by lia. specialize (H X). discriminate.
Qed.

(* regression case for the guard `emptyNode.freeEcSlot > 0` of doBalanceEcRack: node 0 holds 8 shards
   with free -1, node 1 is empty with free 0; nothing is moved *)
Definition w_full_nodes : list node := [mk_node 1 0 0 []; mk_node 0 0 (-1) [mk_entry 1 15; mk_entry 2 15]].
Definition w_full_orc : plan_orc :=
  {| po_rounds := []; po_racks := Some [{| rb_rack := 0; rb_steps := [(1, 0)] |}] |}.
Theorem rack_full_witness_quiet :
  run_plan false (init_state w_full_nodes) w_full_orc = Some (init_state w_full_nodes, []).
Proof. vm_compute. reflexivity. Qed.

(* non-vacuity: a clean layout; 7 shards cross to rack 1, one more move inside rack 1 *)
Definition ex_nodes : list node := [mk_node 0 0 10 [mk_entry 1 16383]; mk_node 1 1 10 []; mk_node 2 1 1 []].
Definition ex_orc : plan_orc :=
  {| po_rounds := [{| ro_coll := 1; ro_dedup := [{| dd_vid := 1; dd_keeps := [] |}];
                      ro_across := [{| av_vid := 1; av_racks := [(0, [0])];
                                       av_moves := [(0, ToRack 1 (Some 1)); (1, ToRack 1 (Some 1)); (2, ToRack 1 (Some 1));
                                                    (3, ToRack 1 (Some 1)); (4, ToRack 1 (Some 1)); (5, ToRack 1 (Some 1));
                                                    (6, ToRack 1 (Some 1))] |}];
                      ro_within := [{| wv_vid := 1;
                                       wv_racks := [{| wr_rack := 0; wr_dests := [] |};
                                                    {| wr_rack := 1; wr_dests := [Some 2; None; None] |}] |}] |}];
     po_racks := Some [{| rb_rack := 0; rb_steps := [] |}; {| rb_rack := 1; rb_steps := [(1, 2)] |}] |}.

Theorem example_run :
  wf ex_nodes /\ bits32 ex_nodes = true /\ has_dup ex_nodes = false /\
  exists st' its, run_plan false (init_state ex_nodes) ex_orc = Some (st', its) /\
    has_drop its = false /\
    length (filter (fun i => match i with IMove _ _ => true | _ => false end) its) = 8%nat /\
    map (fun n => find n 1) (nodes st') = [16256; 126; 1].
Proof.
  split; [wf_tac|]. split; [vm_compute; reflexivity|]. split; [vm_compute; reflexivity|].
  destruct (run_plan false (init_state ex_nodes) ex_orc) as [[st' its]|] eqn:R; [|vm_compute in R; discriminate].
  exists st', its. split; auto. vm_compute in R. inv R. vm_compute. repeat split.
Qed.

(* non-vacuity of the balanceEcRacks statements: one rack, a loaded server (6 shards of two volumes,
   2 free slots) and an empty one (10 free slots): two rack moves (1.0 then 2.0), nothing lost *)
Definition ex_rack_nodes : list node := [mk_node 1 0 10 []; mk_node 0 0 2 [mk_entry 1 15; mk_entry 2 3]].
Definition ex_rack_orc : plan_orc :=
  {| po_rounds := []; po_racks := Some [{| rb_rack := 0; rb_steps := [(1, 0); (1, 0); (1, 0)] |}] |}.
Definition is_rack_move (i : item) : bool :=
  match i with IMove _ m => match m_kind m with KRack => true | _ => false end | _ => false end.

Theorem example_rack_run :
  wf ex_rack_nodes /\ bits32 ex_rack_nodes = true /\ has_dup ex_rack_nodes = false /\ gate ex_rack_nodes = true /\
  exists st' its, run_plan false (init_state ex_rack_nodes) ex_rack_orc = Some (st', its) /\
    has_drop its = false /\
    events_of its = [ERackMove 0 1 0 1; ERackMove 0 2 0 1] /\
    length (filter is_rack_move its) = 2%nat /\
    map (fun n => (n_free n, find n 1, find n 2)) (nodes st') = [(8%Z, 1, 1); (4%Z, 14, 2)].
Proof.
  split; [wf_tac|]. split; [vm_compute; reflexivity|]. split; [vm_compute; reflexivity|]. split; [vm_compute; reflexivity|].
  destruct (run_plan false (init_state ex_rack_nodes) ex_rack_orc) as [[st' its]|] eqn:R; [|vm_compute in R; discriminate].
  exists st', its. split; auto. vm_compute in R. inv R. vm_compute. repeat split.
Qed.
