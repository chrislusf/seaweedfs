(* C21, C20: association-list facts (aget/adel/aput); [cn m X], the number of blobs of m that carry link id X,
   under put, delete, filter and permutation; [occ], the multiplicity of an id in a pending list. *)
From Coq Require Import List NArith ZArith Bool String Arith Lia Permutation.
From SW Require Import proof.ListFacts model.FilerNS proof.FilerNSBase model.Chunks model.HardLink.
Import ListNotations.
Local Open Scope list_scope.

Section AMapFacts.
  Context {K V : Type} (eqb : K -> K -> bool).
  Hypothesis eqb_spec : forall a b, reflect (a = b) (eqb a b).

  Lemma eqb_refl' : forall a, eqb a a = true.
  Proof. intro a. destruct (eqb_spec a a); congruence. Qed.

  Lemma aget_filter_key : forall (f : K -> bool) (m : list (K * V)) k,
    aget eqb (filter (fun kv => f (fst kv)) m) k = if f k then aget eqb m k else None.
  Proof.
    induction m as [|[k' v] m IH]; intro k; simpl.
    - now destruct (f k).
    - destruct (f k') eqn:Ef; simpl; rewrite IH.
      + destruct (eqb_spec k' k); [subst; now rewrite Ef|reflexivity].
      + destruct (eqb_spec k' k); [subst; now rewrite Ef|reflexivity].
  Qed.

  Lemma aget_adel : forall (m : list (K * V)) k q,
    aget eqb (adel eqb m k) q = if eqb k q then None else aget eqb m q.
  Proof.
    intros. unfold adel. rewrite (aget_filter_key (fun x => negb (eqb x k))).
    destruct (eqb_spec q k), (eqb_spec k q); subst; simpl; congruence.
  Qed.

  Lemma aget_aput : forall (m : list (K * V)) k v q,
    aget eqb (aput eqb m k v) q = if eqb k q then Some v else aget eqb m q.
  Proof.
    intros. unfold aput. simpl. destruct (eqb_spec k q); [reflexivity|].
    rewrite aget_adel. destruct (eqb_spec k q); congruence.
  Qed.

  Lemma aget_Some_In : forall (m : list (K * V)) k v, aget eqb m k = Some v -> In (k, v) m.
  Proof.
    induction m as [|[k' v'] m IH]; simpl; intros k v H; [discriminate|].
    destruct (eqb_spec k' k); [inversion H; subst; now left | right; auto].
  Qed.

  Lemma aget_None_notin : forall (m : list (K * V)) k, aget eqb m k = None <-> ~ In k (map fst m).
  Proof.
    induction m as [|[k' v'] m IH]; simpl; intro k; [tauto|].
    destruct (eqb_spec k' k).
    - split; [discriminate|]. intro H. exfalso. apply H. now left.
    - rewrite IH. tauto.
  Qed.

  Lemma In_aget : forall (m : list (K * V)) k v, NoDup (map fst m) -> In (k, v) m -> aget eqb m k = Some v.
  Proof.
    induction m as [|[k' v'] m IH]; simpl; intros k v Hnd Hin; [contradiction|].
    inversion Hnd; subst. destruct Hin as [E|Hin].
    - inversion E; subst. now rewrite eqb_refl'.
    - destruct (eqb_spec k' k); [|auto]. subst. exfalso. apply H1. now apply (in_map fst) in Hin.
  Qed.

  Lemma adel_NoDup : forall (m : list (K * V)) k, NoDup (map fst m) -> NoDup (map fst (adel eqb m k)).
  Proof. intros. now apply NoDup_map_filter. Qed.

  Lemma adel_notin : forall (m : list (K * V)) k, ~ In k (map fst (adel eqb m k)).
  Proof.
    intros m k Hin. apply in_map_iff in Hin. destruct Hin as [[q e] [Hq Hin]]. simpl in Hq. subst q.
    apply filter_In in Hin. simpl in Hin. rewrite eqb_refl' in Hin. destruct Hin. discriminate.
  Qed.

  Lemma aput_NoDup : forall (m : list (K * V)) k v, NoDup (map fst m) -> NoDup (map fst (aput eqb m k v)).
  Proof. intros. unfold aput. simpl. constructor; [apply adel_notin | now apply adel_NoDup]. Qed.
End AMapFacts.

Lemma Neqb_spec : forall a b : N, reflect (a = b) (N.eqb a b).
Proof. intros. apply N.eqb_spec. Qed.

Lemma peqb_spec : forall a b : path, reflect (a = b) (HardLink.path_eqb a b).
Proof. exact path_eqb_spec. Qed.

Lemma nfind_raw_put : forall s p e q, nfind (raw_put s p e) q = if HardLink.path_eqb p q then Some e else nfind s q.
Proof. intros. unfold nfind, raw_put. simpl. apply aget_aput, peqb_spec. Qed.
Lemma nfind_raw_del : forall s p q, nfind (raw_del s p) q = if HardLink.path_eqb p q then None else nfind s q.
Proof. intros. unfold nfind, raw_del. simpl. apply aget_adel, peqb_spec. Qed.
Lemma kv_get_put : forall s k v q, kv_get (kv_put s k v) q = if N.eqb k q then Some v else kv_get s q.
Proof. intros. unfold kv_get, kv_put. simpl. apply aget_aput, Neqb_spec. Qed.
Lemma kv_get_del : forall s k q, kv_get (kv_del s k) q = if N.eqb k q then None else kv_get s q.
Proof. intros. unfold kv_get, kv_del. simpl. apply aget_adel, Neqb_spec. Qed.

Definition cn (m : nstore) (X : N) : nat := List.length (filter (carries X) m).

Lemma count_names_cn : forall s X, count_names s X = cn (names s) X.
Proof. reflexivity. Qed.

(* 1 if the blob carries X, and its lift to an optional blob *)
Definition ind (e : hentry) (X : N) : nat := if N.eqb (h_hl e) X then 1 else 0.
Definition oind (o : option hentry) (X : N) : nat := match o with Some e => ind e X | None => 0 end.

Lemma cn_cons : forall p e m X, cn ((p, e) :: m) X = ind e X + cn m X.
Proof. intros. unfold cn, ind, carries. simpl. destruct (N.eqb (h_hl e) X); reflexivity. Qed.

Lemma cn_app : forall a b X, cn (a ++ b) X = cn a X + cn b X.
Proof. intros. unfold cn. rewrite filter_app, app_length. reflexivity. Qed.

Lemma cn_adel : forall m p X, NoDup (map fst m) ->
  cn m X = oind (aget HardLink.path_eqb m p) X + cn (adel HardLink.path_eqb m p) X.
Proof.
  induction m as [|[q e] m IH]; intros p X Hnd; [reflexivity|].
  inversion Hnd; subst. simpl. destruct (peqb_spec q p).
  - subst q. simpl. rewrite cn_cons.
    assert (Hno : adel HardLink.path_eqb m p = m).
    { unfold adel. apply filter_all_true. intros [q' e'] Hin. simpl.
      destruct (peqb_spec q' p); [|reflexivity]. subst. exfalso. apply H1. now apply (in_map fst) in Hin. }
    rewrite Hno. reflexivity.
  - simpl. rewrite !cn_cons. rewrite (IH p X H2). lia.
Qed.

Lemma cn_put : forall m p e X, NoDup (map fst m) ->
  cn (aput HardLink.path_eqb m p e) X + oind (aget HardLink.path_eqb m p) X = ind e X + cn m X.
Proof. intros. unfold aput. rewrite cn_cons, (cn_adel m p X H). lia. Qed.

Lemma cn_filter_split : forall (f : path * hentry -> bool) m X,
  cn m X = cn (filter f m) X + cn (filter (fun x => negb (f x)) m) X.
Proof.
  induction m as [|[q e] m IH]; intro X; [reflexivity|].
  simpl. destruct (f (q, e)); simpl; rewrite !cn_cons, IH; lia.
Qed.

Lemma cn_perm : forall a b X, Permutation a b -> cn a X = cn b X.
Proof.
  intros a b X H. induction H; auto.
  - destruct x. rewrite !cn_cons. lia.
  - destruct x, y. rewrite !cn_cons. lia.
  - congruence.
Qed.

Lemma cn_zero_iff : forall m X, cn m X = 0 <-> forall p e, In (p, e) m -> h_hl e <> X.
Proof.
  induction m as [|[q e] m IH]; intro X.
  - split; [intros _ p e []|reflexivity].
  - rewrite cn_cons. unfold ind. destruct (N.eqb_spec (h_hl e) X).
    + split; [lia|]. intro H. exfalso. apply (H q e); [now left|assumption].
    + simpl. rewrite IH. split.
      * intros H p e' [E|Hin]; [inversion E; subst; assumption | eauto].
      * intros H p e' Hin. apply (H p e'). now right.
Qed.

Lemma cn_pos_In : forall m p e X, In (p, e) m -> h_hl e = X -> 0 < cn m X.
Proof.
  intros m p e X Hin HX. destruct (cn m X) eqn:E; [|lia].
  exfalso. apply (proj1 (cn_zero_iff m X) E p e Hin HX).
Qed.

(* occurrences of an id in a list of pending ids *)
Fixpoint occ (X : N) (l : list N) : nat :=
  match l with
  | [] => 0
  | y :: l' => (if N.eqb y X then 1 else 0) + occ X l'
  end.

Lemma occ_app : forall X a b, occ X (a ++ b) = occ X a + occ X b.
Proof. induction a; simpl; intros; [reflexivity|]. rewrite IHa. lia. Qed.
