(* C28: concrete refutations, and the refinement theorem — on every
   history of requests (inside the stated domain) on which none of the known-finding
   triggers fires, the gateway+filer model answers every GET / ListParts as the flat
   key -> bytes specification does and ends with the same objects. *)
From Coq Require Import List NArith ZArith Bool String Arith Lia.
From SW Require Import proof.ListFacts model.HttpRange proof.HttpRangeProofs model.S3Multipart
  proof.S3MultipartNames proof.S3MultipartParts proof.S3MultipartNS.
Import ListNotations.
Local Open Scope N_scope.
Local Open Scope list_scope.
Local Notation length := List.length.

Definition cfg_plain : cfg := {| c_inline := 0; c_chunk := 4 |}.

(* trigger 0: parts small enough to be stored inline *)
Theorem complete_concat_refuted_inline :
  let c := {| c_inline := 4; c_chunk := 8 |} in
  let h := [(1, [1; 1]); (2, [2; 2; 2; 2; 2]); (3, [3])] in
  (forall n, In n (map fst h) -> n <= 10000) /\
  List.concat (map snd (parts_of h)) = [1; 1; 2; 2; 2; 2; 2; 3] /\
  file_bytes (completed_file (dir_of c h)) = [2; 2; 2; 2; 2].
Proof.
  cbv zeta. split.
  - intros n [<-|[<-|[<-|[]]]]; simpl; lia.
  - vm_compute. split; reflexivity.
Qed.

(* the names sort "10000.part" before "1001.part", the completed object does not *)
Example complete_concat_10000 :
  let h := [(1001, [1; 1]); (10000, [2; 2; 2]); (2, [3])] in
  map (fun e => part_number_of (fst e)) (dir_of cfg_plain h) = [2; 10000; 1001] /\
  file_bytes (completed_file (dir_of cfg_plain h)) = [3; 1; 1; 2; 2; 2].
Proof. vm_compute. split; reflexivity. Qed.

(* non-vacuity of complete_concat: overwrites, out-of-order uploads, multi-chunk parts *)
Example complete_concat_example :
  let h := [(9999, [9; 9; 9; 9; 9; 9]); (2, [7]); (1000, [5; 5; 5; 5; 5]); (2, [2; 2]); (10000, [4]); (1, [])] in
  trig_inline (dir_of cfg_plain h) = false /\
  file_bytes (completed_file (dir_of cfg_plain h)) = [2; 2; 5; 5; 5; 5; 5; 9; 9; 9; 9; 9; 9; 4] /\
  map (fun e => List.length (f_chunks (snd e))) (dir_of cfg_plain h) = [0; 1; 2; 1; 2]%nat.
Proof. vm_compute. repeat split; reflexivity. Qed.

Definition refusal (r : res) : bool := match r with RErr | RNoUpload => true | _ => false end.

Lemma refusal_meets : forall r, refusal r = true -> meets EFail r = true.
Proof. intros [] H; try discriminate H; reflexivity. Qed.

Lemma bytes_eqb_refl : forall b, bytes_eqb b b = true.
Proof. induction b as [|x b IH]; simpl; auto. rewrite N.eqb_refl. exact IH. Qed.

Lemma pairs_eqb_refl : forall l, pairs_eqb l l = true.
Proof. induction l as [|[x y] l IH]; simpl; auto. rewrite !N.eqb_refl. exact IH. Qed.

Lemma flag_nil : forall k b, flag k b = [] -> b = false.
Proof. intros k [|]; simpl; intros H; [discriminate|reflexivity]. Qed.

Lemma Forall2_set_nth : forall {A B} (P : A -> B -> Prop) l1 l2 n a b, Forall2 P l1 l2 -> P a b ->
  Forall2 P (set_nth n a l1) (set_nth n b l2).
Proof.
  intros A B P l1 l2 n a b H Hab. revert n. induction H; intros [|n]; simpl; constructor; auto.
Qed.

Lemma dir_of_nil_inv : forall c h, dir_of c h = [] -> h = [].
Proof.
  intros c h. induction h as [|p h _] using rev_ind; [reflexivity|].
  rewrite dir_of_snoc. unfold dir_step. destruct (dir_of c h) as [|[m g] d]; simpl; [discriminate|].
  destruct (lex_cmp (part_name (fst p)) m); discriminate.
Qed.

Lemma parts_of_nil_inv : forall h, parts_of h = [] -> h = [].
Proof.
  induction h as [|p h _] using rev_ind; [reflexivity|].
  rewrite parts_of_snoc. unfold parts_step. destruct (parts_of h) as [|[m x] l]; simpl; [discriminate|].
  destruct (fst p =? m); [discriminate|]. destruct (fst p <? m); discriminate.
Qed.

Definition nonempty (k : path) : bool := match k with [] => false | _ :: _ => true end.
(* (every part number and every CompleteMultipartUpload part list is inside the domain: the gateway
   refuses part numbers outside 1..10000 as the specification does; what it gets wrong with the
   part list is covered by trigger 6) *)
Definition op_in_domain (o : op) : bool :=
  match o with
  | Put k _ | PutS k _ _ | Get k _ | Del k | MpCreate k => nonempty k
  | Copy src dst => nonempty src && nonempty dst
  | BatchDel ks => forallb nonempty ks
  | MpCopy _ _ src _ => nonempty src
  | MpPut _ _ _ | MpPutS _ _ _ _ | MpComplete _ _ | MpAbort _ | MpList _ => true
  end.

Lemma nonempty_true : forall k, nonempty k = true -> k <> [].
Proof. intros [|a k] H; discriminate. Qed.

(* the gateway's test on a part number is the S3 range *)
Lemma part_refused_valid : forall n, part_refused n = negb (valid_part n).
Proof. intros n. unfold part_refused, valid_part, in_range, max_part_id. lia. Qed.

Lemma nums_eqb_eq : forall a b, nums_eqb a b = true -> a = b.
Proof.
  induction a as [|x a IH]; intros [|y b] H; simpl in H; try discriminate; auto.
  apply andb_prop in H. destruct H as [H1 H2]. apply N.eqb_eq in H1. subst. f_equal. auto.
Qed.

Lemma pget_ascending : forall ps, ascending ps -> forall q, In q ps -> pget (fst q) ps = Some (snd q).
Proof.
  induction ps as [|[m x] r IH]; intros Ha q Hq; [contradiction|].
  cbn [pget]. destruct Hq as [<-|Hq].
  - cbn [fst snd]. rewrite N.eqb_refl. reflexivity.
  - pose proof (ascending_head_lt (m, x) r Ha q Hq) as Hlt. cbn [fst] in Hlt.
    replace (m =? fst q) with false by lia. apply IH; [apply Ha|exact Hq].
Qed.

Lemma pick_sub : forall l ps, (forall q, In q l -> pget (fst q) ps = Some (snd q)) ->
  pick (map fst l) ps = Some (map snd l).
Proof.
  induction l as [|q l IH]; intros ps H; cbn [map pick]; auto.
  rewrite (H q (or_introl eq_refl)). rewrite IH; auto. intros x Hx. apply H. right. exact Hx.
Qed.

Lemma pick_self : forall ps, ascending ps -> pick (map fst ps) ps = Some (map snd ps).
Proof. intros ps Ha. apply pick_sub. apply pget_ascending. exact Ha. Qed.

Lemma strict_asc_self : forall ps, ascending ps -> strict_asc (map fst ps) = true.
Proof.
  induction ps as [|a r IH]; intros Ha; auto.
  destruct r as [|b r']; auto. destruct Ha as [H1 H2].
  change (strict_asc (map fst (a :: b :: r'))) with ((fst a <? fst b) && strict_asc (map fst (b :: r'))).
  rewrite (IH H2). lia.
Qed.

Lemma mp_put_s_intact : forall c st u n b, step c st (MpPutS u n b false) = put_part c st u n b.
Proof.
  intros c st u n b. cbn [step]. unfold put_part. destruct (get_upload st u) as [up|]; [|reflexivity].
  destruct (u_dir up); [|reflexivity]. destruct (part_refused n); reflexivity.
Qed.

Lemma mp_put_s_tampered : forall c st u n b, exists r, step c st (MpPutS u n b true) = (st, r, []) /\ refusal r = true.
Proof.
  intros c st u n b. cbn [step]. destruct (get_upload st u) as [up|]; [|exists RNoUpload; auto].
  destruct (u_dir up); [|exists RNoUpload; auto]. exists RErr. destruct (part_refused n); auto.
Qed.

(* PutObjectPartHandler tests the upload and the part number before it touches anything *)
Lemma put_part_refused : forall c st u n, part_refused n = true ->
  exists r, refusal r = true /\ forall b, put_part c st u n b = (st, r, []).
Proof.
  intros c st u n Hr. unfold put_part. destruct (get_upload st u) as [up|]; [|exists RNoUpload; auto].
  destruct (u_dir up); [|exists RNoUpload; auto]. rewrite Hr. exists RErr. auto.
Qed.

(* UploadPartCopy: refused like a part upload before the source is looked at; otherwise the part
   that is put holds what was fetched from the source *)
Lemma mp_copy_put : forall c st u n raw osrc rg,
  (exists r, refusal r = true /\ mp_copy c st u n raw osrc rg = (st, r, []) /\
             forall b, put_part c st u n b = (st, r, [])) \/
  ((forall b, snd (fst (put_part c st u n b)) = ROk) /\
   mp_copy c st u n raw osrc rg =
     match osrc with
     | Some src => match fetch_range (st_store st) src rg with
                   | Some data => (fst (fst (put_part c st u n data)), ROk,
                                   flag 7 raw ++ flag 2 (is_dir_at (st_store st) src) ++
                                   flag 3 (range_at_end (st_store st) src rg))
                   | None => (st, RErr, flag 7 raw)
                   end
     | None => (st, RErr, flag 7 raw)
     end).
Proof.
  intros c st u n raw osrc rg. unfold mp_copy, put_part.
  destruct (get_upload st u) as [up|]; [|left; exists RNoUpload; auto].
  destruct (u_dir up); [|left; exists RNoUpload; auto].
  destruct (part_refused n); [left; exists RErr; auto|].
  right. split; [reflexivity|]. destruct osrc as [src|]; [destruct (fetch_range (st_store st) src rg)|]; reflexivity.
Qed.

(* what the specification's UploadPartCopy reads from its source *)
Definition copy_data (objs : list (path * bytes)) (src : path) (rg : option (N * N)) : option bytes :=
  match sfind objs src, rg with
  | None, _ => None
  | Some d, None => Some d
  | Some d, Some (a, b) => match ref_spec (RClosed a b) (Z.of_N (blen d)) with
                           | Some (o, l) => Some (slice d (Z.to_N o) (Z.to_N l))
                           | None => None
                           end
  end.

Lemma sstep_mp_copy : forall ss u n src rg, sstep ss (MpCopy u n src rg) =
  match copy_data (ss_objs ss) src rg with Some d => s_put_part ss u n d | None => (ss, EFail) end.
Proof.
  intros ss u n src rg. cbn [sstep]. unfold copy_data.
  destruct (sfind (ss_objs ss) src) as [d|]; [|reflexivity]. destruct rg as [[a b]|]; [|reflexivity].
  destruct (ref_spec (RClosed a b) (Z.of_N (blen d))) as [[o l]|]; reflexivity.
Qed.

Section Refinement.
Variable c : cfg.
Hypothesis Hchunk : 0 < c_chunk c.

Definition hist_ok (h : list (N * bytes)) : Prop := forall n, In n (map fst h) -> 1 <= n /\ n <= 10000.

(* an upload id on both sides: unknown; known and gone (completed, aborted); or holding the parts
   of one history of accepted part uploads *)
Inductive up_rel : option upload -> option sup -> Prop :=
| up_none : up_rel None None
| up_gone : forall k, k <> [] ->
    up_rel (Some {| u_key := k; u_dir := None |}) (Some {| su_key := k; su_parts := None |})
| up_live : forall k h, k <> [] -> hist_ok h ->
    up_rel (Some {| u_key := k; u_dir := Some (dir_of c h) |})
           (Some {| su_key := k; su_parts := Some (parts_of h) |}).

Definition files_ok (s : store) : Prop := forall q f, find s q = Some (File f) -> file_ok f.

(* the refinement relation between the gateway+filer model and the flat specification *)
Definition R (st : state) (ss : sstate) : Prop :=
  (forall q, obj_at (st_store st) q = sfind (ss_objs ss) q) /\
  files_ok (st_store st) /\
  Forall2 (fun up sp => up_rel (Some up) (Some sp)) (st_ups st) (ss_ups ss).

Lemma R_init : R init_state sinit.
Proof. split; [reflexivity|]. split; [intros q f H; discriminate|constructor]. Qed.

(* an answer that changes neither state *)
Lemma R_same : forall st ss, R st ss -> forall e r, meets e r = true -> meets e r = true /\ R st ss.
Proof. intros st ss HR e r M. exact (conj M HR). Qed.

Lemma R_lookup : forall st ss u, R st ss -> up_rel (get_upload st u) (nth_error (ss_ups ss) (N.to_nat u)).
Proof.
  intros st ss u [_ [_ H]]. unfold get_upload. generalize (N.to_nat u).
  induction H; intros [|n]; simpl; auto using up_none.
Qed.

Lemma files_ok_removed : forall s' s (ks : path -> bool),
  (forall q, file_at s' q = if ks q then None else file_at s q) -> files_ok s -> files_ok s'.
Proof.
  intros s' s ks H Hf q f Hq. apply file_at_some in Hq. rewrite H in Hq.
  destruct (ks q); [discriminate Hq|]. apply (Hf q f), file_at_some, Hq.
Qed.

Lemma write_rel : forall s objs k f, (forall q, obj_at s q = sfind objs q) -> files_ok s -> k <> [] ->
  trig_write s k = false -> file_ok f ->
  exists s', create_entry s k (File f) = (s', true) /\
             (forall q, obj_at s' q = sfind (sput objs k (file_bytes f)) q) /\ files_ok s'.
Proof.
  intros s objs k f H1 H2 Hk T Hf.
  destruct (create_file_spec s k f Hk T) as [s' [E1 E2]]. exists s'. split; [exact E1|]. split.
  - intros q. rewrite obj_at_file_at, E2, sfind_sput, <- H1, obj_at_file_at.
    destruct (path_eqb k q); reflexivity.
  - intros q g Hg. apply file_at_some in Hg. rewrite E2 in Hg.
    destruct (path_eqb k q); [injection Hg as <-; exact Hf|apply (H2 q g), file_at_some, Hg].
Qed.

Lemma put_obj_refines : forall st ss k b, R st ss -> k <> [] -> snd (put_obj c st k b) = [] ->
  meets EOk (snd (fst (put_obj c st k b))) = true /\
  R (fst (fst (put_obj c st k b))) {| ss_objs := sput (ss_objs ss) k b; ss_ups := ss_ups ss |}.
Proof.
  intros st ss k b [R1 [R2 R3]] Hk. unfold put_obj.
  destruct (http_put (st_store st) k (store_body c b)) as [s' ok] eqn:Ep. cbn [fst snd]. intros T.
  apply flag_nil in T. rewrite (http_put_is_create _ _ _ T) in Ep.
  destruct (write_rel _ (ss_objs ss) k _ R1 R2 Hk T (store_body_ok c b Hchunk)) as [s1 [E1 [E2 E3]]].
  rewrite E1 in Ep. injection Ep as <- <-. rewrite (store_body_bytes c b Hchunk) in E2.
  split; [reflexivity|]. exact (conj E2 (conj E3 R3)).
Qed.

(* an accepted part upload extends the history of the upload; a refused one changes nothing *)
Lemma put_part_refines : forall st ss u n b, R st ss ->
  meets (snd (s_put_part ss u n b)) (snd (fst (put_part c st u n b))) = true /\
  R (fst (fst (put_part c st u n b))) (fst (s_put_part ss u n b)).
Proof.
  intros st ss u n b HR. unfold put_part, s_put_part.
  destruct (R_lookup st ss u HR) as [|k Hk|k h Hk Hh]; cbn [u_dir su_parts]; try (split; [reflexivity|exact HR]).
  rewrite part_refused_valid. destruct (valid_part n) eqn:Hv; cbn [negb]; [|split; [reflexivity|exact HR]].
  split; [reflexivity|]. destruct HR as [R1 [R2 R3]]. split; [exact R1|]. split; [exact R2|].
  apply Forall2_set_nth; [exact R3|]. cbn [u_key su_key].
  change (dir_put _ _ _) with (dir_step c (dir_of c h) (n, b)).
  change (parts_put _ _ _) with (parts_step (parts_of h) (n, b)).
  rewrite <- dir_of_snoc, <- parts_of_snoc. apply up_live; [exact Hk|].
  intros m Hm. rewrite map_app in Hm. apply in_app_or in Hm. destruct Hm as [Hm|[<-|[]]]; [exact (Hh m Hm)|].
  unfold valid_part, in_range in Hv. cbn [fst]. lia.
Qed.

Lemma hist_le : forall h, hist_ok h -> forall n, In n (map fst h) -> n <= 10000.
Proof. intros h Hh n Hn. apply Hh. exact Hn. Qed.

Lemma hist_agree : forall h, hist_ok h -> trig_order (map fst h) = false ->
  forall n m, In n (map fst h) -> In m (map fst h) -> agree n m.
Proof.
  intros h Hh T n m Hn Hm. apply name_order; [apply Hh, Hn|apply Hh, Hm|].
  apply (trig_order_pairs (map fst h)); assumption.
Qed.

Lemma dir_suffix : forall h, hist_ok h -> forall e, In e (dir_of c h) -> has_part_suffix (fst e) = true.
Proof.
  intros h _. apply dir_of_suffix.
Qed.

Lemma takeN_in : forall {A} (l : list A) n x, In x (takeN n l) -> In x l.
Proof.
  induction l as [|a l IH]; intros n x H; simpl in *; auto.
  destruct (n =? 0); simpl in H; [contradiction|]. destruct H as [H|H]; auto. right. eapply IH; eauto.
Qed.

Lemma list_parts_refines : forall h, hist_ok h -> trig_order (map fst h) = false ->
  let d := dir_of c h in
  map (fun e => (part_number_of (fst e), file_size (snd e)))
    (filter (fun e => has_part_suffix (fst e))
       (takeN max_parts_list (filter (fun e => lex_ltb (part_name 0) (fst e)) d))) =
  map (fun p => (fst p, blen (snd p))) (parts_of h).
Proof.
  intros h Hh T d. subst d. rewrite (dir_of_parts c h (hist_le h Hh) (hist_agree h Hh T)).
  assert (Hin : forall p, In p (parts_of h) -> 1 <= fst p /\ fst p <= 10000).
  { intros p Hp. apply Hh. apply parts_of_numbers. apply in_map. exact Hp. }
  rewrite (filter_all_true (fun e => lex_ltb (part_name 0) (fst e))).
  2: { intros e He. apply in_map_iff in He. destruct He as [p [<- Hp]]. apply name_after_zero; apply (Hin p Hp). }
  rewrite takeN_all.
  2: { unfold nlen. rewrite map_length.
       pose proof (ascending_length (parts_of h) 1 10000 (parts_of_ascending h) Hin). unfold max_parts_list. lia. }
  rewrite filter_all_true.
  2: { intros e He. apply in_map_iff in He. destruct He as [p [<- _]]. apply part_name_suffix. }
  rewrite map_map. apply map_ext_in. intros p Hp. unfold enc. cbn [fst snd].
  rewrite (part_number_of_name _ (proj2 (Hin p Hp))).
  rewrite (file_ok_size _ (store_body_ok c (snd p) Hchunk)), (store_body_bytes c _ Hchunk). reflexivity.
Qed.

Lemma complete_refines : forall h, hist_ok h -> trig_inline (dir_of c h) = false ->
  file_ok (completed_file (dir_of c h)) /\
  file_bytes (completed_file (dir_of c h)) = List.concat (map snd (parts_of h)) /\
  map (fun e => part_number_of (fst e)) (sort_by_number (dir_of c h)) = map fst (parts_of h).
Proof.
  intros h Hh T. pose proof (hist_le h Hh) as Hle. split; [|split].
  - apply completed_file_ok, (complete_suffix c h Hle).
  - apply (complete_concat c h Hchunk Hle T).
  - rewrite (sorted_dir_is_parts c h Hle), map_map. apply map_ext_in. intros q Hq.
    apply (knum_enc c q), Hle, parts_of_numbers, in_map, Hq.
Qed.

(* what UploadPartCopy fetches, when it raises no trigger, is what the specification reads *)
Lemma fetch_range_refines : forall s objs src rg, (forall q, obj_at s q = sfind objs q) -> files_ok s ->
  src <> [] ->
  match fetch_range s src rg with
  | Some data => is_dir_at s src = false -> range_at_end s src rg = false -> copy_data objs src rg = Some data
  | None => copy_data objs src rg = None
  end.
Proof.
  intros s objs src rg H1 H2 Hs. unfold fetch_range, copy_data, is_dir_at, range_at_end.
  rewrite (find_node_nonempty s src Hs), <- H1. unfold obj_at.
  destruct (find s src) as [[|f]|] eqn:Ef; [discriminate| |reflexivity].
  pose proof (H2 src f Ef) as Hok. rewrite (file_ok_size f Hok).
  destruct rg as [[a b]|]; [|reflexivity].
  destruct (ref_spec (RClosed a b) (Z.of_N (blen (file_bytes f)))) as [[o l]|] eqn:Er.
  - rewrite (parse_spec_ref _ _ _ Er). intros _ _.
    destruct (ref_spec_in_bounds _ _ _ Er) as [B1 [B2 B3]]. cbn [fst snd] in B1, B2, B3.
    rewrite read_file_slice; [reflexivity|exact Hok|]. rewrite (file_ok_size f Hok). lia.
  - (* parseRange accepts what the reference does not only when the range starts at the end: trigger 3 *)
    destruct (parse_spec (RClosed a b) (Z.of_N (blen (file_bytes f)))) as [[o l]|] eqn:Ep; [|reflexivity].
    intros _ Hend. exfalso. cbn [parse_spec ref_spec] in Ep, Er.
    destruct (Z.of_N a >? Z.of_N (blen (file_bytes f)))%Z eqn:G1; [discriminate|].
    destruct (Z.of_N a >? Z.of_N b)%Z eqn:G2; [discriminate|].
    destruct ((Z.of_N a <=? Z.of_N b) && (Z.of_N a <? Z.of_N (blen (file_bytes f))))%Z eqn:G3; [discriminate|].
    lia.
Qed.

(* UploadPartCopy with the source as the filer sees it (osrc) against the specification's, on the literal key *)
Lemma mp_copy_refines : forall st ss u n raw osrc src rg, R st ss -> src <> [] -> (raw = false -> osrc = Some src) ->
  snd (mp_copy c st u n raw osrc rg) = [] ->
  meets (snd (sstep ss (MpCopy u n src rg))) (snd (fst (mp_copy c st u n raw osrc rg))) = true /\
  R (fst (fst (mp_copy c st u n raw osrc rg))) (fst (sstep ss (MpCopy u n src rg))).
Proof.
  intros st ss u n raw osrc src rg HR Hs Hraw. pose proof HR as [R1 [R2 _]]. rewrite sstep_mp_copy.
  destruct (mp_copy_put c st u n raw osrc rg) as [[r [Hr [-> P]]]|[P ->]].
  - (* refused before the source is read *)
    intros _. destruct (copy_data (ss_objs ss) src rg) as [d|].
    + pose proof (put_part_refines st ss u n d HR) as Q. rewrite (P d) in Q. exact Q.
    + split; [apply refusal_meets, Hr|exact HR].
  - destruct raw; [destruct osrc as [s0|]; [destruct (fetch_range (st_store st) s0 rg)|]; discriminate|].
    rewrite (Hraw eq_refl).
    pose proof (fetch_range_refines (st_store st) (ss_objs ss) src rg R1 R2 Hs) as F.
    destruct (fetch_range (st_store st) src rg) as [data|].
    + cbn [fst snd flag app]. intros T. apply app_eq_nil in T. destruct T as [T2 T3].
      rewrite (F (flag_nil _ _ T2) (flag_nil _ _ T3)).
      pose proof (put_part_refines st ss u n data HR) as Q. rewrite (P data) in Q. exact Q.
    + intros _. rewrite F. split; [reflexivity|exact HR].
Qed.

(* CompleteMultipartUpload: with no trigger the request lists exactly the uploaded numbers, and both
   sides bind the key to the concatenation of the parts *)
Lemma mp_complete_refines : forall st ss u ns, R st ss -> snd (step c st (MpComplete u ns)) = [] ->
  meets (snd (sstep ss (MpComplete u ns))) (snd (fst (step c st (MpComplete u ns)))) = true /\
  R (fst (fst (step c st (MpComplete u ns)))) (fst (sstep ss (MpComplete u ns))).
Proof.
  intros st ss u ns HR. pose proof HR as [R1 [R2 R3]]. cbn [step sstep].
  pose proof (R_same st ss HR) as Same.
  destruct (R_lookup st ss u HR) as [|k Hk|k h Hk Hh]; cbn [u_dir su_parts u_key su_key];
    try (intros _; apply Same; reflexivity).
  rewrite (listed_all c h (hist_le h Hh)).
  destruct (dir_of c h) as [|e0 es0] eqn:El.
  { rewrite (dir_of_nil_inv c h El). intros _. apply Same. reflexivity. }
  assert (Hne : h <> []) by (intros ->; discriminate El). rewrite <- El. clear El e0 es0.
  destruct (create_entry (st_store st) k (File (completed_file (dir_of c h)))) as [s' ok] eqn:Ec.
  intros T. assert (T' : flag 0 (trig_inline (dir_of c h)) ++ flag 2 (trig_write (st_store st) k) ++
                   flag 6 (negb (nums_eqb ns (map (fun e => part_number_of (fst e))
                                                  (sort_by_number (dir_of c h))))) = []) by (destruct ok; exact T).
  clear T. apply app_eq_nil in T'. destruct T' as [T0 T']. apply app_eq_nil in T'. destruct T' as [T2 T6].
  apply flag_nil in T0. apply flag_nil in T2. apply flag_nil, negb_false_iff, nums_eqb_eq in T6.
  destruct (complete_refines h Hh T0) as [Cok [Cbytes Cnums]]. rewrite Cnums in T6. subst ns.
  destruct (write_rel _ (ss_objs ss) k _ R1 R2 Hk T2 Cok) as [s1 [E1 [E2 E3]]].
  rewrite E1 in Ec. injection Ec as <- <-. rewrite Cbytes in E2.
  pose proof (strict_asc_self _ (parts_of_ascending h)) as S1. pose proof (pick_self _ (parts_of_ascending h)) as S2.
  destruct (parts_of h) as [|p0 ps0] eqn:Ep.
  { destruct (Hne (parts_of_nil_inv h Ep)). }
  cbn [map] in S1, S2 |- *. rewrite S1, S2.
  split; [reflexivity|]. split; [exact E2|]. split; [exact E3|].
  apply Forall2_set_nth; [exact R3|]. apply up_gone, Hk.
Qed.

Theorem step_refines : forall st ss o, R st ss -> op_in_domain o = true -> snd (step c st o) = [] ->
  meets (snd (sstep ss o)) (snd (fst (step c st o))) = true /\ R (fst (fst (step c st o))) (fst (sstep ss o)).
Proof.
  intros st ss o HR Hdom. pose proof HR as [R1 [R2 R3]].
  pose proof (R_same st ss HR) as Same.
  destruct o as [k b|k b t|src dst|k rg|k|ks|k|u n b|u n b t|u n src rg|u ns|u|u];
    cbn [op_in_domain] in Hdom; cbn [step sstep].
  - apply put_obj_refines; [exact HR|apply nonempty_true, Hdom].
  - destruct t; [intros _; apply Same; reflexivity|].
    apply put_obj_refines; [exact HR|apply nonempty_true, Hdom].
  - (* Copy *)
    apply andb_prop in Hdom. destruct Hdom as [Hs Hd]. apply nonempty_true in Hs. apply nonempty_true in Hd.
    destruct (path_eqb src dst); [intros _; apply Same; reflexivity|].
    destruct (raw_meta src || raw_meta dst).
    { (* a key with '%', '?' or '#': trigger 7 *)
      destruct (copy_obj c st (raw_path src) (raw_path dst)) as [[? ?] ?]. discriminate. }
    unfold copy_obj, fetch_any, is_dir_at. rewrite (find_node_nonempty _ src Hs), <- (R1 src). unfold obj_at.
    destruct (find (st_store st) src) as [[|fs]|].
    + (* the source key is a directory: trigger 2 *)
      destruct (http_put _ _ _) as [s' ok]. cbn [snd]. intros T. apply app_eq_nil in T. destruct T as [_ T]. discriminate T.
    + cbn [flag]. rewrite !app_nil_r.
      apply (put_obj_refines st ss dst (file_bytes fs) HR Hd).
    + intros _. apply Same. reflexivity.
  - (* Get *)
    apply nonempty_true in Hdom. intros _. cbn [fst snd]. rewrite <- (R1 k). unfold obj_at.
    destruct (find (st_store st) k) as [[|f]|] eqn:Ef.
    + apply Same. unfold get_obj. rewrite (find_node_nonempty _ k Hdom), Ef. reflexivity.
    + destruct rg as [sp|].
      * destruct (ref_spec sp (Z.of_N (blen (file_bytes f)))) as [[o l]|] eqn:Er; [|apply Same; reflexivity].
        rewrite (get_range _ k f sp o l Hdom Ef (R2 k f Ef) Er). apply Same, bytes_eqb_refl.
      * rewrite (get_whole _ k f Hdom Ef). apply Same, bytes_eqb_refl.
    + apply Same. unfold get_obj. rewrite (find_node_nonempty _ k Hdom), Ef. reflexivity.
  - (* Del *)
    cbn [fst snd]. intros T. apply flag_nil in T. split; [reflexivity|]. split; [|split; [|exact R3]].
    + intros q. cbn [st_store ss_objs]. rewrite (delete_exact _ _ T), sfind_sremove, R1. reflexivity.
    + apply (files_ok_removed _ _ (fun q => path_eqb q k) (delete_files _ k T) R2).
  - (* BatchDel *)
    assert (Hne : forall k, In k ks -> k <> []).
    { intros k Hk. apply nonempty_true. rewrite forallb_forall in Hdom. apply Hdom, Hk. }
    intros _. split; [reflexivity|]. split; [|split; [|exact R3]].
    + intros q. cbn [fst st_store ss_objs]. rewrite (batch_delete_exact _ ks Hne), sfind_fold_sremove, R1. reflexivity.
    + apply (files_ok_removed _ _ (fun q => existsb (path_eqb q) ks) (batch_delete_files _ ks Hne) R2).
  - (* MpCreate *)
    intros _. split; [reflexivity|]. split; [exact R1|]. split; [exact R2|].
    apply Forall2_app; [exact R3|]. constructor; [|constructor].
    apply (up_live k []); [apply nonempty_true, Hdom|intros m []].
  - intros _. apply put_part_refines, HR.
  - (* MpPutS *)
    destruct t.
    + destruct (mp_put_s_tampered c st u n b) as [r [E Hr]]. cbn [step] in E. rewrite E.
      intros _. apply Same, refusal_meets, Hr.
    + pose proof (mp_put_s_intact c st u n b) as E. cbn [step] in E. rewrite E.
      intros _. apply put_part_refines, HR.
  - (* MpCopy: a source key with '%', '?' or '#' raises trigger 7 unless the request is refused first *)
    apply nonempty_true in Hdom.
    destruct (raw_meta src); apply mp_copy_refines; try exact HR; try exact Hdom; [discriminate|reflexivity].
  - apply mp_complete_refines, HR.
  - (* MpAbort *)
    intros _. destruct (R_lookup st ss u HR) as [|k Hk|k h Hk Hh]; [apply Same; reflexivity| |];
      (split; [reflexivity|]; split; [exact R1|]; split; [exact R2|]; apply Forall2_set_nth; [exact R3|apply up_gone, Hk]).
  - (* MpList *)
    destruct (R_lookup st ss u HR) as [|k Hk|k h Hk Hh]; cbn [u_dir su_parts fst snd];
      try (intros _; apply Same; reflexivity).
    intros T. apply flag_nil in T. rewrite (trig_order_dir c h (hist_le h Hh)) in T.
    rewrite (list_parts_refines h Hh T). apply Same, pairs_eqb_refl.
Qed.

Theorem run_refines : forall ops st ss, R st ss -> forallb op_in_domain ops = true ->
  snd (fst (run c st ops)) = [] ->
  all2 meets (fst (srun ss ops)) (fst (fst (run c st ops))) = true /\ R (snd (run c st ops)) (snd (srun ss ops)).
Proof.
  induction ops as [|o ops IH]; intros st ss HR Hdom; [intros _; split; [reflexivity|exact HR]|].
  simpl in Hdom. apply andb_prop in Hdom. destruct Hdom as [Hd1 Hd2].
  pose proof (step_refines st ss o HR Hd1) as S. cbn [run srun].
  destruct (step c st o) as [[st1 r1] fl1]. destruct (sstep ss o) as [ss1 e1]. cbn [fst snd] in S.
  specialize (IH st1 ss1). destruct (run c st1 ops) as [[rs1 fls1] fin1]. destruct (srun ss1 ops) as [es1 sfin1].
  cbn [fst snd] in *. intros T. apply app_eq_nil in T. destruct T as [T1 T2].
  destruct (S T1) as [M1 HR1]. destruct (IH HR1 Hd2 T2) as [M2 HR2].
  split; [|exact HR2]. cbn [all2]. rewrite M1, M2. reflexivity.
Qed.

End Refinement.

(* C28 over whole histories: starting from the empty bucket, for every configuration with a
   positive chunk size and every history of requests inside the domain on
   which no known-finding trigger fires: every GET (whole or satisfiable range) and every
   ListParts answer is the one of the flat S3 specification, and at the end the file entries
   under the bucket are exactly the specification's objects, byte for byte *)
Theorem history_refines_spec : forall c ops rs fin es sfin,
  0 < c_chunk c -> forallb op_in_domain ops = true ->
  run c init_state ops = (rs, [], fin) -> srun sinit ops = (es, sfin) ->
  all2 meets es rs = true /\
  forall q, obj_at (st_store fin) q = sfind (ss_objs sfin) q.
Proof.
  intros c ops rs fin es sfin Hc Hd Er Es.
  pose proof (run_refines c Hc ops init_state sinit (R_init c) Hd) as H. rewrite Er, Es in H.
  destruct (H eq_refl) as [M [R1 _]]. exact (conj M R1).
Qed.

(* non-vacuity: a history inside the domain, without trigger, that exercises PUT, copy,
   multipart with an overwrite and out-of-order part numbers, ranged GET and deletes *)
Example history_example :
  let c := {| c_inline := 0; c_chunk := 4 |} in
  let ka := ["a"%string; "b"%string] in let kf := ["f"%string] in let kg := ["g"%string; "h"%string] in
  let ops := [Put ka [1; 2; 3; 4; 5; 6]; Copy ka kg; MpCreate kf; MpPut 0 10000 [7; 7; 7; 7; 7];
              MpPut 0 2 [8]; MpPut 0 2 [9; 9]; MpCopy 0 1001 ka (Some (1, 3)); MpComplete 0 [2; 1001; 10000];
              Get kf None; Get kf (Some (RClosed 1 6)); Del ka; BatchDel [kg; ka]; Get kg None] in
  forallb op_in_domain ops = true /\
  snd (fst (run c init_state ops)) = [] /\
  fst (fst (run c init_state ops)) =
    [ROk; ROk; ROk; ROk; ROk; ROk; ROk; ROk;
     RData [9; 9; 2; 3; 4; 7; 7; 7; 7; 7]; RData [9; 2; 3; 4; 7; 7]; ROk; ROk; RNotFound] /\
  objects (st_store (snd (run c init_state ops))) = [(kf, [9; 9; 2; 3; 4; 7; 7; 7; 7; 7])].
Proof. vm_compute. repeat split; reflexivity. Qed.

(* finding 6: CompleteMultipartUpload with the part list [1; 3] of an upload that holds parts 1, 2, 3:
   the gateway never reads the list and assembles all three parts *)
Theorem complete_list_refuted :
  let kf := ["f"%string] in
  let ops := [MpCreate kf; MpPut 0 1 [1; 1]; MpPut 0 2 [2]; MpPut 0 3 [3; 3]; MpComplete 0 [1; 3]; Get kf None] in
  forallb op_in_domain ops = true /\
  run cfg_plain init_state ops =
    ([ROk; ROk; ROk; ROk; ROk; RData [1; 1; 2; 3; 3]], [6], snd (run cfg_plain init_state ops)) /\
  fst (srun sinit ops) = [EOk; EOk; EOk; EOk; EOk; EData [1; 1; 3; 3]] /\
  all2 meets (fst (srun sinit ops)) (fst (fst (run cfg_plain init_state ops))) = false.
Proof. vm_compute. repeat split; reflexivity. Qed.

Definition part_op_number (o : op) : option N :=
  match o with
  | MpPut _ n _ | MpPutS _ n _ _ | MpCopy _ n _ _ => Some n
  | _ => None
  end.

(* PutObjectPartHandler / CopyObjectPartHandler test partID < 1 || partID > globalMaxPartID = 10000 before
   anything else: in every state and configuration a part upload, streaming part upload or part copy
   with a number outside 1..10000 is answered with an error, raises no trigger and changes nothing *)
Theorem part_number_range : forall c st o n, part_op_number o = Some n -> valid_part n = false ->
  exists r, step c st o = (st, r, []) /\ refusal r = true.
Proof.
  intros c st o n Ho Hv.
  assert (Hr : part_refused n = true) by (rewrite part_refused_valid, Hv; reflexivity).
  destruct o as [| | | | | | |u m b|u m b t|u m src rg| | |]; try discriminate; injection Ho as ->;
    destruct (put_part_refused c st u n Hr) as [r [Rr P]].
  - exists r. cbn [step]. rewrite P. auto.
  - destruct t; [destruct (mp_put_s_tampered c st u n b) as [r' [E R']]; eauto|].
    exists r. rewrite mp_put_s_intact, P. auto.
  - (* the copy is refused like the upload: its other outcome needs a part upload that succeeds *)
    assert (G : forall raw osrc, exists r0, mp_copy c st u n raw osrc rg = (st, r0, []) /\ refusal r0 = true).
    { intros raw osrc. destruct (mp_copy_put c st u n raw osrc rg) as [[r' [R' [E _]]]|[Ok _]]; [eauto|].
      specialize (Ok []). rewrite P in Ok. cbn in Ok. subst r. discriminate Rr. }
    cbn [step]. destruct (raw_meta src); apply G.
Qed.

(* conversely the test refuses nothing inside the S3 range: an intact part upload with a number in
   1..10000 to a live upload is acknowledged and stored under its part name *)
Theorem part_number_accepted : forall c st u up d n b,
  get_upload st u = Some up -> u_dir up = Some d -> valid_part n = true ->
  step c st (MpPut u n b) =
    (set_updir st u up (Some (dir_put (part_name n) (store_body c b) d)), ROk, []).
Proof.
  intros c st u up d n b Hu Hd Hv. cbn [step]. unfold put_part. rewrite Hu, Hd.
  assert (Hr : part_refused n = false) by (rewrite part_refused_valid, Hv; reflexivity).
  rewrite Hr. reflexivity.
Qed.

(* parts 0, 10001 and 100000 are refused, ListParts and the completed object hold part 1 only, no
   trigger fires and every answer meets the specification *)
Theorem part_range_repaired :
  let kf := ["f"%string] in
  let ops := [MpCreate kf; MpPut 0 0 [7]; MpPut 0 1 [1]; MpPut 0 10001 [9]; MpPut 0 100000 [8]; MpList 0;
              MpComplete 0 [1]; Get kf None] in
  forallb op_in_domain ops = true /\
  run cfg_plain init_state ops =
    ([ROk; RErr; ROk; RErr; RErr; RParts [(1, 1)]; ROk; RData [1]], [], snd (run cfg_plain init_state ops)) /\
  fst (srun sinit ops) = [EOk; EFail; EOk; EFail; EFail; EParts [(1, 1)]; EOk; EData [1]] /\
  all2 meets (fst (srun sinit ops)) (fst (fst (run cfg_plain init_state ops))) = true.
Proof. vm_compute. repeat split; reflexivity. Qed.

(* the specification of CompleteMultipartUpload, stated on its own: a request that lists uploaded part
   numbers in ascending order yields exactly the listed parts' bodies, in that order *)
Theorem pick_listed : forall ns ps bs, pick ns ps = Some bs ->
  map Some bs = map (fun n => pget n ps) ns.
Proof.
  induction ns as [|n ns IH]; intros ps bs H; cbn [pick] in H.
  - injection H as <-. reflexivity.
  - destruct (pget n ps) as [b|] eqn:E1; [|discriminate].
    destruct (pick ns ps) as [bs'|] eqn:E2; [|discriminate]. injection H as <-.
    cbn [map]. rewrite E1. f_equal. apply IH. exact E2.
Qed.

(* the part list that raises no trigger 6 selects every uploaded part *)
Theorem pick_all : forall h, pick (map fst (parts_of h)) (parts_of h) = Some (map snd (parts_of h)).
Proof. intros h. apply pick_self. apply parts_of_ascending. Qed.

(* finding 7, the raw key in the filer URL of CopyObject / UploadPartCopy: on every key without '%', '?',
   '#' (blank, '+', '&', '=' and all other characters included) the raw-URL route sees the literal
   key, like urlPathEscape and the gRPC routes *)
Lemma seg_literal : forall g, seg_meta g = false -> seg_cut g = (g, false) /\ seg_unescape g = Some g.
Proof.
  induction g as [|a r IH]; cbn [seg_meta seg_cut seg_unescape]; intros H; [split; reflexivity|].
  apply orb_false_iff in H. destruct H as [H1 H2]. apply orb_false_iff in H1. destruct H1 as [H0 H1].
  destruct (IH H2) as [-> ->]. rewrite H0, H1. split; reflexivity.
Qed.

Lemma raw_literal : forall k, raw_meta k = false -> raw_cut k = k /\ raw_unescape k = Some k.
Proof.
  induction k as [|g r IH]; cbn [raw_cut raw_unescape]; intros H; [split; reflexivity|].
  apply orb_false_iff in H. destruct H as [H1 H2].
  destruct (seg_literal g H1) as [-> ->]. destruct (IH H2) as [-> ->]. split; reflexivity.
Qed.

Theorem raw_path_literal : forall k, raw_meta k = false -> raw_path k = Some k.
Proof. intros k H. unfold raw_path. destruct (raw_literal k H) as [-> E]. exact E. Qed.

(* .. so a copy between such keys reads and writes the literal keys and raises no trigger 7 *)
Theorem copy_literal_keys : forall c st src dst, raw_meta src = false -> raw_meta dst = false ->
  step c st (Copy src dst) =
    (if path_eqb src dst then (st, RErr, []) else copy_obj c st (raw_path src) (raw_path dst)) /\
  raw_path src = Some src /\ raw_path dst = Some dst /\
  forall u n r, step c st (MpCopy u n src r) = mp_copy c st u n false (raw_path src) r.
Proof.
  intros c st src dst Hs Hd. rewrite (raw_path_literal src Hs), (raw_path_literal dst Hd).
  cbn [step]. rewrite Hs, Hd. cbn [orb]. repeat split; reflexivity.
Qed.

(* the full statement (every route stores and reads a key under the literal key) fails on the code:
   CopyObject from "t?u" reads "t" *)
Theorem copy_raw_key_refuted :
  let kt := ["t"%string] in let kq := ["t?u"%string] in let kf := ["f"%string] in
  let ops := [Put kt [1]; Put kq [2; 3]; Copy kq kf; Get kf None] in
  forallb op_in_domain ops = true /\
  run cfg_plain init_state ops = ([ROk; ROk; ROk; RData [1]], [7], snd (run cfg_plain init_state ops)) /\
  fst (srun sinit ops) = [EOk; EOk; EOk; EData [2; 3]] /\
  all2 meets (fst (srun sinit ops)) (fst (fst (run cfg_plain init_state ops))) = false.
Proof. vm_compute. repeat split; reflexivity. Qed.

(* non-vacuity: one key with a blank and one with '+', '&', '=' through every route (HTTP-proxied
   put / get / delete, gRPC-side batch delete and multipart completion, raw-URL copy and part copy):
   no trigger fires and every answer is the specification's *)
Theorem cross_routes_example :
  let kb := ["x y"%string] in let kp := ["dir one"%string; "i+n&a=b"%string] in
  let ops := [Put kb [1; 2; 3]; BatchDel [kb]; Get kb None;
              MpCreate kb; MpPut 0 2 [5; 5]; MpPut 0 1 [4]; MpComplete 0 [1; 2]; Get kb None;
              Copy kb kp; Get kp (Some (RClosed 1 2)); Del kb; Get kb None;
              MpCreate kb; MpCopy 1 1 kp None; MpComplete 1 [1]; Get kb None; BatchDel [kp; kb]; Get kp None] in
  raw_meta kb = false /\ raw_meta kp = false /\
  forallb op_in_domain ops = true /\
  snd (fst (run cfg_plain init_state ops)) = [] /\
  fst (fst (run cfg_plain init_state ops)) =
    [ROk; ROk; RNotFound; ROk; ROk; ROk; ROk; RData [4; 5; 5]; ROk; RData [5; 5]; ROk; RNotFound;
     ROk; ROk; ROk; RData [4; 5; 5]; ROk; RNotFound] /\
  all2 meets (fst (srun sinit ops)) (fst (fst (run cfg_plain init_state ops))) = true.
Proof. vm_compute. repeat split; reflexivity. Qed.
