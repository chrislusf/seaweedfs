(* Proofs about model/LogBuf.v (C22): strictly increasing timestamp lists, the timestamps
   AddToBuffer assigns, and what the byte-level operations do on arrays of whole records. *)
From Coq Require Import List ZArith NArith Bool Lia.
From SW Require Import proof.ListFacts model.LogBuf.
Import ListNotations.
Local Open Scope Z_scope.

(* the timestamps of l strictly increase and all exceed lo *)
Fixpoint incr (lo : Z) (l : list entry) : Prop :=
  match l with
  | [] => True
  | e :: l' => lo < e_ts e /\ incr (e_ts e) l'
  end.

Lemma last_ts_cons : forall l e d, last_ts (e :: l) d = last_ts l (e_ts e).
Proof.
  induction l as [|x l IH]; intros e d; [reflexivity|].
  change (last_ts (e :: x :: l) d) with (last_ts (x :: l) d). rewrite !IH. reflexivity.
Qed.

Lemma last_ts_nil : forall d, last_ts [] d = d.
Proof. reflexivity. Qed.

Lemma last_ts_app : forall a b d, last_ts (a ++ b) d = last_ts b (last_ts a d).
Proof.
  induction a as [|e a IH]; intros b d; [reflexivity|].
  rewrite <- app_comm_cons, !last_ts_cons. apply IH.
Qed.

Lemma last_ts_default : forall l d d', l <> [] -> last_ts l d = last_ts l d'.
Proof. destruct l as [|x l]; intros; [congruence|]. rewrite !last_ts_cons. reflexivity. Qed.

Lemma last_ts_in : forall l d, l <> [] -> exists e, In e l /\ e_ts e = last_ts l d.
Proof.
  induction l as [|x l IH]; intros d Hne; [congruence|].
  rewrite last_ts_cons. destruct l as [|y l].
  - exists x. split; [left; auto|reflexivity].
  - destruct (IH (e_ts x)) as [e [Hin He]]; [congruence|]. exists e. split; [right; auto|auto].
Qed.

Lemma incr_weaken : forall l lo lo', lo' <= lo -> incr lo l -> incr lo' l.
Proof. destruct l as [|e l]; simpl; intros; [auto|]. split; [lia|tauto]. Qed.

Lemma incr_app : forall a b lo, incr lo (a ++ b) <-> incr lo a /\ incr (last_ts a lo) b.
Proof.
  induction a as [|e a IH]; intros b lo.
  - simpl. rewrite last_ts_nil. tauto.
  - rewrite <- app_comm_cons. simpl incr. rewrite last_ts_cons, IH. tauto.
Qed.

Lemma incr_lb : forall l lo e, incr lo l -> In e l -> lo < e_ts e.
Proof.
  induction l as [|x l IH]; intros lo e H Hin; [contradiction|]. destruct H as [H1 H2].
  destruct Hin as [->|Hin]; [auto|]. specialize (IH _ _ H2 Hin). lia.
Qed.

Lemma incr_lo_le_last : forall l lo, incr lo l -> lo <= last_ts l lo.
Proof.
  induction l as [|x l IH]; intros lo H; [rewrite last_ts_nil; lia|].
  destruct H as [H1 H2]. rewrite last_ts_cons. specialize (IH _ H2). lia.
Qed.

Lemma incr_in_le_last : forall l lo e, incr lo l -> In e l -> e_ts e <= last_ts l lo.
Proof.
  induction l as [|x l IH]; intros lo e H Hin; [contradiction|]. destruct H as [H1 H2].
  rewrite last_ts_cons. destruct Hin as [->|Hin]; [apply incr_lo_le_last|apply IH]; auto.
Qed.

(* in a strictly increasing list everything in the front part is below everything behind *)
Lemma incr_app_lt : forall a b lo x y, incr lo (a ++ b) -> In x a -> In y b -> e_ts x < e_ts y.
Proof.
  intros a b lo x y H Hx Hy. apply incr_app in H. destruct H as [Ha Hb].
  pose proof (incr_in_le_last _ _ _ Ha Hx). pose proof (incr_lb _ _ _ Hb Hy). lia.
Qed.

(* a strictly increasing list splits at any t: what is at or below t, then what is later *)
Lemma incr_split : forall l lo t, incr lo l ->
  exists pre, l = pre ++ filter (fun e => t <? e_ts e) l /\ (forall e, In e pre -> e_ts e <= t).
Proof.
  induction l as [|x l IH]; intros lo t H; [exists []; split; [reflexivity|contradiction]|].
  destruct H as [H1 H2]. cbn [filter]. destruct (t <? e_ts x) eqn:E.
  - exists []. split; [|contradiction]. cbn [app]. f_equal. symmetry. apply filter_all_true.
    intros e He. pose proof (incr_lb _ _ _ H2 He). lia.
  - destruct (IH _ t H2) as [pre [Heq Hp]]. exists (x :: pre).
    split; [cbn [app]; f_equal; exact Heq|]. intros e [<-|He]; [lia|auto].
Qed.

Definition new_entry (s : st) (ev len : Z) (id : N) : entry :=
  {| e_ts := adjust_ts (lastTs s) ev; e_len := len; e_id := id |}.

Definition op_events (s : st) (o : op) : list entry :=
  match o with Add ev len id => [new_entry s ev len id] | _ => [] end.

(* the events appended along a schedule, with the timestamps AddToBuffer assigned *)
Fixpoint run_events (iv : Z) (hf : bool) (y : sys) (ops : list op) : list entry :=
  match ops with
  | [] => []
  | o :: ops' => op_events (buf y) o ++ run_events iv hf (step iv hf y o) ops'
  end.

Lemma run_app : forall iv hf a b y, run iv hf y (a ++ b) = run iv hf (run iv hf y a) b.
Proof. intros iv hf a. induction a as [|o a IH]; intros b y; [reflexivity|]. cbn [app run]. apply IH. Qed.

Lemma adjust_gt : forall last ev, last < adjust_ts last ev.
Proof. intros. unfold adjust_ts. destruct (ev <=? last) eqn:E; lia. Qed.

(* a field that set_start, realloc and seal leave alone is the same when the record is written
   (used for lastTs and for the flush side: lastFlush, disk, inflight) *)
Lemma add_pre_frame : forall {A} (f : st -> A) iv hf s ev len,
  (forall s t, f (set_start s t) = f s) -> (forall s c, f (realloc s c) = f s) ->
  (forall s, f (seal hf s) = f s) -> f (add_pre iv hf s ev len) = f s.
Proof.
  intros A f iv hf s ev len Hs Hr Hl. unfold add_pre.
  set (sa := if pos s =? 0 then set_start s _ else s).
  assert (Hsa : f sa = f s) by (unfold sa; destruct (pos s =? 0); auto).
  destruct (rotates iv sa _ _); [|exact Hsa].
  destruct (cap _ <? _); rewrite ?Hr, Hs, Hl; exact Hsa.
Qed.

Lemma seal_lastTs : forall hf s, lastTs (seal hf s) = lastTs s.
Proof. intros. unfold seal. destruct (pos s =? 0); reflexivity. Qed.

Lemma flush_write_lastTs : forall s, lastTs (flush_write s) = lastTs s.
Proof. intros. unfold flush_write. destruct (inflight s), (queue s); reflexivity. Qed.

Lemma flush_mark_lastTs : forall s, lastTs (flush_mark s) = lastTs s.
Proof. intros. unfold flush_mark. destruct (inflight s); reflexivity. Qed.

Lemma step_lastTs : forall iv hf y o,
  lastTs (buf (step iv hf y o)) =
  match o with Add ev _ _ => adjust_ts (lastTs (buf y)) ev | _ => lastTs (buf y) end.
Proof.
  intros iv hf y o. destruct o; cbn [step buf]; try reflexivity.
  - apply seal_lastTs.
  - apply flush_write_lastTs.
  - apply flush_mark_lastTs.
Qed.

Lemma run_events_incr : forall iv hf ops y, incr (lastTs (buf y)) (run_events iv hf y ops).
Proof.
  intros iv hf ops. induction ops as [|o ops IH]; intros y; [exact I|].
  cbn [run_events]. specialize (IH (step iv hf y o)). rewrite step_lastTs in IH.
  destruct o; cbn [op_events app]; try exact IH.
  split; [apply adjust_gt | exact IH].
Qed.

Theorem ts_strict : forall iv hf c t0 ops,
  incr 0 (run_events iv hf {| buf := init c; subs := sub_init t0 |} ops).
Proof. intros. apply (run_events_incr iv hf ops {| buf := init c; subs := sub_init t0 |}). Qed.

Lemma rec_len_ge4 : forall e, 4 <= rec_len e.
Proof. intros. unfold rec_len. lia. Qed.

Lemma rec_len_gt4 : forall e, 0 < e_len e -> 4 < rec_len e.
Proof. intros. unfold rec_len. lia. Qed.

Lemma recs_len_nonneg : forall l, 0 <= recs_len l.
Proof. induction l as [|e l IH]; simpl; [lia|]. pose proof (rec_len_ge4 e). lia. Qed.

Lemma recs_len_app : forall a b, recs_len (a ++ b) = recs_len a + recs_len b.
Proof. induction a as [|e a IH]; intros b; simpl; [lia|]. rewrite IH. lia. Qed.

Lemma recs_len_zero : forall l, recs_len l = 0 -> l = [].
Proof.
  destruct l as [|e l]; intros H; [reflexivity|]. simpl in H.
  pose proof (rec_len_ge4 e). pose proof (recs_len_nonneg l). lia.
Qed.

Lemma cells_len_recs : forall l, cells_len (map Rec l) = recs_len l.
Proof. induction l as [|e l IH]; simpl; [reflexivity|]. rewrite IH. reflexivity. Qed.

Lemma take_bytes_zero : forall l, take_bytes 0 l = [].
Proof. destruct l; reflexivity. Qed.
Lemma drop_bytes_zero : forall l, drop_bytes 0 l = l.
Proof. destruct l; reflexivity. Qed.

(* cutting an array of records at a record boundary *)
Lemma take_bytes_recs : forall l rest, take_bytes (recs_len l) (map Rec l ++ rest) = map Rec l.
Proof.
  induction l as [|e l IH]; intros rest; [apply take_bytes_zero|].
  cbn [map app recs_len fold_right take_bytes cell_len]. fold (recs_len l).
  pose proof (rec_len_ge4 e). pose proof (recs_len_nonneg l).
  destruct (rec_len e + recs_len l <=? 0) eqn:E1; [lia|].
  destruct (rec_len e <=? rec_len e + recs_len l) eqn:E2; [|lia].
  replace (rec_len e + recs_len l - rec_len e) with (recs_len l) by lia.
  rewrite IH. reflexivity.
Qed.

Lemma drop_bytes_recs : forall pre suf,
  drop_bytes (recs_len pre) (map Rec (pre ++ suf)) = map Rec suf.
Proof.
  induction pre as [|e pre IH]; intros suf; [apply drop_bytes_zero|].
  cbn [map app recs_len fold_right drop_bytes cell_len]. fold (recs_len pre).
  pose proof (rec_len_ge4 e). pose proof (recs_len_nonneg pre).
  destruct (rec_len e + recs_len pre <=? 0) eqn:E1; [lia|].
  destruct (rec_len e <=? rec_len e + recs_len pre) eqn:E2; [|lia].
  replace (rec_len e + recs_len pre - rec_len e) with (recs_len pre) by lia.
  apply IH.
Qed.

Lemma decode_recs : forall l, (forall e, In e l -> 0 < e_len e) -> decode (map Rec l) = (l, DOk).
Proof.
  induction l as [|e l IH]; intros H; [reflexivity|].
  cbn [map decode]. 
  assert (Hl : 4 < cells_len (Rec e :: map Rec l)).
  { cbn [cells_len fold_right cell_len]. fold (cells_len (map Rec l)). rewrite cells_len_recs.
    pose proof (rec_len_gt4 e (H e (or_introl eq_refl))). pose proof (recs_len_nonneg l). lia. }
  destruct (cells_len (Rec e :: map Rec l) <=? 4) eqn:E; [lia|].
  rewrite IH; [reflexivity|]. intros x Hx. apply H. right. exact Hx.
Qed.

Lemma locate_recs : forall pre x suf rest t p,
  (forall e, In e pre -> e_ts e <= t) -> t < e_ts x ->
  locate (map Rec (pre ++ x :: suf) ++ rest) t p = Some (p + recs_len pre).
Proof.
  induction pre as [|e pre IH]; intros x suf rest t p Hpre Hx; cbn [app map locate recs_len fold_right].
  - destruct (t <? e_ts x) eqn:E; [f_equal; lia|lia].
  - fold (recs_len pre). pose proof (Hpre e (or_introl eq_refl)).
    destruct (t <? e_ts e) eqn:E; [lia|].
    rewrite IH; [f_equal; lia| |exact Hx]. intros y Hy. apply Hpre. right. exact Hy.
Qed.
