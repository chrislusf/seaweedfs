(* Facts about the standard list functions that several areas need and Coq 8.16's List
   does not have. *)
From Coq Require Import List Bool Lia.
Import ListNotations.

Lemma filter_all_true : forall {A} (f : A -> bool) l, (forall x, In x l -> f x = true) -> filter f l = l.
Proof.
  intros A f l. induction l as [|a l IH]; intros H; [reflexivity|]. simpl.
  rewrite (H a (or_introl eq_refl)), IH; [reflexivity|]. intros x Hx. apply H. right. exact Hx.
Qed.

Lemma forallb_filter_id : forall {A} (f : A -> bool) l, forallb f l = true -> filter f l = l.
Proof. intros A f l H. apply filter_all_true. apply forallb_forall. exact H. Qed.

Lemma filter_all_false : forall {A} (f : A -> bool) l, (forall x, In x l -> f x = false) -> filter f l = [].
Proof.
  intros A f l. induction l as [|a l IH]; intros H; [reflexivity|]. simpl.
  rewrite (H a (or_introl eq_refl)). apply IH. intros x Hx. apply H. right. exact Hx.
Qed.

Lemma existsb_false_iff : forall {A} (f : A -> bool) l, existsb f l = false <-> forall x, In x l -> f x = false.
Proof.
  intros A f l. split.
  - intros H x Hx. destruct (f x) eqn:E; [|reflexivity].
    rewrite (proj2 (existsb_exists f l) (ex_intro _ x (conj Hx E))) in H. discriminate.
  - intros H. destruct (existsb f l) eqn:E; [|reflexivity].
    apply existsb_exists in E. destruct E as [x [Hx Fx]]. rewrite (H x Hx) in Fx. discriminate.
Qed.

Lemma existsb_false_in : forall {A} (f : A -> bool) l x, existsb f l = false -> In x l -> f x = false.
Proof. intros A f l x H. exact (proj1 (existsb_false_iff f l) H x). Qed.

Lemma existsb_eqb_In : forall {A} (eqb : A -> A -> bool), (forall x y, eqb x y = true <-> x = y) ->
  forall x l, existsb (eqb x) l = true <-> In x l.
Proof.
  intros A eqb Heq x l. rewrite existsb_exists. split.
  - intros [y [Hy E]]. apply Heq in E. subst y. exact Hy.
  - intros H. exists x. split; [exact H | apply Heq; reflexivity].
Qed.

Lemma NoDup_map_filter : forall {A B} (f : A -> B) (p : A -> bool) l, NoDup (map f l) -> NoDup (map f (filter p l)).
Proof.
  intros A B f p l. induction l as [|a l IH]; intros H; [constructor|]. simpl in *.
  inversion H as [|? ? Hn Hd]; subst. destruct (p a); [|exact (IH Hd)].
  simpl. constructor; [|exact (IH Hd)]. intros Hin. apply Hn.
  apply in_map_iff in Hin. destruct Hin as [x [E Hx]]. apply filter_In in Hx.
  apply in_map_iff. exists x. split; [exact E | exact (proj1 Hx)].
Qed.

Lemma NoDup_map_inj : forall {A B} (f : A -> B) l x y, NoDup (map f l) -> In x l -> In y l -> f x = f y -> x = y.
Proof.
  intros A B f l. induction l as [|a l IH]; intros x y H Hx Hy E; [destruct Hx|].
  simpl in H. inversion H as [|? ? Hn Hd]; subst.
  destruct Hx as [Hx|Hx]; destruct Hy as [Hy|Hy]; subst.
  - reflexivity.
  - exfalso. apply Hn. rewrite E. apply in_map. exact Hy.
  - exfalso. apply Hn. rewrite <- E. apply in_map. exact Hx.
  - exact (IH x y Hd Hx Hy E).
Qed.

Lemma firstn_in : forall {A} n (l : list A) x, In x (firstn n l) -> In x l.
Proof. intros A n l x H. rewrite <- (firstn_skipn n l). apply in_or_app. left. exact H. Qed.

Lemma skipn_in : forall {A} n (l : list A) x, In x (skipn n l) -> In x l.
Proof. intros A n l x H. rewrite <- (firstn_skipn n l). apply in_or_app. right. exact H. Qed.

Lemma in_removelast : forall {A} (l : list A) x, In x (removelast l) -> In x l.
Proof.
  intros A l x. induction l as [|a l IH]; [intros []|]. destruct l as [|b l]; [intros []|].
  intros [E|H]; [left; exact E | right; exact (IH H)].
Qed.

Lemma skipn_add : forall {A} a b (l : list A), skipn (a + b) l = skipn b (skipn a l).
Proof.
  intros A a. induction a as [|a IH]; intros b l; [reflexivity|].
  destruct l as [|x l]; simpl; [destruct b; reflexivity | apply IH].
Qed.

Lemma firstn_add : forall {A} a b (l : list A), firstn (a + b) l = firstn a l ++ firstn b (skipn a l).
Proof.
  intros A a. induction a as [|a IH]; intros b l; [reflexivity|].
  destruct l as [|x l]; simpl; [destruct b; reflexivity | rewrite IH; reflexivity].
Qed.

Lemma firstn_app_exact : forall {A} (a b : list A) n, length a = n -> firstn n (a ++ b) = a.
Proof. intros A a b n E. subst n. rewrite firstn_app, firstn_all. replace (length a - length a) with 0 by lia. simpl. apply app_nil_r. Qed.

Lemma skipn_app_exact : forall {A} (a b : list A) n, length a = n -> skipn n (a ++ b) = b.
Proof. intros A a b n E. subst n. rewrite skipn_app, skipn_all. replace (length a - length a) with 0 by lia. reflexivity. Qed.

Lemma skipn_app_length : forall {A} (a b : list A), skipn (length a) (a ++ b) = b.
Proof. intros A a b. exact (skipn_app_exact a b _ eq_refl). Qed.

Lemma nth_firstn_lt : forall {A} n (l : list A) i d, i < n -> nth i (firstn n l) d = nth i l d.
Proof.
  intros A n. induction n as [|n IH]; intros l i d H; [lia|].
  destruct l as [|x l]; [destruct i; reflexivity|]. destruct i as [|i]; [reflexivity|]. simpl. apply IH. lia.
Qed.

Lemma nth_skipn : forall {A} k (l : list A) i d, nth i (skipn k l) d = nth (k + i) l d.
Proof.
  intros A k. induction k as [|k IH]; intros l i d; [reflexivity|].
  destruct l as [|x l]; [destruct i; reflexivity | apply IH].
Qed.

Lemma filter_filter : forall {A} (f g : A -> bool) l, filter f (filter g l) = filter (fun x => g x && f x) l.
Proof.
  intros A f g l. induction l as [|x l IH]; [reflexivity|]. simpl.
  destruct (g x); simpl; [destruct (f x); rewrite IH; reflexivity | exact IH].
Qed.

Lemma filter_length_le : forall {A} (f : A -> bool) l, length (filter f l) <= length l.
Proof. intros A f l. induction l as [|x l IH]; [apply le_n|]. simpl. destruct (f x); simpl; lia. Qed.

Lemma partition_filter : forall {A} (f : A -> bool) l, partition f l = (filter f l, filter (fun x => negb (f x)) l).
Proof.
  intros A f l. induction l as [|x l IH]; [reflexivity|]. simpl. rewrite IH. destruct (f x); reflexivity.
Qed.

Lemma fold_left_map : forall {A B C} (f : A -> B -> A) (g : C -> B) l a,
  fold_left f (map g l) a = fold_left (fun a x => f a (g x)) l a.
Proof. intros A B C f g l. induction l as [|x l IH]; intros a; [reflexivity | apply IH]. Qed.

(* Equality test on lists from an equality test on the elements. The models define it
   again for each element type (path_eqb, bytes_eqb, blob_eqb ...) with this very match,
   so their definitions are convertible to an instance of eqb_list. *)
Section EqbList.
  Context {A : Type} (eqb : A -> A -> bool).

  Fixpoint eqb_list (a b : list A) : bool :=
    match a, b with
    | [], [] => true
    | x :: a', y :: b' => eqb x y && eqb_list a' b'
    | _, _ => false
    end.

  Hypothesis eqb_eq : forall x y, eqb x y = true <-> x = y.

  Lemma eqb_list_eq : forall a b, eqb_list a b = true <-> a = b.
  Proof.
    induction a as [|x a IH]; destruct b as [|y b]; simpl; try (split; discriminate); [split; reflexivity|].
    rewrite andb_true_iff, eqb_eq, IH. split; [intros [-> ->]; reflexivity | intros E; inversion E; split; reflexivity].
  Qed.

  Lemma eqb_list_refl : forall a, eqb_list a a = true.
  Proof. intros a. apply eqb_list_eq. reflexivity. Qed.

  Lemma eqb_list_neq : forall a b, eqb_list a b = false <-> a <> b.
  Proof.
    intros a b. split.
    - intros H E. rewrite (proj2 (eqb_list_eq a b) E) in H. discriminate.
    - intros H. destruct (eqb_list a b) eqn:E; [|reflexivity]. apply eqb_list_eq in E. contradiction.
  Qed.

  Lemma eqb_list_spec : forall a b, reflect (a = b) (eqb_list a b).
  Proof. intros a b. apply iff_reflect. symmetry. apply eqb_list_eq. Qed.

  Lemma eqb_list_sym : forall a b, eqb_list a b = eqb_list b a.
  Proof.
    intros a b. destruct (eqb_list_spec a b) as [E|N]; symmetry.
    - apply eqb_list_eq. symmetry. exact E.
    - apply eqb_list_neq. intros E. apply N. symmetry. exact E.
  Qed.
End EqbList.
