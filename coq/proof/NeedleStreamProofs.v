(* C02: the stream writer (Volume.StreamWrite), the stream reader
   (Volume.StreamRead) and the raw-blob writer (WriteNeedleBlob) of model/NeedleStream.v. *)
From Coq Require Import List NArith ZArith Bool Lia ZifyBool ZifyN ZifyNat.
From SW Require Import model.Needle model.NeedleCrc model.NeedleStream
  proof.NeedleProofs proof.NeedleCrcProofs proof.NeedleScanProofs.
Import ListNotations.
Local Open Scope N_scope.

Lemma concat_chunks_of : forall szs l, concat (chunks_of szs l) = l.
Proof.
  induction szs as [|k r IH]; intros l.
  - destruct l; cbn; [reflexivity|]. rewrite app_nil_r. reflexivity.
  - cbn [chunks_of concat]. rewrite IH. apply takeN_dropN.
Qed.

Lemma lxor_ones_ones : forall x, N.lxor (N.lxor x 4294967295) 4294967295 = x.
Proof. intros. rewrite N.lxor_assoc, N.lxor_nilpotent, N.lxor_0_r. reflexivity. Qed.

(* CRC.Update is a continuation: updating with a, then with b, is updating with a ++ b *)
Lemma crc32c_update_app : forall c a b,
  crc32c_update (crc32c_update c a) b = crc32c_update c (a ++ b).
Proof.
  intros. unfold crc32c_update. rewrite lxor_ones_ones. unfold crc_reg.
  rewrite fold_left_app. reflexivity.
Qed.

Lemma crc32c_update_nil : forall c, crc32c_update c [] = c.
Proof. intros. unfold crc32c_update. cbn [crc_reg fold_left]. apply lxor_ones_ones. Qed.

Lemma crc_writer_from : forall chunks c,
  fold_left crc32c_update chunks c = crc32c_update c (concat chunks).
Proof.
  induction chunks as [|p r IH]; intros c; cbn [fold_left concat].
  - symmetry. apply crc32c_update_nil.
  - rewrite IH. apply crc32c_update_app.
Qed.

(* the checksum the CRC writer ends with is the checksum of everything written through it,
   however the data were cut into Write calls *)
Theorem crc_writer_whole : forall chunks,
  crc_writer crc32c_update chunks = crc32c (concat chunks).
Proof. intros. unfold crc_writer. rewrite crc_writer_from. reflexivity. Qed.

Theorem crc_writer_split_irrelevant : forall szs l,
  crc_writer crc32c_update (chunks_of szs l) = crc32c l.
Proof. intros. rewrite crc_writer_whole, concat_chunks_of. reflexivity. Qed.

Lemma stream_size_eq : forall ds, stream_size ds = 4 + ds + 1.
Proof. reflexivity. Qed.

Lemma no_field_flags_spec : forall fl, no_field_flags fl = true ->
  has_flag fl FlagHasName = false /\ has_flag fl FlagHasMime = false /\
  has_flag fl FlagHasLastModifiedDate = false /\ has_flag fl FlagHasTtl = false /\
  has_flag fl FlagHasPairs = false.
Proof.
  intros fl H. unfold no_field_flags in H.
  repeat (apply andb_true_iff in H; destruct H as [H ?]).
  repeat match goal with X : negb _ = true |- _ => apply negb_true_iff in X end.
  tauto.
Qed.

Lemma stream_needle_enc_ok : forall c i fl d ck ts, no_field_flags fl = true ->
  enc_okb (stream_needle c i fl d ck ts) = true.
Proof.
  intros c i fl d ck ts Hfl. destruct (no_field_flags_spec fl Hfl) as [_ [_ [_ [H4 H5]]]].
  unfold enc_okb, has_ttl, has_pairs, stream_needle. cbn [mime flags ttl pairs pairs_size].
  rewrite H4, H5. reflexivity.
Qed.

Lemma stream_needle_body_size : forall c i fl d ck ts, no_field_flags fl = true -> d <> [] ->
  body_size (stream_needle c i fl d ck ts) = stream_size (len d).
Proof.
  intros c i fl d ck ts Hfl Hne. destruct (no_field_flags_spec fl Hfl) as [H1 [H2 [H3 [H4 H5]]]].
  assert (Hpos : 0 <? len d = true) by (destruct d; [congruence|reflexivity]).
  unfold body_size, data_size, has_name, has_mime, has_lm, has_ttl, has_pairs, stream_needle.
  cbn [flags data]. rewrite Hpos, H1, H2, H3, H4, H5. unfold stream_size. lia.
Qed.

Lemma stream_needle_rec_ok : forall c i fl d ck ts, no_field_flags fl = true -> d <> [] ->
  c < 2 ^ 32 -> i < 2 ^ 64 -> stream_size (len d) < 2 ^ 31 -> ts < 2 ^ 64 ->
  rec_ok (stream_needle c i fl d ck ts).
Proof.
  intros c i fl d ck ts Hfl Hne Hc Hi Hs Hts. split.
  - apply stream_needle_enc_ok; assumption.
  - unfold ranges_ok. rewrite stream_needle_body_size by assumption.
    unfold stream_needle. cbn [cookie id name last_modified pairs_size append_at_ns].
    rewrite len_nil. repeat split; try assumption; try lia.
Qed.

(* the decoder on the body of a stream-written record, data of any length INCLUDING ZERO
   (a 5-byte body: DataSize 0 and the flags byte), any flags byte *)
Lemma read_v2_stream : forall ext d fl d0, len d < 2 ^ 32 ->
  read_v2_x ext (be_encode 4 (len d) ++ d ++ [fl]) d0 =
    Cont [] (d_upd (d_upd (d_set_data_size d0 (len d)) (fun m => n_set_data m d)) (fun m => n_set_flags m fl)).
Proof.
  intros ext d fl d0 Hds. rewrite read_v2_x_eq.
  - unfold read_v2. change [fl] with ([fl] ++ []). rewrite step_data_bytes by assumption. reflexivity.
  - right. rewrite !len_app, len_be_encode, len_cons, len_nil. lia.
Qed.

Section StreamEnc.
  Variable upd : N -> list N -> N.

  Lemma stream_split : forall c i fl ds chunks ts R,
    stream_encode upd c i fl ds chunks ts ++ R =
      (be_encode 4 c ++ be_encode 8 i ++ be_encode 4 (stream_size ds))
      ++ (be_encode 4 ds ++ concat chunks ++ [fl])
      ++ (be_encode 4 (crc_value (crc_writer upd chunks)) ++ be_encode 8 ts
          ++ takeN (padding_length (stream_size ds) 3) (be_encode 4 (stream_size ds) ++ [0; 0; 0; 0]))
      ++ R.
  Proof. intros. unfold stream_encode. rewrite <- !app_assoc. reflexivity. Qed.

  (* With no field-announcing flag and some data the stream writer produces, byte for byte,
     what Needle.Append produces for the needle [stream_needle]: so every theorem about
     [encode 3] (alignment, scan, CRC detection) speaks about stream-written records too. *)
  Theorem stream_is_encode : forall c i fl chunks ts,
    no_field_flags fl = true -> concat chunks <> [] ->
    stream_encode upd c i fl (len (concat chunks)) chunks ts =
      encode 3 (stream_needle c i fl (concat chunks) (crc_writer upd chunks) ts).
  Proof.
    intros c i fl chunks ts Hfl Hne.
    destruct (no_field_flags_spec fl Hfl) as [H1 [H2 [H3 [H4 H5]]]].
    set (d := concat chunks) in Hne |- *.
    assert (Hpos : 0 <? len d = true) by (destruct d; [congruence|reflexivity]).
    set (n := stream_needle c i fl d (crc_writer upd chunks) ts).
    pose proof (stream_needle_body_size c i fl d (crc_writer upd chunks) ts Hfl Hne) as Hbs. fold n in Hbs.
    unfold encode, header_bytes, body_bytes, tail_bytes, pad_source, name_field, mime_field, lm_field,
      ttl_field, pairs_field, has_name, has_mime, has_lm, has_ttl, has_pairs, data_size.
    rewrite Hbs. unfold n, stream_needle.
    cbn [cookie id data flags name mime pairs_size pairs last_modified ttl checksum append_at_ns].
    rewrite Hpos, H1, H2, H3, H4, H5. change (3 =? 3) with true. cbv iota.
    unfold stream_encode. fold d. rewrite !app_nil_r. rewrite <- !app_assoc. reflexivity.
  Qed.

  Lemma len_stream_encode : forall c i fl ds chunks ts, len (concat chunks) = ds ->
    len (stream_encode upd c i fl ds chunks ts) = actual_size (stream_size ds) 3.
  Proof.
    intros c i fl ds chunks ts Hd.
    unfold stream_encode. rewrite !len_app, !len_be_encode, len_cons, len_nil, Hd.
    rewrite len_takeN.
    - unfold actual_size, body_length, ts_size, NeedleHeaderSize, NeedleChecksumSize, TimestampSize.
      change (3 =? 3) with true. cbv iota. unfold stream_size. lia.
    - rewrite len_app, len_be_encode. pose proof (padding_range (stream_size ds) 3).
      change (len [0; 0; 0; 0]) with 4. lia.
  Qed.

  Theorem stream_aligned : forall c i fl ds chunks ts, len (concat chunks) = ds ->
    len (stream_encode upd c i fl ds chunks ts) = actual_size (stream_size ds) 3 /\
    len (stream_encode upd c i fl ds chunks ts) mod 8 = 0.
  Proof.
    intros c i fl ds chunks ts Hd. rewrite len_stream_encode by assumption.
    split; [reflexivity|apply actual_size_aligned].
  Qed.
End StreamEnc.

Section StreamProofs.
  Variable crc : list N -> N.
  Variable upd : N -> list N -> N.
  (* CRC.Update accumulates (for the real one: crc_writer_whole) *)
  Hypothesis Hupd : forall chunks, crc_writer upd chunks = crc (concat chunks).

  (* ReadBytes on the record (followed by anything) returns
     cookie, id, the data, the flags byte, the checksum of the whole data and the timestamp,
     status ok - for every data length (zero included), every flags byte, every way the data
     were cut into Write calls. *)
  Theorem stream_read_bytes : forall c i fl chunks ts R,
    c < 2 ^ 32 -> i < 2 ^ 64 -> stream_size (len (concat chunks)) < 2 ^ 31 -> ts < 2 ^ 64 ->
    read_bytes crc (stream_encode upd c i fl (len (concat chunks)) chunks ts ++ R)
               (stream_size (len (concat chunks))) 3 =
      (stream_dneedle c i fl (concat chunks) (crc (concat chunks)) ts, SOk).
  Proof.
    intros c i fl chunks ts R Hc Hi Hs Hts.
    rewrite stream_split, Hupd. set (d := concat chunks) in *.
    assert (Hd32 : len d < 2 ^ 32) by (unfold stream_size in Hs; lia).
    assert (HB : len (be_encode 4 (len d) ++ d ++ [fl]) = stream_size (len d)).
    { rewrite !len_app, len_be_encode, len_cons, len_nil. unfold stream_size. lia. }
    rewrite <- HB in *. change (be_encode 8 ts) with (if 3 =? 3 then be_encode 8 ts else []).
    erewrite (read_bytes_parts crc 3 c i _ _ ts);
      [|assumption|assumption|lia|apply crc_value_lt|assumption|intros ext; apply read_v2_stream; assumption].
    cbn [d_n d_upd d_set_data_size data n_set_data n_set_flags]. rewrite N.eqb_refl, HB.
    replace (0 <? stream_size (len d)) with true by (unfold stream_size; lia). reflexivity.
  Qed.

  Theorem stream_read_data : forall c i fl chunks ts pre post,
    c < 2 ^ 32 -> i < 2 ^ 64 -> stream_size (len (concat chunks)) < 2 ^ 31 -> ts < 2 ^ 64 ->
    read_data crc (pre ++ stream_encode upd c i fl (len (concat chunks)) chunks ts ++ post) (len pre)
              (stream_size (len (concat chunks))) 3 =
      (stream_dneedle c i fl (concat chunks) (crc (concat chunks)) ts, SOk).
  Proof.
    intros c i fl chunks ts pre post Hc Hi Hs Hts.
    rewrite read_data_exact by (apply len_stream_encode; reflexivity).
    rewrite <- (app_nil_r (stream_encode _ _ _ _ _ _ _)). apply stream_read_bytes; assumption.
  Qed.

End StreamProofs.

Theorem stream_roundtrip_crc32c : forall c i fl szs d ts pre post,
  c < 2 ^ 32 -> i < 2 ^ 64 -> stream_size (len d) < 2 ^ 31 -> ts < 2 ^ 64 ->
  read_data crc32c (pre ++ stream_encode crc32c_update c i fl (len d) (chunks_of szs d) ts ++ post) (len pre)
            (stream_size (len d)) 3 =
    (stream_dneedle c i fl d (crc32c d) ts, SOk).
Proof.
  intros c i fl szs d ts pre post Hc Hi Hs Hts.
  pose proof (stream_read_data crc32c crc32c_update crc_writer_whole c i fl (chunks_of szs d) ts pre post) as H.
  rewrite concat_chunks_of in H. apply H; assumption.
Qed.

Theorem stream_flip_detected : forall c i fl szs d ts pos mask,
  no_field_flags fl = true -> c < 2 ^ 32 -> i < 2 ^ 64 -> stream_size (len d) < 2 ^ 31 -> ts < 2 ^ 64 ->
  bytes_ok d -> pos < len d -> 0 < mask < 256 ->
  snd (read_bytes crc32c (flip_byte (stream_encode crc32c_update c i fl (len d) (chunks_of szs d) ts) (20 + pos) mask)
                  (stream_size (len d)) 3) = SCrc.
Proof.
  intros c i fl szs d ts pos mask Hfl Hc Hi Hs Hts Hb Hp Hm.
  assert (Hne : d <> []) by (intro E; rewrite E, len_nil in Hp; lia).
  pose proof (stream_is_encode crc32c_update c i fl (chunks_of szs d) ts Hfl) as He.
  rewrite concat_chunks_of in He. rewrite (He Hne).
  rewrite crc_writer_split_irrelevant.
  rewrite <- (stream_needle_body_size c i fl d (crc32c d) ts Hfl Hne).
  pose proof (stream_needle_rec_ok c i fl d (crc32c d) ts Hfl Hne Hc Hi Hs Hts) as [Hok Hr].
  apply crc32c_flip_detected; try assumption. reflexivity.
Qed.

(* StreamRead hands out whatever lies in the DataSize and data region of the record its
   index entry points at - it looks neither at the header nor at the checksum *)
Lemma stream_read_any : forall pre hdr d post, len hdr = 16 -> len d < 2 ^ 32 ->
  stream_read (pre ++ hdr ++ be_encode 4 (len d) ++ d ++ post) (len pre) = be_encode 4 (len d) ++ d.
Proof.
  intros pre hdr d post Hh Hd. unfold stream_read, NeedleHeaderSize.
  rewrite app_assoc.
  rewrite dropN_app by (rewrite len_app, Hh; reflexivity).
  rewrite <- !app_assoc.
  rewrite takeN_app by apply len_be_encode.
  rewrite be_decode_encode by assumption.
  rewrite dropN_app by apply len_be_encode.
  rewrite takeN_app by reflexivity. reflexivity.
Qed.

Lemma stream_encode_shape : forall upd c i fl chunks ts, exists hdr T, len hdr = 16 /\
  stream_encode upd c i fl (len (concat chunks)) chunks ts =
    hdr ++ be_encode 4 (len (concat chunks)) ++ concat chunks ++ T.
Proof.
  intros. eexists (be_encode 4 c ++ be_encode 8 i ++ be_encode 4 _), _.
  split; [rewrite !len_app, !len_be_encode; reflexivity|].
  unfold stream_encode. rewrite <- !app_assoc. reflexivity.
Qed.

(* on an unaltered stream-written record StreamRead returns DataSize and the written data
   (for any record of that shape: stream_read_any) *)
Theorem stream_read_written : forall upd c i fl chunks ts pre post,
  len (concat chunks) < 2 ^ 32 ->
  stream_read (pre ++ stream_encode upd c i fl (len (concat chunks)) chunks ts ++ post) (len pre) =
    be_encode 4 (len (concat chunks)) ++ concat chunks.
Proof.
  intros upd c i fl chunks ts pre post Hd.
  destruct (stream_encode_shape upd c i fl chunks ts) as [hdr [T [Hh ->]]].
  rewrite <- !app_assoc. apply stream_read_any; assumption.
Qed.

(* the defect in general form: overwrite the data bytes by ANY d' of the same length -
   StreamRead returns d', no error *)
Theorem stream_read_returns_altered : forall upd c i fl chunks ts pre post d',
  len d' = len (concat chunks) -> len d' < 2 ^ 32 ->
  stream_read (pre ++ overwrite_data (stream_encode upd c i fl (len (concat chunks)) chunks ts) (len (concat chunks)) d' ++ post)
              (len pre) = be_encode 4 (len d') ++ d'.
Proof.
  intros upd c i fl chunks ts pre post d' Hl Hd.
  destruct (stream_encode_shape upd c i fl chunks ts) as [hdr [T [Hh ->]]].
  rewrite (app_assoc hdr), overwrite_window by (rewrite len_app, Hh, len_be_encode; reflexivity).
  rewrite <- Hl, <- !app_assoc. apply stream_read_any; assumption.
Qed.

(* the statement one would like (the self-checking clause for the stream reader): a record
   whose data bytes were altered is not handed out *)
Definition stream_read_self_checking : Prop :=
  forall c i fl chunks ts pre post d',
    len d' = len (concat chunks) -> len d' < 2 ^ 32 -> d' <> concat chunks ->
    stream_read (pre ++ overwrite_data (stream_encode crc32c_update c i fl (len (concat chunks)) chunks ts)
                                       (len (concat chunks)) d' ++ post) (len pre)
      <> be_encode 4 (len d') ++ d'.

Theorem stream_read_self_checking_refuted : ~ stream_read_self_checking.
Proof.
  intro H.
  apply (H 4660 1 0 [[104; 101]; [108; 108; 111]] 5 [3; 0; 0; 0; 0; 0; 0; 0] [] [105; 101; 108; 108; 111]).
  - reflexivity.
  - vm_compute. reflexivity.
  - discriminate.
  - apply stream_read_returns_altered; [reflexivity|vm_compute; reflexivity].
Qed.

(* id 1 "hello" written through StreamWrite in
   two pieces after an 8-byte super block, lowest bit of 'h' flipped: ReadData reports the CRC
   error, StreamRead returns 00 00 00 05 "iello" *)
Definition stream_witness_file : list N :=
  [3; 0; 0; 0; 0; 0; 0; 0] ++ stream_encode crc32c_update 4660 1 0 5 [[104; 101]; [108; 108; 111]] 5.

Lemma stream_witness_computed :
  read_data crc32c stream_witness_file 8 10 3
    = (stream_dneedle 4660 1 0 [104; 101; 108; 108; 111] (crc32c [104; 101; 108; 108; 111]) 5, SOk) /\
  stream_read stream_witness_file 8 = [0; 0; 0; 5; 104; 101; 108; 108; 111] /\
  snd (read_data crc32c (flip_byte stream_witness_file 28 1) 8 10 3) = SCrc /\
  stream_read (flip_byte stream_witness_file 28 1) 8 = [0; 0; 0; 5; 105; 101; 108; 108; 111].
Proof. vm_compute. repeat split. Qed.

(* a record copied as a raw blob and re-stamped is the encoding of the same needle with the
   new timestamp: it decodes to the same blob (c02_roundtrip_partial) *)
Theorem restamp_encode : forall n ts, enc_okb n = true ->
  restamp (encode 3 n) (body_size n) ts 3 = encode 3 (n_set_append n ts).
Proof.
  intros n ts Hok.
  (* nothing but the eight timestamp bytes depends on the append time *)
  assert (E : forall m, encode 3 m = (header_bytes m ++ body_bytes m ++ be_encode 4 (crc_value (checksum m)))
                ++ be_encode 8 (append_at_ns m) ++ takeN (padding_length (body_size m) 3) (pad_source 3 m))
    by (intros m; unfold encode, tail_bytes; rewrite <- !app_assoc; reflexivity).
  rewrite (E (n_set_append n ts)), (E n). unfold restamp. change (3 =? 3) with true. cbv iota.
  unfold NeedleHeaderSize, NeedleChecksumSize, TimestampSize.
  set (A := header_bytes n ++ body_bytes n ++ be_encode 4 (crc_value (checksum n))).
  assert (HA : len A = 16 + body_size n + 4).
  { unfold A. rewrite !len_app, len_header_bytes, len_body_bytes, len_be_encode by assumption. change (N.of_nat 4) with 4. lia. }
  rewrite takeN_app, (app_assoc A (be_encode 8 (append_at_ns n))), dropN_app
    by (rewrite ?len_app, HA, ?len_be_encode; reflexivity).
  destruct n; reflexivity.
Qed.

(* version 2 has no timestamp *)
Theorem restamp_v2 : forall blob size ts, restamp blob size ts 2 = blob.
Proof. reflexivity. Qed.
