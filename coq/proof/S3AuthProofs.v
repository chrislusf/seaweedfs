(* C26, wrapper level: can_do = allows; the Props authorized / authenticated and their boolean oracles;
   Auth lets every bypass-type request through and outside these types authorises (auth_partial);
   route_match picks the first matching route; the two witnesses that refute the full statement. *)
From Coq Require Import List NArith Bool String Ascii Arith Lia.
From SW Require Import model.S3Auth.
Import ListNotations.
Local Open Scope string_scope.
Local Open Scope list_scope.

Lemma existsb_orb : forall {A} (f g : A -> bool) l,
  existsb (fun x => f x || g x) l = existsb f l || existsb g l.
Proof.
  intros A f g l. induction l as [|x l IH]; simpl; auto.
  rewrite IH. destruct (f x), (g x), (existsb f l), (existsb g l); reflexivity.
Qed.

Lemma existsb_andb_const : forall {A} (c : bool) (g : A -> bool) l,
  existsb (fun x => c && g x) l = c && existsb g l.
Proof.
  intros A c g l. induction l as [|x l IH]; simpl.
  - destruct c; reflexivity.
  - rewrite IH. destruct c; reflexivity.
Qed.

Lemma find_app : forall {A} (f : A -> bool) l1 l2,
  find f (l1 ++ l2) = match find f l1 with Some x => Some x | None => find f l2 end.
Proof.
  intros A f l1 l2. induction l1 as [|x l1 IH]; simpl; auto.
  destruct (f x); auto.
Qed.

Lemma sprefix_app_same : forall s x y, sprefix (s ++ x)%string (s ++ y)%string = sprefix x y.
Proof.
  induction s as [|c s IH]; intros x y; simpl; auto.
  rewrite Ascii.eqb_refl. simpl. apply IH.
Qed.

Lemma streqb_app_same : forall s x y, String.eqb (s ++ x)%string (s ++ y)%string = String.eqb x y.
Proof.
  induction s as [|c s IH]; intros x y; simpl; auto.
  rewrite Ascii.eqb_refl. apply IH.
Qed.

Lemma last_is_star_colon : forall s p, last_is_star (s ++ ":" ++ p)%string = last_is_star p.
Proof.
  induction s as [|c s IH]; intros p.
  - simpl. destruct p; reflexivity.
  - change ((String c s ++ ":" ++ p)%string) with (String c (s ++ ":" ++ p)%string).
    specialize (IH p).
    destruct s as [|c' s']; simpl in *; auto.
Qed.

Lemma drop_last_colon : forall s p, p <> EmptyString ->
  drop_last (s ++ ":" ++ p)%string = (s ++ ":" ++ drop_last p)%string.
Proof.
  induction s as [|c s IH]; intros p Hp.
  - simpl. destruct p; [congruence|reflexivity].
  - change ((String c s ++ ":" ++ p)%string) with (String c (s ++ ":" ++ p)%string).
    specialize (IH p Hp).
    destruct s as [|c' s']; simpl in *.
    + destruct p; [congruence|]. reflexivity.
    + rewrite IH. reflexivity.
Qed.

Lemma last_is_star_nonempty : forall p, last_is_star p = true -> p <> EmptyString.
Proof. intros p H E. subst. discriminate. Qed.

(* the three early returns of canDo are the first two disjuncts of [grants] and the bucket = "" guard *)
Theorem can_do_allows : forall acts action bucket,
  can_do acts action bucket = allows acts action bucket.
Proof.
  intros acts action bucket. unfold can_do, allows, is_admin, grants.
  rewrite (existsb_orb (fun x => String.eqb x ACTION_ADMIN || String.eqb x action)).
  rewrite (existsb_orb (fun x => String.eqb x ACTION_ADMIN) (fun x => String.eqb x action)).
  rewrite existsb_andb_const.
  destruct (existsb (fun x => String.eqb x ACTION_ADMIN) acts); simpl; auto.
  destruct (existsb (fun x => String.eqb x action) acts); simpl; auto.
  destruct (String.eqb bucket ""); simpl; auto.
Qed.

Lemma allows_app : forall l1 l2 a b, allows (l1 ++ l2) a b = allows l1 a b || allows l2 a b.
Proof. intros. unfold allows. apply existsb_app. Qed.

Lemma can_do_app : forall l1 l2 a b, can_do (l1 ++ l2) a b = can_do l1 a b || can_do l2 a b.
Proof. intros. rewrite !can_do_allows. apply allows_app. Qed.

Lemma lookup_in : forall ids ak id s, lookup_by_access_key ids ak = Some (id, s) -> In id ids.
Proof.
  induction ids as [|i ids IH]; intros ak id s H; simpl in *; [discriminate|].
  destruct (find_cred ak (id_creds i)).
  - inversion H; subst. auto.
  - right. eapply IH; eauto.
Qed.

Lemma find_cred_in : forall ak cs s, find_cred ak cs = Some s -> In (ak, s) cs.
Proof.
  induction cs as [|[k s'] cs IH]; intros s H; simpl in *; [discriminate|].
  destruct (String.eqb_spec k ak).
  - inversion H; subst. auto.
  - right. auto.
Qed.

Lemma lookup_anonymous_in : forall ids id,
  lookup_anonymous ids = Some id -> In id ids /\ id_name id = "anonymous".
Proof.
  unfold lookup_anonymous. intros ids id H. apply find_some in H. destruct H as [Hin He].
  split; auto. apply String.eqb_eq. auto.
Qed.

(* the flat credential table searched front to back is lookupByAccessKey *)
Lemma find_cred_table_one : forall i ak cs,
  find (fun e : identity * string * string => String.eqb (snd (fst e)) ak)
       (map (fun ks : string * string => (i, fst ks, snd ks)) cs) =
  match find_cred ak cs with Some s => Some (i, ak, s) | None => None end.
Proof.
  intros i ak cs. induction cs as [|[k s] cs IH]; simpl; auto.
  destruct (String.eqb_spec k ak); subst; auto.
Qed.

Lemma find_cred_table : forall ids ak,
  find (fun e : identity * string * string => String.eqb (snd (fst e)) ak) (cred_table ids) =
  match lookup_by_access_key ids ak with Some (id, s) => Some (id, ak, s) | None => None end.
Proof.
  induction ids as [|i ids IH]; intros ak; simpl; auto.
  rewrite find_app, find_cred_table_one.
  destruct (find_cred ak (id_creds i)); auto.
Qed.

(* "a valid signature of identity id": the request is of a signature-carrying type, the
   access key it names resolves (first match) to id, the signature was made with that
   credential's secret, and nothing was altered / it is inside its validity window *)
Definition valid_signature (ids : list identity) (t : auth_type) (c : claim) (id : identity) : Prop :=
  is_sig_type t = true /\
  exists secret, lookup_by_access_key ids (cl_ak c) = Some (id, secret) /\
                 secret = cl_secret c /\
                 sig_fresh (is_presigned_type t) (cl_damage c) = true.

Definition authorized (ids : list identity) (r : request) (c : claim) (action : string) : Prop :=
  (exists id, valid_signature ids (get_request_auth_type r) c id /\
              can_do (id_actions id) action (rq_bucket r) = true)
  \/
  (get_request_auth_type r = Anonymous /\
   exists id, lookup_anonymous ids = Some id /\ can_do (id_actions id) action (rq_bucket r) = true).

Definition authenticated (ids : list identity) (r : request) (c : claim) : Prop :=
  (exists id, valid_signature ids (get_request_auth_type r) c id)
  \/ (get_request_auth_type r = Anonymous /\ exists id, lookup_anonymous ids = Some id).

Lemma sig_verify_ok : forall ids p c id,
  sig_verify ids p c = SigOk id ->
  exists secret, lookup_by_access_key ids (cl_ak c) = Some (id, secret) /\
                 secret = cl_secret c /\ sig_fresh p (cl_damage c) = true.
Proof.
  intros ids p c id H. unfold sig_verify in H.
  destruct (cl_damage c) eqn:Ed; try discriminate;
  destruct (lookup_by_access_key ids (cl_ak c)) as [[id' s]|]; try discriminate;
  destruct p; simpl in H; try discriminate;
  destruct (String.eqb_spec s (cl_secret c)); simpl in H; try discriminate;
  inversion H; subst; exists (cl_secret c); auto.
Qed.

Lemma sig_check_ok : forall ids t r c id,
  is_sig_type t = true -> sig_check ids t r c = SigOk id ->
  exists secret, lookup_by_access_key ids (cl_ak c) = Some (id, secret) /\
                 secret = cl_secret c /\ sig_fresh (is_presigned_type t) (cl_damage c) = true.
Proof.
  intros ids t r c id Ht H. destruct t; simpl in Ht; try discriminate; simpl in *.
  2: destruct (has_bare_query (rq_query r)); [discriminate|].
  all: apply sig_verify_ok; auto.
Qed.

(* PassUnchecked stands in exactly the two rows of authenticate's match whose type is a bypass type *)
Lemma authenticate_pass : forall ids r c,
  authenticate ids r c = PassUnchecked <-> trigger r = true.
Proof.
  intros ids r c. unfold authenticate, trigger.
  destruct (get_request_auth_type r); cbn [bypass_type];
  try (destruct (sig_check ids _ r c));
  try (destruct (lookup_anonymous ids));
  split; intro H; try discriminate; auto.
Qed.

Lemma authenticate_ident : forall ids r c id,
  authenticate ids r c = Ident id ->
  valid_signature ids (get_request_auth_type r) c id \/
  (get_request_auth_type r = Anonymous /\ lookup_anonymous ids = Some id).
Proof.
  intros ids r c id H. unfold authenticate in H.
  destruct (get_request_auth_type r) eqn:Et; try discriminate.
  1: { right. split; auto. destruct (lookup_anonymous ids); inversion H; subst; auto. }
  (* the four signature types *)
  all: left; destruct (sig_check ids _ r c) eqn:Es; inversion H; subst.
  all: split; auto; eapply sig_check_ok; eauto.
Qed.

Theorem bypass_passes : forall ids r c action,
  trigger r = true -> auth ids r c action = Run None.
Proof.
  intros ids r c action H. unfold auth, auth_request.
  apply (authenticate_pass ids r c) in H. rewrite H. destruct ids; reflexivity.
Qed.

Theorem auth_partial : forall ids r c action w,
  ids <> [] -> trigger r = false -> auth ids r c action = Run w ->
  authorized ids r c action /\ exists id, w = Some id /\ In id ids.
Proof.
  intros ids r c action w Hne Ht H.
  unfold auth in H. destruct ids as [|i0 ids0]; [congruence|].
  set (ids := i0 :: ids0) in *. unfold auth_request in H.
  destruct (authenticate ids r c) eqn:Ea.
  - apply authenticate_pass in Ea. congruence.
  - discriminate.
  - unfold authorize in H.
    destruct (can_do (id_actions id) action (rq_bucket r)) eqn:Ec; [|discriminate].
    inversion H; subst w. apply authenticate_ident in Ea. destruct Ea as [Hv|[Hty Han]].
    + split.
      * left. exists id. auto.
      * exists id. split; auto. destruct Hv as [_ [s [Hl _]]]. eapply lookup_in; eauto.
    + split.
      * right. split; auto. exists id. auto.
      * exists id. split; auto. apply lookup_anonymous_in in Han. tauto.
Qed.

Theorem auth_user_partial : forall ids r c w,
  ids <> [] -> trigger r = false -> auth_user ids r c = Run w -> authenticated ids r c.
Proof.
  intros ids r c w Hne Ht H.
  unfold auth_user in H. destruct ids as [|i0 ids0]; [congruence|].
  set (ids := i0 :: ids0) in *. unfold auth_user_request in H.
  destruct (authenticate ids r c) eqn:Ea.
  - apply authenticate_pass in Ea. congruence.
  - discriminate.
  - apply authenticate_ident in Ea. destruct Ea as [Hv|[Hty Han]].
    + left. exists id. auto.
    + right. split; auto. exists id. auto.
Qed.

(* the shape shared by the two executable oracles of check/C26.v: a valid signature of an
   identity, or the anonymous identity for an anonymous request, that passes the test [Q] *)
Lemma signer_spec_iff : forall ids t c (Q : identity -> bool),
  (is_sig_type t &&
   match lookup_by_access_key ids (cl_ak c) with
   | Some (id, secret) =>
       String.eqb secret (cl_secret c) && sig_fresh (is_presigned_type t) (cl_damage c) && Q id
   | None => false
   end)
  || (match t with Anonymous => true | _ => false end &&
      match lookup_anonymous ids with Some id => Q id | None => false end) = true
  <-> (exists id, valid_signature ids t c id /\ Q id = true) \/
      (t = Anonymous /\ exists id, lookup_anonymous ids = Some id /\ Q id = true).
Proof.
  intros ids t c Q. unfold valid_signature. rewrite orb_true_iff. split.
  - intros [H|H]; apply andb_true_iff in H; destruct H as [Ht H].
    + destruct (lookup_by_access_key ids (cl_ak c)) as [[id s]|] eqn:El; [|discriminate].
      apply andb_true_iff in H. destruct H as [H Hq]. apply andb_true_iff in H. destruct H as [He Hf].
      left. exists id. split; [|exact Hq]. split; auto. exists s. repeat split; auto. now apply String.eqb_eq.
    + destruct t; try discriminate. right. split; auto.
      destruct (lookup_anonymous ids) as [id|]; [|discriminate]. eauto.
  - intros [[id [[Hs [s [Hl [He Hf]]]] Hq]]|[Ht [id [Hl Hq]]]]; [left|right].
    + rewrite Hs, Hl, Hf, Hq. subst s. now rewrite String.eqb_refl.
    + now rewrite Ht, Hl, Hq.
Qed.

(* authorized_spec (model), the oracle of check/C26.v, decides [authorized] *)
Theorem authorized_spec_iff : forall ids r c action,
  authorized_spec ids (get_request_auth_type r) c action (rq_bucket r) = true <-> authorized ids r c action.
Proof.
  intros ids r c action.
  pose proof (signer_spec_iff ids (get_request_auth_type r) c
                (fun id => allows (id_actions id) action (rq_bucket r))) as H. cbv beta in H.
  unfold authorized_spec, authorized, lookup_anonymous in *. rewrite find_cred_table.
  setoid_rewrite can_do_allows.
  destruct (lookup_by_access_key ids (cl_ak c)) as [[id s]|]; exact H.
Qed.

Theorem authenticated_spec_iff : forall ids r c,
  authenticated_spec ids (get_request_auth_type r) c = true <-> authenticated ids r c.
Proof.
  intros ids r c.
  pose proof (signer_spec_iff ids (get_request_auth_type r) c (fun _ => true)) as H. cbv beta in H.
  unfold authenticated_spec, authenticated, lookup_anonymous in *. rewrite find_cred_table.
  assert (K : forall P : identity -> Prop, (exists id, P id /\ true = true) <-> exists id, P id)
    by (intros P; split; intros [id K]; exists id; tauto).
  rewrite !K in H. rewrite <- H.
  destruct (lookup_by_access_key ids (cl_ak c)) as [[id s]|]; rewrite ?andb_true_r; reflexivity.
Qed.

(* the property at full strength, as one closed statement, and what refutes it: a request whose handler runs
   although it is not authorised for the route's action *)
Definition handler_implies_authorized_statement : Prop :=
  forall ids r c action w, ids <> [] -> auth ids r c action = Run w -> authorized ids r c action.

Definition handler_runs_unauthorized (ids : list identity) (r : request) (c : claim) : Prop :=
  ids <> [] /\
  exists i rt, route_match r = Some i /\ nth_error route_table (N.to_nat i) = Some rt /\
               (exists w, auth ids r c (rt_action rt) = Run w) /\ ~ authorized ids r c (rt_action rt).

Definition witness_ids : list identity :=
  [{| id_name := "admin"; id_creds := [("AKADMIN", "sk-admin")]; id_actions := [ACTION_ADMIN] |}].
Definition no_claim : claim := {| cl_ak := ""; cl_secret := ""; cl_damage := Intact |}.
(* PUT /b1 with "x-amz-content-sha256: STREAMING-AWS4-HMAC-SHA256-PAYLOAD" and no credentials *)
Definition witness_streaming : request :=
  {| rq_method := "PUT"; rq_bucket := "b1"; rq_object := ""; rq_query := []; rq_authz := None;
     rq_sha256 := streamingContentSHA256; rq_ctype := ""; rq_copysrc := "" |}.
(* POST /b1/o?uploads with "Content-Type: multipart/form-data" and no credentials *)
Definition witness_form : request :=
  {| rq_method := "POST"; rq_bucket := "b1"; rq_object := "o"; rq_query := [("uploads", None)]; rq_authz := None;
     rq_sha256 := ""; rq_ctype := "multipart/form-data"; rq_copysrc := "" |}.

Lemma witness_streaming_bad : handler_runs_unauthorized witness_ids witness_streaming no_claim.
Proof.
  split; [discriminate|].
  exists 14%N, (mk "PutBucketHandler" "PUT" false HNone [] ACTION_ADMIN).
  split; [vm_compute; reflexivity|]. split; [reflexivity|]. split.
  - exists None. vm_compute. reflexivity.
  - intros [[id [[Hs _] _]]|[Ht _]]; vm_compute in Hs || vm_compute in Ht; discriminate.
Qed.

Lemma witness_form_bad : handler_runs_unauthorized witness_ids witness_form no_claim.
Proof.
  split; [discriminate|].
  exists 5%N, (mk "NewMultipartUploadHandler" "POST" true HNone [QHas "uploads"] ACTION_WRITE).
  split; [vm_compute; reflexivity|]. split; [reflexivity|]. split.
  - exists None. vm_compute. reflexivity.
  - intros [[id [[Hs _] _]]|[Ht _]]; vm_compute in Hs || vm_compute in Ht; discriminate.
Qed.

Lemma full_statement_false : ~ handler_implies_authorized_statement.
Proof.
  intro H. destruct witness_streaming_bad as [Hne [i [rt [_ [_ [[w Hw] Hna]]]]]].
  apply Hna. eapply H; eauto.
Qed.

Lemma find_index_some : forall {A} (f : A -> bool) l i j,
  find_index f l i = Some j ->
  exists k x, j = (i + N.of_nat k)%N /\ nth_error l k = Some x /\ f x = true /\
              forall k' y, (k' < k)%nat -> nth_error l k' = Some y -> f y = false.
Proof.
  intros A f. induction l as [|a l IH]; intros i j H; simpl in H; [discriminate|].
  destruct (f a) eqn:Ef.
  - inversion H; subst. exists 0%nat, a. repeat split; auto.
    + simpl. rewrite N.add_0_r. reflexivity.
    + intros k' y Hk. lia.
  - apply IH in H. destruct H as [k [x [Hj [Hn [Hf Hall]]]]].
    exists (S k), x. repeat split; auto.
    + rewrite Hj. rewrite Nnat.Nat2N.inj_succ. lia.
    + intros k' y Hk Hy. destruct k' as [|k']; simpl in Hy.
      * inversion Hy; subst; auto.
      * apply (Hall k' y); auto. lia.
Qed.

Lemma find_index_none : forall {A} (f : A -> bool) l i,
  find_index f l i = None -> forall x, In x l -> f x = false.
Proof.
  intros A f. induction l as [|a l IH]; intros i H x Hin; simpl in *; [tauto|].
  destruct (f a) eqn:Ef; [discriminate|].
  destruct Hin as [<-|Hin]; auto. eapply IH; eauto.
Qed.

(* mux semantics: the first registered route that matches; ListBuckets only for GET / *)
Theorem route_match_first : forall r i, route_match r = Some i ->
  (exists rt, nth_error route_table (N.to_nat i) = Some rt /\ route_matches r rt = true /\
     forall k' y, (k' < N.to_nat i)%nat -> nth_error route_table k' = Some y -> route_matches r y = false)
  \/
  (i = list_buckets_index /\ rq_bucket r = "" /\ rq_method r = "GET" /\
   forall rt, In rt route_table -> route_matches r rt = false).
Proof.
  intros r i H. unfold route_match in H.
  destruct (find_index (route_matches r) route_table 0) as [j|] eqn:Ef.
  - inversion H; subst j. left. apply find_index_some in Ef.
    destruct Ef as [k [x [Hj [Hn [Hf Hall]]]]]. rewrite N.add_0_l in Hj. subst i.
    rewrite Nnat.Nat2N.id. exists x. auto.
  - right.
    destruct (String.eqb_spec (rq_bucket r) ""); simpl in H; [|discriminate].
    destruct (String.eqb (rq_object r) ""); simpl in H; [|discriminate].
    destruct (String.eqb_spec (rq_method r) "GET"); [|discriminate].
    inversion H. repeat split; auto. eapply find_index_none; eauto.
Qed.

Lemma route_actions_are_s3_actions :
  Forall (fun rt => is_s3_action (rt_action rt) = true) route_table.
Proof. repeat constructor. Qed.

Theorem every_route_partial : forall ids r c i w,
  ids <> [] -> trigger r = false -> route_match r = Some i ->
  route_decision ids r c i = Run w ->
  match nth_error route_table (N.to_nat i) with
  | Some rt => authorized ids r c (rt_action rt)
  | None => authenticated ids r c
  end.
Proof.
  intros ids r c i w Hne Ht Hm H. unfold route_decision in H.
  destruct (nth_error route_table (N.to_nat i)) as [rt|].
  - eapply auth_partial; eauto.
  - eapply auth_user_partial; eauto.
Qed.

Theorem every_route_bypass : forall ids r c i,
  trigger r = true -> route_decision ids r c i = Run None.
Proof.
  intros ids r c i Ht. unfold route_decision.
  destruct (nth_error route_table (N.to_nat i)) as [rt|].
  - apply bypass_passes; auto.
  - unfold auth_user, auth_user_request. apply (authenticate_pass ids r c) in Ht. rewrite Ht.
    destruct ids; reflexivity.
Qed.

(* the classification is a function of: Authorization scheme, two query keys, one header+method,
   content type+method -- in THIS order *)
Lemma streaming_wins_over_v4 : forall r,
  is_request_signature_v2 r = false -> is_request_presigned_v2 r = false ->
  is_request_sign_streaming_v4 r = true -> get_request_auth_type r = StreamingSigned.
Proof. intros r H1 H2 H3. unfold get_request_auth_type. rewrite H1, H2, H3. reflexivity. Qed.

