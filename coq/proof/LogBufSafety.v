(* C22: safety of the subscriber over every schedule outside the known-finding triggers. *)
From Coq Require Import List ZArith NArith Bool Lia.
From SW Require Import proof.ListFacts model.LogBuf proof.LogBufProofs proof.LogBufInv proof.LogBufSteps proof.LogBufMain.
Import ListNotations.
Local Open Scope Z_scope.

(* a read at the subscriber's position that returned X: the position moves to the last event
   of X, which is an appended event, and the range received grows by X *)
Lemma SubInv_read : forall t0 E lts u X od me,
  incr 0 E -> all_le E lts -> SubInv t0 E lts u -> splits E (lastRead u) X ->
  SubInv t0 E lts {| lastRead := last_ts X (lastRead u); on_disk := od; mem_err := me; got := got u ++ X |}.
Proof.
  intros t0 E lts u X od me Hinc Hlts [Hle [Hgot Hlr]] Hs. unfold SubInv. cbn [lastRead got].
  rewrite (range_extend _ _ _ _ _ Hinc Hs Hle), <- Hgot.
  destruct X as [|x X']; [rewrite last_ts_nil; auto|].
  pose proof (splits_last_gt _ _ _ Hs ltac:(discriminate)).
  destruct (last_ts_in (x :: X') (lastRead u) ltac:(discriminate)) as [el [Hel Heq]].
  rewrite <- Heq in *. destruct Hs as [E1 [E3 [-> _]]].
  split; [lia|]. split; [reflexivity|]. right. apply Hlts. rewrite !in_app_iff. auto.
Qed.

Lemma sub_mem_inv : forall gh s t0 u, Inv gh s -> 0 <= t0 ->
  SubInv t0 (E_of gh s) (lastTs s) u -> SubInv t0 (E_of gh s) (lastTs s) (sub_mem s u).
Proof.
  intros gh s t0 u HInv Ht0 HS. pose proof HS as [Hle Hrest].
  pose proof (read_once_spec gh s (lastRead u) HInv ltac:(lia)) as Hr. unfold sub_mem.
  destruct (read_once s (lastRead u)) as [[cls X] t'].
  destruct Hr as [-> [Hs [[-> _]|[[-> _]|[-> _]]]]]; [exact HS|exact (conj Hle Hrest)|].
  destruct HInv as [HI _]. apply SubInv_read; auto; [apply (i_incr _ _ HI)|apply (i_last _ _ HI)].
Qed.

Lemma sub_disk_inv : forall gh s t0 u, Inv gh s -> 0 <= t0 ->
  SubInv t0 (E_of gh s) (lastTs s) u -> SubInv t0 (E_of gh s) (lastTs s) (sub_disk s u).
Proof.
  intros gh s t0 u [HI _] Ht0 HS. destruct (sub_disk_spec gh s u HI) as [Hs ->]; [destruct HS; lia|].
  apply SubInv_read; auto; [apply (i_incr _ _ HI)|apply (i_last _ _ HI)].
Qed.

Lemma sub_step_inv : forall gh s t0 u, Inv gh s -> 0 <= t0 ->
  SubInv t0 (E_of gh s) (lastTs s) u -> SubInv t0 (E_of gh s) (lastTs s) (sub_step s u).
Proof.
  intros. unfold sub_step. destruct (mem_err u =? 4)%N; [assumption|].
  destruct (on_disk u); [apply sub_disk_inv|apply sub_mem_inv]; assumption.
Qed.

(* the whole LoopProcessLogData call is a run of subscriber steps *)
Lemma sub_mem_loop_preserves : forall (P : sub -> Prop) s,
  (forall u, P u -> P (sub_step s u)) -> forall fuel u, P u -> P (sub_mem_loop fuel s u).
Proof.
  intros P s Hstep. induction fuel as [|f IH]; intros u Hu; [exact Hu|].
  cbn [sub_mem_loop]. destruct (on_disk u || (mem_err u =? 4)%N) eqn:E; [exact Hu|].
  apply orb_false_iff in E. destruct E as [Eo E4].
  specialize (Hstep u Hu). unfold sub_step in Hstep. rewrite E4, Eo in Hstep.
  destruct (fst (fst (read_once s (lastRead u))) =? 2)%N; [apply IH|]; exact Hstep.
Qed.

(* an appended event is later than lastTs, hence outside the range received *)
Lemma SubInv_add : forall t0 E lts u e, SubInv t0 E lts u -> lts < e_ts e ->
  SubInv t0 (E ++ [e]) (e_ts e) u.
Proof.
  intros t0 E lts u e [Hle [Hgot Hlr]] Hlt. split; [exact Hle|]. split; [|lia].
  rewrite filter_app. cbn [filter].
  replace (in_range t0 (lastRead u) e) with false by (unfold in_range; lia).
  rewrite app_nil_r. exact Hgot.
Qed.

(* a record with an empty payload is 4 bytes long and, at the end of a returned buffer, is
   dropped by the decoding loop's pos+4 < len(buf); proto.Marshal of a LogEntry with
   TsNs <> 0 is never empty *)
Definition op_wf (o : op) : Prop := match o with Add _ len _ => 0 < len | _ => True end.

Lemma step_inv : forall iv gh y o t0,
  0 <= t0 -> Inv gh (buf y) -> SubInv t0 (E_of gh (buf y)) (lastTs (buf y)) (subs y) ->
  op_wf o -> step_trig iv true y o = None ->
  exists gh', Inv gh' (buf (step iv true y o)) /\
              E_of gh' (buf (step iv true y o)) = E_of gh (buf y) ++ op_events (buf y) o /\
              SubInv t0 (E_of gh' (buf (step iv true y o))) (lastTs (buf (step iv true y o))) (subs (step iv true y o)).
Proof.
  intros iv gh y o t0 Ht0 HI HS Hwf Htr.
  destruct o; cbn [step buf subs op_events step_trig] in *; rewrite ?app_nil_r.
  - destruct (add_inv iv gh (buf y) ev len id HI Htr Hwf) as [gh' [HI' HE']].
    exists gh'. split; [exact HI'|]. split; [exact HE'|]. rewrite HE'.
    apply (SubInv_add _ _ (lastTs (buf y))); [exact HS|]. apply adjust_gt.
  - destruct (trig_seal (buf y)) eqn:Ets; [discriminate|].
    destruct (seal_inv gh (buf y) HI Ets) as [gh' [HI' HE']].
    exists gh'. rewrite HE', seal_lastTs. auto.
  - exists gh. rewrite flush_write_lastTs. split; [apply flush_write_inv; exact HI|].
    replace (E_of gh (flush_write (buf y))) with (E_of gh (buf y)); [auto|].
    unfold flush_write. destruct (inflight (buf y)), (queue (buf y)); reflexivity.
  - exists gh. rewrite flush_mark_lastTs. split; [apply flush_mark_inv; exact HI|].
    replace (E_of gh (flush_mark (buf y))) with (E_of gh (buf y)); [auto|].
    unfold flush_mark. destruct (inflight (buf y)); reflexivity.
  - exists gh. auto.
  - exists gh. auto.
  - exists gh. auto.
  - exists gh. split; [exact HI|]. split; [reflexivity|]. apply sub_step_inv; assumption.
  - exists gh. split; [exact HI|]. split; [reflexivity|].
    destruct (on_disk (subs y)); [apply sub_step_inv; assumption|].
    apply sub_mem_loop_preserves; [|exact HS]. intros u Hu. apply sub_step_inv; assumption.
Qed.

Definition ops_wf (ops : list op) : Prop := Forall op_wf ops.

(* what every well-formed step outside the trigger preserves, while E grows by the step's
   events, holds along every such schedule *)
Lemma run_preserves : forall iv (P : ghost -> sys -> Prop),
  (forall gh y o, P gh y -> op_wf o -> step_trig iv true y o = None ->
     exists gh', P gh' (step iv true y o) /\
                 E_of gh' (buf (step iv true y o)) = E_of gh (buf y) ++ op_events (buf y) o) ->
  forall ops gh y, P gh y -> ops_wf ops -> run_trig iv true y ops = None ->
  exists gh', P gh' (run iv true y ops) /\
              E_of gh' (buf (run iv true y ops)) = E_of gh (buf y) ++ run_events iv true y ops.
Proof.
  intros iv P Hstep ops. induction ops as [|o ops IH]; intros gh y HP Hwf Htr.
  - exists gh. cbn [run run_events]. rewrite app_nil_r. auto.
  - cbn [run run_trig run_events] in *. inversion Hwf as [|? ? Hwo Hwr]; subst.
    destruct (step_trig iv true y o) eqn:Est; [discriminate|].
    destruct (Hstep gh y o HP Hwo Est) as [gh1 [HP1 HE1]].
    destruct (IH gh1 _ HP1 Hwr Htr) as [gh2 [HP2 HE2]].
    exists gh2. split; [exact HP2|]. rewrite HE2, HE1, <- app_assoc. reflexivity.
Qed.

Definition gh0 : ghost := {| ev_old := []; r0 := None; r1 := None; r2 := None |}.

Lemma init_inv : forall c, Inv gh0 (init c).
Proof.
  intros c. pose proof zeroT_neg. split.
  - constructor; cbn; auto; try lia; try discriminate; intros ? [].
  - unfold cur_times. cbn. lia.
Qed.

Definition sys0 (c t0 : Z) : sys := {| buf := init c; subs := sub_init t0 |}.

Lemma init_sub : forall c t0, SubInv t0 (E_of gh0 (init c)) (lastTs (init c)) (sub_init t0).
Proof. intros. split; [apply Z.le_refl|]. split; [reflexivity|left; reflexivity]. Qed.

Theorem safety : forall iv c t0 ops,
  0 <= t0 -> ops_wf ops -> run_trig iv true (sys0 c t0) ops = None ->
  let y := run iv true (sys0 c t0) ops in
  let E := run_events iv true (sys0 c t0) ops in
  t0 <= lastRead (subs y) /\ got (subs y) = filter (in_range t0 (lastRead (subs y))) E.
Proof.
  intros iv c t0 ops Ht0 Hwf Htr.
  destruct (run_preserves iv
              (fun gh y => Inv gh (buf y) /\ SubInv t0 (E_of gh (buf y)) (lastTs (buf y)) (subs y)))
    with (ops := ops) (gh := gh0) (y := sys0 c t0) as [gh' [[_ [H1 [H2 _]]] HE]]; auto.
  - intros gh y o [HI HS] Hwo Hst.
    destruct (step_inv iv gh y o t0 Ht0 HI HS Hwo Hst) as [gh' [HI' [HE' HS']]]. eauto.
  - split; [apply init_inv|apply init_sub].
  - cbn zeta. rewrite HE in H2. auto.
Qed.

Lemma incr_filter : forall (f : entry -> bool) l lo b, incr lo l ->
  (forall e, In e l -> f e = true -> b < e_ts e) -> incr b (filter f l).
Proof.
  induction l as [|x l IH]; intros lo b Hinc Hb; [exact I|].
  destruct Hinc as [H1 H2]. cbn [filter]. destruct (f x) eqn:Fx.
  - split; [apply Hb; [left; reflexivity|exact Fx]|].
    apply (IH (e_ts x)); [exact H2|]. intros e He _. apply (incr_lb _ _ _ H2 He).
  - apply (IH (e_ts x)); [exact H2|]. intros e He Hf. apply Hb; [right; exact He|exact Hf].
Qed.

Lemma range_prefix : forall E lo t0 hi, incr lo E ->
  exists rest, filter (later t0) E = filter (in_range t0 hi) E ++ rest /\
               (forall e, In e rest -> hi < e_ts e).
Proof.
  intros E lo t0 hi Hinc. destruct (incr_split E lo hi Hinc) as [pre [HE Hp]].
  remember (filter (fun e => hi <? e_ts e) E) as suf eqn:Hsuf.
  assert (Hs : forall e, In e suf -> hi < e_ts e) by (subst suf; intros e He; apply filter_In in He; lia).
  clear Hsuf. subst E. exists (filter (later t0) suf). rewrite !filter_app. split.
  - rewrite (filter_all_false (in_range t0 hi) suf) by (intros e He; specialize (Hs _ He); unfold in_range; lia).
    rewrite app_nil_r. f_equal. apply filter_ext_in. intros e He. specialize (Hp _ He).
    unfold in_range, later. lia.
  - intros e He. apply filter_In in He. apply Hs. tauto.
Qed.

Theorem exactly_once_in_order : forall iv c t0 ops,
  0 <= t0 -> ops_wf ops -> run_trig iv true (sys0 c t0) ops = None ->
  let y := run iv true (sys0 c t0) ops in
  let E := run_events iv true (sys0 c t0) ops in
  (* strictly increasing, all later than t0: no duplicate, no reordering *)
  incr t0 (got (subs y)) /\
  (* a prefix of the events later than t0, in append order: nothing skipped; what is
     still missing is later than everything received *)
  exists rest, filter (later t0) E = got (subs y) ++ rest /\
               (forall e, In e rest -> lastRead (subs y) < e_ts e).
Proof.
  intros iv c t0 ops Ht0 Hwf Htr y E.
  destruct (safety iv c t0 ops Ht0 Hwf Htr) as [Hle Hgot]. fold y in Hle, Hgot. fold E in Hgot.
  pose proof (ts_strict iv true c t0 ops) as Hinc. fold (sys0 c t0) in Hinc. fold E in Hinc.
  rewrite Hgot. split; [|apply (range_prefix E 0 t0 _ Hinc)].
  apply (incr_filter _ _ 0); [exact Hinc|].
  intros e _ Hf. unfold in_range in Hf. lia.
Qed.
