(* C22, for liveness: lastFlushTime only grows (step_flush); the subscriber sees no error but
   ResumeFromDisk and is parked on the disk only when lastFlushTime is ahead of it (SubErrInv);
   FlushWrite;FlushMark pairs drain the pipeline; what a memory read returns when nothing is
   pending. *)
From Coq Require Import List ZArith NArith Bool Lia.
From SW Require Import model.LogBuf proof.LogBufProofs proof.LogBufInv proof.LogBufSteps
  proof.LogBufMain proof.LogBufSafety.
Import ListNotations.
Local Open Scope Z_scope.

(* the subscriber never sees an error other than ResumeFromDisk, and is only sent back to
   the disk when the disk has something for it *)
Definition SubErrInv (s : st) (u : sub) : Prop :=
  (mem_err u = 0%N \/ mem_err u = 1%N) /\
  (on_disk u = true -> mem_err u = 1%N -> lastFlush s <> zeroT /\ lastRead u < lastFlush s).

(* the flush pipeline's side of the state; AddToBuffer and the interval seal leave it alone *)
Definition fl (s : st) := (lastFlush s, disk s, inflight s).

Lemma seal_fl : forall s, fl (seal true s) = fl s.
Proof. intros. unfold seal. destruct (pos s =? 0); reflexivity. Qed.

Lemma add_fl : forall iv s ev len id, fl (add iv true s ev len id) = fl s.
Proof.
  intros. exact (add_pre_frame fl iv true s ev len (fun _ _ => eq_refl) (fun _ _ => eq_refl) seal_fl).
Qed.

(* lastFlushTime only grows, and once set is never time.Time{} again *)
Lemma step_flush : forall iv gh y o, Inv gh (buf y) ->
  lastFlush (buf y) <= lastFlush (buf (step iv true y o)) /\
  (lastFlush (buf y) <> zeroT -> lastFlush (buf (step iv true y o)) <> zeroT).
Proof.
  intros iv gh y o [HI _]. pose proof zeroT_neg.
  assert (Hfr : forall s', fl s' = fl (buf y) -> lastFlush (buf y) <= lastFlush s' /\
                  (lastFlush (buf y) <> zeroT -> lastFlush s' <> zeroT)).
  { intros s' Hs'. injection Hs' as A _ _. rewrite A. split; [lia|auto]. }
  destruct o; cbn [step buf]; try (apply Hfr; reflexivity).
  - apply Hfr, add_fl.
  - apply Hfr, seal_fl.
  - unfold flush_write. destruct (inflight (buf y)) eqn:Ei; [apply Hfr; reflexivity|].
    destruct (queue (buf y)); [apply Hfr; reflexivity|]. cbn [lastFlush]. split; [lia|auto].
  - unfold flush_mark. destruct (inflight (buf y)) as [g|] eqn:Ei; [|apply Hfr; reflexivity].
    cbn [lastFlush]. destruct (inflight_facts gh (buf y) g HI Ei) as [Hle [e [He Heq]]].
    split; [exact Hle|]. intros _. pose proof (incr_lb _ _ _ (disk_incr _ _ HI) He). lia.
Qed.

Lemma sub_step_err_inv : forall gh s u, Inv gh s -> 0 <= lastRead u -> SubErrInv s u -> SubErrInv s (sub_step s u).
Proof.
  intros gh s u HI Ht [Herr Hd]. unfold sub_step.
  destruct (mem_err u =? 4)%N eqn:E4; [split; assumption|].
  destruct (on_disk u) eqn:Eo.
  - unfold sub_disk. destruct (read_disk (lastRead u) (disk s) [] 0) as [X p].
    destruct (p =? 0); [destruct (mem_err u =? 1)%N eqn:E1|]; split; cbn [mem_err on_disk lastRead]; auto;
      try (intros; discriminate).
  - unfold sub_mem. pose proof (read_once_spec gh s (lastRead u) HI Ht) as Hc.
    destruct (read_once s (lastRead u)) as [[cls X] t'].
    destruct Hc as [_ [_ [[-> _]|[[-> [_ Hres]]|[-> _]]]]].
    + change (SubErrInv s u). split; [exact Herr|rewrite Eo; intros Hx; discriminate Hx].
    + split; cbn [mem_err on_disk lastRead]; auto.
    + split; cbn [mem_err on_disk lastRead]; auto. intros; discriminate.
Qed.

Definition AllInv (t0 : Z) (gh : ghost) (y : sys) : Prop :=
  Inv gh (buf y) /\ SubInv t0 (E_of gh (buf y)) (lastTs (buf y)) (subs y) /\
  SubErrInv (buf y) (subs y).

Lemma SubInv2_mono : forall s s' u, lastFlush s <= lastFlush s' ->
  (lastFlush s <> zeroT -> lastFlush s' <> zeroT) -> SubErrInv s u -> SubErrInv s' u.
Proof.
  intros s s' u Hle Hz [A B]. split; [exact A|]. intros Ho He. destruct (B Ho He) as [C D]. split; [auto|lia].
Qed.

Lemma step_all : forall iv gh y o t0, 0 <= t0 -> AllInv t0 gh y -> op_wf o -> step_trig iv true y o = None ->
  exists gh', AllInv t0 gh' (step iv true y o) /\
              E_of gh' (buf (step iv true y o)) = E_of gh (buf y) ++ op_events (buf y) o.
Proof.
  intros iv gh y o t0 Ht0 [HI [HS H2]] Hwf Htr.
  destruct (step_inv iv gh y o t0 Ht0 HI HS Hwf Htr) as [gh' [HI' [HE' HS']]].
  exists gh'. split; [|exact HE']. split; [exact HI'|]. split; [exact HS'|].
  destruct (step_flush iv gh y o HI) as [Hm Hz].
  assert (Hle : 0 <= lastRead (subs y)) by (destruct HS; lia).
  destruct o; cbn [step buf subs] in *; try (eapply SubInv2_mono; eauto; fail); try exact H2.
  - apply (sub_step_err_inv gh); assumption.
  - destruct (on_disk (subs y)); [apply (sub_step_err_inv gh); assumption|].
    (* each step of the loop needs the range invariant too, for 0 <= lastRead *)
    apply (sub_mem_loop_preserves (fun u => SubInv t0 (E_of gh (buf y)) (lastTs (buf y)) u /\ SubErrInv (buf y) u));
      [|auto].
    intros u [A B]. split; [apply sub_step_inv; assumption|].
    apply (sub_step_err_inv gh); auto. destruct A; lia.
Qed.

Lemma init_all : forall c t0, 0 <= t0 -> AllInv t0 gh0 (sys0 c t0).
Proof.
  intros c t0 Ht0. split; [apply init_inv|]. split; [apply init_sub|].
  split; [left; reflexivity|]. cbn. intros _ H. discriminate H.
Qed.

Fixpoint flush_all (n : nat) : list op :=
  match n with O => [] | S n' => FlushWrite :: FlushMark :: flush_all n' end.

Definition pending (s : st) : nat := length (queue s) + match inflight s with Some _ => 1 | None => 0 end.

Lemma flush_pair_pending : forall s, (pending (flush_mark (flush_write s)) <= pending s - 1)%nat.
Proof.
  intros s. unfold pending, flush_write.
  destruct (inflight s) as [g|] eqn:Ei.
  - unfold flush_mark. rewrite Ei. cbn [queue inflight]. lia.
  - destruct (queue s) as [|g q] eqn:Eq; unfold flush_mark.
    + rewrite Ei, Eq. cbn. rewrite ?Ei, ?Eq. cbn. lia.
    + cbn [queue inflight length]. lia.
Qed.

Lemma flush_all_drains : forall iv n y, (pending (buf y) <= n)%nat ->
  pending (buf (run iv true y (flush_all n))) = 0%nat.
Proof.
  intros iv n. induction n as [|n IH]; intros y H; [cbn; lia|].
  cbn [flush_all run step buf]. apply IH. cbn [buf].
  pose proof (flush_pair_pending (buf y)). lia.
Qed.

Lemma flush_all_quiet : forall iv n y, run_trig iv true y (flush_all n) = None /\ ops_wf (flush_all n) /\
  run_events iv true y (flush_all n) = [].
Proof.
  intros iv n. induction n as [|n IH]; intros y.
  - cbn. repeat split. constructor.
  - cbn [flush_all run_trig run run_events step step_trig op_events app buf].
    destruct (IH {| buf := flush_mark (flush_write (buf y)); subs := subs y |}) as [A [B C]].
    split; [exact A|]. split; [repeat constructor; exact B|exact C].
Qed.

Lemma pending_zero : forall s, pending s = 0%nat -> queue s = [] /\ inflight s = None.
Proof.
  intros s H. unfold pending in H. destruct (inflight s); [lia|]. destruct (queue s); [auto|cbn in H; lia].
Qed.

(* a read of the memory when nothing is pending and lastFlushTime does not send the reader
   away: every sealed buffer is on the disk, hence at or below lastFlushTime <= t, so the read
   returns the rest of the current buffer and the reader ends up past every event *)
Lemma read_quiescent : forall gh s t,
  Inv gh s -> queue s = [] -> inflight s = None -> 0 <= t ->
  (lastFlush s = zeroT \/ lastFlush s <= t) ->
  all_le (E_of gh s) (snd (read_once s t)).
Proof.
  intros gh s t HInv Hq Hi Ht Hlf. pose proof zeroT_neg as Hz. pose proof (i_flush _ _ (proj1 HInv)) as HF.
  pose proof (cur_le_stop _ _ HInv) as Hcs. pose proof HInv as [HI Hcur].
  pose proof (i_incr _ _ HI) as Hinc. pose proof (i_disk _ _ HI) as Hd.
  rewrite Hq, E_of_sealed in *. cbn [map concat app] in Hd. apply app_inv_tail in Hd.
  assert (Hsl : all_le (sealed gh) t).
  { intros e He. unfold FlushInv in HF. rewrite Hi, Hd in HF. apply incr_app in Hinc. destruct Hinc as [Hs0 _].
    pose proof (incr_in_le_last _ _ _ Hs0 He) as Hle. pose proof (incr_lb _ _ _ Hs0 He).
    rewrite (last_ts_default _ 0 zeroT) in Hle by (intro Hn; rewrite Hn in He; destruct He). lia. }
  pose proof (read_once_spec gh s t HInv Ht) as Hr. destruct (read_once s t) as [[cls X] t'].
  destruct Hr as [-> [Hs [[_ [-> Hstop]]|[[_ [_ Hres]]|[_ [Hne Hc]]]]]]; cbn [snd]; [|lia|].
  - rewrite last_ts_nil. apply all_le_app. split; [exact Hsl|]. intros e He. specialize (Hcs e He). lia.
  - destruct (Hc Hsl) as [pre Hpre]. destruct (last_ts_in X t Hne) as [el [Hel Heq]].
    destruct Hs as [_ [_ [_ [_ HX]]]]. specialize (HX _ Hel).
    assert (Hlast : last_ts X t = stopT s).
    { unfold cur_times in Hcur. rewrite Hpre in Hcur. destruct (pre ++ X) eqn:Hp; [destruct pre; [contradiction|discriminate]|].
      rewrite <- Hp in Hcur. destruct Hcur as [_ ->]. rewrite last_ts_app. apply last_ts_default. exact Hne. }
    rewrite Hlast. apply all_le_app. split; [|exact Hcs]. intros e He. specialize (Hsl e He). lia.
Qed.
