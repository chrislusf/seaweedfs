(* C04: the index-based algorithm never trips the integrity check of the reload. *)
From Coq Require Import List NArith ZArith Bool Lia Permutation.
From SW Require Import model.Volume model.Compaction.
From SW Require Import proof.CompactionInv proof.CompactionRead proof.CompactionCopy proof.CompactionMakeup proof.CompactionProofs.
Import ListNotations.
Local Open Scope N_scope.

Definition tail_ok (R : list rec) (E : N) (I : idxlog) : Prop :=
  match I with [] => True | e :: _ => verify_entry R E e = VOk end.

Lemma tail_ok_noop : forall F, tail_ok (f_recs F) (f_end F) (f_idx F) -> check_noop (check_files F) = true.
Proof.
  intros F H. unfold check_files, tail_ok in *. destruct (f_idx F) as [|e l]; [reflexivity|].
  simpl. rewrite H. reflexivity.
Qed.

Lemma verify_put_ok : forall R E e r, ie_off e <> 0 -> find_rec R (ie_off e) = Some r ->
  Z.of_N (r_size r) = ie_size e -> ie_off e + actual_size (r_size r) = E -> verify_entry R E e = VOk.
Proof.
  intros R E e r Ho Hf Hsz He. unfold verify_entry.
  rewrite (proj2 (N.eqb_neq _ _) Ho), (proj2 (Z.ltb_ge (ie_size e) 0)) by lia.
  rewrite Hf, Hsz, Z.eqb_refl. simpl. rewrite He, N.eqb_refl. reflexivity.
Qed.

(* head of the .idx = head of the .dat, for a running volume without holes *)
Definition tail_inv (s : cvol) : Prop :=
  match cidx s with
  | [] => True
  | e :: _ =>
      match recs (cv s) with
      | r :: _ => r_off r + actual_size (r_size r) = dat_end (cv s) /\ ie_off e = r_off r /\
                  ((0 <= ie_size e)%Z -> Z.of_N (r_size r) = ie_size e) /\
                  ((ie_size e < 0)%Z -> r_size r = 0 /\ n_id (r_n r) = ie_key e)
      | [] => False
      end
  end.

Definition ev_nopad (ev : cevent) : Prop := match snd ev with CPad _ => False | _ => True end.

Lemma step_tail_inv : forall vt s ev, cinv s -> tail_inv s -> ev_nopad ev -> tail_inv (fst (c_step vt s ev)).
Proof.
  intros vt s ev H T Hn. destruct (c_step_adds vt s ev H) as [|n _|id c nv _ _ _|off Ep _].
  2,3: unfold tail_inv; simpl; repeat split; auto; lia.
  - exact T.
  - unfold ev_nopad in Hn. rewrite Ep in Hn. contradiction.
Qed.

Lemma exec_tail_inv : forall vt h s, cinv s -> tail_inv s -> (forall ev, In ev h -> ev_nopad ev) -> tail_inv (c_exec vt s h).
Proof. intros vt. apply (exec_ind vt tail_inv ev_nopad). apply step_tail_inv. Qed.

Lemma no_pad_forall : forall h, no_pad h = true -> forall ev, In ev h -> ev_nopad ev.
Proof.
  intros h H ev Hin. unfold no_pad in H. rewrite forallb_forall in H. specialize (H ev Hin).
  unfold ev_nopad. destruct (snd ev); auto. discriminate.
Qed.

Lemma tail_inv_tail_ok : forall s, cinv s -> tail_inv s -> tail_ok (recs (cv s)) (dat_end (cv s)) (cidx s).
Proof.
  intros s H T. unfold tail_inv, tail_ok in *. destruct (cidx s) as [|e l]; [exact I|].
  destruct (recs (cv s)) as [|r rs] eqn:R; [contradiction|]. destruct T as [Te [To [Tp Tn]]].
  pose proof (ci_sorted _ H) as Hs. rewrite R in Hs.
  destruct (sorted_recs_bound _ _ r Hs (or_introl eq_refl)) as [H8 _].
  destruct (Z_lt_le_dec (ie_size e) 0) as [S|S].
  - destruct (Tn S) as [Tz Ti]. rewrite Tz, actual_size_0 in Te. unfold verify_entry.
    rewrite (proj2 (N.eqb_neq (ie_off e) 0)), (proj2 (Z.ltb_lt _ _) S) by lia.
    rewrite Te, Tz, Ti, !N.eqb_refl. reflexivity.
  - apply (verify_put_ok _ _ e r); [lia | simpl; rewrite To, N.eqb_refl; reflexivity | auto | rewrite To; exact Te].
Qed.

(* Compact2 copies in ascending key order, so the entry of the largest key, which SaveToIdx writes
   last, points at the last record. *)
Definition tailacc (a : cacc) : Prop :=
  match a_recs a with
  | [] => a_db a = []
  | r :: _ => r_off r + actual_size (r_size r) = a_end a /\
              exists dbl, a_db a = dbl ++ [{| ie_key := n_id (r_n r); ie_off := r_off r; ie_size := Z.of_N (r_size r) |}]
  end.

Lemma index_tail : forall (sel : ientry -> option rec) L a, asc L ->
  (forall x r, In x L -> sel x = Some r -> n_id (r_n r) = ie_key x) ->
  tailacc a -> (forall y x, In y (a_db a) -> In x L -> ie_key y < ie_key x) ->
  tailacc (fold_left (visit sel) L a).
Proof.
  intros sel. induction L as [|x L IH]; intros a Ha Hid T Hb; [exact T|].
  assert (HidL : forall y r, In y L -> sel y = Some r -> n_id (r_n r) = ie_key y) by (intros y r Hy; apply Hid; right; exact Hy).
  assert (HbL : forall y x', In y (a_db a) -> In x' L -> ie_key y < ie_key x') by (intros y x' Hy Hx'; apply Hb; [exact Hy | right; exact Hx']).
  simpl. unfold visit at 2. destruct (sel x) as [r|] eqn:Sx; [|apply IH; eauto using asc_tail].
  (* the key of x is above all keys copied so far: its entry goes to the end of the MemDb *)
  pose proof (Hid x r (or_introl eq_refl) Sx) as Hk.
  assert (Eset : a_db (copy_rec a r) = a_db a ++ [{| ie_key := n_id (r_n r); ie_off := a_end a; ie_size := Z.of_N (r_size r) |}]).
  { apply db_set_append. intros y Hy. simpl. rewrite Hk. apply Hb; [exact Hy | left; reflexivity]. }
  apply IH; [eapply asc_tail; eauto | exact HidL | |].
  - split; [reflexivity|]. exists (a_db a). exact Eset.
  - intros y x' Hy Hx'. rewrite Eset in Hy. apply in_app_or in Hy. destruct Hy as [Hy|[<-|[]]]; [apply HbL; assumption|].
    simpl. rewrite Hk. apply (asc_head_lt L x x' Ha Hx').
Qed.

Lemma index_files_tail : forall vt now_s s, cinv s ->
  let F := files_of (compact_index vt now_s s) in tail_ok (f_recs F) (f_end F) (f_idx F).
Proof.
  intros vt now_s s H. cbv zeta. pose proof (cs_sorted _ _ _ _ _ (index_spec (fun _ => True) vt now_s s H)) as Hs. revert Hs.
  rewrite compact_index_visit.
  assert (T : tailacc (fold_left (visit (sel_index vt now_s (cv s))) (db_load (cidx s)) acc0)).
  { apply index_tail; [apply db_load_asc | | reflexivity | intros y x []].
    intros x r Hin Hsel. apply (sel_index_some _ _ _ _ _ H Hin Hsel). }
  set (a := fold_left (visit (sel_index vt now_s (cv s))) (db_load (cidx s)) acc0) in *. intro Hs.
  unfold tailacc in T. unfold tail_ok, files_of. cbn [f_recs f_end f_idx].
  destruct (a_recs a) as [|r rs] eqn:R.
  - rewrite T. exact I.
  - destruct T as [Te [dbl Tdb]]. rewrite Tdb. unfold save_idx. rewrite filter_app, rev_app_distr.
    destruct (sorted_recs_bound _ _ r Hs (or_introl eq_refl)) as [H8 _].
    set (e := {| ie_key := n_id (r_n r); ie_off := r_off r; ie_size := Z.of_N (r_size r) |}).
    assert (Dd : entry_dead e = false) by (apply entry_dead_false; simpl; lia).
    simpl. rewrite Dd. simpl.
    apply (verify_put_ok _ _ e r); simpl; [lia | rewrite N.eqb_refl; reflexivity | reflexivity | exact Te].
Qed.

Lemma makeup_one_tail : forall old F e, fsorted F -> ent_src old e ->
  let F' := makeup_one old F e in tail_ok (f_recs F') (f_end F') (f_idx F').
Proof.
  intros old F e Hs Hsrc. cbv zeta. destruct (makeup_one_shape old F e Hsrc) as [nr [o [Er [Eo [Ee [Ei Hu]]]]]].
  rewrite Er, Ee, Ei. unfold tail_ok. destruct (entry_valid e).
  - destruct Hu as [-> [Hsz _]]. pose proof (sorted_recs_end _ _ Hs).
    apply (verify_put_ok _ _ _ nr); simpl; [lia | rewrite Eo, N.eqb_refl; reflexivity | exact Hsz | reflexivity].
  - destruct Hu as [-> _]. reflexivity.
Qed.

Lemma makeup_tail : forall old d ord F, fsorted F -> (forall k e, idx_get d k = Some e -> ent_src old e) ->
  tail_ok (f_recs F) (f_end F) (f_idx F) ->
  let F' := fold_left (mstep old d) ord F in tail_ok (f_recs F') (f_end F') (f_idx F').
Proof.
  intros old d. induction ord as [|k ord IH]; intros F Hs Hsrc T; [exact T|]. simpl. apply IH.
  - apply (mstep_append_only old d F k Hs Hsrc).
  - exact Hsrc.
  - unfold mstep. destruct (idx_get d k) as [e|] eqn:G; [apply makeup_one_tail; eauto | exact T].
Qed.

(* Compact2 does not look at the volume after loading the .idx: writers during its copy loop
   are writers after it *)
Lemma index_reload_noop_il : forall g now_s ord h1 sched h2,
  Permutation ord (default_ord g h1 (concat sched ++ h2)) ->
  no_pad (h1 ++ concat sched ++ h2) = true ->
  check_noop (check_files (compacted_files_il g Index now_s ord h1 sched h2)) = true.
Proof.
  intros g now_s ord h1 sched h2 P Hnp.
  destruct (setting_intro g Index now_s ord h1 sched h2 P) as [s1 [s2 [d [E1 E2 I1 I2 G Hd Hnd Hord Hsrc CS EF]]]].
  rewrite EF. apply tail_ok_noop. destruct (makeup_fails (length (cidx s1)) s2).
  - apply (tail_inv_tail_ok s2 I2). rewrite E2.
    apply exec_tail_inv; [apply cinv_init | exact I | apply no_pad_forall; exact Hnp].
  - apply makeup_tail; [apply CS | exact Hsrc | apply index_files_tail; exact I1].
Qed.

Theorem index_reload_noop : forall g now_s ord h1 h2,
  Permutation ord (default_ord g h1 h2) ->
  no_pad (h1 ++ h2) = true ->
  reload_noop g Index now_s ord h1 h2 = true.
Proof.
  intros g now_s ord h1 h2 P Hnp. unfold reload_noop. rewrite <- compacted_files_il_nil.
  exact (index_reload_noop_il g now_s ord h1 [] h2 P Hnp).
Qed.
