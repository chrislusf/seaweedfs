(* C12, registration clause and free slots: what a full volume heartbeat leaves registered (finding 1 and
   its partial theorem), the narrowed trigger of finding 0, free slots exact whenever the counters are,
   and the witnesses and the example history quoted by props/C12.v. *)
From Coq Require Import String List ZArith NArith Bool Arith Lia.
From SW Require Import model.TopoPlace model.TopoCount proof.TopoPlaceProofs proof.TopoCountProofs.
Import ListNotations.
Local Open Scope Z_scope.

(* vreg st n id d: volume id is registered on disk d of data node n; hits id d v: v is the pair (id, d) *)
Definition has_id (id : N) (l : list vinfo) : bool := existsb (fun v => N.eqb (v_id v) id) l.
Definition vreg (st : state) (n : path) (id : N) (d : string) : bool :=
  has_id id (i_vols (info st (n ++ [d]))).
Definition hits (id : N) (d : string) (v : vinfo) : bool := String.eqb (v_disk v) d && N.eqb (v_id v) id.

Lemma has_id_put : forall id v l, has_id id (put_vol v l) = N.eqb (v_id v) id || has_id id l.
Proof.
  intros id v. unfold has_id. induction l as [|x l IH]; cbn [put_vol existsb]; [reflexivity|].
  destruct (N.eqb (v_id x) (v_id v)) eqn:E; cbn [existsb].
  - apply N.eqb_eq in E. rewrite E. destruct (N.eqb (v_id v) id); reflexivity.
  - rewrite IH. destruct (N.eqb (v_id x) id), (N.eqb (v_id v) id); reflexivity.
Qed.

Lemma has_id_remove : forall id id' l, has_id id (remove_vol id' l) = negb (N.eqb id' id) && has_id id l.
Proof.
  intros id id'. unfold has_id, remove_vol.
  induction l as [|x l IH]; cbn [filter existsb]; [rewrite andb_false_r; reflexivity|].
  destruct (N.eqb (v_id x) id') eqn:E; cbn [negb existsb].
  - rewrite IH. apply N.eqb_eq in E. rewrite E.
    destruct (N.eqb id' id); reflexivity.
  - rewrite IH. destruct (N.eqb (v_id x) id) eqn:E2; cbn [orb]; [|reflexivity].
    apply N.eqb_eq in E2. rewrite E2 in E. rewrite N.eqb_sym, E. reflexivity.
Qed.

Lemma path_eqb_last : forall (n : path) a b, path_eqb (n ++ [a]) (n ++ [b]) = String.eqb a b.
Proof.
  induction n as [|x n IH]; intros a b; simpl.
  - apply andb_true_r.
  - rewrite String.eqb_refl. simpl. apply IH.
Qed.

Lemma vols_add : forall st n v k,
  i_vols (info (add_or_update_volume st n v) k) =
  if path_eqb (n ++ [v_disk v]) k then put_vol v (i_vols (info st k)) else i_vols (info st k).
Proof.
  intros st n v k. unfold add_or_update_volume. rewrite goc_link.
  assert (Hq : In (n ++ [v_disk v]) (keys (link_empty st (n ++ [v_disk v])))) by (apply keys_link; right; reflexivity).
  (* the registration is written at the disk whatever happened to the counters before *)
  destruct (find_vol (v_id v) (i_vols (info (link_empty st (n ++ [v_disk v])) (n ++ [v_disk v])))) as [oldV|];
    [destruct (Bool.eqb (v_remote oldV) (v_remote v))|];
    rewrite ?vols_up_adjust, vols_upd by (rewrite ?keys_up_adjust; exact Hq);
    rewrite ?vols_up_adjust, !info_link; reflexivity.
Qed.

Lemma vreg_add : forall st n v id d,
  vreg (add_or_update_volume st n v) n id d = hits id d v || vreg st n id d.
Proof.
  intros. unfold vreg, hits. rewrite vols_add, path_eqb_last.
  destruct (String.eqb (v_disk v) d); simpl; [apply has_id_put|reflexivity].
Qed.

Lemma vreg_delete : forall st n v id d,
  vreg (delete_volume st n v) n id d = negb (hits id d v) && vreg st n id d.
Proof.
  intros. unfold vreg, hits. rewrite delete_volume_vols, path_eqb_last.
  destruct (String.eqb (v_disk v) d); simpl; [apply has_id_remove|reflexivity].
Qed.

Lemma vreg_add_fold : forall n id d l st,
  vreg (fold_left (fun s v => add_or_update_volume s n v) l st) n id d = existsb (hits id d) l || vreg st n id d.
Proof.
  intros n id d. induction l as [|v l IH]; intros st; simpl; [reflexivity|].
  rewrite IH, vreg_add. destruct (existsb (hits id d) l), (hits id d v); reflexivity.
Qed.

Lemma vreg_del_fold : forall n id d l st,
  vreg (fold_left (fun s v => delete_volume s n v) l st) n id d = negb (existsb (hits id d) l) && vreg st n id d.
Proof.
  intros n id d. induction l as [|v l IH]; intros st; simpl; [reflexivity|].
  rewrite IH, vreg_delete. destruct (existsb (hits id d) l), (hits id d v); reflexivity.
Qed.

(* what is registered after DataNode.UpdateVolumes, for EVERY input *)
Theorem update_volumes_vreg : forall st n actual id d,
  vreg (update_volumes st n actual) n id d =
  existsb (hits id d) actual ||
  (negb (existsb (hits id d)
           (filter (fun v => negb (existsb (fun a => N.eqb (v_id a) (v_id v)) actual)) (node_volumes st n))) &&
   vreg st n id d).
Proof.
  intros. unfold update_volumes. rewrite fold_left_cond, vreg_add_fold, vreg_del_fold. reflexivity.
Qed.

Lemma node_volumes_complete : forall st n d v, Struct st ->
  In v (i_vols (info st (n ++ [d]))) -> In v (node_volumes st n) /\ v_disk v = d.
Proof.
  intros st n d v Hs Hv.
  assert (E : v_disk v = d) by (apply (payload_disk n d _ (payload_info st _ Hs)); exact Hv).
  split; [|exact E]. apply in_node_volumes; [exact Hs|]. rewrite E. exact Hv.
Qed.

Lemma has_id_in : forall id l, has_id id l = true <-> exists v, In v l /\ v_id v = id.
Proof.
  intros. unfold has_id. rewrite existsb_exists. split; intros [v [H1 H2]]; exists v; split; auto.
  - apply N.eqb_eq. exact H2.
  - apply N.eqb_eq. exact H2.
Qed.

Lemma mem_pair_vpairs : forall id d l,
  mem_pair (id, d) (vpairs l) = true <-> exists v, In v l /\ v_id v = id /\ v_disk v = d.
Proof.
  intros. unfold mem_pair, vpairs. rewrite existsb_exists. split.
  - intros [x [Hx E]]. apply in_map_iff in Hx. destruct Hx as [v [Ev Hv]]. subst x.
    unfold vpair_eqb in E. simpl in E. apply andb_prop in E. destruct E as [E1 E2].
    apply N.eqb_eq in E1. apply String.eqb_eq in E2. exists v. auto.
  - intros [v [Hv [E1 E2]]]. exists (v_id v, v_disk v). split.
    + apply in_map_iff. exists v. auto.
    + unfold vpair_eqb. simpl. subst. rewrite N.eqb_refl, String.eqb_refl. reflexivity.
Qed.

Lemma hits_exists : forall id d l,
  existsb (hits id d) l = true <-> exists v, In v l /\ v_id v = id /\ v_disk v = d.
Proof.
  intros. rewrite existsb_exists. unfold hits. split; intros [v [Hv H]]; exists v; split; auto.
  - apply andb_prop in H. destruct H as [H1 H2]. apply String.eqb_eq in H1. apply N.eqb_eq in H2. auto.
  - destruct H as [H1 H2]. subst. rewrite String.eqb_refl, N.eqb_refl. reflexivity.
Qed.

Lemma vreg_node : forall st n id d, Struct st ->
  (vreg st n id d = true <-> exists v, In v (node_volumes st n) /\ v_id v = id /\ v_disk v = d).
Proof.
  intros st n id d Hs. unfold vreg. rewrite has_id_in. split.
  - intros [v [Hv E]]. destruct (node_volumes_complete st n d v Hs Hv). exists v. auto.
  - intros [v [Hv [E1 E2]]]. exists v. split; [|exact E1]. subst d. apply in_node_volumes; assumption.
Qed.

(* c12_fullvol_registered_step: outside finding 1 a full volume heartbeat leaves exactly the
   reported (id, disk) set registered *)
Theorem full_vol_registered : forall st r n actual, Inv st r -> In n (keys st) -> length n = 3%nat ->
  trig_vol_moved st n actual = false ->
  reg_vol_ok (update_volumes st n actual) n actual = true.
Proof.
  intros st r n actual Hi Hn Hl Ht.
  pose proof (i_struct _ _ (proj1 (update_volumes_at r n st actual (conj Hi (conj Hn Hl))))) as Hs'.
  pose proof (i_struct _ _ Hi) as Hs.
  assert (Hreg : forall id d, mem_pair (id, d) (vpairs (node_volumes (update_volumes st n actual) n)) =
                              vreg (update_volumes st n actual) n id d).
  { intros id d. apply eq_true_iff_eq. rewrite mem_pair_vpairs, vreg_node by exact Hs'. reflexivity. }
  unfold reg_vol_ok, same_pairs. apply andb_true_intro. split; apply forallb_forall; intros [id d] Hx.
  - assert (R : mem_pair (id, d) (vpairs (node_volumes (update_volumes st n actual) n)) = true)
      by (apply existsb_exists; exists (id, d); split; [exact Hx|unfold vpair_eqb; simpl; rewrite N.eqb_refl, String.eqb_refl; reflexivity]).
    rewrite Hreg, update_volumes_vreg in R. apply mem_pair_vpairs.
    apply orb_prop in R. destruct R as [R|R]; [apply hits_exists; exact R|].
    apply andb_prop in R. destruct R as [Rdel Rreg]. apply negb_true_iff in Rdel.
    apply (vreg_node st n id d Hs) in Rreg. destruct Rreg as [v [Hnv [Eid Ed]]].
    (* v is registered and was not deleted, so its id is in the message; no trigger: then it is
       reported on its disk *)
    assert (Hidin : existsb (fun a => N.eqb (v_id a) (v_id v)) actual = true).
    { rewrite <- not_false_iff_true. intro X. rewrite <- not_true_iff_false in Rdel. apply Rdel.
      apply hits_exists. exists v. split; [|auto]. apply filter_In. split; auto. rewrite X. reflexivity. }
    unfold trig_vol_moved in Ht. rewrite <- not_true_iff_false in Ht.
    destruct (existsb (fun a => N.eqb (v_id a) (v_id v) && String.eqb (v_disk a) (v_disk v)) actual) eqn:Z0.
    + apply existsb_exists in Z0. destruct Z0 as [a [Ha Ea]]. apply andb_prop in Ea. destruct Ea as [E1 E2].
      apply N.eqb_eq in E1. apply String.eqb_eq in E2. exists a. split; auto. split; congruence.
    + elim Ht. apply existsb_exists. exists v. split; [exact Hnv|]. rewrite Hidin, Z0. reflexivity.
  - rewrite Hreg, update_volumes_vreg. apply orb_true_iff. left. apply hits_exists.
    unfold vpairs in Hx. apply in_map_iff in Hx. destruct Hx as [a [Ea Ha]]. inversion Ea. exists a. auto.
Qed.

(* the same for a whole step; FullEc is left out: nothing is proved about reg_ec_ok *)
Theorem step_full_vol_registered : forall st r o order, Inv st r -> step_k1 st o = false ->
  match o with FullVol _ _ => step_reg_ok st (step order st o) o = true | _ => True end.
Proof.
  intros st r o order Hi Hk. destruct o; auto.
  unfold step_reg_ok, step_k1, addressed, step in *. cbn [op_node] in *.
  destruct (present st n && Nat.eqb (length n) 3) eqn:P; cbn [negb orb]; auto.
  simpl in Hk. apply andb_prop in P. destruct P as [P L]. apply present_in in P. apply Nat.eqb_eq in L.
  apply (full_vol_registered st r n vols Hi P L Hk).
Qed.

Lemma dup_on_disk_nodup : forall l, NoDup (map e_id l) -> dup_on_disk l = [].
Proof.
  induction l as [|a l IH]; intros H; simpl; [reflexivity|].
  inversion H; subst.
  destruct (existsb (fun b => N.eqb (e_id b) (e_id a) && String.eqb (e_disk b) (e_disk a)) l) eqn:E; [|auto].
  exfalso. apply existsb_exists in E. destruct E as [b [Hb Eb]]. apply andb_prop in Eb. destruct Eb as [E1 _].
  apply N.eqb_eq in E1. apply H2. rewrite <- E1. apply in_map. exact Hb.
Qed.

Theorem narrow_in_wide : forall st n actual,
  trig_ec_irregular st n actual = false -> trig_ec_narrow st n actual = false.
Proof.
  intros st n actual H. unfold trig_ec_irregular in H. unfold trig_ec_narrow. cbv zeta.
  apply orb_false_iff in H. destruct H as [H C2]. apply orb_false_iff in H. destruct H as [C1 _].
  rewrite C2. simpl.
  apply negb_false_iff in C1. apply (nodupb_sound _ N.eqb N.eqb_eq) in C1.
  rewrite (dup_on_disk_nodup actual C1). reflexivity.
Qed.

Fixpoint all2 (Q : state -> ref_state -> bool) (states : list state) (refs : list ref_state) : bool :=
  match states, refs with
  | s :: states', r :: refs' => Q s r && all2 Q states' refs'
  | _, _ => true
  end.

Theorem run_all : forall (Q : state -> ref_state -> bool), (forall st r, Inv st r -> Q st r = true) ->
  forall ops orders st r, Inv st r -> forallb wf_op ops = true ->
  first_trigger orders st ops = None ->
  all2 Q (run orders st ops) (ref_run r ops) = true.
Proof.
  intros Q HQ.
  apply (run_inv_ind (fun orders st r ops => all2 Q (run orders st ops) (ref_run r ops) = true)); [reflexivity|].
  intros orders st r o ops _ Hi' IH. cbn [run ref_run all2]. rewrite (HQ _ _ Hi'). exact IH.
Qed.

Theorem inv_free_exact : forall st r, Inv st r -> free_exact_b st r = true.
Proof.
  (* free_space reads the four fields that exact_at compares, and nothing else *)
  intros st r Hi. pose proof (inv_exact_b st r Hi) as Hx.
  unfold exact_b in Hx. unfold free_exact_b. cbv zeta in *.
  apply forallb_forall. intros e He. apply forallb_forall. intros t Ht.
  rewrite forallb_forall in Hx. specialize (Hx e He). rewrite forallb_forall in Hx. specialize (Hx t Ht).
  unfold exact_at in Hx. cbv zeta in Hx.
  apply andb_prop in Hx. destruct Hx as [Hx _].
  apply andb_prop in Hx. destruct Hx as [Hx X4].
  apply andb_prop in Hx. destruct Hx as [Hx X3].
  apply andb_prop in Hx. destruct Hx as [X1 X2].
  apply Z.eqb_eq in X1, X2, X3, X4.
  apply Z.eqb_eq. unfold free_space, recomputed. cbv zeta. simpl.
  rewrite X1, X2, X3, X4. reflexivity.
Qed.

Theorem run_free_exact : forall ops orders, forallb wf_op ops = true ->
  first_trigger orders init_state ops = None ->
  all2 free_exact_b (run orders init_state ops) (ref_run [] ops) = true.
Proof. intros ops orders. apply (run_all free_exact_b inv_free_exact ops orders init_state [] init_inv). Qed.

(* the registration clause of full VOLUME heartbeats along a run; [excuse] = finding 1's trigger
   excuses the event *)
Fixpoint reg_run (excuse : bool) (orders : list (list nat)) (st : state) (ops : list op) : bool :=
  match ops with
  | [] => true
  | o :: ops' =>
      let st' := step (hd [] orders) st o in
      (match o with FullVol _ _ => (excuse && step_k1 st o) || step_reg_ok st st' o | _ => true end) &&
      reg_run excuse (tl orders) st' ops'
  end.

Theorem run_full_vol_registered : forall ops orders st r, Inv st r -> forallb wf_op ops = true ->
  first_trigger orders st ops = None ->
  reg_run true orders st ops = true.
Proof.
  apply (run_inv_ind (fun orders st r ops => reg_run true orders st ops = true)); [reflexivity|].
  intros orders st r o ops Hi _ IH. cbn [reg_run]. cbv zeta. rewrite IH, andb_true_r.
  destruct (step_k1 st o) eqn:K; [destruct o; reflexivity|].
  pose proof (step_full_vol_registered st r o (hd [] orders) Hi K) as X.
  destruct o; auto.
Qed.

Definition w_n1 : path := ["dc1"; "r1"; "n1:80"]%string.
Definition w_join (maxs : list (string * Z)) : op := Join "dc1" "r1" "n1:80" maxs.
(* refutes k ops: well formed, the first trigger met is finding k, some state along the run is not exact;
   repaired ops: well formed, no trigger, exact throughout *)
Definition refutes (k : N) (ops : list op) : Prop :=
  forallb wf_op ops = true /\ first_trigger [] init_state ops = Some k /\
  all_exact (run [] init_state ops) (ref_run [] ops) = false.
Definition repaired (ops : list op) : Prop :=
  forallb wf_op ops = true /\ first_trigger [] init_state ops = None /\
  all_exact (run [] init_state ops) (ref_run [] ops) = true.

Definition w_ec_dup : list op := [w_join [(""%string, 10)]; FullEc w_n1 [mkE 1 "" 1; mkE 1 "" 2]].
Definition w_ec_moved : list op :=
  [w_join [(""%string, 10); ("ssd"%string, 4)]; FullEc w_n1 [mkE 1 "" 1]; FullEc w_n1 [mkE 1 "ssd" 3]].
Lemma refuted_ec_duplicate : refutes 0 w_ec_dup.
Proof. exact (conj eq_refl (conj eq_refl eq_refl)). Qed.
Lemma refuted_ec_moved : refutes 0 w_ec_moved.
Proof. exact (conj eq_refl (conj eq_refl eq_refl)). Qed.
(* both witnesses are inside the NARROWED trigger as well: step_k0 of the state before the last event and
   of the last event (the defaults given to [last] are never read) *)
Lemma ec_witnesses_narrow :
  step_k0 (last (run [] init_state (removelast w_ec_dup)) init_state) (last w_ec_dup (Unregister [])) = true /\
  step_k0 (last (run [] init_state (removelast w_ec_moved)) init_state) (last w_ec_moved (Unregister [])) = true.
Proof. split; vm_compute; reflexivity. Qed.

(* finding 1: one volume, re-reported on another disk type of the same server, is registered and
   counted on both disks; no counter is inexact (the counting theorem applies: no trigger of
   finding 0), the registration clause fails *)
Definition w_vol_moved : list op :=
  [w_join [(""%string, 10); ("ssd"%string, 4)];
   FullVol w_n1 [mkV 1 "" false false];
   FullVol w_n1 [mkV 1 "ssd" false false]].
Lemma refuted_vol_moved :
  forallb wf_op w_vol_moved = true /\ first_trigger [] init_state w_vol_moved = None /\
  reg_run false [] init_state w_vol_moved = false /\
  reg_run true [] init_state w_vol_moved = true /\
  (exists s, nth_error (run [] init_state w_vol_moved) 2 = Some s /\
             vpairs (node_volumes s w_n1) = [(1%N, ""%string); (1%N, "ssd"%string)] /\
             volumeCount (U s [] ""%string) = 1 /\ volumeCount (U s [] "ssd"%string) = 1).
Proof.
  split; [vm_compute; reflexivity|]. split; [vm_compute; reflexivity|].
  split; [vm_compute; reflexivity|]. split; [vm_compute; reflexivity|].
  eexists. split; [vm_compute; reflexivity|]. repeat split; vm_compute; reflexivity.
Qed.

Lemma repaired_witnesses :
  repaired [w_join [(""%string, 10)]; IncVol w_n1 [] [(7%N, ""%string)]] /\
  repaired [w_join [(""%string, 10)]; FullEc w_n1 [mkE 1 "" 1; mkE 2 "" 1]; FullEc w_n1 [mkE 1 "" 3; mkE 2 "" 3]] /\
  repaired [w_join [(""%string, 10); ("ssd"%string, 5)]; AdjustMax w_n1 [(""%string, 12); ("ssd"%string, 8)]] /\
  repaired [w_join [(""%string, 10)]; FullVol w_n1 [mkV 1 "" true true]; IncVol w_n1 [] [(1%N, ""%string)]].
Proof. repeat split; vm_compute; reflexivity. Qed.

(* non-vacuity: a trigger-free history with two servers, two disk types, volumes (one remote, one
   created by volume growth), EC shards (two EC volumes changing in one full heartbeat), max counts
   of two disk types changing at once, a stale and a remote incremental delete and an unregistration *)
Definition ex_n2 : path := ["dc1"; "r2"; "n2:80"]%string.
Definition ex_history : list op :=
  [ w_join [(""%string, 5); ("ssd"%string, 3)];
    FullVol w_n1 [mkV 1 "" false false; mkV 2 "ssd" true true];
    IncVol w_n1 [(3%N, ""%string)] [(1%N, ""%string); (9%N, ""%string)];
    FullEc w_n1 [mkE 10 "" 3; mkE 11 "ssd" 1];
    IncEc w_n1 [mkE 10 "" 4] [mkE 10 "" 1];
    FullEc w_n1 [mkE 10 "" 14; mkE 11 "ssd" 3];
    AdjustMax w_n1 [(""%string, 7); ("ssd"%string, 6)];
    Join "dc1" "r2" "n2:80" [(""%string, 4)];
    FullVol ex_n2 [mkV 3 "" false false];
    Grow ex_n2 (mkV 4 "" false false);
    FullVol w_n1 [mkV 2 "ssd" true true; mkV 3 "" false false];
    Unregister w_n1 ].
Lemma example_history :
  forallb wf_op ex_history = true /\ first_trigger [] init_state ex_history = None /\
  all_exact (run [] init_state ex_history) (ref_run [] ex_history) = true /\
  all2 free_exact_b (run [] init_state ex_history) (ref_run [] ex_history) = true /\
  reg_run false [] init_state ex_history = true /\
  (exists s, nth_error (run [] init_state ex_history) 6 = Some s /\
             volumeCount (U s [] ""%string) = 1 /\ remoteVolumeCount (U s [] "ssd"%string) = 1 /\
             ecShardCount (U s ["dc1"%string] ""%string) = 3 /\ ecShardCount (U s ["dc1"%string] "ssd"%string) = 2 /\
             maxVolumeCount (U s w_n1 ""%string) = 7 /\ maxVolumeCount (U s w_n1 "ssd"%string) = 6 /\
             free_space (U s w_n1 ""%string) = 5 /\ free_space (U s w_n1 "ssd"%string) = 5).
Proof.
  split; [vm_compute; reflexivity|]. split; [vm_compute; reflexivity|]. split; [vm_compute; reflexivity|].
  split; [vm_compute; reflexivity|]. split; [vm_compute; reflexivity|].
  eexists. split; [vm_compute; reflexivity|]. repeat split; vm_compute; reflexivity.
Qed.
