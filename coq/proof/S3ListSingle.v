(* C27: one request with max-keys >= the size of the listing returns the whole reference
   listing, for trees of ANY depth, with or without delimiter (the case of a recursive
   `aws s3 ls` on a bucket of fewer than max-keys objects); corollary of page_exact. *)
From Coq Require Import List NArith ZArith Bool String Ascii Arith Lia.
From SW Require Import model.S3List proof.S3ListProofs proof.S3ListSound proof.S3ListExact proof.S3ListFlat.
Import ListNotations.
Local Open Scope string_scope.
Local Open Scope list_scope.
Local Notation length := List.length.

Theorem single_page_complete : forall ae rootk prefix K M delim,
  wf rootk = true -> bad_prefix prefix = false -> walk rootk (req_dir prefix) = Some K ->
  ((snd (split_prefix prefix) =? "/") && delim) = false ->
  forallb (productive ae delim) (filter (fun t => String.prefix (snd (split_prefix prefix)) (tname t)) K) = true ->
  (1 <= M)%Z -> (Z.of_nat (length (ref_list ae rootk prefix delim)) <= M)%Z ->
  let p := list_objects ae rootk prefix M "" delim in
  pg_keys p = flat_map key_of (ref_list ae rootk prefix delim) /\
  pg_cps p = flat_map cp_of (ref_list ae rootk prefix delim) /\
  pg_trunc p = false /\ pg_next p = "".
Proof.
  intros ae rootk prefix K M delim Hwf Hbp HW Hsl Hprod HM Hlen p. unfold p. clear p.
  pose proof (walk_wf _ rootk K Hwf HW) as HK.
  set (pfx := snd (split_prefix prefix)) in *.
  assert (EE : filter (fun t => String.prefix pfx (tname t) && String.ltb "" (tname t)) K =
               filter (fun t => String.prefix pfx (tname t)) K).
  { apply filter_ext_in. intros t Ht. rewrite (wf_after_empty K t HK Ht). apply andb_true_r. }
  destruct (list_items_exact ae rootk prefix K M "" delim Hwf Hbp HW HM eq_refl Hsl
              ltac:(fold pfx; rewrite EE; exact Hprod)) as [G1 [G3 _]].
  fold pfx in G1, G3. rewrite EE in G1, G3.
  assert (RL : ref_list ae rootk prefix delim =
               R ae delim (req_dir prefix) (filter (fun t => String.prefix pfx (tname t)) K)).
  { unfold ref_list. fold pfx. rewrite (resolve_plain rootk _ K (plain_of_bad_prefix prefix Hbp) HW). reflexivity. }
  rewrite RL in *. unfold list_objects. cbv zeta.
  assert (T : r_trunc (list_items ae rootk prefix M "" delim) = false) by (rewrite G3; apply Nat.ltb_ge; lia).
  rewrite T. cbn [pg_keys pg_cps pg_trunc pg_next]. rewrite G1, firstn_all2 by lia.
  repeat split; reflexivity.
Qed.

(* non-vacuity of single_page_complete: depth 3, no delimiter, one request *)
Lemma single_page_example :
  let t := [File "a"; Dir "d" [File "a"; Dir "e" [File "a"; Dir "f" [File "x"]]]; File "d.x"] in
  wf t = true /\ bad_prefix "" = false /\ walk t (req_dir "") = Some t /\
  forallb (productive false false) (filter (fun x => String.prefix (snd (split_prefix "")) (tname x)) t) = true /\
  (Z.of_nat (length (ref_list false t "" false)) <= 1000)%Z /\
  pg_keys (list_objects false t "" 1000 "" false) = ["a"; "d/a"; "d/e/a"; "d/e/f/x"; "d.x"].
Proof. vm_compute. repeat split; try reflexivity. intro H; discriminate H. Qed.
