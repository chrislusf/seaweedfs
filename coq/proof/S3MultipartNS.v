(* C28: the object namespace under the bucket — PUT then GET, single and
   batch DELETE remove exactly the named keys (outside the triggers), ranged GET. *)
From Coq Require Import List NArith ZArith Bool String Arith Lia.
From SW Require Import proof.ListFacts model.HttpRange proof.HttpRangeProofs model.S3Multipart
  proof.S3MultipartNames proof.S3MultipartParts.
Import ListNotations.
Local Open Scope N_scope.
Local Open Scope list_scope.
Local Notation length := List.length.

(* the object (file entry) at a path, as bytes *)
Definition obj_at (s : store) (p : path) : option bytes :=
  match find s p with
  | Some (File f) => Some (file_bytes f)
  | _ => None
  end.

Lemma path_eqb_eq : forall p q, path_eqb p q = true <-> p = q.
Proof. exact (eqb_list_eq String.eqb String.eqb_eq). Qed.

Lemma path_eqb_refl : forall p, path_eqb p p = true.
Proof. intros. apply path_eqb_eq. reflexivity. Qed.

Lemma path_eqb_neq : forall p q, path_eqb p q = false <-> p <> q.
Proof. exact (eqb_list_neq String.eqb String.eqb_eq). Qed.

Lemma path_eqb_sym : forall p q, path_eqb p q = path_eqb q p.
Proof. exact (eqb_list_sym String.eqb String.eqb_eq). Qed.

Lemma is_prefix_refl : forall p, is_prefix p p = true.
Proof. induction p as [|a p IH]; simpl; auto. rewrite String.eqb_refl. exact IH. Qed.

Lemma is_prefix_length : forall p q, is_prefix p q = true -> (length p <= length q)%nat.
Proof.
  induction p as [|a p IH]; destruct q as [|b q]; simpl; intros H; try discriminate; try lia.
  apply andb_prop in H. destruct H as [_ H]. apply IH in H. lia.
Qed.

Lemma removelast_length : forall {A} (l : list A), length (removelast l) = (length l - 1)%nat.
Proof.
  induction l as [|a l IH]; simpl; auto. destruct l as [|b l]; simpl in *; auto. rewrite IH. lia.
Qed.

Lemma is_prefix_removelast : forall p q, is_prefix p (removelast q) = true -> is_prefix p q = true.
Proof.
  induction p as [|a p IH]; intros q H; simpl; auto.
  destruct q as [|b q]; simpl in H; try discriminate.
  destruct q as [|c q]; try discriminate.
  simpl in H. apply andb_prop in H. destruct H as [H1 H2]. simpl. rewrite H1. simpl.
  apply (IH (c :: q)). exact H2.
Qed.

Lemma prefix_of_parent : forall q p, p <> [] -> is_prefix q (parent p) = true -> is_proper_prefix q p = true.
Proof.
  intros q p Hp H. unfold is_proper_prefix, parent in *.
  rewrite (is_prefix_removelast _ _ H). simpl. apply negb_true_iff. apply path_eqb_neq.
  intros E. subst q. apply is_prefix_length in H. rewrite removelast_length in H.
  destruct p; [congruence|]. simpl in H. lia.
Qed.

Lemma proper_prefix_trans_parent : forall d p, d <> [] -> is_proper_prefix d p = true ->
  is_proper_prefix (parent d) p = true.
Proof.
  intros d p Hd H. unfold is_proper_prefix in *. apply andb_prop in H. destruct H as [H1 H2].
  assert (G : forall d p, is_prefix d p = true -> is_prefix (removelast d) p = true).
  { induction d0 as [|a d0 IH]; intros p0 H0; simpl; auto.
    destruct d0 as [|b d0]; auto.
    destruct p0 as [|c p0]; simpl in H0; try discriminate.
    apply andb_prop in H0. destruct H0 as [E1 E2]. simpl. rewrite E1. simpl.
    apply (IH p0). exact E2. }
  unfold parent. rewrite (G d p H1). simpl. apply negb_true_iff. apply path_eqb_neq.
  intros E. apply is_prefix_length in H1. rewrite <- E in H1. rewrite removelast_length in H1.
  apply negb_true_iff in H2. apply path_eqb_neq in H2.
  destruct d; [congruence|]. simpl in H1.
  (* length d <= length (removelast d) is impossible unless d is empty *)
  lia.
Qed.

Lemma find_node_nonempty : forall s p, p <> [] -> find_node s p = find s p.
Proof. intros s [|a p] H; [congruence|reflexivity]. Qed.

Lemma sfind_filter_key : forall {V} (g : path -> bool) (m : list (path * V)) q,
  sfind (filter (fun kv => g (fst kv)) m) q = if g q then sfind m q else None.
Proof.
  intros V g. induction m as [|[k v] m IH]; intros q; simpl.
  - destruct (g q); reflexivity.
  - destruct (g k) eqn:Eg; simpl; rewrite IH; destruct (path_eqb k q) eqn:E; try reflexivity;
      apply path_eqb_eq in E; subst; rewrite Eg; reflexivity.
Qed.

Lemma sfind_sremove : forall {V} (m : list (path * V)) k q,
  sfind (sremove m k) q = if path_eqb q k then None else sfind m q.
Proof.
  intros V m k q. unfold sremove. rewrite (sfind_filter_key (fun x => negb (path_eqb x k))).
  destruct (path_eqb q k); reflexivity.
Qed.

Lemma sfind_sput : forall {V} (m : list (path * V)) k v q,
  sfind (sput m k v) q = if path_eqb k q then Some v else sfind m q.
Proof.
  intros V m k v q. unfold sput. simpl. rewrite sfind_sremove, (path_eqb_sym q k).
  destruct (path_eqb k q); reflexivity.
Qed.

Lemma sfind_fold_sremove : forall {V} ks (m : list (path * V)) q,
  sfind (fold_left sremove ks m) q = if existsb (path_eqb q) ks then None else sfind m q.
Proof.
  intros V. induction ks as [|k ks IH]; intros m q; simpl; auto.
  rewrite IH, sfind_sremove. destruct (path_eqb q k), (existsb (path_eqb q) ks); reflexivity.
Qed.

(* the store is a key -> value table like the specification's: the lemmas about [sfind] carry over *)
Lemma find_sfind : forall s p, find s p = sfind s p.
Proof. induction s as [|[k n] s IH]; intros p; simpl; [|rewrite IH]; reflexivity. Qed.

Lemma find_filter_key : forall (g : path -> bool) s q,
  find (filter (fun kv => g (fst kv)) s) q = if g q then find s q else None.
Proof. intros. rewrite !find_sfind. apply sfind_filter_key. Qed.

Lemma find_remove : forall s p q, find (remove s p) q = if path_eqb q p then None else find s q.
Proof. intros. rewrite !find_sfind. apply sfind_sremove. Qed.

Lemma find_set : forall s p n q, find (set_node s p n) q = if path_eqb p q then Some n else find s q.
Proof. intros. rewrite !find_sfind. apply sfind_sput. Qed.

Lemma find_in : forall s q n, find s q = Some n -> In (q, n) s.
Proof.
  induction s as [|[k m] s IH]; simpl; intros q n H; try discriminate.
  destruct (path_eqb k q) eqn:E.
  - apply path_eqb_eq in E. inversion H; subst. left. reflexivity.
  - right. apply IH. exact H.
Qed.

(* the file entry at a path: what PUT and the directory bookkeeping are stated on *)
Definition file_at (s : store) (q : path) : option file :=
  match find s q with Some (File f) => Some f | _ => None end.

Lemma obj_at_file_at : forall s q, obj_at s q = option_map file_bytes (file_at s q).
Proof. intros s q. unfold obj_at, file_at. destruct (find s q) as [[|f]|]; reflexivity. Qed.

Lemma file_at_some : forall s q f, file_at s q = Some f <-> find s q = Some (File f).
Proof.
  intros s q f. unfold file_at. destruct (find s q) as [[|g]|]; split; intros H; try discriminate H;
    injection H as ->; reflexivity.
Qed.

Lemma file_at_set : forall s p n q, file_at (set_node s p n) q =
  if path_eqb p q then match n with File f => Some f | Dir => None end else file_at s q.
Proof. intros. unfold file_at. rewrite find_set. destruct (path_eqb p q); reflexivity. Qed.

(* creating the missing directories above d touches no file entry *)
Lemma ensure_dirs_spec : forall fuel s d, (length d < fuel)%nat ->
  (forall q, is_prefix q d = true -> file_at s q = None) ->
  exists s', ensure_dirs fuel s d = Some s' /\ forall q, file_at s' q = file_at s q.
Proof.
  induction fuel as [|fuel IH]; intros s d Hf Hn; [lia|].
  destruct d as [|a d']; [exists s; split; reflexivity|].
  cbn [ensure_dirs]. remember (a :: d') as d eqn:Ed.
  pose proof (Hn d (is_prefix_refl d)) as Hd. unfold file_at in Hd.
  destruct (find s d) as [[|f]|] eqn:Efind; [exists s; split; reflexivity|discriminate Hd|].
  destruct (IH s (parent d)) as [s' [E1 E2]].
  - unfold parent. rewrite removelast_length. rewrite Ed in Hf |- *. simpl in *. lia.
  - intros q Hq. apply Hn, is_prefix_removelast, Hq.
  - rewrite E1. exists (set_node s' d Dir). split; [reflexivity|]. intros q. rewrite file_at_set, E2.
    destruct (path_eqb d q) eqn:E; [|reflexivity]. apply path_eqb_eq in E. subst q.
    unfold file_at. rewrite Efind. reflexivity.
Qed.

(* file_ancestor and has_file_below are both "no file entry at a key that g selects" *)
Lemma no_file_where : forall (g : path -> bool) s,
  existsb (fun kv => g (fst kv) && negb (is_dir (snd kv))) s = false ->
  forall q, g q = true -> file_at s q = None.
Proof.
  intros g s H q Hq. destruct (file_at s q) as [f|] eqn:Hf; [|reflexivity].
  apply file_at_some, find_in in Hf. apply (existsb_false_in _ _ _ H) in Hf.
  cbn [fst snd is_dir] in Hf. rewrite Hq in Hf. discriminate.
Qed.

Lemma file_ancestor_false : forall s p, file_ancestor s p = false ->
  forall q, is_proper_prefix q p = true -> file_at s q = None.
Proof. intros s p. apply (no_file_where (fun k => is_proper_prefix k p)). Qed.

(* an object PUT to a key that is neither a directory nor below a file is stored
   under that key and leaves every other file entry alone *)
Lemma create_file_spec : forall s p f, p <> [] -> trig_write s p = false ->
  exists s', create_entry s p (File f) = (s', true) /\
             forall q, file_at s' q = if path_eqb p q then Some f else file_at s q.
Proof.
  intros s p f Hp T. apply orb_false_elim in T. destruct T as [T1 T2].
  unfold is_dir_at in T1. unfold create_entry. rewrite (find_node_nonempty s p Hp) in *.
  destruct (find s p) as [[|g]|] eqn:Ef; [discriminate T1| |].
  - exists (set_node s p (File f)). split; [reflexivity|]. intros q. apply file_at_set.
  - destruct (ensure_dirs_spec (length p) s (parent p)) as [s' [E1 E2]].
    + unfold parent. rewrite removelast_length. destruct p; [congruence|simpl; lia].
    + intros q Hq. apply (file_ancestor_false s p T2), prefix_of_parent; assumption.
    + rewrite E1. exists (set_node s' p (File f)). split; [reflexivity|].
      intros q. rewrite file_at_set, E2. reflexivity.
Qed.

Lemma http_put_is_create : forall s p f, trig_write s p = false -> http_put s p f = create_entry s p (File f).
Proof.
  intros s p f T. unfold trig_write in T. apply orb_false_elim in T. destruct T as [T1 _].
  unfold http_put, is_dir_at in *. destruct (find_node s p) as [[|g]|]; auto. discriminate.
Qed.

Theorem put_then_get : forall s p f, p <> [] -> trig_write s p = false ->
  exists s', http_put s p f = (s', true) /\
             obj_at s' p = Some (file_bytes f) /\
             forall q, q <> p -> obj_at s' q = obj_at s q.
Proof.
  intros s p f Hp T. rewrite (http_put_is_create s p f T).
  destruct (create_file_spec s p f Hp T) as [s' [E1 E2]]. exists s'. split; [exact E1|].
  split; [|intros q Hq]; rewrite !obj_at_file_at, E2.
  - rewrite path_eqb_refl. reflexivity.
  - apply not_eq_sym, path_eqb_neq in Hq. rewrite Hq. reflexivity.
Qed.

(* finding 2 (trigger 2, trig_write): a PUT onto a key that is a directory, or below a key that is a file *)
Theorem put_then_get_refuted :
  (* PUT a/b then PUT a: the second object lands under a/a *)
  (exists s p f, p <> [] /\ trig_write s p = true /\ fst (http_put s p f) <> s /\
                 obj_at (fst (http_put s p f)) p = None) /\
  (* PUT a then PUT a/b: refused, a/b is not stored *)
  (exists s p f, p <> [] /\ trig_write s p = true /\ snd (http_put s p f) = false).
Proof.
  split.
  - exists [(["a"%string; "b"%string], File {| f_inline := [1]; f_chunks := [] |}); (["a"%string], Dir)],
           ["a"%string], {| f_inline := [2]; f_chunks := [] |}.
    split; [discriminate|]. split; [reflexivity|]. split; [discriminate|reflexivity].
  - exists [(["a"%string], File {| f_inline := [1]; f_chunks := [] |})],
           ["a"%string; "b"%string], {| f_inline := [2]; f_chunks := [] |}.
    split; [discriminate|]. split; reflexivity.
Qed.

Lemma file_at_remove : forall s p q, file_at (remove s p) q = if path_eqb q p then None else file_at s q.
Proof. intros. unfold file_at. rewrite find_remove. destruct (path_eqb q p); reflexivity. Qed.

(* a key that holds no file entry can be "removed" from the file entries for free *)
Lemma file_at_gone : forall s p q, file_at s p = None ->
  file_at s q = if path_eqb q p then None else file_at s q.
Proof.
  intros s p q H. destruct (path_eqb q p) eqn:E; [|reflexivity]. apply path_eqb_eq in E. subst. exact H.
Qed.

Lemma has_file_below_false : forall s p, has_file_below s p = false ->
  forall q, is_proper_prefix p q = true -> file_at s q = None.
Proof. intros s p. apply (no_file_where (is_proper_prefix p)). Qed.

(* the deletes, on the file entries; the statements about objects are their images under file_bytes *)
Lemma obj_at_removed : forall s' s (ks : path -> bool),
  (forall q, file_at s' q = if ks q then None else file_at s q) ->
  forall q, obj_at s' q = if ks q then None else obj_at s q.
Proof. intros s' s ks H q. rewrite !obj_at_file_at, H. destruct (ks q); reflexivity. Qed.

Lemma delete_files : forall s p, has_file_below s p = false ->
  forall q, file_at (delete_recursive s p) q = if path_eqb q p then None else file_at s q.
Proof.
  intros s p H q. unfold delete_recursive.
  destruct (find s p) as [[|f]|] eqn:Ef.
  - unfold file_at at 1. rewrite (find_filter_key (fun k => negb (is_prefix p k))). fold (file_at s q).
    destruct (path_eqb q p) eqn:E.
    + apply path_eqb_eq in E. subst. rewrite is_prefix_refl. reflexivity.
    + destruct (is_prefix p q) eqn:Ep; [|reflexivity]. symmetry. apply (has_file_below_false s p H).
      unfold is_proper_prefix. rewrite Ep, path_eqb_sym, E. reflexivity.
  - apply file_at_remove.
  - apply file_at_gone. unfold file_at. rewrite Ef. reflexivity.
Qed.

(* DELETE of a key under which no object lives removes exactly that key *)
Theorem delete_exact : forall s p, has_file_below s p = false ->
  forall q, obj_at (delete_recursive s p) q = if path_eqb q p then None else obj_at s q.
Proof. intros s p H. apply (obj_at_removed _ s (fun q => path_eqb q p)), delete_files, H. Qed.

Theorem delete_exact_refuted : exists s p q, q <> p /\ obj_at s q <> None /\
  obj_at (delete_recursive s p) q = None.
Proof.
  exists [(["a"%string; "b"%string], File {| f_inline := [1]; f_chunks := [] |}); (["a"%string], Dir)],
         ["a"%string], ["a"%string; "b"%string].
  split; [discriminate|]. split; [discriminate|reflexivity].
Qed.

Lemma grpc_delete_files : forall s k q, k <> [] ->
  file_at (fst (grpc_delete s k)) q = if path_eqb q k then None else file_at s q.
Proof.
  intros s k q Hk. unfold grpc_delete. destruct k as [|a k']; [congruence|].
  set (k := a :: k') in *.
  destruct (find s k) as [[|f]|] eqn:Ef; [destruct (has_children s k)| |]; cbn [fst];
    try apply file_at_remove; apply file_at_gone; unfold file_at; rewrite Ef; reflexivity.
Qed.

(* the purge only removes empty directories: file entries are untouched, whatever the store *)
Lemma purge_up_spec : forall fuel s d q, file_at (purge_up fuel s d) q = file_at s q.
Proof.
  induction fuel as [|fuel IH]; intros s d q; [reflexivity|].
  destruct d as [|a d']; [reflexivity|]. cbn [purge_up]. remember (a :: d') as d eqn:Ed.
  destruct (find s d) as [[|f]|] eqn:Ef; try reflexivity.
  destruct (has_children s d); [reflexivity|].
  rewrite IH, file_at_remove. symmetry. apply file_at_gone. unfold file_at. rewrite Ef. reflexivity.
Qed.

Definition batch_step (acc : store * list path) (k : path) : store * list path :=
  let '(s0, ds) := acc in
  let (s', ok) := grpc_delete s0 k in
  (s', if ok then parent k :: ds else ds).

Lemma batch_fold_spec : forall ks s ds q, (forall k, In k ks -> k <> []) ->
  file_at (fst (fold_left batch_step ks (s, ds))) q = if existsb (path_eqb q) ks then None else file_at s q.
Proof.
  induction ks as [|k ks IH]; intros s ds q Hne; [reflexivity|]. cbn [fold_left batch_step existsb].
  pose proof (grpc_delete_files s k q (Hne k (or_introl eq_refl))) as Hk.
  destruct (grpc_delete s k) as [s' ok]. rewrite IH by (intros x Hx; apply Hne; right; exact Hx).
  cbn [fst] in Hk. rewrite Hk. destruct (path_eqb q k), (existsb (path_eqb q) ks); reflexivity.
Qed.

Lemma batch_delete_files : forall s ks, (forall k, In k ks -> k <> []) ->
  forall q, file_at (batch_delete s ks) q = if existsb (path_eqb q) ks then None else file_at s q.
Proof.
  intros s ks Hne q. unfold batch_delete.
  change (fold_left _ ks (s, [])) with (fold_left batch_step ks (s, [])).
  rewrite <- (batch_fold_spec ks s [] q Hne). destruct (fold_left batch_step ks (s, [])) as [s1 dirs].
  cbn [fst]. generalize s1. induction (sort_longest_first dirs) as [|d ds IH]; intros s0; [reflexivity|].
  cbn [fold_left]. rewrite IH. apply purge_up_spec.
Qed.

(* DeleteMultipleObjects — including the purge of emptied
   directories — removes exactly the named keys, on every store *)
Theorem batch_delete_exact : forall s ks, (forall k, In k ks -> k <> []) ->
  forall q, obj_at (batch_delete s ks) q = if existsb (path_eqb q) ks then None else obj_at s q.
Proof.
  intros s ks Hne. apply (obj_at_removed _ s (fun q => existsb (path_eqb q) ks)), batch_delete_files, Hne.
Qed.

(* the two shapes the gateway creates: inline content only, or chunks only and these sequential from 0 *)
Definition file_ok (f : file) : Prop :=
  f_chunks f = [] \/ (f_inline f = [] /\ seq_from 0 (f_chunks f)).

Lemma store_body_ok : forall c b, 0 < c_chunk c -> file_ok (store_body c b).
Proof.
  intros c b Hc. destruct (is_inline (store_body c b)) eqn:Hi.
  - left. rewrite (store_body_small c b Hi). reflexivity.
  - right. destruct (store_body_chunks c b Hc Hi) as [S0 [S1 _]]. auto.
Qed.

Lemma completed_file_ok : forall d,
  (forall e, In e (sort_by_number (listed d)) -> has_part_suffix (fst e) = true) -> file_ok (completed_file d).
Proof.
  intros d H. right. split; [reflexivity|]. apply (complete_is_listing_concat d H).
Qed.

Lemma file_ok_size : forall f, file_ok f -> file_size f = blen (file_bytes f).
Proof.
  intros [inl cs] [H|[H1 H2]]; simpl in *; subst.
  - rewrite file_bytes_inline. apply N.max_0_r.
  - rewrite file_bytes_seq by exact H2. apply file_size_seq, H2.
Qed.

Lemma read_file_slice : forall f off len, file_ok f -> off + len <= file_size f ->
  read_file f off len = slice (file_bytes f) off len.
Proof.
  intros [inl cs] off len [H|[H1 H2]] Hle; simpl in *; subst.
  - rewrite file_bytes_inline. unfold read_file. cbn [f_inline].
    replace (off + len <=? blen inl) with true; [reflexivity|].
    symmetry. apply N.leb_le. etransitivity; [exact Hle|]. apply N.eq_le_incl, N.max_0_r.
  - rewrite file_bytes_seq by exact H2. apply read_file_seq, H2.
Qed.

(* GET returns the object's bytes; GET with a satisfiable byte range returns exactly
   that slice of them.  Range parsing is C32's (parse_spec_ref). *)
Theorem get_whole : forall s k f, k <> [] -> find s k = Some (File f) ->
  get_obj s k None = RData (file_bytes f).
Proof.
  intros s k f Hk Hf. unfold get_obj. destruct k; [congruence|]. cbn [find_node]. rewrite Hf. reflexivity.
Qed.

Theorem get_range : forall s k f sp o l, k <> [] -> find s k = Some (File f) -> file_ok f ->
  ref_spec sp (Z.of_N (blen (file_bytes f))) = Some (o, l) ->
  get_obj s k (Some sp) = RData (slice (file_bytes f) (Z.to_N o) (Z.to_N l)).
Proof.
  intros s k f sp o l Hk Hf Hok Hr. unfold get_obj. destruct k; [congruence|]. cbn [find_node]. rewrite Hf.
  rewrite (file_ok_size f Hok).
  rewrite (parse_spec_ref sp _ (o, l) Hr).
  destruct (ref_spec_in_bounds sp _ _ Hr) as [B1 [B2 B3]]. cbn [fst snd] in B1, B2, B3.
  rewrite read_file_slice; auto. rewrite (file_ok_size f Hok). lia.
Qed.
