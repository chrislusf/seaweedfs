(* The vocabulary of the statements about the ec.balance model (C16) and the effect of the
   bookkeeping primitives on it: how many nodes hold a shard, the picked map, what a phase
   guarantees.  Then the shape of a run, walked once: a statement about a run relates the books
   before, the books after and the items logged in between; every such statement in this
   development holds of the empty log and composes along [++].  For a relation T with these two
   properties the second half of the file reduces "T holds of the run" to what T says about the
   single steps: a printed line, a pick, an abandoned pick, a move to another rack, and a move
   of a held shard to another node of the same rack (lemmas [_L] of Section Local, [_A] of
   Section Across, [_T] of Section Plan). *)
From Coq Require Import List NArith ZArith Bool Lia Arith.
From SW Require Import model.EcBalance proof.EcBalanceBase.
Import ListNotations.
Local Open Scope N_scope.

(* well-formed books: distinct node ids, one entry per volume and node *)
Definition wf_entries (ns : list node) : Prop := Forall (fun n => NoDup (map e_vid (entries n))) ns.
Definition wf (ns : list node) : Prop := wf_ids ns /\ wf_entries ns.

Lemma wf_get : forall ns id n, wf ns -> get_node ns id = Some n -> NoDup (map e_vid (entries n)).
Proof.
  intros ns id n [_ He] G. unfold wf_entries in He. rewrite Forall_forall in He.
  apply He. apply get_node_in in G. tauto.
Qed.

Lemma add_shard_entries_nodup : forall v c s n,
  NoDup (map e_vid (entries n)) -> NoDup (map e_vid (entries (add_shard v c s n))).
Proof.
  intros v c s n H. unfold add_shard, entries in *. destruct (n_disk n) as [es|]; simpl.
  - destruct (add_in es v s) as [[es' d]|] eqn:A; simpl.
    + rewrite (proj1 (add_in_some _ _ _ _ _ A)). exact H.
    + rewrite map_app. simpl. apply add_in_none in A.
      apply (NoDup_Add (Add_app v (map e_vid es) [])). rewrite app_nil_r. auto.
  - constructor; [intros []|constructor].
Qed.
Lemma del_shard_entries_nodup : forall v s n,
  NoDup (map e_vid (entries n)) -> NoDup (map e_vid (entries (del_shard v s n))).
Proof.
  intros v s n H. unfold del_shard, entries in *. destruct (n_disk n) as [es|] eqn:D; simpl.
  - pose proof (proj1 (del_in_spec es v s)) as X. destruct (del_in es v s) as [es' d]. simpl in *. rewrite X. exact H.
  - rewrite D. exact H.
Qed.

Lemma wf_upd : forall ns id f, keeps_id_rack f ->
  (forall n, NoDup (map e_vid (entries n)) -> NoDup (map e_vid (entries (f n)))) ->
  wf ns -> wf (upd_node ns id f).
Proof.
  intros ns id f Hk Hf [Hi He]. split; [apply upd_wf; auto|].
  unfold wf_entries, upd_node in *. rewrite Forall_forall in *. intros n Hn.
  apply in_map_iff in Hn. destruct Hn as [x [Hx Hin]]. specialize (He x Hin).
  destruct (n_id x =? id); subst; auto.
Qed.
Lemma wf_add : forall ns id v c s, wf ns -> wf (upd_node ns id (add_shard v c s)).
Proof. intros. apply wf_upd; auto with c16. intros. apply add_shard_entries_nodup; auto. Qed.
Lemma wf_del : forall ns id v s, wf ns -> wf (upd_node ns id (del_shard v s)).
Proof. intros. apply wf_upd; auto with c16. intros. apply del_shard_entries_nodup; auto. Qed.
Lemma wf_move : forall ns src v c s dst, wf ns -> wf (move_shard ns src v c s dst).
Proof. intros. unfold move_shard. apply wf_del. apply wf_add. auto. Qed.

(* does node id hold shard (v,s) *)
Definition hb (ns : list node) (id v s : N) : bool := has (node_bits ns id v) s.
Definition present (ns : list node) (x : N) : Prop := exists n, get_node ns x = Some n.
(* no (v,s) is on two nodes *)
Definition unique (ns : list node) : Prop := forall v s, (total ns v s <= 1)%nat.
(* a recorded move is legal: the destination did not hold the shard and had a free slot *)
Definition move_ok (i : item) : Prop :=
  match i with
  | IMove _ m => m_dst_held m = false /\ (0 < m_dst_free m)%Z
  | _ => True
  end.
Definition moves_ok (its : list item) : Prop := Forall move_ok its.
(* what a plan on duplicate-free books guarantees (run_plan_ok in EcBalanceProofs.v): books stay
   well formed, copies never multiply, nothing is lost unless a picked shard is abandoned,
   recorded moves are legal *)
Definition phase_ok (ns ns' : list node) (its : list item) : Prop :=
  wf ns' /\
  (forall v s, (total ns' v s <= total ns v s)%nat) /\
  (has_drop its = false -> forall v s, total ns' v s = total ns v s) /\
  moves_ok its.
Definition quiet_ok (ns ns' : list node) (its : list item) : Prop :=
  phase_ok ns ns' its /\ has_drop its = false.

Lemma node_bits_del : forall ns id v s x v',
  node_bits (upd_node ns id (del_shard v s)) x v' =
  if (x =? id) && (v' =? v) then remove_id (node_bits ns x v) s else node_bits ns x v'.
Proof.
  intros. unfold node_bits. rewrite get_upd by auto with c16.
  destruct (N.eqb_spec x id); simpl; auto. subst.
  destruct (get_node ns id) as [n|]; simpl.
  - rewrite find_del_shard. destruct (v' =? v); reflexivity.
  - destruct (v' =? v); reflexivity.
Qed.

Lemma node_bits_add : forall ns id v c s x v', present ns id ->
  node_bits (upd_node ns id (add_shard v c s)) x v' =
  if (x =? id) && (v' =? v) then add_id (node_bits ns x v) s else node_bits ns x v'.
Proof.
  intros ns id v c s x v' [n H]. unfold node_bits. rewrite get_upd by auto with c16.
  destruct (N.eqb_spec x id); simpl; auto. subst. rewrite H. simpl.
  rewrite find_add_shard. destruct (v' =? v); reflexivity.
Qed.

Lemma hb_del : forall ns id v s x v' s',
  hb (upd_node ns id (del_shard v s)) x v' s' =
  hb ns x v' s' && negb ((x =? id) && (v' =? v) && (s =? s')).
Proof.
  intros. unfold hb. rewrite node_bits_del.
  destruct (x =? id); simpl; [|rewrite andb_true_r; reflexivity].
  destruct (N.eqb_spec v' v); simpl; [|rewrite andb_true_r; reflexivity].
  subst. apply has_remove_id.
Qed.
Lemma hb_add : forall ns id v c s x v' s', present ns id ->
  hb (upd_node ns id (add_shard v c s)) x v' s' =
  hb ns x v' s' || ((x =? id) && (v' =? v) && (s =? s')).
Proof.
  intros. unfold hb. rewrite (node_bits_add _ _ _ _ _ _ _ H).
  destruct (x =? id); simpl; [|rewrite orb_false_r; reflexivity].
  destruct (N.eqb_spec v' v); simpl; [|rewrite orb_false_r; reflexivity].
  subst. apply has_add_id.
Qed.

Lemma hb_add_keeps : forall ns id v c s x v' s', hb ns x v' s' = true ->
  hb (upd_node ns id (add_shard v c s)) x v' s' = true.
Proof.
  intros ns id v c s x v' s' H. destruct (get_node ns id) as [n|] eqn:G.
  - rewrite hb_add by (exists n; exact G). rewrite H. reflexivity.
  - rewrite get_node_none_upd by auto. exact H.
Qed.

Lemma hb_total : forall ns id v s, hb ns id v s = true -> (1 <= total ns v s)%nat.
Proof.
  intros ns id v s H. unfold hb, node_bits in H.
  destruct (get_node ns id) as [n|] eqn:G; [|rewrite has_zero in H; discriminate].
  apply get_node_in in G. destruct G as [Hin _]. rewrite total_eq.
  assert (In n (filter (holds v s) ns)) by (apply filter_In; split; auto).
  destruct (filter (holds v s) ns); [destruct H0|simpl; lia].
Qed.

Lemma hb_false_of_total0 : forall ns id v s, total ns v s = 0%nat -> hb ns id v s = false.
Proof.
  intros ns id v s H. destruct (hb ns id v s) eqn:E; auto.
  apply hb_total in E. lia.
Qed.

(* is (v',s') the key (v,s) *)
Definition same (v s v' s' : N) : bool := (v' =? v) && (s =? s').
Lemma total_del : forall ns id v s v' s', wf_ids ns ->
  (total (upd_node ns id (del_shard v s)) v' s' + b2n (same v s v' s' && hb ns id v s) = total ns v' s')%nat.
Proof.
  intros ns id v s v' s' Hwf. unfold same, hb, node_bits. destruct (get_node ns id) as [n|] eqn:G.
  - pose proof (total_upd ns id (del_shard v s) n v' s' (keeps_del v s) Hwf G) as T.
    rewrite holds_del in T. unfold holds in T.
    destruct (N.eqb_spec v' v), (N.eqb_spec s s'); subst; simpl in *;
      destruct (has (find n _) _); simpl in *; lia.
  - rewrite get_node_none_upd by auto. rewrite has_zero, andb_false_r. simpl. lia.
Qed.

Lemma total_add : forall ns id v c s v' s', wf_ids ns -> present ns id ->
  (total (upd_node ns id (add_shard v c s)) v' s' =
   total ns v' s' + b2n (same v s v' s' && negb (hb ns id v s)))%nat.
Proof.
  intros ns id v c s v' s' Hwf [n G]. unfold same, hb, node_bits. rewrite G.
  pose proof (total_upd ns id (add_shard v c s) n v' s' (keeps_add v c s) Hwf G) as T.
  rewrite holds_add in T. unfold holds in T.
  destruct (N.eqb_spec v' v), (N.eqb_spec s s'); subst; simpl in *;
    destruct (has (find n _) _); simpl in *; lia.
Qed.

Lemma rack_node_ids_present : forall ns r x, In x (rack_node_ids ns r) -> present ns x.
Proof.
  unfold present. induction ns as [|n ns IH]; intros r x H; simpl in *; [destruct H|].
  destruct (N.eqb_spec (n_id n) x); eauto.
  unfold rack_node_ids in *. simpl in H. destruct (n_rack n =? r); simpl in H.
  - destruct H; [contradiction|]. eapply IH; eauto.
  - eapply IH; eauto.
Qed.

Definition pin (p : list (N * N)) (s : N) : bool := mem s (map fst p).

Lemma pin_pset : forall p k x s, pin (pset p k x) s = pin p s || (s =? k).
Proof.
  induction p as [|[k' y] p IH]; intros k x s; unfold pin in *; simpl.
  - rewrite orb_false_r. reflexivity.
  - destruct (N.eqb_spec k' k); simpl.
    + subst. destruct (s =? k); simpl; auto. rewrite orb_false_r. reflexivity.
    + rewrite IH. destruct (s =? k'); simpl; auto.
Qed.
Lemma keys_pset_nodup : forall p k x, NoDup (map fst p) -> NoDup (map fst (pset p k x)).
Proof.
  induction p as [|[k' y] p IH]; intros k x H; simpl.
  - constructor; [intros []|constructor].
  - inv H. destruct (N.eqb_spec k' k); simpl.
    + constructor; auto.
    + constructor; auto. intros X. apply H2.
      apply mem_In in X. fold (pin (pset p k x) k') in X. rewrite pin_pset in X.
      apply orb_true_iff in X. destruct X as [X|X].
      * apply mem_In. exact X.
      * apply N.eqb_eq in X. congruence.
Qed.
Lemma ptake_spec : forall p k x p', ptake p k = Some (x, p') -> NoDup (map fst p) ->
  pin p k = true /\ (forall s, pin p' s = pin p s && negb (s =? k)) /\ NoDup (map fst p').
Proof.
  induction p as [|[k' y] p IH]; intros k x p' H Hnd; simpl in H; [discriminate|].
  inv Hnd. destruct (N.eqb_spec k' k).
  - inv H. unfold pin; simpl. rewrite N.eqb_refl. simpl. split; auto. split; auto.
    intros s. destruct (N.eqb_spec s k); simpl.
    + subst. destruct (mem k (map fst p')) eqn:M; auto. apply mem_In in M. contradiction.
    + rewrite andb_true_r. reflexivity.
  - destruct (ptake p k) as [[x0 r]|] eqn:T; [|discriminate]. inv H.
    destruct (IH _ _ _ T H3) as [A [B C]]. unfold pin in *; simpl. split; [|split].
    + rewrite A. apply orb_true_r.
    + intros s. rewrite B. destruct (N.eqb_spec s k'); simpl; auto.
      subst. destruct (N.eqb_spec k' k); [contradiction|]. reflexivity.
    + constructor; auto. intros X. apply H2. apply mem_In in X. rewrite B in X.
      apply andb_true_iff in X. apply mem_In. tauto.
Qed.


Lemma has_drop_app : forall a b, has_drop (a ++ b) = has_drop a || has_drop b.
Proof. intros. unfold has_drop. apply existsb_app. Qed.

Lemma first_nonzero_spec : forall ns v cands i0 i id b,
  first_nonzero ns v cands i0 = Some (i, id, b) -> b = node_bits ns id v /\ In id (map fst cands).
Proof.
  induction cands as [|[id0 c0] cands IH]; intros i0 i id b H; simpl in H; [discriminate|].
  destruct (0 <? node_bits ns id0 v).
  - inv H. split; [reflexivity|left; reflexivity].
  - apply IH in H. split; [apply H|right; apply H].
Qed.

Lemma move_total : forall ns src v c s dst v' s', wf_ids ns -> present ns dst -> src <> dst ->
  (total (move_shard ns src v c s dst) v' s' + b2n (same v s v' s' && hb ns src v s) =
   total ns v' s' + b2n (same v s v' s' && negb (hb ns dst v s)))%nat.
Proof.
  intros ns src v c s dst v' s' Hwf G Hne. unfold move_shard.
  pose proof (total_add ns dst v c s v' s' Hwf G) as TA.
  assert (Hwf1 : wf_ids (upd_node ns dst (add_shard v c s))) by (apply upd_wf; auto with c16).
  pose proof (total_del (upd_node ns dst (add_shard v c s)) src v s v' s' Hwf1) as TD.
  rewrite (hb_add _ _ _ _ _ _ _ _ G) in TD.
  destruct (N.eqb_spec src dst); [contradiction|]. simpl in TD. rewrite orb_false_r in TD. lia.
Qed.

Lemma valid_dest_some : forall ns src v limit dests x,
  valid_dest ns src v limit dests (Some x) = true ->
  In x dests /\ x <> src /\ (0 < node_free ns x)%Z /\ (count (node_bits ns x v) < limit)%Z.
Proof.
  intros ns src v limit dests x H. unfold valid_dest, eligible in H.
  apply andb_prop in H as [H _]. apply andb_prop in H as [Hm H]. apply andb_prop in H as [H Hc].
  apply andb_prop in H as [Hn Hf]. apply mem_In in Hm. apply negb_true_iff, N.eqb_neq in Hn.
  apply Z.ltb_lt in Hf, Hc. auto.
Qed.



Lemma phase_ok_unique : forall a b i, phase_ok a b i -> unique a -> unique b.
Proof. intros a b i [_ [B _]] U v s. specialize (B v s). specialize (U v s). lia. Qed.


Lemma present_upd : forall ns id f x, keeps_id_rack f -> present ns x -> present (upd_node ns id f) x.
Proof.
  intros ns id f x Hk [n G]. unfold present. rewrite get_upd by auto.
  destruct (N.eqb_spec x id); [subst; rewrite G; simpl|]; eauto.
Qed.
Lemma present_move : forall ns src v c s dst x, present ns x -> present (move_shard ns src v c s dst) x.
Proof. intros. unfold move_shard. apply present_upd; auto with c16. apply present_upd; auto with c16. Qed.

Lemma hb_move_src : forall ns src v c s dst s', present ns dst -> src <> dst ->
  hb (move_shard ns src v c s dst) src v s' = hb ns src v s' && negb (s =? s').
Proof.
  intros ns src v c s dst s' G Hne. unfold move_shard. rewrite hb_del.
  rewrite (hb_add _ _ _ _ _ _ _ _ G). rewrite !N.eqb_refl. simpl.
  destruct (N.eqb_spec src dst); [contradiction|]. simpl. rewrite orb_false_r. reflexivity.
Qed.


Lemma quiet_total : forall a b i, quiet_ok a b i -> forall v s, total b v s = total a v s.
Proof. intros a b i [[_ [_ [C _]]] D]. auto. Qed.

Lemma find_bits_in_nodup : forall es en, NoDup (map e_vid es) -> In en es -> find_bits es (e_vid en) = e_bits en.
Proof.
  induction es as [|e es IH]; intros en Hnd Hin; simpl in *; [destruct Hin|].
  inv Hnd. destruct Hin as [E|Hin].
  - subst. rewrite N.eqb_refl. reflexivity.
  - destruct (N.eqb_spec (e_vid e) (e_vid en)) as [E|E].
    + exfalso. apply H1. rewrite E. apply in_map. exact Hin.
    + apply IH; auto.
Qed.
Lemma first_foreign_spec : forall es vids en, first_foreign es vids = Some en ->
  In en es /\ ~ In (e_vid en) vids.
Proof.
  induction es as [|e es IH]; intros vids en H; simpl in H; [discriminate|].
  destruct (mem (e_vid e) vids) eqn:M.
  - apply IH in H. destruct H as [A B]. split; [right; exact A|exact B].
  - inv H. split; [left; reflexivity|]. intros X. apply mem_In in X. congruence.
Qed.

Lemma valid_ends_spec : forall ns ids e f, valid_ends ns ids e f = true -> In e ids /\ In f ids /\ e <> f.
Proof.
  intros ns ids e f H. unfold valid_ends in H.
  apply andb_prop in H as [H _]. apply andb_prop in H as [H Hn]. apply andb_prop in H as [He Hf].
  apply mem_In in He, Hf. apply negb_true_iff, N.eqb_neq in Hn. auto.
Qed.

(* The loops over a list of oracles ([dedup_vids], [across_vids], [within_vids],
   [balance_racks_list], [rounds]) are all this one: run [step] on the head, go on from its result. *)
Section Chain.
Variables (S A : Type) (I : S -> Prop) (T : S -> S -> list item -> Prop).
Variables (step : S -> A -> option (S * list item)) (f : S -> list A -> option (S * list item)).
Hypothesis f_nil : forall s, f s [] = Some (s, []).
Hypothesis f_cons : forall s o os, f s (o :: os) =
  match step s o with
  | Some (s1, i1) => match f s1 os with Some (s2, i2) => Some (s2, i1 ++ i2) | None => None end
  | None => None
  end.
Hypothesis T_refl : forall s, I s -> T s s [].
Hypothesis T_trans : forall a b c i1 i2, T a b i1 -> T b c i2 -> T a c (i1 ++ i2).
Hypothesis T_step : forall s o s' i, I s -> step s o = Some (s', i) -> I s' /\ T s s' i.

Lemma chain : forall os s s' its, I s -> f s os = Some (s', its) -> I s' /\ T s s' its.
Proof.
  induction os as [|o os IH]; intros s s' its Hs H.
  - rewrite f_nil in H. inv H. auto.
  - rewrite f_cons in H.
    destruct (step s o) as [[s1 i1]|] eqn:E1; [|discriminate].
    destruct (f s1 os) as [[s2 i2]|] eqn:E2; [|discriminate]. inv H.
    destruct (T_step _ _ _ _ Hs E1) as [H1 T1]. destruct (IH _ _ _ H1 E2) as [H2 T2]. eauto.
Qed.
End Chain.

Lemma trans_cons : forall (S : Type) (T : S -> S -> list item -> Prop),
  (forall a b c i1 i2, T a b i1 -> T b c i2 -> T a c (i1 ++ i2)) ->
  forall a b c i its, T a b [i] -> T b c its -> T a c (i :: its).
Proof. intros S T H a b c i its H1 H2. exact (H a b c [i] its H1 H2). Qed.

Lemma first_foreign_held : forall ns f vids en s, wf ns ->
  first_foreign (node_entries ns f) vids = Some en -> In s (shard_ids (e_bits en)) ->
  hb ns f (e_vid en) s = true.
Proof.
  intros ns f vids en s Hwf FF Hs. apply first_foreign_spec in FF. destruct FF as [Hin _].
  unfold hb, node_bits. unfold node_entries in Hin.
  destruct (get_node ns f) as [nf|] eqn:Gf; [|destruct Hin].
  unfold find. rewrite find_bits_in_nodup; [apply shard_ids_has; exact Hs|eapply wf_get; eauto|exact Hin].
Qed.

(* balanceEcShardsWithinRacks and balanceEcRacks only ever move a shard the source holds to
   another node of the same rack that has a free slot *)
Section Local.
Variable T : list node -> list node -> list item -> Prop.

Definition local_move (k : mkind) (line : N -> N -> N -> N -> event) : Prop :=
  forall ns src v c s dst lim, wf ns -> present ns dst -> src <> dst ->
    node_rack ns dst = node_rack ns src -> hb ns src v s = true -> In s shard_range ->
    (0 < node_free ns dst)%Z ->
    T ns (move_shard ns src v c s dst)
      [IMove (line src v s dst) (mk_mrec k ns (move_shard ns src v c s dst) lim src v s dst)].

Hypothesis T_refl : forall ns, wf ns -> T ns ns [].
Hypothesis T_trans : forall a b c i1 i2, T a b i1 -> T b c i2 -> T a c (i1 ++ i2).
Hypothesis T_over : forall ns src over v s, wf ns -> T ns ns [IEvent (EOver src over v s)].
Hypothesis T_within_move : local_move KWithin EMove.
Hypothesis T_rack_move : local_move KRack ERackMove.
Let T_cons := trans_cons _ T T_trans.

Lemma within_shards_L : forall ss c v avgn nracks ns src dests over ch ns' its ch',
  within_shards c v avgn nracks ns src dests ss over ch = Some (ns', its, ch') ->
  wf ns -> NoDup ss -> (forall s, In s ss -> hb ns src v s = true /\ In s shard_range) ->
  (forall x, In x dests -> present ns x /\ node_rack ns x = node_rack ns src) ->
  wf ns' /\ T ns ns' its /\
  (forall x, node_rack ns' x = node_rack ns x) /\ (forall x, present ns x -> present ns' x).
Proof.
  induction ss as [|s ss IH]; intros c v avgn nracks ns src dests over ch ns' its ch' H Hwf Hnd Hh Hd; simpl in H.
  - inv H. auto.
  - destruct (over <=? 0)%Z; [inv H; auto|].
    destruct ch as [|d ch1]; [discriminate|].
    destruct (valid_dest ns src v avgn dests d) eqn:V; [|discriminate].
    inv Hnd. destruct (Hh s (or_introl eq_refl)) as [Hs Hr].
    assert (Hh' : forall s', In s' ss -> hb ns src v s' = true /\ In s' shard_range)
      by (intros; apply Hh; right; assumption).
    destruct d as [dst|].
    + destruct (within_shards c v avgn nracks (move_shard ns src v c s dst) src dests ss (over - 1) ch1)
        as [[[ns2 its2] ch2]|] eqn:R; [|discriminate]. inv H.
      destruct (valid_dest_some _ _ _ _ _ _ V) as [Hin [Hne [Hfree _]]].
      destruct (Hd _ Hin) as [Pd Rd].
      assert (Hne' : src <> dst) by congruence.
      apply IH in R; [|apply wf_move; auto|assumption| |].
      * destruct R as [W [Q [SR Pr]]]. split; [exact W|]. split; [|split].
        -- eapply T_cons; [apply T_over; auto|]. eapply T_cons; [apply T_within_move; auto|exact Q].
        -- intros x. rewrite SR. apply node_rack_move.
        -- intros x Px. apply Pr. apply present_move. exact Px.
      * intros s' Hs'. destruct (Hh' s' Hs') as [A B]. split; [|exact B].
        rewrite hb_move_src; auto. rewrite A. destruct (N.eqb_spec s s'); [subst; contradiction|reflexivity].
      * intros x Hx. destruct (Hd _ Hx) as [A B]. rewrite !node_rack_move. split; [apply present_move|]; assumption.
    + destruct (within_shards c v avgn nracks ns src dests ss (over - 1) ch1)
        as [[[ns2 its2] ch2]|] eqn:R; [|discriminate]. inv H.
      apply IH in R; auto. destruct R as [W [Q R]]. split; [exact W|]. split; [|exact R].
      eapply T_cons; [apply T_over; auto|exact Q].
Qed.

(* [shard_ids] is kept folded for this proof: when the inner loop is abstracted out of the
   equation of [within_sources] the kernel otherwise evaluates the filter over the literal
   [shard_range] into a tree of 2^14 branches *)
Local Opaque shard_ids.
Lemma within_sources_L : forall srcs c v avgn nracks ns dests ch ns' its ch' r,
  within_sources c v avgn nracks ns srcs dests ch = Some (ns', its, ch') ->
  wf ns -> (forall x, In x srcs -> node_rack ns x = r) ->
  (forall x, In x dests -> present ns x /\ node_rack ns x = r) ->
  wf ns' /\ T ns ns' its.
Proof.
  induction srcs as [|src srcs IH]; intros c v avgn nracks ns dests ch ns' its ch' r H Hwf Hs Hd; simpl in H.
  - inv H. auto.
  - destruct (within_shards c v avgn nracks ns src dests (shard_ids (node_bits ns src v))
                (count (node_bits ns src v) - avgn) ch) as [[[ns1 i1] ch1]|] eqn:A; [|discriminate].
    destruct (within_sources c v avgn nracks ns1 srcs dests ch1) as [[[ns2 i2] ch2]|] eqn:B; [|discriminate].
    inv H.
    apply within_shards_L in A; auto.
    + destruct A as [W [Q [SR Pr]]].
      apply IH with (r := r) in B; auto.
      * destruct B as [W2 Q2]. eauto.
      * intros x Hx. rewrite SR. apply Hs. right. exact Hx.
      * intros x Hx. destruct (Hd _ Hx) as [A B']. rewrite SR. auto.
    + apply shard_ids_NoDup.
    + intros s Hin. split; [exact (shard_ids_has _ _ Hin)|exact (shard_ids_range _ _ Hin)].
    + intros x Hx. rewrite (Hs src) by (left; reflexivity). apply Hd. exact Hx.
Qed.
Local Transparent shard_ids.

Lemma within_racks_L : forall ros c v nracks rsc locs ns ns' its,
  within_racks c v nracks rsc locs ns ros = Some (ns', its) -> wf ns -> wf ns' /\ T ns ns' its.
Proof.
  induction ros as [|ro ros IH]; intros c v nracks rsc locs ns ns' its H Hwf; simpl in H.
  - inv H. auto.
  - match type of H with context [within_sources ?a ?b ?c0 ?d ?e ?f ?g ?h] =>
      destruct (within_sources a b c0 d e f g h) as [[[ns1 i1] ch1]|] eqn:A; [|discriminate] end.
    destruct ch1; [|discriminate].
    destruct (within_racks c v nracks rsc locs ns1 ros) as [[ns2 i2]|] eqn:B; [|discriminate]. inv H.
    apply within_sources_L with (r := wr_rack ro) in A; auto.
    + destruct A as [W1 Q1]. destruct (IH _ _ _ _ _ _ _ _ B W1) as [W2 Q2]. eauto.
    + intros x Hx. apply filter_In in Hx. destruct Hx as [_ Hx]. apply N.eqb_eq in Hx. exact Hx.
    + intros x Hx. apply filter_In in Hx. destruct Hx as [Hx _]. split.
      * eapply rack_node_ids_present; eauto.
      * apply rack_node_ids_rack; auto. apply Hwf.
Qed.

Lemma within_vids_L : forall os c nracks ns ns' its,
  within_vids c nracks ns os = Some (ns', its) -> wf ns -> wf ns' /\ T ns ns' its.
Proof.
  intros os c nracks ns ns' its H Hwf. revert H.
  apply (chain _ _ wf T (within_vid c nracks) (within_vids c nracks)); auto.
  intros s o s' i W A. unfold within_vid in A. destruct (perm_eqb _ _); [|discriminate].
  eapply within_racks_L; eauto.
Qed.

Lemma rack_loop_L : forall steps nracks ns ids cnts avg ns' its r,
  rack_loop nracks ns ids cnts avg steps = Some (ns', its) ->
  wf ns -> (forall x, In x ids -> present ns x /\ node_rack ns x = r) -> wf ns' /\ T ns ns' its.
Proof.
  induction steps as [|[e f] rest IH]; intros nracks ns ids cnts avg ns' its r H Hwf Hp; simpl in H; [discriminate|].
  destruct (valid_ends ns ids e f) eqn:V; [|discriminate].
  destruct (valid_ends_spec _ _ _ _ V) as [He [Hf Hne]].
  assert (Stop : match rest with [] => Some (ns, []) | _ :: _ => None end = Some (ns', its) -> wf ns' /\ T ns ns' its).
  { intros X. destruct rest; [|discriminate]. inv X. auto. }
  destruct ((alookup cnts f >? avg)%Z && (alookup cnts e + 1 <=? avg)%Z && (0 <? node_free ns e)%Z) eqn:Cond; [|auto].
  apply andb_true_iff in Cond. destruct Cond as [_ Hfree]. apply Z.ltb_lt in Hfree.
  destruct (first_foreign (node_entries ns f) (map e_vid (node_entries ns e))) as [en|] eqn:FF; [|auto].
  destruct (shard_ids (e_bits en)) as [|s ss] eqn:S; [auto|].
  match type of H with context [rack_loop nracks ?a ids ?b avg rest] =>
    destruct (rack_loop nracks a ids b avg rest) as [[ns2 its2]|] eqn:R; [|discriminate] end.
  inv H.
  assert (Hs : In s (shard_ids (e_bits en))) by (rewrite S; left; reflexivity).
  destruct (Hp _ He) as [Pe Re]. destruct (Hp _ Hf) as [_ Rf].
  apply IH with (r := r) in R; [|apply wf_move; auto|].
  - destruct R as [W Q]. split; [exact W|].
    eapply T_cons; [|exact Q].
    apply T_rack_move; auto; [congruence|eapply first_foreign_held; eauto|eapply shard_ids_range; eauto].
  - intros x Hx. destruct (Hp _ Hx). rewrite node_rack_move. split; [apply present_move|]; assumption.
Qed.

Lemma balance_racks_list_L : forall os nracks ns ns' its,
  balance_racks_list nracks ns os = Some (ns', its) -> wf ns -> wf ns' /\ T ns ns' its.
Proof.
  intros os nracks ns ns' its H Hwf. revert H.
  apply (chain _ _ wf T (balance_rack nracks) (balance_racks_list nracks)); auto.
  intros s o s' i W A. unfold balance_rack in A.
  destruct (length (rack_node_ids s (rb_rack o)) <=? 1)%nat.
  - destruct (rb_steps o); [|discriminate]. inv A. auto.
  - eapply rack_loop_L with (r := rb_rack o); eauto.
    intros x Hx. split; [eapply rack_node_ids_present; eauto|apply rack_node_ids_rack; auto; apply W].
Qed.
End Local.

(* wf alone: the instance T := True of the two lemmas above (and across_vid_wf below) *)
Lemma within_vids_wf : forall os c nracks ns ns' its,
  within_vids c nracks ns os = Some (ns', its) -> wf ns -> wf ns'.
Proof. intros os c nracks ns ns' its H W. eapply (within_vids_L (fun _ _ _ => True)); eauto; unfold local_move; auto. Qed.

Lemma balance_racks_list_wf : forall os nracks ns ns' its,
  balance_racks_list nracks ns os = Some (ns', its) -> wf ns -> wf ns'.
Proof. intros os nracks ns ns' its H W. eapply (balance_racks_list_L (fun _ _ _ => True)); eauto; unfold local_move; auto. Qed.

(* doBalanceEcShardsAcrossRacks for one volume works on the books, the rack counters, its own
   rackToShardCount and the map of picked shards.  A relation on these (for the volume v and
   the limit avg) that holds of the four steps below holds of the whole. *)
Record across_st := Ax {
  x_ns : list node;
  x_rk : list (N * Z);       (* racks[].freeEcSlot *)
  x_rsc : list (N * Z);      (* rackToShardCount *)
  x_picked : list (N * N) }. (* picked: shard id -> source node *)

Definition across_rel : Type := N -> Z -> across_st -> across_st -> list item -> Prop.

(* pickNEcShardsToMoveFrom takes a shard the node holds out of its books and remembers it *)
Definition across_pick (T : across_rel) : Prop :=
  forall v avg ns rk rsc picked id s, wf ns -> hb ns id v s = true -> In s shard_range ->
  T v avg (Ax ns rk rsc picked) (Ax (upd_node ns id (del_shard v s)) rk rsc (pset picked s id)) [].
(* pickOneRack finds no rack *)
Definition across_norack (T : across_rel) : Prop :=
  forall v avg ns rk rsc picked s src picked', wf ns -> ptake picked s = Some (src, picked') ->
  T v avg (Ax ns rk rsc picked) (Ax ns rk rsc picked') [IDrop v s src (Some (ENoRack v s src))].
(* a rack r below the limit and a node dst of it with a free slot: the counters of r and of the
   source's rack are adjusted and the shard lands on dst *)
Definition across_move (T : across_rel) : Prop :=
  forall c v avg ns rk rsc picked s src picked' r dst, wf ns -> ptake picked s = Some (src, picked') ->
  (alookup rsc r < avg)%Z -> present ns dst -> node_rack ns dst = r -> dst <> src -> (0 < node_free ns dst)%Z ->
  T v avg (Ax ns rk rsc picked)
    (Ax (move_shard ns src v c s dst) (aadd (aadd rk r (-1)) (node_rack ns src) 1)
        (aadd (aadd rsc r 1) (node_rack ns src) (-1)) picked')
    [IMove (EMove src v s dst) (mk_mrec KAcross ns (move_shard ns src v c s dst) avg src v s dst)].
(* a rack r with a free slot on its counter, but no eligible node in it: the counters are
   adjusted all the same and the shard is abandoned without a line *)
Definition across_none (T : across_rel) : Prop :=
  forall v avg ns rk rsc picked s src picked' r, wf ns -> ptake picked s = Some (src, picked') ->
  (alookup rsc r < avg)%Z -> (0 < alookup rk r)%Z ->
  (forall x, In x (rack_node_ids ns r) -> eligible ns src v avg x = false) ->
  T v avg (Ax ns rk rsc picked)
    (Ax ns (aadd (aadd rk r (-1)) (node_rack ns src) 1) (aadd (aadd rsc r 1) (node_rack ns src) (-1)) picked')
    [IDrop v s src None].

Section Across.
Variable T : across_rel.
Hypothesis T_refl : forall v avg x, T v avg x x [].
Hypothesis T_trans : forall v avg a b c i1 i2, T v avg a b i1 -> T v avg b c i2 -> T v avg a c (i1 ++ i2).
Hypothesis T_pick : across_pick T.
Hypothesis T_norack : across_norack T.
Hypothesis T_move : across_move T.
Hypothesis T_none : across_none T.
Let T_cons v avg := trans_cons _ (T v avg) (T_trans v avg).

Lemma pick_n_A : forall n v avg cands ns rk rsc picked ns' picked',
  pick_n n v cands ns picked = (ns', picked') -> wf ns ->
  wf ns' /\ T v avg (Ax ns rk rsc picked) (Ax ns' rk rsc picked') [].
Proof.
  induction n as [|n IH]; intros v avg cands ns rk rsc picked ns' picked' H W; simpl in H; [inv H; auto|].
  destruct (first_nonzero ns v cands 0) as [[[i id] b]|] eqn:F; [|inv H; auto].
  destruct (shard_ids b) as [|s rest] eqn:S; [inv H; auto|].
  assert (Hs : In s (shard_ids b)) by (rewrite S; left; reflexivity).
  apply (IH v avg _ _ rk rsc) in H; [|apply wf_del; exact W].
  destruct H as [W' Q]. split; [exact W'|]. eapply (T_trans v avg _ _ _ [] []); [|exact Q].
  apply T_pick; [exact W| |eapply shard_ids_range; eauto].
  unfold hb. rewrite <- (proj1 (first_nonzero_spec _ _ _ _ _ _ _ F)). apply shard_ids_has. exact Hs.
Qed.

Lemma pick_racks_A : forall ro ns v avg rk rsc locs picked ns' picked',
  pick_racks ns v avg rsc locs ro picked = Some (ns', picked') -> wf ns ->
  wf ns' /\ T v avg (Ax ns rk rsc picked) (Ax ns' rk rsc picked') [].
Proof.
  induction ro as [|[r cands] ro IH]; intros ns v avg rk rsc locs picked ns' picked' H W; simpl in H; [inv H; auto|].
  destruct (alookup rsc r >? avg)%Z; [|eapply IH; eauto].
  destruct (valid_cands _ _ _ _); [|discriminate].
  match type of H with context [pick_n ?a ?b ?c ?d ?e] => destruct (pick_n a b c d e) as [ns1 picked1] eqn:P end.
  destruct (pick_n_A _ _ avg _ _ rk rsc _ _ _ P W) as [W1 Q1].
  destruct (IH _ _ _ rk _ _ _ _ _ H W1) as [W2 Q2]. split; [exact W2|].
  exact (T_trans v avg _ _ _ [] [] Q1 Q2).
Qed.

Lemma across_moves_A : forall ms c v avg st rsc picked st' its,
  across_moves c v avg st rsc picked ms = Some (st', its) -> wf (nodes st) ->
  wf (nodes st') /\
  exists rsc', T v avg (Ax (nodes st) (racks st) rsc picked) (Ax (nodes st') (racks st') rsc' []) its.
Proof.
  induction ms as [|[s ch] ms IH]; intros c v avg st rsc picked st' its H W; simpl in H.
  - destruct picked; [|discriminate]. inv H. eauto.
  - destruct (ptake picked s) as [[src picked']|] eqn:P; [|discriminate].
    destruct ch as [|r d].
    + destruct (existsb _ _); [discriminate|].
      destruct (across_moves c v avg st rsc picked' ms) as [[st1 its1]|] eqn:R; [|discriminate]. inv H.
      destruct (IH _ _ _ _ _ _ _ _ R W) as [W' [rsc' Q]]. split; [exact W'|]. exists rsc'.
      eapply T_cons; [apply T_norack; eauto|exact Q].
    + destruct (mem r (rack_ids st) && rack_ok st rsc avg r) eqn:RO; [|discriminate].
      apply andb_true_iff in RO. destruct RO as [_ RO]. unfold rack_ok in RO.
      apply andb_true_iff in RO. destruct RO as [RO RF]. apply Z.ltb_lt in RO. apply Z.ltb_lt in RF.
      destruct (valid_dest (nodes st) src v avg (rack_node_ids (nodes st) r) d) eqn:V; [|discriminate].
      destruct d as [dst|];
        (match type of H with context [across_moves c v avg ?S ?R picked' ms] =>
           destruct (across_moves c v avg S R picked' ms) as [[st1 its1]|] eqn:R1; [|discriminate] end);
        inv H.
      * destruct (valid_dest_some _ _ _ _ _ _ V) as [Hin [Hne [Hfree _]]].
        destruct (IH _ _ _ _ _ _ _ _ R1 (wf_move _ _ _ _ _ _ W)) as [W' [rsc' Q]]. split; [exact W'|]. exists rsc'.
        eapply T_cons; [|exact Q]. apply T_move; auto.
        -- eapply rack_node_ids_present; eauto.
        -- apply rack_node_ids_rack; [apply W|exact Hin].
      * destruct (IH _ _ _ _ _ _ _ _ R1 W) as [W' [rsc' Q]]. split; [exact W'|]. exists rsc'.
        eapply T_cons; [|exact Q]. apply T_none; auto.
        simpl in V. rewrite forallb_forall in V. intros x Hx. apply negb_true_iff. apply V. exact Hx.
Qed.

Lemma across_vid_A : forall c st o st' its,
  across_vid c st o = Some (st', its) -> wf (nodes st) ->
  wf (nodes st') /\
  exists rsc', T (av_vid o) (ceil_div total_shards (Z.of_nat (length (racks st))))
    (Ax (nodes st) (racks st) (group_count (nodes st) (locations (nodes st) (av_vid o)) (av_vid o)) [])
    (Ax (nodes st') (racks st') rsc' []) its.
Proof.
  intros c st o st' its H W. unfold across_vid in H. destruct (perm_eqb _ _); [|discriminate].
  destruct (pick_racks _ _ _ _ _ _ _) as [[ns1 picked]|] eqn:P; [|discriminate].
  destruct (pick_racks_A _ _ _ _ (racks st) _ _ _ _ _ P W) as [W1 Q1].
  destruct (across_moves_A _ _ _ _ _ _ _ _ _ H W1) as [W2 [rsc' Q2]]. split; [exact W2|]. exists rsc'.
  exact (T_trans _ _ _ _ _ [] its Q1 Q2).
Qed.
End Across.

Lemma across_vid_wf : forall c st o st' its,
  across_vid c st o = Some (st', its) -> wf (nodes st) -> wf (nodes st').
Proof. intros c st o st' its H W. eapply (across_vid_A (fun _ _ _ _ _ => True)); eauto; red; auto. Qed.

(* ec.balance in dry run: balanceEcVolumes for every collection, then balanceEcRacks *)
Section Plan.
Variable T : state -> state -> list item -> Prop.
Let on (rk : list (N * Z)) (ns ns' : list node) : list item -> Prop :=
  T {| nodes := ns; racks := rk |} {| nodes := ns'; racks := rk |}.

Hypothesis T_refl : forall st, wf (nodes st) -> T st st [].
Hypothesis T_trans : forall a b c i1 i2, T a b i1 -> T b c i2 -> T a c (i1 ++ i2).
Hypothesis T_round : forall st c, wf (nodes st) -> T st st [IEvent (ERound c)].
Hypothesis T_keep : forall st v s n k, wf (nodes st) -> T st st [IEvent (EKeep v s n k)].
Hypothesis T_across : forall c st o st' its,
  across_vid c st o = Some (st', its) -> wf (nodes st) -> T st st' its.
Hypothesis T_within : forall c nracks rk os ns ns' its,
  within_vids c nracks ns os = Some (ns', its) -> wf ns -> on rk ns ns' its.
Hypothesis T_racks : forall nracks rk os ns ns' its,
  balance_racks_list nracks ns os = Some (ns', its) -> wf ns -> on rk ns ns' its.
Let T_cons := trans_cons _ T T_trans.

(* the dry run of deleteDuplicatedEcShards prints "keeping" and leaves the books alone *)
Lemma dedup_shards_T : forall ss rk ns locs v keeps ns' its,
  dedup_shards false ns locs v ss keeps = Some (ns', its) -> wf ns -> wf ns' /\ on rk ns ns' its.
Proof.
  induction ss as [|s ss IH]; intros rk ns locs v keeps ns' its H Hwf; simpl in H.
  - destruct keeps; [|discriminate]. inv H. split; [|apply T_refl]; auto.
  - destruct (length (holders ns locs v s) <=? 1)%nat; [eapply IH; eauto|].
    destruct keeps as [|k keeps]; [discriminate|].
    destruct (mem k (holders ns locs v s) && _); [|discriminate].
    destruct (dedup_shards false ns locs v ss keeps) as [[ns2 its2]|] eqn:R; [|discriminate]. inv H.
    destruct (IH rk _ _ _ _ _ _ R Hwf) as [W Q]. split; [exact W|].
    eapply T_cons; [apply T_keep; auto|exact Q].
Qed.

Lemma round_T : forall st o st' its,
  round false st o = Some (st', its) -> wf (nodes st) -> wf (nodes st') /\ T st st' its.
Proof.
  intros [ns rk] o st' its H Hwf. unfold round, dedup_phase, across_phase, within_phase in H. simpl in *.
  destruct (perm_eqb _ _); [|discriminate].
  destruct (dedup_vids false ns (ro_dedup o)) as [[ns1 i1]|] eqn:A; [|discriminate].
  destruct (perm_eqb _ _); [|discriminate].
  destruct (across_vids (ro_coll o) _ (ro_across o)) as [[st2 i2]|] eqn:B; [|discriminate].
  destruct (perm_eqb _ _); [|discriminate].
  destruct (within_vids (ro_coll o) _ (nodes st2) (ro_within o)) as [[ns3 i3]|] eqn:C; [|discriminate]. inv H.
  assert (D : wf ns1 /\ on rk ns ns1 i1).
  { revert A. apply (chain _ _ wf (on rk) (fun ns o =>
      dedup_shards false ns (locations ns (dd_vid o)) (dd_vid o) shard_range (dd_keeps o)) (dedup_vids false)); auto.
    - intros; apply T_refl; auto.
    - intros a b c i0 i4. apply T_trans.
    - intros; eapply dedup_shards_T; eauto. }
  destruct D as [W1 Q1].
  apply (chain _ _ (fun st => wf (nodes st)) T (across_vid (ro_coll o)) (across_vids (ro_coll o))) in B; auto;
    [|intros s o0 s' i W E; split; [eapply across_vid_wf|eapply T_across]; eassumption].
  destruct B as [W2 Q2]. destruct st2 as [ns2 rk2]. simpl in *.
  split; [eapply within_vids_wf; eauto|].
  eapply T_cons; [apply T_round; auto|]. eapply T_trans; [exact Q1|]. eapply T_trans; [exact Q2|].
  apply (T_within _ _ rk2 _ _ _ _ C W2).
Qed.

Lemma rounds_T : forall os st st' its,
  rounds false st os = Some (st', its) -> wf (nodes st) -> wf (nodes st') /\ T st st' its.
Proof.
  intros os st st' its H Hwf. revert H.
  apply (chain _ _ (fun st => wf (nodes st)) T (round false) (rounds false)); auto.
  intros; eapply round_T; eauto.
Qed.

Theorem run_plan_T : forall st o st' its,
  run_plan false st o = Some (st', its) -> wf (nodes st) -> wf (nodes st') /\ T st st' its.
Proof.
  intros st o st' its H Hwf. unfold run_plan in H.
  destruct (rounds false st (po_rounds o)) as [[[ns1 rk1] i1]|] eqn:A; [|discriminate].
  destruct (rounds_T _ _ _ _ A Hwf) as [W1 Q1].
  destruct (po_racks o) as [rbs|]; [|inv H; auto].
  destruct (balance_racks _ rbs) as [[st2 i2]|] eqn:B; [|discriminate]. inv H.
  unfold balance_racks in B. simpl in *. destruct (perm_eqb _ _); [|discriminate].
  destruct (balance_racks_list _ _ _) as [[ns2 its0]|] eqn:C; [|discriminate]. inv B.
  split; [eapply balance_racks_list_wf; eauto|]. eapply T_trans; [exact Q1|]. apply (T_racks _ rk1 _ _ _ _ C W1).
Qed.
End Plan.
