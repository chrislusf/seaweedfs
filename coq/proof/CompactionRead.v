(* C04: a run only appends; where the records come from; a read expressed through the record
   it parses ([content], [read_char]). *)
From Coq Require Import List NArith ZArith Bool Lia.
From SW Require Import model.Volume model.Compaction proof.CompactionInv.
Import ListNotations.
Local Open Scope N_scope.

Record grows (s s' : cvol) : Prop := {
  g_recs : exists newr, recs (cv s') = newr ++ recs (cv s) /\ forall x, In x newr -> dat_end (cv s) <= r_off x;
  g_idx : exists d, cidx s' = d ++ cidx s;
  g_end : dat_end (cv s) <= dat_end (cv s')
}.

Lemma grows_refl : forall s, grows s s.
Proof. intro s. constructor; [exists []; split; [reflexivity | intros x []] | exists []; reflexivity | lia]. Qed.

Lemma grows_trans : forall a b c, grows a b -> grows b c -> grows a c.
Proof.
  intros a b c [[n1 [R1 B1]] [d1 I1] E1] [[n2 [R2 B2]] [d2 I2] E2]. constructor.
  - exists (n2 ++ n1). split; [rewrite R2, R1, app_assoc; reflexivity|].
    intros x Hx. apply in_app_or in Hx. destruct Hx as [Hx|Hx]; [specialize (B2 x Hx); lia | auto].
  - exists (d2 ++ d1). rewrite I2, I1, app_assoc. reflexivity.
  - lia.
Qed.

Lemma step_grows : forall vt s ev, cinv s -> grows s (fst (c_step vt s ev)).
Proof.
  intros vt s ev H. destruct (c_step_adds vt s ev H) as [|n _|id c nv _ _ _|off _ L].
  (* a write and a delete append one record at the old end and one .idx entry *)
  2,3: constructor; simpl; [|eexists [_]; reflexivity | lia].
  2,3: eexists [_]; split; [reflexivity|]; intros x [<-|[]]; simpl; lia.
  - apply grows_refl.
  - constructor; simpl; [|exists []; reflexivity | lia].
    exists []. split; [reflexivity | intros x []].
Qed.

Lemma exec_grows : forall vt h s, cinv s -> grows s (c_exec vt s h).
Proof.
  intros vt h s H. apply (exec_ind vt (grows s) (fun _ => True)); auto using grows_refl.
  intros s0 ev H0 G _. exact (grows_trans _ _ _ G (step_grows vt s0 ev H0)).
Qed.

Lemma grows_find : forall s s' off r, cinv s -> grows s s' ->
  find_rec (recs (cv s)) off = Some r -> find_rec (recs (cv s')) off = Some r.
Proof.
  intros s s' off r H [[newr [R B]] _ _] Hf. rewrite R. apply find_rec_app_old; [exact Hf|].
  intros x Hx Heq. specialize (B x Hx).
  destruct (find_rec_bound _ _ _ _ (ci_sorted _ H) Hf) as [_ Hb]. pose proof (actual_size_pos (r_size r)). lia.
Qed.

(* the map entry of k, if any, has Size <> 0: store_read's "size == 0" short-cut is not taken *)
Definition nzk (m : nmap) (k : N) : Prop := forall nv, nm_get m k = Some nv -> nv_size nv <> 0%Z.
Definition nzid (s : cvol) (id : N) : Prop := nzk (nm (cv s)) id.

Lemma adjust_data : forall vt n, n_data (adjust vt n) = n_data n.
Proof. intros. unfold adjust. destruct (ttl_is_empty (n_ttl n) && negb (ttl_is_empty vt)); reflexivity. Qed.
Lemma adjust_id : forall vt n, n_id (adjust vt n) = n_id n.
Proof. intros. unfold adjust. destruct (ttl_is_empty (n_ttl n) && negb (ttl_is_empty vt)); reflexivity. Qed.

Definition ev_ne_on (id : N) (ev : cevent) : Prop :=
  match snd ev with CWrite n => n_id n = id -> blen (n_data n) =? 0 = false | _ => True end.

Lemma no_empty_on_forall : forall id h, no_empty_on id h = true -> forall ev, In ev h -> ev_ne_on id ev.
Proof.
  intros id h H ev Hin. unfold no_empty_on in H. rewrite forallb_forall in H. specialize (H ev Hin).
  unfold ev_ne_on. destruct (snd ev) as [n| |]; auto. intro Hid. apply orb_prop in H. destruct H as [H|H].
  - apply negb_true_iff, N.eqb_neq in H. contradiction.
  - apply negb_true_iff. exact H.
Qed.

Lemma no_empty_all : forall id h, has_empty h = false -> no_empty_on id h = true.
Proof.
  intros id. induction h as [|[t o] h IH]; simpl; intro H; [reflexivity|].
  apply orb_false_elim in H. destruct H as [H1 H2]. rewrite (IH H2), andb_true_r.
  destruct o; [|reflexivity..]. unfold ev_needle in H1. simpl in H1. rewrite H1. apply orb_true_r.
Qed.

Lemma step_nzid : forall vt s ev id, cinv s -> nzid s id -> ev_ne_on id ev -> nzid (fst (c_step vt s ev)) id.
Proof.
  intros vt s ev id H Hz Hne. destruct (c_step_adds vt s ev H) as [|n En|k c nv _ Gk V|off _ L]; intro v; simpl.
  - apply Hz.
  - destruct (n_id (adjust vt n) =? id) eqn:Eq; [|apply Hz].
    intro Hv. inversion Hv; subst. simpl. unfold ev_ne_on in Hne. rewrite En in Hne.
    apply N.eqb_eq in Eq. rewrite adjust_id in Eq. specialize (Hne Eq).
    pose proof (needle_size_pos (adjust vt n)) as Hp. rewrite adjust_data in Hp. specialize (Hp Hne). lia.
  - unfold nm_delete. rewrite Gk, V. simpl. destruct (k =? id); [|apply Hz].
    intro Hv. inversion Hv; subst. simpl. apply size_valid_pos in V. lia.
  - apply Hz.
Qed.

Lemma exec_nzid : forall vt h s id, cinv s -> nzid s id -> (forall ev, In ev h -> ev_ne_on id ev) ->
  nzid (c_exec vt s h) id.
Proof.
  intros vt h s id. apply (exec_ind vt (fun s => nzid s id) (ev_ne_on id)). intros s0 ev. apply step_nzid.
Qed.

Definition from_write (vt : N * N) (h : list cevent) (r : rec) : Prop :=
  exists n0, In (r_at r, CWrite n0) h /\ r_n r = adjust vt n0.

Lemma exec_provenance : forall vt h s r, cinv s ->
  In r (recs (cv (c_exec vt s h))) -> In r (recs (cv s)) \/ r_size r = 0 \/ from_write vt h r.
Proof.
  induction h as [|ev h IH]; intros s r H Hin; [left; exact Hin|].
  destruct (IH _ _ (c_step_inv vt s ev H) Hin) as [Hr|[Hz|[n0 [Hn Hr]]]].
  - destruct (c_step_adds vt s ev H) as [|n En|id c nv _ _ _|off _ _]; simpl in Hr; auto.
    + destruct Hr as [<-|Hr]; [|left; exact Hr]. right. right. exists n. simpl. split; [|reflexivity].
      left. destruct ev as [t o]. simpl in *. subst o. reflexivity.
    + destruct Hr as [<-|Hr]; [|left; exact Hr]. right. left. reflexivity.
  - right. left. exact Hz.
  - right. right. exists n0. split; [right; exact Hn | exact Hr].
Qed.

(* the (offset, size) a read of k follows, when the entry is neither absent nor deleted *)
Definition live (m : nmap) (k : N) : option (N * Z) :=
  match nm_get m k with
  | Some nv => if nv_off nv =? 0 then None else if size_deleted (nv_size nv) then None else Some (nv_off nv, nv_size nv)
  | None => None
  end.

Lemma live_inv : forall m k off size, live m k = Some (off, size) ->
  exists nv, nm_get m k = Some nv /\ nv_off nv = off /\ nv_size nv = size /\ off <> 0 /\ (0 <= size)%Z.
Proof.
  intros m k off size L. unfold live in L. destruct (nm_get m k) as [nv|]; [|discriminate].
  destruct (nv_off nv =? 0) eqn:O; [discriminate|]. destruct (size_deleted (nv_size nv)) eqn:D; [discriminate|].
  inversion L; subst. exists nv. repeat split; [apply N.eqb_neq; exact O | apply size_deleted_nonneg; exact D].
Qed.

Lemma live_intro : forall m k nv, nm_get m k = Some nv -> nv_off nv <> 0 -> (0 <= nv_size nv)%Z ->
  live m k = Some (nv_off nv, nv_size nv).
Proof.
  intros m k nv G Ho Hs. unfold live.
  rewrite G, (proj2 (N.eqb_neq _ _) Ho), (proj2 (size_deleted_nonneg _) Hs). reflexivity.
Qed.

Definition payload := (N * N * needle)%type.       (* header Size, AppendAtNs, needle *)
Definition pl (r : rec) : payload := (r_size r, r_at r, r_n r).

(* the record a read of k parses, as far as a reader can tell records apart *)
Definition content (st : vol) (k : N) : option payload :=
  match live (nm st) k with
  | Some (off, size) => match read_data st off size with Some r => Some (pl r) | None => None end
  | None => None
  end.

Definition view_pl (p : payload) : view :=
  if 0 <? fst (fst p) then view_of (snd p) else blank_view (n_cookie (snd p)).

Definition read_pl (now : N) (p : payload) : option (Z * view) :=
  if view_expired (view_pl p) (snd (fst p)) now then None
  else Some (Z.of_N (blen (v_data (view_pl p))), view_pl p).

Lemma view_of_rec_pl : forall r, view_of_rec r = view_pl (pl r).
Proof. reflexivity. Qed.

Lemma read_char : forall st k c now,
  nzk (nm st) k ->
  readable (store_read st k c false now) =
  match content st k with Some p => read_pl now p | None => None end.
Proof.
  intros st k c now Hz. unfold store_read, content, live.
  destruct (nm_get (nm st) k) as [nv|] eqn:G; [|reflexivity].
  specialize (Hz nv G).
  destruct (nv_off nv =? 0); [reflexivity|].
  destruct (size_deleted (nv_size nv)) eqn:D; [reflexivity|].
  assert (Z0 : (nv_size nv =? 0)%Z = false) by (apply Z.eqb_neq; exact Hz). rewrite Z0.
  destruct (read_data st (nv_off nv) (nv_size nv)) as [r|]; [|reflexivity].
  unfold read_pl. rewrite view_of_rec_pl. simpl snd. simpl fst.
  destruct (view_expired (view_pl (pl r)) (r_at r) now); reflexivity.
Qed.

Lemma read_dead : forall st k c now, live (nm st) k = None -> readable (store_read st k c false now) = None.
Proof.
  intros st k c now H. unfold store_read. unfold live in H.
  destruct (nm_get (nm st) k) as [nv|]; [|reflexivity].
  destruct (nv_off nv =? 0); [reflexivity|].
  destruct (size_deleted (nv_size nv)); [reflexivity | discriminate].
Qed.

Lemma live_size : forall s k off size, nzid s k -> live (nm (cv s)) k = Some (off, size) -> size <> 0%Z.
Proof.
  intros s k off size Hz L. destruct (live_inv _ _ _ _ L) as [nv [G [_ [<- _]]]]. exact (Hz nv G).
Qed.
