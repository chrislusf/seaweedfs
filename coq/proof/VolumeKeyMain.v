(* C01, refinement per key: one step of a history (xstep_RC), whole histories, cookies; then the
   all-keys theorems for the base operations inside their hypotheses, as the case where no key is soiled.
   At the end, apart from the refinement: literals_used and the examples example_x, batch_skip_ignores_cookie. *)
From Coq Require Import List NArith ZArith Bool Lia.
From SW Require Import model.Volume proof.VolumeProofs proof.VolumeKeyProofs proof.VolumeKeyOps.
Import ListNotations.
Local Open Scope N_scope.

(* the invariant over a set of keys; RD D of VolumeKeyProofs.v is RC (cleanD D) unfolded *)
Definition RC (C : N -> Prop) (st : vol) (sp : spec) (seen : list needle) : Prop :=
  flags_eq st sp /\ bounded st /\ forall id, C id -> K st sp seen id.

Definition cleanD (D : dirt) (id : N) : Prop := dirt_get D id = None.

Lemma RC_frame : forall (C C' : N -> Prop) ks st st' sp sp' seen seen',
  RC C st sp seen -> vframe ks st st' -> bounded st' -> sframe ks sp sp' -> incl seen seen' ->
  (forall id, C' id -> C id) ->
  (forall id, memN id ks = true -> C' id -> K st' sp' seen' id) ->
  RC C' st' sp' seen'.
Proof.
  intros C C' ks st st' sp sp' seen seen' ([F1 F2] & HB & HK) HV HB' HS Hi HC Hks.
  pose proof HV as (V1 & V2 & _). pose proof HS as (S1 & S2 & _).
  split; [split; congruence|]. split; [exact HB'|].
  intros id Hc. destruct (memN id ks) eqn:Hm.
  - apply Hks; assumption.
  - eapply K_frame; eauto.
Qed.

Lemma self_trig_keys : forall seen o f, self_trig seen o = Some f -> xkeys o <> [].
Proof.
  intros seen o f H. unfold self_trig in H. destruct o as [b|id c rd g|fids skip]; cbn [xop_needle] in H; try discriminate.
  destruct b; cbn [op_needle] in H; try discriminate; cbn [xkeys]; discriminate.
Qed.

Lemma dirt_of_keys_nil : forall D, dirt_of_keys D [] = None.
Proof. reflexivity. Qed.

Lemma dirty_step_spec : forall D seen o,
  (self_trig seen o = None /\ dirt_of_keys D (xkeys o) = None /\ dirty_step D seen o = D) \/
  (exists f, dirty_step D seen o = map (fun k => (k, f)) (xkeys o) ++ D /\ xkeys o <> []).
Proof.
  intros D seen o. unfold dirty_step. destruct (self_trig seen o) as [f|] eqn:E.
  - right. exists f. split; [reflexivity | eapply self_trig_keys; eauto].
  - destruct (dirt_of_keys D (xkeys o)) as [f|] eqn:E2.
    + right. exists f. split; [reflexivity|]. intro H. rewrite H in E2. discriminate.
    + left. auto.
Qed.

Lemma dirt_nil_keys : forall ks, dirt_of_keys [] ks = None.
Proof. induction ks as [|k ks IH]; [reflexivity | exact IH]. Qed.

Lemma clean_dirty_step : forall seen o, self_trig seen o = None -> dirty_step [] seen o = [].
Proof. intros seen o H. unfold dirty_step. rewrite H, dirt_nil_keys. reflexivity. Qed.

(* the shape every case of the step theorem has: the operation [o] leaves everything off its keys
   alone (frames), and if no key of it is soiled the answer is right ([m]; in the uses, xmatch expected
   actual) and the keys keep their entries.  Then every key that is still clean keeps its entry: the other
   keys by the frames, the keys of [o] because they are either all soiled now or were all clean. *)
Lemma step_close : forall D seen o st st' sp sp' seen' (m : bool),
  RC (cleanD D) st sp seen ->
  vframe (xkeys o) st st' -> bounded st' -> sframe (xkeys o) sp sp' -> incl seen seen' ->
  (self_trig seen o = None -> (forall id, memN id (xkeys o) = true -> cleanD D id) ->
     m = true /\ forall id, memN id (xkeys o) = true -> K st' sp' seen' id) ->
  RC (cleanD (dirty_step D seen o)) st' sp' seen' /\
  (dirt_of_keys (dirty_step D seen o) (xkeys o) = None -> m = true).
Proof.
  intros D seen o st st' sp sp' seen' m HR HV HB HS Hi Hclean.
  destruct (dirty_step_spec D seen o) as [(E1 & E2 & E3)|(f & E & Hne)]; rewrite ?E3, ?E.
  - destruct (Hclean E1 (proj1 (dirt_of_keys_none D (xkeys o)) E2)) as [Hm HK].
    split; [|intros _; exact Hm].
    eapply RC_frame; eauto.
  - split.
    + eapply RC_frame; eauto.
      * intros id Hc. unfold cleanD in *. rewrite dirt_get_app_map in Hc.
        destruct (memN id (xkeys o)); [discriminate | exact Hc].
      * intros id Hm Hc. unfold cleanD in Hc. rewrite dirt_get_app_map, Hm in Hc. discriminate.
    + destruct (xkeys o) as [|k ks]; [destruct (Hne eq_refl)|].
      cbn [map app dirt_of_keys dirt_get]. rewrite N.eqb_refl. discriminate.
Qed.

(* the same for an operation on one key *)
Lemma step_close1 : forall D seen o id st st' sp sp' seen' (m : bool),
  RC (cleanD D) st sp seen -> xkeys o = [id] ->
  vframe [id] st st' -> bounded st' -> sframe [id] sp sp' -> incl seen seen' ->
  (self_trig seen o = None -> K st sp seen id -> m = true /\ K st' sp' seen' id) ->
  RC (cleanD (dirty_step D seen o)) st' sp' seen' /\
  (dirt_of_keys (dirty_step D seen o) (xkeys o) = None -> m = true).
Proof.
  intros D seen o id st st' sp sp' seen' m HR Hk HV HB HS Hi Hc. pose proof HR as (_ & _ & HK).
  apply step_close with (st := st) (sp := sp); rewrite ?Hk; try assumption.
  intros Hs Hcl. assert (Hid : cleanD D id) by (apply Hcl, memN_true; left; reflexivity).
  destruct (Hc Hs (HK id Hid)) as [Hm HK']. split; [exact Hm|].
  intros x Hx. apply memN_true in Hx. destruct Hx as [<-|[]]. exact HK'.
Qed.

Section Steps.
Variable gun : bytes -> bytes.

(* GetOrHeadHandler on a clean key: what is served is a function [f] of the needle read, after the
   tests on the error, the count and the cookie *)
Lemma read_gate : forall (T : Type) (f : view -> T) (d : T) st sp seen id c t,
  K st sp seen id ->
  (let '(e, count, v) := store_read st id c false t in
   if negb (err_eqb e ENone) || (count <? 0)%Z then d else if negb (v_cookie v =? c) then d else f v) =
  match s_lookup sp id t with
  | Some (c', n) => if c' =? c then f (exp_view n) else d
  | None => d
  end.
Proof.
  intros T f d st sp seen id c t HK. pose proof (read_k st sp seen id c t HK) as RS.
  destruct (s_lookup sp id t) as [[c' n]|].
  - destruct RS as [Hc Hrd]. rewrite Hrd. cbn [err_eqb negb orb].
    rewrite count_nonneg. cbn [exp_view v_cookie]. subst c'.
    destruct (n_cookie n =? c); reflexivity.
  - destruct RS as (e & v0 & [He|He] & Hrd); rewrite Hrd; subst e; reflexivity.
Qed.

Lemma get_k : forall st sp seen id c t,
  K st sp seen id ->
  http_get st id c false t =
  match s_lookup sp id t with
  | Some (c', n) => if c' =? c then (200, hproj (exp_view n)) else (404, blank_hview)
  | None => (404, blank_hview)
  end.
Proof. intros st sp seen id c t. exact (read_gate _ (fun v => (200, hproj v)) _ st sp seen id c t). Qed.

Lemma xget_k : forall st sp seen id c g t,
  K st sp seen id ->
  http_get_x gun st id c false g t =
  match s_lookup sp id t with
  | Some (c', n) =>
      if c' =? c then (200, (if g_head g then drop_body (hproj_x gun g (exp_view n)) else hproj_x gun g (exp_view n)),
                       blen (h_data (hproj_x gun g (exp_view n))))
      else (404, blank_hview, 0)
  | None => (404, blank_hview, 0)
  end.
Proof.
  intros st sp seen id c g t.
  exact (read_gate _ (fun v => (200, (if g_head g then drop_body (hproj_x gun g v) else hproj_x gun g v),
                                blen (h_data (hproj_x gun g v)))) _ st sp seen id c t).
Qed.

Lemma del_k : forall st sp seen id c t,
  flags_eq st sp -> bounded st -> K st sp seen id ->
  xmatch (xexpect sp t (Del id c))
         (XO (ODel (snd (fst (http_delete st id c t))) (snd (http_delete st id c t)))) = true /\
  K (fst (fst (http_delete st id c t))) (fst (spec_step sp (t, Del id c))) seen id.
Proof.
  intros st sp seen id c t HF HB HK. pose proof (read_k st sp seen id c t HK) as RS.
  unfold http_delete, spec_step, xexpect. destruct (s_lookup sp id t) as [[c' n]|] eqn:Hl.
  - destruct RS as [Hc Hrd]. rewrite Hrd. cbv beta iota. cbn [err_eqb negb].
    cbn [exp_view v_cookie v_size]. subst c'.
    destruct (n_cookie n =? c) eqn:E; cbn [negb].
    + destruct (delete_k st sp seen id (n_cookie n) t HF HB HK) as (st' & Hd & HK').
      rewrite Hd. destruct (s_nwod sp); cbn [fst snd xmatch]; rewrite ?N.eqb_refl; (split; [reflexivity | exact HK']).
    + cbn [fst snd xmatch]. rewrite ?N.eqb_refl. split; [reflexivity | exact HK].
  - destruct RS as (e & v0 & [He|He] & Hrd); rewrite Hrd; subst e; cbv beta iota; cbn [err_eqb negb fst snd xmatch];
      rewrite ?N.eqb_refl; (split; [reflexivity | exact HK]).
Qed.

Lemma del_spec_frame : forall sp id c t, sframe [id] sp (fst (spec_step sp (t, Del id c))).
Proof.
  intros sp id c t. unfold spec_step. destruct (s_lookup sp id t) as [[c' n]|]; [|apply sframe_refl].
  destruct (negb (c' =? c)); [apply sframe_refl|]. destruct (s_nwod sp); [apply sframe_refl | apply spec_kill_frame].
Qed.

Lemma rawdelete_k : forall st sp seen id c t,
  flags_eq st sp -> bounded st -> K st sp seen id ->
  xmatch (xexpect sp t (RawDelete id c))
         (XO (ODelete (snd (fst (store_delete st id c t))) (snd (store_delete st id c t)))) = true /\
  K (fst (fst (store_delete st id c t))) (fst (spec_step sp (t, RawDelete id c))) seen id.
Proof.
  intros st sp seen id c t HF HB HK. unfold spec_step, xexpect.
  destruct (delete_k st sp seen id c t HF HB HK) as (st' & Hd & HK').
  rewrite Hd. destruct (s_nwod sp); cbn [fst snd xmatch err_eqb Bool.eqb andb]; rewrite ?Z.eqb_refl; auto.
Qed.

Lemma rawdelete_spec_frame : forall sp id c t, sframe [id] sp (fst (spec_step sp (t, RawDelete id c))).
Proof.
  intros sp id c t. unfold spec_step. destruct (s_nwod sp); [apply sframe_refl | apply spec_kill_frame].
Qed.

Lemma batch_one_cases : forall st id c skip t,
  fst (fst (batch_one st id c skip t)) = st \/
  exists c', fst (fst (batch_one st id c skip t)) = fst (fst (store_delete st id c' t)).
Proof.
  intros st id c skip t. unfold batch_one. destruct skip.
  - right. exists 0. destruct (store_delete st id 0 t) as [[a b] d]. reflexivity.
  - destruct (store_read st id c false t) as [[e cnt] v].
    destruct (negb (err_eqb e ENone)); [left; reflexivity|].
    destruct (negb (v_cookie v =? c)); [left; reflexivity|].
    destruct (is_chunk_manifest (v_flags v)); [left; reflexivity|].
    right. exists (v_cookie v). destruct (store_delete st id (v_cookie v) t) as [[a b] d]. reflexivity.
Qed.

Lemma batch_frame : forall fids st skip t,
  bounded st ->
  bounded (fst (batch_delete st fids skip t)) /\ vframe (map fst fids) st (fst (batch_delete st fids skip t)).
Proof.
  induction fids as [|[id c] rest IH]; intros st skip t HB.
  - split; [exact HB | apply vframe_refl].
  - cbn [batch_delete map fst].
    destruct (delete_or_same_frame _ _ id t (batch_one_cases st id c skip t) HB) as [HB1 HV1].
    destruct (batch_one st id c skip t) as [[st1 r1] cont1]. cbn [fst] in HB1, HV1.
    destruct cont1; [|split; [exact HB1 | exact (vframe_cons _ _ _ _ _ HV1 (vframe_refl _ _))]].
    destruct (IH st1 skip t HB1) as [HB2 HV2]. destruct (batch_delete st1 rest skip t) as [st2 rs].
    split; [exact HB2 | exact (vframe_cons _ _ _ _ _ HV1 HV2)].
Qed.

Lemma spec_batch_one_frame : forall sp id c skip t, sframe [id] sp (fst (fst (spec_batch_one sp id c skip t))).
Proof.
  intros sp id c skip t. unfold spec_batch_one. destruct skip.
  - destruct (s_nwod sp); [apply sframe_refl | apply spec_kill_frame].
  - destruct (s_lookup sp id t) as [[c' n]|]; [|apply sframe_refl].
    destruct (negb (c' =? c)); [apply sframe_refl|].
    destruct (is_chunk_manifest (n_flags n)); [apply sframe_refl|].
    destruct (s_nwod sp); [apply sframe_refl | apply spec_kill_frame].
Qed.

Lemma spec_batch_frame : forall fids sp skip t, sframe (map fst fids) sp (fst (spec_batch sp fids skip t)).
Proof.
  induction fids as [|[id c] rest IH]; intros sp skip t; [apply sframe_refl|].
  cbn [spec_batch map fst].
  pose proof (spec_batch_one_frame sp id c skip t) as HS1.
  destruct (spec_batch_one sp id c skip t) as [[sp1 r1] cont1]. cbn [fst] in HS1.
  destruct cont1; [|exact (sframe_cons _ _ _ _ _ HS1 (sframe_refl _ _))].
  pose proof (IH sp1 skip t) as HS2. destruct (spec_batch sp1 rest skip t) as [sp2 rs].
  exact (sframe_cons _ _ _ _ _ HS1 HS2).
Qed.

(* a delete of one clean key keeps the invariant on every clean key *)
Lemma delete_RC : forall C st sp seen id c t,
  RC C st sp seen -> C id ->
  store_delete st id c t =
    (fst (fst (store_delete st id c t)), (if s_nwod sp then EReadOnly else ENone),
     (if s_nwod sp then 0%Z else Z.of_N (stored_size sp id))) /\
  RC C (fst (fst (store_delete st id c t))) (if s_nwod sp then sp else spec_kill sp id) seen.
Proof.
  intros C st sp seen id c t HR Hc. pose proof HR as (HF & HB & HK).
  destruct (delete_k st sp seen id c t HF HB (HK id Hc)) as (st' & Hd & HK').
  destruct (store_delete_frame st id c t HB) as [HB' HV].
  rewrite Hd in *. cbn [fst] in *. split; [reflexivity|].
  eapply RC_frame; [exact HR | exact HV | exact HB' | | apply incl_refl | auto |].
  - destruct (s_nwod sp); [apply sframe_refl | apply spec_kill_frame].
  - intros id' Hm _. apply memN_true in Hm. destruct Hm as [<-|[]]. exact HK'.
Qed.

Lemma batch_one_clean : forall C st sp seen id c skip t,
  RC C st sp seen -> C id ->
  snd (fst (batch_one st id c skip t)) = snd (fst (spec_batch_one sp id c skip t)) /\
  snd (batch_one st id c skip t) = snd (spec_batch_one sp id c skip t) /\
  RC C (fst (fst (batch_one st id c skip t))) (fst (fst (spec_batch_one sp id c skip t))) seen.
Proof.
  intros C st sp seen id c skip t HR Hc. pose proof HR as (_ & _ & HK).
  unfold batch_one, spec_batch_one. destruct skip.
  - destruct (delete_RC C st sp seen id 0 t HR Hc) as [Hd HR'].
    rewrite Hd. destruct (s_nwod sp); cbn [fst snd]; rewrite ?N2Z.id; auto.
  - pose proof (read_k st sp seen id c t (HK id Hc)) as RS.
    destruct (s_lookup sp id t) as [[c' n]|] eqn:Hl.
    + destruct RS as [Hcc Hrd]. rewrite Hrd. cbv beta iota. cbn [err_eqb negb exp_view v_cookie v_flags]. subst c'.
      destruct (negb (n_cookie n =? c)); [cbn [fst snd]; auto|].
      destruct (is_chunk_manifest (n_flags n)); [cbn [fst snd]; auto|].
      destruct (delete_RC C st sp seen id (n_cookie n) t HR Hc) as [Hd HR'].
      rewrite Hd. unfold stored_size in *. rewrite (lookup_stored _ _ _ _ _ Hl).
      destruct (s_nwod sp); cbn [fst snd]; rewrite ?N2Z.id; auto.
    + destruct RS as (e & v0 & [He|He] & Hrd); rewrite Hrd; subst e; cbv beta iota; cbn [err_eqb negb fst snd]; auto.
Qed.

Lemma batch_clean : forall fids C st sp seen skip t,
  RC C st sp seen -> (forall id, memN id (map fst fids) = true -> C id) ->
  snd (batch_delete st fids skip t) = snd (spec_batch sp fids skip t) /\
  RC C (fst (batch_delete st fids skip t)) (fst (spec_batch sp fids skip t)) seen.
Proof.
  induction fids as [|[id c] rest IH]; intros C st sp seen skip t HR Hall; [split; [reflexivity | exact HR]|].
  cbn [batch_delete spec_batch].
  assert (Hc : C id) by (apply Hall, memN_true; left; reflexivity).
  destruct (batch_one_clean C st sp seen id c skip t HR Hc) as (H1 & H2 & H3).
  destruct (batch_one st id c skip t) as [[st1 r1] cont1].
  destruct (spec_batch_one sp id c skip t) as [[sp1 r1'] cont1']. cbn [fst snd] in H1, H2, H3. subst r1' cont1'.
  destruct cont1; [|cbn [fst snd]; auto].
  assert (Hall' : forall id0, memN id0 (map fst rest) = true -> C id0).
  { intros id0 Hm. apply Hall, memN_true. right. apply memN_true, Hm. }
  destruct (IH C st1 sp1 seen skip t H3 Hall') as [I1 I2].
  destruct (batch_delete st1 rest skip t) as [st2 rs]. destruct (spec_batch sp1 rest skip t) as [sp2 rs'].
  cbn [fst snd] in *. subst rs'. auto.
Qed.

Lemma self_trig_needle : forall seen o n,
  xop_needle o = Some n -> self_trig seen o = None ->
  blen (n_data n) =? 0 = false /\ fresh seen n.
Proof.
  intros seen o n Hn H. unfold self_trig in H. rewrite Hn in H.
  destruct (blen (n_data n) =? 0); [discriminate|]. split; [reflexivity|].
  unfold fresh. destruct (existsb (conflicts n) seen); [discriminate | reflexivity].
Qed.

(* PostHandler's status follows from the result of the write *)
Lemma xmatch_post : forall e w,
  xmatch e (XO (OWrite (w_err w) (w_unchanged w) (w_size w))) = true ->
  xmatch e (XO (OPost (post_status w) (w_err w))) = true.
Proof.
  intros e w. destruct e as [ok u s|s h [l|]|s z|[[c v]|]|ok z|rs|]; cbn [xmatch]; try discriminate; [|reflexivity].
  intro H. apply andb_prop in H. destruct H as [H _]. apply andb_prop in H. destruct H as [H1 H2].
  rewrite H1, andb_true_r. apply Bool.eqb_prop in H1, H2. subst ok u.
  unfold post_status. destruct (w_err w), (w_unchanged w); reflexivity.
Qed.

Lemma write_step : forall D st sp seen t n o,
  RC (cleanD D) st sp seen -> wf_needle n = true ->
  xop_needle o = Some n -> xkeys o = [n_id n] ->
  RC (cleanD (dirty_step D seen o)) (fst (store_write st n t)) (fst (spec_write sp n t)) (n :: seen) /\
  (dirt_of_keys (dirty_step D seen o) (xkeys o) = None ->
   xmatch (xexpect_write sp n t)
          (XO (OWrite (w_err (snd (store_write st n t))) (w_unchanged (snd (store_write st n t)))
                      (w_size (snd (store_write st n t))))) = true).
Proof.
  intros D st sp seen t n o HR Hwf Hn Hk. pose proof HR as (HF & HB & _).
  destruct (store_write_frame st n t HB) as [HB' HV].
  apply step_close1 with (id := n_id n) (st := st) (sp := sp); try assumption.
  - apply spec_write_frame.
  - apply incl_tl, incl_refl.
  - intros Hs HK. destruct (self_trig_needle seen o n Hn Hs) as [Hne Hfr].
    exact (write_k st sp seen n t HF HB HK Hwf Hne Hfr).
Qed.

(* an operation that changes neither the volume nor the specification *)
Lemma read_step : forall D st sp seen o id (m : bool),
  RC (cleanD D) st sp seen -> xkeys o = [id] -> (K st sp seen id -> m = true) ->
  RC (cleanD (dirty_step D seen o)) st sp seen /\
  (dirt_of_keys (dirty_step D seen o) (xkeys o) = None -> m = true).
Proof.
  intros D st sp seen o id m HR Hk Hm. pose proof HR as (_ & HB & _).
  apply step_close1 with (id := id) (st := st) (sp := sp); auto using vframe_refl, sframe_refl, incl_refl.
Qed.

(* one event, any entry point: the invariant on the clean keys is kept, with the keys the event
   soils taken out, and the answer matches the specification unless the event touches a soiled key *)
Theorem xstep_RC : forall D st sp seen ev,
  RC (cleanD D) st sp seen -> xwf_event ev = true ->
  RC (cleanD (dirty_step D seen (snd ev))) (fst (xstep gun st ev)) (fst (xspec_step gun sp ev)) (xseen_next seen (snd ev)) /\
  (dirt_of_keys (dirty_step D seen (snd ev)) (xkeys (snd ev)) = None ->
   xmatch (snd (xspec_step gun sp ev)) (snd (xstep gun st ev)) = true).
Proof.
  intros D st sp seen [t o] HR Hwf. pose proof HR as (HF & HB & HK).
  unfold xstep, step, xspec_step, xseen_next. rewrite ?let_pair. cbn [fst snd].
  destruct o as [b|id c rd g|fids skip]; [destruct b as [n|u|id c rd|id c|id c rd|id c|fl|fl]| |];
    rewrite ?let_pair; cbn [fst snd xop_needle op_needle xexpect spec_step].
  - (* Write *) exact (write_step D st sp seen t n (XBase (Write n)) HR Hwf eq_refl eq_refl).
  - (* Post *) destruct (write_step D st sp seen t _ (XBase (Post u)) HR Hwf eq_refl eq_refl) as [G1 G2].
    split; [exact G1 | intro Hn; exact (xmatch_post _ _ (G2 Hn))].
  - (* Get *) replace (fst (if rd then _ else _)) with sp
      by (destruct rd; [|destruct (s_lookup sp id t) as [[c' n]|]; [destruct (c' =? c)|]]; reflexivity).
    apply (read_step D st sp seen (XBase (Get id c rd)) id _ HR eq_refl). intro HKid.
    destruct rd; [reflexivity|]. rewrite (get_k st sp seen id c t HKid).
    destruct (s_lookup sp id t) as [[c' n]|]; [destruct (c' =? c)|]; cbn [fst snd xmatch];
      rewrite ?N.eqb_refl, ?hview_eqb_refl; reflexivity.
  - (* Del *) destruct (delete_or_same_frame _ _ id t (http_delete_cases st id c t) HB) as [HB' HV].
    apply step_close1 with (id := id) (st := st) (sp := sp); try assumption; try apply incl_refl; try reflexivity.
    + apply del_spec_frame.
    + intros _ HKid. exact (del_k st sp seen id c t HF HB HKid).
  - (* RawRead *) replace (fst (if rd then _ else _)) with sp
      by (destruct rd; [|destruct (s_lookup sp id t) as [[c' n]|]]; reflexivity).
    apply (read_step D st sp seen (XBase (RawRead id c rd)) id _ HR eq_refl). intro HKid.
    destruct rd; [reflexivity|]. pose proof (read_k st sp seen id c t HKid) as RS.
    destruct (s_lookup sp id t) as [[c' n]|].
    + destruct RS as [_ Hrd]. rewrite Hrd. cbn [fst snd xmatch err_eqb andb]. rewrite Z.eqb_refl, view_eqb_refl. reflexivity.
    + destruct RS as (e & v0 & [He|He] & Hrd); rewrite Hrd; subst e; reflexivity.
  - (* RawDelete *) destruct (store_delete_frame st id c t HB) as [HB' HV].
    apply step_close1 with (id := id) (st := st) (sp := sp); try assumption; try apply incl_refl; try reflexivity.
    + apply (rawdelete_spec_frame sp id c t).
    + intros _ HKid. exact (rawdelete_k st sp seen id c t HF HB HKid).
  - (* SetNoWriteOrDelete: a flag event names no key *) unfold dirty_step, self_trig. cbn [xop_needle op_needle xkeys dirt_of_keys xmatch].
    split; [|reflexivity]. destruct HF as [F1 F2]. split; [split; [reflexivity | exact F2]|]. split; [exact HB | exact HK].
  - (* SetNoWriteCanDelete *) unfold dirty_step, self_trig. cbn [xop_needle op_needle xkeys dirt_of_keys xmatch].
    split; [|reflexivity]. destruct HF as [F1 F2]. split; [split; [exact F1 | reflexivity]|]. split; [exact HB | exact HK].
  - (* XGet *) replace (fst (if rd then _ else _)) with sp
      by (destruct rd; [|destruct (s_lookup sp id t) as [[c' n]|]; [destruct (c' =? c)|]]; reflexivity).
    apply (read_step D st sp seen (XGet id c rd g) id _ HR eq_refl). intro HKid.
    destruct rd; [reflexivity|]. rewrite (xget_k st sp seen id c g t HKid).
    destruct (s_lookup sp id t) as [[c' n]|]; [destruct (c' =? c)|]; cbn [fst snd xmatch];
      rewrite ?N.eqb_refl, ?hview_eqb_refl; reflexivity.
  - (* XBatch *) destruct (batch_frame fids st skip t HB) as [HB' HV].
    apply step_close with (st := st) (sp := sp); try assumption; try apply incl_refl.
    + apply spec_batch_frame.
    + intros _ Hcl.
      destruct (batch_clean fids (fun x => memN x (map fst fids) = true /\ cleanD D x) st sp seen skip t) as [B1 B2].
      * split; [exact HF|]. split; [exact HB|]. intros x [_ Hx]. apply HK. exact Hx.
      * intros x Hx. split; [exact Hx | apply Hcl; exact Hx].
      * split; [cbn [xmatch]; rewrite B1; apply pairs_eqb_refl|].
        intros x Hx. destruct B2 as (_ & _ & B2). apply B2. split; [exact Hx | apply Hcl; exact Hx].
Qed.

Theorem history_RC : forall h D st sp seen,
  RC (cleanD D) st sp seen -> xwf_history h = true ->
  pk_ok (xjudge gun D seen sp h (xrun gun st h)) = true /\
  RC (cleanD (dirt_after D seen h)) (xstate_after gun st h) (xspec_after gun sp h) (xseen_after seen h).
Proof.
  induction h as [|ev h IH]; intros D st sp seen HR Hwf; [split; [reflexivity | exact HR]|].
  unfold xwf_history in Hwf. cbn [forallb] in Hwf. apply andb_true_iff in Hwf. destruct Hwf as [Hwf1 Hwf2].
  destruct (xstep_RC D st sp seen ev HR Hwf1) as [HR' HM].
  destruct (IH _ _ _ _ HR' Hwf2) as [IH1 IH2].
  unfold xstate_after, xspec_after. cbn [xrun xjudge fold_left dirt_after xseen_after].
  destruct (xstep gun st ev) as [st' o]. destruct (xspec_step gun sp ev) as [sp' e].
  cbn [fst snd] in *. split; [|exact IH2].
  unfold pk_ok in *. cbn [forallb fst snd]. rewrite IH1, andb_true_r.
  destruct (dirt_of_keys (dirty_step D seen (snd ev)) (xkeys (snd ev))); [apply orb_true_r|].
  rewrite (HM eq_refl). reflexivity.
Qed.

Theorem refines_per_key : forall h,
  xwf_history h = true -> pk_ok (xjudge gun [] [] spec_init h (xrun gun init h)) = true.
Proof. intros h Hwf. apply history_RC; [exact RD_init | exact Hwf]. Qed.

(* no event under a finding: every answer is the specification's *)
Theorem refines_clean_gen : forall h st sp seen,
  RC (cleanD []) st sp seen -> xwf_history h = true -> xclean seen h = true ->
  all_ok (xjudge gun [] seen sp h (xrun gun st h)) = true.
Proof.
  induction h as [|ev h IH]; intros st sp seen HR Hwf Hcl; [reflexivity|].
  unfold xwf_history in Hwf. cbn [forallb] in Hwf. apply andb_true_iff in Hwf. destruct Hwf as [Hwf1 Hwf2].
  cbn [xclean] in Hcl. apply andb_true_iff in Hcl. destruct Hcl as [Hc1 Hc2].
  assert (HD : dirty_step [] seen (snd ev) = []).
  { apply clean_dirty_step. destruct (self_trig seen (snd ev)); [discriminate | reflexivity]. }
  destruct (xstep_RC [] st sp seen ev HR Hwf1) as [HR' HM]. rewrite HD in HR', HM.
  cbn [xrun xjudge]. rewrite HD. destruct (xstep gun st ev) as [st' o]. destruct (xspec_step gun sp ev) as [sp' e].
  cbn [fst snd] in *. unfold all_ok in *. cbn [forallb fst].
  rewrite (HM (dirt_nil_keys _)), (IH _ _ _ HR' Hwf2 Hc2). reflexivity.
Qed.

Theorem refines_clean : forall h,
  xwf_history h = true -> xclean [] h = true ->
  all_ok (xjudge gun [] [] spec_init h (xrun gun init h)) = true.
Proof. intros h Hwf Hcl. apply refines_clean_gen; [exact RD_init | exact Hwf | exact Hcl]. Qed.

(* a cookie the specification does not know for the key: nothing is served, nothing deleted *)
Theorem cookie_get_k : forall h id c t g,
  xwf_history h = true -> dirt_get (dirt_after [] [] h) id = None ->
  (forall n, s_lookup (xspec_after gun spec_init h) id t <> Some (c, n)) ->
  xstep gun (xstate_after gun init h) (t, XGet id c false g) = (xstate_after gun init h, XOGet 404 blank_hview 0) /\
  xstep gun (xstate_after gun init h) (t, XBase (Get id c false)) = (xstate_after gun init h, XO (OGet 404 blank_hview)).
Proof.
  intros h id c t g Hwf Hd Hno.
  destruct (history_RC h [] init spec_init [] RD_init Hwf) as (_ & _ & _ & HK). specialize (HK id Hd).
  unfold xstep, step. rewrite (xget_k _ _ _ id c g t HK), (get_k _ _ _ id c t HK).
  destruct (s_lookup (xspec_after gun spec_init h) id t) as [[c' n]|]; [|split; reflexivity].
  destruct (c' =? c) eqn:E; [|split; reflexivity].
  apply N.eqb_eq in E. subst c'. destruct (Hno n eq_refl).
Qed.

Lemma del_k_foreign : forall st sp seen id c t,
  K st sp seen id -> (forall n, s_lookup sp id t <> Some (c, n)) ->
  exists s, (s = 400 \/ s = 404) /\
    http_delete st id c t = (st, s, 0) /\ batch_delete st [(id, c)] false t = (st, [(s, 0)]).
Proof.
  intros st sp seen id c t HK Hno. pose proof (read_k _ _ _ id c t HK) as RS.
  unfold http_delete. cbn [batch_delete]. unfold batch_one.
  destruct (s_lookup sp id t) as [[c' n]|].
  - destruct RS as [Hc Hrd]. rewrite Hrd. cbv beta iota. cbn [err_eqb negb exp_view v_cookie].
    destruct (n_cookie n =? c) eqn:E.
    + apply N.eqb_eq in E. destruct (Hno n). congruence.
    + exists 400. split; [left; reflexivity | split; reflexivity].
  - destruct RS as (e & v0 & [E|E] & Hrd); rewrite Hrd; subst e;
      exists 404; (split; [right; reflexivity | split; reflexivity]).
Qed.

Theorem cookie_delete_k : forall h id c t,
  xwf_history h = true -> dirt_get (dirt_after [] [] h) id = None ->
  (forall n, s_lookup (xspec_after gun spec_init h) id t <> Some (c, n)) ->
  exists s, (s = 400 \/ s = 404) /\
    xstep gun (xstate_after gun init h) (t, XBase (Del id c)) = (xstate_after gun init h, XO (ODel s 0)) /\
    xstep gun (xstate_after gun init h) (t, XBatch [(id, c)] false) = (xstate_after gun init h, XOBatch [(s, 0)]).
Proof.
  intros h id c t Hwf Hd Hno.
  destruct (history_RC h [] init spec_init [] RD_init Hwf) as (_ & _ & _ & HK).
  destruct (del_k_foreign _ _ _ id c t (HK id Hd) Hno) as (s & Hs & Hdel & Hb).
  exists s. split; [exact Hs|]. unfold xstep, step. rewrite Hdel, Hb. split; reflexivity.
Qed.

End Steps.

(* the base operations alone (no request options, no batch): decompression plays no part *)
Lemma step_RC : forall D st sp seen (ev : event),
  RC (cleanD D) st sp seen -> wf_event ev = true ->
  RC (cleanD (dirty_step D seen (XBase (snd ev)))) (fst (step st ev)) (fst (spec_step sp ev))
     (xseen_next seen (XBase (snd ev))) /\
  (dirt_of_keys (dirty_step D seen (XBase (snd ev))) (xkeys (XBase (snd ev))) = None ->
   xmatch (xexpect sp (fst ev) (snd ev)) (XO (snd (step st ev))) = true).
Proof.
  intros D st sp seen [t o] HR Hwf.
  destruct (xstep_RC (fun b => b) D st sp seen (t, XBase o) HR Hwf) as [H1 H2].
  cbn [snd] in *. unfold xstep, xspec_step in *. destruct (step st (t, o)) as [st' r]. split; [exact H1 | exact H2].
Qed.

Lemma clean_step_RC : forall st sp seen (ev : event),
  RC (cleanD []) st sp seen -> wf_event ev = true -> self_trig seen (XBase (snd ev)) = None ->
  RC (cleanD []) (fst (step st ev)) (fst (spec_step sp ev)) (xseen_next seen (XBase (snd ev))) /\
  xmatch (xexpect sp (fst ev) (snd ev)) (XO (snd (step st ev))) = true.
Proof.
  intros st sp seen ev HR Hwf Hs. destruct (step_RC [] st sp seen ev HR Hwf) as [HR' HM].
  rewrite (clean_dirty_step _ _ Hs) in HR', HM. split; [exact HR' | apply HM, dirt_nil_keys].
Qed.

(* the specification with every answer field accepts no more than the one that fixes the error
   classes only *)
Lemma xmatch_write_weaken : forall sp n t o,
  xmatch (xexpect_write sp n t) (XO o) = true -> match_out (snd (spec_write sp n t)) o = true.
Proof.
  intros sp n t o. unfold xexpect_write, spec_write.
  destruct (negb (s_nwod sp || s_nwcd sp) && _); cbn [snd]; destruct o; cbn [xmatch match_out]; try discriminate;
    intro H; apply andb_prop in H; destruct H as [H _].
  - exact (proj1 (andb_prop _ _ H)).
  - apply N.eqb_eq in H. subst status. destruct (spec_unchanged sp n); reflexivity.
  - exact (proj1 (andb_prop _ _ H)).
  - apply N.eqb_eq in H. subst status. reflexivity.
Qed.

Lemma xmatch_match_out : forall sp (ev : event) o,
  xmatch (xexpect sp (fst ev) (snd ev)) (XO o) = true -> match_out (snd (spec_step sp ev)) o = true.
Proof.
  intros sp [t op] o. cbn [fst snd].
  destruct op as [n|u|id c rd|id c|id c rd|id c|b|b]; cbn [xexpect spec_step]; try reflexivity.
  - apply xmatch_write_weaken.
  - apply xmatch_write_weaken.
  - destruct rd; [reflexivity|].
    destruct (s_lookup sp id t) as [[c' n]|]; [destruct (c' =? c)|]; destruct o; auto.
  - destruct (s_lookup sp id t) as [[c' n]|]; [destruct (negb (c' =? c)); [|destruct (s_nwod sp)]|];
      destruct o; cbn [snd xmatch match_out]; auto; intro H; exact (proj1 (andb_prop _ _ H)).
  - destruct rd; [reflexivity|]. destruct (s_lookup sp id t) as [[c' n]|]; destruct o; auto.
  - destruct (s_nwod sp); destruct o; cbn [snd xmatch match_out]; auto; intro H; exact (proj1 (andb_prop _ _ H)).
Qed.

Lemma history_split : forall (ev : event) h seen,
  wf_history (ev :: h) = true -> empty_payload (ev :: h) = false -> meta_dup seen (ev :: h) = false ->
  wf_event ev = true /\ self_trig seen (XBase (snd ev)) = None /\
  wf_history h = true /\ empty_payload h = false /\ meta_dup (xseen_next seen (XBase (snd ev))) h = false.
Proof.
  intros ev h seen Hwf He Hm. unfold wf_history in *. cbn [forallb] in Hwf.
  apply andb_true_iff in Hwf. destruct Hwf as [Hwf1 Hwf2].
  unfold empty_payload in *. cbn [existsb] in He. apply orb_false_iff in He. destruct He as [He1 He2].
  cbn [meta_dup] in Hm. unfold self_trig, xseen_next. cbn [xop_needle].
  destruct (op_needle (snd ev)) as [n|]; [|auto].
  apply orb_false_iff in Hm. destruct Hm as [Hm1 Hm2]. rewrite He1, Hm1. auto.
Qed.

Lemma clean_history : forall h st sp seen,
  RC (cleanD []) st sp seen -> wf_history h = true -> empty_payload h = false -> meta_dup seen h = false ->
  all2 match_out (spec_run sp h) (run st h) = true /\
  exists seen', RC (cleanD []) (state_after st h) (spec_after sp h) seen'.
Proof.
  induction h as [|ev h IH]; intros st sp seen HR Hwf He Hm; [split; [reflexivity | exists seen; exact HR]|].
  destruct (history_split ev h seen Hwf He Hm) as (Hw & Hs & Hwf' & He' & Hm').
  destruct (clean_step_RC st sp seen ev HR Hw Hs) as [HR' M]. apply xmatch_match_out in M.
  unfold state_after, spec_after. cbn [spec_run run fold_left].
  destruct (spec_step sp ev) as [sp' eo]. destruct (step st ev) as [st' o].
  cbn [fst snd all2] in *. rewrite M. exact (IH _ _ _ HR' Hwf' He' Hm').
Qed.

Theorem refines_partial : forall h,
  wf_history h = true -> empty_payload h = false -> meta_dup [] h = false ->
  all2 match_out (spec_run spec_init h) (run init h) = true.
Proof. intros h Hwf He Hm. exact (proj1 (clean_history h init spec_init [] RD_init Hwf He Hm)). Qed.

Theorem cookie_read_partial : forall h id c t,
  wf_history h = true -> empty_payload h = false -> meta_dup [] h = false ->
  (forall n, s_lookup (spec_after spec_init h) id t <> Some (c, n)) ->
  step (state_after init h) (t, Get id c false) = (state_after init h, OGet 404 blank_hview).
Proof.
  intros h id c t Hwf He Hm Hno.
  destruct (clean_history h init spec_init [] RD_init Hwf He Hm) as (_ & seen & _ & _ & HK).
  unfold step. rewrite (get_k _ _ _ id c t (HK id eq_refl)).
  destruct (s_lookup (spec_after spec_init h) id t) as [[c' n]|]; [|reflexivity].
  destruct (c' =? c) eqn:E; [|reflexivity].
  apply N.eqb_eq in E. subst c'. destruct (Hno n eq_refl).
Qed.

Theorem cookie_delete_partial : forall h id c t,
  wf_history h = true -> empty_payload h = false -> meta_dup [] h = false ->
  (forall n, s_lookup (spec_after spec_init h) id t <> Some (c, n)) ->
  exists s, (s = 400 \/ s = 404) /\
    step (state_after init h) (t, Del id c) = (state_after init h, ODel s 0).
Proof.
  intros h id c t Hwf He Hm Hno.
  destruct (clean_history h init spec_init [] RD_init Hwf He Hm) as (_ & seen & _ & _ & HK).
  destruct (del_k_foreign _ _ _ id c t (HK id eq_refl) Hno) as (s & Hs & Hdel & _).
  exists s. split; [exact Hs|]. unfold step. rewrite Hdel. reflexivity.
Qed.

Definition gid (b : bytes) : bytes := b.

Definition mkx (id cookie : N) (data : bytes) (flags : N) (name mime : bytes) (lastmod : N) : needle :=
  {| n_id := id; n_cookie := cookie; n_data := data; n_flags := flags; n_name := name; n_mime := mime;
     n_pairs := []; n_lastmod := lastmod; n_ttl := (0, 0) |}.

(* key 1 falls under finding 0 (empty payload); key 2 is written, overwritten, read with HEAD,
   refused to a foreign cookie by DELETE and by BatchDelete, deleted by BatchDelete *)
Definition example_x : list xevent :=
  [(1000, XBase (Write (mkx 1 10 [] 2 [110; 109] [] 0)));
   (2000, XBase (Write (mkx 2 20 [1; 2; 3] 14 [97; 46; 99; 115; 115] [] 100)));
   (3000, XBase (Get 1 11 false));                                  (* finding 0: served to a foreign cookie *)
   (4000, XGet 2 20 false {| g_gzip := false; g_head := true; g_name := [] |});
   (5000, XBase (Write (mkx 2 20 [4; 5] 14 [110; 50] [116; 47; 98] 200)));
   (6000, XBase (Del 2 21));
   (7000, XBatch [(2, 21); (2, 20)] false);                         (* stops at the first mismatch *)
   (8000, XBatch [(1, 11); (2, 20)] false);                         (* names the soiled key 1: the code goes on
                                                                       where the specification stops, so key 2 is soiled too *)
   (9000, XBase (Get 2 20 false))].

Lemma example_x_ok :
  xwf_history example_x = true /\
  xjudge gid [] [] spec_init example_x (xrun gid init example_x) =
  [(true, Some 0); (true, None); (false, Some 0); (true, None); (true, None); (true, None); (true, None);
   (false, Some 0); (false, Some 0)] /\
  xrun gid init example_x =
  [XO (OWrite ENone false 0); XO (OWrite ENone false 20);
   XO (OGet 200 blank_hview);
   XOGet 200 {| h_data := []; h_name := [97; 46; 99; 115; 115]; h_mime := mime_css; h_pairs := [];
                h_lastmod := 100; h_gzip := false |} 3;
   XO (OWrite ENone false 19); XO (ODel 400 0); XOBatch [(400, 0)]; XOBatch [(202, 0); (202, 19)];
   XO (OGet 404 blank_hview)].
Proof. vm_compute. repeat split; reflexivity. Qed.

(* the literals of the model are the named constants *)
Lemma literals_used :
  (forall s, actual_size s =
     let raw := vc_header_size + s + vc_checksum_size + vc_timestamp_size in
     raw + (vc_padding_size - raw mod vc_padding_size)) /\
  dat_end init = vc_super_block_size /\
  (forall n, stored_name n = firstn vc_max_name (n_name n)) /\
  (forall f, is_compressed f = N.testbit f (N.log2 vc_flag_compressed) /\
             has_name f = N.testbit f (N.log2 vc_flag_name) /\
             has_mime f = N.testbit f (N.log2 vc_flag_mime) /\
             has_lastmod f = N.testbit f (N.log2 vc_flag_lastmod) /\
             has_ttl f = N.testbit f (N.log2 vc_flag_ttl) /\
             has_pairs f = N.testbit f (N.log2 vc_flag_pairs) /\
             is_chunk_manifest f = N.testbit f (N.log2 vc_flag_manifest)) /\
  (forall id c d, needle_size (mkx id c d (vc_flag_lastmod + vc_flag_ttl) [] [] 0) =
                  if 0 <? blen d then 4 + blen d + 1 + vc_lastmod_bytes + vc_ttl_bytes else 0) /\
  (forall s, size_deleted s = ((s <? 0) || (s =? vc_tombstone))%Z) /\
  (forall c, ttl_minutes (c, 1) = c /\ ttl_minutes (c, 2) = c * 60 /\ ttl_minutes (c, 3) = c * 60 * 24 /\
             ttl_minutes (c, 4) = c * 60 * 24 * 7 /\ ttl_minutes (c, 5) = c * 60 * 24 * 30 /\
             ttl_minutes (c, 6) = c * 60 * 24 * 365) /\
  (forall n, v_lastmod (view_of n) =
             if has_lastmod (n_flags n) then n_lastmod n mod 2 ^ (8 * vc_lastmod_bytes) else 0) /\
  (forall n, wf_needle n = true -> n_lastmod n < 2 ^ (8 * vc_lastmod_bytes)).
Proof.
  assert (P40 : 2 ^ (8 * vc_lastmod_bytes) = 1099511627776) by reflexivity.
  split; [intro s; reflexivity|]. split; [reflexivity|]. split; [intro n; reflexivity|].
  split; [intro f; repeat split; reflexivity|].
  split.
  { intros id c d. unfold needle_size. cbn [mkx n_flags n_data n_name n_mime n_pairs].
    change (has_name (vc_flag_lastmod + vc_flag_ttl)) with false.
    change (has_mime (vc_flag_lastmod + vc_flag_ttl)) with false.
    change (has_lastmod (vc_flag_lastmod + vc_flag_ttl)) with true.
    change (has_ttl (vc_flag_lastmod + vc_flag_ttl)) with true.
    change (has_pairs (vc_flag_lastmod + vc_flag_ttl)) with false.
    cbv iota. unfold vc_lastmod_bytes, vc_ttl_bytes. destruct (0 <? blen d); [lia | reflexivity]. }
  split; [intro s; reflexivity|]. split; [intro c; repeat split; reflexivity|].
  split; [intro n; rewrite P40; reflexivity|].
  intros n H. rewrite P40. unfold wf_needle in H. rewrite !andb_true_iff in H. destruct H as [[[[_ _] H] _] _].
  apply N.ltb_lt, H.
Qed.

(* BatchDelete with SkipCookieCheck removes a blob whatever cookie the file id carries *)
Lemma batch_skip_ignores_cookie :
  exists h id c t,
    xwf_history h = true /\ xclean [] h = true /\
    (forall n, s_lookup (xspec_after gid spec_init h) id t <> Some (c, n)) /\
    snd (xstep gid (xstate_after gid init h) (t, XBatch [(id, c)] true)) = XOBatch [(202, 20)] /\
    snd (xstep gid (fst (xstep gid (xstate_after gid init h) (t, XBatch [(id, c)] true))) (t, XBase (Get id 20 false)))
    = XO (OGet 404 blank_hview).
Proof.
  exists [(1000, XBase (Write (mkx 2 20 [1; 2; 3] 14 [97; 46; 99; 115; 115] [] 100)))], 2, 21, 2000.
  split; [reflexivity|]. split; [reflexivity|]. split; [|split; reflexivity].
  intros n H. vm_compute in H. discriminate.
Qed.
