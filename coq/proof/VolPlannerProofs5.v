(* Proofs about model/VolPlanner.v (C15): volume.balance and free slots.  During a phase every
   server's number of UNSELECTED volumes stays what it was ([CapInv]) and next_fits bounds the
   selected ones, so a target outside the trigger of finding 0 has a free slot. *)
From Coq Require Import List NArith ZArith Bool Arith Lia Permutation.
From SW Require Import proof.ListFacts model.VolPlanner proof.VolPlannerProofs proof.VolPlannerProofs2
  proof.VolPlannerProofs3 proof.VolPlannerProofs4.
Import ListNotations.
Local Open Scope Z_scope.

Lemma upd2_same : forall f a b d, upd2 f a b d a b = f a b + d.
Proof. intros. unfold upd2. rewrite !N.eqb_refl. reflexivity. Qed.
Lemma upd2_other : forall f a b d a' b', (a' <> a \/ b' <> b) -> upd2 f a b d a' b' = f a' b'.
Proof.
  intros f a b d a' b' H. unfold upd2.
  destruct (N.eqb_spec a' a), (N.eqb_spec b' b); cbn [andb]; auto. subst. destruct H; congruence.
Qed.

(* a move inside the selection leaves every server's count of UNSELECTED volumes of the
   phase's disk type as it was when the phase started *)
Definition CapInv (c : bctx) (dt : N) (st0 st : bstate) : Prop :=
  (forall nc, In nc (bc_nodes c) -> phase_unsel c dt st nc = phase_unsel c dt st0 nc) /\
  (forall n v, In v (b_sel st n) -> v_dt v = dt).

Definition CapCtx (s : snapshot) (c : bctx) (dt : N) : Prop :=
  forall nc, In nc (bc_nodes c) -> 0 < bc_max_total c /\ max_of s (l_node (fst nc)) dt = snd nc.

(* the trigger of finding 0 for the target of a move *)
Definition move_cap_trig (c : bctx) (dt : N) (st0 : bstate) (st : step) : bool :=
  match st with
  | Move _ _ _ to => match find_cap c to with Some t => node_cap_trig c dt st0 t | None => false end
  | _ => false
  end.

Definition CapOk (s : snapshot) (c : bctx) (dt : N) (st0 : bstate) (w : world) (st : step) : Prop :=
  ok_cap (prop_step s w st) || move_cap_trig c dt st0 st = true.

(* next_fits bounds the target's selected count by its ideal share; the unselected volumes are
   as many as at the start of the phase, and outside the trigger they leave room for that share *)
Lemma balance_step_cap : forall s c dt st0 st vid dt' from to,
  CapCtx s c dt -> CapInv c dt st0 st ->
  balance_step_ok c st vid dt' from to = true ->
  CapOk s c dt st0 (b_w st) (Move vid dt' from to) /\
  CapInv c dt st0 (balance_advance s st vid dt' from to).
Proof.
  intros s c dt st0 st vid dt' from to Hctx [Hun Hdt] Hok.
  destruct (balance_step_ok_facts _ _ _ _ _ _ Hok) as (f & t & v & F).
  destruct F as [Hne _ _ Et Ht Htid Ev Hv Hvid Hdt' Hfit _].
  assert (dt' = dt) as -> by (rewrite <- Hdt'; eapply Hdt; eauto).
  destruct (Hctx t Ht) as [HM Hmax].
  split.
  - unfold CapOk. cbn [move_cap_trig]. rewrite Et.
    destruct (node_cap_trig c dt st0 t) eqn:Hnt; [apply orb_true_r|]. rewrite orb_false_r.
    cbn [prop_step ok_cap]. apply Z.ltb_lt. rewrite <- Htid, Hmax.
    pose proof (Hun t Ht) as Hu. unfold phase_unsel in Hu.
    unfold node_cap_trig in Hnt. apply Z.ltb_ge in Hnt.
    unfold next_fits in Hfit. apply Z.leb_le in Hfit.
    unfold phase_unsel in Hnt. nia.
  - unfold balance_advance. rewrite Ev. split.
    + intros nc Hnc. rewrite <- (Hun nc Hnc). unfold phase_unsel, nsel. cbn [b_w b_sel apply_step w_occ].
      assert (In vid (map v_id (b_sel st from))) as Hinv by (rewrite <- Hvid; apply in_map; auto).
      pose proof (remove_key_length v_id vid _ Hinv) as Hlen. rewrite <- remove_vid_key in Hlen.
      destruct (N.eq_dec (l_node (fst nc)) to) as [E|E].
      * rewrite E, upd1_eq, upd2_same, upd2_other by (left; auto). cbn [length]. lia.
      * rewrite upd1_neq, upd2_other by auto.
        destruct (N.eq_dec (l_node (fst nc)) from) as [E'|E'].
        -- rewrite E', upd1_eq, upd2_same. lia.
        -- rewrite upd1_neq, upd2_other by auto. reflexivity.
    + intros n x Hx. cbn [b_sel] in Hx. apply advance_sel_in in Hx. destruct Hx as [->|Hx]; eauto.
Qed.

(* the planner's own notion of capacity: the target's selected count stays below its max.
   next_fits says (nsel + 1) * M <= S * cap with S <= M and 0 < M, cap: divide by M *)
Theorem balance_step_own_capacity : forall c st vid dt from to t,
  balance_step_ok c st vid dt from to = true -> find_cap c to = Some t ->
  0 < bc_max_total c -> bc_sel_total c <= bc_max_total c -> 0 < snd t ->
  nsel st t + 1 <= snd t.
Proof.
  intros c st vid dt from to t Hok Ht HM HS Hcap.
  destruct (balance_step_ok_facts _ _ _ _ _ _ Hok) as (f & t' & v & F).
  pose proof (sf_cap _ _ _ _ _ _ _ _ _ F) as Et. pose proof (sf_fits _ _ _ _ _ _ _ _ _ F) as Hfit.
  rewrite Ht in Et. inversion Et; subst t'.
  unfold next_fits in Hfit. apply Z.leb_le in Hfit.
  assert (bc_sel_total c * snd t <= bc_max_total c * snd t) by nia.
  assert ((nsel st t + 1 - snd t) * bc_max_total c <= 0) by nia. nia.
Qed.

Lemma phase_cap_steps : forall s c dt st0 st used st',
  CapCtx s c dt -> CapInv c dt st0 st -> PhaseRun s c st used st' ->
  Steps (CapOk s c dt st0) s (b_w st) used /\ b_w st' = run_trace s (b_w st) used.
Proof.
  intros s c dt st0 st used st' Hctx HI Hr.
  apply (PhaseRun_inv s c (CapInv c dt st0) (CapOk s c dt st0)) in Hr; [tauto| |exact HI].
  intros st1 vid dt' from to. apply balance_step_cap. exact Hctx.
Qed.

(* [balance_phase_cap_excused] answers true on an accepted phase and ends where [balance_phase] ends *)
Lemma phase_cap_excused_run : forall s c dt st0 st used st' tr',
  CapCtx s c dt -> PhaseRun s c st used st' -> CapInv c dt st0 st -> stops st' tr' ->
  balance_phase_cap_excused s c dt st0 st (used ++ tr') = (true, (st', tr')).
Proof.
  intros s c dt st0 st used st' tr' Hctx Hr. induction Hr as [st|st vid dt' from to used st' Hin Hok _ IH]; intros HI Hs.
  - destruct tr' as [|[vid dt' from to| |] tr']; cbn [app balance_phase_cap_excused]; try reflexivity.
    cbn [stops] in Hs. rewrite Hs. reflexivity.
  - destruct (balance_step_cap s c dt st0 st vid dt' from to Hctx HI Hok) as [Hc HI'].
    cbn [app balance_phase_cap_excused]. unfold CapOk in Hc. cbn [move_cap_trig] in Hc. rewrite Hin, (IH HI' Hs), Hc. reflexivity.
Qed.

Lemma no_move_cap_trig : forall c dt st0 st, trig_balance_cap_phase c dt st0 = false ->
  move_cap_trig c dt st0 st = false.
Proof.
  intros c dt st0 [vid dt' from to| |] H; try reflexivity. cbn [move_cap_trig].
  destruct (find_cap c to) as [t|] eqn:E; [|reflexivity]. apply find_cap_some in E.
  apply (existsb_false_in _ _ t H). apply E.
Qed.

Lemma mk_bctx_nodes : forall limit s ph nc, In nc (bc_nodes (mk_bctx limit s ph)) ->
  exists n, In n s /\ nc = (n_loc n, cap_max n (ph_dt ph)) /\ 0 < snd nc.
Proof.
  intros limit s ph nc H. cbn [mk_bctx bc_nodes] in H. apply filter_In in H. destruct H as [H1 H2].
  apply in_map_iff in H1. destruct H1 as [n [E Hn]]. exists n. split; auto. split; auto.
  apply Z.ltb_lt; auto.
Qed.

Lemma sumZ_nonneg : forall l, (forall x, In x l -> 0 <= x) -> 0 <= sumZ l.
Proof.
  induction l as [|a l IH]; cbn [sumZ fold_right]; intros H; [lia|].
  assert (0 <= a) by (apply H; left; auto).
  assert (0 <= sumZ l) by (apply IH; intros; apply H; right; auto). unfold sumZ in *. lia.
Qed.

Lemma sumZ_pos : forall l x, (forall y, In y l -> 0 <= y) -> In x l -> 0 < x -> 0 < sumZ l.
Proof.
  induction l as [|a l IH]; intros x Hge Hin Hx; [destruct Hin|].
  cbn [sumZ fold_right]. assert (0 <= a) by (apply Hge; left; auto).
  assert (0 <= sumZ l) by (apply sumZ_nonneg; intros; apply Hge; right; auto).
  destruct Hin as [->|Hin].
  - unfold sumZ in *. lia.
  - assert (0 < sumZ l) by (eapply IH; eauto; intros; apply Hge; right; auto). unfold sumZ in *. lia.
Qed.

(* all MaxVolumeCount are non-negative (uint64 in the protobuf) *)
Definition caps_nonneg (s : snapshot) : Prop :=
  forall n d, In n s -> In d (n_disks n) -> 0 <= d_max d.

Lemma cap_max_nonneg : forall s n dt, caps_nonneg s -> In n s -> 0 <= cap_max n dt.
Proof.
  intros s n dt H Hn. unfold cap_max, disk_of. destruct (find _ (n_disks n)) as [d|] eqn:E; [|lia].
  apply find_some in E. apply (H n d); tauto.
Qed.

Lemma mk_bctx_capctx : forall limit s ph, NoDup (map n_id s) -> caps_nonneg s ->
  CapCtx s (mk_bctx limit s ph) (ph_dt ph).
Proof.
  intros limit s ph Hnd Hcap nc Hin.
  apply mk_bctx_nodes in Hin. destruct Hin as [n [Hn [-> Hpos]]]. cbn [fst snd] in *. split.
  - cbn [mk_bctx bc_max_total]. apply (sumZ_pos _ (cap_max n (ph_dt ph))); auto.
    + intros y Hy. apply in_map_iff in Hy. destruct Hy as [m [<- Hm]]. eapply cap_max_nonneg; eauto.
    + apply in_map_iff. exists n; auto.
  - unfold max_of. change (l_node (n_loc n)) with (n_id n). rewrite find_node_in; auto.
Qed.

Lemma init_sel_in : forall limit s ph n v, In v (init_sel limit s ph n) ->
  exists nd, find_node s n = Some nd /\ In v (all_vols nd) /\ selects limit ph v = true.
Proof.
  intros limit s ph n v H. unfold init_sel in H. destruct (find_node s n) as [nd|]; [|destruct H].
  apply filter_In in H. exists nd. tauto.
Qed.

Lemma init_sel_dt : forall limit s ph n v, In v (init_sel limit s ph n) -> v_dt v = ph_dt ph.
Proof.
  intros limit s ph n v H. apply init_sel_in in H. destruct H as (_ & _ & _ & H). unfold selects in H.
  rewrite !andb_true_iff in H. apply N.eqb_eq. apply H.
Qed.

Lemma init_CapInv : forall limit s ph w,
  CapInv (mk_bctx limit s ph) (ph_dt ph) {| b_sel := init_sel limit s ph; b_w := w |}
         {| b_sel := init_sel limit s ph; b_w := w |}.
Proof. intros limit s ph w. split; [reflexivity|]. exact (init_sel_dt limit s ph). Qed.

(* nodesWithCapacity[len-1] panics on an empty list: no phase is accepted then *)
Lemma balance_phase_nodes : forall s c tr st r, balance_phase s c st tr = Some r -> bc_nodes c <> [].
Proof.
  intros s c tr st r H En.
  assert (forall vid dt from to, balance_step_ok c st vid dt from to = false) as Hno.
  { intros. unfold balance_step_ok, find_cap. rewrite En. reflexivity. }
  destruct tr as [|[vid dt from to| |] tr]; cbn [balance_phase] in H; rewrite ?En in H; try discriminate.
  destruct (existsb _ _); [rewrite Hno in H|]; discriminate.
Qed.

(* every move of an accepted run has a free slot, or its target is in the trigger set *)
Theorem balance_run_cap_excused : forall limit s phs w tr w',
  NoDup (map n_id s) -> caps_nonneg s ->
  balance_phases limit s phs w tr = Some w' ->
  balance_cap_excused limit s phs w tr = true.
Proof.
  intros limit s phs. induction phs as [|ph phs IH]; intros w tr w' Hnd Hcap H; [reflexivity|].
  cbn [balance_phases balance_cap_excused] in *.
  destruct (balance_phase s _ _ tr) as [[st tr']|] eqn:E; [|discriminate].
  destruct (balance_phase_run _ _ _ _ _ _ E) as (used & -> & Hr & Hs).
  rewrite (phase_cap_excused_run s _ (ph_dt ph) _ _ used st tr'); auto.
  - cbn [andb]. eapply IH; eauto.
  - apply mk_bctx_capctx; auto.
  - apply init_CapInv.
Qed.

(* hence a free slot at every move when no phase starts with a server in the trigger set *)
Theorem balance_run_capacity : forall limit s phs w tr w',
  NoDup (map n_id s) -> caps_nonneg s ->
  balance_phases limit s phs w tr = Some w' ->
  trig_balance_cap limit s phs w tr = false ->
  ok_cap (prop_trace s w tr) = true.
Proof.
  intros limit s phs w tr w' Hnd Hcap H Htr.
  apply (Steps_clause ok_cap s _ eq_refl (fun _ _ => eq_refl) (fun _ _ Hq => Hq)).
  revert w tr H Htr. induction phs as [|ph phs IH]; intros w tr H Htr.
  - cbn [balance_phases] in H. destruct tr; [exact I|discriminate].
  - cbn [balance_phases trig_balance_cap] in *.
    destruct (balance_phase s _ _ tr) as [[st tr']|] eqn:E; [|discriminate].
    apply orb_false_iff in Htr. destruct Htr as [Ht1 Ht2].
    destruct (balance_phase_run _ _ _ _ _ _ E) as (used & -> & Hr & Hs).
    rewrite (phase_end_run _ _ _ _ _ _ Hr Hs) in Ht2.
    destruct (phase_cap_steps s _ (ph_dt ph) _ _ used st (mk_bctx_capctx limit s ph Hnd Hcap)
                (init_CapInv limit s ph w) Hr) as [Hst Hw].
    cbn [b_w] in Hst, Hw. apply Steps_app.
    + revert Hst. apply Steps_impl. intros w0 stp Hq. unfold CapOk in Hq. rewrite no_move_cap_trig, orb_false_r in Hq; assumption.
    + rewrite <- Hw. apply IH; assumption.
Qed.
