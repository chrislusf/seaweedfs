(* C22: with nothing pending in the flush pipeline a subscriber is past every event after three
   steps: disk, memory, (anything); or memory (sent away by lastFlushTime), disk, memory.
   Hence liveness after any schedule outside the trigger. *)
From Coq Require Import List ZArith NArith Bool Lia.
From SW Require Import model.LogBuf proof.LogBufProofs proof.LogBufInv proof.LogBufSteps
  proof.LogBufMain proof.LogBufSafety proof.LogBufLive.
Import ListNotations.
Local Open Scope Z_scope.

(* the subscriber in a state where nothing is pending in the flush pipeline *)
Section quiescent.
Variables (gh : ghost) (s : st) (t0 : Z).
Hypothesis Ht0 : 0 <= t0.
Hypothesis HInv : Inv gh s.
Hypothesis Hq : queue s = [].
Hypothesis Hi : inflight s = None.

Let E := E_of gh s.
Definition sub_good (u : sub) : Prop := SubInv t0 E (lastTs s) u /\ SubErrInv s u.
Definition sub_done (u : sub) : Prop := all_le E (lastRead u).
Definition sub_covered (u : sub) : Prop := lastFlush s = zeroT \/ lastFlush s <= lastRead u.

Lemma sub_good_step : forall u, sub_good u -> sub_good (sub_step s u).
Proof.
  intros u [A B]. split; [apply sub_step_inv; assumption|].
  apply (sub_step_err_inv gh); auto. destruct A; lia.
Qed.

Lemma sub_good_pos : forall u, sub_good u -> 0 <= lastRead u /\ (mem_err u =? 4)%N = false.
Proof. intros u [[A _] [[H|H] _]]; rewrite H; split; auto; lia. Qed.

(* memory step when lastFlushTime does not send the reader to the disk *)
Lemma step_mem_covered : forall u, sub_good u -> on_disk u = false -> sub_covered u -> sub_done (sub_step s u).
Proof.
  intros u Hg Ho Hc. destruct (sub_good_pos u Hg) as [Hle Hd]. unfold sub_step. rewrite Hd, Ho.
  pose proof (read_quiescent gh s (lastRead u) HInv Hq Hi Hle Hc) as Hrq.
  pose proof (read_once_spec gh s (lastRead u) HInv Hle) as Hcl.
  unfold sub_mem, sub_done. destruct (read_once s (lastRead u)) as [[cls X] t']. cbn [snd] in Hrq.
  destruct Hcl as [-> [_ [[-> [-> _]]|[[-> [-> _]]|[-> _]]]]]; exact Hrq.
Qed.

(* disk step: afterwards the reader is in memory mode and past lastFlushTime *)
Lemma step_disk : forall u, sub_good u -> on_disk u = true ->
  on_disk (sub_step s u) = false /\ sub_covered (sub_step s u).
Proof.
  intros u Hg Ho. pose proof zeroT_neg as Hz. destruct (sub_good_pos u Hg) as [Hle Hd].
  unfold sub_step. rewrite Hd, Ho. destruct HInv as [HI _].
  destruct (sub_disk_spec gh s u HI Hle) as [_ ->]. unfold sub_covered. cbn [on_disk lastRead].
  destruct (incr_split _ _ (lastRead u) (disk_incr _ _ HI)) as [pre [Heq Hpre]].
  pose proof (i_flush _ _ HI) as HF. unfold FlushInv in HF. rewrite Hi, Heq in HF. fold (later (lastRead u)) in HF.
  destruct (filter (later (lastRead u)) (concat (disk s))) as [|x X'].
  - (* nothing new on the disk: lastFlushTime is at or below the position, so the reader
       was not sent here by ResumeFromDisk *)
    rewrite app_nil_r in HF.
    assert (Hcov : lastFlush s = zeroT \/ lastFlush s <= lastRead u).
    { destruct pre as [|e0 l0]; [left; exact HF|right].
      destruct (last_ts_in (e0 :: l0) zeroT ltac:(discriminate)) as [el [Hel1 Hel2]].
      rewrite HF, <- Hel2. apply Hpre. exact Hel1. }
    split; [|exact Hcov]. destruct (mem_err u =? 1)%N eqn:E1; [|reflexivity].
    destruct Hg as [_ [_ Hb]]. apply N.eqb_eq in E1. specialize (Hb Ho E1). lia.
  - split; [reflexivity|right]. rewrite HF, last_ts_app.
    rewrite (last_ts_default (x :: X') _ (lastRead u)) by discriminate. lia.
Qed.

(* memory step when lastFlushTime is ahead: the reader is sent to the disk *)
Lemma step_mem_uncovered : forall u, sub_good u -> on_disk u = false -> ~ sub_covered u ->
  on_disk (sub_step s u) = true.
Proof.
  intros u Hg Ho Hc. destruct (sub_good_pos u Hg) as [_ Hd]. unfold sub_step. rewrite Hd, Ho.
  unfold sub_mem, read_once, read_from_buffer.
  replace (negb (lastFlush s =? zeroT) && (lastRead u <? lastFlush s)) with true; [reflexivity|].
  unfold sub_covered in Hc. lia.
Qed.

Lemma step_mono : forall u, sub_good u -> lastRead u <= lastRead (sub_step s u).
Proof.
  intros u Hg. destruct (sub_good_pos u Hg) as [Hle Hd]. unfold sub_step. rewrite Hd.
  assert (Hge : forall X, splits E (lastRead u) X -> lastRead u <= last_ts X (lastRead u)).
  { intros [|x X'] Hs; [rewrite last_ts_nil; lia|]. pose proof (splits_last_gt _ _ _ Hs ltac:(discriminate)). lia. }
  destruct (on_disk u).
  - destruct HInv as [HI _]. destruct (sub_disk_spec gh s u HI Hle) as [Hs ->]. apply Hge, Hs.
  - pose proof (read_once_spec gh s (lastRead u) HInv Hle) as Hr. unfold sub_mem.
    destruct (read_once s (lastRead u)) as [[cls X] t'].
    destruct Hr as [-> [Hs [[-> _]|[[-> _]|[-> _]]]]]; cbn [lastRead]; try lia. apply Hge, Hs.
Qed.

Lemma sub_done_step : forall u, sub_good u -> sub_done u -> sub_done (sub_step s u).
Proof. intros u Hg Hd e He. pose proof (step_mono u Hg). specialize (Hd e He). lia. Qed.

(* disk, memory; or memory, disk, memory when lastFlushTime is ahead of the reader *)
Lemma three_steps : forall u, sub_good u -> sub_done (sub_step s (sub_step s (sub_step s u))).
Proof.
  intros u Hg. pose proof (sub_good_step _ Hg) as Hg1. pose proof (sub_good_step _ Hg1) as Hg2.
  destruct (on_disk u) eqn:Eo.
  - destruct (step_disk u Hg Eo) as [A B].
    apply (sub_done_step _ Hg2). apply (step_mem_covered _ Hg1 A B).
  - destruct (Z.eq_dec (lastFlush s) zeroT) as [Hz|Hz].
    { apply (sub_done_step _ Hg2), (sub_done_step _ Hg1), (step_mem_covered _ Hg Eo). left. exact Hz. }
    destruct (Z_le_gt_dec (lastFlush s) (lastRead u)) as [Hl|Hl].
    { apply (sub_done_step _ Hg2), (sub_done_step _ Hg1), (step_mem_covered _ Hg Eo). right. exact Hl. }
    assert (Hu : ~ sub_covered u) by (unfold sub_covered; lia).
    pose proof (step_mem_uncovered u Hg Eo Hu) as A.
    destruct (step_disk _ Hg1 A) as [B C]. apply (step_mem_covered _ Hg2 B C).
Qed.

(* after three steps the subscriber has received everything later than t0 *)
Lemma delivered : forall u, sub_good u ->
  got (sub_step s (sub_step s (sub_step s u))) = filter (later t0) E.
Proof.
  intros u Hg. pose proof (three_steps u Hg) as Hd.
  destruct (sub_good_step _ (sub_good_step _ (sub_good_step _ Hg))) as [[_ [-> _]] _].
  apply filter_ext_in. intros e He. specialize (Hd e He). unfold in_range, later. lia.
Qed.
End quiescent.

(* After any schedule outside the triggers: flush what is pending (one FlushWrite/FlushMark
   pair per queued buffer, plus one) and let the subscriber take three steps; it then has
   received every event later than t0. *)
Theorem liveness : forall iv c t0 ops,
  0 <= t0 -> ops_wf ops -> run_trig iv true (sys0 c t0) ops = None ->
  let y := run iv true (sys0 c t0) ops in
  let E := run_events iv true (sys0 c t0) ops in
  let y' := run iv true y (flush_all (S (length (queue (buf y)))) ++ [SubStep; SubStep; SubStep]) in
  got (subs y') = filter (later t0) E.
Proof.
  intros iv c t0 ops Ht0 Hwf Htr y E y'.
  pose proof (run_preserves iv (AllInv t0) (fun gh y o H => step_all iv gh y o t0 Ht0 H)) as Hrun.
  destruct (Hrun ops gh0 (sys0 c t0) (init_all c t0 Ht0) Hwf Htr) as [gh1 [HA1 HE1]].
  fold y in HA1, HE1.
  set (n := S (length (queue (buf y)))).
  destruct (flush_all_quiet iv n y) as [Q1 [Q2 Q3]].
  destruct (Hrun (flush_all n) gh1 y HA1 Q2 Q1) as [gh2 [HA2 HE2]].
  set (y1 := run iv true y (flush_all n)) in *.
  assert (Hpend : pending (buf y1) = 0%nat).
  { apply flush_all_drains. unfold pending, n. destruct (inflight (buf y)); lia. }
  destruct (pending_zero _ Hpend) as [Hq Hi].
  destruct HA2 as [HI2 [HS2 H22]].
  assert (HEE : E_of gh2 (buf y1) = E).
  { rewrite HE2, Q3, app_nil_r, HE1. reflexivity. }
  unfold y'. rewrite run_app. fold n. fold y1. cbn [run step buf subs].
  rewrite <- HEE. apply (delivered gh2 (buf y1) t0 Ht0 HI2 Hq Hi). split; assumption.
Qed.
