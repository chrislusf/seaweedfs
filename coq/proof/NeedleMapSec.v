(* C05 proofs: one CompactSection — invariant, and Set / Delete / Get in terms of the
   abstract lookup [sec_lookup] (overflow first, then values). *)
From Coq Require Import List NArith ZArith Bool Lia Sorted Arith.
From Coq Require Import ZifyBool ZifyN ZifyNat.
From SW Require Import model.NeedleMap proof.EcIndexProofs proof.NeedleMapSearch.
Import ListNotations.
Local Open Scope N_scope.

Definition sec_lookup (s : section) (k : N) : option sval :=
  match l_find (s_overflow s) k with Some o => Some o | None => l_find (s_values s) k end.

(* why a key sitting in the overflow list can never be appended / shifted into [values] later:
   the section is full, or at least min(counter,128) of the values are above the key *)
Definition ovf_ok (batch : N) (vals : list sval) (k : N) : Prop :=
  batch <= N.of_nat (length vals) \/
  ((0 < length vals)%nat /\ (Nat.min (length vals) lookback <= count_gt vals k)%nat).

Record sec_inv (batch : N) (s : section) : Prop := {
  si_vs : sorted (s_values s);
  si_os : sorted (s_overflow s);
  si_disj : forall k, In k (map sk (s_overflow s)) -> ~ In k (map sk (s_values s));
  si_ovf : forall k, In k (map sk (s_overflow s)) -> ovf_ok batch (s_values s) k }.

Lemma l_find_none_keys : forall l k, l_find l k = None <-> ~ In k (map sk l).
Proof.
  intros l k. rewrite l_find_none. split.
  - intros H Hin. apply in_map_iff in Hin. destruct Hin as [v [Hv Hin]]. exact (H v Hin Hv).
  - intros H v Hv E. apply H. rewrite <- E. apply in_map. assumption.
Qed.

Lemma l_find_keys_some : forall l k, In k (map sk l) -> exists v, l_find l k = Some v.
Proof.
  intros l k H. destruct (l_find l k) as [v|] eqn:E; [eauto|].
  apply l_find_none_keys in E. contradiction.
Qed.

Lemma sec_inv_keys : forall batch s s',
  map sk (s_values s') = map sk (s_values s) -> map sk (s_overflow s') = map sk (s_overflow s) ->
  sec_inv batch s -> sec_inv batch s'.
Proof.
  intros batch s s' Hv Ho [A B C D].
  assert (Hl : length (s_values s') = length (s_values s)).
  { rewrite <- (map_length sk (s_values s')), Hv, map_length. reflexivity. }
  constructor.
  - eapply sorted_of_keys; eauto.
  - eapply sorted_of_keys; eauto.
  - intros k. rewrite Hv, Ho. apply C.
  - intros k Hk. rewrite Ho in Hk. specialize (D k Hk). unfold ovf_ok in *.
    rewrite Hl. rewrite (count_gt_keys _ _ k Hv). exact D.
Qed.

Lemma l_insert_keys_in : forall l v k, In k (map sk (l_insert l v)) <-> k = sk v \/ In k (map sk l).
Proof.
  intros l v k. rewrite !in_map_iff. split.
  - intros [x [Hx Hin]]. apply l_insert_in in Hin. destruct Hin as [->|Hin]; [left; auto|right; eauto].
  - intros [->|[x [Hx Hin]]].
    + exists v. split; [reflexivity|]. apply l_insert_in. left. reflexivity.
    + exists x. split; [assumption|]. apply l_insert_in. right. assumption.
Qed.

Lemma l_replace_self : forall l o, l_find l (sk o) = Some o -> l_replace l o = l.
Proof.
  induction l as [|x r IH]; intros o H; [reflexivity|]. simpl in *.
  destruct (N.eqb_spec (sk x) (sk o)).
  - injection H as ->. reflexivity.
  - f_equal. apply IH. assumption.
Qed.

Lemma sv_off_mk : forall k off size, sv_off (mk_sval k off size) = off.
Proof.
  intros. unfold sv_off, mk_sval. simpl. pose proof (N.div_mod off two32). unfold two32 in *. lia.
Qed.

Lemma sec_get_lookup : forall batch s key, sec_inv batch s ->
  sec_get s key = match sec_lookup s (u32 (sub64 key (s_start s))) with
                  | Some v => Some (to_nv s v)
                  | None => None
                  end.
Proof.
  intros batch s key [A B C D]. unfold sec_get, sec_lookup.
  rewrite (find_overflow_bsv _ _ B), !bsv_at_lb by assumption.
  rewrite (proj1 (lb_rec_find _ _ B)), (proj1 (lb_rec_find _ _ A)).
  destruct (at_lb (s_overflow s) _); [reflexivity|]. destruct (at_lb (s_values s) _); reflexivity.
Qed.

Lemma lb_window : forall cnt : nat, (cnt - (cnt - lookback) = Nat.min cnt lookback)%nat.
Proof. intros. unfold lookback. lia. Qed.

(* the two branches of Set that grow [values] *)
Lemma grow_inv : forall batch s v,
  sec_inv batch s ->
  l_find (s_values s) (sk v) = None ->
  N.of_nat (length (s_values s)) < batch ->
  (length (s_values s) = 0%nat \/
   key_at (s_values s) (length (s_values s) - lookback) < sk v) ->
  (forall s', s_values s' = l_insert (s_values s) v -> s_overflow s' = s_overflow s -> sec_inv batch s') /\
  l_find (s_overflow s) (sk v) = None.
Proof.
  intros batch s v [A B C D] Hn Hb Hw.
  set (vals := s_values s) in *. set (cnt := length vals) in *.
  assert (Hno : forall k, In k (map sk (s_overflow s)) -> (0 < cnt)%nat /\
                          (Nat.min cnt lookback <= count_gt vals k)%nat).
  { intros k Hk. destruct (D k Hk) as [H|H]; [lia|exact H]. }
  assert (Hfresh : ~ In (sk v) (map sk (s_overflow s))).
  { intros Hin. destruct (Hno _ Hin) as [Hc Hg]. destruct Hw as [Hw|Hw]; [lia|].
    assert (Hlt : sk v < key_at vals (cnt - lookback)).
    { apply count_gt_iff; [assumption|unfold lookback; lia|]. rewrite lb_window. exact Hg. }
    lia. }
  split; [|apply l_find_none_keys; exact Hfresh].
  intros s' Hv Ho. constructor.
  - rewrite Hv. apply l_insert_sorted; assumption.
  - rewrite Ho. assumption.
  - intros k Hk Hin. rewrite Ho in Hk. rewrite Hv in Hin. apply l_insert_keys_in in Hin.
    destruct Hin as [->|Hin]; [contradiction|]. exact (C k Hk Hin).
  - intros k Hk. rewrite Ho in Hk. rewrite Hv. right.
    destruct (Hno k Hk) as [Hc Hg]. rewrite l_insert_length, count_gt_insert. fold vals cnt.
    split; [lia|].
    destruct (Nat.le_gt_cases lookback cnt) as [Hbig|Hsmall].
    + unfold lookback in *. lia.
    + (* fewer than 128 values: all of them are above k, and so is the new one *)
      assert (Hall : count_gt vals k = cnt).
      { pose proof (count_gt_le vals k) as Hle. fold cnt in Hle. unfold lookback in Hsmall, Hg. lia. }
      destruct Hw as [Hw|Hw]; [lia|].
      replace (cnt - lookback)%nat with 0%nat in Hw by lia.
      assert (Hk0 : k < key_at vals 0).
      { apply (count_gt_full vals k Hall). apply nth_In. fold cnt. lia. }
      destruct (N.ltb_spec k (sk v)); unfold lookback in *; lia.
Qed.

Lemma in_sec_app : forall (s : section) v, In v (s_values s ++ s_overflow s) <-> In v (s_values s) \/ In v (s_overflow s).
Proof. intros. apply in_app_iff. Qed.

(* [.._shape]: what the section is after the operation; [.._spec]: the invariant and the lookups
   after it, derived from the shape. *)
(* what Set returns: the new value is stored under its key in [values] (a key the overflow list
   does not have) or in the overflow list; the old value is what the lookup gave *)
Definition set_shape (batch : N) (s : section) (key : N) (v : sval) (r : section * N * Z) : Prop :=
  let '(s', oo, os) := r in
  let end' := if s_end s <? key then key else s_end s in
  sec_inv batch s' /\
  (oo, os) = match sec_lookup s (sk v) with Some o => (sv_off o, ssz o) | None => (0, 0%Z) end /\
  ((l_find (s_overflow s) (sk v) = None /\
    s' = {| s_start := s_start s; s_end := end'; s_values := l_upd (s_values s) v;
            s_overflow := s_overflow s |}) \/
   s' = {| s_start := s_start s; s_end := end'; s_values := s_values s;
           s_overflow := l_upd (s_overflow s) v |}).

Lemma sec_set_shape : forall batch s key off size, sec_inv batch s ->
  set_shape batch s key (mk_sval (u32 (sub64 key (s_start s))) off size) (sec_set batch s key off size).
Proof.
  intros batch s key off size Hinv. pose proof Hinv as [A B C D].
  unfold sec_set. set (skey := u32 (sub64 key (s_start s))). set (v := mk_sval skey off size).
  assert (Hskv : sk v = skey) by reflexivity.
  set (vals := s_values s) in *. set (cnt := length vals).
  (* both ways of growing [values] insert in order; the key is then not in the overflow list *)
  assert (Grow : forall vals', vals' = l_insert vals v ->
            l_find vals skey = None -> N.of_nat cnt < batch ->
            (cnt = 0%nat \/ key_at vals (cnt - lookback) < skey) ->
            set_shape batch s key v
              ({| s_start := s_start s; s_end := if s_end s <? key then key else s_end s;
                  s_values := vals'; s_overflow := s_overflow s |}, 0, 0%Z)).
  { intros vals' -> Hnv Hcap Hw.
    destruct (grow_inv batch s v Hinv Hnv Hcap Hw) as [G1 G2].
    split; [apply G1; reflexivity|]. rewrite Hskv in *.
    split; [unfold sec_lookup; fold vals; rewrite G2, Hnv; reflexivity|].
    left. split; [exact G2|]. unfold l_upd. fold vals. rewrite Hskv, Hnv. reflexivity. }
  destruct (bsv vals skey) as [i|] eqn:V.
  - (* found in values: overwrite in place *)
    destruct (bsv_some _ _ _ A V) as [Hi [Hk [Hf Hrep]]]. rewrite (Hrep v Hskv).
    assert (Hno : l_find (s_overflow s) skey = None).
    { apply l_find_none_keys. intros Hin. apply (C _ Hin).
      rewrite <- Hk. apply in_map. apply nth_In. assumption. }
    unfold set_shape, sec_lookup. fold vals. rewrite Hskv, Hno, Hf. split; [|split].
    + eapply sec_inv_keys; [| |exact Hinv]; cbn [s_values s_overflow]; [apply l_replace_keys|reflexivity].
    + reflexivity.
    + left. split; [reflexivity|]. unfold l_upd. rewrite Hskv, Hf. reflexivity.
  - pose proof (bsv_none _ _ A V) as Hnv.
    destruct ((batch <=? N.of_nat cnt) || ((0 <? cnt)%nat && (skey <? key_at vals (cnt - 1)))) eqn:Need.
    + destruct ((N.of_nat cnt <? batch) && (key_at vals (cnt - lookback) <? skey)) eqn:Cond.
      * (* look-back insertion *)
        apply andb_true_iff in Cond. destruct Cond as [Hcap Hwin].
        apply N.ltb_lt in Hcap. apply N.ltb_lt in Hwin.
        assert (Hpos : (0 < cnt)%nat).
        { apply orb_true_iff in Need. destruct Need as [Hn|Hn]; [apply N.leb_le in Hn; lia|].
          apply andb_true_iff in Hn. destruct Hn as [Hn _]. apply Nat.ltb_lt in Hn. assumption. }
        apply Grow; auto.
        apply lookback_insert; [assumption|unfold lookback; fold cnt; lia|assumption|rewrite Hskv; assumption].
      * (* overflow *)
        rewrite (set_overflow_rec _ skey off size B). fold v.
        assert (Hok : ovf_ok batch vals skey).
        { apply orb_true_iff in Need. destruct Need as [Hn|Hn]; [left; apply N.leb_le in Hn; exact Hn|].
          apply andb_true_iff in Hn. destruct Hn as [Hp Hl]. apply Nat.ltb_lt in Hp. apply N.ltb_lt in Hl.
          apply andb_false_iff in Cond. destruct Cond as [Hc|Hc].
          - left. apply N.ltb_ge in Hc. exact Hc.
          - right. split; [assumption|]. apply N.ltb_ge in Hc. fold cnt.
            assert (Hne : key_at vals (cnt - lookback) <> skey).
            { rewrite l_find_none in Hnv. apply Hnv. apply nth_In. fold cnt. unfold lookback. lia. }
            rewrite <- lb_window. apply count_gt_iff; [assumption|fold cnt; unfold lookback; lia|lia]. }
        assert (Hold : match find_overflow (s_overflow s) skey with
                       | Some (_, o) => (sv_off o, ssz o) | None => (0, 0%Z) end =
                       match sec_lookup s skey with Some o => (sv_off o, ssz o) | None => (0, 0%Z) end).
        { unfold sec_lookup. fold vals.
          rewrite Hnv, (find_overflow_bsv _ _ B), bsv_at_lb, (proj1 (lb_rec_find _ _ B)) by assumption.
          destruct (at_lb (s_overflow s) skey); reflexivity. }
        unfold set_shape. rewrite Hold, Hskv.
        destruct (match sec_lookup s skey with Some o => (sv_off o, ssz o) | None => (0, 0%Z) end) as [oo os].
        split; [|split; [reflexivity|right; reflexivity]].
        unfold l_upd. rewrite Hskv. destruct (l_find (s_overflow s) skey) as [o|] eqn:Fo.
        -- eapply sec_inv_keys; [| |exact Hinv]; cbn [s_values s_overflow]; [reflexivity|apply l_replace_keys].
        -- constructor; cbn [s_values s_overflow].
           ++ assumption.
           ++ apply l_insert_sorted; assumption.
           ++ intros k Hk. apply l_insert_keys_in in Hk. destruct Hk as [->|Hk]; [|apply C; assumption].
              apply l_find_none_keys. exact Hnv.
           ++ intros k Hk. apply l_insert_keys_in in Hk. destruct Hk as [->|Hk]; [exact Hok|apply D; assumption].
    + (* plain append *)
      apply orb_false_iff in Need. destruct Need as [Hcap Hlast].
      apply N.leb_gt in Hcap.
      assert (Hall : Forall (fun x => sk x < sk v) vals).
      { destruct (Nat.eq_dec cnt 0) as [Hz|Hz].
        - unfold cnt in Hz. destruct vals; [constructor|simpl in Hz; discriminate].
        - apply andb_false_iff in Hlast. destruct Hlast as [Hl|Hl]; [apply Nat.ltb_ge in Hl; lia|].
          apply N.ltb_ge in Hl.
          assert (Hne : key_at vals (cnt - 1) <> skey).
          { rewrite l_find_none in Hnv. apply Hnv. apply nth_In. fold cnt. lia. }
          apply sorted_last_lt; [assumption|fold cnt; lia|fold cnt; rewrite Hskv; lia]. }
      apply Grow; auto.
      * symmetry. apply l_insert_all_lt. assumption.
      * destruct (Nat.eq_dec cnt 0) as [Hz|Hz]; [left; assumption|right].
        rewrite Forall_forall in Hall. apply Hall. apply nth_In. fold cnt. unfold lookback. lia.
Qed.

Lemma sec_set_spec : forall batch s key off size s' oo os,
  sec_inv batch s ->
  sec_set batch s key off size = (s', oo, os) ->
  let skey := u32 (sub64 key (s_start s)) in
  sec_inv batch s' /\
  s_start s' = s_start s /\
  s_end s' = (if s_end s <? key then key else s_end s) /\
  (forall k', sec_lookup s' k' = if k' =? skey then Some (mk_sval skey off size) else sec_lookup s k') /\
  (oo, os) = match sec_lookup s skey with Some o => (sv_off o, ssz o) | None => (0, 0%Z) end /\
  (length (s_values s) <= length (s_values s'))%nat /\
  (forall v, In v (s_values s' ++ s_overflow s') ->
             v = mk_sval skey off size \/ In v (s_values s ++ s_overflow s)).
Proof.
  intros batch s key off size s' oo os Hinv Hset skey. subst skey.
  pose proof (sec_set_shape batch s key off size Hinv) as H. rewrite Hset in H.
  destruct H as [I' [Hold [[Hno ->]| ->]]]; cbn [mk_sval sk] in *;
    unfold sec_lookup; cbn [s_start s_end s_values s_overflow];
    (split; [exact I'|split; [reflexivity|split; [reflexivity|split; [|split; [exact Hold|split]]]]]).
  - intros k'. rewrite l_find_upd. cbn [mk_sval sk].
    destruct (N.eqb_spec k' (u32 (sub64 key (s_start s)))) as [->|]; [rewrite Hno|]; reflexivity.
  - apply l_upd_length.
  - intros x Hx. rewrite in_app_iff in *. destruct Hx as [Hx|Hx]; [apply l_upd_in in Hx|]; tauto.
  - intros k'. rewrite l_find_upd. cbn [mk_sval sk]. destruct (k' =? _); reflexivity.
  - apply le_n.
  - intros x Hx. rewrite in_app_iff in *. destruct Hx as [Hx|Hx]; [|apply l_upd_in in Hx]; tauto.
Qed.

Lemma neg_if_live_sk : forall v, sk (neg_if_live v) = sk v.
Proof. intros v. unfold neg_if_live. destruct (0 <? ssz v)%Z; reflexivity. Qed.

Definition del_list (l : list sval) (k : N) : list sval :=
  match l_find l k with Some o => l_replace l (neg_if_live o) | None => l end.

Lemma del_list_keys : forall l k, map sk (del_list l k) = map sk l.
Proof. intros. unfold del_list. destruct (l_find l k); [apply l_replace_keys|reflexivity]. Qed.

Lemma del_list_find : forall l k k',
  l_find (del_list l k) k' = if k' =? k then option_map neg_if_live (l_find l k) else l_find l k'.
Proof.
  intros l k k'. unfold del_list. destruct (l_find l k) as [o|] eqn:F.
  - destruct (l_find_some _ _ _ F) as [_ Hk].
    rewrite l_find_replace by (rewrite neg_if_live_sk, Hk, F; discriminate).
    rewrite neg_if_live_sk, Hk. reflexivity.
  - destruct (N.eqb_spec k' k) as [->|]; [rewrite F|]; reflexivity.
Qed.

Lemma sec_delete_shape : forall batch s key, sec_inv batch s ->
  let skey := u32 (sub64 key (s_start s)) in
  sec_delete s key =
  ({| s_start := s_start s; s_end := s_end s;
      s_values := del_list (s_values s) skey; s_overflow := del_list (s_overflow s) skey |},
   let vr := match l_find (s_values s) skey with
             | Some v => if (0 <? ssz v)%Z then ssz v else 0%Z
             | None => 0%Z
             end in
   match l_find (s_overflow s) skey with
   | Some o => if size_is_valid (ssz o) then ssz o else vr
   | None => vr
   end).
Proof.
  intros batch s key [A B C D] skey. unfold sec_delete, del_list. fold skey.
  rewrite (find_overflow_bsv _ _ B), (delete_overflow_rec _ _ B), !bsv_at_lb by assumption.
  destruct (lb_rec_find (s_values s) skey A) as [Fv Rv]. destruct (lb_rec_find (s_overflow s) skey B) as [Fo _].
  rewrite Fo, Fv. clear Fo.
  destruct (at_lb (s_values s) skey) eqn:Ev; [|destruct (at_lb (s_overflow s) skey); reflexivity].
  (* the key is in values: negated there when live *)
  pose proof Ev as E2. unfold at_lb, key_at in E2. apply andb_true_iff, proj2, N.eqb_eq in E2.
  cbv zeta. rewrite size_is_valid_pos, andb_diag. unfold neg_if_live.
  destruct (0 <? ssz (nth (lb_rec (s_values s) skey) (s_values s) dummy))%Z.
  - rewrite Rv by (try reflexivity; exact E2). destruct (at_lb (s_overflow s) skey); reflexivity.
  - rewrite l_replace_self by (rewrite E2; exact Fv). destruct (at_lb (s_overflow s) skey); reflexivity.
Qed.

Lemma sec_delete_spec : forall batch s key s' ret, sec_inv batch s ->
  sec_delete s key = (s', ret) ->
  let skey := u32 (sub64 key (s_start s)) in
  sec_inv batch s' /\ s_start s' = s_start s /\ s_end s' = s_end s /\
  length (s_values s') = length (s_values s) /\
  (forall k', sec_lookup s' k' = if k' =? skey then option_map neg_if_live (sec_lookup s skey)
                                 else sec_lookup s k') /\
  ret = match sec_lookup s skey with
        | Some v => if (0 <? ssz v)%Z then ssz v else 0%Z
        | None => 0%Z
        end /\
  map sk (s_values s') = map sk (s_values s) /\ map sk (s_overflow s') = map sk (s_overflow s).
Proof.
  intros batch s key s' ret Hinv Hd skey.
  rewrite (sec_delete_shape batch s key Hinv) in Hd. fold skey in Hd. injection Hd as <- <-.
  cbn [s_start s_end s_values s_overflow].
  split; [|split; [reflexivity|split; [reflexivity|split; [|split; [|split; [|split]]]]]].
  - eapply sec_inv_keys; [| |exact Hinv]; cbn [s_values s_overflow]; apply del_list_keys.
  - rewrite <- (map_length sk), del_list_keys, map_length. reflexivity.
  - intros k'. unfold sec_lookup. cbn [s_values s_overflow]. rewrite !del_list_find.
    destruct (N.eqb_spec k' skey) as [->|Hne]; [|reflexivity].
    destruct (l_find (s_overflow s) skey); reflexivity.
  - cbv zeta. unfold sec_lookup. destruct (l_find (s_overflow s) skey) as [o|] eqn:Fo; [|reflexivity].
    (* an overflow key is not in values *)
    destruct (l_find_some _ _ _ Fo) as [Hin Hk].
    assert (Hnv : l_find (s_values s) skey = None).
    { apply l_find_none_keys. apply (si_disj _ _ Hinv). rewrite <- Hk. apply in_map. assumption. }
    rewrite Hnv, size_is_valid_pos. reflexivity.
  - apply del_list_keys.
  - apply del_list_keys.
Qed.

Lemma new_section_inv : forall batch k, sec_inv batch (new_section k).
Proof.
  intros. constructor; simpl.
  - constructor.
  - constructor.
  - intros k0 [].
  - intros k0 [].
Qed.
