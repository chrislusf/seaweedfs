(* C30: reads issued while the saves started by a Write are still in flight (model/DirtyPages.v, XRun).
   An extended history that meets no trigger (in particular: no WriteRead whose Write started a save) is
   observationally the flattened history Write; Read, so every theorem about plain histories applies. *)
From Coq Require Import List ZArith NArith Bool Lia.
From SW Require Import model.DirtyPages proof.DirtyPagesBase proof.DirtyPagesIntervals proof.DirtyPagesState
                       proof.DirtyPagesRead proof.DirtyPagesMem proof.DirtyPagesTemp.
Import ListNotations.
Local Open Scope Z_scope.

Lemma with_chunks_same : forall m cs, cs = f_chunks m -> with_chunks m cs = m.
Proof. intros [a c p] cs H. cbn in H. subst. reflexivity. Qed.

Lemma trig_at_write : forall ends m off data, trig_at ends m (Write off data) = None.
Proof. reflexivity. Qed.

Lemma trig_at_not_2 : forall ends m o, trig_at ends m o <> Some 2%N.
Proof.
  intros ends m o. destruct o; cbn; try discriminate.
  - destruct (n <? file_size (f_attr m) (f_chunks m)); [|discriminate].
    destruct (existsb (fun e => n <? e) ends); discriminate.
  - destruct (f_pin m) as [[cs fsz]|]; [|discriminate].
    destruct (chunks_eqb cs (live_chunks (f_chunks m)) && (fsz =? file_size (f_attr m) (f_chunks m))); discriminate.
Qed.

Lemma trigger_app_intro : forall {S} step ends_of meta_of a b (s : S),
  trigger S step ends_of meta_of s a = None ->
  trigger S step ends_of meta_of (exec S step s a) b = None ->
  trigger S step ends_of meta_of s (a ++ b) = None.
Proof.
  intros S step ends_of meta_of a. induction a as [|o a IH]; intros b s H1 H2; simpl in *; auto.
  destruct (trig_at (ends_of s) (meta_of s) o); [discriminate|]. apply IH; auto.
Qed.

Lemma run_app : forall S step a b s, run S step s (a ++ b) = run S step s a ++ run S step (exec S step s a) b.
Proof.
  intros S step. induction a as [|o a IH]; intros b s; simpl; auto.
  destruct (step s o) as [s' ob]. cbn [fst]. rewrite IH. reflexivity.
Qed.

Lemma xflat_app : forall a b, xflat (a ++ b) = xflat a ++ xflat b.
Proof. intros. unfold xflat. apply flat_map_app. Qed.

Section XRefine.
  Variable S : Type.
  Variable step : S -> op -> S * obs.
  Variable meta_of : S -> fmeta.
  Variable set_meta : S -> fmeta -> S.
  Variable ends_of : S -> list Z.
  Hypothesis set_get : forall s, set_meta s (meta_of s) = s.
  Hypothesis read_step : forall s off len,
    fst (step s (Read off len)) =
    set_meta s (with_pin (meta_of s) (f_pin (meta_of (fst (step s (Read off len)))))).

  Notation xstep' := (xstep S step meta_of set_meta).
  Notation xtrigger' := (xtrigger S step meta_of set_meta ends_of).

  (* a WriteRead whose Write starts no save is Write followed by Read *)
  Lemma xstep_quiet : forall s off data roff rlen,
    inflight S meta_of s (fst (step s (Write off data))) = false ->
    xstep' s (WriteRead off data roff rlen) =
    (fst (step (fst (step s (Write off data))) (Read roff rlen)),
     XWriteRead (snd (step s (Write off data))) (snd (step (fst (step s (Write off data))) (Read roff rlen)))
                (f_attr (meta_of (fst (step s (Write off data)))))).
  Proof.
    intros s off data roff rlen H. unfold xstep.
    destruct (step s (Write off data)) as [s1 ow] eqn:E1. cbn [fst snd] in *.
    unfold inflight in H. apply negb_false_iff in H. apply chunks_eqb_eq in H.
    unfold inflight_view. rewrite (with_chunks_same (meta_of s1) _ H), set_get.
    pose proof (read_step s1 roff rlen) as R.
    destruct (step s1 (Read roff rlen)) as [s2 ord] eqn:E2. cbn [fst snd] in *.
    rewrite <- R. reflexivity.
  Qed.

  Lemma xtrigger_app : forall a b s, xtrigger' s (a ++ b) = None ->
    xtrigger' s a = None /\ xtrigger' (exec_x S xstep' s a) b = None.
  Proof.
    induction a as [|xo a IH]; intros b s H; [simpl in *; auto|].
    rewrite <- app_comm_cons in H. cbn [xtrigger exec_x] in *. destruct xo as [o|off data roff rlen|].
    - destruct (trig_at (ends_of s) (meta_of s) o); [discriminate|]. apply IH; auto.
    - destruct (inflight S meta_of s (fst (step s (Write off data)))); [discriminate|].
      destruct (trig_at (ends_of (fst (step s (Write off data)))) (meta_of (fst (step s (Write off data)))) (Read roff rlen));
        [discriminate|].
      apply IH; auto.
    - apply IH; auto.
  Qed.

  (* one extended op that meets no trigger does what its flattening does *)
  Lemma xstep_flat : forall s xo xs, xtrigger' s (xo :: xs) = None ->
    xtrigger' (fst (xstep' s xo)) xs = None /\
    trigger S step ends_of meta_of s (xflat1 xo) = None /\
    fst (xstep' s xo) = exec S step s (xflat1 xo) /\
    xobs_flat1 (snd (xstep' s xo)) = run S step s (xflat1 xo).
  Proof.
    intros s xo xs H. cbn [xtrigger] in H. destruct xo as [o|off data roff rlen|].
    - destruct (trig_at (ends_of s) (meta_of s) o) eqn:Et; [discriminate|].
      cbn [xflat1 trigger exec run]. rewrite Et. unfold xstep in *. destruct (step s o) as [s' ob]. auto.
    - destruct (inflight S meta_of s (fst (step s (Write off data)))) eqn:Ei; [discriminate|].
      destruct (trig_at (ends_of (fst (step s (Write off data)))) (meta_of (fst (step s (Write off data)))) (Read roff rlen)) eqn:Et;
        [discriminate|].
      rewrite (xstep_quiet s off data roff rlen Ei) in *. cbn [xflat1 trigger exec run fst snd]. rewrite trig_at_write, Et.
      destruct (step s (Write off data)) as [s1 ow]. cbn [fst snd] in *.
      destruct (step s1 (Read roff rlen)) as [s2 ord]. auto.
    - cbn [xflat1 trigger exec run trig_at]. unfold xstep in *. destruct (step s Flush) as [s' ob]. auto.
  Qed.

  Theorem x_refines : forall xs s, xtrigger' s xs = None ->
    trigger S step ends_of meta_of s (xflat xs) = None /\
    xobs_flat (run_x S xstep' s xs) = run S step s (xflat xs) /\
    exec_x S xstep' s xs = exec S step s (xflat xs).
  Proof.
    induction xs as [|xo xs IH]; intros s H; [simpl; auto|].
    destruct (xstep_flat s xo xs H) as [H' [T [E R]]]. destruct (IH _ H') as [I1 [I2 I3]].
    cbn [xflat flat_map run_x exec_x]. fold (xflat xs). rewrite run_app, exec_app, <- E.
    split; [apply trigger_app_intro; [exact T|rewrite <- E; exact I1]|]. split; [|exact I3].
    destruct (xstep' s xo) as [s' xb]. cbn [fst snd xobs_flat flat_map] in *.
    fold (xobs_flat (run_x S xstep' s' xs)). rewrite R, I2. reflexivity.
  Qed.

  Lemma xtrigger_never_2 : (forall s off data, inflight S meta_of s (fst (step s (Write off data))) = false) ->
    forall xs s, xtrigger' s xs <> Some 2%N.
  Proof.
    intros Hq. induction xs as [|xo xs IH]; intros s; cbn [xtrigger]; [discriminate|].
    destruct xo as [o|off data roff rlen|].
    - destruct (trig_at (ends_of s) (meta_of s) o) eqn:Et; [|apply IH].
      rewrite <- Et. apply trig_at_not_2.
    - rewrite Hq.
      destruct (trig_at (ends_of (fst (step s (Write off data)))) (meta_of (fst (step s (Write off data)))) (Read roff rlen)) eqn:Et;
        [|apply IH].
      rewrite <- Et. apply trig_at_not_2.
    - apply IH.
  Qed.

  (* on a trigger-free extended history the Read of every WriteRead returns what the plain history
     Write; Read returns *)
  Theorem x_inflight_read_posix : forall s0,
    (forall pre off len post, Forall op_ok (pre ++ Read off len :: post) -> 0 <= off -> 0 < len ->
       trigger S step ends_of meta_of s0 (pre ++ Read off len :: post) = None ->
       exists d ms, snd (step (exec S step s0 pre) (Read off len)) = ORead d ms (pread (pfile pre) off len)) ->
    forall xpre off data roff rlen xpost,
    Forall op_ok (xflat (xpre ++ WriteRead off data roff rlen :: xpost)) -> 0 <= roff -> 0 < rlen ->
    xtrigger' s0 (xpre ++ WriteRead off data roff rlen :: xpost) = None ->
    exists ow d ms a,
      snd (xstep' (exec_x S xstep' s0 xpre) (WriteRead off data roff rlen)) =
      XWriteRead ow (ORead d ms (pread (pfile (xflat xpre ++ [Write off data])) roff rlen)) a.
  Proof.
    intros s0 read_hist xpre off data roff rlen xpost Hok Hoff Hlen Htr.
    change (xpre ++ WriteRead off data roff rlen :: xpost) with (xpre ++ [WriteRead off data roff rlen] ++ xpost) in *.
    rewrite app_assoc in Htr, Hok.
    apply xtrigger_app in Htr. destruct Htr as [Htr _].
    rewrite xflat_app in Hok. apply Forall_app in Hok. destruct Hok as [Hok _].
    destruct (x_refines _ s0 Htr) as [T1 _].
    apply xtrigger_app in Htr. destruct Htr as [Hpre Hwr].
    destruct (x_refines _ s0 Hpre) as [_ [_ E]].
    rewrite E in Hwr |- *. cbn [xtrigger] in Hwr.
    set (s := exec S step s0 (xflat xpre)) in *.
    destruct (inflight S meta_of s (fst (step s (Write off data)))) eqn:Ei; [discriminate|].
    rewrite (xstep_quiet s off data roff rlen Ei). cbn [snd].
    rewrite xflat_app in T1, Hok. cbn [xflat flat_map xflat1 app] in T1, Hok.
    change (xflat xpre ++ [Write off data; Read roff rlen]) with (xflat xpre ++ [Write off data] ++ [Read roff rlen]) in T1, Hok.
    rewrite app_assoc in T1, Hok.
    destruct (read_hist (xflat xpre ++ [Write off data]) roff rlen [] Hok Hoff Hlen T1) as [d [ms Hr]].
    rewrite exec_app in Hr. fold s in Hr. cbn [exec] in Hr.
    exists (snd (step s (Write off data))), d, ms, (f_attr (meta_of (fst (step s (Write off data))))).
    rewrite Hr. reflexivity.
  Qed.
End XRefine.

Lemma m_set_get : forall s, m_set_meta s (m_meta s) = s.
Proof. intros [iv m]. reflexivity. Qed.
Lemma t_set_get : forall s, t_set_meta s (t_meta s) = s.
Proof. intros [iv tf m]. reflexivity. Qed.

Lemma m_read_sets_pin : forall limit s off len,
  fst (m_step limit s (Read off len)) =
  m_set_meta s (with_pin (m_meta s) (f_pin (m_meta (fst (m_step limit s (Read off len)))))).
Proof.
  intros limit s off len. rewrite m_step_read. unfold m_set_meta. cbn [fst m_iv m_meta].
  rewrite <- handle_read_only_pins. reflexivity.
Qed.

Lemma t_read_sets_pin : forall limit s off len,
  fst (t_step limit s (Read off len)) =
  t_set_meta s (with_pin (t_meta s) (f_pin (t_meta (fst (t_step limit s (Read off len)))))).
Proof.
  intros limit s off len. rewrite t_step_read. unfold t_set_meta. cbn [fst t_iv t_tf t_meta].
  rewrite <- handle_read_only_pins. reflexivity.
Qed.

Theorem m_x_refines : forall limit xs, m_xtrigger limit xs = None ->
  m_trigger limit (xflat xs) = None /\ xobs_flat (m_xrun limit xs) = m_run limit (xflat xs).
Proof.
  intros limit xs H.
  destruct (x_refines mstate (m_step limit) m_meta m_set_meta m_ends m_set_get (m_read_sets_pin limit) xs mstate0 H)
    as [H1 [H2 _]]. split; assumption.
Qed.

Theorem t_x_refines : forall limit xs, t_xtrigger limit xs = None ->
  t_trigger limit (xflat xs) = None /\ xobs_flat (t_xrun limit xs) = t_run limit (xflat xs).
Proof.
  intros limit xs H.
  destruct (x_refines tstate (t_step limit) t_meta t_set_meta t_ends t_set_get (t_read_sets_pin limit) xs tstate0 H)
    as [H1 [H2 _]]. split; assumption.
Qed.

Theorem m_inflight_read_posix : forall limit xpre off data roff rlen xpost,
  Forall op_ok (xflat (xpre ++ WriteRead off data roff rlen :: xpost)) -> 0 <= roff -> 0 < rlen ->
  m_xtrigger limit (xpre ++ WriteRead off data roff rlen :: xpost) = None ->
  exists ow d ms a,
    snd (m_xstep limit (exec_x mstate (m_xstep limit) mstate0 xpre) (WriteRead off data roff rlen)) =
    XWriteRead ow (ORead d ms (pread (pfile (xflat xpre ++ [Write off data])) roff rlen)) a.
Proof.
  intros limit. exact (x_inflight_read_posix mstate (m_step limit) m_meta m_set_meta m_ends m_set_get
                         (m_read_sets_pin limit) mstate0 (m_read_is_posix_history limit)).
Qed.

(* the temp-file buffer saves only inside FlushData (which waits): Write never starts a save *)
Lemma t_write_quiet : forall limit s off data,
  inflight tstate t_meta s (fst (t_step limit s (Write off data))) = false.
Proof.
  intros limit s off data. unfold inflight. cbn [t_step fst t_add_page t_meta set_attr f_chunks].
  rewrite chunks_eqb_refl. reflexivity.
Qed.

Theorem t_never_inflight : forall limit xs, t_xtrigger limit xs <> Some 2%N.
Proof.
  intros limit xs. unfold t_xtrigger.
  apply (xtrigger_never_2 tstate (t_step limit) t_meta t_set_meta t_ends (t_write_quiet limit)).
Qed.

Theorem t_inflight_read_posix : forall limit xpre off data roff rlen xpost, 0 < limit ->
  Forall op_ok (xflat (xpre ++ WriteRead off data roff rlen :: xpost)) -> 0 <= roff -> 0 < rlen ->
  t_xtrigger limit (xpre ++ WriteRead off data roff rlen :: xpost) = None ->
  exists ow d ms a,
    snd (t_xstep limit (exec_x tstate (t_xstep limit) tstate0 xpre) (WriteRead off data roff rlen)) =
    XWriteRead ow (ORead d ms (pread (pfile (xflat xpre ++ [Write off data])) roff rlen)) a.
Proof.
  intros limit xpre off data roff rlen xpost Hlim.
  exact (x_inflight_read_posix tstate (t_step limit) t_meta t_set_meta t_ends t_set_get
           (t_read_sets_pin limit) tstate0
           (fun pre o l post => t_read_is_posix_history limit pre o l post Hlim) xpre off data roff rlen xpost).
Qed.

(* finding 2: the full statement fails for the in-memory buffer *)
Definition w3 : list xop := [WriteRead 0 [1;2;3;4]%N 0 4].
Definition xread_data (xb : xobs) : list N :=
  match xb with XWriteRead _ (ORead _ _ d) _ => d | XObs (ORead _ _ d) _ => d | _ => [] end.

Lemma inflight_read_refuted : exists limit xs, 0 < limit /\ Forall op_ok (xflat xs) /\
  m_xtrigger limit xs = Some 2%N /\
  xread_data (last (m_xrun limit xs) (XObs (OTrunc [] 0) 0)) <> pread (pfile (xflat xs)) 0 4.
Proof.
  exists 4, w3. split; [lia|]. split; [repeat constructor; cbn; try lia; discriminate|].
  split; [vm_compute; reflexivity|]. intro H. vm_compute in H. discriminate.
Qed.

Lemma w3_values :
  xread_data (last (m_xrun 4 w3) (XObs (OTrunc [] 0) 0)) = [0;0;0;0]%N /\ pread (pfile (xflat w3)) 0 4 = [1;2;3;4]%N /\
  xread_data (last (t_xrun 4 w3) (XObs (OTrunc [] 0) 0)) = [1;2;3;4]%N.
Proof. vm_compute. repeat split; reflexivity. Qed.

(* the closing flush on a history that overwrites a stored chunk completely: CompactFileChunks drops it and
   the entry the filer receives still resolves to the POSIX file *)
Definition w_close : list xop :=
  [XOp (Write 0 [1;2;3;4]%N); XOp Flush; XOp (Write 0 [5;6;7;8;9;9;9;9]%N); XOp Flush; XOp (Write 2 [7;7]%N); FlushClose].
Definition xcreated (xb : xobs) : list N := match xb with XClose _ c _ => c | _ => [] end.
Lemma w_close_values :
  xcreated (last (m_xrun 16 w_close) (XObs (OTrunc [] 0) 0)) = pfile (xflat w_close) /\
  xcreated (last (t_xrun 16 w_close) (XObs (OTrunc [] 0) 0)) = pfile (xflat w_close) /\
  pfile (xflat w_close) = [5;6;7;7;9;9;9;9]%N /\
  length (compact_chunks (f_chunks (m_meta (exec_x mstate (m_xstep 16) mstate0 w_close)))) = 2%nat /\
  length (f_chunks (m_meta (exec_x mstate (m_xstep 16) mstate0 w_close))) = 3%nat /\
  m_xtrigger 16 w_close = None /\ t_xtrigger 16 w_close = None.
Proof. vm_compute. repeat split; reflexivity. Qed.
