(* C38: from the sequential volume model to the register specification with every answer field
   (C01's specification xexpect / xmatch), for all keys inside C01's hypotheses and
   per key without them; the checkers of the correspondence check; witnesses. *)
From Coq Require Import List NArith ZArith Bool Lia Permutation.
From SW Require Import model.Volume model.VolumeConc proof.VolumeProofs proof.VolumeKeyProofs proof.VolumeKeyMain
  proof.VolumeConcProofs.
Import ListNotations.
Local Open Scope N_scope.

Lemma RC_init_flags : forall C a b, RC C (init_flags a b) (spec_flags a b) [].
Proof.
  intros C a b. split; [split; reflexivity|]. split.
  - split; [reflexivity|]. intros off r H. discriminate.
  - intros id _. reflexivity.
Qed.

(* a read of a clean key answers as the specification says *)
Lemma read_agrees : forall D st sp seen id c t,
  RC (cleanD D) st sp seen -> dirt_get D id = None ->
  reg_acc sp (t, RawRead id c false) (snd (step st (t, RawRead id c false))) = true.
Proof.
  intros D st sp seen id c t HR Hd.
  destruct (step_RC D st sp seen (t, RawRead id c false) HR eq_refl) as [_ HM].
  apply HM. unfold dirty_step, self_trig. cbn [snd xop_needle op_needle xkeys dirt_of_keys]. rewrite Hd.
  cbn [dirt_of_keys]. rewrite Hd. reflexivity.
Qed.

(* per key, no hypothesis beyond representable needles *)
Lemma seq_vol_to_pk : forall (lin : hist) st s st',
  RC (cleanD (pk_dirt s)) st (pk_sp s) (pk_seen s) -> wf_history (map o_op lin) = true ->
  seq_ok vol_nxt vol_acc st lin = Some st' ->
  exists s', seq_ok pk_nxt pk_acc s lin = Some s' /\ RC (cleanD (pk_dirt s')) st' (pk_sp s') (pk_seen s').
Proof.
  induction lin as [|a lin IH]; intros st s st' HR Hwf H; cbn [seq_ok map] in *.
  - inversion H; subst. exists s. split; [reflexivity | exact HR].
  - unfold vol_acc, vol_nxt in H. destruct (out_eqb (snd (step st (o_op a))) (o_out a)) eqn:E; [|discriminate].
    apply out_eqb_eq in E. unfold wf_history in Hwf. cbn [forallb] in Hwf.
    apply andb_true_iff in Hwf. destruct Hwf as [W1 W2].
    destruct (step_RC _ _ _ _ (o_op a) HR W1) as [HR' HM].
    assert (A : pk_acc s (o_op a) (o_out a) = true).
    { unfold pk_acc, pk_dirt_next.
      destruct (dirt_of_keys (dirty_step (pk_dirt s) (pk_seen s) (XBase (snd (o_op a)))) (xkeys (XBase (snd (o_op a))))) eqn:Ed;
        [reflexivity|]. rewrite <- E. apply HM. reflexivity. }
    rewrite A. apply (IH (fst (step st (o_op a))) (pk_nxt s (o_op a)) st'); [exact HR' | exact W2 | exact H].
Qed.

(* all keys, inside C01's hypotheses *)
Lemma seq_vol_to_reg : forall (lin : hist) st sp seen st',
  RC (cleanD []) st sp seen ->
  wf_history (map o_op lin) = true -> empty_payload (map o_op lin) = false -> meta_dup seen (map o_op lin) = false ->
  seq_ok vol_nxt vol_acc st lin = Some st' ->
  exists sp' seen', seq_ok reg_nxt reg_acc sp lin = Some sp' /\ RC (cleanD []) st' sp' seen'.
Proof.
  induction lin as [|a lin IH]; intros st sp seen st' HR Hwf He Hm H; cbn [seq_ok map] in *.
  - inversion H; subst. exists sp, seen. split; [reflexivity | exact HR].
  - unfold vol_acc, vol_nxt in H. destruct (out_eqb (snd (step st (o_op a))) (o_out a)) eqn:E; [|discriminate].
    apply out_eqb_eq in E.
    destruct (history_split (o_op a) (map o_op lin) seen Hwf He Hm) as (Hw & Hs & Hwf' & He' & Hm').
    destruct (clean_step_RC st sp seen (o_op a) HR Hw Hs) as [HR' HM].
    unfold reg_acc. rewrite <- E, HM. exact (IH _ _ _ _ HR' Hwf' He' Hm' H).
Qed.

Lemma seq_ok_weaken : forall (lin : hist) sp sp',
  seq_ok reg_nxt reg_acc sp lin = Some sp' -> seq_ok reg_nxt reg_acc0 sp lin = Some sp'.
Proof.
  induction lin as [|a lin IH]; intros sp sp' H; cbn [seq_ok] in *; [exact H|].
  destruct (reg_acc sp (o_op a) (o_out a)) eqn:E; [|discriminate].
  unfold reg_acc0. rewrite (xmatch_match_out _ _ _ E). apply IH. exact H.
Qed.

(* linearizable w.r.t. the every-field specification => linearizable w.r.t. the one that fixes the
   error classes only (reg_acc0) *)
Theorem reg_lin_weaken : forall sp0 (fin : spec -> Prop) (h : hist),
  linearizable reg_nxt reg_acc sp0 fin h -> linearizable reg_nxt reg_acc0 sp0 fin h.
Proof.
  intros sp0 fin h (lin & st' & P & RT & SQ & F). exists lin, st'. repeat split; auto. apply seq_ok_weaken. exact SQ.
Qed.

(* a history that is linearizable w.r.t. the sequential volume model is linearizable w.r.t. the
   register specification, by the SAME order, and the final volume agrees with the final
   register state -- inside the hypotheses of C01's refinement theorem *)
Theorem vol_lin_to_reg : forall a b (h : hist) V,
  conc_ok (map o_op h) = true ->
  linearizable vol_nxt vol_acc (init_flags a b) (fun st => st = V) h ->
  linearizable reg_nxt reg_acc (spec_flags a b) (agrees V) h.
Proof.
  intros a b h V Hc (lin & st' & P & RT & SQ & ->).
  destruct (conc_ok_perm _ _ (Permutation_map o_op (Permutation_sym P)) Hc) as (Hwf & He & Hm).
  destruct (seq_vol_to_reg lin _ _ [] _ (RC_init_flags _ a b) Hwf He Hm SQ) as (sp' & seen' & SQ' & HR).
  exists lin, sp'. repeat split; auto.
  intros id c t. eapply read_agrees; [exact HR | reflexivity].
Qed.

(* the same, with no hypothesis beyond representable needles, w.r.t. the per-key specification: the
   answers of the calls on every key that no finding of C01 touches (in that order) are the
   specification's, and so are the reads of those keys afterwards *)
Theorem vol_lin_to_pk : forall a b (h : hist) V,
  wf_history (map o_op h) = true ->
  linearizable vol_nxt vol_acc (init_flags a b) (fun st => st = V) h ->
  linearizable pk_nxt pk_acc (pk_init (spec_flags a b)) (agrees_pk V) h.
Proof.
  intros a b h V Hwf (lin & st' & P & RT & SQ & ->).
  assert (Hwf' : wf_history (map o_op lin) = true).
  { unfold wf_history in *. rewrite (forallb_perm _ _ _ _ (Permutation_map o_op P)). exact Hwf. }
  destruct (seq_vol_to_pk lin _ (pk_init (spec_flags a b)) _ (RC_init_flags _ a b) Hwf' SQ) as (s' & SQ' & HR).
  exists lin, s'. repeat split; auto.
  intros id c t Hd. eapply read_agrees; [exact HR | exact Hd].
Qed.

(* C38, with respect to the register specification *)
Theorem machine_linearizable_reg : forall a b stop sched m,
  mrun (minit (init_flags a b) stop) sched = Some m -> complete m = true ->
  conc_ok (map o_op (history m)) = true ->
  linearizable reg_nxt reg_acc (spec_flags a b) (agrees (m_vol m)) (history m).
Proof.
  intros a b stop sched m Hrun Hc Hok. apply vol_lin_to_reg; [exact Hok|].
  eapply machine_linearizable; eauto.
Qed.

Theorem machine_linearizable_pk : forall a b stop sched m,
  mrun (minit (init_flags a b) stop) sched = Some m -> complete m = true ->
  wf_history (map o_op (history m)) = true ->
  linearizable pk_nxt pk_acc (pk_init (spec_flags a b)) (agrees_pk (m_vol m)) (history m).
Proof.
  intros a b stop sched m Hrun Hc Hok. apply vol_lin_to_pk; [exact Hok|].
  eapply machine_linearizable; eauto.
Qed.

Theorem lin_check_vol_sound : forall a b f (h : hist),
  lin_check_vol a b f h = true ->
  linearizable vol_nxt vol_acc (init_flags a b) (fun st => vol_final f st = true) h.
Proof. intros a b f h. apply lin_check_sound. auto. Qed.

Theorem lin_check_vol_complete : forall a b f (h : hist),
  linearizable vol_nxt vol_acc (init_flags a b) (fun st => vol_final f st = true) h ->
  lin_check_vol a b f h = true.
Proof. intros a b f h. apply lin_check_complete. auto. Qed.

Theorem lin_check_reg_sound : forall a b fr (h : hist),
  lin_check_reg a b fr h = true ->
  linearizable reg_nxt reg_acc (spec_flags a b) (fun sp => agrees_on fr sp = true) h.
Proof. intros a b fr h. apply lin_check_sound. auto. Qed.

Theorem lin_check_reg_complete : forall a b fr (h : hist),
  linearizable reg_nxt reg_acc (spec_flags a b) (fun sp => agrees_on fr sp = true) h ->
  lin_check_reg a b fr h = true.
Proof. intros a b fr h. apply lin_check_complete. auto. Qed.

Theorem lin_check_pk_sound : forall a b fr (h : hist),
  lin_check_pk a b fr h = true ->
  linearizable pk_nxt pk_acc (pk_init (spec_flags a b)) (fun s => agrees_on_pk fr s = true) h.
Proof. intros a b fr h. apply lin_check_sound. auto. Qed.

Theorem lin_check_pk_complete : forall a b fr (h : hist),
  linearizable pk_nxt pk_acc (pk_init (spec_flags a b)) (fun s => agrees_on_pk fr s = true) h ->
  lin_check_pk a b fr h = true.
Proof. intros a b fr h. apply lin_check_complete. auto. Qed.

(* the per-key checker accepts whatever the all-keys checker accepts *)
Lemma pk_acc_of_reg : forall s ev o, reg_acc (pk_sp s) ev o = true -> pk_acc s ev o = true.
Proof. intros s ev o H. unfold pk_acc. destruct (dirt_of_keys _ _); [reflexivity | exact H]. Qed.

(* what the machine can produce is accepted by the checkers: the history, and the observables of
   the final volume (.dat size, the record sequence, needle-map entries, reads at clock 0) *)
Definition read_after (st : vol) (x : N * N) : N * N * out :=
  (fst x, snd x, snd (step st (0, RawRead (fst x) (snd x) false))).
Definition obs_of (st : vol) (fn : list (N * option (N * Z))) (keys : list (N * N)) : fin_obs :=
  {| fo_dat := dat_end st; fo_recs := map rsig_of (rev (recs st)); fo_nm := fn; fo_reads := map (read_after st) keys |}.

Lemma rsig_eqb_refl : forall x, rsig_eqb x x = true.
Proof. intros [[[x1 x2] x3] x4]. unfold rsig_eqb. rewrite !N.eqb_refl. reflexivity. Qed.

Lemma all2_refl : forall (A : Type) (f : A -> A -> bool) l, (forall x, f x x = true) -> all2 f l l = true.
Proof. intros A f l H. induction l as [|x l IH]; [reflexivity|]. cbn [all2]. rewrite H, IH. reflexivity. Qed.

Lemma forallb_read_after : forall (P : N * N * out -> bool) st keys,
  (forall id c, P (id, c, snd (step st (0, RawRead id c false))) = true) ->
  forallb P (map (read_after st) keys) = true.
Proof.
  intros P st keys H. apply forallb_forall. intros x Hx. apply in_map_iff in Hx.
  destruct Hx as [[id c] [<- _]]. apply H.
Qed.

Lemma vol_final_obs : forall st fn keys,
  forallb (nm_entry_eqb st) fn = true -> vol_final (obs_of st fn keys) st = true.
Proof.
  intros st fn keys H. unfold vol_final, obs_of. cbn [fo_dat fo_recs fo_nm fo_reads].
  rewrite N.eqb_refl, (all2_refl _ _ _ rsig_eqb_refl), H. cbn [andb].
  apply forallb_read_after. intros id c. apply out_eqb_refl.
Qed.

Theorem machine_admitted : forall a b stop sched m keys fn,
  mrun (minit (init_flags a b) stop) sched = Some m -> complete m = true ->
  forallb (nm_entry_eqb (m_vol m)) fn = true ->
  lin_check_vol a b (obs_of (m_vol m) fn keys) (history m) = true /\
  (conc_ok (map o_op (history m)) = true ->
   lin_check_reg a b (map (read_after (m_vol m)) keys) (history m) = true) /\
  (wf_history (map o_op (history m)) = true ->
   lin_check_pk a b (map (read_after (m_vol m)) keys) (history m) = true).
Proof.
  intros a b stop sched m keys fn Hrun Hc Hfn. split; [|split].
  - apply lin_check_vol_complete. eapply linearizable_weaken; [|eapply machine_linearizable; eauto].
    cbv beta. intros s ->. apply vol_final_obs. exact Hfn.
  - intro Hok. apply lin_check_reg_complete.
    eapply linearizable_weaken; [|exact (machine_linearizable_reg a b stop sched m Hrun Hc Hok)].
    cbv beta. intros sp Hag. apply forallb_read_after. intros id c. apply Hag.
  - intro Hok. apply lin_check_pk_complete.
    eapply linearizable_weaken; [|exact (machine_linearizable_pk a b stop sched m Hrun Hc Hok)].
    cbv beta. intros s Hag. apply forallb_read_after. intros id c.
    destruct (dirt_get (pk_dirt s) id) eqn:Hd; [reflexivity|]. apply Hag. exact Hd.
Qed.

Definition final_of (a b stop : bool) (sched : list label) : mstate :=
  match mrun (minit (init_flags a b) stop) sched with Some m => m | None => minit (init_flags a b) stop end.

(* without the non-empty-payload hypothesis (C01 finding 0) the register statement fails: a
   sequential schedule, a write of zero bytes with cookie 5, then a read with cookie 6 *)
Definition sched_empty : list label :=
  [LInv 0 (CWrite (tombstone 1 5) false); LEnter 0 0; LApply 0 0; LRes 0;
   LInv 1 (CRead 1 6 false); LEnter 1 0; LApply 1 0; LRes 1].

Lemma register_refuted :
  exists stop sched m,
    mrun (minit (init_flags false false) stop) sched = Some m /\ complete m = true /\
    wf_history (map o_op (history m)) = true /\ pairwise_nc (needles_of (map o_op (history m))) = true /\
    ~ linearizable reg_nxt reg_acc0 (spec_flags false false) (fun _ => True) (history m) /\
    ~ linearizable reg_nxt reg_acc (spec_flags false false) (fun _ => True) (history m) /\
    conc_finding (map o_op (history m)) = Some 0.
Proof.
  exists false, sched_empty, (final_of false false false sched_empty).
  split; [vm_compute; reflexivity|]. split; [vm_compute; reflexivity|].
  split; [vm_compute; reflexivity|]. split; [vm_compute; reflexivity|].
  assert (N0 : ~ linearizable reg_nxt reg_acc0 (spec_flags false false) (fun _ => True)
                 (history (final_of false false false sched_empty))).
  { intro H. apply (lin_check_complete reg_nxt reg_acc0 (spec_flags false false) (fun _ => True) (fun _ => true)) in H; [|auto].
    vm_compute in H. discriminate. }
  split; [exact N0|]. split; [|vm_compute; reflexivity].
  intro H. apply N0. apply reg_lin_weaken. exact H.
Qed.

Definition ex_needle (id cookie b : N) : needle :=
  {| n_id := id; n_cookie := cookie; n_data := [b]; n_flags := 0; n_name := []; n_mime := []; n_pairs := [];
     n_lastmod := 0; n_ttl := (0, 0) |}.

(* hand-made histories: what a correct call would have answered *)
Definition hW (id inv res : N) (n : needle) : orec event out :=
  mk_orec id inv res (0, Write n) (OWrite ENone false (needle_size n)).
Definition hR (id inv res : N) (n : needle) (c : N) : orec event out :=
  mk_orec id inv res (0, RawRead (n_id n) c false) (ORead ENone (Z.of_N (blen (n_data n))) (exp_view n)).
Definition hD (id inv res key c : N) (z : Z) : orec event out :=
  mk_orec id inv res (0, RawDelete key c) (ODelete ENone z).

(* the checkers reject: (a) a read that returns the first of two completed writes: rejected
   when it starts after the second write has returned, accepted when it overlaps it *)
Definition h_stale (r_inv : N) : hist :=
  [hW 0 0 1 (ex_needle 1 5 65); hW 1 3 5 (ex_needle 1 5 66); hR 2 r_inv 9 (ex_needle 1 5 65) 5].

Lemma stale_read_rejected :
  lin_check_reg false false [] (h_stale 6) = false /\
  lin_check vol_nxt vol_acc init (fun _ => true) (h_stale 6) = false /\
  lin_check_reg false false [] (h_stale 4) = true /\
  lin_check vol_nxt vol_acc init (fun _ => true) (h_stale 4) = true.
Proof. vm_compute. repeat split; reflexivity. Qed.

(* (b) two overlapping deletes of one live needle that BOTH return its size (what the seeded change
   C38-a -- syncDelete under RLock -- produces): rejected by both checkers, not linearizable;
   the acceptance by error classes only (reg_acc0) lets it pass *)
Definition h_double_delete (z2 : Z) : hist :=
  [hW 0 0 1 (ex_needle 1 5 65); hD 1 2 5 1 5 6%Z; hD 2 3 6 1 5 z2].

Lemma double_delete_rejected :
  lin_check_reg false false [] (h_double_delete 6%Z) = false /\
  lin_check vol_nxt vol_acc init (fun _ => true) (h_double_delete 6%Z) = false /\
  lin_check reg_nxt reg_acc0 spec_init (fun _ => true) (h_double_delete 6%Z) = true /\
  lin_check_reg false false [] (h_double_delete 0%Z) = true /\
  lin_check vol_nxt vol_acc init (fun _ => true) (h_double_delete 0%Z) = true.
Proof. vm_compute. repeat split; reflexivity. Qed.

Lemma double_delete_not_linearizable :
  ~ linearizable reg_nxt reg_acc spec_init (fun _ => True) (h_double_delete 6%Z).
Proof.
  intro H. apply (lin_check_complete reg_nxt reg_acc spec_init (fun _ => True) (fun _ => true)) in H; [|auto].
  vm_compute in H. discriminate.
Qed.

(* (c) per key: an empty-payload write on key 1 (finding 0) excuses the wrong-cookie read of key 1,
   but not a stale read of key 2 in the same history *)
Definition h_two_keys (stale : bool) : hist :=
  [mk_orec 0 0 1 (0, Write (tombstone 1 5)) (OWrite ENone false 0);
   mk_orec 1 2 3 (0, RawRead 1 6 false) (ORead ENone 0%Z (blank_view 6));
   hW 2 4 5 (ex_needle 2 7 65); hW 3 6 7 (ex_needle 2 7 66);
   hR 4 8 9 (ex_needle 2 7 (if stale then 65 else 66)) 7].

Lemma per_key_not_excused :
  lin_check_reg false false [] (h_two_keys false) = false /\
  lin_check_pk false false [] (h_two_keys false) = true /\
  lin_check_pk false false [] (h_two_keys true) = false /\
  conc_finding (map o_op (h_two_keys true)) = Some 0.
Proof. vm_compute. repeat split; reflexivity. Qed.

(* non-vacuity: both write paths, a batch of two whose order in the channel is not the order
   of the invocations, a read overlapping the batch, a delete, a second key *)
Definition sched_example : list label :=
  [LInv 0 (CWrite (ex_needle 1 5 65) true); LInv 1 (CWrite (ex_needle 1 5 66) true); LInv 2 (CRead 1 5 false);
   LEnter 0 0; LEnter 1 0; LSend 1; LSend 0; LRecv; LDecide; LRecv; LDecide; LEnter 2 0; LLock;
   LWApply 0; LInv 4 (CWrite (ex_needle 2 7 67) true); LWApply 0; LSync; LSubmit; LRes 1; LSubmit; LUnlock;
   LApply 2 0; LRes 0; LRes 2; LInv 3 (CDelete 1 5); LEnter 3 0; LApply 3 0; LRes 3;
   LStop; LEnter 4 0; LSend 4; LRecv; LDecide; LLock; LWApply 0; LSync; LSubmit; LUnlock; LRes 4;
   LInv 5 (CRead 1 5 false); LInv 6 (CRead 2 7 false); LEnter 6 0; LEnter 5 0; LApply 6 0; LApply 5 0; LRes 5; LRes 6].

Lemma example_ok :
  let m := final_of false false true sched_example in
  mrun (minit (init_flags false false) true) sched_example = Some m /\ complete m = true /\
  conc_ok (map o_op (history m)) = true /\
  map (fun a => (o_id a, o_inv a, o_res a)) (history m) =
    [(5, 39, 45); (6, 40, 46); (4, 14, 38); (3, 24, 27); (2, 2, 23); (0, 0, 22); (1, 1, 18)] /\
  map (fun a => match o_out a with ORead e _ v => Some (err_eqb e ENone, v_data v) | _ => None end) (history m) =
    [Some (false, []); Some (true, [67]); None; None; Some (true, [65]); None; None] /\
  map (fun a => match o_out a with ODelete _ z => Some z | _ => None end) (history m) =
    [None; None; None; Some 6%Z; None; None; None] /\
  lin_check_reg false false (map (read_after (m_vol m)) [(1, 5); (2, 7)]) (history m) = true /\
  lin_check_pk false false (map (read_after (m_vol m)) [(1, 5); (2, 7)]) (history m) = true /\
  lin_check_vol false false (obs_of (m_vol m) [(1, Some (48, (-6)%Z)); (2, Some (120, 6%Z)); (3, None)] [(1, 5); (2, 7)]) (history m) = true.
Proof. vm_compute. repeat split; reflexivity. Qed.

(* a volume loaded read-only (noWriteOrDelete): the write and the delete are refused before any
   lock (LEnter), the read finds nothing; overlapping calls *)
Definition sched_ro : list label :=
  [LInv 0 (CWrite (ex_needle 1 5 65) true); LInv 1 (CDelete 1 5); LInv 2 (CRead 1 5 false);
   LEnter 1 0; LEnter 0 0; LEnter 2 0; LApply 2 0; LRes 0; LRes 2; LRes 1].

Lemma example_ro_ok :
  let m := final_of true false true sched_ro in
  mrun (minit (init_flags true false) true) sched_ro = Some m /\ complete m = true /\
  map o_out (history m) =
    [ORead ENotFound (-1)%Z (blank_view 5); OWrite EReadOnly false 0; ODelete EReadOnly 0%Z] /\
  lin_check_reg true false (map (read_after (m_vol m)) [(1, 5)]) (history m) = true /\
  lin_check_vol true false (obs_of (m_vol m) [(1, None)] [(1, 5)]) (history m) = true /\
  lin_check_vol false false (obs_of (m_vol m) [(1, None)] [(1, 5)]) (history m) = false.
Proof. vm_compute. repeat split; reflexivity. Qed.
