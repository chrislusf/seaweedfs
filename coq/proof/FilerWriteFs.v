(* Proofs about handle_write_fs (model/FilerWrite.v): path redirection onto a
   directory, Filer.CreateEntry refusals, and what happens to the uploaded
   chunks of a request that is not committed. *)
From Coq Require Import List NArith ZArith Bool Lia.
From SW Require Import model.FilerWrite proof.FilerWriteProofs.
Import ListNotations.

(* the slot the request resolves to / the other slot: chosen in [st] (where [redirected] is
   evaluated), read in [st'] *)
Definition slot_after (fr : fsreq) (st st' : fsstate) : node :=
  if redirected fr st then fs_b st' else fs_a st'.
Definition other_after (fr : fsreq) (st st' : fsstate) : node :=
  if redirected fr st then fs_a st' else fs_b st'.

Lemma slot_same : forall fr st, slot_after fr st st = target fr st.
Proof. reflexivity. Qed.

Lemma slot_set : forall fr st n, slot_after fr st (set_target fr st n) = n.
Proof. intros. unfold slot_after, set_target. destruct (redirected fr st); reflexivity. Qed.

Lemma other_set : forall fr st n, other_after fr st (set_target fr st n) = other_after fr st st.
Proof. intros. unfold other_after, set_target. destruct (redirected fr st); reflexivity. Qed.

Lemma upload_of_loop : forall rq, upload_of rq = finish (loop_of rq).
Proof. reflexivity. Qed.

Lemma ok_chunks_all : forall rq, ur_failed (upload_of rq) = false ->
  ur_chunks (upload_of rq) = ur_chunks (loop_of rq).
Proof.
  intros rq H. rewrite upload_of_loop in *. rewrite finish_failed in H.
  unfold finish. rewrite H. reflexivity.
Qed.

Section WithMd5.
Variable md5 : list N -> N.

(* handle_write_fs is handle_write on the resolved slot whenever neither
   saveMetaData (append onto a directory) nor CreateEntry refuses *)
Theorem fs_refines : forall fr st,
  let rq := fr_rq fr in
  let pre := node_entry (target fr st) in
  append_onto_dir fr st = false ->
  (existing rq pre = None -> create_fails fr st = false) ->
  let r := handle_write_fs md5 fr st in
  fo_status r = fst (handle_write md5 rq pre) /\
  node_entry (slot_after fr st (fo_state r)) = snd (handle_write md5 rq pre) /\
  other_after fr st (fo_state r) = other_after fr st st.
Proof.
  intros fr st rq pre Hnd Hok r. subst r. unfold handle_write_fs, handle_write. fold rq.
  unfold existing in Hok. unfold append_onto_dir in Hnd. fold rq in Hnd.
  destruct (rq_method rq); cbn [fo_status fo_state fst snd]; try (rewrite slot_same; auto);
  (destruct (ur_failed (upload_of rq)); cbn [fo_status fo_state fst snd]; [rewrite slot_same; auto|];
   unfold save_metadata; fold pre;
   destruct (if rq_append rq then pre else None) as [e|] eqn:Hex;
   [ assert (Hd : is_dir (target fr st) = false)
       by (destruct (rq_append rq); [exact Hnd | discriminate Hex]);
     rewrite Hd;
     destruct (negb (is_nil (e_content e))); cbn [fo_status fo_state fst snd];
     [rewrite slot_same; auto| rewrite slot_set, other_set; auto]
   | rewrite (Hok eq_refl); cbn [fo_status fo_state fst snd]; rewrite slot_set, other_set; auto ]).
Qed.

(* a request either fails and leaves the state alone, or is answered 201 and puts a
   regular file into the resolved slot, which did not hold a directory *)
Lemma fs_outcomes : forall fr st,
  let r := handle_write_fs md5 fr st in
  (fo_status r = Failed /\ fo_state r = st) \/
  (fo_status r = Created /\ is_dir (target fr st) = false /\
   exists e, fo_state r = set_target fr st (NFile e)).
Proof.
  intros fr st. unfold handle_write_fs.
  destruct (rq_method (fr_rq fr)); cbn [fo_status fo_state]; auto;
  (destruct (ur_failed (upload_of (fr_rq fr))); cbn [fo_status fo_state]; auto;
   destruct (if rq_append (fr_rq fr) then node_entry (target fr st) else None) as [e|];
   [ destruct (is_dir (target fr st)); cbn [fo_status fo_state]; auto;
     destruct (negb (is_nil (e_content e))); cbn [fo_status fo_state]; eauto
   | destruct (create_fails fr st) eqn:Hcf; cbn [fo_status fo_state]; auto;
     right; split; [reflexivity|]; split; [|eauto];
     unfold create_fails in Hcf; destruct (target fr st); [reflexivity | reflexivity | discriminate] ]).
Qed.

Theorem fs_nonsuccess_no_commit : forall fr st,
  fo_status (handle_write_fs md5 fr st) <> Created ->
  fo_status (handle_write_fs md5 fr st) = Failed /\ fo_state (handle_write_fs md5 fr st) = st.
Proof.
  intros fr st H. destruct (fs_outcomes fr st) as [F|[C _]]; [exact F | contradiction].
Qed.

(* a PUT/POST that CreateEntry accepts stores exactly the body under the resolved
   path, leaves the other path alone, leaks nothing and hands exactly the
   replaced file's chunks to DeleteChunks *)
Theorem fs_stored_equals_body : forall fr st,
  let rq := fr_rq fr in
  rq_method rq <> PostRaw -> (1 <= rq_cs rq)%Z -> rq_end rq = Eof -> no_upfail (rq_upfail rq) ->
  existing rq (node_entry (target fr st)) = None -> create_fails fr st = false ->
  let r := handle_write_fs md5 fr st in
  exists e, fo_status r = Created /\
            slot_after fr st (fo_state r) = NFile e /\
            read_entry e = rq_body rq /\
            e_size e = N.of_nat (length (rq_body rq)) /\
            e_md5 e = Some (md5 (rq_body rq)) /\
            other_after fr st (fo_state r) = other_after fr st st /\
            fo_deleted r = [] /\ fo_leaked r = [] /\
            fo_replaced r = match target fr st with NFile e0 => e_chunks e0 | _ => [] end.
Proof.
  intros fr st rq Hm Hcs Hend Hup Hex Hcf r.
  destruct (stored_equals_body md5 rq (node_entry (target fr st)) Hm Hcs Hend Hup Hex)
    as (e & Hw & Hr & Hs & Hmd).
  subst r. unfold handle_write_fs. fold rq.
  rewrite (handle_write_core md5 _ _ Hm) in Hw. unfold write_core in Hw. rename Hw into Hcore.
  unfold existing in Hex.
  destruct (ur_failed (upload_of rq)); [discriminate|].
  rewrite (save_new md5 _ _ _ _ Hex) in Hcore.
  inversion Hcore as [He]. clear Hcore.
  rewrite Hex, Hcf.
  exists e. rewrite <- He.
  destruct (rq_method rq); try congruence; cbn [fo_status fo_state fo_deleted fo_leaked fo_replaced];
    rewrite slot_set, other_set; rewrite He; repeat split; auto.
Qed.

(* CreateEntry refuses (a regular file above the path, or a directory at the
   path): reported as failed, nothing committed, and exactly the uploaded chunks
   are handed to DeleteChunks *)
Theorem fs_create_failure : forall fr st,
  let rq := fr_rq fr in
  rq_method rq <> PostRaw -> ur_failed (upload_of rq) = false ->
  existing rq (node_entry (target fr st)) = None -> create_fails fr st = true ->
  let r := handle_write_fs md5 fr st in
  fo_status r = Failed /\ fo_state r = st /\
  fo_deleted r = ur_chunks (loop_of rq) /\ fo_leaked r = [] /\ fo_replaced r = [].
Proof.
  intros fr st rq Hm Hok Hex Hcf r. subst r. unfold handle_write_fs. fold rq.
  unfold existing in Hex. rewrite Hok, Hex, Hcf, (ok_chunks_all rq Hok).
  destruct (rq_method rq); try congruence; repeat split; reflexivity.
Qed.

(* an upload or body-read failure: reported, nothing committed, nothing handed to
   DeleteChunks - every chunk uploaded before stays behind unreferenced *)
Theorem fs_upload_failure_leaks : forall fr st,
  let rq := fr_rq fr in
  rq_method rq <> PostRaw -> ur_failed (upload_of rq) = true ->
  let r := handle_write_fs md5 fr st in
  fo_status r = Failed /\ fo_state r = st /\
  fo_deleted r = [] /\ fo_leaked r = ur_chunks (loop_of rq).
Proof.
  intros fr st rq Hm Hf r. subst r. unfold handle_write_fs. fold rq. rewrite Hf.
  destruct (rq_method rq); try congruence; repeat split; reflexivity.
Qed.

(* append to an existing chunked FILE under the resolved path *)
Theorem fs_append_at_end : forall fr st e0,
  let rq := fr_rq fr in
  rq_method rq <> PostRaw -> (1 <= rq_cs rq)%Z -> rq_end rq = Eof -> no_upfail (rq_upfail rq) ->
  rq_append rq = true -> target fr st = NFile e0 -> e_content e0 = [] -> wf_entry e0 ->
  let r := handle_write_fs md5 fr st in
  exists e1, fo_status r = Created /\
             slot_after fr st (fo_state r) = NFile e1 /\
             read_entry e1 = read_entry e0 ++ rq_body rq /\
             file_end e1 = (file_end e0 + N.of_nat (length (rq_body rq)))%N /\
             e_size e1 = file_end e1 /\
             other_after fr st (fo_state r) = other_after fr st st /\
             fo_deleted r = [] /\ fo_leaked r = [] /\ fo_replaced r = [].
Proof.
  intros fr st e0 rq Hm Hcs Hend Hup Happ Ht Hc Hwf r.
  destruct (append_at_end md5 rq e0 Hm Hcs Hend Hup Happ Hc Hwf) as (e1 & Hw & Hr & Hfe & Hs).
  subst r. unfold handle_write_fs. fold rq.
  rewrite (handle_write_core md5 _ _ Hm) in Hw. unfold write_core in Hw. rename Hw into Hcore.
  destruct (ur_failed (upload_of rq)); [discriminate|].
  unfold save_metadata in Hcore. rewrite Happ in Hcore. cbn iota in Hcore.
  rewrite Happ, Ht. cbn [node_entry is_dir].
  rewrite Hc in *. cbn [is_nil negb] in *.
  inversion Hcore as [He]. clear Hcore.
  exists e1. rewrite <- He.
  destruct (rq_method rq); try congruence; cbn [fo_status fo_state fo_deleted fo_leaked fo_replaced];
    rewrite slot_set, other_set; rewrite He; repeat split; auto.
Qed.

(* append onto an entry with inline content: refused, nothing committed; if it is a file
   nothing is handed to DeleteChunks (a directory: fs_append_dir_refused) *)
Theorem fs_append_inline_refused : forall fr st e0,
  let rq := fr_rq fr in
  rq_append rq = true -> node_entry (target fr st) = Some e0 -> e_content e0 <> [] ->
  let r := handle_write_fs md5 fr st in
  fo_status r = Failed /\ fo_state r = st /\
  (is_dir (target fr st) = false -> fo_deleted r = []).
Proof.
  intros fr st e0 rq Happ Ht Hc r. subst r. unfold handle_write_fs. fold rq.
  rewrite Happ, Ht.
  assert (Hn : negb (is_nil (e_content e0)) = true) by (destruct (e_content e0); [congruence|reflexivity]).
  rewrite Hn.
  destruct (rq_method rq); cbn [fo_status fo_state fo_deleted]; auto;
    destruct (ur_failed (upload_of rq)); cbn [fo_status fo_state fo_deleted]; auto;
    destruct (is_dir (target fr st)); cbn [fo_status fo_state fo_deleted]; auto;
    repeat split; auto; discriminate.
Qed.

(* every 201 leaves a regular FILE under the resolved path *)
Theorem created_is_file : forall fr st,
  fo_status (handle_write_fs md5 fr st) = Created ->
  exists e, slot_after fr st (fo_state (handle_write_fs md5 fr st)) = NFile e.
Proof.
  intros fr st H. destruct (fs_outcomes fr st) as [[F _]|(_ & _ & e & E)]; [congruence|].
  exists e. rewrite E. apply slot_set.
Qed.

(* no request, whatever its answer, changes a DIRECTORY entry under either path *)
Theorem fs_dir_untouched : forall fr st,
  let st' := fo_state (handle_write_fs md5 fr st) in
  (is_dir (fs_a st) = true -> fs_a st' = fs_a st) /\
  (is_dir (fs_b st) = true -> fs_b st' = fs_b st).
Proof.
  intros fr st. cbv zeta.
  destruct (fs_outcomes fr st) as [[_ ->]|(_ & Hd & e & ->)]; [auto|].
  unfold target, set_target in *.
  destruct (redirected fr st); cbn [fs_a fs_b]; split; intro H; try reflexivity; congruence.
Qed.

(* ?op=append whose resolved path holds a directory (and a body that uploads):
   reported as failed, nothing committed, exactly the uploaded chunks are handed
   to DeleteChunks, none is left behind *)
Theorem fs_append_dir_refused : forall fr st,
  let rq := fr_rq fr in
  rq_method rq <> PostRaw -> ur_failed (upload_of rq) = false ->
  append_onto_dir fr st = true ->
  let r := handle_write_fs md5 fr st in
  fo_status r = Failed /\ fo_state r = st /\
  fo_deleted r = ur_chunks (loop_of rq) /\ fo_leaked r = [] /\ fo_replaced r = [].
Proof.
  intros fr st rq Hm Hok Hap r. subst r. unfold append_onto_dir in Hap. fold rq in Hap.
  apply andb_prop in Hap. destruct Hap as [Happ Hd].
  unfold handle_write_fs. fold rq.
  rewrite Hok, Happ, Hd, (ok_chunks_all rq Hok).
  destruct (target fr st) as [|e|e]; try discriminate Hd. cbn [node_entry].
  destruct (rq_method rq); try congruence; repeat split; reflexivity.
Qed.

End WithMd5.

Definition mk_fr rq slash hasname pf : fsreq :=
  {| fr_rq := rq; fr_slash := slash; fr_hasname := hasname; fr_parent_file := pf |}.

Definition empty_dir : entry := {| e_size := 0; e_content := []; e_chunks := []; e_md5 := None |}.

(* PUT /d onto a directory /d: the body lands under /d/d, /d stays a directory *)
Lemma example_redirect :
  let fr := mk_fr (mk_rq Put false false 2 0 [1;2;3]%N Eof []) false true false in
  let st := {| fs_a := NDir empty_dir; fs_b := NMissing |} in
  create_fails fr st = false /\
  handle_write_fs (fun _ => 0%N) fr st =
    {| fo_status := Created;
       fo_state := {| fs_a := NDir empty_dir;
                      fs_b := NFile {| e_size := 3; e_content := [];
                                       e_chunks := [Ck 0 2 [1;2]; Ck 2 1 [3]]%N; e_md5 := Some 0%N |} |};
       fo_deleted := []; fo_leaked := []; fo_replaced := [] |}.
Proof. vm_compute. split; reflexivity. Qed.

(* PUT below a regular file: refused, nothing committed, both uploaded chunks deleted *)
Lemma example_parent_file :
  let fr := mk_fr (mk_rq Put false false 2 0 [1;2;3]%N Eof []) false true true in
  let st := {| fs_a := NMissing; fs_b := NMissing |} in
  create_fails fr st = true /\ ur_failed (upload_of (fr_rq fr)) = false /\
  handle_write_fs (fun _ => 0%N) fr st =
    {| fo_status := Failed; fo_state := st;
       fo_deleted := [Ck 0 2 [1;2]; Ck 2 1 [3]]%N; fo_leaked := []; fo_replaced := [] |}.
Proof. vm_compute. repeat split; reflexivity. Qed.

(* the second of two uploads fails: the first chunk stays behind, unreferenced *)
Lemma example_leak :
  let fr := mk_fr (mk_rq Put false false 2 0 [1;2;3]%N Eof [false;true]) false true false in
  let st := {| fs_a := NMissing; fs_b := NMissing |} in
  ur_failed (upload_of (fr_rq fr)) = true /\
  handle_write_fs (fun _ => 0%N) fr st =
    {| fo_status := Failed; fo_state := st;
       fo_deleted := []; fo_leaked := [Ck 0 2 [1;2]%N]; fo_replaced := [] |}.
Proof. vm_compute. split; reflexivity. Qed.

(* multipart POST without a file name, ?op=append, onto a directory (finding
   c25-append-onto-directory): failed, the directory is untouched, both uploaded chunks deleted *)
Lemma example_append_dir_refused :
  let fr := mk_fr (mk_rq PostForm true false 2 0 [1;2;3]%N Eof []) false false false in
  let st := {| fs_a := NDir empty_dir; fs_b := NMissing |} in
  rq_method (fr_rq fr) <> PostRaw /\ ur_failed (upload_of (fr_rq fr)) = false /\
  append_onto_dir fr st = true /\
  handle_write_fs (fun _ => 0%N) fr st =
    {| fo_status := Failed; fo_state := st;
       fo_deleted := [Ck 0 2 [1;2]; Ck 2 1 [3]]%N; fo_leaked := []; fo_replaced := [] |}.
Proof. vm_compute. repeat split; try reflexivity; discriminate. Qed.

(* an append onto a FILE reached through a directory redirect is accepted *)
Lemma example_append_redirected :
  let fr := mk_fr (mk_rq Put true false 2 0 [9]%N Eof []) false true false in
  let st := {| fs_a := NDir empty_dir;
               fs_b := NFile {| e_size := 0; e_content := []; e_chunks := [Ck 0 3 [1;2;3]%N]; e_md5 := None |} |} in
  append_onto_dir fr st = false /\
  handle_write_fs (fun _ => 0%N) fr st =
    {| fo_status := Created;
       fo_state := {| fs_a := NDir empty_dir;
                      fs_b := NFile {| e_size := 4; e_content := [];
                                       e_chunks := [Ck 0 3 [1;2;3]; Ck 3 1 [9]]%N; e_md5 := None |} |};
       fo_deleted := []; fo_leaked := []; fo_replaced := [] |}.
Proof. vm_compute. split; reflexivity. Qed.
