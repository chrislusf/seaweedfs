(* C27, exact pages: on a tree whose directories all yield something (no ".uploads",
   no all-empty folder) a listing without "/" in the marker returns exactly the first
   max-keys items of the reference listing, says "truncated" exactly when more remain,
   and its next marker is the position of the last item it returned. *)
From Coq Require Import List NArith ZArith Bool String Ascii Arith Lia.
From SW Require Import proof.ListFacts model.S3List proof.S3ListProofs proof.S3ListSound.
Import ListNotations.
Local Open Scope string_scope.
Local Open Scope list_scope.
Local Notation length := List.length.

(* the position of an item relative to the directory D it was listed from *)
Definition rel_marker (D : list string) (it : item) : string :=
  join_slash (skipn (length D) (item_path it)).

Definition last_marker (D : list string) (dflt : string) (X : list item) : string :=
  match rev X with [] => dflt | it :: _ => rel_marker D it end.

Lemma last_marker_app : forall D d A B, last_marker D d (A ++ B) = last_marker D (last_marker D d A) B.
Proof.
  intros D d A B. unfold last_marker. rewrite rev_app_distr.
  destruct (rev B) as [|b rb]; simpl; reflexivity.
Qed.

Lemma last_marker_dflt : forall D d d' X, X <> [] -> last_marker D d X = last_marker D d' X.
Proof.
  intros D d d' X H. unfold last_marker. destruct (rev X) as [|it rx] eqn:E; [|reflexivity].
  apply (f_equal (@rev item)) in E. rewrite rev_involutive in E. contradiction.
Qed.

Lemma last_marker_last : forall D d A x, last_marker D d (A ++ [x]) = rel_marker D x.
Proof. intros. unfold last_marker. rewrite rev_app_distr. reflexivity. Qed.

Lemma rel_marker_leaf : forall D n it, item_path it = D ++ [n] -> rel_marker D it = n.
Proof. intros D n it H. unfold rel_marker. rewrite H, skipn_app_length. reflexivity. Qed.

Lemma rel_marker_child : forall D n q it, item_path it = (D ++ [n]) ++ q -> q <> [] ->
  rel_marker D it = (n ++ "/" ++ rel_marker (D ++ [n]) it)%string.
Proof.
  intros D n q it H Hq. unfold rel_marker. rewrite H.
  rewrite skipn_app_length. rewrite <- app_assoc. rewrite skipn_app_length.
  destruct q as [|a q']; [contradiction|]. reflexivity.
Qed.

Lemma cut_slash_app : forall n g, no_slash n = true -> cut_slash (n ++ String slash g)%string = Some (n, g).
Proof.
  induction n as [|c n IH]; intros g H; [reflexivity|]. simpl in H. apply andb_true_iff in H. destruct H as [H1 H2].
  apply negb_true_iff in H1. simpl. rewrite H1. rewrite (IH g H2). reflexivity.
Qed.

Lemma gtb_app : forall A (X Y : list A) B,
  (Z.of_nat (length (X ++ Y)) >? B)%Z = ((Z.of_nat (length X) >? B) || (Z.of_nat (length Y) >? B - Z.of_nat (length X)))%Z.
Proof.
  intros A X Y B. rewrite app_length, !Z.gtb_ltb.
  destruct (B <? Z.of_nat (length X))%Z eqn:E1; destruct (B - Z.of_nat (length X) <? Z.of_nat (length Y))%Z eqn:E2;
    simpl; rewrite ?Z.ltb_lt, ?Z.ltb_ge in *; lia.
Qed.

Section Exact.
  Variable ae : bool.
  Variable rootk : list tree.
  Variable delim : bool.
  Hypothesis Hwf : wf rootk = true.

  (* a tree whose every directory yields at least one item *)
  Fixpoint productive (t : tree) : bool :=
    match t with
    | File _ => true
    | Dir n k =>
        negb (n =? uploads) &&
        (if delim then ae || existsb tree_has_file k
         else match k with [] => false | _ :: _ => true end && forallb productive k)
    end.

  Definition R (D : list string) (K : list tree) : list item := ref_forest ae delim D K.

  Lemma prod_ref_nonempty : forall t D, productive t = true -> ref_tree ae delim D t <> [].
  Proof.
    intros t. induction t as [n|n k IH] using tree_ind'; intros D H; simpl in *; [discriminate|].
    apply andb_true_iff in H. destruct H as [H1 H2]. apply negb_true_iff in H1. rewrite H1.
    destruct delim.
    - rewrite H2. discriminate.
    - destruct k as [|c k']; [discriminate|]. simpl in H2. apply andb_true_iff in H2. destruct H2 as [Hc _].
      pose proof (Forall_inv IH) as IHc. simpl. intros E. apply app_eq_nil in E. destruct E as [E _]. exact (IHc _ Hc E).
  Qed.

  (* what a fresh call returns for budget B >= 1 *)
  Definition exact_res (D : list string) (K : list tree) (B : Z) (r : res) : Prop :=
    r_items r = firstn (Z.to_nat B) (R D K) /\
    r_count r = Z.of_nat (length (r_items r)) /\
    r_trunc r = (Z.of_nat (length (R D K)) >? B)%Z /\
    r_next r = last_marker D "" (r_items r).

  Definition rec_exact (h : nat) (rec : list string -> Z -> res) : Prop :=
    forall D K B, plain D -> walk rootk D = Some K -> wf K = true -> forallb productive K = true ->
      forest_height K < h -> (1 <= B)%Z -> exact_res D K B (rec D B).

  Lemma last_marker_child : forall D n k X, X <> [] -> (forall it, In it X -> In it (ref_forest ae delim (D ++ [n]) k)) ->
    last_marker D "" X = (n ++ "/" ++ last_marker (D ++ [n]) "" X)%string.
  Proof.
    intros D n k X HX Hin. unfold last_marker.
    destruct (rev X) as [|it rx] eqn:E; [apply (f_equal (@rev item)) in E; rewrite rev_involutive in E; contradiction|].
    assert (Hit : In it X) by (apply in_rev; rewrite E; left; reflexivity).
    pose proof (Hin it Hit) as G. unfold ref_forest in G. apply in_flat_map in G. destruct G as [c [_ Hc]].
    destruct (ref_tree_under ae delim c (D ++ [n]) it Hc) as [q Eq].
    exact (rel_marker_child D n (tname c :: q) it Eq ltac:(discriminate)).
  Qed.

  (* what the loop does behind an entry whose block of the reference listing is X, with budget
     M1 - counter left: it takes the first items Y of X that fit, stops as truncated when X is
     longer than the budget and goes on behind Y otherwise *)
  Definition goes_on rec D M1 es items counter trunc next (X : list item) : res :=
    let Y := firstn (Z.to_nat (M1 - counter)) X in
    if (Z.of_nat (length X) >? M1 - counter)%Z
    then mk_res (items ++ Y) (counter + Z.of_nat (length Y)) true (last_marker D next Y)
    else loop ae rootk delim rec D M1 es (items ++ Y) (counter + Z.of_nat (length Y)) trunc (last_marker D next Y).

  Lemma goes_on_single : forall rec D M1 es items counter trunc next it, (counter < M1)%Z ->
    goes_on rec D M1 es items counter trunc next [it] =
    loop ae rootk delim rec D M1 es (items ++ [it]) (counter + 1)%Z trunc (rel_marker D it).
  Proof.
    intros rec D M1 es items counter trunc next it HC. unfold goes_on. cbv zeta.
    rewrite firstn_all2 by (simpl; lia).
    replace (Z.of_nat (length [it]) >? M1 - counter)%Z with false by (symmetry; rewrite Z.gtb_ltb; apply Z.ltb_ge; simpl; lia).
    reflexivity.
  Qed.

  (* one round of the loop on a productive entry e of an existing directory *)
  Lemma loop_step : forall h rec D K M1 e es items counter trunc next,
    rec_exact h rec -> plain D -> walk rootk D = Some K -> wf K = true -> forest_height K <= h ->
    In e K -> productive e = true -> (counter <= M1)%Z ->
    loop ae rootk delim rec D M1 (e :: es) items counter trunc next =
    goes_on rec D M1 es items counter trunc next (ref_tree ae delim D e).
  Proof.
    intros h rec D K M1 e es items counter trunc next HR HP HW HK HH HeK HeP HC'.
    destruct (Z.eq_dec counter M1) as [EC|NC].
    { (* the budget is used up: truncated, since e still yields something *)
      subst counter. pose proof (prod_ref_nonempty e D HeP) as HNE. simpl loop. unfold goes_on.
      rewrite Z.geb_leb, Z.leb_refl, Z.sub_diag. destruct (ref_tree ae delim D e); [contradiction|].
      simpl. rewrite app_nil_r, Z.add_0_r. reflexivity. }
    assert (HC : (counter < M1)%Z) by lia.
    assert (EC : (counter >=? M1)%Z = false) by (rewrite Z.geb_leb; apply Z.leb_gt; exact HC).
    simpl loop. rewrite EC. destruct e as [n|n k].
    - simpl ref_tree. rewrite (goes_on_single _ _ _ _ _ _ _ _ _ HC), (rel_marker_leaf D n (IKey (D ++ [n])) eq_refl). reflexivity.
    - simpl in HeP. apply andb_true_iff in HeP. destruct HeP as [HU HY]. apply negb_true_iff in HU.
      rewrite HU.
      destruct (resolve_child rootk D K n k HP HW HK HeK) as [RC [WC PC]].
      destruct delim eqn:ED; simpl negb; cbv iota.
      + rewrite RC. unfold has_file. rewrite <- negb_orb, HY. simpl negb. cbv iota.
        simpl ref_tree. rewrite HU, HY, (goes_on_single _ _ _ _ _ _ _ _ _ HC), (rel_marker_leaf D n (ICP (D ++ [n])) eq_refl), ED. reflexivity.
      + apply andb_true_iff in HY. destruct HY as [HYn HYp].
        assert (Hh : forest_height k < h) by (pose proof (height_child n k K HeK); lia).
        destruct (HR (D ++ [n]) k (M1 - counter)%Z PC WC (wf_kids n k K HK HeK) HYp Hh ltac:(lia)) as [S1 [S2 [S3 S4]]].
        unfold goes_on. simpl ref_tree. rewrite HU. replace (flat_map (ref_tree ae false (D ++ [n])) k) with (R (D ++ [n]) k) by (unfold R; rewrite ED; reflexivity).
        set (r' := rec (D ++ [n]) (M1 - counter)%Z) in *.
        assert (HX1 : r_items r' <> []).
        { rewrite S1. destruct k as [|c k']; [discriminate|]. simpl in HYp. apply andb_true_iff in HYp.
          pose proof (prod_ref_nonempty c (D ++ [n]) (proj1 HYp)) as NE. unfold R, ref_forest. simpl.
          destruct (ref_tree ae delim (D ++ [n]) c); [contradiction|].
          replace (Z.to_nat (M1 - counter)) with (S (Z.to_nat (M1 - counter - 1))) by lia. simpl. discriminate. }
        assert (EN : (n ++ String "/" (r_next r'))%string = last_marker D next (r_items r')).
        { rewrite S4, (last_marker_dflt D next "" _ HX1). symmetry. apply (last_marker_child D n k _ HX1).
          intros it Hit. rewrite S1 in Hit. exact (firstn_in _ _ _ Hit). }
        rewrite EN, S2, S3, S1, ED. reflexivity.
  Qed.

  Lemma loop_exact : forall h rec D K M1, rec_exact h rec -> plain D -> walk rootk D = Some K -> wf K = true ->
    forest_height K <= h ->
    forall es, (forall e, In e es -> In e K /\ productive e = true) ->
    forall L items counter trunc next, (counter <= M1)%Z -> (M1 - counter + 1 <= Z.of_nat L)%Z ->
      let r := loop ae rootk delim rec D M1 (firstn L es) items counter trunc next in
      let X := firstn (Z.to_nat (M1 - counter)) (R D es) in
      r_items r = items ++ X /\
      r_count r = (counter + Z.of_nat (length X))%Z /\
      r_trunc r = (trunc || (Z.of_nat (length (R D es)) >? M1 - counter)%Z) /\
      r_next r = last_marker D next X.
  Proof.
    intros h rec D K M1 HR HP HW HK HH. induction es as [|e es IH]; intros Hes L items counter trunc next HC HL; cbv zeta.
    - rewrite firstn_nil. unfold R, ref_forest. simpl. rewrite firstn_nil, app_nil_r.
      split; [reflexivity|]. split; [simpl; lia|]. split; [|reflexivity].
      destruct (0 >? M1 - counter)%Z eqn:E; [apply Z.gtb_lt in E; lia | rewrite orb_false_r; reflexivity].
    - destruct L as [|L']; [lia|]. simpl firstn.
      destruct (Hes e (or_introl eq_refl)) as [HeK HeP].
      change (R D (e :: es)) with (ref_tree ae delim D e ++ R D es).
      pose proof (prod_ref_nonempty e D HeP) as HNE.
      rewrite firstn_app, gtb_app.
      assert (EB : forall n : nat, Z.to_nat (M1 - counter) - n = Z.to_nat (M1 - counter - Z.of_nat n)) by (intros; lia).
      rewrite EB. clear EB.
      rewrite (loop_step h rec D K M1 e (firstn L' es) items counter trunc next HR HP HW HK HH HeK HeP HC).
      unfold goes_on.
      set (X := ref_tree ae delim D e) in *. set (Y := firstn (Z.to_nat (M1 - counter)) X).
      rewrite last_marker_app, app_assoc, app_length, Nat2Z.inj_add, Z.add_assoc.
      destruct (Z.of_nat (length X) >? M1 - counter)%Z eqn:EO.
      + apply Z.gtb_lt in EO. replace (Z.to_nat (M1 - counter - Z.of_nat (length X))) with 0 by lia.
        simpl. rewrite app_nil_r, orb_true_r, Z.add_0_r. repeat split.
      + rewrite Z.gtb_ltb in EO. apply Z.ltb_ge in EO.
        assert (EY : length Y = length X) by (unfold Y; rewrite firstn_length; lia).
        assert (1 <= length X) by (destruct X; [contradiction | simpl; lia]).
        destruct (IH (fun e0 H0 => Hes e0 (or_intror H0)) L' (items ++ Y) (counter + Z.of_nat (length Y))%Z trunc
                     (last_marker D next Y) ltac:(lia) ltac:(lia)) as [I1 [I2 [I3 I4]]].
        replace (M1 - (counter + Z.of_nat (length Y)))%Z with (M1 - counter - Z.of_nat (length X))%Z in * by lia.
        simpl orb. repeat split; assumption.
  Qed.

  Lemma page_exact_rec : forall f, rec_exact f (fun D M => do_list ae rootk delim f D "" M "") ->
    forall D K pfx M m, plain D -> walk rootk D = Some K -> wf K = true ->
    forallb productive (filter (fun t => String.prefix pfx (tname t) && String.ltb m (tname t)) K) = true ->
    forest_height K <= f -> (1 <= M)%Z -> count_slash m = 0 -> ((pfx =? "/") && delim) = false ->
    exact_res D (filter (fun t => String.prefix pfx (tname t) && String.ltb m (tname t)) K) M
              (do_list ae rootk delim (S f) D pfx M m).
  Proof.
    intros f IH D K pfx M m HP HW HK HPr HH HM Hm Hsl.
    rewrite do_list_S. rewrite Hsl.
    destruct (M <=? 0)%Z eqn:EB; [apply Z.leb_le in EB; lia|].
    rewrite (cut_slash_count m Hm). cbv iota beta.
    unfold list_entries. rewrite (resolve_plain rootk D K HP HW).
    set (E := filter (fun t => String.prefix pfx (tname t) && String.ltb m (tname t)) K) in *.
    assert (HE : forall e, In e E -> In e K /\ productive e = true).
    { intros e He. split; [unfold E in He; apply filter_In in He; exact (proj1 He) | exact (proj1 (forallb_forall _ _) HPr e He)]. }
    pose proof (loop_exact f _ D K M IH HP HW HK HH E HE (Z.to_nat (M + 1)) [] 0%Z false "" ltac:(lia) ltac:(lia)) as G.
    cbv zeta in G. rewrite Z.sub_0_r in G. destruct G as [G1 [G2 [G3 G4]]].
    simpl app in G1. unfold exact_res. rewrite G1. repeat split.
    - rewrite G2. lia.
    - rewrite G3. reflexivity.
    - rewrite G4. reflexivity.
  Qed.

  Lemma do_list_exact : forall f, rec_exact f (fun D M => do_list ae rootk delim f D "" M "").
  Proof.
    induction f as [|f IH]; intros D K B HP HW HK HPr HH HB; [lia|].
    pose proof (page_exact_rec f IH D K "" B "" HP HW HK) as G. rewrite (filter_all_entries K HK) in G.
    exact (G HPr ltac:(lia) HB eq_refl eq_refl).
  Qed.

  (* one page for a marker without "/" : exactly the first M items behind the marker *)
  Lemma page_exact : forall f D K pfx M m, plain D -> walk rootk D = Some K -> wf K = true ->
    forallb productive (filter (fun t => String.prefix pfx (tname t) && String.ltb m (tname t)) K) = true ->
    forest_height K <= f -> (1 <= M)%Z -> count_slash m = 0 -> ((pfx =? "/") && delim) = false ->
    let E := filter (fun t => String.prefix pfx (tname t) && String.ltb m (tname t)) K in
    let r := do_list ae rootk delim (S f) D pfx M m in
    r_items r = firstn (Z.to_nat M) (R D E) /\
    r_count r = Z.of_nat (length (r_items r)) /\
    r_trunc r = (Z.of_nat (length (R D E)) >? M)%Z /\
    r_next r = last_marker D "" (r_items r).
  Proof. intros f. exact (page_exact_rec f (do_list_exact f)). Qed.

  (* a marker "n/g" into the directory n: what is left of n behind g, then the entries behind n *)
  Lemma page_exact_sub : forall f D K pfx M n k g, plain D -> walk rootk D = Some K -> wf K = true ->
    In (Dir n k) K -> count_slash g = 0 -> ((pfx =? "/") && delim) = false -> (1 <= M)%Z ->
    forest_height K <= S f ->
    let ks := filter (fun t => String.prefix "" (tname t) && String.ltb g (tname t)) k in
    let B := filter (fun t => String.prefix pfx (tname t) && String.ltb n (tname t)) K in
    forallb productive ks = true -> forallb productive B = true ->
    let L := R (D ++ [n]) ks ++ R D B in
    let r := do_list ae rootk delim (S (S f)) D pfx M (n ++ "/" ++ g) in
    r_items r = firstn (Z.to_nat M) L /\
    r_trunc r = (Z.of_nat (length L) >? M)%Z /\
    (r_items r <> [] -> r_next r = last_marker D "" (r_items r)).
  Proof.
    intros f D K pfx M n k g HP HW HK HeK Hg Hsl HM HH ks B HPs HPB L r. unfold r, L. clear r L.
    destruct (resolve_child rootk D K n k HP HW HK HeK) as [RC [WC PC]].
    pose proof (height_child n k K HeK) as Hk.
    destruct (page_exact f (D ++ [n]) k "" M g PC WC (wf_kids n k K HK HeK) HPs ltac:(lia) HM Hg eq_refl) as [S1 [S2 [S3 S4]]].
    fold ks in S1, S3.
    rewrite do_list_S, Hsl. destruct (M <=? 0)%Z eqn:EM; [apply Z.leb_le in EM; lia|].
    change (n ++ "/" ++ g)%string with (n ++ String slash g)%string.
    rewrite (cut_slash_app n g (wf_no_slash K _ HK HeK)). cbv iota beta zeta.
    unfold list_entries. rewrite (resolve_plain rootk D K HP HW). fold B.
    set (sub := do_list ae rootk delim (S f) (D ++ [n]) "" M g) in *.
    set (A1 := R (D ++ [n]) ks) in *. set (A2 := R D B).
    assert (HEs : forall e, In e B -> In e K /\ productive e = true).
    { intros e He. split; [unfold B in He; apply filter_In in He; exact (proj1 He) | exact (proj1 (forallb_forall _ _) HPB e He)]. }
    pose proof (firstn_le_length (Z.to_nat M) A1) as Hcl.
    assert (EY : r_count sub = Z.of_nat (length (firstn (Z.to_nat M) A1))) by (rewrite S2, S1; reflexivity).
    pose proof (loop_exact (S f) _ D K (M - r_count sub)%Z (do_list_exact (S f)) HP HW HK HH B HEs
                  (Z.to_nat (M - r_count sub + 1)) (r_items sub) 0%Z (r_trunc sub) (n ++ "/" ++ r_next sub)%string
                  ltac:(lia) ltac:(lia)) as G.
    cbv zeta in G. rewrite Z.sub_0_r in G. destruct G as [G1 [_ [G3 G4]]]. fold A2 in G1, G3, G4.
    rewrite EY, S1 in *. set (Y1 := firstn (Z.to_nat M) A1) in *.
    split; [|split].
    - rewrite G1, firstn_app. f_equal. f_equal. unfold Y1. rewrite firstn_length. lia.
    - rewrite G3, S3, gtb_app. destruct (Z.of_nat (length A1) >? M)%Z eqn:E1; [reflexivity|].
      rewrite Z.gtb_ltb in E1. apply Z.ltb_ge in E1.
      replace (length Y1) with (length A1) by (unfold Y1; rewrite firstn_length; lia). reflexivity.
    - intros NE. rewrite G4, G1, last_marker_app. rewrite G1 in NE.
      destruct Y1 as [|y Y1'] eqn:E1; [apply last_marker_dflt; exact NE|].
      f_equal. rewrite S4. symmetry. apply (last_marker_child D n ks); [discriminate|].
      intros it Hit. rewrite <- E1 in Hit. exact (firstn_in _ _ _ Hit).
  Qed.
End Exact.

Lemma gtb_ltb_nat : forall (l : nat) (M : Z), (1 <= M)%Z -> (Z.of_nat l >? M)%Z = Nat.ltb (Z.to_nat M) l.
Proof.
  intros l M H. destruct (Nat.ltb (Z.to_nat M) l) eqn:E.
  - apply Nat.ltb_lt in E. apply Z.gtb_lt. lia.
  - apply Nat.ltb_ge in E. rewrite Z.gtb_ltb. apply Z.ltb_ge. lia.
Qed.

(* the same for a request: clean prefix, existing prefix directory, marker without "/" *)
Lemma list_items_exact : forall ae rootk prefix K M m delim,
  wf rootk = true -> bad_prefix prefix = false -> walk rootk (req_dir prefix) = Some K -> (1 <= M)%Z ->
  count_slash m = 0 -> ((snd (split_prefix prefix) =? "/") && delim) = false ->
  let E := filter (fun t => String.prefix (snd (split_prefix prefix)) (tname t) && String.ltb m (tname t)) K in
  forallb (productive ae delim) E = true ->
  let r := list_items ae rootk prefix M m delim in
  r_items r = firstn (Z.to_nat M) (R ae delim (req_dir prefix) E) /\
  r_trunc r = Nat.ltb (Z.to_nat M) (length (R ae delim (req_dir prefix) E)) /\
  r_next r = last_marker (req_dir prefix) "" (r_items r).
Proof.
  intros ae rootk prefix K M m delim Hwf Hbp HW HM Hm Hsl E HPr r. unfold r, list_items, list_fuel.
  rewrite Hm, Nat.add_0_r. pose proof (walk_height _ rootk K HW) as HH.
  destruct (page_exact ae rootk delim (S (forest_height rootk)) _ K _ M m (plain_of_bad_prefix prefix Hbp) HW
              (walk_wf _ rootk K Hwf HW) HPr ltac:(lia) HM Hm Hsl) as [G1 [_ [G3 G4]]].
  split; [exact G1|]. split; [rewrite G3; apply gtb_ltb_nat; exact HM | exact G4].
Qed.
