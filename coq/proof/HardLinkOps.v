(* The operations of model/HardLink.v, layer by layer: what each does to the link-record
   invariant [InvG] and which names it leaves alone. *)
From Coq Require Import List NArith ZArith Bool String Arith Lia Permutation.
From SW Require Import model.FilerNS proof.FilerNSBase model.Chunks model.HardLink
  proof.HardLinkBase proof.HardLinkInv.
Import ListNotations.
Local Open Scope list_scope.

Lemma huhl_names : forall s p e, names (handle_update_to_hard_links s p e) = names s.
Proof.
  intros. unfold handle_update_to_hard_links. cbv zeta.
  set (s1 := if (h_hl e =? 0)%N then s else kv_put s (h_hl e) e).
  assert (H1 : names s1 = names s) by (unfold s1; destruct (h_hl e =? 0)%N; reflexivity).
  destruct (nfind s1 p) as [ex|]; [|exact H1].
  destruct (negb (h_hl ex =? 0)%N && negb (h_hl ex =? h_hl e)%N); [|exact H1].
  now rewrite dhl_names.
Qed.

Lemma w_insert_nfind : forall s p e q,
  nfind (w_insert s p e) q = if HardLink.path_eqb p q then Some e else nfind s q.
Proof.
  intros. unfold w_insert. rewrite nfind_raw_put. destruct (HardLink.path_eqb p q); [reflexivity|].
  unfold nfind. now rewrite huhl_names.
Qed.

Lemma w_delete_one_nfind : forall s p x q,
  nfind (w_delete_one s p x) q = if HardLink.path_eqb p q then None else nfind s q.
Proof.
  intros. unfold w_delete_one. rewrite nfind_raw_del. destruct (HardLink.path_eqb p q); [reflexivity|].
  destruct (h_hl x =? 0)%N; [reflexivity|apply dhl_nfind].
Qed.

Lemma dfc_nfind : forall s d q,
  nfind (w_delete_folder_children s d) q = if HardLink.is_child_of d q then None else nfind s q.
Proof.
  intros. unfold nfind, w_delete_folder_children. simpl.
  rewrite (aget_filter_key _ peqb_spec (fun k => negb (HardLink.is_child_of d k))).
  now destruct (HardLink.is_child_of d q).
Qed.

Lemma dhl_fold_nfind : forall ids s q, nfind (fold_left delete_hard_link ids s) q = nfind s q.
Proof. intros. unfold nfind. now rewrite dhl_fold_names. Qed.

(* names outside P keep their blob *)
Definition Keeps (P : path -> Prop) (s s' : st) : Prop :=
  forall q e0, nfind s q = Some e0 -> ~ P q -> nfind s' q = Some e0.

Lemma Keeps_refl : forall P s, Keeps P s s.
Proof. intros P s q e0 H _. exact H. Qed.

Lemma Keeps_trans : forall (P : path -> Prop) s1 s2 s3, Keeps P s1 s2 -> Keeps P s2 s3 -> Keeps P s1 s3.
Proof. intros P s1 s2 s3 A B q e0 H Hn. apply B; auto. Qed.

Lemma Keeps_weaken : forall (P Q : path -> Prop) s s', (forall q, P q -> Q q) -> Keeps P s s' -> Keeps Q s s'.
Proof. intros P Q s s' H K q e0 Hq Hn. apply K; auto. Qed.

Lemma find_entry_nonroot : forall ev s p, p <> [] -> find_entry ev s p = w_find s p.
Proof. intros. destruct p; [congruence|reflexivity]. Qed.

Lemma w_find_None : forall s p, w_find s p = None <-> nfind s p = None.
Proof. intros. unfold w_find. destruct (nfind s p); split; congruence. Qed.

Lemma w_find_Some : forall s p e, w_find s p = Some e -> exists ex, nfind s p = Some ex /\ e = view s ex.
Proof. intros. unfold w_find in H. destruct (nfind s p) as [ex|]; [|discriminate]. inversion H. eauto. Qed.

Lemma set_crtime_fields : forall e t,
  h_hl (set_crtime e t) = h_hl e /\ h_cnt (set_crtime e t) = h_cnt e /\ h_dir (set_crtime e t) = h_dir e /\
  h_chunks (set_crtime e t) = h_chunks e /\ h_mtime (set_crtime e t) = h_mtime e.
Proof. intros. repeat split. Qed.

Lemma set_chunks_fields : forall e cs,
  h_hl (set_chunks e cs) = h_hl e /\ h_cnt (set_chunks e cs) = h_cnt e /\ h_dir (set_chunks e cs) = h_dir e /\
  h_mtime (set_chunks e cs) = h_mtime e /\ h_crtime (set_chunks e cs) = h_crtime e.
Proof. intros. repeat split. Qed.

Lemma filer_update_cases : forall s p old e s' r, filer_update s p old e = (s', r) ->
  (s' = s /\ r <> OK) \/ (s' = w_insert s p (set_crtime e (h_crtime old)) /\ r = OK).
Proof.
  intros s p old e s' r H. unfold filer_update in H.
  destruct (h_dir old && negb (h_dir e)); [inversion H; left; split; congruence|].
  destruct (negb (h_dir old) && h_dir e); [inversion H; left; split; congruence|].
  inversion H. right. auto.
Qed.

(* the state an entry is created in: the old one, possibly with the implicit parent directory *)
Definition base_ok (s s0 : st) : Prop :=
  s0 = s \/ exists d t, nfind s d = None /\ s0 = w_insert s d (implicit_dir t).

Lemma base_nfind : forall s s0 q e, base_ok s s0 -> nfind s0 q = Some e ->
  nfind s q = Some e \/ (nfind s q = None /\ h_chunks e = [] /\ h_hl e = 0%N /\ h_dir e = true).
Proof.
  intros s s0 q e [E|[d [t [Hd E]]]] H; subst s0; [auto|].
  rewrite w_insert_nfind in H. destruct (peqb_spec d q); [|auto].
  subst q. inversion H. right. auto.
Qed.

Lemma base_keeps : forall s s0 q e, base_ok s s0 -> nfind s q = Some e -> nfind s0 q = Some e.
Proof.
  intros s s0 q e [E|[d [t [Hd E]]]] H; subst s0; [auto|].
  rewrite w_insert_nfind. destruct (peqb_spec d q); [congruence|assumption].
Qed.

Lemma base_inv : forall l s s0, InvG l s -> base_ok s s0 -> InvG l s0.
Proof. intros l s s0 I [->|[d [t [_ ->]]]]; [exact I|]. now apply w_insert_plain_inv. Qed.

(* Filer.CreateEntry has three outcomes: a refusal that changes nothing; the entry written over an
   existing one of the same type, whose dropped chunks are scheduled; the entry written at a new
   name, below a directory it may have had to create *)
Lemma filer_create_cases : forall ev s p e x, let r := filer_create ev s p e x in
  (r = (s, err_of r, []) /\ err_of r <> OK) \/
  (exists old, find_entry ev s p = Some old /\ h_dir old = h_dir e /\
     r = (w_insert s p (set_crtime e (h_crtime old)), OK, delete_chunks_if_not_new ev old e)) \/
  (exists s0, find_entry ev s p = None /\ base_ok s s0 /\ r = (w_insert s0 p e, OK, [])).
Proof.
  intros ev s p e x. simpl. unfold filer_create.
  destruct (find_entry ev s p) as [old|] eqn:Ef.
  - destruct x; [left; split; [reflexivity|discriminate]|]. unfold filer_update.
    destruct (h_dir old) eqn:Eo, (h_dir e) eqn:Ee; simpl;
      try (left; split; [reflexivity|discriminate]); right; left; exists old; auto.
  - unfold ensure_parent.
    destruct (HardLink.parent p) as [|a d] eqn:Ep; simpl; [right; right; exists s; repeat split; now left|].
    destruct (w_find s (a :: d)) as [de|] eqn:Ed.
    + destruct (h_dir de); simpl; [right; right; exists s; repeat split; now left|].
      left. split; [reflexivity|discriminate].
    + right. right. exists (w_insert s (a :: d) (implicit_dir e)). apply w_find_None in Ed.
      split; [reflexivity|]. split; [right; eauto|reflexivity].
Qed.

Lemma filer_create_keeps : forall ev s p e x, Keeps (eq p) s (st_of (filer_create ev s p e x)).
Proof.
  intros ev s p e x q e0 H Hn.
  destruct (filer_create_cases ev s p e x) as [[-> _]|[[old [_ [_ ->]]]|[s0 [_ [B ->]]]]]; unfold st_of; simpl.
  - exact H.
  - rewrite w_insert_nfind. destruct (peqb_spec p q); [contradiction|exact H].
  - rewrite w_insert_nfind. destruct (peqb_spec p q); [contradiction|exact (base_keeps s s0 q e0 B H)].
Qed.

(* a plain entry at any name (a link id carried by the replaced blob is decremented) *)
Lemma filer_create_plain_inv : forall l ev s p e x, InvG l s -> h_hl e = 0%N ->
  InvG l (st_of (filer_create ev s p e x)).
Proof.
  intros l ev s p e x I He.
  destruct (filer_create_cases ev s p e x) as [[-> _]|[[old [_ [_ ->]]]|[s0 [_ [B ->]]]]]; unfold st_of; simpl.
  - exact I.
  - now apply w_insert_plain_inv.
  - apply w_insert_plain_inv; [exact (base_inv l s s0 I B)|exact He].
Qed.

(* Dir.Link's CreateEntry: the new name does not exist, its parent directory does *)
Lemma filer_create_link2_inv : forall l ev s p b e X, InvG (X :: l) s -> p <> [] ->
  nfind s p = None ->
  (exists de, find_entry ev s (HardLink.parent p) = Some de /\ h_dir de = true) ->
  h_dir e = false -> h_hl e = X -> X <> 0%N -> kv_get s X = Some b -> h_cnt e = h_cnt b ->
  InvG l (st_of (filer_create ev s p e false)) /\ err_of (filer_create ev s p e false) = OK /\
  st_of (filer_create ev s p e false) = w_insert s p e.
Proof.
  intros l ev s p b e X I Hp H [de [Hde Hdd]] Hd He HX Hb Hc. unfold filer_create.
  rewrite find_entry_nonroot by assumption. unfold w_find. rewrite H.
  pose proof (w_insert_link_second_inv l s p b e X I H Hd He HX Hb Hc) as I'.
  unfold ensure_parent.
  destruct (HardLink.parent p) as [|a d] eqn:Ep; [|rewrite Hde, Hdd]; simpl; auto.
Qed.

Lemma cleanup_none_some : forall ev cs, exists r, cleanup_chunks ev None cs = Some r.
Proof.
  intros. unfold cleanup_chunks.
  destruct (compact_file_chunks resolve_fuel (ms ev) (filter (fun c => negb (c_manifest c)) cs)). eauto.
Qed.

(* FilerServer.CreateEntry is Filer.CreateEntry of the entry with its chunks cleaned up *)
Lemma grpc_create_always : forall ev s p e x,
  exists cs, st_of (grpc_create ev s p e x) = st_of (filer_create ev s p (set_chunks e cs) x) /\
             err_of (grpc_create ev s p e x) = err_of (filer_create ev s p (set_chunks e cs) x).
Proof.
  intros. unfold grpc_create. destruct (cleanup_none_some ev (h_chunks e)) as [[cs g] H]. rewrite H.
  exists cs. destruct (filer_create ev s p (set_chunks e cs) x) as [[s1 r] d]. destruct r; auto.
Qed.

Lemma grpc_create_keeps : forall ev s p e x, Keeps (eq p) s (st_of (grpc_create ev s p e x)).
Proof.
  intros. destruct (grpc_create_always ev s p e x) as [cs [A _]]. rewrite A. apply filer_create_keeps.
Qed.

(* the three outcomes of FilerServer.UpdateEntry: a refusal, the EqualEntry shortcut, the entry written *)
Inductive upd_outcome (ev : env) (s : st) (p : path) (e : hentry) : st -> err -> Prop :=
| upd_fail : forall r, r <> OK -> upd_outcome ev s p e s r
| upd_same : forall ex cs, find_entry ev s p = Some ex -> hentry_eqb ex (set_chunks e cs) = true ->
    upd_outcome ev s p e s OK
| upd_done : forall ex cs, find_entry ev s p = Some ex -> hentry_eqb ex (set_chunks e cs) = false ->
    (h_dir ex = h_dir e) ->
    upd_outcome ev s p e (w_insert s p (set_crtime (set_chunks e cs) (h_crtime ex))) OK.

Lemma grpc_update_cases : forall ev s p e,
  upd_outcome ev s p e (st_of (grpc_update ev s p e)) (err_of (grpc_update ev s p e)).
Proof.
  intros. unfold grpc_update. destruct (find_entry ev s p) as [ex|] eqn:Ef.
  - destruct (cleanup_chunks ev (Some ex) (h_chunks e)) as [[cs g]|].
    + destruct (hentry_eqb ex (set_chunks e cs)) eqn:Eq.
      * eapply upd_same; eauto.
      * unfold filer_update. simpl.
        destruct (h_dir ex) eqn:Ed, (h_dir e) eqn:Ed'; simpl; try (apply upd_fail; discriminate).
        -- eapply upd_done; eauto; congruence.
        -- eapply upd_done; eauto; congruence.
    + apply upd_fail. discriminate.
  - apply upd_fail. discriminate.
Qed.

Lemma grpc_update_keeps : forall ev s p e, Keeps (eq p) s (st_of (grpc_update ev s p e)).
Proof.
  intros. destruct (grpc_update_cases ev s p e); try apply Keeps_refl.
  intros q e0 Hq Hn. rewrite w_insert_nfind. destruct (peqb_spec p q); [contradiction|assumption].
Qed.

Lemma hentry_eqb_link : forall a b, hentry_eqb a b = true -> h_hl a = h_hl b /\ h_cnt a = h_cnt b /\ h_mtime a = h_mtime b.
Proof.
  intros a b H. unfold hentry_eqb in H. repeat rewrite andb_true_iff in H.
  destruct H as [[[[[[[_ _] _] Hm] _] _] Hh] Hc].
  apply N.eqb_eq in Hh. apply Z.eqb_eq in Hc. apply N.eqb_eq in Hm. auto.
Qed.

Lemma chunk_eqb_refl : forall c, chunk_eqb c c = true.
Proof. intro c. unfold chunk_eqb. now rewrite !N.eqb_refl, eqb_reflx. Qed.

Lemma list_eqb_refl : forall {A} (f : A -> A -> bool) l, (forall x, f x x = true) -> list_eqb f l l = true.
Proof. induction l; simpl; intro H; [reflexivity|]. now rewrite H, IHl. Qed.

Lemma hentry_eqb_refl : forall e, hentry_eqb e e = true.
Proof.
  intro e. unfold hentry_eqb.
  now rewrite eqb_reflx, !N.eqb_refl, Z.eqb_refl, (list_eqb_refl chunk_eqb _ chunk_eqb_refl).
Qed.

Lemma delete_entry_cases : forall ev s p rec ign data,
  (st_of (delete_entry ev s p rec ign data) = s /\ err_of (delete_entry ev s p rec ign data) <> OK) \/
  (exists e, find_entry ev s p = Some e /\ err_of (delete_entry ev s p rec ign data) = OK /\
     (h_dir e = true -> rec = false -> list_children s p = []) /\
     let cs := if h_dir e then list_children s p else [] in
     let s1 := if h_dir e then w_delete_folder_children s p else s in
     let s2 := w_delete_one s1 p e in
     st_of (delete_entry ev s p rec ign data) = fold_left delete_hard_link (snd (collect_children cs)) s2).
Proof.
  intros. unfold delete_entry. destruct (find_entry ev s p) as [e|] eqn:Ef.
  - destruct (h_dir e && negb rec && negb match (if h_dir e then list_children s p else []) with [] => true | _ => false end) eqn:Ec.
    + left. split; [reflexivity|discriminate].
    + right. exists e. split; [reflexivity|].
      assert (Hnil : h_dir e = true -> rec = false -> list_children s p = []).
      { intros Hd Hr. rewrite Hd, Hr in Ec. simpl in Ec. destruct (list_children s p); [reflexivity|discriminate]. }
      destruct (collect_children (if h_dir e then list_children s p else [])) as [dc ids] eqn:Ecc.
      simpl. auto.
  - left. split; [reflexivity|discriminate].
Qed.

Lemma delete_entry_keeps : forall ev s p rec ign data,
  Keeps (fun q => HardLink.is_prefix p q = true) s (st_of (delete_entry ev s p rec ign data)).
Proof.
  intros. destruct (delete_entry_cases ev s p rec ign data) as [[A _]|[e [_ [_ [_ A]]]]]; rewrite A; [apply Keeps_refl|].
  intros q e0 Hq Hn.
  assert (Hne : HardLink.path_eqb p q = false).
  { destruct (peqb_spec p q); [|reflexivity]. subst. exfalso. apply Hn. apply is_prefix_refl. }
  assert (Hnc : HardLink.is_child_of p q = false).
  { destruct (HardLink.is_child_of p q) eqn:E; [|reflexivity]. exfalso. apply Hn.
    apply is_child_of_spec in E. destruct E as [n E]. subst. apply is_prefix_app. }
  assert (H2 : nfind (w_delete_one (if h_dir e then w_delete_folder_children s p else s) p e) q = Some e0).
  { rewrite w_delete_one_nfind, Hne. destruct (h_dir e); [rewrite dfc_nfind, Hnc|]; assumption. }
  rewrite dhl_fold_nfind. exact H2.
Qed.

Lemma collect_nil : collect_children [] = ([], []).
Proof. reflexivity. Qed.

(* every removed name's id is decremented, with or without data deletion (maybeDeleteHardLinks) *)
Lemma delete_entry_inv : forall ev s p rec ign data, Inv s -> p <> [] ->
  Inv (st_of (delete_entry ev s p rec ign data)).
Proof.
  intros ev s p rec ign data I Hp.
  destruct (delete_entry_cases ev s p rec ign data) as [[A _]|[e [Ef [_ [Hnil A]]]]]; rewrite A; [exact I|].
  rewrite find_entry_nonroot in Ef by assumption.
  destruct (w_find_Some _ _ _ Ef) as [ex [Hex Hv]]. subst e.
  set (ids := snd (collect_children (if h_dir (view s ex) then list_children s p else []))).
  assert (I1 : InvG (ids ++ []) (if h_dir (view s ex) then w_delete_folder_children s p else s)).
  { unfold ids. destruct (h_dir (view s ex)); [apply dfc_inv; exact I|]. simpl. exact I. }
  (* the blob at p survives DeleteFolderChildren *)
  assert (Hex1 : nfind (if h_dir (view s ex) then w_delete_folder_children s p else s) p = Some ex).
  { destruct (h_dir (view s ex)); [|assumption]. rewrite dfc_nfind.
    destruct (HardLink.is_child_of p p) eqn:E; [|assumption].
    apply is_child_of_spec in E. destruct E as [n E]. exfalso.
    apply (f_equal (@List.length _)) in E. rewrite app_length in E. simpl in E. lia. }
  (* the view of ex is the same in both states: the KV store is untouched *)
  assert (Hview : view (if h_dir (view s ex) then w_delete_folder_children s p else s) ex = view s ex).
  { destruct (h_dir (view s ex)); reflexivity. }
  pose proof (w_delete_one_inv _ _ p ex I1 Hex1) as I2. rewrite Hview in I2.
  unfold Inv. apply dhl_fold_inv. exact I2.
Qed.

Lemma grpc_delete_st : forall ev s p rec ign data,
  st_of (grpc_delete ev s p rec ign data) = st_of (delete_entry ev s p rec ign data).
Proof.
  intros. unfold grpc_delete. destruct (delete_entry ev s p rec ign data) as [[s1 r] d]. destruct r; reflexivity.
Qed.
