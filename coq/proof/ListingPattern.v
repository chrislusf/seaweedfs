(* C19: splitPattern cuts a pattern into a literal part and a rest; glob of the whole is the
   prefix test on the literal part and glob of the rest on the remainder of the name; hence the
   per-name test of the implementation is the requested one outside trig_narrow. *)
From Coq Require Import List NArith Bool String Ascii Arith Lia.
From SW Require Import model.Listing proof.ListingBase.
Import ListNotations.
Local Open Scope string_scope.

(* a string without any character that is special to filepath.Match *)
Definition literal (s : string) : Prop := find_meta s = None.

Lemma stake_sdrop : forall i s, stake i s ++ sdrop i s = s.
Proof.
  induction i as [|i IH]; intros s; simpl; auto.
  destruct s as [|c s]; simpl; auto. rewrite IH. auto.
Qed.

Lemma find_meta_split : forall s i, find_meta s = Some i ->
  find_meta (stake i s) = None /\ exists c t, sdrop i s = String c t.
Proof.
  induction s as [|d s IH]; intros i H; simpl in H; [discriminate|].
  destruct (is_meta d) eqn:E.
  - inversion H; subst. simpl. eauto.
  - destruct (find_meta s) as [j|] eqn:Ej; simpl in H; [|discriminate].
    inversion H; subst. destruct (IH j eq_refl) as [I1 I2]. simpl. rewrite E, I1. auto.
Qed.

Lemma glob_literal : forall pp rest n, literal pp ->
  glob (pp ++ rest) n = String.prefix pp n && glob rest (sdrop (String.length pp) n).
Proof.
  unfold literal. induction pp as [|c pp IH]; intros rest n H.
  - simpl. destruct n; reflexivity.
  - simpl in H. destruct (is_meta c) eqn:Em; [discriminate|].
    assert (Hl : find_meta pp = None) by (destruct (find_meta pp); [discriminate|auto]).
    unfold is_meta in Em. apply orb_false_iff in Em. destruct Em as [Em _].
    apply orb_false_iff in Em. destruct Em as [Em _]. apply orb_false_iff in Em. destruct Em as [Es Eq].
    change ((String c pp ++ rest)%string) with (String c (pp ++ rest)).
    cbn [glob]. rewrite Es. destruct n as [|d n]; [reflexivity|].
    rewrite Eq. cbn [orb String.prefix String.length sdrop].
    destruct (ascii_dec c d) as [E|E].
    + subst d. rewrite Ascii.eqb_refl. cbn [andb]. apply IH. auto.
    + rewrite (proj2 (Ascii.eqb_neq c d) E). reflexivity.
Qed.

Lemma split_pattern_ok : forall pat, pat <> "" ->
  let pp := fst (split_pattern pat) in let rest := snd (split_pattern pat) in
  pat = pp ++ rest /\ literal pp /\ rest <> "".
Proof.
  intros pat Hne. unfold split_pattern.
  destruct (find_meta pat) as [i|] eqn:Es; cbn [fst snd].
  - destruct (find_meta_split _ _ Es) as [Hl [c [t Ht]]].
    split; [symmetry; apply stake_sdrop|]. split; [exact Hl|]. rewrite Ht. discriminate.
  - split; [reflexivity|]. split; [reflexivity|exact Hne].
Qed.

Lemma prefix_empty : forall n, String.prefix "" n = true.
Proof. destruct n; reflexivity. Qed.

Lemma prefix_trans : forall a b n, String.prefix a b = true -> String.prefix b n = true -> String.prefix a n = true.
Proof.
  induction a as [|c a IH]; intros b n H1 H2; [apply prefix_empty|].
  destruct b as [|c1 b]; [discriminate|]. destruct n as [|c2 n]; [discriminate|].
  cbn [String.prefix] in *.
  destruct (ascii_dec c c1) as [E1|E1]; [|discriminate].
  destruct (ascii_dec c1 c2) as [E2|E2]; [|discriminate].
  subst. destruct (ascii_dec c2 c2) as [_|N]; [|congruence]. eapply IH; eauto.
Qed.

(* what the implementation tests per name = what the request asks for, unless a prefix and a
   pattern are given together and the pattern's literal prefix does not take over from the
   requested one: outside that trigger the effective prefix is the literal prefix [pp] of the
   pattern, and names with prefix [pp] have the requested prefix *)
Lemma match_agrees_narrow : forall prefix pat excl n,
  trig_narrow prefix pat = false ->
  String.prefix (eff_prefix prefix pat) n &&
  negb (missed (eff_prefix prefix pat) (snd (split_pattern pat)) excl n) =
  spec_match prefix pat excl n.
Proof.
  intros prefix pat excl n Hn. unfold spec_match, missed, eff_prefix.
  destruct (String.eqb_spec pat "") as [Ep|Ep].
  - subst pat. cbn [split_pattern find_meta fst snd].
    rewrite String.eqb_refl. cbn [negb andb orb]. rewrite orb_false_r. rewrite andb_true_r. reflexivity.
  - destruct (split_pattern_ok pat Ep) as [Hsplit [Hlit Hrest]].
    set (pp := fst (split_pattern pat)) in *. set (rest := snd (split_pattern pat)) in *.
    assert (Heff : (if String.eqb pp "" then prefix else pp) = pp /\
                   (String.prefix pp n = true -> String.prefix prefix n = true)).
    { unfold trig_narrow, trig_both in Hn. fold pp in Hn. rewrite (proj2 (String.eqb_neq pat "") Ep) in Hn.
      cbn [negb] in Hn. rewrite andb_true_r in Hn.
      destruct (String.eqb_spec prefix "") as [E0|E0].
      - subst prefix. split; [destruct (String.eqb_spec pp ""); congruence|intros _; apply prefix_empty].
      - cbn [negb andb] in Hn. apply negb_false_iff in Hn. apply andb_true_iff in Hn. destruct Hn as [Hpp Hpre].
        apply negb_true_iff in Hpp. rewrite Hpp. split; [reflexivity|apply prefix_trans; exact Hpre]. }
    destruct Heff as [-> Himp]. cbn [orb].
    rewrite (proj2 (String.eqb_neq rest "") Hrest). cbn [negb andb].
    replace (glob pat n) with (glob (pp ++ rest) n) by (rewrite <- Hsplit; reflexivity).
    rewrite (glob_literal pp rest n Hlit).
    destruct (String.prefix pp n) eqn:Epn; cbn [andb]; [|rewrite andb_false_r; reflexivity].
    rewrite (Himp eq_refl). cbn [andb].
    destruct (negb (String.eqb excl "") && glob excl n); cbn [orb negb andb].
    + rewrite andb_false_r. reflexivity.
    + rewrite negb_involutive, andb_true_r. reflexivity.
Qed.
