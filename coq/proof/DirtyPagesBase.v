(* Proofs about model/DirtyPages.v (C30): byte lists read at a Z position; Go's copy as an overlay. *)
From Coq Require Import List ZArith NArith Bool Lia.
From SW Require Import model.DirtyPages.
Import ListNotations.
Local Open Scope Z_scope.

(* the test "a <= p < b" as it is written throughout the model *)
Lemma range_spec : forall a b p, reflect (a <= p < b) ((a <=? p) && (p <? b)).
Proof. intros. apply iff_reflect. lia. Qed.

Definition zget (l : list N) (p : Z) : option N :=
  if p <? 0 then None else nth_error l (Z.to_nat p).

Lemma zlen_nonneg : forall {A} (l : list A), 0 <= zlen l.
Proof. intros. unfold zlen. lia. Qed.

Lemma zlen_app : forall {A} (a b : list A), zlen (a ++ b) = zlen a + zlen b.
Proof. intros. unfold zlen. rewrite app_length. lia. Qed.

Lemma zlen_nil : forall {A}, zlen (@nil A) = 0.
Proof. reflexivity. Qed.

Lemma zlen_cons : forall {A} (x : A) l, zlen (x :: l) = 1 + zlen l.
Proof. intros. unfold zlen. simpl length. lia. Qed.

Lemma zlen_pos : forall {A} (l : list A), l <> [] -> 0 < zlen l.
Proof. intros A [|x l] H; [congruence|]. rewrite zlen_cons. pose proof (zlen_nonneg l). lia. Qed.

Lemma zget_none : forall l p, zget l p = None <-> (p < 0 \/ zlen l <= p).
Proof.
  intros l p. unfold zget, zlen. destruct (Z.ltb_spec p 0).
  - tauto.
  - rewrite nth_error_None. lia.
Qed.

Lemma zget_some_range : forall l p b, zget l p = Some b -> 0 <= p < zlen l.
Proof.
  intros l p b H. assert (N : ~ (p < 0 \/ zlen l <= p)) by (rewrite <- zget_none; congruence). lia.
Qed.

Lemma zget_in_range : forall l p, 0 <= p < zlen l -> exists b, zget l p = Some b.
Proof.
  intros l p H. destruct (zget l p) eqn:E; eauto.
  apply zget_none in E. lia.
Qed.

Lemma zget_app : forall a b p, 0 <= p ->
  zget (a ++ b) p = if p <? zlen a then zget a p else zget b (p - zlen a).
Proof.
  intros a b p Hp. unfold zget, zlen.
  replace (p <? 0) with false by lia.
  destruct (Z.ltb_spec p (Z.of_nat (length a))).
  - apply nth_error_app1. lia.
  - replace (p - Z.of_nat (length a) <? 0) with false by lia.
    rewrite nth_error_app2 by lia. f_equal. lia.
Qed.

Lemma zget_cons : forall x l p, zget (x :: l) p = if p =? 0 then Some x else zget l (p - 1).
Proof.
  intros x l p. unfold zget. destruct (Z.eqb_spec p 0) as [->|]; [reflexivity|].
  destruct (Z.ltb_spec p 0).
  - replace (p - 1 <? 0) with true by lia. reflexivity.
  - replace (p - 1 <? 0) with false by lia.
    replace (Z.to_nat p) with (S (Z.to_nat (p - 1))) by lia. reflexivity.
Qed.

Lemma zget_ext : forall l1 l2, (forall p, zget l1 p = zget l2 p) -> l1 = l2.
Proof.
  induction l1 as [|x l1 IH]; intros [|y l2] H; auto; try (specialize (H 0); discriminate).
  f_equal.
  - specialize (H 0). rewrite !zget_cons in H. simpl in H. congruence.
  - apply IH. intros p. specialize (H (p + 1)). rewrite !zget_cons in H.
    destruct (Z.eqb_spec (p + 1) 0).
    + unfold zget. replace (p <? 0) with true by lia. reflexivity.
    + replace (p + 1 - 1) with p in H by lia. exact H.
Qed.

Lemma nth_error_skipn' : forall {A} (l : list A) k n, nth_error (skipn k l) n = nth_error l (k + n).
Proof.
  intros A l k. revert l. induction k as [|k IH]; intros l n; simpl; auto.
  destruct l as [|x l]; simpl; auto. destruct n; auto.
Qed.

Lemma zget_skipn : forall l k p, 0 <= p -> zget (skipn k l) p = zget l (Z.of_nat k + p).
Proof.
  intros l k p Hp. unfold zget.
  replace (p <? 0) with false by lia. destruct (Z.ltb_spec (Z.of_nat k + p) 0); [lia|].
  rewrite nth_error_skipn'. f_equal. lia.
Qed.

Lemma nth_error_firstn' : forall {A} (l : list A) k n, (n < k)%nat -> nth_error (firstn k l) n = nth_error l n.
Proof.
  intros A l k. revert l. induction k as [|k IH]; intros l n H; [lia|].
  destruct l as [|x l]; simpl; auto. destruct n; simpl; auto. apply IH. lia.
Qed.

Lemma zget_firstn : forall l k p, zget (firstn k l) p = if p <? Z.of_nat k then zget l p else None.
Proof.
  intros l k p. unfold zget. destruct (Z.ltb_spec p 0).
  - destruct (p <? Z.of_nat k); auto.
  - destruct (Z.ltb_spec p (Z.of_nat k)).
    + apply nth_error_firstn'. lia.
    + apply nth_error_None. rewrite firstn_length. lia.
Qed.

Lemma zget_slice : forall d a b p, 0 <= a ->
  zget (slice d a b) p = if (0 <=? p) && (p <? b - a) then zget d (a + p) else None.
Proof.
  intros d a b p Ha. unfold slice. rewrite zget_firstn.
  destruct (range_spec 0 (b - a) p).
  - destruct (Z.ltb_spec p (Z.of_nat (Z.to_nat (b - a)))); [|lia].
    rewrite zget_skipn by lia. f_equal. lia.
  - destruct (Z.ltb_spec p (Z.of_nat (Z.to_nat (b - a)))); auto.
    apply zget_none. lia.
Qed.

Lemma zlen_slice : forall {A} (d : list A) a b, 0 <= a -> a <= b -> b <= zlen d -> zlen (slice d a b) = b - a.
Proof.
  intros A d a b Ha Hab Hb. unfold slice, zlen in *. rewrite firstn_length, skipn_length. lia.
Qed.

Lemma slice_full : forall {A} (d : list A), slice d 0 (zlen d) = d.
Proof.
  intros. unfold slice, zlen. simpl. rewrite Z.sub_0_r, Nat2Z.id. apply firstn_all.
Qed.

Lemma zget_repeat0 : forall n p, zget (repeat 0%N n) p = if (0 <=? p) && (p <? Z.of_nat n) then Some 0%N else None.
Proof.
  intros n p. destruct (range_spec 0 (Z.of_nat n) p).
  - unfold zget. replace (p <? 0) with false by lia. apply nth_error_repeat. lia.
  - apply zget_none. unfold zlen. rewrite repeat_length. lia.
Qed.

(* blit overlays src, shifted by pos, on buf: where src has a byte it wins *)
Lemma blit_length : forall buf pos src, length (blit buf pos src) = length buf.
Proof.
  induction buf as [|b buf IH]; intros [|pos] [|s src]; simpl; auto.
Qed.

Lemma zlen_blit : forall buf pos src, zlen (blit buf pos src) = zlen buf.
Proof. intros. unfold zlen. rewrite blit_length. auto. Qed.

Lemma nth_error_blit : forall buf pos src i, (i < length buf)%nat ->
  nth_error (blit buf pos src) i =
  if (pos <=? i)%nat
  then match nth_error src (i - pos) with Some x => Some x | None => nth_error buf i end
  else nth_error buf i.
Proof.
  induction buf as [|b buf IH]; intros pos src i Hi; [simpl in Hi; lia|].
  simpl in Hi. destruct pos as [|pos]; [destruct src as [|s src]|]; destruct i as [|i]; try reflexivity.
  - simpl. rewrite IH by lia. simpl. rewrite Nat.sub_0_r. reflexivity.
  - simpl. apply IH. lia.
Qed.

Lemma zget_blit : forall buf pos src p, 0 <= pos -> p < zlen buf ->
  zget (blit buf (Z.to_nat pos) src) p =
  match zget src (p - pos) with Some x => Some x | None => zget buf p end.
Proof.
  intros buf pos src p Hpos Hp. unfold zget, zlen in *. destruct (Z.ltb_spec p 0).
  - replace (p - pos <? 0) with true by lia. reflexivity.
  - rewrite nth_error_blit by lia. destruct (Nat.leb_spec (Z.to_nat pos) (Z.to_nat p)).
    + replace (p - pos <? 0) with false by lia. rewrite Z2Nat.inj_sub by lia. reflexivity.
    + replace (p - pos <? 0) with true by lia. reflexivity.
Qed.

Lemma slice_slice : forall (d : list N) A B a b, 0 <= A -> 0 <= a -> b <= B - A ->
  slice (slice d A B) a b = slice d (A + a) (A + b).
Proof.
  intros d A B a b HA Ha Hb. apply zget_ext. intros p. rewrite !zget_slice by lia.
  replace (A + b - (A + a)) with (b - a) by lia.
  destruct (range_spec 0 (b - a) p); [|reflexivity].
  replace ((0 <=? a + p) && (a + p <? B - A)) with true by lia. f_equal. lia.
Qed.

Lemma slice_split : forall (d : list N) A B C, 0 <= A -> A <= B -> B <= C -> C <= zlen d ->
  slice d A C = slice d A B ++ slice d B C.
Proof.
  intros d A B C HA HB HC Hd. apply zget_ext. intros p. destruct (Z_lt_dec p 0).
  - transitivity (@None N); [|symmetry]; apply zget_none; lia.
  - rewrite zget_app, zlen_slice, !zget_slice by lia. destruct (Z.ltb_spec p (B - A)).
    + replace ((0 <=? p) && (p <? C - A)) with true by lia.
      replace (0 <=? p) with true by lia. reflexivity.
    + replace ((0 <=? p - (B - A)) && (p - (B - A) <? C - B)) with ((0 <=? p) && (p <? C - A)) by lia.
      replace (B + (p - (B - A))) with (A + p) by lia. reflexivity.
Qed.

Lemma slice_app_l : forall (d e : list N) A B, 0 <= A -> B <= zlen d -> slice (d ++ e) A B = slice d A B.
Proof.
  intros d e A B HA HB. apply zget_ext. intros p. rewrite !zget_slice by lia.
  destruct (range_spec 0 (B - A) p); [|reflexivity].
  rewrite zget_app by lia. replace (A + p <? zlen d) with true by lia. reflexivity.
Qed.

Lemma slice_app_r : forall (d e : list N), slice (d ++ e) (zlen d) (zlen d + zlen e) = e.
Proof.
  intros d e. apply zget_ext. intros p. pose proof (zlen_nonneg d). rewrite zget_slice by lia.
  replace (zlen d + zlen e - zlen d) with (zlen e) by lia.
  destruct (range_spec 0 (zlen e) p).
  - rewrite zget_app by lia. replace (zlen d + p <? zlen d) with false by lia. f_equal. lia.
  - symmetry. apply zget_none. lia.
Qed.

Lemma firstn_zlen : forall {A} (l : list A), firstn (Z.to_nat (zlen l)) l = l.
Proof. intros. unfold zlen. rewrite Nat2Z.id. apply firstn_all. Qed.
