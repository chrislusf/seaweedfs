(* C04: doLoading, the integrity check of the reload, makeupDiff. *)
From Coq Require Import List NArith ZArith Bool Lia Permutation.
From SW Require Import model.Volume model.Compaction proof.CompactionInv proof.CompactionRead proof.CompactionCopy.
Import ListNotations.
Local Open Scope N_scope.

Definition entry_valid (e : ientry) : bool := negb (ie_off e =? 0) && size_valid (ie_size e).

Lemma entry_valid_true : forall e, entry_valid e = true <-> ie_off e <> 0 /\ (0 < ie_size e)%Z.
Proof. intro e. unfold entry_valid. rewrite andb_true_iff, negb_true_iff, N.eqb_neq, size_valid_pos. reflexivity. Qed.

Lemma load_nz : forall idx k, nzk (load_idx idx) k.
Proof.
  induction idx as [|x idx IH]; simpl; [intros k v H; discriminate|].
  fold (entry_valid x). destruct (entry_valid x) eqn:V.
  - intros k v. unfold nm_set. simpl. destruct (ie_key x =? k).
    + intro H. inversion H; subst. simpl. apply entry_valid_true in V. lia.
    + apply IH.
  - intros k v. unfold nm_delete. destruct (nm_get (load_idx idx) (ie_key x)) as [w|] eqn:G; [|apply IH].
    destruct (size_valid (nv_size w)) eqn:W; [|apply IH]. simpl. destruct (ie_key x =? k).
    + intro H. inversion H; subst. simpl. apply size_valid_pos in W. lia.
    + apply IH.
Qed.

Lemma live_delete_same : forall m k, nzk m k -> live (nm_delete m k) k = None.
Proof.
  intros m k Hz. unfold nm_delete. destruct (nm_get m k) as [w|] eqn:G.
  - destruct (size_valid (nv_size w)) eqn:W.
    + unfold live. simpl. rewrite N.eqb_refl. simpl. destruct (nv_off w =? 0); [reflexivity|].
      apply size_valid_pos in W. assert (D : size_deleted (- nv_size w) = true) by (apply size_deleted_neg; lia).
      rewrite D. reflexivity.
    + unfold live. rewrite G. destruct (nv_off w =? 0); [reflexivity|].
      rewrite (proj2 (size_deleted_neg _) (size_invalid_neg _ W (Hz w G))). reflexivity.
  - unfold live. rewrite G. reflexivity.
Qed.

Lemma live_delete_other : forall m k k', k <> k' -> live (nm_delete m k) k' = live m k'.
Proof. intros m k k' H. unfold live. rewrite nm_get_delete_neq by exact H. reflexivity. Qed.

Lemma load_live : forall idx k,
  live (load_idx idx) k =
  match idx_get idx k with
  | Some e => if entry_valid e then Some (ie_off e, ie_size e) else None
  | None => None
  end.
Proof.
  induction idx as [|x idx IH]; simpl; intro k; [reflexivity|].
  fold (entry_valid x). destruct (ie_key x =? k) eqn:E.
  - apply N.eqb_eq in E. subst k. destruct (entry_valid x) eqn:V.
    + apply entry_valid_true in V.
      apply (live_intro _ _ {| nv_off := ie_off x; nv_size := ie_size x |}); [apply nm_get_set_eq | tauto | simpl; lia].
    + apply live_delete_same. apply load_nz.
  - apply N.eqb_neq in E. destruct (entry_valid x).
    + unfold live. rewrite nm_get_set_neq by exact E. apply IH.
    + rewrite live_delete_other by exact E. apply IH.
Qed.

Lemma commit_noop : forall F, check_noop (check_files F) = true ->
  commit F = {| recs := f_recs F; nm := load_idx (f_idx F); dat_end := f_end F;
                no_write_or_delete := false; no_write_can_delete := false |}.
Proof.
  intros F H. unfold commit, check_noop in *. destruct (check_files F) as [[d t] e]. simpl in *.
  apply andb_prop in H. destruct H as [H He]. apply andb_prop in H. destruct H as [Hd Ht].
  apply Nat.eqb_eq in Hd. subst d. destruct t; [discriminate|]. apply negb_true_iff in He. subst e. reflexivity.
Qed.

(* the two verdicts on which CheckAndFixVolumeDataIntegrity goes on to the next older entry *)
Definition soft (v : vres) : Prop := v = VEof \/ v = VMismatch.

Lemma check_loop_prefix : forall rs fend l i drop lm d t e,
  check_loop rs fend l i drop lm = (d, t, e) ->
  d = drop \/ ((i <= d)%nat /\ (d < i + length l)%nat /\
               forall x, In x (firstn (S (d - i)) l) -> soft (verify_entry rs fend x)).
Proof.
  induction l as [|x l IH]; intros i drop lm d t e H; simpl in H; [inversion H; auto|].
  destruct (verify_entry rs fend x) eqn:V; try (inversion H; auto; fail).
  - destruct (IH _ _ _ _ _ _ H) as [->|[A [B C]]].
    + right. split; [lia|]. split; [simpl; lia|]. replace (i - i)%nat with 0%nat by lia.
      intros y [<-|[]]. left. exact V.
    + right. split; [lia|]. split; [simpl; lia|]. replace (S (d - i)) with (S (S (d - S i))) by lia.
      intros y [<-|Hy]; [left; exact V | apply C; exact Hy].
  - destruct (IH _ _ _ _ _ _ H) as [->|[A [B C]]]; [left; reflexivity|].
    right. split; [lia|]. split; [simpl; lia|]. replace (S (d - i)) with (S (S (d - S i))) by lia.
    intros y [<-|Hy]; [right; exact V | apply C; exact Hy].
Qed.

Lemma check_files_dropped : forall F x, In x (firstn (fst (fst (check_files F))) (f_idx F)) ->
  soft (verify_entry (f_recs F) (f_end F) x).
Proof.
  intros F x Hin. unfold check_files in *.
  destruct (check_loop (f_recs F) (f_end F) (firstn 10 (f_idx F)) 1 0 false) as [[d t] e] eqn:C. simpl in Hin.
  destruct (check_loop_prefix _ _ _ _ _ _ _ _ _ C) as [->|[A [B Hall]]]; [simpl in Hin; contradiction|].
  apply Hall. replace (S (d - 1)) with d by lia.
  assert (Hl : (length (firstn 10 (f_idx F)) <= 10)%nat) by apply firstn_le_length.
  rewrite firstn_firstn. replace (Nat.min d 10) with d by lia. exact Hin.
Qed.

Lemma verify_negative : forall rs fend e, (ie_size e < 0)%Z -> ~ soft (verify_entry rs fend e).
Proof.
  intros rs fend e H [S|S]; unfold verify_entry in S; destruct (ie_off e =? 0); try discriminate;
    (assert (L : (ie_size e <? 0)%Z = true) by (apply Z.ltb_lt; exact H)); rewrite L in S;
    destruct rs as [|r rs]; try discriminate;
    destruct ((r_off r + 32 =? fend) && (r_size r =? 0) && (n_id (r_n r) =? ie_key e)); discriminate.
Qed.

Lemma commit_dead : forall F k,
  (idx_get (f_idx F) k = None \/ exists e, idx_get (f_idx F) k = Some e /\ (ie_size e < 0)%Z) ->
  live (nm (commit F)) k = None.
Proof.
  intros F k H. unfold commit. simpl nm. set (d := fst (fst (check_files F))).
  rewrite load_live.
  assert (Hsplit : f_idx F = firstn d (f_idx F) ++ skipn d (f_idx F)) by (symmetry; apply firstn_skipn).
  destruct H as [Hn|[e [He Hneg]]].
  - rewrite Hsplit, idx_get_app in Hn. destruct (idx_get (firstn d (f_idx F)) k); [discriminate|]. rewrite Hn. reflexivity.
  - assert (Hfirst : idx_get (firstn d (f_idx F)) k = None).
    { destruct (idx_get (firstn d (f_idx F)) k) as [x|] eqn:G; [|reflexivity]. exfalso.
      assert (Hx : idx_get (f_idx F) k = Some x) by (rewrite Hsplit, idx_get_app, G; reflexivity).
      rewrite He in Hx. inversion Hx; subst x.
      apply (verify_negative (f_recs F) (f_end F) e Hneg). apply check_files_dropped. eapply idx_get_In. exact G. }
    rewrite Hsplit, idx_get_app, Hfirst in He. rewrite He.
    destruct (entry_valid e) eqn:V; [apply entry_valid_true in V; lia | reflexivity].
Qed.

Lemma diff_entries_app : forall (d i1 : idxlog), diff_entries (length i1) (d ++ i1) = d.
Proof.
  intros d i1. unfold diff_entries. rewrite app_length.
  replace (length d + length i1 - length i1)%nat with (length d) by lia.
  rewrite firstn_app, Nat.sub_diag, firstn_all. simpl. apply app_nil_r.
Qed.

Lemma dedup_spec : forall l seen,
  NoDup (dedup seen l) /\ forall k, In k (dedup seen l) <-> (In k l /\ ~ In k seen).
Proof.
  induction l as [|x l IH]; intro seen; simpl.
  - split; [constructor | intro k; tauto].
  - destruct (existsb (N.eqb x) seen) eqn:E.
    + destruct (IH seen) as [A B]. split; [exact A|]. intro k. rewrite B.
      apply existsb_exists in E. destruct E as [y [Hy Hxy]]. apply N.eqb_eq in Hxy. subst y.
      split; [tauto|]. intros [[->|Hk] Hs]; [contradiction | auto].
    + destruct (IH (x :: seen)) as [A B]. split.
      * constructor; [|exact A]. rewrite B. simpl. tauto.
      * intro k. simpl. rewrite B. simpl.
        assert (Hx : ~ In x seen).
        { intro Hin. assert (existsb (N.eqb x) seen = true) by (apply existsb_exists; exists x; split; [exact Hin | apply N.eqb_refl]). congruence. }
        split.
        -- intros [->|[Hk Hs]]; [auto | tauto].
        -- intros [[->|Hk] Hs]; [auto|]. destruct (N.eq_dec x k) as [->|Hne]; [auto | right; tauto].
Qed.

(* what "any iteration order of the Go map" gives us *)
Lemma ord_facts : forall ord d, Permutation ord (dedup [] (map ie_key d)) ->
  NoDup ord /\ forall k, In k ord <-> idx_get d k <> None.
Proof.
  intros ord d P. destruct (dedup_spec (map ie_key d) []) as [A B]. split.
  - eapply Permutation_NoDup; [apply Permutation_sym; exact P | exact A].
  - intro k. split.
    + intro Hin. apply (Permutation_in _ P) in Hin. apply B in Hin. destruct Hin as [Hin _].
      intro Hn. apply idx_get_none_iff in Hn. contradiction.
    + intro Hn. apply (Permutation_in _ (Permutation_sym P)). apply B. split; [|intros []].
      destruct (in_dec N.eq_dec k (map ie_key d)) as [Hin|Hnin]; [exact Hin|].
      exfalso. apply Hn. apply idx_get_none_iff. exact Hnin.
Qed.

Definition mstep (old : vol) (d : idxlog) (F : files) (k : N) : files :=
  match idx_get d k with Some e => makeup_one old F e | None => F end.

Lemma makeup_unfold : forall ord F n1 s2,
  makeup ord F n1 s2 = fold_left (mstep (cv s2) (diff_entries n1 (cidx s2))) ord F.
Proof. reflexivity. Qed.

(* makeupDiff's test for an updated needle is doLoading's test for a live entry *)
Lemma makeup_test : forall e,
  negb (ie_off e =? 0) && negb (ie_size e =? 0)%Z && size_valid (ie_size e) = entry_valid e.
Proof.
  intro e. unfold entry_valid. destruct (ie_off e =? 0); [reflexivity|].
  destruct (Z.eqb_spec (ie_size e) 0) as [->|]; reflexivity.
Qed.

Definition fsorted (F : files) : Prop := sorted_recs (f_recs F) (f_end F).

(* an entry that can be made up: when it is an update, the old .dat has the record *)
Definition ent_src (old : vol) (e : ientry) : Prop :=
  entry_valid e = true -> exists r, find_rec (recs old) (ie_off e) = Some r /\ Z.of_N (r_size r) = ie_size e.

Lemma idx_ent_src : forall s k e, cinv s -> idx_get (cidx s) k = Some e -> ent_src (cv s) e.
Proof.
  intros s k e H G U. apply entry_valid_true in U. destruct U as [Ho Hs].
  assert (D : entry_dead e = false) by (apply entry_dead_false; split; [exact Ho | lia]).
  destruct (live_facts _ _ _ _ H (idx_live _ _ _ H G D)) as [_ [_ [_ [r [Hf [Hsz _]]]]]]. exists r. auto.
Qed.

Lemma makeup_one_shape : forall old F e, ent_src old e -> exists nr o,
  f_recs (makeup_one old F e) = nr :: f_recs F /\ r_off nr = f_end F /\
  f_end (makeup_one old F e) = f_end F + actual_size (r_size nr) /\
  f_idx (makeup_one old F e) = {| ie_key := ie_key e; ie_off := o; ie_size := ie_size e |} :: f_idx F /\
  if entry_valid e
  then o = f_end F /\ Z.of_N (r_size nr) = ie_size e /\
       exists r, find_rec (recs old) (ie_off e) = Some r /\ pl nr = pl r
  else o = 0 /\ r_size nr = 0 /\ n_id (r_n nr) = ie_key e.
Proof.
  intros old F e Hsrc. unfold makeup_one. rewrite makeup_test. destruct (entry_valid e) eqn:U.
  - destruct (Hsrc U) as [r [Hf Hsz]]. rewrite Hf, <- Hsz, N2Z.id.
    eexists. exists (f_end F). cbn [f_recs f_end f_idx r_off r_size]. repeat split. exists r. auto.
  - eexists. exists 0. cbn [f_recs f_end f_idx r_off r_size]. repeat split.
Qed.

Record append_only (F0 F : files) : Prop := {
  fi_sorted : fsorted F;
  fi_old : forall off r, find_rec (f_recs F0) off = Some r -> find_rec (f_recs F) off = Some r
}.

Lemma mstep_append_only : forall old d F k, fsorted F -> (forall k e, idx_get d k = Some e -> ent_src old e) ->
  append_only F (mstep old d F k).
Proof.
  intros old d F k Hs Hsrc. unfold mstep. destruct (idx_get d k) as [e|] eqn:G; [|constructor; auto].
  destruct (makeup_one_shape old F e (Hsrc _ _ G)) as [nr [o [Er [Eo [Ee _]]]]]. unfold fsorted in *.
  constructor; unfold fsorted; rewrite Er; [rewrite Ee; constructor; [lia | rewrite Eo; exact Hs]|].
  intros off r Hf. eapply find_rec_keep; eauto.
Qed.

Lemma fold_append_only : forall old d ord F, fsorted F -> (forall k e, idx_get d k = Some e -> ent_src old e) ->
  append_only F (fold_left (mstep old d) ord F).
Proof.
  intros old d. induction ord as [|k ord IH]; intros F Hs Hsrc; simpl; [constructor; auto|].
  destruct (mstep_append_only old d F k Hs Hsrc) as [S1 O1]. destruct (IH _ S1 Hsrc) as [S2 O2]. constructor; auto.
Qed.

Lemma makeup_idx_other : forall old d ord F k, ~ In k ord ->
  idx_get (f_idx (fold_left (mstep old d) ord F)) k = idx_get (f_idx F) k.
Proof.
  intros old d. induction ord as [|k0 ord IH]; intros F k Hn; simpl in Hn |- *; [reflexivity|].
  rewrite IH by tauto. unfold mstep. destruct (idx_get d k0) as [e0|] eqn:G0; [|reflexivity].
  unfold makeup_one. destruct (negb (ie_off e0 =? 0) && negb (ie_size e0 =? 0)%Z && size_valid (ie_size e0));
    simpl; rewrite (idx_get_key _ _ _ G0); (destruct (k0 =? k) eqn:E; [apply N.eqb_eq in E; tauto | reflexivity]).
Qed.

Lemma makeup_key : forall old d ord F k e, NoDup ord -> fsorted F ->
  (forall k e, idx_get d k = Some e -> ent_src old e) -> In k ord -> idx_get d k = Some e ->
  exists o, idx_get (f_idx (fold_left (mstep old d) ord F)) k =
              Some {| ie_key := k; ie_off := o; ie_size := ie_size e |} /\
            (entry_valid e = true -> 8 <= o /\ exists r r', find_rec (recs old) (ie_off e) = Some r /\
               find_rec (f_recs (fold_left (mstep old d) ord F)) o = Some r' /\ pl r' = pl r).
Proof.
  intros old d. induction ord as [|k0 ord IH]; intros F k e Hnd Hs Hsrc Hin G; [contradiction|].
  simpl. inversion Hnd as [|? ? Hk0 Hnd']; subst.
  pose proof (mstep_append_only old d F k0 Hs Hsrc) as [S1 _].
  destruct Hin as [->|Hin]; [|apply IH; assumption].
  assert (E1 : mstep old d F k = makeup_one old F e) by (unfold mstep; rewrite G; reflexivity).
  rewrite E1 in *. rewrite makeup_idx_other by exact Hk0.
  destruct (fold_append_only old d ord _ S1 Hsrc) as [_ O2].
  destruct (makeup_one_shape old F e (Hsrc _ _ G)) as [nr [o [Er [Eo [Ee [Ei Hu]]]]]].
  exists o. rewrite Ei. simpl. rewrite (idx_get_key _ _ _ G), N.eqb_refl. split; [reflexivity|].
  intro U. rewrite U in Hu. destruct Hu as [-> [_ [r [Hf Hpl]]]].
  split; [eapply sorted_recs_end; exact Hs|]. exists r, nr. split; [exact Hf|]. split; [|exact Hpl].
  apply O2. rewrite Er. simpl. rewrite Eo, N.eqb_refl. reflexivity.
Qed.
