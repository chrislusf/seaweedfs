(* C19: inputs inside trig_narrow on which list_entries differs from spec_names (reproduced on
   the real Filer by harness/cmd/c19), regression inputs, and non-vacuity examples. *)
From Coq Require Import List NArith Bool String Ascii Arith Lia.
From SW Require Import model.Listing proof.ListingBase proof.ListingStore proof.ListingScan proof.ListingPattern proof.ListingProofs.
Import ListNotations.
Local Open Scope string_scope.
Local Open Scope list_scope.
Local Notation length := List.length.

Definition live_dir (names : list string) : dirst := map (fun n => (n, false)) names.

Ltac wf_by_compute := apply wfb_wf; vm_compute; reflexivity.
(* closed facts: conjunctions of equations, possibly about a result that is not written out *)
Ltac conj_compute :=
  repeat (match goal with |- _ /\ _ => split | |- exists _, _ => eexists end); vm_compute; reflexivity.

(* a call that returns another page than the requested one refutes exactness *)
Lemma not_exact : forall s d start incl L prefix pat excl names more r,
  list_entries s d start incl L prefix pat excl = Some (names, more, r) ->
  names <> firstn L (spec_names d start incl prefix pat excl) ->
  ~ exact_at s d start incl L prefix pat excl.
Proof.
  intros s d start incl L prefix pat excl names more r E Hne [names' [more' [r' [E' [Hn _]]]]].
  rewrite E in E'. injection E' as <- _ _. exact (Hne Hn).
Qed.

(* finding 0: prefix and pattern together (the code comment calls them mutually exclusive):
   the pattern's literal prefix replaces the requested prefix *)
Lemma refuted_prefix_and_pattern :
  let d := live_dir ["a"; "ab"; "b"] in
  wf d /\ trig_narrow "b" "a*" = true /\
  (exists r, list_entries Lvl d "" false 10 "b" "a*" "" = Some (["a"; "ab"], false, r)) /\
  (exists r, list_entries Gen d "" false 10 "b" "a*" "" = Some (["a"; "ab"], false, r)) /\
  spec_names d "" false "b" "a*" "" = [] /\
  ~ exact_at Lvl d "" false 10 "b" "a*" "" /\ ~ exact_at Gen d "" false 10 "b" "a*" "".
Proof.
  cbv zeta. split; [wf_by_compute|]. do 4 (split; [conj_compute|]).
  split; (eapply not_exact; [vm_compute; reflexivity|vm_compute; discriminate]).
Qed.

(* ... also when the pattern has no literal prefix: the rest pattern is then matched against
   the name WITHOUT the requested prefix *)
Lemma refuted_prefix_and_pattern_rest :
  let d := live_dir ["a"; "ab"; "b"] in
  wf d /\ trig_narrow "a" "?b" = true /\
  (exists r, list_entries Lvl d "" false 10 "a" "?b" "" = Some ([], false, r)) /\
  spec_names d "" false "a" "?b" "" = ["ab"] /\
  ~ exact_at Lvl d "" false 10 "a" "?b" "".
Proof.
  cbv zeta. split; [wf_by_compute|]. do 3 (split; [conj_compute|]).
  eapply not_exact; [vm_compute; reflexivity|vm_compute; discriminate].
Qed.

Example repaired_witnesses :
  (* pattern without wildcard *)
  (exists r, list_entries Lvl (live_dir ["a"; "ab"; "b"]) "" false 10 "" "ab" "" = Some (["ab"], false, r)) /\
  (* '?' before the first '*' *)
  (exists r, list_entries Lvl (live_dir ["ab"; "abc"; "bb"]) "" false 10 "" "?b*" "" = Some (["ab"; "abc"; "bb"], false, r)) /\
  (* leveldb, start below the prefix range *)
  (exists r, list_entries Lvl (live_dir ["a"; "b"]) "a" false 10 "b" "" "" = Some (["b"], false, r)) /\
  (* generic path: terminates, no duplicates *)
  (exists r, list_entries Gen (live_dir ["a"; "b"; "c"; "d"]) "" false 0 "d" "" "" = Some ([], true, r)) /\
  (exists r, list_entries Gen [("a", false); ("b", true); ("b0", true); ("ba", false); ("bb", false)] "" false 3 "b" "" ""
             = Some (["ba"; "bb"], false, r)) /\
  (* refill that finds nothing *)
  (exists r, list_entries Lvl [("a", false); ("b", false); ("c", true)] "" false 2 "" "*a" "" = Some (["a"], false, r)) /\
  paginate_stream 10 Lvl [("a", false); ("b", true)] "" false 3 "" = Some [["a"]].
Proof. conj_compute. Qed.

Definition ex_dir : dirst :=
  [("a", false); ("a b", true); ("ab", false); ("abc", true); ("b", false); ("b0", true); ("ba", false); ("c", false)].

Example exact_example :
  wf ex_dir /\
  trig_narrow "" "a*" = false /\
  (exists r, list_entries Lvl ex_dir "a" false 1 "" "a*" "*c" = Some (["ab"], false, r) /\
             map ename (r_dir r) = ["a"; "ab"; "b"; "b0"; "ba"; "c"]) /\
  (exists r, list_entries Gen ex_dir "a" false 1 "" "a*" "*c" = Some (["ab"], false, r) /\
             map ename (r_dir r) = ["a"; "ab"; "b"; "b0"; "ba"; "c"]) /\
  (* expired entries interleaved, page still full *)
  (exists r, list_entries Lvl ex_dir "" false 2 "b" "" "" = Some (["b"; "ba"], false, r)) /\
  (exists r, list_entries Gen ex_dir "" false 1 "b" "" "" = Some (["b"], true, r)).
Proof.
  split; [wf_by_compute|conj_compute].
Qed.

Example paginate_example :
  paginate 10 Lvl ex_dir "" false 2 "" "" "a*" = Some [["b"; "ba"]; ["c"]] /\
  paginate 10 Gen ex_dir "" false 2 "" "" "a*" = Some [["b"; "ba"]; ["c"]] /\
  paginate_stream 10 Lvl ex_dir "" false 2 "" = Some [["a"; "ab"]; ["b"; "ba"]; ["c"]] /\
  paginate_stream 10 Gen ex_dir "" false 2 "a" = Some [["a"; "ab"]] /\
  spec_names ex_dir "" false "" "" "a*" = ["b"; "ba"; "c"].
Proof. conj_compute. Qed.

Example refill_example :
  exists r, list_valid Lvl ex_dir "" true 3 "a" = Some r /\
            r_names r = ["a"; "ab"] /\ map ename (r_dir r) = ["a"; "ab"; "b"; "b0"; "ba"; "c"].
Proof. conj_compute. Qed.

(* prefix and pattern together, but the pattern's literal prefix extends the prefix: outside
   trig_narrow, served exactly *)
Example narrow_example :
  trig_both "a" "ab*" = true /\ trig_narrow "a" "ab*" = false /\
  (exists r, list_entries Lvl ex_dir "" false 5 "a" "ab*" "" = Some (["ab"], false, r)) /\
  (exists r, list_entries Gen ex_dir "" false 5 "a" "ab*" "" = Some (["ab"], false, r)) /\
  spec_names ex_dir "" false "a" "ab*" "" = ["ab"].
Proof. conj_compute. Qed.
