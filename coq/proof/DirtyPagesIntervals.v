(* Proofs about the interval lists of model/DirtyPages.v (C30), generic in the node payload.
   A list denotes a partial function from file offsets to bytes (lat), a collection of lists the
   union of these (cat); every operation is specified by what it does to that function.  Neither
   well-formedness nor cat depends on the order of the lists in a collection, so a list that an
   operation works on is first moved to the front. *)
From Coq Require Import List ZArith NArith Bool Lia Permutation.
From SW Require Import model.DirtyPages proof.DirtyPagesBase.
Import ListNotations.
Local Open Scope Z_scope.

(* R holds between every two members of l, the earlier one first; used with sepd *)
Fixpoint pairwise {A} (R : A -> A -> Prop) (l : list A) : Prop :=
  match l with
  | [] => True
  | x :: l' => Forall (R x) l' /\ pairwise R l'
  end.

Lemma pairwise_app : forall {A} (R : A -> A -> Prop) a b,
  pairwise R (a ++ b) <-> pairwise R a /\ pairwise R b /\ (forall x y, In x a -> In y b -> R x y).
Proof.
  intros A R a b. induction a as [|x a IH]; simpl.
  - split; [intros H; repeat split; auto; intros ? ? []|tauto].
  - rewrite Forall_app, IH. split.
    + intros [[H1 H2] [H3 [H4 H5]]]. repeat split; auto.
      intros u v [Hu|Hu] Hv; [subst; rewrite Forall_forall in H2; auto|auto].
    + intros [[H1 H2] [H3 H4]]. repeat split; auto.
      apply Forall_forall. intros v Hv. apply H4; auto.
Qed.

Lemma pairwise_In : forall {A} (R : A -> A -> Prop) l x y,
  (forall u v, R u v -> R v u) -> pairwise R l -> In x l -> In y l -> x = y \/ R x y.
Proof.
  intros A R l x y Hsym. induction l as [|z l IH]; simpl; [tauto|].
  intros [H1 H2] [Hx|Hx] [Hy|Hy]; subst; auto.
  - right. rewrite Forall_forall in H1. auto.
  - right. rewrite Forall_forall in H1. apply Hsym. auto.
Qed.

Lemma pairwise_flat_map : forall {A B} (R : A -> A -> Prop) (S : B -> B -> Prop) (g : A -> list B) c,
  pairwise R c ->
  (forall l, In l c -> pairwise S (g l)) ->
  (forall l m z w, In l c -> In m c -> R l m -> In z (g l) -> In w (g m) -> S z w) ->
  pairwise S (flat_map g c).
Proof.
  intros A B R S g c. induction c as [|l c IH]; simpl; auto.
  intros [H1 H2] Hg Hx. apply pairwise_app. split; [apply Hg; auto|]. split.
  - apply IH; auto.
    intros l0 m z w Hl0 Hm. apply Hx; right; auto.
  - intros z w Hz Hw. apply in_flat_map in Hw. destruct Hw as [m [Hm Hw]].
    rewrite Forall_forall in H1. apply (Hx l m); auto.
Qed.

Lemma pairwise_perm : forall {A} (R : A -> A -> Prop) l l', (forall x y, R x y -> R y x) ->
  Permutation l l' -> pairwise R l -> pairwise R l'.
Proof.
  intros A R l l' Hsym HP. induction HP as [|x l l' HP IH|x y l|l l' l'' _ IH1 _ IH2]; simpl; auto.
  - intros [H1 H2]. split; auto. rewrite <- HP. exact H1.
  - intros [H1 [H2 H3]]. inversion H1; subst. repeat split; auto.
Qed.

Lemma in_perm : forall {A} (c : list A) x, In x c -> exists r, Permutation c (x :: r).
Proof.
  intros A c x H. apply in_split in H. destruct H as [a [b H]]. subst c.
  exists (a ++ b). symmetry. apply Permutation_middle.
Qed.

Section Generic.
  Variable P : Type.
  Variable psub : P -> Z -> Z -> P.
  Variable merge_tail : node P -> node P -> option (node P).
  Variable fetch : P -> Z -> Z -> list N.

  Notation node := (node P).
  Notation ilist := (ilist P).
  Notation hd := (head_off P).
  Notation te := (tail_end P).
  Notation att := (add_to_tail P merge_tail).
  Notation sub_list := (sub_list P psub).
  Notation clip := (clip P psub).
  Notation l_size := (l_size P).

  Definition nbytes (t : node) : list N := fetch (n_pay t) 0 (n_size t).

  Variable valid : node -> Prop.
  Hypothesis H_len : forall t, valid t -> 0 < n_size t /\ zlen (nbytes t) = n_size t.
  Hypothesis H_fetch : forall t a b, valid t -> 0 <= a -> a <= b -> b <= n_size t ->
    fetch (n_pay t) a b = slice (nbytes t) a b.
  (* the node that clip cuts out of t between the file offsets a and b *)
  Hypothesis H_sub : forall t a b, valid t -> n_off t <= a -> a < b -> b <= n_off t + n_size t ->
    let t' := {| n_off := a; n_size := b - a; n_pay := psub (n_pay t) (a - n_off t) (b - n_off t) |} in
    valid t' /\ nbytes t' = slice (nbytes t) (a - n_off t) (b - n_off t).
  Hypothesis H_merge : forall t u w, valid t -> valid u -> n_off u = n_off t + n_size t ->
    merge_tail t u = Some w ->
    valid w /\ n_off w = n_off t /\ n_size w = n_size t + n_size u /\ nbytes w = nbytes t ++ nbytes u.

  Definition nat_ (t : node) (p : Z) : option N :=
    if (n_off t <=? p) && (p <? n_off t + n_size t) then zget (nbytes t) (p - n_off t) else None.
  Fixpoint lat (l : ilist) (p : Z) : option N :=
    match l with
    | [] => None
    | t :: l' => match nat_ t p with Some b => Some b | None => lat l' p end
    end.
  Fixpoint cat (c : list ilist) (p : Z) : option N :=
    match c with
    | [] => None
    | l :: c' => match lat l p with Some b => Some b | None => cat c' p end
    end.

  Fixpoint chain (l : ilist) : Prop :=
    match l with
    | [] => True
    | t :: l' => valid t /\ match l' with [] => True | u :: _ => n_off u = n_off t + n_size t end /\ chain l'
    end.
  Definition wfl (l : ilist) : Prop := l <> [] /\ chain l.
  Definition sepd (l m : ilist) : Prop := te l < hd m \/ te m < hd l.      (* disjoint and not adjacent *)
  Definition wf (c : list ilist) : Prop := Forall wfl c /\ pairwise sepd c.

  Lemma sepd_sym : forall l m, sepd l m -> sepd m l.
  Proof. unfold sepd. tauto. Qed.

  Lemma nat_range : forall t p x, nat_ t p = Some x -> n_off t <= p < n_off t + n_size t.
  Proof.
    unfold nat_. intros t p x. destruct (range_spec (n_off t) (n_off t + n_size t) p); [auto|discriminate].
  Qed.

  Lemma nat_outside : forall t p, ~ (n_off t <= p < n_off t + n_size t) -> nat_ t p = None.
  Proof.
    unfold nat_. intros t p H. destruct (range_spec (n_off t) (n_off t + n_size t) p); tauto.
  Qed.

  Lemma nat_inside : forall t p, valid t -> n_off t <= p < n_off t + n_size t -> exists x, nat_ t p = Some x.
  Proof.
    intros t p Hv Hp. unfold nat_. destruct (range_spec (n_off t) (n_off t + n_size t) p); [|tauto].
    apply zget_in_range. destruct (H_len t Hv). lia.
  Qed.

  (* a node whose bytes are those of t followed by those of u, as merge_tail makes it *)
  Lemma nat_merge : forall t u w p, valid t -> valid u -> n_off u = n_off t + n_size t ->
    n_off w = n_off t -> n_size w = n_size t + n_size u -> nbytes w = nbytes t ++ nbytes u ->
    nat_ w p = match nat_ t p with Some x => Some x | None => nat_ u p end.
  Proof.
    intros t u w p Hv Hvu Hu Ho Hs Hb. destruct (H_len t Hv) as [Hst Hl]. destruct (H_len u Hvu) as [Hsu _].
    unfold nat_. rewrite Ho, Hs, Hb, Hu.
    destruct (range_spec (n_off t) (n_off t + n_size t) p).
    - replace ((n_off t <=? p) && (p <? n_off t + (n_size t + n_size u))) with true by lia.
      rewrite zget_app by lia. replace (p - n_off t <? zlen (nbytes t)) with true by lia.
      destruct (zget_in_range (nbytes t) (p - n_off t)) as [x Hx]; [lia|]. rewrite Hx. reflexivity.
    - destruct (range_spec (n_off t + n_size t) (n_off t + n_size t + n_size u) p).
      + replace ((n_off t <=? p) && (p <? n_off t + (n_size t + n_size u))) with true by lia.
        rewrite zget_app by lia. replace (p - n_off t <? zlen (nbytes t)) with false by lia.
        f_equal. lia.
      + replace ((n_off t <=? p) && (p <? n_off t + (n_size t + n_size u))) with false by lia. reflexivity.
  Qed.

  (* l is a chain of valid nodes covering exactly the offsets a <= p < b: wfl with its end points
     (wfl_seg, seg_wfl), which is what the proofs work with *)
  Fixpoint seg (a : Z) (l : ilist) (b : Z) : Prop :=
    match l with
    | [] => a = b
    | t :: l' => valid t /\ n_off t = a /\ seg (a + n_size t) l' b
    end.

  Lemma seg_le : forall l a b, seg a l b -> a <= b /\ (l <> [] -> a < b).
  Proof.
    induction l as [|t l IH]; intros a b H.
    - simpl in H. split; [lia|congruence].
    - destruct H as [Hv [_ H]]. destruct (H_len t Hv). apply IH in H. lia.
  Qed.

  Lemma seg_app : forall l1 l2 a b c, seg a l1 b -> seg b l2 c -> seg a (l1 ++ l2) c.
  Proof.
    induction l1 as [|t l1 IH]; intros l2 a b c H1 H2.
    - simpl in H1. subst. exact H2.
    - destruct H1 as [Hv [Ho H1]]. simpl. eauto.
  Qed.

  Lemma wfl_seg : forall l, wfl l -> seg (hd l) l (te l).
  Proof.
    intros l [Hne Hc]. induction l as [|t l IH]; [congruence|].
    destruct Hc as [Hv [Hu Hc]]. cbn [seg head_off]. split; [exact Hv|]. split; [reflexivity|].
    destruct l as [|u l]; [reflexivity|].
    change (te (t :: u :: l)) with (te (u :: l)). rewrite <- Hu. apply IH; [discriminate|exact Hc].
  Qed.

  Lemma seg_wfl : forall l a b, seg a l b -> a < b -> wfl l /\ hd l = a /\ te l = b.
  Proof.
    induction l as [|t l IH]; intros a b H Hab; [simpl in H; lia|].
    destruct H as [Hv [Ho H]]. destruct l as [|u l].
    - simpl in H. repeat split; simpl; auto; try lia. discriminate.
    - destruct (seg_le _ _ _ H) as [_ Hlt]. destruct (IH _ _ H) as [[_ Hc] [Hh Ht]]; [apply Hlt; discriminate|].
      simpl in Hh. split; [split; [discriminate|]|split; [exact Ho|exact Ht]].
      split; [exact Hv|]. split; [lia|exact Hc].
  Qed.

  Lemma wfl_hd_lt_te : forall l, wfl l -> hd l < te l.
  Proof. intros l H. pose proof H as [Hne _]. apply wfl_seg, seg_le in H. tauto. Qed.

  Lemma lat_app : forall l1 l2 p, lat (l1 ++ l2) p = match lat l1 p with Some b => Some b | None => lat l2 p end.
  Proof.
    induction l1 as [|t l1 IH]; intros l2 p; simpl; auto.
    destruct (nat_ t p); auto.
  Qed.

  Lemma lat_range : forall l a b p x, seg a l b -> lat l p = Some x -> a <= p < b.
  Proof.
    induction l as [|t l IH]; intros a b p x H E; [discriminate|].
    destruct H as [Hv [Ho H]]. destruct (H_len t Hv). destruct (seg_le _ _ _ H) as [Hle _]. simpl in E.
    destruct (nat_ t p) eqn:En.
    - apply nat_range in En. lia.
    - apply (IH _ _ _ _ H) in E. lia.
  Qed.

  Lemma lat_outside : forall l a b p, seg a l b -> ~ (a <= p < b) -> lat l p = None.
  Proof.
    intros l a b p H Hp. destruct (lat l p) eqn:E; auto. apply (lat_range _ _ _ _ _ H) in E. tauto.
  Qed.

  Lemma lat_inside : forall l a b p, seg a l b -> a <= p < b -> exists x, lat l p = Some x.
  Proof.
    induction l as [|t l IH]; intros a b p H Hp; [simpl in H; lia|].
    destruct H as [Hv [Ho H]]. simpl. destruct (nat_ t p) eqn:En; eauto.
    apply (IH _ _ _ H). destruct (Z_lt_dec p (a + n_size t)); [|lia].
    destruct (nat_inside t p Hv) as [x Hx]; [lia|congruence].
  Qed.

  Lemma cat_app : forall c1 c2 p, cat (c1 ++ c2) p = match cat c1 p with Some b => Some b | None => cat c2 p end.
  Proof.
    induction c1 as [|l c1 IH]; intros c2 p; simpl; auto.
    destruct (lat l p); auto.
  Qed.

  Lemma cat_some : forall c p b, cat c p = Some b -> exists l, In l c /\ lat l p = Some b.
  Proof.
    induction c as [|l c IH]; intros p b H; [discriminate|]. simpl in H.
    destruct (lat l p) eqn:E.
    - exists l. split; [left; auto|congruence].
    - destruct (IH p b H) as [m [Hm Hb]]. exists m. split; [right; auto|auto].
  Qed.

  Lemma lat_cat_disjoint : forall l c p b, wf (l :: c) -> lat l p = Some b -> cat c p = None.
  Proof.
    intros l c p b [Hw [Hs _]] Hb. inversion Hw as [|? ? Hl Hc]; subst.
    destruct (cat c p) eqn:E; auto. exfalso.
    apply cat_some in E. destruct E as [m [Hm E]]. rewrite Forall_forall in Hs, Hc.
    apply (lat_range _ _ _ _ _ (wfl_seg l Hl)) in Hb. apply (lat_range _ _ _ _ _ (wfl_seg m (Hc m Hm))) in E.
    specialize (Hs m Hm). unfold sepd in Hs. lia.
  Qed.

  Lemma wf_perm : forall c c', Permutation c c' -> wf c -> wf c'.
  Proof.
    intros c c' HP [Hw Hp]. split; [rewrite <- HP; exact Hw|].
    apply (pairwise_perm sepd c c' sepd_sym HP Hp).
  Qed.

  Lemma cat_perm : forall c c' p, Permutation c c' -> wf c -> cat c p = cat c' p.
  Proof.
    intros c c' p HP. induction HP as [|l c c' HP IH|l m c|c c' c'' HP1 IH1 HP2 IH2]; intros Hwf; auto.
    - destruct Hwf as [Hw [_ Hp]]. inversion Hw; subst. simpl. rewrite IH; [reflexivity|split; auto].
    - simpl. destruct (lat m p) eqn:E1; destruct (lat l p) eqn:E2; auto.
      pose proof (lat_cat_disjoint m (l :: c) p n Hwf E1) as D. simpl in D. rewrite E2 in D. discriminate.
    - rewrite IH1, IH2; auto. apply (wf_perm c c'); auto.
  Qed.

  Lemma cat_in : forall c l p b, wf c -> In l c -> lat l p = Some b -> cat c p = Some b.
  Proof.
    intros c l p b Hwf Hl Hb. destruct (in_perm c l Hl) as [r Pr].
    rewrite (cat_perm _ _ p Pr Hwf). simpl. rewrite Hb. reflexivity.
  Qed.

  Lemma wf_inj : forall c x y, wf c -> In x c -> In y c -> hd x = hd y \/ te x = te y -> x = y.
  Proof.
    intros c x y [Hw Hp] Hx Hy H. rewrite Forall_forall in Hw.
    destruct (pairwise_In sepd c x y sepd_sym Hp Hx Hy) as [E|S]; auto.
    pose proof (wfl_hd_lt_te x (Hw x Hx)). pose proof (wfl_hd_lt_te y (Hw y Hy)). unfold sepd in S. lia.
  Qed.

  Lemma find_by_endpoint : forall c (key : ilist -> Z) k, wf c ->
    (forall l, key l = hd l) \/ (forall l, key l = te l) ->
    match find (fun l => key l =? k) c with
    | Some x => In x c /\ (key x =? k) = true /\ hd x < te x /\
                forall y, In y c -> (key y =? k) = true -> y = x
    | None => forall y, In y c -> (key y =? k) = false
    end.
  Proof.
    intros c key k Hwf Hkey. destruct (find (fun l => key l =? k) c) as [x|] eqn:F; [|apply (find_none _ _ F)].
    apply find_some in F. destruct F as [Hx Tx]. pose proof Hwf as [Hw _]. rewrite Forall_forall in Hw.
    split; [exact Hx|]. split; [exact Tx|]. split; [apply wfl_hd_lt_te; auto|].
    intros y Hy Ty. apply (wf_inj c); auto. destruct Hkey as [E|E]; [left|right]; rewrite <- !E; lia.
  Qed.

  Lemma cat_range : forall c lo hi p b, wf c -> (forall l, In l c -> lo <= hd l /\ te l <= hi) ->
    cat c p = Some b -> lo <= p < hi.
  Proof.
    intros c lo hi p b [Hw _] Hl Hb. apply cat_some in Hb. destruct Hb as [l [Hin Hb]].
    rewrite Forall_forall in Hw. apply (lat_range _ _ _ _ _ (wfl_seg l (Hw l Hin))) in Hb.
    destruct (Hl l Hin). lia.
  Qed.

  Lemma cat_bounds : forall c lo hi, wf c ->
    (forall p b, cat c p = Some b -> lo <= p < hi) -> forall l, In l c -> lo <= hd l /\ te l <= hi.
  Proof.
    intros c lo hi Hwf H l Hl. pose proof Hwf as [Hw _]. rewrite Forall_forall in Hw.
    pose proof (wfl_seg l (Hw l Hl)) as S. pose proof (wfl_hd_lt_te l (Hw l Hl)).
    destruct (lat_inside _ _ _ (hd l) S) as [x Hx]; [lia|].
    destruct (lat_inside _ _ _ (te l - 1) S) as [y Hy]; [lia|].
    apply (cat_in c l _ _ Hwf Hl), H in Hx. apply (cat_in c l _ _ Hwf Hl), H in Hy. lia.
  Qed.

  Lemma att_spec : forall l a b u, seg a l b -> valid u -> n_off u = b ->
    seg a (att l u) (b + n_size u) /\
    forall p, lat (att l u) p = match nat_ u p with Some x => Some x | None => lat l p end.
  Proof.
    intros l a b u H Hu Hb.
    (* in list order the bytes of l come first; l ends where u starts, so the order does not matter *)
    cut (seg a (att l u) (b + n_size u) /\
         forall p, lat (att l u) p = match lat l p with Some x => Some x | None => nat_ u p end).
    { intros [S L]. split; [exact S|]. intros p. rewrite L. destruct (lat l p) eqn:E.
      - apply (lat_range _ _ _ _ _ H) in E. rewrite nat_outside by lia. reflexivity.
      - destruct (nat_ u p); reflexivity. }
    revert a H. induction l as [|t l IH]; intros a H.
    { simpl in H. subst a. split; [simpl; auto|]. intros p. simpl. destruct (nat_ u p); reflexivity. }
    destruct H as [Hv [Ho H]]. destruct l as [|v l].
    - simpl in H. cbn [add_to_tail]. destruct (merge_tail t u) as [w|] eqn:Em.
      + destruct (H_merge t u w Hv Hu) as [Hw [Ho' [Hs Hn]]]; [lia|exact Em|].
        split; [simpl; repeat split; auto; lia|].
        intros p. cbn [lat]. rewrite (nat_merge t u w p) by (auto; lia).
        destruct (nat_ t p); auto. destruct (nat_ u p); auto.
      + split; [simpl; repeat split; auto; lia|].
        intros p. cbn [lat]. destruct (nat_ t p); auto. destruct (nat_ u p); auto.
    - change (att (t :: v :: l) u) with (t :: att (v :: l) u).
      destruct (IH _ H) as [S L].
      split; [simpl; auto|]. intros p. simpl lat at 1. rewrite L. simpl. destruct (nat_ t p); auto.
  Qed.

  Lemma lat_clip : forall a b t p, valid t ->
    lat (clip a b t) p = if (a <=? p) && (p <? b) then nat_ t p else None.
  Proof.
    intros a b t p Hv. unfold DirtyPages.clip. cbv zeta. destruct (H_len t Hv) as [Hs Hl].
    remember (Z.max a (n_off t)) as ns eqn:Ens. remember (Z.min b (n_off t + n_size t)) as ne eqn:Ene.
    destruct (Z.ltb_spec ns ne).
    - destruct (H_sub t ns ne Hv) as [_ Hb]; try lia.
      cbn [lat]. unfold nat_ at 1. cbn [n_off n_size]. rewrite Hb, zget_slice by lia. unfold nat_.
      destruct (range_spec ns (ns + (ne - ns)) p).
      + replace ((0 <=? p - ns) && (p - ns <? ne - n_off t - (ns - n_off t))) with true by lia.
        replace ((a <=? p) && (p <? b)) with true by lia.
        replace ((n_off t <=? p) && (p <? n_off t + n_size t)) with true by lia.
        replace (ns - n_off t + (p - ns)) with (p - n_off t) by lia.
        destruct (zget (nbytes t) (p - n_off t)); reflexivity.
      + destruct (range_spec a b p); [|reflexivity].
        replace ((n_off t <=? p) && (p <? n_off t + n_size t)) with false by lia. reflexivity.
    - simpl. destruct (range_spec a b p); [|reflexivity]. symmetry. apply nat_outside. lia.
  Qed.

  Lemma seg_clip : forall lo hi t, valid t ->
    seg (Z.max lo (Z.min hi (n_off t))) (clip lo hi t) (Z.max lo (Z.min hi (n_off t + n_size t))).
  Proof.
    intros lo hi t Hv. unfold DirtyPages.clip. cbv zeta. destruct (H_len t Hv) as [Hs _].
    destruct (Z.ltb_spec (Z.max lo (n_off t)) (Z.min hi (n_off t + n_size t))) as [E|E].
    - destruct (H_sub t _ _ Hv (Z.le_max_r _ _) E) as [Hv' _]; [lia|].
      simpl. split; [exact Hv'|]. lia.
    - simpl. lia.
  Qed.

  Lemma lat_sub_list : forall l a' b' a b p, seg a' l b' ->
    lat (sub_list l a b) p = if (a <=? p) && (p <? b) then lat l p else None.
  Proof.
    induction l as [|t l IH]; intros a' b' a b p H.
    - simpl. destruct ((a <=? p) && (p <? b)); auto.
    - destruct H as [Hv [_ H]].
      change (sub_list (t :: l) a b) with (clip a b t ++ sub_list l a b).
      rewrite lat_app, lat_clip, (IH _ _ _ _ _ H) by auto. cbn [lat].
      destruct ((a <=? p) && (p <? b)); auto.
  Qed.

  Lemma seg_sub_list : forall l lo hi a b, seg a l b ->
    seg (Z.max lo (Z.min hi a)) (sub_list l lo hi) (Z.max lo (Z.min hi b)).
  Proof.
    induction l as [|t l IH]; intros lo hi a b H.
    - simpl in *. congruence.
    - destruct H as [Hv [Ho H]]. subst a.
      change (sub_list (t :: l) lo hi) with (clip lo hi t ++ sub_list l lo hi).
      eapply seg_app; [apply seg_clip; auto|apply IH; auto].
  Qed.

  Lemma sub_list_seg : forall l a b lo hi, seg a l b -> a <= lo -> lo < hi -> hi <= b ->
    seg lo (sub_list l lo hi) hi.
  Proof.
    intros l a b lo hi H Ha Hlt Hb. apply (seg_sub_list l lo hi) in H.
    replace (Z.max lo (Z.min hi a)) with lo in H by lia.
    replace (Z.max lo (Z.min hi b)) with hi in H by lia. exact H.
  Qed.

  (* l lies clear of off..e; z lies inside the range of l *)
  Definition outside (off e : Z) (l : ilist) : Prop := te l <= off \/ e <= hd l.
  Definition within (z l : ilist) : Prop := hd l <= hd z /\ te z <= te l.

  Lemma split_by_cases : forall off e l, hd l < te l -> off < e ->
    (outside off e l /\ split_by P psub off e l = [l]) \/
    (off < te l /\ hd l < e /\
     split_by P psub off e l =
       (if hd l <? off then [sub_list l (hd l) off] else []) ++
       (if e <? te l then [sub_list l e (te l)] else [])).
  Proof.
    intros off e l Hlt Hoe. unfold DirtyPages.split_by, outside.
    destruct (Z.leb_spec (te l) off); [|destruct (Z.leb_spec e (hd l))]; [left|left|right].
    - replace (e <=? hd l) with false by lia.
      replace ((hd l <? off) && (off <? te l)) with false by lia.
      replace ((hd l <? e) && (e <? te l)) with false by lia. auto.
    - replace ((hd l <? off) && (off <? te l)) with false by lia.
      replace ((hd l <? e) && (e <? te l)) with false by lia. auto.
    - replace ((hd l <? off) && (off <? te l)) with (hd l <? off) by lia.
      replace ((hd l <? e) && (e <? te l)) with (e <? te l) by lia. auto.
  Qed.

  (* AddInterval first cuts the new range out of every list *)
  Lemma split_by_spec : forall off e l, wfl l -> off < e ->
    Forall (fun z => wfl z /\ within z l /\ outside off e z) (split_by P psub off e l) /\
    pairwise sepd (split_by P psub off e l) /\
    forall p, cat (split_by P psub off e l) p = if (off <=? p) && (p <? e) then None else lat l p.
  Proof.
    intros off e l Hw Hoe. pose proof (wfl_seg l Hw) as S. pose proof (wfl_hd_lt_te l Hw) as Hlt.
    destruct (split_by_cases off e l Hlt Hoe) as [[Ho E]|[C1 [C2 E]]]; rewrite E; clear E.
    - split; [constructor; [unfold within; split; [auto|split; [lia|auto]]|constructor]|].
      split; [simpl; auto|]. intros p. simpl. unfold outside in Ho.
      destruct (range_spec off e p).
      + rewrite (lat_outside l _ _ p S) by lia. reflexivity.
      + destruct (lat l p); reflexivity.
    - (* the new range meets the list: what is left of it on either side *)
      assert (K : forall lo hi, hd l <= lo -> hi <= te l -> hi <= off \/ e <= lo ->
                let k := if lo <? hi then [sub_list l lo hi] else [] in
                Forall (fun z => (wfl z /\ within z l /\ outside off e z) /\ hd z = lo /\ te z = hi) k /\
                pairwise sepd k /\
                forall p, cat k p = if (lo <=? p) && (p <? hi) then lat l p else None).
      { intros lo hi Hlo Hhi Hout k. subst k. destruct (Z.ltb_spec lo hi).
        - destruct (seg_wfl _ lo hi (sub_list_seg l _ _ lo hi S Hlo H Hhi) H) as [W [Eh Et]].
          split; [constructor; [unfold within, outside; rewrite Eh, Et; auto|constructor]|].
          split; [simpl; auto|]. intros p. simpl. rewrite (lat_sub_list l _ _ lo hi p S).
          destruct ((lo <=? p) && (p <? hi)); [destruct (lat l p)|]; reflexivity.
        - split; [constructor|]. split; [simpl; auto|]. intros p.
          replace ((lo <=? p) && (p <? hi)) with false by lia. reflexivity. }
      destruct (K (hd l) off) as [F1 [P1 L1]]; try lia.
      destruct (K e (te l)) as [F2 [P2 L2]]; try lia.
      split; [apply Forall_app; split; [eapply Forall_impl; [|exact F1]|eapply Forall_impl; [|exact F2]]; intros z [Hz _]; exact Hz|].
      split.
      + apply pairwise_app. split; [exact P1|]. split; [exact P2|].
        intros x y Hx Hy. rewrite Forall_forall in F1, F2.
        destruct (F1 x Hx) as [_ [_ Ex]]. destruct (F2 y Hy) as [_ [Ey _]]. unfold sepd. lia.
      + intros p. rewrite cat_app, L1, L2. destruct (range_spec off e p).
        * replace ((hd l <=? p) && (p <? off)) with false by lia.
          replace ((e <=? p) && (p <? te l)) with false by lia. reflexivity.
        * destruct (range_spec (hd l) off p); [destruct (lat l p); [reflexivity|]|];
            (destruct (range_spec e (te l) p); [reflexivity|]).
          { reflexivity. }
          { symmetry. apply (lat_outside l _ _ p S). lia. }
  Qed.

  Lemma split_all_spec : forall off e c, wf c -> off < e ->
    wf (flat_map (split_by P psub off e) c) /\
    Forall (outside off e) (flat_map (split_by P psub off e) c) /\
    forall p, cat (flat_map (split_by P psub off e) c) p = if (off <=? p) && (p <? e) then None else cat c p.
  Proof.
    intros off e c [Hw Hp] Hoe. rewrite Forall_forall in Hw.
    assert (HS : forall l, In l c -> _) by (intros l Hl; exact (split_by_spec off e l (Hw l Hl) Hoe)).
    assert (HF : Forall (fun z => wfl z /\ outside off e z) (flat_map (split_by P psub off e) c)).
    { apply Forall_flat_map, Forall_forall. intros l Hl. destruct (HS l Hl) as [F _].
      eapply Forall_impl; [|exact F]. intros z [? [_ ?]]. auto. }
    split; [split|split].
    - eapply Forall_impl; [|exact HF]. intros z [? _]. auto.
    - apply (pairwise_flat_map sepd); auto.
      + intros l Hl. apply (HS l Hl).
      + intros l m z w Hl Hm Hs Hz Hw'.
        destruct (HS l Hl) as [Fl _]. destruct (HS m Hm) as [Fm _]. rewrite Forall_forall in Fl, Fm.
        destruct (Fl z Hz) as [_ [[? ?] _]]. destruct (Fm w Hw') as [_ [[? ?] _]]. unfold sepd in *. lia.
    - eapply Forall_impl; [|exact HF]. intros z [_ ?]. auto.
    - intros p. clear Hp HF. induction c as [|l c IH]; simpl.
      + destruct ((off <=? p) && (p <? e)); reflexivity.
      + destruct (HS l (or_introl eq_refl)) as [_ [_ L]].
        rewrite cat_app, L, IH by (intros; (apply Hw || apply HS); right; auto).
        destruct ((off <=? p) && (p <? e)); reflexivity.
  Qed.

  (* updating the first / removing the last matching list, when only x matches *)
  Lemma upd_first_perm : forall test f c x, In x c -> test x = true ->
    (forall y, In y c -> test y = true -> y = x) ->
    exists r, Permutation c (x :: r) /\ Permutation (upd_first P test f c) (f x :: r).
  Proof.
    induction c as [|l c IH]; intros x Hx Tx Hu; [destruct Hx|]. simpl.
    destruct (test l) eqn:E.
    - assert (l = x) by (apply Hu; simpl; auto). subst l. exists c. split; reflexivity.
    - destruct Hx as [Hx|Hx]; [congruence|].
      destruct (IH x Hx Tx) as [r [P1 P2]]; [intros; apply Hu; simpl; auto|].
      exists (l :: r). split; (etransitivity; [apply perm_skip; eassumption|apply perm_swap]).
  Qed.

  Lemma remove_last_perm : forall T c x, In x c -> T x = true ->
    (forall y, In y c -> T y = true -> y = x) -> Permutation c (x :: remove_last P T c).
  Proof.
    induction c as [|l c IH]; intros x Hx Tx Hu; [destruct Hx|]. simpl.
    assert (Hu' : forall y, In y c -> T y = true -> y = x) by (intros; apply Hu; simpl; auto).
    assert (Hc : In x c -> Permutation (l :: c) (x :: l :: remove_last P T c)).
    { intros Hc. etransitivity; [apply perm_skip, (IH x Hc Tx Hu')|apply perm_swap]. }
    destruct (T l) eqn:E; [destruct (existsb T c) eqn:Ex|]; simpl.
    - apply existsb_exists in Ex. destruct Ex as [y [Hy Ty]]. rewrite (Hu' y Hy Ty) in Hy. auto.
    - rewrite (Hu l (or_introl eq_refl) E). reflexivity.
    - destruct Hx as [Hx|Hx]; [congruence|auto].
  Qed.

  (* r is c with the node iv written over it *)
  Definition add_post (c r : list ilist) (iv : node) : Prop :=
    wf r /\ forall p, cat r p = match nat_ iv p with Some b => Some b | None => cat c p end.

  (* the lists ns of a collection nl are replaced by one list m, covering a..b, that holds their bytes and
     those of iv; every other list x of nl must stay clear of a..b *)
  Lemma join_spec : forall iv off e m ns r nl res a b,
    wf nl -> Forall (outside off e) nl -> Permutation nl (ns ++ r) -> Permutation res (m :: r) ->
    seg a m b -> a < b ->
    (forall x, In x nl -> hd x < te x -> outside off e x -> (forall n, In n ns -> sepd n x) -> b < hd x \/ te x < a) ->
    (forall p, lat m p = match nat_ iv p with Some b => Some b | None => cat ns p end) ->
    add_post nl res iv.
  Proof.
    intros iv off e m ns r nl res a b Hnl Hout P1 P2 S Hab Hs Hl.
    destruct (seg_wfl _ _ _ S Hab) as [Hm [Eh Et]].
    pose proof (wf_perm _ _ P1 Hnl) as [Hw Hp]. apply Forall_app in Hw. apply pairwise_app in Hp.
    assert (Hmr : wf (m :: r)).
    { split; [constructor; tauto|]. split; [|tauto]. apply Forall_forall. intros x Hx.
      assert (Hxn : In x nl) by (apply (Permutation_in _ (Permutation_sym P1)), in_or_app; auto).
      rewrite Forall_forall in Hout. destruct Hnl as [Hwl _]. rewrite Forall_forall in Hwl.
      unfold sepd. rewrite Eh, Et. apply Hs; auto.
      - apply wfl_hd_lt_te; auto.
      - intros n Hn. apply Hp; auto. }
    symmetry in P2. split; [apply (wf_perm _ _ P2 Hmr)|].
    intros p. rewrite <- (cat_perm _ _ p P2 Hmr), (cat_perm _ _ p P1 Hnl), cat_app. simpl. rewrite Hl.
    destruct (nat_ iv p); auto.
  Qed.

  Lemma add_general_spec : forall c iv, wf c -> valid iv ->
    add_post c (add_general P psub merge_tail c iv) iv.
  Proof.
    intros c iv Hwf Hv. destruct (H_len iv Hv) as [Hsz _].
    unfold add_general. cbv zeta.
    remember (n_off iv + n_size iv) as e eqn:Ee. remember (n_off iv) as off eqn:Eoff.
    destruct (split_all_spec off e c Hwf) as [Hnl [Hout Hcat]]; [lia|].
    remember (flat_map (split_by P psub off e) c) as nl eqn:Enl. clear Enl.
    pose proof Hnl as [Hwl _]. rewrite Forall_forall in Hwl.
    assert (Fin : forall res, add_post nl res iv -> add_post c res iv).
    { intros res [W C]. split; [exact W|]. intros p. rewrite C, Hcat.
      destruct (nat_ iv p) eqn:E; [reflexivity|]. destruct (range_spec off e p); [|reflexivity].
      destruct (nat_inside iv p Hv) as [x Hx]; [lia|congruence]. }
    (* the list that ends where iv starts, and the list that starts where iv ends *)
    pose proof (find_by_endpoint nl (fun l => hd l + l_size l) off Hnl
                  (or_intror (fun l => Zplus_minus (hd l) (te l)))) as Fp.
    pose proof (find_by_endpoint nl hd e Hnl (or_introl (fun l => eq_refl))) as Fn. cbv beta in Fp, Fn.
    destruct (find (fun l => hd l + l_size l =? off) nl) as [pv|];
      [destruct Fp as [Hpv [Tpv [Lpv Upv]]]|rename Fp into Np];
      (destruct (find (fun l => hd l =? e) nl) as [nx|];
        [destruct Fn as [Hnx [Tnx [Lnx Unx]]]|rename Fn into Nn]);
      unfold l_size in *; apply Fin.
    - (* both: prev ++ [iv] ++ next *)
      destruct (upd_first_perm _ (fun l => att l iv ++ nx) nl pv Hpv Tpv Upv) as [r1 [P1 P2]].
      assert (Hr1 : In nx r1).
      { apply (Permutation_in _ P1) in Hnx. destruct Hnx as [Hnx|Hnx]; [subst; lia|exact Hnx]. }
      destruct (in_perm r1 nx Hr1) as [r2 P3].
      destruct (att_spec pv _ _ iv (wfl_seg pv (Hwl pv Hpv)) Hv) as [S L]; [lia|].
      replace (te pv + n_size iv) with (hd nx) in S by lia.
      pose proof (seg_app _ _ _ _ _ S (wfl_seg nx (Hwl nx Hnx))) as S'.
      destruct (seg_wfl _ _ _ S') as [_ [Hm _]]; [lia|].
      apply (join_spec iv off e (att pv iv ++ nx) [pv; nx] r2 nl _ (hd pv) (te nx)); auto; try lia.
      + rewrite P1, P3. reflexivity.
      + apply (Permutation_cons_inv (a := nx)). rewrite <- remove_last_perm.
        * rewrite P2, P3. apply perm_swap.
        * apply (Permutation_in _ (Permutation_sym P2)). right. exact Hr1.
        * apply Z.eqb_refl.
        * intros y Hy Ty. apply (Permutation_in _ P2) in Hy. destruct Hy as [Hy|Hy]; [subst y; lia|].
          apply Unx; [|lia]. apply (Permutation_in _ (Permutation_sym P1)). right. exact Hy.
      + intros x _ Hlx Ox Hs. pose proof (Hs pv (or_introl eq_refl)). pose proof (Hs nx (or_intror (or_introl eq_refl))).
        unfold sepd, outside in *. lia.
      + intros p. rewrite lat_app, L. simpl.
        destruct (nat_ iv p); [|destruct (lat pv p); [|destruct (lat nx p)]]; reflexivity.
    - (* only the previous list *)
      destruct (upd_first_perm _ (fun l => att l iv) nl pv Hpv Tpv Upv) as [r1 [P1 P2]].
      destruct (att_spec pv _ _ iv (wfl_seg pv (Hwl pv Hpv)) Hv) as [S L]; [lia|].
      apply (join_spec iv off e (att pv iv) [pv] r1 nl _ (hd pv) (te pv + n_size iv)); auto; try lia.
      + intros x Hx Hlx Ox Hs. pose proof (Hs pv (or_introl eq_refl)). pose proof (Nn x Hx).
        unfold sepd, outside in *. lia.
      + intros p. rewrite L. simpl. destruct (nat_ iv p); [|destruct (lat pv p)]; reflexivity.
    - (* only the next list: addNodeToHead *)
      destruct (upd_first_perm _ (fun l => iv :: l) nl nx Hnx Tnx Unx) as [r1 [P1 P2]].
      apply (join_spec iv off e (iv :: nx) [nx] r1 nl _ off (te nx)); auto; try lia.
      + split; [exact Hv|]. split; [auto|]. replace (off + n_size iv) with (hd nx) by lia. apply wfl_seg; auto.
      + intros x Hx Hlx Ox Hs. pose proof (Hs nx (or_introl eq_refl)). pose proof (Np x Hx).
        unfold sepd, outside in *. lia.
      + intros p. simpl. destruct (nat_ iv p); [|destruct (lat nx p)]; reflexivity.
    - (* no neighbour: a new list *)
      apply (join_spec iv off e [iv] [] nl nl _ off e); simpl; auto; try lia.
      + symmetry. apply Permutation_cons_append.
      + intros x Hx Hlx Ox _. pose proof (Np x Hx). pose proof (Nn x Hx). unfold outside in *. lia.
  Qed.

  Theorem add_interval_spec : forall c iv, wf c -> valid iv ->
    add_post c (add_interval P psub merge_tail c iv) iv.
  Proof.
    intros c iv Hwf Hv. pose proof (add_general_spec c iv Hwf Hv) as G.
    unfold add_interval. destruct c as [|l [|m c]]; auto.
    destruct (Z.eqb_spec (te l) (n_off iv)) as [E|E]; auto.
    (* fast path: append to the only list *)
    destruct Hwf as [Hw _]. inversion Hw as [|? ? Hl _]; subst.
    pose proof (wfl_hd_lt_te l Hl). destruct (H_len iv Hv).
    destruct (att_spec l _ _ iv (wfl_seg l Hl) Hv) as [S L]; [auto|].
    destruct (seg_wfl _ _ _ S) as [Hl' _]; [lia|].
    split; [split; [constructor; auto|simpl; auto]|].
    intros p. simpl. rewrite L. destruct (nat_ iv p); [|destruct (lat l p)]; reflexivity.
  Qed.


  Lemma remove_nth_perm : forall k (c : list ilist) l, nth_error c k = Some l ->
    Permutation c (l :: remove_nth P k c).
  Proof.
    induction k as [|k IH]; intros [|x c] l H; simpl in *; try discriminate.
    - inversion H; subst. reflexivity.
    - etransitivity; [apply perm_skip, (IH _ _ H)|apply perm_swap].
  Qed.

  Lemma largest_from_spec : forall c k ms mi rms rmi, largest_from P c k ms mi = (rms, rmi) ->
    ms <= rms /\ (forall l, In l c -> l_size l <= rms) /\
    ((rmi = mi /\ rms = ms) \/ exists j l, rmi = Some (k + j)%nat /\ nth_error c j = Some l /\ rms = l_size l).
  Proof.
    induction c as [|x c IH]; intros k ms mi rms rmi H; simpl in H.
    - inversion H; subst. split; [lia|]. split; [intros l []|auto].
    - destruct (Z.leb_spec ms (l_size x)); destruct (IH _ _ _ _ _ H) as [A [B C]];
        (split; [lia|]; split; [intros l [Hl|Hl]; [subst; lia|auto]|]).
      + right. destruct C as [[C1 C2]|[j [l [C1 [C2 C3]]]]].
        * exists 0%nat, x. subst. rewrite Nat.add_0_r. auto.
        * exists (S j), l. subst. split; [f_equal; lia|auto].
      + destruct C as [C|[j [l [C1 [C2 C3]]]]]; [left; auto|].
        right. exists (S j), l. subst. split; [f_equal; lia|auto].
  Qed.

  Lemma remove_largest_spec : forall c, wf c ->
    match remove_largest P c with
    | None => c = []
    | Some (l, rest) => Permutation c (l :: rest)
    end.
  Proof.
    intros c [Hw _]. unfold remove_largest.
    destruct (largest_from P c 0 0 None) as [rms rmi] eqn:E.
    destruct (largest_from_spec _ _ _ _ _ _ E) as [_ [G [[A B]|[j [l [A [B C]]]]]]]; subst.
    - destruct c as [|x c]; auto. exfalso. inversion Hw as [|? ? Hx _]; subst.
      pose proof (wfl_hd_lt_te x Hx). specialize (G x (or_introl eq_refl)). unfold DirtyPages.l_size in G. lia.
    - simpl. rewrite Forall_forall in Hw. pose proof (wfl_hd_lt_te l (Hw l (nth_error_In _ _ B))).
      replace (l_size l <=? 0) with false by (unfold DirtyPages.l_size; lia).
      rewrite B. apply remove_nth_perm; auto.
  Qed.

  Notation list_read := (list_read P fetch).

  Lemma node_read : forall t buf so start stop i, valid t -> so <= start -> stop <= so + zlen buf ->
    let ns := Z.max start (n_off t) in
    let ne := Z.min stop (n_off t + n_size t) in
    let buf' := if ns <? ne then blit buf (Z.to_nat (ns - so)) (fetch (n_pay t) (ns - n_off t) (ne - n_off t)) else buf in
    zlen buf' = zlen buf /\
    zget buf' i = match (if (start <=? so + i) && (so + i <? stop) then nat_ t (so + i) else None) with
                  | Some b => Some b | None => zget buf i end.
  Proof.
    intros t buf so start stop i Hv Hso Hstop. cbv zeta. destruct (H_len t Hv) as [Hsz Hlen].
    remember (Z.max start (n_off t)) as ns eqn:Ens. remember (Z.min stop (n_off t + n_size t)) as ne eqn:Ene.
    destruct (Z.ltb_spec ns ne).
    - split; [apply zlen_blit|]. rewrite H_fetch by (auto; lia).
      destruct (Z_lt_dec i (zlen buf)).
      + rewrite zget_blit, zget_slice by lia. unfold nat_.
        destruct (range_spec ns ne (so + i)).
        * replace ((0 <=? i - (ns - so)) && (i - (ns - so) <? ne - n_off t - (ns - n_off t))) with true by lia.
          replace ((start <=? so + i) && (so + i <? stop)) with true by lia.
          replace ((n_off t <=? so + i) && (so + i <? n_off t + n_size t)) with true by lia.
          replace (ns - n_off t + (i - (ns - so))) with (so + i - n_off t) by lia. reflexivity.
        * replace ((0 <=? i - (ns - so)) && (i - (ns - so) <? ne - n_off t - (ns - n_off t))) with false by lia.
          destruct (range_spec start stop (so + i)); [|reflexivity].
          replace ((n_off t <=? so + i) && (so + i <? n_off t + n_size t)) with false by lia. reflexivity.
      + replace ((start <=? so + i) && (so + i <? stop)) with false by lia.
        transitivity (@None N); [|symmetry]; apply zget_none; rewrite ?zlen_blit; lia.
    - split; [reflexivity|]. destruct (range_spec start stop (so + i)); [|reflexivity].
      rewrite nat_outside by lia. reflexivity.
  Qed.

  Lemma list_read_spec : forall l a b buf so start stop, seg a l b -> so <= start -> stop <= so + zlen buf ->
    zlen (list_read l buf so start stop) = zlen buf /\
    forall i, zget (list_read l buf so start stop) i =
              match (if (start <=? so + i) && (so + i <? stop) then lat l (so + i) else None) with
              | Some x => Some x | None => zget buf i end.
  Proof.
    induction l as [|t l IH]; intros a b buf so start stop H Hso Hstop.
    - simpl. split; auto. intros i. destruct ((start <=? so + i) && (so + i <? stop)); auto.
    - destruct H as [Hv [Ho H]]. unfold DirtyPages.list_read. cbn [fold_left].
      pose proof (fun i => node_read t buf so start stop i Hv Hso Hstop) as Hn. cbv zeta in Hn.
      set (buf' := if _ <? _ then _ else buf) in *.
      fold (list_read l buf' so start stop).
      destruct (Hn 0) as [Hlen _].
      destruct (IH _ _ buf' so start stop H Hso) as [IH1 IH2]; [lia|].
      split; [lia|]. intros i. rewrite IH2. destruct (Hn i) as [_ Hi]. rewrite Hi. cbn [lat].
      destruct ((start <=? so + i) && (so + i <? stop)); auto.
      destruct (nat_ t (so + i)) eqn:E1; destruct (lat l (so + i)) eqn:E2; auto.
      (* both cannot hold: the rest of the chain starts where t ends *)
      exfalso. apply nat_range in E1. apply (lat_range _ _ _ _ _ H) in E2. lia.
  Qed.

  Notation read_data_at := (read_data_at P fetch).

  Definition read_step (buf : list N) (so : Z) (acc : list N * Z) (l : ilist) : list N * Z :=
    let start := Z.max so (hd l) in
    let stop := Z.min (so + zlen buf) (hd l + l_size l) in
    if start <? stop then (list_read l (fst acc) so start stop, Z.max (snd acc) stop) else acc.

  Lemma read_fold_fst : forall c buf so acc, wf c -> zlen (fst acc) = zlen buf ->
    let r := fold_left (read_step buf so) c acc in
    zlen (fst r) = zlen buf /\
    forall i, zget (fst r) i =
              match (if (0 <=? i) && (i <? zlen buf) then cat c (so + i) else None) with
              | Some b => Some b | None => zget (fst acc) i end.
  Proof.
    induction c as [|l c IH]; intros buf so acc Hwf Hlen.
    - simpl. split; auto. intros i. destruct ((0 <=? i) && (i <? zlen buf)); auto.
    - cbn [fold_left]. pose proof Hwf as [Hw [_ Hp]]. inversion Hw as [|? ? Hl Hc]; subst.
      pose proof (wfl_seg l Hl) as S.
      assert (A : zlen (fst (read_step buf so acc l)) = zlen buf /\
                forall i, zget (fst (read_step buf so acc l)) i =
                  match (if (0 <=? i) && (i <? zlen buf) then lat l (so + i) else None) with
                  | Some b => Some b | None => zget (fst acc) i end).
      { unfold read_step. replace (hd l + l_size l) with (te l) by (unfold DirtyPages.l_size; lia).
        destruct (Z.ltb_spec (Z.max so (hd l)) (Z.min (so + zlen buf) (te l))); cbn [fst].
        - destruct (list_read_spec l _ _ (fst acc) so (Z.max so (hd l)) (Z.min (so + zlen buf) (te l)) S)
            as [L1 L2]; try lia.
          split; [lia|]. intros i. rewrite L2.
          destruct (lat l (so + i)) eqn:E; [apply (lat_range _ _ _ _ _ S) in E|].
          + replace ((Z.max so (hd l) <=? so + i) && (so + i <? Z.min (so + zlen buf) (te l)))
              with ((0 <=? i) && (i <? zlen buf)) by lia. reflexivity.
          + destruct (_ && _), (_ && _); reflexivity.
        - split; auto. intros i. destruct (lat l (so + i)) eqn:E; [apply (lat_range _ _ _ _ _ S) in E|].
          + replace ((0 <=? i) && (i <? zlen buf)) with false by lia. reflexivity.
          + destruct (_ && _); reflexivity. }
      destruct A as [A1 A2]. destruct (IH buf so _ (conj Hc Hp) A1) as [B1 B2]. split; [exact B1|].
      intros i. rewrite B2, A2. cbn [cat]. destruct ((0 <=? i) && (i <? zlen buf)); auto.
      destruct (lat l (so + i)) eqn:E1; [rewrite (lat_cat_disjoint l c _ _ Hwf E1)|]; reflexivity.
  Qed.

  (* maxStop r: the largest of lo and the ends, cut at the end of the buffer, of the lists that meet the window *)
  Definition max_stop (c : list ilist) (buf : list N) (so lo r : Z) : Prop :=
    lo <= r /\
    (forall l, In l c -> Z.max so (hd l) < Z.min (so + zlen buf) (te l) -> Z.min (so + zlen buf) (te l) <= r) /\
    (r = lo \/ exists l, In l c /\ Z.max so (hd l) < Z.min (so + zlen buf) (te l) /\
                         r = Z.min (so + zlen buf) (te l)).

  Lemma read_fold_snd : forall c buf so acc,
    max_stop c buf so (snd acc) (snd (fold_left (read_step buf so) c acc)).
  Proof.
    induction c as [|l c IH]; intros buf so acc; unfold max_stop.
    - simpl. split; [lia|]. split; [intros l []|auto].
    - cbn [fold_left]. destruct (IH buf so (read_step buf so acc l)) as [B1 [B2 B3]].
      assert (A : snd (read_step buf so acc l) =
                  if Z.max so (hd l) <? Z.min (so + zlen buf) (te l)
                  then Z.max (snd acc) (Z.min (so + zlen buf) (te l)) else snd acc).
      { unfold read_step. replace (hd l + l_size l) with (te l) by (unfold DirtyPages.l_size; lia).
        destruct (_ <? _); reflexivity. }
      rewrite A in *. clear A.
      destruct (Z.ltb_spec (Z.max so (hd l)) (Z.min (so + zlen buf) (te l))).
      + split; [lia|]. split.
        * intros m [Hm|Hm] Hi; [subst; lia|auto].
        * destruct B3 as [B3|[m [M1 [M2 M3]]]]; [|right; exists m; simpl; auto].
          destruct (Z_le_dec (Z.min (so + zlen buf) (te l)) (snd acc)); [left; lia|].
          right. exists l. split; [left; auto|]. split; [auto|lia].
      + split; [lia|]. split.
        * intros m [Hm|Hm] Hi; [subst; lia|auto].
        * destruct B3 as [B3|[m [M1 [M2 M3]]]]; [left; auto|right; exists m; simpl; auto].
  Qed.

  Theorem read_data_at_spec : forall c buf so, wf c ->
    let r := read_data_at c buf so in
    zlen (fst r) = zlen buf /\
    (forall i, zget (fst r) i =
               match (if (0 <=? i) && (i <? zlen buf) then cat c (so + i) else None) with
               | Some b => Some b | None => zget buf i end) /\
    max_stop c buf so 0 (snd r).
  Proof.
    intros c buf so Hwf. destruct (read_fold_fst c buf so (buf, 0) Hwf eq_refl) as [F1 F2].
    split; [exact F1|]. split; [exact F2|]. apply (read_fold_snd c buf so (buf, 0)).
  Qed.

  (* the bytes of a list (ToReader) *)
  Definition lbytes (l : ilist) : list N := flat_map nbytes l.

  Lemma lbytes_spec : forall l a b, seg a l b ->
    zlen (lbytes l) = b - a /\ forall p, lat l p = zget (lbytes l) (p - a).
  Proof.
    induction l as [|t l IH]; intros a b H.
    - simpl in H. subst. split; [unfold zlen; simpl; lia|]. intros p. symmetry. apply zget_none. unfold zlen. simpl. lia.
    - destruct H as [Hv [Ho H]]. destruct (H_len t Hv) as [V1 V2]. destruct (IH _ _ H) as [I1 I2].
      change (lbytes (t :: l)) with (nbytes t ++ lbytes l). rewrite zlen_app. split; [lia|].
      intros p. cbn [lat]. rewrite I2. unfold nat_. rewrite Ho.
      destruct (range_spec a (a + n_size t) p).
      + rewrite zget_app by lia. replace (p - a <? zlen (nbytes t)) with true by lia.
        destruct (zget_in_range (nbytes t) (p - a)) as [x Hx]; [lia|]. rewrite Hx. reflexivity.
      + destruct (Z_lt_dec p a).
        * rewrite !(proj2 (zget_none _ _)) by lia. reflexivity.
        * rewrite zget_app by lia. replace (p - a <? zlen (nbytes t)) with false by lia. f_equal. lia.
  Qed.

  Notation list_bytes := (list_bytes P fetch).

  Lemma list_bytes_eq : forall l a' b' a b, seg a' l b' -> list_bytes l a b = lbytes (sub_list l a b).
  Proof.
    induction l as [|t l IH]; intros a' b' a b H; auto.
    destruct H as [Hv [_ H]]. destruct (H_len t Hv) as [Hs _].
    change (list_bytes (t :: l) a b) with
      ((if Z.max a (n_off t) <? Z.min b (n_off t + n_size t)
        then fetch (n_pay t) (Z.max a (n_off t) - n_off t) (Z.min b (n_off t + n_size t) - n_off t) else [])
       ++ list_bytes l a b).
    change (sub_list (t :: l) a b) with (clip a b t ++ sub_list l a b).
    unfold lbytes. rewrite flat_map_app. fold (lbytes (sub_list l a b)). rewrite <- (IH _ _ a b H). f_equal.
    unfold DirtyPages.clip. cbv zeta.
    destruct (Z.ltb_spec (Z.max a (n_off t)) (Z.min b (n_off t + n_size t))) as [E|E]; auto.
    destruct (H_sub t _ _ Hv (Z.le_max_r _ _) E) as [_ Hb]; [lia|].
    cbn [flat_map]. rewrite app_nil_r, Hb. apply H_fetch; auto; lia.
  Qed.

  Lemma list_bytes_spec : forall l a' b' a b, seg a' l b' -> a' <= a -> a < b -> b <= b' ->
    zlen (list_bytes l a b) = b - a /\
    forall p, zget (list_bytes l a b) (p - a) = if (a <=? p) && (p <? b) then lat l p else None.
  Proof.
    intros l a' b' a b S Ha Hab Hb. rewrite (list_bytes_eq l _ _ a b S).
    destruct (lbytes_spec _ _ _ (sub_list_seg l _ _ a b S Ha Hab Hb)) as [L1 L2].
    split; auto. intros p. rewrite <- L2. apply (lat_sub_list l _ _ a b p S).
  Qed.
End Generic.

Arguments wfl_seg {P valid} l _.
Arguments seg_le {P fetch valid} H_len {l a b} _.
Arguments wfl_hd_lt_te {P fetch valid} H_len l _.
Arguments lat_range {P fetch valid} H_len {l a b p x} _ _.
Arguments lat_cat_disjoint {P fetch valid} H_len {l c p b} _ _.
Arguments wf_perm {P valid c c'} _ _.
Arguments cat_perm {P fetch valid} H_len {c c'} p _ _.
Arguments lbytes_spec {P fetch valid} H_len {l a b} _.
