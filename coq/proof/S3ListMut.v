(* C27: the tree-threading model (model/S3ListMut.v) against the immutable one
   (model/S3List.v), and the witnesses of findings 6 and 7. *)
From Coq Require Import List NArith ZArith Bool String Ascii Arith Lia.
From SW Require Import model.S3List model.S3ListMut proof.S3ListRefute.
Import ListNotations.
Local Open Scope string_scope.
Local Open Scope list_scope.

(* where no emptiness test can run (allowEmptyFolder, or no delimiter) the tree-threading
   model gives the same answers and leaves the tree untouched *)
Section NoTest.
  Variable ae delim : bool.
  Hypothesis Hno : ae = true \/ delim = false.

  Lemma loop_m_eq : forall efuel (recm : list tree -> list string -> Z -> res * list tree)
                           (rec : list string -> Z -> res) rootk,
    (forall D' m', recm rootk D' m' = (rec D' m', rootk)) ->
    forall es D maxKeys1 items counter trunc next,
      loop_m ae delim efuel recm rootk D maxKeys1 es items counter trunc next =
      (loop ae rootk delim rec D maxKeys1 es items counter trunc next, rootk).
  Proof.
    intros efuel recm rec rootk Hrec es.
    induction es as [|e es IH]; intros D maxKeys1 items counter trunc next; cbn [loop_m loop].
    - reflexivity.
    - destruct (counter >=? maxKeys1)%Z; [reflexivity|].
      destruct e as [n|n k].
      + apply IH.
      + destruct (n =? uploads); [apply IH|].
        destruct delim eqn:Hd; cbn [negb].
        * destruct Hno as [Hae|Hf]; [|discriminate Hf].
          replace (negb ae) with false by (rewrite Hae; reflexivity). cbn [andb]. apply IH.
        * rewrite Hrec.
          destruct (r_trunc (rec (D ++ [n]) (maxKeys1 - counter)%Z)); [reflexivity|apply IH].
  Qed.

  Lemma do_list_m_eq : forall efuel fuel rootk D prefix maxKeys marker,
    do_list_m ae delim efuel fuel rootk D prefix maxKeys marker =
    (do_list ae rootk delim fuel D prefix maxKeys marker, rootk).
  Proof.
    intros efuel. induction fuel as [|f IH]; intros rootk D prefix maxKeys marker; cbn [do_list_m do_list].
    - reflexivity.
    - destruct ((prefix =? "/") && delim); [reflexivity|].
      destruct (maxKeys <=? 0)%Z; [reflexivity|].
      destruct (cut_slash marker) as [[subDir subMarker]|].
      + rewrite IH. apply loop_m_eq. intros D' m'. apply IH.
      + apply loop_m_eq. intros D' m'. apply IH.
  Qed.

  Lemma list_objects_m_eq : forall rootk prefix maxKeys marker,
    list_objects_m ae rootk prefix maxKeys marker delim =
    (list_objects ae rootk prefix maxKeys marker delim, rootk).
  Proof.
    intros. unfold list_objects_m, list_objects, list_items. rewrite do_list_m_eq. reflexivity.
  Qed.

  Theorem run_m_eq : forall n rootk prefix maxKeys st marker,
    map snd (fst (run_m n ae rootk prefix maxKeys delim st marker)) =
      paginate n ae rootk prefix maxKeys delim st marker /\
    map fst (fst (run_m n ae rootk prefix maxKeys delim st marker)) =
      markers n ae rootk prefix maxKeys delim st marker /\
    snd (run_m n ae rootk prefix maxKeys delim st marker) = rootk.
  Proof.
    induction n as [|n IH]; intros rootk prefix maxKeys st marker; cbn [run_m paginate markers].
    - repeat split; reflexivity.
    - rewrite list_objects_m_eq.
      destruct (pg_trunc (list_objects ae rootk prefix maxKeys marker delim)).
      + destruct (next_marker st (list_objects ae rootk prefix maxKeys marker delim)) as [m|].
        * specialize (IH rootk prefix maxKeys st m).
          destruct (run_m n ae rootk prefix maxKeys delim st m) as [l rk'].
          cbn [fst snd map] in *. destruct IH as [I1 [I2 I3]].
          rewrite I1, I2, I3. repeat split; reflexivity.
        * repeat split; reflexivity.
      + repeat split; reflexivity.
  Qed.
End NoTest.

(* finding 6: filer order is not key order *)
Definition t_k6 : list tree := [Dr "d" [F "a"]; F "d.x"].
Definition t_k6b : list tree := [Dr "d" [F "a"; F "b"]; F "d.x"].

(* start-after d.x: d/a sorts behind it but is never listed *)
Theorem paginate_incomplete_order_clash :
  let pages := paginate 14 false t_k6 "" 1000 false V2StartAfter "d.x" in
  wf t_k6 = true /\ ended pages = true /\ all_keys pages = [] /\
  spec_keys t_k6 "" false "d.x" = ["d/a"] /\
  enumerates_b false t_k6 "" false "d.x" pages = false /\
  trigger_of false t_k6 "" false V2StartAfter "d.x" ["d.x"] t_k6 = Some 6%N.
Proof. vm_compute. repeat split; reflexivity. Qed.

(* marker d/a: d.x sorts before it but is listed *)
Theorem page_unsound_order_clash :
  wf t_k6b = true /\
  pg_keys (list_objects false t_k6b "" 1000 "d/a" false) = ["d/b"; "d.x"] /\
  String.ltb "d.x" "d/a" = true /\
  page_sound_b false t_k6b "" 1000 false "d/a" (list_objects false t_k6b "" 1000 "d/a" false) = false /\
  trigger_of false t_k6b "" false V1NextMarker "d/a" ["d/a"] t_k6b = Some 6%N.
Proof. vm_compute. repeat split; reflexivity. Qed.

(* the unpaginated listing is not in key order *)
Theorem listing_not_in_key_order :
  pg_keys (list_objects false t_k6 "" 1000 "" false) = ["d/a"; "d.x"] /\ String.ltb "d.x" "d/a" = true.
Proof. vm_compute. split; reflexivity. Qed.

(* finding 7: a LIST request deletes objects *)
Definition t_k7 : list tree := [F "a"; Dr "d" [F "a"; Dr "e" [F "a"]]; F "da"].

(* GET /b?delimiter=/&marker=/ : every folder of the bucket is deleted with its objects *)
Theorem list_deletes_objects_marker :
  let r := run_m 14 false t_k7 "" 1000 true V1NextMarker "/" in
  wf t_k7 = true /\
  bucket_keys t_k7 = ["a"; "d/a"; "d/e/a"; "da"] /\
  map (fun mp => pg_keys (snd mp)) (fst r) = [["/a"; "/da"; "a"; "da"]] /\
  snd r = [F "a"; F "da"] /\
  bucket_keys (snd r) = ["a"; "da"] /\
  trigger_of false t_k7 "" true V1NextMarker "/" (map fst (fst r)) (snd r) = Some 7%N.
Proof. vm_compute. repeat split; reflexivity. Qed.

(* GET /b?delimiter=/&prefix=d// : the folder d/e is deleted with its object *)
Theorem list_deletes_objects_prefix :
  let r := run_m 14 false t_k7 "d//" 1000 true V2Token "" in
  snd r = [F "a"; Dr "d" [F "a"]; F "da"] /\
  bucket_keys (snd r) = ["a"; "d/a"; "da"] /\
  trigger_of false t_k7 "d//" true V2Token "" (map fst (fst r)) (snd r) = Some 7%N.
Proof. vm_compute. repeat split; reflexivity. Qed.

(* by design (no -allowEmptyFolder): a delimiter listing removes the folders without any
   file (also an empty folder d/g inside a folder that has no file of its own); no object
   is lost *)
Example list_deletes_empty_folders :
  let t := [F "a"; Dr "d" [Dr "g" []; Dr "k" [F "a"]]; Dr "e" [Dr "h" []]; F "f"] in
  let r := run_m 14 false t "" 1 true V2Token "" in
  wf t = true /\
  snd r = [F "a"; Dr "d" [Dr "k" [F "a"]]; F "f"] /\
  lists_equal_keys t (snd r) = true.
Proof. vm_compute. repeat split; reflexivity. Qed.
