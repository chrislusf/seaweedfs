(* The link-record invariant of model/HardLink.v and the effect of the store wrapper's
   primitives on it.  [InvG l s]: every record's counter equals the number of names
   carrying its id PLUS the occurrences of the id in the list [l] of pending ids (ids
   whose name has already been removed but whose DeleteHardLink is still to come, or
   whose counter has already been raised for a name still to be created: the two
   multi-step operations, recursive delete and Dir.Link); records are files, directory
   blobs carry no id, there is no record under id 0.  [InvG [] s] is the C21 invariant proper. *)
From Coq Require Import List NArith ZArith Bool String Arith Lia Permutation.
From SW Require Import proof.ListFacts model.FilerNS proof.FilerNSBase model.Chunks model.HardLink proof.HardLinkBase.
Import ListNotations.
Local Open Scope list_scope.

Record InvG (l : list N) (s : st) : Prop := {
  ig_nd : NoDup (map fst (names s));
  ig_kd : NoDup (map fst (kvs s));
  ig_zero : kv_get s 0%N = None;
  ig_cnt : forall X b, kv_get s X = Some b ->
             h_hl b = X /\ h_dir b = false /\
             h_cnt b = Z.of_nat (cn (names s) X + occ X l) /\ 0 < cn (names s) X + occ X l;
  ig_pres : forall X, X <> 0%N -> 0 < cn (names s) X + occ X l -> kv_get s X <> None;
  ig_dir : forall p e, nfind s p = Some e -> h_dir e = true -> h_hl e = 0%N
}.

Definition Inv (s : st) : Prop := InvG [] s.

Lemma Inv_empty : Inv empty_st.
Proof.
  constructor; simpl.
  - constructor.
  - constructor.
  - reflexivity.
  - intros X b H. discriminate.
  - intros X _ H. unfold cn in H. simpl in H. lia.
  - intros p e H. discriminate.
Qed.

Lemma nfind_In : forall s p e, nfind s p = Some e -> In (p, e) (names s).
Proof. intros. unfold nfind in H. eapply aget_Some_In; [apply peqb_spec|eassumption]. Qed.

Lemma In_nfind : forall s p e, NoDup (map fst (names s)) -> In (p, e) (names s) -> nfind s p = Some e.
Proof. intros. unfold nfind. eapply In_aget; eauto. apply peqb_spec. Qed.

Lemma ind_zero_plain : forall e X, h_hl e = 0%N -> X <> 0%N -> ind e X = 0.
Proof. intros e X H HX. unfold ind. rewrite H. destruct (N.eqb_spec 0 X); congruence. Qed.

Lemma ind_le1 : forall e X, ind e X <= 1.
Proof. intros. unfold ind. destruct (N.eqb (h_hl e) X); lia. Qed.

Lemma kv_key_nonzero : forall l s X b, InvG l s -> kv_get s X = Some b -> X <> 0%N.
Proof. intros l s X b I H E. subst. rewrite (ig_zero _ _ I) in H. discriminate. Qed.

Lemma cn_name_pos : forall s p e, nfind s p = Some e -> 0 < cn (names s) (h_hl e).
Proof. intros. eapply cn_pos_In; [eapply nfind_In; eassumption|reflexivity]. Qed.

Lemma linked_has_record : forall l s p e, InvG l s -> nfind s p = Some e -> h_hl e <> 0%N ->
  exists b, kv_get s (h_hl e) = Some b.
Proof.
  intros l s p e I H Hn. destruct (kv_get s (h_hl e)) as [b|] eqn:E; [eauto|].
  exfalso. apply (ig_pres _ _ I (h_hl e) Hn); [|assumption].
  pose proof (cn_name_pos s p e H). lia.
Qed.

(* the generic step: the names change from m to m', the KV store is untouched, and the
   count of every non-zero id together with the pending list stays the same *)
Lemma InvG_names : forall l l' s m',
  InvG l s ->
  NoDup (map fst m') ->
  (forall X, X <> 0%N -> cn m' X + occ X l' = cn (names s) X + occ X l) ->
  (forall p e, aget HardLink.path_eqb m' p = Some e -> h_dir e = true -> h_hl e = 0%N) ->
  InvG l' (mk_st m' (kvs s)).
Proof.
  intros l l' s m' I Hnd Hcn Hdir. constructor; simpl; auto.
  - apply (ig_kd _ _ I).
  - apply (ig_zero _ _ I).
  - intros X b H. change (kv_get s X = Some b) in H.
    pose proof (kv_key_nonzero _ _ _ _ I H) as HX.
    destruct (ig_cnt _ _ I X b H) as [A [B [C D]]]. rewrite (Hcn X HX). auto.
  - intros X HX Hpos. rewrite (Hcn X HX) in Hpos. apply (ig_pres _ _ I X HX Hpos).
Qed.

Lemma occ_cons : forall X e l, occ X (h_hl e :: l) = ind e X + occ X l.
Proof. reflexivity. Qed.

(* one name is written or removed: the count of every id moves by what the old and the new blob
   carry, and the pending list makes up for the difference *)
Lemma InvG_put : forall l l' s p e, InvG l s -> (h_dir e = true -> h_hl e = 0%N) ->
  (forall X, X <> 0%N -> ind e X + occ X l' = oind (nfind s p) X + occ X l) ->
  InvG l' (raw_put s p e).
Proof.
  intros l l' s p e I Hd Hc. unfold raw_put. apply (InvG_names l l' s); auto.
  - apply aput_NoDup; [apply peqb_spec | apply (ig_nd _ _ I)].
  - intros X HX. pose proof (cn_put (names s) p e X (ig_nd _ _ I)) as H.
    specialize (Hc X HX). unfold nfind in Hc. lia.
  - intros q e' H Hdir. rewrite (aget_aput _ peqb_spec) in H.
    destruct (HardLink.path_eqb p q); [inversion H; subst; auto|].
    apply (ig_dir _ _ I q e' H Hdir).
Qed.

Lemma InvG_del : forall l l' s p, InvG l s ->
  (forall X, X <> 0%N -> occ X l' = oind (nfind s p) X + occ X l) -> InvG l' (raw_del s p).
Proof.
  intros l l' s p I Hc. unfold raw_del. apply (InvG_names l l' s); auto.
  - apply adel_NoDup, (ig_nd _ _ I).
  - intros X HX. pose proof (cn_adel (names s) p X (ig_nd _ _ I)) as H.
    specialize (Hc X HX). unfold nfind in Hc. lia.
  - intros q e' Hq Hd. rewrite (aget_adel _ peqb_spec) in Hq.
    destruct (HardLink.path_eqb p q); [discriminate|]. apply (ig_dir _ _ I q e' Hq Hd).
Qed.

(* the record of ONE id changes, together with the pending occurrences of that id *)
Lemma InvG_kv_at : forall l l' s X k', InvG l s ->
  NoDup (map fst k') -> aget N.eqb k' 0%N = None ->
  (forall Y, Y <> X -> aget N.eqb k' Y = kv_get s Y /\ occ Y l' = occ Y l) ->
  match aget N.eqb k' X with
  | Some b => h_hl b = X /\ h_dir b = false /\
              h_cnt b = Z.of_nat (cn (names s) X + occ X l') /\ 0 < cn (names s) X + occ X l'
  | None => X <> 0%N -> cn (names s) X + occ X l' = 0
  end ->
  InvG l' (mk_st (names s) k').
Proof.
  intros l l' s X k' I Hnd Hz Hoth HX. constructor; simpl; auto.
  - apply (ig_nd _ _ I).
  - intros Y b H. change (aget N.eqb k' Y = Some b) in H.
    destruct (N.eq_dec Y X) as [->|HY]; [now rewrite H in HX|].
    destruct (Hoth Y HY) as [E O]. rewrite E in H. rewrite O. apply (ig_cnt _ _ I Y b H).
  - intros Y HY0 Hpos. change (aget N.eqb k' Y <> None).
    destruct (N.eq_dec Y X) as [->|HY].
    + destruct (aget N.eqb k' X); [discriminate|]. specialize (HX HY0). lia.
    + destruct (Hoth Y HY) as [E O]. rewrite E. apply (ig_pres _ _ I Y HY0). now rewrite <- O.
  - apply (ig_dir _ _ I).
Qed.

Lemma occ_cons_same : forall X l, occ X (X :: l) = S (occ X l).
Proof. intros. simpl. now rewrite N.eqb_refl. Qed.
Lemma occ_cons_other : forall X Y l, Y <> X -> occ X (Y :: l) = occ X l.
Proof. intros. simpl. destruct (N.eqb_spec Y X); [congruence|reflexivity]. Qed.

Lemma set_link_fields : forall b id c,
  h_hl (set_link b id c) = id /\ h_cnt (set_link b id c) = c /\ h_dir (set_link b id c) = h_dir b /\
  h_chunks (set_link b id c) = h_chunks b /\ h_mtime (set_link b id c) = h_mtime b.
Proof. intros. repeat split. Qed.

Lemma kv_put_inv : forall l l' s X e,
  InvG l s -> X <> 0%N -> h_hl e = X -> h_dir e = false ->
  h_cnt e = Z.of_nat (cn (names s) X + occ X l') -> 0 < cn (names s) X + occ X l' ->
  (forall Y, Y <> X -> occ Y l' = occ Y l) ->
  InvG l' (kv_put s X e).
Proof.
  intros l l' s X e I HX Hh Hd Hc Hp Hocc. unfold kv_put. apply (InvG_kv_at l l' s X); auto.
  - apply aput_NoDup; [apply Neqb_spec|apply (ig_kd _ _ I)].
  - rewrite (aget_aput _ Neqb_spec). destruct (N.eqb_spec X 0); [congruence|apply (ig_zero _ _ I)].
  - intros Y HY. rewrite (aget_aput _ Neqb_spec). destruct (N.eqb_spec X Y); [congruence|]. auto.
  - rewrite (aget_aput _ Neqb_spec), N.eqb_refl. auto.
Qed.

Lemma dhl_inv : forall l s X, InvG (X :: l) s -> InvG l (delete_hard_link s X).
Proof.
  intros l s X I. unfold delete_hard_link.
  assert (Hoth : forall Y, Y <> X -> occ Y l = occ Y (X :: l)) by (intros Y HY; now rewrite occ_cons_other by congruence).
  destruct (kv_get s X) as [b|] eqn:E.
  - pose proof (kv_key_nonzero _ _ _ _ I E) as HX.
    destruct (ig_cnt _ _ I X b E) as [A [B [C D]]]. rewrite occ_cons_same in C, D.
    destruct (Z.leb_spec (h_cnt b - 1) 0) as [Hle|Hgt].
    + (* the record goes: no name and no pending occurrence is left *)
      unfold kv_del. apply (InvG_kv_at (X :: l) l s X); auto.
      * apply adel_NoDup, (ig_kd _ _ I).
      * rewrite (aget_adel _ Neqb_spec). destruct (N.eqb X 0); [reflexivity|apply (ig_zero _ _ I)].
      * intros Y HY. rewrite (aget_adel _ Neqb_spec). destruct (N.eqb_spec X Y); [congruence|]. auto.
      * rewrite (aget_adel _ Neqb_spec), N.eqb_refl. intros _. lia.
    + apply (kv_put_inv (X :: l) l s X); auto; simpl; lia.
  - (* no record: X is 0, or no pending occurrence of X can have been counted *)
    destruct s as [m k]. apply (InvG_kv_at (X :: l) l (mk_st m k) X); auto; try apply I.
    change (aget N.eqb k X) with (kv_get (mk_st m k) X). rewrite E. intro HX. exfalso.
    apply (ig_pres _ _ I X HX); [rewrite occ_cons_same; lia|exact E].
Qed.

Lemma dhl_fold_inv : forall ids l s, InvG (ids ++ l) s -> InvG l (fold_left delete_hard_link ids s).
Proof.
  induction ids as [|X ids IH]; simpl; intros l s I; [assumption|].
  apply IH. now apply dhl_inv.
Qed.

Lemma dhl_names : forall s X, names (delete_hard_link s X) = names s.
Proof.
  intros. unfold delete_hard_link. destruct (kv_get s X); [|reflexivity].
  destruct (h_cnt h - 1 <=? 0)%Z; reflexivity.
Qed.

Lemma dhl_fold_names : forall ids s, names (fold_left delete_hard_link ids s) = names s.
Proof. induction ids; simpl; intros; [reflexivity|]. now rewrite IHids, dhl_names. Qed.

(* the pending list matters as a multiset only *)
Lemma InvG_pending_perm : forall l l' s, (forall X, occ X l = occ X l') -> InvG l s -> InvG l' s.
Proof.
  intros l l' s H I. constructor; try apply I.
  - intros X b E. rewrite <- H. apply (ig_cnt _ _ I X b E).
  - intros X HX Hp. rewrite <- H in Hp. apply (ig_pres _ _ I X HX Hp).
Qed.

Lemma view_plain : forall s e, h_hl e = 0%N -> view s e = e.
Proof. intros. unfold view. now rewrite H. Qed.

Lemma view_linked : forall s e b, h_hl e <> 0%N -> kv_get s (h_hl e) = Some b -> view s e = b.
Proof. intros. unfold view. destruct (N.eqb_spec (h_hl e) 0); [congruence|]. now rewrite H0. Qed.

Lemma view_hl : forall l s p e, InvG l s -> nfind s p = Some e -> h_hl (view s e) = h_hl e.
Proof.
  intros l s p e I H. destruct (N.eq_dec (h_hl e) 0) as [E|E]; [now rewrite view_plain|].
  destruct (linked_has_record _ _ _ _ I H E) as [b Hb].
  rewrite (view_linked s e b E Hb). apply (ig_cnt _ _ I _ _ Hb).
Qed.

Lemma dhl_nfind : forall s X q, nfind (delete_hard_link s X) q = nfind s q.
Proof. intros. unfold nfind. now rewrite dhl_names. Qed.

(* the kv records alone decide what DeleteHardLink does, so it commutes with a change of the names *)
Lemma dhl_names_indep : forall s m X,
  delete_hard_link (mk_st m (kvs s)) X = mk_st m (kvs (delete_hard_link s X)).
Proof.
  intros. unfold delete_hard_link, kv_get. simpl.
  destruct (aget N.eqb (kvs s) X); [|reflexivity]. destruct (h_cnt h - 1 <=? 0)%Z; reflexivity.
Qed.

Lemma raw_del_dhl : forall s p X, raw_del (delete_hard_link s X) p = delete_hard_link (raw_del s p) X.
Proof. intros. unfold raw_del. now rewrite dhl_names_indep, dhl_names. Qed.

Lemma raw_put_dhl : forall s p e X, raw_put (delete_hard_link s X) p e = delete_hard_link (raw_put s p e) X.
Proof. intros. unfold raw_put. now rewrite dhl_names_indep, dhl_names. Qed.

(* removing a name: the id it carried becomes pending, and DeleteHardLink takes it from there
   (the code calls DeleteHardLink first: the same by raw_del_dhl) *)
Lemma w_delete_one_inv : forall l s p e, InvG l s -> nfind s p = Some e ->
  InvG l (w_delete_one s p (view s e)).
Proof.
  intros l s p e I H. unfold w_delete_one. rewrite (view_hl _ _ _ _ I H).
  destruct (N.eqb_spec (h_hl e) 0) as [E|E].
  - apply (InvG_del l l); [exact I|]. intros X HX. rewrite H. simpl. now rewrite (ind_zero_plain e X E HX).
  - rewrite raw_del_dhl. apply dhl_inv. apply (InvG_del l); [exact I|].
    intros X _. now rewrite H.
Qed.

(* the same count over a directory listing: its children as one-segment names *)
Definition cnl (cs : list (name * hentry)) (X : N) : nat := cn (map (fun c => ([fst c], snd c)) cs) X.

Lemma cnl_cons : forall c cs X, cnl (c :: cs) X = ind (snd c) X + cnl cs X.
Proof. intros. apply cn_cons. Qed.

Lemma cnl_perm : forall a b X, Permutation a b -> cnl a X = cnl b X.
Proof. intros. now apply cn_perm, Permutation_map. Qed.

Lemma insert_by_name_perm' : forall x l, Permutation (x :: l) (insert_by_name x l).
Proof.
  induction l as [|y l IH]; simpl; [apply Permutation_refl|].
  destruct (String.leb (fst x) (fst y)); [apply Permutation_refl|].
  eapply perm_trans; [apply perm_swap|]. now apply perm_skip.
Qed.

Lemma sort_perm' : forall l, Permutation l (fold_right insert_by_name [] l).
Proof.
  induction l as [|x l IH]; simpl; [constructor|].
  eapply perm_trans; [apply perm_skip, IH|apply insert_by_name_perm'].
Qed.

Definition children_raw (m : nstore) (d : path) : list (name * hentry) :=
  flat_map (fun kv => match HardLink.strip_prefix d (fst kv) with Some [n] => [(n, snd kv)] | _ => [] end) m.

Lemma list_children_perm : forall s d, Permutation (children_raw (names s) d) (list_children s d).
Proof. intros. unfold list_children. apply sort_perm'. Qed.

Lemma cnl_children_raw : forall m d X,
  cnl (children_raw m d) X = cn (filter (fun kv => HardLink.is_child_of d (fst kv)) m) X.
Proof.
  induction m as [|[q e] m IH]; intros d X; [reflexivity|].
  unfold children_raw in *. simpl. unfold HardLink.is_child_of, FilerNS.is_child_of, HardLink.strip_prefix in *. simpl.
  destruct (FilerNS.strip_prefix d q) as [[|n [|n' r]]|]; simpl; try apply IH.
  rewrite cnl_cons, cn_cons. simpl. now rewrite IH.
Qed.

(* what collect_children reports as link ids: the ids of the non-directory children that carry one *)
Lemma occ_collect : forall cs X, X <> 0%N ->
  (forall c, In c cs -> h_dir (snd c) = true -> h_hl (snd c) = 0%N) ->
  occ X (snd (collect_children cs)) = cnl cs X.
Proof.
  induction cs as [|c cs IH]; intros X HX Hd; [reflexivity|].
  simpl. rewrite cnl_cons.
  assert (IH' : occ X (snd (collect_children cs)) = cnl cs X).
  { apply IH; auto. intros. apply Hd; auto. now right. }
  destruct (h_dir (snd c)) eqn:Ed.
  - rewrite (ind_zero_plain _ X (Hd c (or_introl eq_refl) Ed) HX). simpl. exact IH'.
  - destruct (N.eqb_spec (h_hl (snd c)) 0) as [E|E]; simpl.
    + rewrite (ind_zero_plain _ X E HX). simpl. exact IH'.
    + unfold ind. rewrite IH'. reflexivity.
Qed.

Lemma children_raw_In : forall m d n e, In (n, e) (children_raw m d) -> In (d ++ [n], e) m.
Proof.
  intros m d n e H. unfold children_raw in H. apply in_flat_map in H. destruct H as [[q e'] [Hin H]].
  simpl in H. destruct (HardLink.strip_prefix d q) as [[|n' [|n'' r]]|] eqn:E; simpl in H; try contradiction.
  destruct H as [H|[]]. inversion H; subst.
  apply strip_prefix_spec in E. now subst.
Qed.

Lemma dfc_inv : forall l s d, InvG l s ->
  InvG (snd (collect_children (list_children s d)) ++ l) (w_delete_folder_children s d).
Proof.
  intros l s d I. unfold w_delete_folder_children.
  apply (InvG_names l _ s); auto.
  - apply NoDup_map_filter, (ig_nd _ _ I).
  - intros X HX. rewrite occ_app.
    rewrite occ_collect; auto.
    + rewrite <- (cnl_perm _ _ X (list_children_perm s d)), cnl_children_raw.
      pose proof (cn_filter_split (fun kv => HardLink.is_child_of d (fst kv)) (names s) X) as Hs.
      cbv beta in Hs. simpl names. unfold HardLink.path in *. lia.
    + intros [n e] Hin Hdir. simpl in *.
      apply (Permutation_in _ (Permutation_sym (list_children_perm s d))) in Hin.
      apply children_raw_In in Hin.
      apply (ig_dir _ _ I (d ++ [n]) e); auto. apply In_nfind; [apply (ig_nd _ _ I)|assumption].
  - intros q e Hq Hd.
    rewrite (aget_filter_key _ peqb_spec (fun k => negb (HardLink.is_child_of d k))) in Hq.
    destruct (negb (HardLink.is_child_of d q)); [|discriminate].
    apply (ig_dir _ _ I q e Hq Hd).
Qed.

Lemma huhl_plain : forall s p e, h_hl e = 0%N ->
  (forall ex, nfind s p = Some ex -> h_hl ex = 0%N) -> handle_update_to_hard_links s p e = s.
Proof.
  intros s p e H Hold. unfold handle_update_to_hard_links. rewrite H. simpl.
  destruct (nfind s p) as [ex|] eqn:E; [|reflexivity]. now rewrite (Hold ex eq_refl).
Qed.

(* a plain entry at any name: a link id carried by the replaced blob becomes pending and is
   decremented (handleUpdateToHardLinks drops the previous link also when the new entry carries none) *)
Lemma w_insert_plain_inv : forall l s p e, InvG l s -> h_hl e = 0%N -> InvG l (w_insert s p e).
Proof.
  intros l s p e I He. unfold w_insert, handle_update_to_hard_links. rewrite He. simpl.
  assert (Hput : forall l', (forall X, X <> 0%N -> occ X l' = oind (nfind s p) X + occ X l) -> InvG l' (raw_put s p e)).
  { intros l' H. apply (InvG_put l); [exact I|intro; exact He|]. intros X HX. now rewrite (ind_zero_plain e X He HX), H. }
  destruct (nfind s p) as [ex|] eqn:E; [|now apply Hput].
  destruct (N.eqb_spec (h_hl ex) 0) as [Z|Z]; simpl.
  - apply Hput. intros X HX. simpl. now rewrite (ind_zero_plain ex X Z HX).
  - rewrite raw_put_dhl. apply dhl_inv. now apply Hput.
Qed.

Lemma kv_put_nfind : forall s k v q, nfind (kv_put s k v) q = nfind s q.
Proof. reflexivity. Qed.

(* a write through a name whose blob carries X: the record and the blob are replaced, the counter kept *)
Lemma w_insert_same_link_inv : forall l s p ex b e, InvG l s ->
  nfind s p = Some ex -> h_hl ex <> 0%N -> kv_get s (h_hl ex) = Some b ->
  h_hl e = h_hl ex -> h_cnt e = h_cnt b -> h_dir e = false ->
  InvG l (w_insert s p e).
Proof.
  intros l s p ex b e I H Hn Hb He Hc Hd. unfold w_insert, handle_update_to_hard_links.
  destruct (N.eqb_spec (h_hl e) 0) as [E|E]; [congruence|].
  rewrite kv_put_nfind, H. rewrite <- He, N.eqb_refl, andb_false_r.
  destruct (ig_cnt _ _ I _ _ Hb) as [A [B [C D]]].
  apply (InvG_put l).
  - apply (kv_put_inv l l s (h_hl e) e); auto; congruence.
  - congruence.
  - intros X HX. rewrite kv_put_nfind, H. simpl. unfold ind. now rewrite He.
Qed.

(* Dir.Link, first half: the old name gets (or keeps) the id X with the counter raised by one (a fresh
   id starts at 1 in Dir.Link, hence 2); X becomes pending until the new name is there *)
Lemma w_insert_link_first_inv : forall l s p ex e X, InvG l s ->
  nfind s p = Some ex -> h_dir e = false -> h_hl e = X -> X <> 0%N ->
  ((h_hl ex = 0%N /\ kv_get s X = None /\ h_cnt e = 2%Z) \/
   (h_hl ex = X /\ exists b, kv_get s X = Some b /\ h_cnt e = (h_cnt b + 1)%Z)) ->
  InvG (X :: l) (w_insert s p e).
Proof.
  intros l s p ex e X I H Hd He HX Hcase. unfold w_insert, handle_update_to_hard_links.
  destruct (N.eqb_spec (h_hl e) 0) as [E|E]; [congruence|].
  rewrite kv_put_nfind, H. rewrite He.
  assert (Hnodrop : negb (h_hl ex =? 0)%N && negb (h_hl ex =? X)%N = false).
  { destruct Hcase as [[A _]|[A _]]; rewrite A; [reflexivity|]. now rewrite N.eqb_refl, andb_false_r. }
  rewrite Hnodrop.
  destruct Hcase as [[A [B C]]|[A [b [B C]]]].
  - (* fresh id: no name and nothing pending carried it *)
    assert (Hz : cn (names s) X + occ X l = 0).
    { destruct (cn (names s) X + occ X l) eqn:Ez; [reflexivity|].
      exfalso. apply (ig_pres _ _ I X HX); [lia|assumption]. }
    assert (I1 : InvG (X :: X :: l) (kv_put s X e)).
    { apply (kv_put_inv l _ s X e); auto.
      - rewrite !occ_cons_same. rewrite C. lia.
      - rewrite !occ_cons_same. lia.
      - intros Y HY. rewrite !occ_cons_other by congruence. reflexivity. }
    (* the name now carries X: one pending occurrence is consumed *)
    apply (InvG_put (X :: X :: l)); [exact I1|congruence|].
    intros Y HY. rewrite kv_put_nfind, H. simpl oind. rewrite (ind_zero_plain ex Y A HY).
    rewrite <- He, !occ_cons. lia.
  - destruct (ig_cnt _ _ I _ _ B) as [A' [B' [C' D']]].
    apply (InvG_put (X :: l)).
    + apply (kv_put_inv l _ s X e); auto.
      * rewrite occ_cons_same. rewrite C, C'. lia.
      * rewrite occ_cons_same. lia.
      * intros Y HY. rewrite occ_cons_other by congruence. reflexivity.
    + congruence.
    + intros Y HY. rewrite kv_put_nfind, H. simpl. unfold ind. now rewrite He, A.
Qed.

(* Dir.Link, second half: the new name appears carrying the pending id *)
Lemma w_insert_link_second_inv : forall l s p b e X, InvG (X :: l) s ->
  nfind s p = None -> h_dir e = false -> h_hl e = X -> X <> 0%N ->
  kv_get s X = Some b -> h_cnt e = h_cnt b ->
  InvG l (w_insert s p e).
Proof.
  intros l s p b e X I H Hd He HX Hb Hc. unfold w_insert, handle_update_to_hard_links.
  destruct (N.eqb_spec (h_hl e) 0) as [E|E]; [congruence|].
  rewrite kv_put_nfind, H. rewrite He.
  destruct (ig_cnt _ _ I _ _ Hb) as [A' [B' [C' D']]].
  assert (I1 : InvG (X :: l) (kv_put s X e)).
  { apply (kv_put_inv (X :: l) _ s X e); auto. congruence. }
  apply (InvG_put (X :: l)); [exact I1|congruence|].
  intros Y HY. rewrite kv_put_nfind, H, <- He, occ_cons. reflexivity.
Qed.
