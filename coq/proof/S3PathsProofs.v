(* C29 (model/S3Paths.v): a lexical walk that does not escape (`escapes`) keeps the cleaned
   path under the bucket directory; instantiated with nothing forbidden (containment of every
   call of every route) and with ".uploads" forbidden (the multipart area); escaping requests. *)
From Coq Require Import List NArith Bool String Ascii Arith Lia.
From SW Require Import proof.StringFacts proof.ListFacts model.S3List model.S3Paths.
Import ListNotations.
Local Open Scope list_scope.
Local Open Scope string_scope.

Lemma split_nonempty : forall s, split_slash s <> [].
Proof.
  induction s as [|c s IH]; simpl; [discriminate|].
  destruct (Ascii.eqb c slash); [discriminate|].
  destruct (split_slash s); discriminate.
Qed.

Lemma split_app_slash : forall x y, split_slash (x ++ String slash y) = (split_slash x ++ split_slash y)%list.
Proof.
  induction x as [|c x IH]; intros y.
  - simpl. reflexivity.
  - simpl. destruct (Ascii.eqb c slash) eqn:E.
    + rewrite IH. reflexivity.
    + rewrite IH. destruct (split_slash x) as [|h t] eqn:Ex.
      * exfalso. exact (split_nonempty x Ex).
      * reflexivity.
Qed.

Lemma split_app_sep : forall x y, split_slash (x ++ "/" ++ y) = (split_slash x ++ split_slash y)%list.
Proof. exact split_app_slash. Qed.

Lemma no_slash_split : forall s, no_slash s = true -> split_slash s = [s].
Proof.
  induction s as [|c s IH]; simpl; intros H; [reflexivity|].
  apply andb_true_iff in H. destruct H as [Hc Hs].
  destruct (Ascii.eqb c slash); [discriminate|].
  rewrite (IH Hs). reflexivity.
Qed.

Lemma split_segs_no_slash : forall s x, In x (split_slash s) -> no_slash x = true.
Proof.
  induction s as [|c s IH]; simpl; intros x H.
  - destruct H as [H|[]]. subst x. reflexivity.
  - destruct (Ascii.eqb c slash) eqn:E.
    + destruct H as [H|H]; [subst x; reflexivity | exact (IH x H)].
    + destruct (split_slash s) as [|h t] eqn:Es.
      * destruct H as [H|[]]. subst x. simpl. rewrite E. reflexivity.
      * destruct H as [H|H].
        -- subst x. simpl. rewrite E. simpl. apply IH. left. reflexivity.
        -- apply IH. right. exact H.
Qed.

Lemma rcut_slash_none : forall s, rcut_slash s = None -> no_slash s = true.
Proof.
  induction s as [|c s IH]; simpl; intros H; [reflexivity|].
  destruct (rcut_slash s) as [[a b]|]; [discriminate|].
  destruct (Ascii.eqb c slash); [discriminate|]. simpl. apply IH. reflexivity.
Qed.

Lemma rcut_slash_spec : forall s d n, rcut_slash s = Some (d, n) -> s = d ++ String slash n /\ no_slash n = true.
Proof.
  induction s as [|c s IH]; simpl; intros d n H; [discriminate|].
  destruct (rcut_slash s) as [[a b]|] eqn:E.
  - inversion H; subst. destruct (IH a n eq_refl) as [H1 H2]. split; [simpl; rewrite <- H1; reflexivity | exact H2].
  - destruct (Ascii.eqb c slash) eqn:Ec; [|discriminate].
    inversion H; subst. apply Ascii.eqb_eq in Ec. subst c. split; [reflexivity | exact (rcut_slash_none n E)].
Qed.

Lemma cut_slash_spec : forall s a b, cut_slash s = Some (a, b) -> s = a ++ String slash b /\ no_slash a = true.
Proof.
  induction s as [|c s IH]; simpl; intros a b H; [discriminate|].
  destruct (Ascii.eqb c slash) eqn:Ec.
  - inversion H; subst. apply Ascii.eqb_eq in Ec. subst c. split; reflexivity.
  - destruct (cut_slash s) as [[x y]|]; [|discriminate]. inversion H; subst.
    destruct (IH x b eq_refl) as [H1 H2]. split; [simpl; rewrite <- H1; reflexivity | simpl; rewrite Ec; exact H2].
Qed.

Lemma starts_with_slash_spec : forall s, starts_with_slash s = true -> exists r, s = String slash r.
Proof.
  destruct s as [|c r]; simpl; intros H; [discriminate|].
  apply Ascii.eqb_eq in H. subst c. exists r. reflexivity.
Qed.

(* the segments cleaning keeps; segment lists without ".." *)
Definition keep (s : string) : bool := negb ((s =? "") || (s =? ".")).
Definition nodd (l : list string) : Prop := forall s, In s l -> s <> "..".

Lemma fold_nodd : forall r B acc, nodd B ->
  fold_left (norm_step r) B acc = (rev (filter keep B) ++ acc)%list.
Proof.
  induction B as [|s B IH]; intros acc H; simpl; [reflexivity|].
  assert (Hs : s <> "..") by (apply H; left; reflexivity).
  assert (HB : nodd B) by (intros x Hx; apply H; right; exact Hx).
  unfold norm_step at 2. unfold keep at 1.
  destruct ((s =? "") || (s =? ".")) eqn:E; simpl.
  - apply IH. exact HB.
  - destruct (s =? "..") eqn:E2; [apply String.eqb_eq in E2; contradiction|].
    rewrite IH by exact HB. rewrite <- app_assoc. reflexivity.
Qed.

Lemma norm_app_nodd : forall r A B, nodd B ->
  norm_segs r (A ++ B) = (norm_segs r A ++ filter keep B)%list.
Proof.
  intros r A B H. unfold norm_segs. rewrite fold_left_app. rewrite fold_nodd by exact H.
  rewrite rev_app_distr. rewrite rev_involutive. reflexivity.
Qed.

Lemma norm_nodd : forall r B, nodd B -> norm_segs r B = filter keep B.
Proof. intros r B H. apply (norm_app_nodd r [] B H). Qed.

(* a segment of a cleaned rooted path *)
Definition clean_seg (s : string) : Prop := s <> "" /\ s <> "." /\ s <> "..".

(* what normalisation keeps: segments of the input other than "", "." and "..", and, for a
   path that is not rooted, ".." *)
Lemma norm_segs_Forall : forall (P : string -> Prop) r segs, (r = false -> P "..") ->
  (forall s, In s segs -> clean_seg s -> P s) -> Forall P (norm_segs r segs).
Proof.
  intros P r segs Pdd H. unfold norm_segs. apply Forall_rev.
  assert (G : forall l acc, (forall s, In s l -> clean_seg s -> P s) -> Forall P acc ->
                            Forall P (fold_left (norm_step r) l acc)).
  { induction l as [|s l IH]; intros acc Hl Hacc; simpl; [exact Hacc|].
    apply IH; [intros x Hx; apply Hl; right; exact Hx|]. unfold norm_step.
    destruct ((s =? "") || (s =? ".")) eqn:E1; [exact Hacc|].
    apply orb_false_iff in E1. destruct E1 as [E1 E2].
    destruct (s =? "..") eqn:E3.
    - destruct acc as [|t acc']; [destruct r; [constructor | repeat constructor; exact (Pdd eq_refl)]|].
      destruct (t =? "..") eqn:E4; [|exact (Forall_inv_tail Hacc)].
      apply String.eqb_eq in E4. subst t. constructor; [exact (Forall_inv Hacc) | exact Hacc].
    - constructor; [|exact Hacc]. apply Hl; [left; reflexivity|].
      repeat split; apply String.eqb_neq; assumption. }
  apply G; [exact H | constructor].
Qed.

Lemma norm_rooted_clean : forall segs, Forall clean_seg (norm_segs true segs).
Proof. intros segs. apply norm_segs_Forall; [discriminate | intros s _ H; exact H]. Qed.

Lemma split_join : forall l, l <> [] -> Forall (fun s => no_slash s = true) l ->
  split_slash (join_slash l) = l.
Proof.
  induction l as [|a l IH]; intros Hne H; [contradiction|].
  inversion H; subst. destruct l as [|b l'].
  - simpl. apply no_slash_split. exact H2.
  - change (join_slash (a :: b :: l')) with (a ++ String slash (join_slash (b :: l'))).
    rewrite split_app_slash. rewrite (no_slash_split a H2). rewrite IH; [reflexivity | discriminate | exact H3].
Qed.

Lemma clean_seg_keep : forall l, Forall clean_seg l -> filter keep l = l /\ nodd l.
Proof.
  induction l as [|s l IH]; intros H; [split; [reflexivity | intros x []]|].
  inversion H; subst. destruct (IH H3) as [I1 I2]. destruct H2 as [A [B C]].
  split.
  - simpl. unfold keep at 1.
    destruct (s =? "") eqn:E1; [apply String.eqb_eq in E1; contradiction|].
    destruct (s =? ".") eqn:E2; [apply String.eqb_eq in E2; contradiction|].
    simpl. rewrite I1. reflexivity.
  - intros x [Hx|Hx]; [subst x; exact C | exact (I2 x Hx)].
Qed.

Lemma norm_fix : forall r l, Forall clean_seg l -> norm_segs r l = l.
Proof. intros r l H. destruct (clean_seg_keep l H) as [A B]. rewrite norm_nodd by exact B. exact A. Qed.

(* the segments of clean p, for a rooted p *)
Definition rsegs (p : string) : list string := norm_segs true (split_slash p).

Lemma clean_rooted : forall p, starts_with_slash p = true -> clean p = "/" ++ join_slash (rsegs p).
Proof. intros p H. unfold clean. rewrite H. reflexivity. Qed.

Lemma rsegs_no_slash : forall p, Forall (fun s => no_slash s = true) (rsegs p).
Proof.
  intros p. apply norm_segs_Forall; [reflexivity|]. intros x Hx _. exact (split_segs_no_slash _ _ Hx).
Qed.

Lemma rsegs_of_rooted_join : forall l, Forall clean_seg l -> Forall (fun s => no_slash s = true) l ->
  rsegs ("/" ++ join_slash l) = l.
Proof.
  intros l Hc Hn. unfold rsegs. destruct l as [|a l'].
  - reflexivity.
  - change ("/" ++ join_slash (a :: l')) with ("" ++ String slash (join_slash (a :: l'))).
    rewrite split_app_slash. rewrite split_join; [|discriminate|exact Hn].
    simpl split_slash. change ([""] ++ a :: l')%list with ([""] ++ (a :: l'))%list.
    rewrite norm_app_nodd; [|exact (proj2 (clean_seg_keep _ Hc))].
    rewrite (proj1 (clean_seg_keep _ Hc)). reflexivity.
Qed.

Lemma rsegs_clean : forall p, starts_with_slash p = true -> rsegs (clean p) = rsegs p.
Proof.
  intros p H. rewrite clean_rooted by exact H.
  apply rsegs_of_rooted_join; [apply norm_rooted_clean | apply rsegs_no_slash].
Qed.

Lemma clean_starts : forall p, starts_with_slash p = true -> starts_with_slash (clean p) = true.
Proof. intros p H. rewrite clean_rooted by exact H. reflexivity. Qed.

Lemma split_clean : forall p, starts_with_slash p = true -> rsegs p <> [] ->
  split_slash (clean p) = ("" :: rsegs p)%list.
Proof.
  intros p H NE. rewrite (clean_rooted p H).
  change ("/" ++ join_slash (rsegs p)) with ("" ++ String slash (join_slash (rsegs p))).
  rewrite split_app_slash, split_join; [reflexivity | exact NE | apply rsegs_no_slash].
Qed.

Theorem clean_idempotent : forall p, starts_with_slash p = true -> clean (clean p) = clean p.
Proof.
  intros p H. rewrite (clean_rooted (clean p)) by (apply clean_starts; exact H).
  rewrite rsegs_clean by exact H. symmetry. apply clean_rooted. exact H.
Qed.

Lemma rsegs_trailing_slash : forall p, rsegs (p ++ "/") = rsegs p.
Proof.
  intros p. unfold rsegs. change (p ++ "/") with (p ++ String slash "").
  rewrite split_app_slash. simpl split_slash.
  unfold norm_segs. rewrite fold_left_app. simpl. reflexivity.
Qed.

Lemma starts_app : forall p q, starts_with_slash p = true -> starts_with_slash (p ++ q) = true.
Proof. intros p q H. destruct (starts_with_slash_spec _ H) as [r E]. subst p. reflexivity. Qed.

Lemma clean_trailing_slash : forall p, starts_with_slash p = true -> clean (p ++ "/") = clean p.
Proof.
  intros p H. rewrite (clean_rooted (p ++ "/")) by (apply starts_app; exact H).
  rewrite rsegs_trailing_slash. symmetry. apply clean_rooted. exact H.
Qed.

Lemma clean_mux_clean : forall p, starts_with_slash p = true -> clean (mux_clean p) = clean p.
Proof.
  intros p H. unfold mux_clean.
  destruct (starts_with_slash_spec _ H) as [r E]. subst p.
  change (String slash r =? "") with false. cbv iota. rewrite H.
  destruct (ends_with_slash (String slash r) && negb (clean (String slash r) =? "/")).
  - rewrite clean_trailing_slash by (apply clean_starts; exact H). apply clean_idempotent. exact H.
  - apply clean_idempotent. exact H.
Qed.

Lemma join_split : forall s, join_slash (split_slash s) = s.
Proof.
  induction s as [|c s IH]; [reflexivity|].
  simpl split_slash. destruct (Ascii.eqb c slash) eqn:E.
  - apply Ascii.eqb_eq in E. subst c.
    destruct (split_slash s) as [|h t] eqn:Es; [exfalso; exact (split_nonempty s Es)|].
    change (join_slash ("" :: h :: t)) with ("" ++ String slash (join_slash (h :: t))).
    rewrite IH. reflexivity.
  - destruct (split_slash s) as [|h t] eqn:Es; [exfalso; exact (split_nonempty s Es)|].
    destruct t as [|h2 t2].
    + unfold join_slash in *. simpl in *. rewrite IH. reflexivity.
    + change (join_slash (String c h :: h2 :: t2)) with (String c (h ++ String slash (join_slash (h2 :: t2)))).
      change (join_slash (h :: h2 :: t2)) with (h ++ String slash (join_slash (h2 :: t2))) in IH.
      rewrite IH. reflexivity.
Qed.

Lemma split_inj : forall a b, split_slash a = split_slash b -> a = b.
Proof. intros a b H. rewrite <- (join_split a), <- (join_split b), H. reflexivity. Qed.

Lemma split_head_rooted : forall p x r, split_slash p = "" :: x :: r -> starts_with_slash p = true.
Proof.
  destruct p as [|c p]; simpl; intros x r H; [discriminate|].
  destruct (Ascii.eqb c slash) eqn:E; [reflexivity|].
  destruct (split_slash p); discriminate.
Qed.

Lemma rcut_split : forall s d n, rcut_slash s = Some (d, n) -> split_slash s = (split_slash d ++ [n])%list.
Proof.
  intros s d n H. destruct (rcut_slash_spec _ _ _ H) as [E N]. subst s.
  rewrite split_app_slash. rewrite (no_slash_split n N). reflexivity.
Qed.

Lemma rcut_rooted : forall r, exists d n, rcut_slash (String slash r) = Some (d, n).
Proof.
  intros r. simpl. destruct (rcut_slash r) as [[a b]|]; [exists (String slash a), b; reflexivity|].
  exists "", r. reflexivity.
Qed.


Lemma ends_app_slash : forall x, ends_with_slash (x ++ "/") = true.
Proof.
  induction x as [|c x IH]; [reflexivity|].
  change (String c x ++ "/") with (String c (x ++ "/")).
  destruct x as [|c2 x2]; [reflexivity|].
  change (String c2 x2 ++ "/") with (String c2 (x2 ++ "/")) in *.
  exact IH.
Qed.

Lemma strip_app_slash : forall x, strip_one_trailing_slash (x ++ "/") = x.
Proof.
  induction x as [|c x IH]; [reflexivity|].
  change (String c x ++ "/") with (String c (x ++ "/")).
  destruct x as [|c2 x2]; [reflexivity|].
  change (String c2 x2 ++ "/") with (String c2 (x2 ++ "/")) in *.
  change (strip_one_trailing_slash (String c (String c2 (x2 ++ "/"))))
    with (String c (strip_one_trailing_slash (String c2 (x2 ++ "/")))).
  rewrite IH. reflexivity.
Qed.

Lemma strip_one_spec : forall s, ends_with_slash s = true -> s = strip_one_trailing_slash s ++ "/".
Proof.
  induction s as [|c r IH]; intros H; [discriminate|].
  destruct r as [|c2 r2].
  - simpl in H. apply Ascii.eqb_eq in H. subst c. reflexivity.
  - change (ends_with_slash (String c (String c2 r2))) with (ends_with_slash (String c2 r2)) in H.
    change (String c (String c2 r2) = String c (strip_one_trailing_slash (String c2 r2) ++ "/")).
    rewrite <- (IH H). reflexivity.
Qed.

(* the stack of kept segments (deepest first) after walking segs from the stack st *)
Definition run (st segs : list string) : list string := fold_left (norm_step true) segs st.

Lemma run_app : forall A B st, run st (A ++ B) = run (run st A) B.
Proof. intros A B st. unfold run. apply fold_left_app. Qed.

Lemma plain_seg_iff : forall s, plain_seg s = true <-> clean_seg s.
Proof.
  intros s. unfold plain_seg, clean_seg. rewrite negb_true_iff, !orb_false_iff, !String.eqb_neq. tauto.
Qed.

Lemma plain_not_skip : forall s, plain_seg s = true -> skip_seg s = false /\ (s =? "..") = false.
Proof.
  intros s H. apply negb_true_iff in H. apply orb_false_iff in H. exact H.
Qed.

Section Walk.
  Variable forbid : string -> bool.

  Lemma esc_mid_skip : forall A s B st, skip_seg s = true ->
    escapes forbid st (A ++ s :: B) = escapes forbid st (A ++ B).
  Proof.
    induction A as [|a A IH]; intros s B st H.
    - simpl. rewrite H. reflexivity.
    - change ((a :: A) ++ s :: B)%list with (a :: (A ++ s :: B))%list.
      change ((a :: A) ++ B)%list with (a :: (A ++ B))%list.
      simpl. destruct (skip_seg a); [apply IH; exact H|].
      destruct (a =? "..").
      + destruct st as [|t st']; [reflexivity | apply IH; exact H].
      + destruct (match st with [] => forbid a | _ :: _ => false end); [reflexivity | apply IH; exact H].
  Qed.

  Lemma esc_weaken : forall B st st2, escapes forbid st B = false -> escapes forbid (st ++ st2) B = false.
  Proof.
    induction B as [|s B IH]; intros st st2 H; [reflexivity|].
    simpl in H. simpl. destruct (skip_seg s); [exact (IH st st2 H)|].
    destruct (s =? "..").
    - destruct st as [|t st']; [discriminate|]. simpl. exact (IH st' st2 H).
    - destruct st as [|t st'].
      + destruct (forbid s) eqn:EF; [discriminate|]. simpl app.
        destruct st2 as [|u st2'].
        * exact H.
        * exact (IH [s] (u :: st2') H).
      + simpl. exact (IH (s :: t :: st') st2 H).
  Qed.

  (* the bottom of the stack, the entry directly below the start directory, is not forbidden *)
  Definition botok (st : list string) : Prop := st = [] \/ forbid (last st "") = false.

  (* One segment of a walk that does not escape: the walk goes on from the stack norm_step
     builds, which stays free of "..", sits on whatever lies below st, and keeps its bottom. *)
  Lemma esc_step : forall s C st, nodd st -> escapes forbid st (s :: C) = false ->
    escapes forbid (norm_step true st s) C = false /\ nodd (norm_step true st s) /\
    (forall B, escapes forbid st (s :: B) = escapes forbid (norm_step true st s) B) /\
    (forall base, norm_step true (st ++ base) s = (norm_step true st s ++ base)%list) /\
    (botok st -> botok (norm_step true st s)).
  Proof.
    intros s C st N H. simpl in H. simpl escapes. unfold norm_step. fold (skip_seg s).
    destruct (skip_seg s); [repeat split; auto|].
    destruct (s =? "..") eqn:ED.
    - destruct st as [|t st']; [discriminate|].
      assert (Ht : (t =? "..") = false) by (apply String.eqb_neq; apply N; left; reflexivity).
      simpl app. rewrite Ht. repeat split; auto.
      + intros x Hx. apply N. right. exact Hx.
      + intros base. rewrite Ht. reflexivity.
      + intros [B|B]; [discriminate|]. destruct st' as [|u st'']; [left; reflexivity | right; exact B].
    - assert (N' : nodd (s :: st)).
      { intros x [Hx|Hx]; [subst x; apply String.eqb_neq; exact ED | apply N; exact Hx]. }
      destruct st as [|t st'].
      + destruct (forbid s) eqn:EF; [discriminate|]. repeat split; auto. intros _. right. exact EF.
      + repeat split; auto. intros [B|B]; [discriminate | right; exact B].
  Qed.

  Lemma esc_prefix : forall A B st, nodd st -> escapes forbid st (A ++ B) = false -> escapes forbid st A = false.
  Proof.
    induction A as [|s A IH]; intros B st N H; [reflexivity|].
    destruct (esc_step s (A ++ B) st N H) as [H' [N' [EB _]]]. rewrite EB. exact (IH B _ N' H').
  Qed.

  (* while the walk does not escape, its stack is the normalisation stack of clean *)
  Lemma walk_inv : forall C st, nodd st -> escapes forbid st C = false ->
    (forall B, escapes forbid st (C ++ B) = escapes forbid (run st C) B) /\
    (forall base, run (st ++ base) C = (run st C ++ base)%list) /\
    (botok st -> botok (run st C)).
  Proof.
    induction C as [|s C IH]; intros st N H; [repeat split; auto|].
    destruct (esc_step s C st N H) as [H' [N' [EB [EBase EBot]]]].
    destruct (IH _ N' H') as [I2 [I3 I4]].
    change (run st (s :: C)) with (run (norm_step true st s) C). repeat split.
    - intros B. change ((s :: C) ++ B)%list with (s :: C ++ B)%list. rewrite EB. apply I2.
    - intros base. change (run (st ++ base) (s :: C)) with (run (norm_step true (st ++ base) s) C).
      rewrite EBase. apply I3.
    - intros Bk. exact (I4 (EBot Bk)).
  Qed.

  Lemma nodd_nil : nodd [].
  Proof. intros s []. Qed.

  (* the walk over l from the start directory does not escape; written `ok` in the sections *)
  Definition okw (l : list string) : Prop := escapes forbid [] l = false.
  Notation ok := okw.

  Lemma ok_nil : ok [].
  Proof. reflexivity. Qed.

  Lemma ok_prefix : forall A B, ok (A ++ B) -> ok A.
  Proof. intros A B H. exact (esc_prefix A B [] nodd_nil H). Qed.

  Lemma ok_app : forall A B, ok A -> ok B -> ok (A ++ B).
  Proof.
    intros A B HA HB. unfold okw. destruct (walk_inv A [] nodd_nil HA) as [E _]. rewrite E.
    exact (esc_weaken B [] (run [] A) HB).
  Qed.

  Lemma ok_snoc_skip : forall A s, skip_seg s = true -> ok A -> ok (A ++ [s]).
  Proof. intros A s H HA. unfold okw. rewrite (esc_mid_skip A s [] [] H). rewrite app_nil_r. exact HA. Qed.

  Lemma ok_snoc_plain : forall A s, ok A -> plain_seg s = true -> (run [] A = [] -> forbid s = false) ->
    ok (A ++ [s]).
  Proof.
    intros A s HA P F. unfold okw. destruct (walk_inv A [] nodd_nil HA) as [E _]. rewrite E.
    destruct (plain_not_skip s P) as [S D]. simpl. rewrite S, D.
    destruct (run [] A) as [|t st]; [rewrite (F eq_refl); reflexivity | reflexivity].
  Qed.

End Walk.

Section Under.
  Variable forbid : string -> bool.   (* the names forbidden directly below the bucket *)

  Notation ok := (okw forbid).

  (* the raw segments of P are  "", "buckets", b  followed by a walk that does not escape *)
  Definition under_ext (b P : string) (R : list string) : Prop :=
    exists C, split_slash P = ("" :: "buckets" :: b :: C)%list /\ ok (C ++ R).
  Definition under (b P : string) : Prop := under_ext b P [].

  Lemma under_spec : forall b P, under b P <-> exists C, split_slash P = ("" :: "buckets" :: b :: C)%list /\ ok C.
  Proof.
    intros b P. unfold under, under_ext. split; intros [C [E O]]; exists C; split; try exact E.
    - rewrite app_nil_r in O. exact O.
    - rewrite app_nil_r. exact O.
  Qed.

  Lemma under_ext_under : forall b P R, under_ext b P R -> under b P.
  Proof. intros b P R [C [E O]]. apply under_spec. exists C. split; [exact E | exact (ok_prefix forbid C R O)]. Qed.

  Lemma under_ext_app : forall b P r R, under_ext b P (split_slash r ++ R) -> under_ext b (P ++ String slash r) R.
  Proof.
    intros b P r R [C [E O]]. exists (C ++ split_slash r)%list. split.
    - rewrite split_app_slash, E. reflexivity.
    - rewrite <- app_assoc. exact O.
  Qed.

  Lemma under_app : forall b P r, under_ext b P (split_slash r) -> under b (P ++ String slash r).
  Proof. intros b P r H. apply under_ext_app. rewrite app_nil_r. exact H. Qed.

  Lemma under_ext_ok : forall b P R, under b P -> ok R -> under_ext b P R.
  Proof.
    intros b P R U O. apply under_spec in U. destruct U as [C [E OC]]. exists C. split; [exact E|].
    apply ok_app; assumption.
  Qed.

  (* an ordinary bucket name: accepted by the router, without "%" *)
  Definition good (b : string) : Prop := bad_bucket b = false.

  Lemma good_spec : forall b, good b -> clean_seg b /\ no_slash b = true /\ no_pct b = true.
  Proof.
    intros b H. unfold good, bad_bucket, router_refuses, odd_bucket in H.
    rewrite !orb_false_iff, !negb_false_iff, !String.eqb_neq in H.
    destruct H as [[[[H1 H2] H3] H4] H5]. exact (conj (conj H1 (conj H2 H3)) (conj H4 H5)).
  Qed.

  Lemma good_routed : forall b, good b -> router_refuses b = false.
  Proof. intros b H. unfold good, bad_bucket in H. apply orb_false_iff in H. exact (proj1 H). Qed.

  Lemma split_bucket_dir : forall b, no_slash b = true -> split_slash (bucket_dir b) = ["" ; "buckets"; b].
  Proof.
    intros b H. unfold bucket_dir, buckets_path.
    rewrite split_app_sep. rewrite (no_slash_split b H). reflexivity.
  Qed.

  Lemma under_ext_bucket_dir : forall b R, good b -> ok R -> under_ext b (bucket_dir b) R.
  Proof.
    intros b R H O. destruct (good_spec b H) as [_ [N _]].
    exists []. split; [apply split_bucket_dir; exact N | exact O].
  Qed.

  Lemma under_bucket_dir : forall b, good b -> under b (bucket_dir b).
  Proof. intros b H. apply under_ext_bucket_dir; [exact H | apply ok_nil]. Qed.

  Lemma under_rooted : forall b P, under b P -> starts_with_slash P = true.
  Proof. intros b P [C [E _]]. exact (split_head_rooted _ _ _ E). Qed.

  Lemma plain_bucket : forall b, good b -> plain_seg b = true.
  Proof.
    intros b G. apply plain_seg_iff. exact (proj1 (good_spec b G)).
  Qed.

  Lemma rsegs_under : forall b P C, good b -> split_slash P = ("" :: "buckets" :: b :: C)%list -> ok C ->
    rsegs P = ("buckets" :: b :: norm_segs true C)%list /\
    (forall x r, norm_segs true C = (x :: r)%list -> forbid x = false).
  Proof.
    intros b P C G E O. destruct (walk_inv forbid C [] nodd_nil O) as [_ [Base Bot]].
    destruct (plain_not_skip b (plain_bucket b G)) as [Sb Db].
    assert (Sb' : ((b =? "") || (b =? ".")) = false) by exact Sb.
    split.
    - unfold rsegs. rewrite E. unfold norm_segs.
      change (fold_left (norm_step true) ("" :: "buckets" :: b :: C) [])
        with (run (norm_step true (norm_step true (norm_step true [] "") "buckets") b) C).
      assert (E3 : norm_step true (norm_step true (norm_step true [] "") "buckets") b = [b; "buckets"]).
      { unfold norm_step at 2 3. simpl. unfold norm_step. rewrite Sb', Db. reflexivity. }
      rewrite E3.
      change [b; "buckets"] with ([] ++ [b; "buckets"])%list. rewrite Base, rev_app_distr. reflexivity.
    - intros x r Ex. unfold norm_segs in Ex. fold (run [] C) in Ex.
      assert (EL : run [] C = (rev r ++ [x])%list).
      { rewrite <- (rev_involutive (run [] C)). rewrite Ex. reflexivity. }
      destruct (Bot (or_introl eq_refl)) as [B|B].
      + rewrite B in EL. destruct (rev r); discriminate.
      + rewrite EL in B. rewrite last_last in B. exact B.
  Qed.

  Lemma clean_bucket_dir : forall b, good b -> clean (bucket_dir b) = bucket_dir b.
  Proof.
    intros b G. destruct (good_spec b G) as [_ [N _]].
    destruct (rsegs_under b (bucket_dir b) [] G (split_bucket_dir b N) (ok_nil forbid)) as [R _].
    rewrite clean_rooted by reflexivity. rewrite R. reflexivity.
  Qed.

  Lemma under_contained : forall b P, good b -> under b P -> contained b P = true.
  Proof.
    intros b P G U. unfold contained. rewrite (clean_bucket_dir b G).
    rewrite (clean_rooted P (under_rooted b P U)).
    pose proof U as U0. apply under_spec in U0. destruct U0 as [C [E0 O]].
    rewrite (proj1 (rsegs_under b P C G E0 O)). unfold inside.
    destruct (norm_segs true C) as [|c C''].
    - change ("/" ++ join_slash ["buckets"; b]) with (bucket_dir b). rewrite String.eqb_refl. reflexivity.
    - apply orb_true_iff. right.
      replace ("/" ++ join_slash ("buckets" :: b :: c :: C'')) with ((bucket_dir b ++ "/") ++ join_slash (c :: C''));
        [apply prefix_app|].
      unfold bucket_dir, buckets_path. rewrite !append_assoc. reflexivity.
  Qed.

  (* the path a call acts on cleans to what some string under the bucket cleans to: the
     filer may clean it once more (util.JoinPath) or redirect to the cleaned path (ServeMux) *)
  Definition cok (b : string) (c : fcall) : Prop :=
    match effective c with Some e => exists X, under b X /\ clean e = clean X | None => True end.

  Lemma under_cok : forall b c P, effective c = Some P -> under b P -> cok b c.
  Proof. intros b c P E U. unfold cok. rewrite E. exists P. split; [exact U | reflexivity]. Qed.

  Lemma http_calls_cok : forall b m p, under b p -> Forall (cok b) (http_calls m p).
  Proof.
    intros b m p U. unfold http_calls. destruct (canonical p) eqn:E.
    - constructor; [|constructor]. apply (under_cok b _ p); [simpl; rewrite E; reflexivity | exact U].
    - constructor; [unfold cok; simpl; rewrite E; exact I|].
      constructor; [|constructor]. unfold cok. simpl.
      destruct (canonical (mux_clean p)); [|exact I].
      exists p. split; [exact U | exact (clean_mux_clean p (under_rooted b p U))].
  Qed.

  Lemma join_dn_clean : forall P, starts_with_slash P = true ->
    join_path (fst (dir_and_name P)) (snd (dir_and_name P)) = clean P.
  Proof.
    intros P H. destruct (starts_with_slash_spec _ H) as [r E]. subst P.
    destruct (rcut_rooted r) as [d0 [n R]]. unfold dir_and_name. rewrite R.
    destruct (rcut_slash_spec _ _ _ R) as [E N].
    destruct (d0 =? "") eqn:Ed.
    - apply String.eqb_eq in Ed. subst d0. simpl in E. inversion E; subst r. simpl fst. simpl snd.
      unfold join_path. destruct (n =? "") eqn:En.
      + apply String.eqb_eq in En. subst n. reflexivity.
      + (* the empty segment between the two "/" is skipped by computation *)
        reflexivity.
    - simpl fst. simpl snd. unfold join_path. rewrite Ed.
      assert (Hd : starts_with_slash d0 = true).
      { destruct d0 as [|c d0']; [discriminate|]. simpl in E. inversion E. reflexivity. }
      destruct (n =? "") eqn:En.
      + apply String.eqb_eq in En. subst n. rewrite E.
        change (d0 ++ String slash "") with (d0 ++ "/"). symmetry. apply clean_trailing_slash. exact Hd.
      + rewrite E. reflexivity.
  Qed.

  Lemma join_cok : forall b c D n, effective c = Some (join_path D n) -> under_ext b D (split_slash n) -> cok b c.
  Proof.
    intros b c D n E U. unfold cok. rewrite E.
    assert (K : exists X, under b X /\ join_path D n = clean X).
    { unfold join_path. destruct (n =? "") eqn:En; [exists D; split; [exact (under_ext_under b D _ U) | reflexivity]|].
      destruct (D =? "") eqn:Ed; [|exists (D ++ String slash n); split; [apply under_app; exact U | reflexivity]].
      apply String.eqb_eq in Ed. subst D. destruct U as [C [EC _]]. discriminate. }
    destruct K as [X [UX EX]]. exists X. split; [exact UX | rewrite EX; exact (clean_idempotent X (under_rooted b X UX))].
  Qed.

  Lemma lookup_cok : forall b D n, under_ext b D (split_slash n) -> cok b (GLookup D n).
  Proof. intros b D n. exact (join_cok b (GLookup D n) D n eq_refl). Qed.

  Lemma delete_cok : forall b D n r, under_ext b D (split_slash n) -> cok b (GDelete D n r).
  Proof. intros b D n r. exact (join_cok b (GDelete D n r) D n eq_refl). Qed.

  (* DirAndName of a path with at least one segment behind the bucket *)
  Lemma dn_under : forall b P C, split_slash P = ("" :: "buckets" :: b :: C)%list -> C <> [] -> ok C ->
    split_slash (fst (dir_and_name P)) = ("" :: "buckets" :: b :: removelast C)%list /\
    under_ext b (fst (dir_and_name P)) (split_slash (snd (dir_and_name P))).
  Proof.
    intros b P C E NE O.
    destruct (starts_with_slash_spec _ (split_head_rooted _ _ _ E)) as [r Er]. subst P.
    destruct (rcut_rooted r) as [d0 [n R]]. unfold dir_and_name. rewrite R.
    pose proof (rcut_split _ _ _ R) as S. rewrite E in S.
    change ("" :: "buckets" :: b :: C)%list with (["" ; "buckets"; b] ++ C)%list in S.
    rewrite (app_removelast_last "" NE), app_assoc in S. apply app_inj_tail in S. destruct S as [S1 S2].
    destruct (d0 =? "") eqn:Ed; [apply String.eqb_eq in Ed; subst d0; discriminate|].
    simpl fst. simpl snd. split; [symmetry; exact S1|].
    exists (removelast C). split; [symmetry; exact S1|].
    rewrite (no_slash_split n (proj2 (rcut_slash_spec _ _ _ R))), <- S2, <- (app_removelast_last "" NE). exact O.
  Qed.

  Lemma opath_split : forall b k, good b ->
    split_slash (bucket_dir b ++ String slash k) = ("" :: "buckets" :: b :: split_slash k)%list.
  Proof.
    intros b k G. destruct (good_spec b G) as [_ [N _]].
    rewrite split_app_slash. rewrite (split_bucket_dir b N). reflexivity.
  Qed.

  Lemma under_opath : forall b k, good b -> ok (split_slash k) -> under b (bucket_dir b ++ String slash k).
  Proof. intros b k G O. apply under_app. apply under_ext_bucket_dir; assumption. Qed.

  Lemma last_in : forall (l : list string) d, l <> [] -> In (last l d) l.
  Proof.
    induction l as [|a l IH]; intros d NE; [contradiction|].
    destruct l as [|a2 l']; [left; reflexivity | right; apply IH; discriminate].
  Qed.

  (* GLookup + the UpdateEntry that follows it, for the DirAndName of an object path *)
  Lemma dn_lookup_update_cok : forall fx b k d n, good b -> forbid b = false -> ok (split_slash k) ->
    dir_and_name (bucket_dir b ++ String slash k) = (d, n) ->
    Forall (cok b) (GLookup d n :: update_after_lookup fx d n).
  Proof.
    intros fx b k d n G Bb O DN. set (P := bucket_dir b ++ String slash k) in *.
    replace d with (fst (dir_and_name P)) by (rewrite DN; reflexivity).
    replace n with (snd (dir_and_name P)) by (rewrite DN; reflexivity). clear d n DN.
    pose proof (opath_split b k G) as S. fold P in S.
    destruct (dn_under b P (split_slash k) S (split_nonempty k) O) as [Sd Ud].
    constructor; [apply lookup_cok; exact Ud|].
    unfold update_after_lookup. destruct (exists_at fx _); [|constructor].
    constructor; [|constructor]. eapply under_cok; [reflexivity|].
    assert (UP : under b P) by (apply under_opath; assumption).
    rewrite (join_dn_clean P (under_rooted b P UP)).
    destruct (rsegs_under b P (split_slash k) G S O) as [R BT].
    pose proof (norm_rooted_clean (split_slash k)) as F.
    remember (norm_segs true (split_slash k)) as C' eqn:EC.
    (* the entry name: the last segment of the cleaned path *)
    set (name := entry_name (clean P)).
    assert (SC : split_slash (clean P) = ("" :: "buckets" :: b :: C')%list).
    { rewrite (split_clean P (under_rooted b P UP)); rewrite R; [reflexivity | discriminate]. }
    assert (HN : name = last (b :: C') "" /\ no_slash name = true).
    { unfold name, entry_name.
      destruct (starts_with_slash_spec _ (clean_starts P (under_rooted b P UP))) as [r0 Er0]. rewrite Er0 in *.
      destruct (rcut_rooted r0) as [d0 [n0 R0]]. rewrite R0.
      split; [|exact (proj2 (rcut_slash_spec _ _ _ R0))].
      change (last (b :: C') "") with (last ("" :: "buckets" :: b :: C')%list "").
      rewrite <- SC, (rcut_split _ _ _ R0). symmetry. apply last_last. }
    destruct HN as [HN NN].
    apply under_app. exists (removelast (split_slash k)). split; [exact Sd|].
    rewrite (no_slash_split name NN).
    assert (OD : ok (removelast (split_slash k))).
    { apply (ok_prefix forbid _ [last (split_slash k) ""]).
      rewrite <- (app_removelast_last "" (split_nonempty k)). exact O. }
    assert (PN : plain_seg name = true).
    { apply plain_seg_iff. rewrite HN.
      assert (FA : Forall clean_seg (b :: C')) by (constructor; [exact (proj1 (good_spec b G)) | exact F]).
      rewrite Forall_forall in FA. apply FA. apply last_in. discriminate. }
    apply ok_snoc_plain; [exact OD | exact PN|]. intros ER.
    (* the directory part walks back to the bucket directory: the cleaned path is the bucket
       directory or one entry of it *)
    assert (EC2 : C' = rev (norm_step true [] (last (split_slash k) ""))).
    { rewrite EC. unfold norm_segs. rewrite (app_removelast_last "" (split_nonempty k)) at 1.
      rewrite fold_left_app. fold (run [] (removelast (split_slash k))). rewrite ER. reflexivity. }
    rewrite HN. unfold norm_step in EC2.
    destruct ((last (split_slash k) "" =? "") || (last (split_slash k) "" =? ".")); [rewrite EC2; exact Bb|].
    destruct (last (split_slash k) "" =? ".."); rewrite EC2; [exact Bb | exact (BT _ _ EC2)].
  Qed.

  (* DeleteMultipleObjectsHandler's (directory, name) of a key *)
  Lemma batch_under : forall b key, good b -> ok (split_slash key) ->
    under_ext b (fst (batch_dir_name b key)) (split_slash (snd (batch_dir_name b key))).
  Proof.
    intros b key G O. unfold batch_dir_name.
    destruct (rcut_slash key) as [[d n]|] eqn:R; [|apply under_ext_bucket_dir; assumption].
    destruct (negb (d =? "") && negb (n =? "")); [|apply under_ext_bucket_dir; assumption]. simpl fst. simpl snd.
    rewrite (no_slash_split n (proj2 (rcut_slash_spec _ _ _ R))).
    exists (split_slash d). split; [apply opath_split; exact G|]. rewrite <- (rcut_split _ _ _ R). exact O.
  Qed.

  Lemma batch_cok : forall b key, good b -> ok (split_slash key) ->
    cok b (let '(d, n) := batch_dir_name b key in GDelete d n false).
  Proof.
    intros b key G O. pose proof (batch_under b key G O) as U.
    destruct (batch_dir_name b key) as [d n]. exact (delete_cok b d n false U).
  Qed.

  (* doDeleteEmptyDirectories never leaves the bucket directory *)
  Lemma purge_chain_cok : forall b fuel dir, good b -> under b dir -> Forall (cok b) (purge_chain fuel dir).
  Proof.
    intros b fuel. induction fuel as [|f IH]; intros dir G U; simpl; [constructor|].
    pose proof U as U0. apply under_spec in U. destruct U as [C [E O]].
    destruct (dir_and_name dir) as [parent name] eqn:DN.
    destruct (parent =? buckets_path) eqn:EP; [constructor|].
    assert (NE : C <> []).
    { intros HC. subst C. apply String.eqb_neq in EP. apply EP.
      assert (HP : starts_with_slash dir = true) by exact (split_head_rooted _ _ _ E).
      destruct (starts_with_slash_spec _ HP) as [r Er]. subst dir.
      destruct (rcut_rooted r) as [d0 [n R]]. unfold dir_and_name in DN. rewrite R in DN.
      pose proof (rcut_split _ _ _ R) as S. rewrite E in S.
      change ["" ; "buckets"; b] with (["" ; "buckets"] ++ [b])%list in S. apply app_inj_tail in S. destruct S as [S1 S2].
      assert (d0 = "/buckets") by (apply split_inj; rewrite <- S1; reflexivity). subst d0.
      simpl in DN. inversion DN. reflexivity. }
    destruct (dn_under b dir C E NE O) as [_ Ud]. rewrite DN in Ud. simpl in Ud.
    constructor; [|constructor].
    - apply lookup_cok; exact Ud.
    - apply delete_cok; exact Ud.
    - apply IH; [exact G | exact (under_ext_under b parent _ Ud)].
  Qed.

  Lemma purge_candidates_cok : forall b keys, good b -> (forall k, In k keys -> ok (split_slash k)) ->
    Forall (cok b) (purge_candidates b keys).
  Proof.
    intros b keys G H. unfold purge_candidates. apply Forall_forall. intros c Hc.
    apply in_flat_map in Hc. destruct Hc as [k [Hk Hc]].
    pose proof (purge_chain_cok b (S (List.length (split_slash (fst (batch_dir_name b k))))) (fst (batch_dir_name b k)) G
                 (under_ext_under b _ _ (batch_under b k G (H k Hk)))) as F.
    rewrite Forall_forall in F. apply F. exact Hc.
  Qed.

  (* a call together with the bucket it is attributed to, which is an ordinary name *)
  Definition cokc (cc : ccall) : Prop := good (fst cc) /\ cok (fst cc) (snd cc).

  Lemma within_forall : forall b l, good b -> Forall (cok b) l -> Forall cokc (within b l).
  Proof.
    intros b l G H. unfold within. apply Forall_map. revert H. apply Forall_impl.
    intros c Hc. split; [exact G | exact Hc].
  Qed.

  Lemma pct_decode_nopct : forall a s, no_pct a = true ->
    pct_decode (a ++ s) = match pct_decode s with Some t => Some (a ++ t) | None => None end.
  Proof.
    induction a as [|c a IH]; intros s H; simpl.
    - destruct (pct_decode s); reflexivity.
    - simpl in H. apply andb_true_iff in H. destruct H as [Hc Ha]. apply negb_true_iff in Hc.
      rewrite Hc. rewrite (IH s Ha). destruct (pct_decode s); reflexivity.
  Qed.

  Lemma pct_decode_slash : forall s,
    pct_decode (String slash s) = match pct_decode s with Some t => Some (String slash t) | None => None end.
  Proof. intros s. reflexivity. Qed.

  Lemma no_pct_app : forall a b, no_pct a = true -> no_pct b = true -> no_pct (a ++ b) = true.
  Proof. induction a as [|c a IH]; intros b Ha Hb; simpl; [exact Hb|]. simpl in Ha. apply andb_true_iff in Ha. destruct Ha as [H1 H2]. rewrite H1. simpl. apply IH; assumption. Qed.

  Lemma no_pct_bucket_dir : forall b, no_pct b = true -> no_pct (bucket_dir b) = true.
  Proof. intros b H. unfold bucket_dir, buckets_path. apply no_pct_app; [reflexivity|]. apply no_pct_app; [reflexivity | exact H]. Qed.

  (* an ordinary bucket name is not changed by the extra decoding of the proxied URL *)
  Lemma obj_http_good : forall m b o, no_pct b = true -> obj_http m b o = http_calls m (bucket_dir b ++ o).
  Proof.
    intros m b o H. unfold obj_http, obj_url_path.
    rewrite <- (append_nil_r (bucket_dir b)) at 1.
    rewrite (pct_decode_nopct (bucket_dir b) "" (no_pct_bucket_dir b H)). simpl.
    rewrite append_nil_r. reflexivity.
  Qed.

  Lemma decode_under : forall b pre tail r, good b -> no_pct pre = true ->
    pct_decode (pre ++ String slash tail) = Some r ->
    under_ext b pre (split_slash (dec1 tail)) -> under b r.
  Proof.
    intros b pre tail r G NP D U.
    rewrite (pct_decode_nopct pre _ NP) in D. rewrite pct_decode_slash in D.
    unfold dec1 in U.
    destruct (pct_decode tail) as [t|]; [|discriminate]. inversion D; subst r.
    apply under_app. exact U.
  Qed.

  Lemma dec1_slash : forall k, dec1 (String slash k) = String slash (dec1 k).
  Proof. intros k. unfold dec1. rewrite pct_decode_slash. destruct (pct_decode k); reflexivity. Qed.

  Lemma norm_object_form : forall o, exists k, norm_object o = String slash k.
  Proof.
    intros o. unfold norm_object. destruct (starts_with_slash o) eqn:E.
    - destruct (starts_with_slash_spec _ E) as [r Er]. subst o. exists r. reflexivity.
    - exists o. reflexivity.
  Qed.

  (* by computation: the empty segment in front of a leading "/" is a skipped one *)
  Lemma ok_slash : forall k, ok (split_slash (String slash k)) -> ok (split_slash k).
  Proof. intros k H. exact H. Qed.

  Lemma src_form : forall s, exists sb o, src_bucket_object s = (sb, String slash o).
  Proof.
    intros s. unfold src_bucket_object.
    destruct (cut_slash (trim_leading_slash s)) as [[b0 o]|]; [exists b0, o | exists (trim_leading_slash s), ""]; reflexivity.
  Qed.

  (* PUT / GET of  <bucket dir>/<k decoded once more>  (the copy handlers) *)
  Lemma decoded_http_cok : forall b m k dp, good b ->
    ok (split_slash (dec1 (String slash k))) ->
    pct_decode (bucket_dir b ++ String slash k) = Some dp ->
    Forall cokc (within b (http_calls m dp)).
  Proof.
    intros b m k dp G O D. apply (within_forall b _ G). apply http_calls_cok.
    destruct (good_spec b G) as [_ [_ NP]].
    apply (decode_under b (bucket_dir b) k dp G (no_pct_bucket_dir b NP) D).
    rewrite dec1_slash in O. apply ok_slash in O.
    apply under_ext_bucket_dir; assumption.
  Qed.

  (* the copy handlers: GET the source, then PUT the destination string dst once the GET succeeded *)
  Lemma copy_cok : forall fx sb o b dst, good sb -> ok (split_slash (dec1 (String slash o))) ->
    (forall dp, pct_decode dst = Some dp -> Forall cokc (within b (http_calls MPut dp))) ->
    Forall cokc match pct_decode (bucket_dir sb ++ String slash o) with
                | None => []
                | Some sp =>
                    (within sb (http_calls MGet sp) ++
                     (if http_get_ok fx sp then
                        match pct_decode dst with None => [] | Some dp => within b (http_calls MPut dp) end
                      else []))%list
                end.
  Proof.
    intros fx sb o b dst HS Os Hd.
    destruct (pct_decode (bucket_dir sb ++ String slash o)) as [sp|] eqn:D1; [|constructor].
    apply Forall_app. split; [exact (decoded_http_cok sb MGet o sp HS Os D1)|].
    destruct (http_get_ok fx sp); [|constructor].
    destruct (pct_decode dst) as [dp|] eqn:D2; [exact (Hd dp eq_refl) | constructor].
  Qed.

  (* none of the strings the route builds its paths from (rels) escapes *)
  Definition rels_ok (q : req) : Prop := forall s, In s (rels q) -> ok (split_slash s).

  Lemma obj_http_cok : forall m b k, good b -> ok (split_slash k) ->
    Forall cokc (within b (obj_http m b (String slash k))).
  Proof.
    intros m b k G O. destruct (good_spec b G) as [_ [_ NP]]. rewrite (obj_http_good m b _ NP).
    apply (within_forall b _ G). apply http_calls_cok. exact (under_opath b k G O).
  Qed.

  Lemma calls_object_cok : forall fx q, good (q_bucket q) -> forbid (q_bucket q) = false ->
    object_route (q_route q) = true -> rels_ok q -> src_bad q = false ->
    Forall cokc (calls fx q).
  Proof.
    intros fx q G Bb OR HR HS. pose proof (fun l => within_forall (q_bucket q) l G) as W.
    destruct (norm_object_form (q_object q)) as [k Ek].
    unfold rels_ok, rels, rel_object in HR. unfold src_bad in HS.
    unfold calls. rewrite (good_routed _ G). unfold handler_calls. rewrite Ek in *.
    (* on every object route but the batch delete, the key is the first of the route's strings *)
    destruct (q_route q) eqn:ER; try discriminate OR;
      try (assert (Ok : ok (split_slash k)) by (apply ok_slash; apply HR; left; reflexivity)).
    - (* RPut *)
      destruct (ends_with_slash (String slash k)); [|exact (obj_http_cok MPut _ k G Ok)].
      apply W. constructor; [|constructor]. eapply under_cok; [reflexivity|].
      (* BucketsPath + "/" + (bucket + object) is the object path, by computation *)
      exact (under_opath (q_bucket q) k G Ok).
    - (* RGet *)
      destruct (ends_with_slash (String slash k)); [constructor | exact (obj_http_cok MGet _ k G Ok)].
    - exact (obj_http_cok MHead _ k G Ok).
    - exact (obj_http_cok MDelete _ k G Ok).
    - (* RBatchDelete *)
      apply W. apply Forall_forall. intros c Hc. apply in_map_iff in Hc.
      destruct Hc as [key [E Hk]]. subst c. apply batch_cok; [exact G | apply HR; exact Hk].
    - (* RCopy *)
      assert (Od : ok (split_slash (dec1 (String slash k)))) by (apply HR; right; left; reflexivity).
      assert (Os : ok (split_slash (dec1 (src_rel q)))) by (apply HR; right; right; left; reflexivity).
      change (match pct_decode (q_src q) with Some s => s | None => q_src q end) with (dec1 (q_src q)).
      unfold src_rel in Os. unfold src_bucket in HS.
      destruct (src_form (dec1 (q_src q))) as [sb [o ES]]. rewrite ES in *. simpl in HS, Os.
      match goal with |- Forall cokc (if ?c then _ else _) => destruct c end.
      + destruct (dir_and_name _) as [d n] eqn:DN. apply W. exact (dn_lookup_update_cok fx _ k d n G Bb Ok DN).
      + destruct (sb =? "") eqn:E1; [constructor|]. simpl in HS.
        match goal with |- Forall cokc (if ?c then _ else _) => destruct c end; [constructor|].
        apply (copy_cok fx sb o _ _ HS Os). intros dp D2. exact (decoded_http_cok (q_bucket q) MPut k dp G Od D2).
    - (* RGetTag *)
      destruct (dir_and_name _) as [d n] eqn:DN. apply W.
      constructor; [exact (Forall_inv (dn_lookup_update_cok fx _ k d n G Bb Ok DN)) | constructor].
    - (* RPutTag *)
      destruct (dir_and_name _) as [d n] eqn:DN. apply W. exact (dn_lookup_update_cok fx _ k d n G Bb Ok DN).
    - (* RDelTag *)
      destruct (dir_and_name _) as [d n] eqn:DN. apply W.
      constructor; [exact (Forall_inv (dn_lookup_update_cok fx _ k d n G Bb Ok DN)) | constructor].
    - exact (obj_http_cok MPut _ k G Ok).
  Qed.

  Lemma strip_under_ext : forall b t R, good b -> ok (split_slash t ++ R) ->
    under_ext b (let d := bucket_dir b ++ "/" ++ t in
                 if ends_with_slash d then strip_one_trailing_slash d else d) R.
  Proof.
    intros b t R G O. cbv zeta.
    change (bucket_dir b ++ "/" ++ t) with (bucket_dir b ++ String slash t).
    destruct (ends_with_slash (bucket_dir b ++ String slash t)) eqn:EE.
    - pose proof (opath_split b t G) as E.
      rewrite (strip_one_spec _ EE), (split_app_slash _ "") in E. simpl (split_slash "") in E.
      change ("" :: "buckets" :: b :: split_slash t)%list with (["" ; "buckets"; b] ++ split_slash t)%list in E.
      rewrite (app_removelast_last "" (split_nonempty t)) in E. rewrite app_assoc in E.
      apply app_inj_tail in E. destruct E as [E1 E2].
      exists (removelast (split_slash t)). split; [exact E1|].
      rewrite (app_removelast_last "" (split_nonempty t)) in O. rewrite <- E2 in O.
      rewrite <- app_assoc in O. simpl in O.
      unfold okw. unfold okw in O.
      rewrite (esc_mid_skip forbid (removelast (split_slash t)) "" R [] eq_refl) in O. exact O.
    - exists (split_slash t). split; [apply opath_split; exact G | exact O].
  Qed.

  Lemma marker_heads_under : forall b fuel dir marker h, under_ext b dir (split_slash marker) ->
    In h (marker_heads fuel dir marker) -> under b h.
  Proof.
    intros b fuel. induction fuel as [|f IH]; intros dir marker h U H.
    - simpl in H. destruct H as [H|[]]. subst h. exact (under_ext_under b dir _ U).
    - simpl in H. destruct (cut_slash marker) as [[sub rest]|] eqn:EC.
      + apply in_app_or in H. destruct H as [H|[H|[]]].
        * apply (IH (dir ++ "/" ++ sub) rest); [|exact H].
          destruct (cut_slash_spec _ _ _ EC) as [EM NS]. rewrite EM in U.
          rewrite split_app_slash in U. rewrite (no_slash_split sub NS) in U.
          apply under_ext_app. rewrite (no_slash_split sub NS). exact U.
        * subst h. exact (under_ext_under b dir _ U).
      + destruct H as [H|[]]. subst h. exact (under_ext_under b dir _ U).
  Qed.

  Lemma marker_heads_cok : forall b fuel dir marker, under_ext b dir (split_slash marker) ->
    Forall (cok b) (map GList (marker_heads fuel dir marker)).
  Proof.
    intros b fuel dir marker U. apply Forall_map. apply Forall_forall. intros h Hh.
    eapply under_cok; [reflexivity|]. exact (marker_heads_under b fuel dir marker h U Hh).
  Qed.

  Lemma bucket_entry_cok : forall b c, good b -> effective c = Some (join_path buckets_path b) -> cok b c.
  Proof.
    intros b c G E. unfold cok. rewrite E. exists (bucket_dir b). split; [apply under_bucket_dir; exact G|].
    destruct (good_spec b G) as [[B1 _] _]. unfold join_path. rewrite (proj2 (String.eqb_neq b "") B1).
    exact (clean_idempotent (bucket_dir b) eq_refl).
  Qed.

  Lemma bucket_dn_lookup_cok : forall b, good b ->
    cok b (GLookup (fst (dir_and_name (buckets_path ++ "/" ++ b))) (snd (dir_and_name (buckets_path ++ "/" ++ b)))).
  Proof.
    intros b G. unfold cok. simpl effective. exists (bucket_dir b). split; [apply under_bucket_dir; exact G|].
    etransitivity; [apply (f_equal clean); exact (join_dn_clean (bucket_dir b) eq_refl) | exact (clean_idempotent (bucket_dir b) eq_refl)].
  Qed.

  Lemma last_nonempty_in : forall l s, last_nonempty l = Some s -> In s l.
  Proof.
    intros l s H. unfold last_nonempty in H.
    assert (K : forall l acc, fold_left (fun acc s => if s =? "" then acc else Some s) l acc = Some s -> In s l \/ acc = Some s).
    { induction l0 as [|x l0 IH]; intros acc Hf; simpl in Hf; [right; exact Hf|].
      destruct (IH _ Hf) as [K|K]; [left; right; exact K|].
      destruct (x =? ""); [right; exact K | inversion K; left; left; reflexivity]. }
    destruct (K l None H) as [K1|K1]; [exact K1 | discriminate].
  Qed.

  (* From here on the multipart, listing and bucket routes, which do enter ".uploads": the
     lemmas below hold for instance 1 and, in instance 2, are asked for no object route. *)
  Hypothesis uploads_allowed : forbid ".uploads" = false.

  Lemma ok_uploads_cons : forall R, ok (".uploads" :: R) -> True.
  Proof. trivial. Qed.

  Lemma split_uploads_rel : forall x, split_slash (".uploads/" ++ x) = (".uploads" :: split_slash x)%list.
  Proof. reflexivity. Qed.

  Lemma uploads_dir_split : forall b, good b -> split_slash (uploads_dir b) = ["" ; "buckets"; b; ".uploads"].
  Proof.
    intros b G. unfold uploads_dir. change (bucket_dir b ++ "/.uploads") with (bucket_dir b ++ String slash ".uploads").
    rewrite (opath_split b ".uploads" G). reflexivity.
  Qed.

  Lemma under_ext_uploads : forall b R, good b -> ok (".uploads" :: R) -> under_ext b (uploads_dir b) R.
  Proof. intros b R G O. exists [".uploads"]. split; [apply uploads_dir_split; exact G | exact O]. Qed.

  Lemma no_pct_uploads : forall b, no_pct b = true -> no_pct (uploads_dir b) = true.
  Proof. intros b H. unfold uploads_dir. apply no_pct_app; [apply no_pct_bucket_dir; exact H | reflexivity]. Qed.

  Lemma dec1_uploads_rel : forall x, dec1 (".uploads/" ++ x) = ".uploads/" ++ dec1 x.
  Proof.
    intros x. unfold dec1. rewrite (pct_decode_nopct ".uploads/" x eq_refl). destruct (pct_decode x); reflexivity.
  Qed.

  Lemma part_path_cok : forall b u p dp, good b ->
    ok (split_slash (dec1 (".uploads/" ++ u ++ "/" ++ p))) ->
    pct_decode (uploads_dir b ++ "/" ++ u ++ "/" ++ p) = Some dp ->
    Forall (cok b) (http_calls MPut dp).
  Proof.
    intros b u p dp G O D. apply http_calls_cok.
    destruct (good_spec b G) as [_ [_ NP]].
    apply (decode_under b (uploads_dir b) (u ++ "/" ++ p) dp G (no_pct_uploads b NP) D).
    rewrite dec1_uploads_rel in O. rewrite split_uploads_rel in O.
    apply under_ext_uploads; assumption.
  Qed.

  Definition route_needs_plain_fx (r : route) : bool := match r with RList _ _ _ _ => true | _ => false end.

  Lemma list_dir_under_ext : forall b prefix marker, good b -> ok (split_slash (list_rel prefix marker)) ->
    under_ext b (list_req_dir b prefix) (split_slash marker).
  Proof.
    intros b prefix marker G O. apply (strip_under_ext b (list_rel_dir prefix) _ G).
    unfold list_rel in O.
    rewrite split_app_sep in O. exact O.
  Qed.

  Lemma calls_other_cok : forall fx q, good (q_bucket q) ->
    object_route (q_route q) = false -> rels_ok q -> src_bad q = false -> Forall cokc (calls fx q).
  Proof.
    intros fx q G OR HR HS. pose proof (fun l => within_forall (q_bucket q) l G) as W.
    destruct (norm_object_form (q_object q)) as [k Ek].
    unfold rels_ok, rels, up_rel, part_rel in HR. unfold src_bad in HS.
    unfold calls. rewrite (good_routed _ G). unfold handler_calls. rewrite Ek in *.
    (* on the multipart routes the upload directory is the first of the route's strings *)
    destruct (q_route q) eqn:ER; try discriminate OR;
      try (assert (Ou : ok (".uploads" :: split_slash (q_upload q)))
             by (rewrite <- split_uploads_rel; apply HR; left; reflexivity);
           pose proof (under_ext_uploads (q_bucket q) _ G Ou) as UE).
    - (* RCopyPart *)
      assert (Op : ok (split_slash (dec1 (".uploads/" ++ q_upload q ++ "/" ++ q_part q)))) by (apply HR; right; left; reflexivity).
      assert (Os : ok (split_slash (dec1 (src_rel q)))) by (apply HR; right; right; left; reflexivity).
      change (match pct_decode (q_src q) with Some s => s | None => q_src q end) with (dec1 (q_src q)).
      unfold src_rel in Os. unfold src_bucket in HS.
      destruct (src_form (dec1 (q_src q))) as [sb [o ES]]. rewrite ES in *. simpl in HS, Os.
      destruct (sb =? "") eqn:E1; [constructor|]. simpl in HS.
      apply Forall_app. split; [apply W; constructor; [exact (lookup_cok _ _ _ UE) | constructor]|].
      destruct (is_dir_at fx _); [|constructor].
      apply (copy_cok fx sb o _ _ HS Os). intros dp D2. apply W. exact (part_path_cok _ _ _ dp G Op D2).
    - (* RNewUpload *)
      apply W. constructor; [|constructor]. eapply under_cok; [reflexivity|].
      apply under_app. apply under_ext_uploads; [exact G|].
      unfold okw. simpl. rewrite uploads_allowed. reflexivity.
    - (* RPutPart *)
      assert (Op : ok (split_slash (dec1 (".uploads/" ++ q_upload q ++ "/" ++ q_part q)))) by (apply HR; right; left; reflexivity).
      apply W. constructor; [exact (lookup_cok _ _ _ UE)|].
      destruct (is_dir_at fx _); [|constructor].
      destruct (pct_decode (uploads_dir (q_bucket q) ++ "/" ++ q_upload q ++ "/" ++ q_part q)) as [dp|] eqn:D2; [|constructor].
      exact (part_path_cok _ _ _ dp G Op D2).
    - (* RComplete *)
      assert (Oc : ok (split_slash (complete_rel q))) by (apply HR; right; left; reflexivity).
      apply W.
      constructor; [eapply under_cok; [reflexivity|]; exact (under_app _ _ _ UE)|].
      destruct (fx_has_children fx _); [|constructor].
      destruct (dir_and_name (uploads_dir (q_bucket q) ++ "/" ++ q_upload q)) as [ld ln] eqn:DN.
      assert (SU : split_slash (uploads_dir (q_bucket q) ++ "/" ++ q_upload q) =
                   ("" :: "buckets" :: q_bucket q :: (".uploads" :: split_slash (q_upload q)))%list).
      { rewrite split_app_sep, (uploads_dir_split _ G). reflexivity. }
      destruct (dn_under (q_bucket q) _ _ SU ltac:(discriminate) Ou) as [_ Ud].
      rewrite DN in Ud. simpl in Ud.
      constructor; [apply lookup_cok; exact Ud|].
      destruct (exists_at fx _); [|constructor].
      destruct (complete_dir_name (q_bucket q) (trim_leading_slash (String slash k))) as [d n] eqn:CD.
      assert (CU : under (q_bucket q) (d ++ String slash n)).
      { unfold complete_dir_name in CD. inversion CD; subst d n. apply under_app.
        apply (strip_under_ext (q_bucket q) (complete_rel_dir (trim_leading_slash (String slash k))) _ G).
        unfold complete_rel, rel_object in Oc. rewrite Ek in Oc.
        rewrite split_app_sep in Oc. exact Oc. }
      constructor; [eapply under_cok; [reflexivity|]; exact CU|].
      destruct (create_file_ok fx d n); [|constructor].
      constructor; [apply delete_cok; exact UE | constructor].
    - (* RAbort *)
      apply W. constructor; [apply lookup_cok; exact UE|].
      destruct (is_dir_at fx _); [|constructor].
      constructor; [apply delete_cok; exact UE | constructor].
    - (* RListParts *)
      apply W. constructor; [|constructor]. eapply under_cok; [reflexivity|]. exact (under_app _ _ _ UE).
    - (* RList *)
      apply W. apply marker_heads_cok. apply (list_dir_under_ext _ _ _ G). apply HR. left. reflexivity.
    - (* RListUploads *)
      apply W. constructor; [|constructor]. eapply under_cok; [reflexivity|].
      apply (under_ext_uploads (q_bucket q) [] G).
      unfold okw. simpl. rewrite uploads_allowed. reflexivity.
    - (* RPutBucket *)
      apply W. constructor; [apply bucket_entry_cok; [exact G | reflexivity]|].
      destruct (is_dir_at fx _); [constructor|].
      constructor; [|constructor]. eapply under_cok; [reflexivity|]. apply under_bucket_dir. exact G.
    - (* RDeleteBucket *)
      pose proof (bucket_dn_lookup_cok (q_bucket q) G) as BL.
      destruct (dir_and_name (buckets_path ++ "/" ++ q_bucket q)) as [d n] eqn:DN. simpl in BL.
      apply W. constructor; [exact BL|].
      destruct (exists_at fx _); [|constructor].
      constructor; [apply bucket_entry_cok; [exact G | reflexivity] | constructor].
    - (* RHeadBucket *)
      pose proof (bucket_dn_lookup_cok (q_bucket q) G) as BL.
      destruct (dir_and_name (buckets_path ++ "/" ++ q_bucket q)) as [d n] eqn:DN. simpl in BL.
      apply W. constructor; [exact BL | constructor].
  Qed.

  (* the descent of a listing below its heads meets only the plain names of the fixture *)
  Hypothesis plain_allowed : forall s, plain_seg s = true -> forbid s = false.

  Lemma child_dirs_plain : forall fx d n, fx_plain fx = true -> In n (child_dirs fx d) ->
    plain_seg n = true /\ no_slash n = true.
  Proof.
    intros fx d n P H. unfold child_dirs in H. apply in_flat_map in H. destruct H as [e [He Hn]].
    unfold fx_plain in P. rewrite forallb_forall in P. pose proof (P e He) as Pe.
    destruct (rcut_slash (fst e)) as [[p0 n0]|] eqn:R; [|destruct Hn].
    destruct (rcut_slash_spec _ _ _ R) as [_ N].
    destruct ((p0 =? _) && snd e); [|destruct Hn]. simpl in Hn.
    destruct (n0 =? "") eqn:E0; [destruct Hn|]. simpl in Pe.
    destruct Hn as [Hn|[]]. subst n0. split; [exact Pe | exact N].
  Qed.

  Lemma list_desc_under : forall b fuel fx d p n, fx_plain fx = true -> under b d ->
    In (p, n) (list_desc fuel fx d) -> under_ext b p [n] /\ no_slash n = true.
  Proof.
    intros b fuel. induction fuel as [|f IH]; intros fx d p n P U H; [destruct H|].
    simpl in H. apply in_flat_map in H. destruct H as [n0 [Hn0 H]].
    destruct (child_dirs_plain fx d n0 P Hn0) as [PL NS].
    assert (UE : under_ext b d [n0]).
    { apply under_spec in U. destruct U as [C [E O]]. exists C. split; [exact E|].
      apply ok_snoc_plain; [exact O | exact PL | intros _; apply plain_allowed; exact PL]. }
    destruct H as [H|H].
    - inversion H; subst p n. split; [exact UE | exact NS].
    - apply (IH fx (d ++ "/" ++ n0) p n P); [|exact H].
      apply under_app.
      rewrite (no_slash_split n0 NS). exact UE.
  Qed.

  Lemma list_candidates_cok : forall b fx heads, good b -> fx_plain fx = true ->
    (forall h, In h heads -> under b h) -> Forall (cok b) (list_candidates fx b heads).
  Proof.
    intros b fx heads G P H. unfold list_candidates. constructor; [apply bucket_entry_cok; [exact G | reflexivity]|].
    apply Forall_forall. intros c Hc.
    apply in_flat_map in Hc. destruct Hc as [h [Hh Hc]].
    apply in_flat_map in Hc. destruct Hc as [[p n] [Hpn Hc]].
    destruct (list_desc_under b _ fx h p n P (H h Hh) Hpn) as [UE NS].
    simpl in Hc. destruct Hc as [Hc|[Hc|[]]]; subst c.
    - eapply under_cok; [reflexivity|]. apply under_app.
      rewrite (no_slash_split n NS). exact UE.
    - apply delete_cok. rewrite (no_slash_split n NS). exact UE.
  Qed.

  Lemma candidates_cok : forall fx q, good (q_bucket q) -> rels_ok q ->
    (route_needs_plain_fx (q_route q) = true -> fx_plain fx = true) ->
    Forall (cok (q_bucket q)) (candidates fx q).
  Proof.
    intros fx q G HR HP. unfold candidates. rewrite (good_routed _ G). unfold handler_candidates. unfold rels_ok, rels in HR.
    destruct (q_route q) eqn:ER; try solve [constructor].
    - apply purge_candidates_cok; [exact G | exact HR].
    - apply list_candidates_cok; [exact G | apply HP; reflexivity|].
      intros h Hh. apply (marker_heads_under (q_bucket q) _ _ _ h) in Hh; [exact Hh|].
      apply (list_dir_under_ext _ _ _ G). apply HR. left. reflexivity.
  Qed.
End Under.

Lemma bad_of_parts : forall b, router_refuses b = false -> odd_bucket b = false -> bad_bucket b = false.
Proof. intros b H1 H2. unfold bad_bucket. rewrite H1, H2. reflexivity. Qed.

(* The router in front: a bucket name it refuses reaches no handler, so the only hypothesis on
   the bucket name is that it has no "%". *)
Lemma calls_cok : forall forbid fx q, (object_route (q_route q) = false -> forbid ".uploads" = false) ->
  odd_bucket (q_bucket q) = false ->
  (object_route (q_route q) = true -> forbid (q_bucket q) = false) ->
  existsb (fun s => escapes forbid [] (split_slash s)) (rels q) = false -> src_bad q = false ->
  Forall (cokc forbid) (calls fx q).
Proof.
  intros forbid fx q FU O Bb TR TS. destruct (router_refuses (q_bucket q)) eqn:R; [unfold calls; rewrite R; constructor|].
  pose proof (bad_of_parts _ R O) as G.
  assert (HR : rels_ok forbid q) by (intros s Hs; exact (existsb_false_in _ _ s TR Hs)).
  destruct (object_route (q_route q)) eqn:OR.
  - exact (calls_object_cok forbid fx q G (Bb eq_refl) OR HR TS).
  - exact (calls_other_cok forbid (FU eq_refl) fx q G OR HR TS).
Qed.

(* instance 1: nothing forbidden below the bucket: containment *)
Lemma cok_contained : forall b c, good b -> cok forbid_none b c -> call_contained (b, c) = true.
Proof.
  intros b c G H. unfold call_contained. simpl. unfold cok in H.
  destruct (effective c) as [e|]; [|reflexivity].
  destruct H as [X [U E]]. unfold contained. rewrite E. exact (under_contained forbid_none b X G U).
Qed.

Lemma cok_all_contained : forall b l, good b -> Forall (cok forbid_none b) l ->
  forallb (fun c => call_contained (b, c)) l = true.
Proof.
  intros b l G F. apply forallb_forall. intros c Hc. rewrite Forall_forall in F. exact (cok_contained b c G (F c Hc)).
Qed.

Theorem calls_contained_routed : forall fx q,
  odd_bucket (q_bucket q) = false -> req_climbs q = false ->
  forallb call_contained (calls fx q) = true.
Proof.
  intros fx q O T. unfold req_climbs in T. apply orb_false_iff in T. destruct T as [TR TS].
  pose proof (calls_cok forbid_none fx q (fun _ => eq_refl) O (fun _ => eq_refl) TR TS) as F.
  apply forallb_forall. intros [b c] Hc. rewrite Forall_forall in F. destruct (F _ Hc) as [Gb K].
  exact (cok_contained b c Gb K).
Qed.

Theorem candidates_contained_routed : forall fx q,
  odd_bucket (q_bucket q) = false -> req_climbs q = false ->
  (route_needs_plain_fx (q_route q) = true -> fx_plain fx = true) ->
  candidates_contained fx q = true.
Proof.
  intros fx q O T HP. unfold candidates_contained.
  destruct (router_refuses (q_bucket q)) eqn:R; [unfold candidates; rewrite R; reflexivity|].
  pose proof (bad_of_parts _ R O) as G.
  unfold req_climbs in T. apply orb_false_iff in T. destruct T as [TR _].
  apply (cok_all_contained _ _ G). apply (candidates_cok forbid_none (fun s _ => eq_refl) fx q G); [|exact HP].
  intros s Hs. exact (existsb_false_in _ _ s TR Hs).
Qed.

Theorem all_contained_routed : forall fx q,
  odd_bucket (q_bucket q) = false -> req_climbs q = false ->
  (forall k, In k (q_keys q) -> climbs k = false) ->
  all_contained fx q = true.
Proof.
  intros fx q O T HK. unfold all_contained. rewrite (calls_contained_routed fx q O T).
  destruct (router_refuses (q_bucket q)) eqn:R; [reflexivity|].
  pose proof (bad_of_parts _ R O) as G.
  exact (cok_all_contained _ _ G (purge_candidates_cok forbid_none (q_bucket q) (q_keys q) G HK)).
Qed.

(* instance 2: ".uploads" forbidden below the bucket: the multipart area *)
Lemma split_clean_under : forall forbid b X, good b -> under forbid b X ->
  exists C', split_slash (clean X) = ("" :: "buckets" :: b :: C')%list /\
             (forall x r, C' = (x :: r)%list -> forbid x = false).
Proof.
  intros forbid b X G U. pose proof U as U0. apply under_spec in U0. destruct U0 as [C [E0 O]].
  destruct (rsegs_under forbid b X C G E0 O) as [E BT]. exists (norm_segs true C). split; [|exact BT].
  rewrite (split_clean X (under_rooted forbid b X U)); rewrite E; [reflexivity | discriminate].
Qed.

Lemma split_uploads_dir : forall b, good b -> split_slash (clean (uploads_dir b)) = ["" ; "buckets"; b; ".uploads"].
Proof.
  intros b G.
  assert (U : under forbid_none b (uploads_dir b)) by (apply (under_ext_uploads forbid_none b [] G); reflexivity).
  destruct (rsegs_under forbid_none b _ [".uploads"] G (uploads_dir_split b G) eq_refl) as [R _].
  rewrite (split_clean _ (under_rooted forbid_none b _ U)); rewrite R; [reflexivity | discriminate].
Qed.

Lemma under_not_uploads : forall b X, good b -> under forbid_uploads b X ->
  inside (clean (uploads_dir b)) (clean X) = false.
Proof.
  intros b X G U. destruct (split_clean_under forbid_uploads b X G U) as [C' [E BT]].
  pose proof (split_uploads_dir b G) as SU.
  unfold inside. apply orb_false_iff. split.
  - destruct (clean X =? clean (uploads_dir b)) eqn:EQ; [|reflexivity].
    apply String.eqb_eq in EQ. rewrite EQ, SU in E. inversion E; subst C'.
    pose proof (BT _ _ eq_refl) as K. discriminate.
  - destruct (String.prefix (clean (uploads_dir b) ++ "/") (clean X)) eqn:EP; [|reflexivity].
    destruct (prefix_exists _ _ EP) as [z Ez].
    rewrite Ez, append_assoc, split_app_sep, SU in E. inversion E; subst C'.
    pose proof (BT _ _ eq_refl) as K. discriminate.
Qed.

Lemma cok_not_uploads : forall b c, good b -> cok forbid_uploads b c -> call_in_uploads (b, c) = false.
Proof.
  intros b c G H. unfold call_in_uploads. simpl. unfold cok in H.
  destruct (effective c) as [e|]; [|reflexivity].
  destruct H as [X [U E]]. rewrite E. exact (under_not_uploads b X G U).
Qed.

Theorem uploads_hidden_routed : forall fx q,
  odd_bucket (q_bucket q) = false -> q_bucket q <> ".uploads" ->
  req_enters_uploads q = false -> uploads_hidden fx q = true.
Proof.
  intros fx q O NU T. unfold uploads_hidden.
  destruct (object_route (q_route q)) eqn:OR; [|reflexivity]. simpl. apply negb_true_iff.
  unfold req_enters_uploads in T. rewrite OR in T. simpl in T.
  apply orb_false_iff in T. destruct T as [TR TS].
  pose proof (calls_cok forbid_uploads fx q ltac:(rewrite OR; discriminate) O (fun _ => proj2 (String.eqb_neq _ _) NU) TR TS) as F.
  destruct (existsb call_in_uploads (calls fx q)) eqn:EX; [|reflexivity].
  apply existsb_exists in EX. destruct EX as [[b c] [Hc Hu]].
  rewrite Forall_forall in F. destruct (F _ Hc) as [Gb K].
  rewrite (cok_not_uploads b c Gb K) in Hu. discriminate.
Qed.

(* the empty-folder purge of a batch delete does not reach the multipart area either *)
Theorem purge_hidden : forall b keys,
  bad_bucket b = false -> (forall k, In k keys -> enters_uploads k = false) ->
  existsb (fun c => call_in_uploads (b, c)) (purge_candidates b keys) = false.
Proof.
  intros b keys GB HK.
  pose proof (purge_candidates_cok forbid_uploads b keys GB HK) as P.
  destruct (existsb (fun c => call_in_uploads (b, c)) (purge_candidates b keys)) eqn:EX; [|reflexivity].
  apply existsb_exists in EX. destruct EX as [c [Hc Hu]].
  rewrite Forall_forall in P. rewrite (cok_not_uploads b c GB (P c Hc)) in Hu. discriminate.
Qed.

Theorem clean_stays_under2 : forall b rest,
  bad_bucket b = false -> climbs rest = false -> contained b (bucket_dir b ++ "/" ++ rest) = true.
Proof.
  intros b rest G H. apply (under_contained forbid_none b _ G).
  apply (under_opath forbid_none); [exact G | exact H].
Qed.

Theorem clean_rooted_no_dots : forall p, starts_with_slash p = true ->
  forall s, In s (norm_segs true (split_slash p)) -> s <> "" /\ s <> "." /\ s <> "..".
Proof.
  intros p _ s Hs. pose proof (norm_rooted_clean (split_slash p)) as F. rewrite Forall_forall in F. exact (F s Hs).
Qed.

Definition fx_demo : fixture :=
  [ ("/", true); ("/buckets", true); ("/buckets/b", true); ("/buckets/b/obj", false);
    ("/buckets/b/x", true); ("/buckets/b/x/y", false); ("/buckets/b/x/z", true); ("/buckets/b/x/z/w", false);
    ("/buckets/b/.uploads", true); ("/buckets/b/.uploads/u1", true); ("/buckets/b/.uploads/u1/0001.part", false);
    ("/buckets/other", true); ("/buckets/other/obj", false);
    ("/etc", true); ("/etc/secret", false) ].

Definition rq (r : route) (object upload src : string) (keys : list string) : req :=
  mk_req r "b" object upload "0001.part" src keys.
Definition rqb (r : route) (bucket object : string) : req :=
  mk_req r bucket object "" "0001.part" "" [].

(* GET /b/x/../../other/obj is served from /buckets/other/obj *)
Definition esc_get : req := rq RGet "x/../../other/obj" "" "" [].
(* POST /b?delete with <Key>x/../../other/obj</Key> deletes /buckets/other/obj *)
Definition esc_batch : req := rq RBatchDelete "k" "" "" ["x/../../other/obj"].
(* DELETE /b/k?uploadId=../../other removes the whole bucket "other" *)
Definition esc_abort : req := rq RAbort "k" "../../other" "" [].
(* GET /b/x/../../other/obj?tagging reads the other bucket's tags *)
Definition esc_tag : req := rq RGetTag "x/../../other/obj" "" "" [].
(* PUT /b/new with X-Amz-Copy-Source: b/../other/obj copies from the other bucket *)
Definition esc_copy : req := rq (RCopy false) "new" "" "b/../other/obj" [].
(* GET /b?prefix=../other/ lists the directory string /buckets/b/../other *)
Definition esc_list : req := rq (RList false "../other/" "" false) "" "" "" [].
(* GET /b/.uploads/u1/0001.part addresses a part of an upload in progress *)
Definition up_get : req := rq RGet ".uploads/u1/0001.part" "" "" [].
(* GET /b/x/../.uploads/u1/0001.part: no climbing, but the same part *)
Definition up_get2 : req := rq RGet "x/../.uploads/u1/0001.part" "" "" [].

Theorem contained_refuted : exists fx q,
  bad_bucket (q_bucket q) = false /\ all_contained fx q = false /\
  existsb (fun c => match effective (snd c) with Some e => clean e =? "/buckets/other/obj" | None => false end) (calls fx q) = true.
Proof. exists fx_demo, esc_get. vm_compute. repeat split; reflexivity. Qed.

Theorem contained_refuted_all :
  all_contained fx_demo esc_get = false /\ all_contained fx_demo esc_batch = false /\
  all_contained fx_demo esc_abort = false /\ all_contained fx_demo esc_tag = false /\
  all_contained fx_demo esc_copy = false /\ all_contained fx_demo esc_list = false.
Proof. vm_compute. repeat split; reflexivity. Qed.

Theorem uploads_hidden_refuted : exists fx q,
  bad_bucket (q_bucket q) = false /\ req_climbs q = false /\ object_route (q_route q) = true /\
  uploads_hidden fx q = false.
Proof. exists fx_demo, up_get. vm_compute. repeat split; reflexivity. Qed.

(* the two findings are told apart: up_get2 has a ".." segment but does not climb; it is
   inside the trigger set of finding 1 only *)
Theorem uploads_hidden_refuted_dotdot :
  req_dotdot up_get2 = true /\ req_climbs up_get2 = false /\ req_enters_uploads up_get2 = true /\
  all_contained fx_demo up_get2 = true /\ uploads_hidden fx_demo up_get2 = false.
Proof. vm_compute. repeat split; reflexivity. Qed.

Lemma bucket_pattern_spec : forall b, bucket_pattern b = negb (router_refuses b).
Proof.
  assert (X : forall c, Ascii.eqb c slash = true -> Ascii.eqb c "." = true -> False).
  { intros c H1 H2. apply Ascii.eqb_eq in H1. apply Ascii.eqb_eq in H2. subst c. discriminate H2. }
  intros [|c r]; [reflexivity|].
  unfold bucket_pattern, router_refuses, dot. cbn [String.eqb no_slash].
  destruct (Ascii.eqb c slash) eqn:Cs; destruct (Ascii.eqb c ".") eqn:Cd;
    try (exfalso; exact (X c Cs Cd)); cbn [negb andb orb].
  - reflexivity.
  - destruct r as [|d r']; [reflexivity|]. cbn [String.eqb no_slash].
    destruct (Ascii.eqb d slash) eqn:Ds; destruct (Ascii.eqb d ".") eqn:Dd;
      try (exfalso; exact (X d Ds Dd)); cbn [negb andb orb].
    + reflexivity.
    + destruct r' as [|e r'']; [reflexivity|]. cbn [String.eqb no_slash negb andb orb].
      destruct (negb (Ascii.eqb e slash) && no_slash r''); reflexivity.
    + destruct (no_slash r'); reflexivity.
  - destruct (no_slash r); reflexivity.
Qed.

Theorem pattern_refuses_exactly : forall b,
  bucket_pattern b = false <-> (b = "" \/ b = "." \/ b = ".." \/ no_slash b = false).
Proof.
  intros b. rewrite bucket_pattern_spec. unfold router_refuses. rewrite negb_false_iff.
  rewrite !orb_true_iff, !String.eqb_eq, negb_true_iff. tauto.
Qed.

Theorem refused_no_calls : forall fx q, router_refuses (q_bucket q) = true ->
  calls fx q = [] /\ candidates fx q = [].
Proof. intros fx q H. unfold calls, candidates. rewrite H. split; reflexivity. Qed.

Lemma routed_calls : forall fx q, router_refuses (q_bucket q) = false -> calls fx q = handler_calls fx q.
Proof. intros fx q H. unfold calls. rewrite H. reflexivity. Qed.

(* What the handlers would do with the bucket names "." and "..": DELETE /. looks up and
   recursively deletes /buckets itself, GET /../etc/secret is served from /etc/secret.  The
   router's pattern refuses both names, so no call is made. *)
Definition bad_delete : req := rqb RDeleteBucket "." "".
Definition bad_get : req := rqb RGet ".." "etc/secret".

Theorem dot_buckets_repaired :
  bucket_pattern "." = false /\ bucket_pattern ".." = false /\ bucket_pattern "" = false /\
  bucket_pattern "..." = true /\ bucket_pattern ".b" = true /\ bucket_pattern "..b" = true /\
  map snd (handler_calls fx_demo bad_delete) = [GLookup "/buckets" "."; GDelete "/buckets" "." true] /\
  effective (GDelete "/buckets" "." true) = Some "/buckets" /\
  map (fun c => effective (snd c)) (handler_calls fx_demo bad_get) = [None; Some "/etc/secret"] /\
  calls fx_demo bad_delete = [] /\ candidates fx_demo bad_delete = [] /\
  calls fx_demo bad_get = [] /\ candidates fx_demo bad_get = [].
Proof. vm_compute. repeat split; reflexivity. Qed.

(* finding 2: a bucket name with a "%", which the router accepts.  GET /%2562/obj (bucket
   name "%62") is served from /buckets/b/obj, DELETE deletes it, the POST upload writes
   into bucket b; the gRPC routes of the same bucket use the literal name /buckets/%62.
   A name that decodes to ".." leaves /buckets altogether; a bad escape sends nothing. *)
Definition odd_get : req := rqb RGet "%62" "obj".
Definition odd_delete : req := rqb RDelete "%62" "obj".
Definition odd_post : req := rqb RPostPolicy "%62" "posted".
Definition odd_head_bucket : req := rqb RHeadBucket "%62" "".
Definition odd_get_dd : req := rqb RGet "%2e%2e" "etc/secret".
Definition odd_get_badesc : req := rqb RGet "%zz" "obj".

Theorem odd_bucket_refuted :
  router_refuses (q_bucket odd_get) = false /\ odd_bucket (q_bucket odd_get) = true /\
  req_climbs odd_get = false /\ req_enters_uploads odd_get = false /\
  map snd (calls fx_demo odd_get) = [Http MGet "/buckets/b/obj"] /\
  forallb call_contained (calls fx_demo odd_get) = false /\
  map snd (calls fx_demo odd_delete) = [Http MDelete "/buckets/b/obj"] /\
  forallb call_contained (calls fx_demo odd_delete) = false /\
  map snd (calls fx_demo odd_post) = [Http MPut "/buckets/b/posted"] /\
  forallb call_contained (calls fx_demo odd_post) = false /\
  map snd (calls fx_demo odd_head_bucket) = [GLookup "/buckets" "%62"] /\
  forallb call_contained (calls fx_demo odd_head_bucket) = true /\
  map (fun c => effective (snd c)) (calls fx_demo odd_get_dd) = [None; Some "/etc/secret"] /\
  calls fx_demo odd_get_badesc = [].
Proof. vm_compute. repeat split; reflexivity. Qed.

(* the trigger of finding 2 per request: odd_request implies odd_bucket, and on the routes
   outside it an odd bucket is addressed by its literal name: every gRPC-only route of bucket
   "%62" (with an upload u1 in it) stays inside /buckets/%62 *)
Lemma odd_request_odd : forall q, odd_request q = true -> odd_bucket (q_bucket q) = true.
Proof. intros q H. unfold odd_request in H. apply andb_true_iff in H. exact (proj1 H). Qed.

Definition fx_odd : fixture :=
  [ ("/", true); ("/buckets", true); ("/buckets/%62", true); ("/buckets/%62/.uploads", true);
    ("/buckets/%62/.uploads/u1", true); ("/buckets/%62/.uploads/u1/0001.part", false);
    ("/buckets/%62/x", true); ("/buckets/%62/x/y", false); ("/buckets/b", true); ("/buckets/b/obj", false) ].
Definition odd_grpc_reqs : list req :=
  map (fun r => mk_req r "%62" "x/y" "u1" "0001.part" "" ["x/y"])
      [RBatchDelete; RNewUpload; RComplete; RAbort; RListParts; RGetTag; RPutTag; RDelTag;
       RList false "x/" "" true; RList true "" "x/y" false; RListUploads; RPutBucket; RDeleteBucket; RHeadBucket].

Example odd_grpc_routes_contained :
  forallb (fun q => negb (odd_request q) && odd_bucket (q_bucket q) &&
                    negb (Nat.eqb (List.length (calls fx_odd q)) 0) &&
                    forallb call_contained (calls fx_odd q) && candidates_contained fx_odd q) odd_grpc_reqs = true /\
  map snd (calls fx_odd (mk_req RComplete "%62" "x/done" "u1" "0001.part" "" [])) =
    [GList "/buckets/%62/.uploads/u1"; GLookup "/buckets/%62/.uploads" "u1"; GCreate "/buckets/%62/x" "done" false;
     GDelete "/buckets/%62/.uploads" "u1" true].
Proof. vm_compute. split; reflexivity. Qed.

(* POST /oth with the form field key = "er/obj" writes /buckets/oth/er/obj, inside the bucket:
   PostPolicyBucketHandler joins bucket and key with "/" *)
Definition post_noslash : req := rqb RPostPolicy "oth" "er/obj".

Theorem postpolicy_repaired :
  bad_bucket (q_bucket post_noslash) = false /\ req_climbs post_noslash = false /\
  map snd (calls fx_demo post_noslash) = [Http MPut "/buckets/oth/er/obj"] /\
  forallb call_contained (calls fx_demo post_noslash) = true.
Proof. vm_compute. repeat split; reflexivity. Qed.

(* non-vacuity: an ordinary request satisfies the hypotheses and produces calls *)
Example partial_nonvacuous :
  let q := rq RPutTag "x/./y//z" "" "" [] in
  bad_bucket (q_bucket q) = false /\ req_dotdot q = false /\ req_uploads_seg q = false /\
  req_climbs q = false /\ req_enters_uploads q = false /\
  map snd (calls fx_demo q) = [GLookup "/buckets/b/x/./y/" "z"] /\
  all_contained fx_demo q = true /\ uploads_hidden fx_demo q = true.
Proof. vm_compute. repeat split; reflexivity. Qed.

(* non-vacuity of the narrowing: a key with ".." segments that never climbs is covered by
   the partial theorems (the syntactic condition req_dotdot excludes it) *)
Example narrowed_nonvacuous :
  let q := rq RDelTag "x/../x/z/../y" "" "" [] in
  req_dotdot q = true /\ req_climbs q = false /\ req_enters_uploads q = false /\
  map (fun c => effective (snd c)) (calls fx_demo q) = [Some "/buckets/b/x/y"] /\
  all_contained fx_demo q = true.
Proof. vm_compute. repeat split; reflexivity. Qed.

(* non-vacuity for listings: the marker chain and the directories below it *)
Example list_nonvacuous :
  let q := rq (RList true "x/" "z/w" true) "" "" "" [] in
  fx_plain fx_demo = true /\ req_climbs q = false /\
  map snd (calls fx_demo q) = [GList "/buckets/b/x/z"; GList "/buckets/b/x"] /\
  candidates fx_demo q = [GLookup "/buckets" "b"; GList "/buckets/b/x/z"; GDelete "/buckets/b/x" "z" true] /\
  candidates_contained fx_demo q = true.
Proof. vm_compute. repeat split; reflexivity. Qed.
