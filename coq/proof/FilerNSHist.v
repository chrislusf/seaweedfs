(* C18: the rename statements, histories against the reference namespace, the witnesses of known
   finding 0 and two of the examples. *)
From Coq Require Import List NArith Bool String Arith Lia Permutation.
From SW Require Import model.FilerNS proof.FilerNSBase proof.FilerNSCreate proof.FilerNSDelete proof.FilerNSRename.
Import ListNotations.
Local Open Scope list_scope.

Lemma rename_trigger_false_ref : forall s od on nd nn, rename_trigger s od on nd nn = false ->
  exists se re, ref_rename s od on nd nn = Some (se, re).
Proof.
  intros s od on nd nn H. unfold rename_trigger in H.
  destruct (ref_rename s od on nd nn) as [[se re]|]; [eauto|discriminate].
Qed.

(* a successful rename moves the whole subtree: every entry below the source appears at
   the same relative path below the target, nothing stays below the source, and everything
   else is untouched apart from the implicitly created ancestors of the target *)
Theorem rename_moves_subtree : forall s od on nd nn s', wf s ->
  rename_trigger s od on nd nn = false ->
  rename s od on nd nn = (s', OK) -> child od on <> child nd nn ->
  exists eo, find s (child od on) = Some eo /\
    (forall r, find s' (child nd nn ++ r) = option_map strip_hl (find s (child od on ++ r))) /\
    (forall r, find s' (child od on ++ r) = None) /\
    (forall q, is_prefix (child nd nn) q = false -> is_prefix (child od on) q = false ->
               find s' q = with_ancestors s (child nd nn) (strip_hl eo) q).
Proof.
  intros s od on nd nn s' Hwf Htr Hren Hne.
  destruct (rename_trigger_false_ref _ _ _ _ _ Htr) as [se [re Href]].
  destruct (rename_cases _ _ _ _ _ _ _ Hwf Href) as [[Hr [_ H]]|[eo [s2 [Eo [Hr [_ [Hdis [_ [_ Hf]]]]]]]]];
    rewrite Hren in Hr; [destruct H; congruence|injection Hr as <-].
  exists eo. split; [exact Eo|]. repeat split.
  - intro r. rewrite (proj1 (Hf _)). unfold moved_find. rewrite strip_prefix_app. reflexivity.
  - intro r. rewrite (proj1 (Hf _)). unfold moved_find.
    rewrite (disjoint_strip _ _ r (disjoint_sym _ _ Hdis)), strip_prefix_app. reflexivity.
  - intros q H1 H2. rewrite (proj1 (Hf _)). unfold moved_find. unfold is_prefix in H1, H2.
    destruct (strip_prefix (child nd nn) q); [discriminate|]. destruct (strip_prefix (child od on) q); [discriminate|]. reflexivity.
Qed.

(* outside the trigger a failing rename changes nothing *)
Theorem rename_failure_atomic : forall s od on nd nn, wf s ->
  rename_trigger s od on nd nn = false ->
  snd (rename s od on nd nn) <> OK -> equiv (fst (rename s od on nd nn)) s.
Proof.
  intros s od on nd nn Hwf Htr Hr.
  destruct (rename_trigger_false_ref _ _ _ _ _ Htr) as [se [re Href]].
  destruct (rename_cases _ _ _ _ _ _ _ Hwf Href) as [[H _]|[eo [s' [_ [H _]]]]]; rewrite H in *;
    [apply equiv_refl|elim Hr; reflexivity].
Qed.

Lemma subtree_rel_In : forall s p r e, In (r, e) (subtree_rel s p) <-> In (p ++ r, e) s.
Proof.
  intros s p r e. unfold subtree_rel. rewrite in_flat_map. split.
  - intros [[k e'] [Hin H]]. simpl in H. destruct (strip_prefix p k) as [r'|] eqn:E; [|destruct H].
    destruct H as [H|[]]. inversion H; subst. apply strip_prefix_spec in E. subst. exact Hin.
  - intro Hin. exists (p ++ r, e). split; auto. simpl. rewrite strip_prefix_app. left. reflexivity.
Qed.

Lemma subtree_rel_NoDup : forall s p, NoDup (keys s) -> NoDup (map fst (subtree_rel s p)).
Proof.
  intros s p. induction s as [|[k e] s IH]; simpl; intro H; [constructor|].
  inversion H as [|? ? Hk Hnd]; subst.
  destruct (strip_prefix p k) as [r|] eqn:E; simpl; auto.
  constructor; auto. intro Hin. apply in_map_iff in Hin. destruct Hin as [[r' e'] [Hr Hin]].
  simpl in Hr. subst r'. apply subtree_rel_In in Hin.
  apply strip_prefix_spec in E. subst k. apply Hk. apply in_map_iff. exists (p ++ r, e'). auto.
Qed.

Lemma subtree_rel_find : forall s p r e, NoDup (keys s) ->
  (In (r, e) (subtree_rel s p) <-> find s (p ++ r) = Some e).
Proof.
  intros s p r e Hnd. rewrite subtree_rel_In. split; [apply In_find; auto|apply find_Some_In].
Qed.

Theorem rename_preserves_multiset : forall s od on nd nn s', wf s ->
  rename_trigger s od on nd nn = false ->
  rename s od on nd nn = (s', OK) -> child od on <> child nd nn ->
  Permutation (subtree_rel s' (child nd nn))
              (map (fun re => (fst re, strip_hl (snd re))) (subtree_rel s (child od on))) /\
  subtree_rel s' (child od on) = [].
Proof.
  intros s od on nd nn s' Hwf Htr Hren Hne.
  destruct (rename_moves_subtree _ _ _ _ _ _ Hwf Htr Hren Hne) as [eo [_ [Hnew [Hold _]]]].
  assert (Hwf' : wf s') by (pose proof (rename_wf s od on nd nn Hwf) as X; rewrite Hren in X; exact X).
  split.
  - apply NoDup_Permutation.
    + apply (NoDup_map_inv fst). apply subtree_rel_NoDup. apply Hwf'.
    + apply (NoDup_map_inv fst). rewrite map_map. simpl. apply subtree_rel_NoDup. apply Hwf.
    + intros [r e]. rewrite subtree_rel_find by apply Hwf'. rewrite Hnew. rewrite in_map_iff. split.
      * intro H. destruct (find s (child od on ++ r)) as [x|] eqn:Ex; [|discriminate].
        simpl in H. inversion H; subst. exists (r, x). split; auto. apply subtree_rel_find; auto. apply Hwf.
      * intros [[r' x] [H Hin]]. simpl in H. inversion H; subst.
        apply subtree_rel_find in Hin; [|apply Hwf]. rewrite Hin. reflexivity.
  - destruct (subtree_rel s' (child od on)) as [|[r e] l] eqn:E; auto.
    assert (Hin : In (r, e) (subtree_rel s' (child od on))) by (rewrite E; left; reflexivity).
    apply subtree_rel_find in Hin; [|apply Hwf']. rewrite Hold in Hin. discriminate.
Qed.

Theorem step_wf : forall s o, wf s -> wf (fst (step s o)).
Proof.
  intros s o Hwf. destruct o; simpl.
  - apply create_entry_wf; auto.
  - apply update_entry_wf; auto.
  - apply delete_entry_wf; auto.
  - apply rename_wf; auto.
Qed.

Theorem final_wf : forall ops s, wf s -> wf (final s ops).
Proof. induction ops as [|o ops IH]; intros s H; simpl; auto. apply IH, step_wf, H. Qed.

Theorem run_wf : forall ops s, wf s -> Forall (fun sr => wf (fst sr)) (run s ops).
Proof.
  induction ops as [|o ops IH]; intros s H; simpl; constructor.
  - apply step_wf, H.
  - apply IH, step_wf, H.
Qed.

Theorem wf_all_ancestors : forall s, wf s -> forall a r e,
  find s (a ++ r) = Some e -> a <> [] -> r <> [] -> exists d, find s a = Some d /\ e_dir d = true.
Proof. intros s [_ H] a r e. apply tree_ok_ancestors. exact H. Qed.

(* every step outside the trigger does what the reference namespace says *)
Theorem step_ref : forall s o, wf s -> op_trigger s o = false ->
  exists se, ref_step s o = Some (se, snd (step s o)) /\ equiv (fst (step s o)) se.
Proof.
  intros s o Hwf Htr.
  assert (Hpair : forall sr ref : store * err, snd sr = snd ref -> equiv (fst sr) (fst ref) ->
            exists se, Some ref = Some (se, snd sr) /\ equiv (fst sr) se).
  { intros sr [se re] Hr He. simpl in *. exists se. rewrite Hr. auto. }
  destruct o; cbn [step ref_step op_trigger] in *.
  - apply Hpair; apply create_entry_ref; exact Hwf.
  - apply Hpair; rewrite update_entry_is_ref; [reflexivity|apply equiv_refl].
  - apply Hpair; apply delete_entry_ref; exact Hwf.
  - destruct (rename_trigger_false_ref _ _ _ _ _ Htr) as [se [re Href]].
    destruct (rename_ref _ _ _ _ _ _ _ Hwf Href) as [Hr He]. exists se. rewrite Hr. auto.
Qed.

Fixpoint refines (s : store) (ops : list op) : Prop :=
  match ops with
  | [] => True
  | o :: ops' =>
      (exists se, ref_step s o = Some (se, snd (step s o)) /\ equiv (fst (step s o)) se) /\
      refines (fst (step s o)) ops'
  end.

Theorem history_refines : forall ops s, wf s -> history_trigger s ops = false -> refines s ops.
Proof.
  induction ops as [|o ops IH]; intros s Hwf Htr; simpl; auto.
  simpl in Htr. apply orb_false_iff in Htr. destruct Htr as [H1 H2]. split.
  - apply step_ref; auto.
  - apply IH; auto. apply step_wf, Hwf.
Qed.

Lemma ref_create_no_flip : forall s p e x q a b, q <> [] ->
  find s q = Some a -> find (fst (ref_create s p e x)) q = Some b -> e_dir b = e_dir a.
Proof.
  intros s p e x q a b Hq Ha Hb. unfold ref_create in Hb.
  destruct p as [|p0 p1] eqn:Ep; [cbn [fst] in Hb; congruence|]. rewrite <- Ep in *.
  destruct (find s p) as [old|] eqn:Eo.
  - destruct x; [cbn [fst] in Hb; congruence|].
    destruct (e_dir old && negb (e_dir e)) eqn:E1; [cbn [fst] in Hb; congruence|].
    destruct (negb (e_dir old) && e_dir e) eqn:E2; [cbn [fst] in Hb; congruence|].
    cbn [fst] in Hb. rewrite find_insert in Hb. destruct (path_eqb_spec p q) as [->|_]; [|congruence].
    inversion Hb; subst. rewrite Eo in Ha. inversion Ha; subst. apply same_dir_flag; auto.
  - destruct (has_file_ancestor s p); [cbn [fst] in Hb; congruence|].
    cbn [fst] in Hb. rewrite find_insert in Hb. destruct (path_eqb_spec p q) as [->|_]; [congruence|].
    rewrite find_add_missing_ancestors, Ha in Hb. congruence.
Qed.

Lemma ref_update_no_flip : forall s p e q a b, q <> [] ->
  find s q = Some a -> find (fst (ref_update s p e)) q = Some b -> e_dir b = e_dir a.
Proof.
  intros s p e q a b Hq Ha Hb. unfold ref_update in Hb.
  destruct (find_entry s p) as [old|] eqn:Eo; [|cbn [fst] in Hb; congruence].
  destruct (e_dir old && negb (e_dir e)) eqn:E1; [cbn [fst] in Hb; congruence|].
  destruct (negb (e_dir old) && e_dir e) eqn:E2; [cbn [fst] in Hb; congruence|].
  cbn [fst] in Hb. rewrite find_insert in Hb. destruct (path_eqb_spec p q) as [->|_]; [|congruence].
  inversion Hb; subst. rewrite find_entry_nonroot in Eo by assumption. rewrite Eo in Ha. inversion Ha; subst.
  apply same_dir_flag; auto.
Qed.

Lemma ref_delete_keeps_entry : forall s p rec q a b,
  find s q = Some a -> find (fst (ref_delete s p rec)) q = Some b -> b = a.
Proof.
  intros s p rec q a b Ha Hb. unfold ref_delete in Hb.
  destruct p as [|p0 p1] eqn:Ep; [cbn [fst] in Hb; congruence|]. rewrite <- Ep in *.
  destruct (find s p) as [e|]; [|cbn [fst] in Hb; congruence].
  destruct (e_dir e && negb rec && has_children s p); [cbn [fst] in Hb; congruence|].
  cbn [fst] in Hb. rewrite find_ref_remove_subtree in Hb. destruct (is_prefix p q); congruence.
Qed.

Lemma ref_rename_no_flip : forall s od on nd nn se re q a b, wf s ->
  ref_rename s od on nd nn = Some (se, re) ->
  find s q = Some a -> find se q = Some b -> e_dir b = e_dir a.
Proof.
  intros s od on nd nn se re q a b Hwf Href Ha Hb.
  destruct (rename_cases _ _ _ _ _ _ _ Hwf Href) as [[_ [-> _]]|[eo [s' [Eo [_ [_ [_ [Hbelow [Htype Hf]]]]]]]]]; [congruence|].
  rewrite (proj2 (Hf q)), (proj1 (Hf q)) in Hb. unfold moved_find in Hb.
  destruct (strip_prefix (child nd nn) q) as [r|] eqn:E1.
  - apply strip_prefix_spec in E1. subst q. destruct r as [|m r].
    + rewrite app_nil_r in *. rewrite Eo in Hb. inversion Hb; subst. simpl. symmetry. apply Htype. exact Ha.
    + rewrite Hbelow in Ha. discriminate.
  - destruct (strip_prefix (child od on) q); [discriminate|].
    unfold with_ancestors in Hb. rewrite Ha in Hb. congruence.
Qed.

Theorem step_no_type_flip : forall s o q a b, wf s -> op_trigger s o = false -> q <> [] ->
  find s q = Some a -> find (fst (step s o)) q = Some b -> e_dir b = e_dir a.
Proof.
  intros s o q a b Hwf Htr Hq Ha Hb.
  destruct (step_ref s o Hwf Htr) as [se [Href Heq]]. rewrite Heq in Hb.
  assert (Hfst : forall (r : store * err) re, Some r = Some (se, re) -> se = fst r)
    by (intros r re E; injection E as ->; reflexivity).
  destruct o; cbn [ref_step] in Href.
  - apply Hfst in Href. subst se. eapply ref_create_no_flip; eauto.
  - apply Hfst in Href. subst se. eapply ref_update_no_flip; eauto.
  - apply Hfst in Href. subst se. assert (b = a) by (eapply ref_delete_keeps_entry; eauto). congruence.
  - eapply ref_rename_no_flip; eauto.
Qed.

Definition wF (uid : N) : entry := mk_entry false 420%N uid [uid] [] 0%N [].
Definition wD (uid : N) : entry := mk_entry true 493%N uid [] [] 0%N [].

(* /a/a/a/b (uid 1) and /a/a/b (uid 2); then  mv /a/a -> /a *)
Definition w_lost : store :=
  final [] [Create ["a"; "a"; "a"; "b"]%string (wF 1) false; Create ["a"; "a"; "b"]%string (wF 2) false].

(* the rename returns OK although an entry of the moved subtree is gone *)
Theorem rename_onto_ancestor_loses_entries :
  exists s od on nd nn s' r e,
    wf s /\ is_prefix (child od on) nd = false /\ child od on <> child nd nn /\
    rename_trigger s od on nd nn = true /\
    rename s od on nd nn = (s', OK) /\
    find s (child od on ++ r) = Some e /\ find s' (child nd nn ++ r) <> Some (strip_hl e).
Proof.
  exists w_lost, ["a"%string], "a"%string, [], "a"%string. eexists. exists ["a"; "b"]%string. eexists.
  split; [apply wf_b_spec; vm_compute; reflexivity|].
  split; [vm_compute; reflexivity|].
  split; [intro H; vm_compute in H; discriminate|].
  split; [vm_compute; reflexivity|].
  split; [vm_compute; reflexivity|].
  split; [vm_compute; reflexivity|].
  vm_compute. discriminate.
Qed.

(* /a/a, /a/b, /b/a files and /b/b a directory; then  mv /a -> /b  fails on /a/b -> /b/b
   after /a/a was already moved over /b/a *)
Definition w_half : store :=
  final [] [Create ["a"; "a"]%string (wF 1) false; Create ["a"; "b"]%string (wF 2) false;
            Create ["b"; "a"]%string (wF 3) false; Create ["b"; "b"]%string (wD 4) false].

Theorem rename_merge_conflict_half_moves :
  exists s od on nd nn q,
    wf s /\ is_prefix (child od on) nd = false /\ rename_trigger s od on nd nn = true /\
    snd (rename s od on nd nn) <> OK /\ find (fst (rename s od on nd nn)) q <> find s q.
Proof.
  exists w_half, [], "a"%string, [], "b"%string, ["a"; "a"]%string.
  split; [apply wf_b_spec; vm_compute; reflexivity|].
  split; [vm_compute; reflexivity|].
  split; [vm_compute; reflexivity|].
  split; vm_compute; discriminate.
Qed.

(* a history with nested directories, two directory renames (one creating the missing ancestors of its
   target), a file rename and both kinds of delete that never meets the trigger *)
Definition ex_ops : list op :=
  [Create ["a"; "b"; "a"]%string (wF 1) false;
   Create ["a"; "b"; "b"]%string (wD 2) false;
   Create ["b"]%string (wF 3) false;
   Rename ["a"]%string "b"%string []%list "c"%string;
   Rename []%list "b"%string ["c"]%string "x"%string;
   Rename []%list "c"%string ["x"; "y"]%string "z"%string;
   Delete ["a"]%string false false;
   Delete ["x"; "y"; "z"; "b"]%string true false].

Example ex_history_outside_trigger :
  history_trigger [] ex_ops = false /\
  map snd (run [] ex_ops) = [OK; OK; OK; OK; OK; OK; OK; OK] /\
  store_equiv_b (final [] ex_ops)
    [(["x"]%string, implicit_dir (wF 1)); (["x"; "y"]%string, implicit_dir (wF 1));
     (["x"; "y"; "z"]%string, implicit_dir (wF 1)); (["x"; "y"; "z"; "a"]%string, wF 1);
     (["x"; "y"; "z"; "x"]%string, wF 3)] = true.
Proof. vm_compute. repeat split; reflexivity. Qed.

Example ex_rename_hypotheses :
  let s := final [] [Create ["a"; "b"; "a"]%string (wF 1) false; Create ["a"; "b"; "b"]%string (wD 2) false] in
  wf s /\ rename_trigger s ["a"]%string "b"%string []%list "c"%string = false /\
  snd (rename s ["a"]%string "b"%string []%list "c"%string) = OK /\
  child ["a"]%string "b"%string <> child []%list "c"%string.
Proof.
  cbv zeta. split; [apply final_wf, wf_nil|]. split; [vm_compute; reflexivity|].
  split; [vm_compute; reflexivity|]. intro H; vm_compute in H; discriminate.
Qed.
