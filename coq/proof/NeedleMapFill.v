(* C05 proofs: long inputs in closed form.
   - [fill_run]: n Puts of ascending keys into an empty CompactMap leave exactly the one
     section [fill_cm] (all results RSet 0 0), for every n up to the section capacity; so a
     history "fill ++ tail" can be evaluated from [fill_cm] ([fill_then_run]).  check/C05.v uses
     this for the case that fills a section to the real capacity 100000.
   - the readers of an index file evaluated on its entry list ([ldb_load_entries],
     [sorted_entries], [metric_entries_o]) equal the byte-level model on [encode osz es]. *)
From Coq Require Import List NArith ZArith Bool Lia Sorted Arith.
From Coq Require Import ZifyBool ZifyN ZifyNat.
From SW Require Import model.NeedleMap proof.EcIndexProofs proof.NeedleMapSearch proof.NeedleMapSec
  proof.NeedleMapCm proof.NeedleMapRefine.
Import ListNotations.
Local Open Scope N_scope.

Lemma fill_vals_len : forall n i step, length (fill_vals_from i n step) = n.
Proof. induction n as [|n IH]; intros; simpl; [reflexivity|]. rewrite IH. reflexivity. Qed.

Lemma fill_vals_snoc : forall n i step,
  fill_vals_from i (S n) step =
  fill_vals_from i n step ++ [mk_sval ((i + N.of_nat n) * step) (i + N.of_nat n + 1) (fill_size (i + N.of_nat n))].
Proof.
  induction n as [|n IH]; intros i step.
  - cbn [fill_vals_from app]. replace (i + N.of_nat 0) with i by lia. reflexivity.
  - change (fill_vals_from i (S (S n)) step) with
      (mk_sval (i * step) (i + 1) (fill_size i) :: fill_vals_from (i + 1) (S n) step).
    rewrite IH. cbn [fill_vals_from app].
    replace (i + 1 + N.of_nat n) with (i + N.of_nat (S n)) by lia. reflexivity.
Qed.

Lemma fill_vals_keys : forall n i step x, In x (fill_vals_from i n step) ->
  i * step <= sk x /\ sk x + step <= (i + N.of_nat n) * step.
Proof.
  induction n as [|n IH]; intros i step x H; simpl in H; [contradiction|].
  destruct H as [<-|H].
  - cbn [mk_sval sk]. nia.
  - apply IH in H. nia.
Qed.

Lemma fill_vals_sorted : forall n i step, 0 < step -> sorted (fill_vals_from i n step).
Proof.
  induction n as [|n IH]; intros i step Hs; [constructor|].
  cbn [fill_vals_from]. constructor; [apply IH; assumption|].
  rewrite Forall_forall. intros x Hx. apply fill_vals_keys in Hx. cbn [mk_sval sk]. nia.
Qed.

Lemma lb_rec_all_lt : forall l k, Forall (fun x => sk x < k) l -> lb_rec l k = length l.
Proof.
  induction l as [|v r IH]; intros k H; [reflexivity|]. inversion H as [|? ? Hv Hr]; subst.
  cbn [lb_rec length]. destruct (N.ltb_spec (sk v) k); [|lia]. rewrite IH by assumption. reflexivity.
Qed.

Lemma sec_set_append : forall batch s key off size,
  sorted (s_values s) ->
  Forall (fun x => sk x < u32 (sub64 key (s_start s))) (s_values s) ->
  N.of_nat (length (s_values s)) < batch ->
  sec_set batch s key off size =
  ({| s_start := s_start s; s_end := (if s_end s <? key then key else s_end s);
      s_values := s_values s ++ [mk_sval (u32 (sub64 key (s_start s))) off size];
      s_overflow := s_overflow s |}, 0, 0%Z).
Proof.
  intros batch s key off size Hs Hall Hcnt. unfold sec_set.
  set (skey := u32 (sub64 key (s_start s))) in *.
  rewrite bsv_at_lb by assumption. unfold at_lb. rewrite (lb_rec_all_lt _ _ Hall), Nat.ltb_irrefl. cbn [andb].
  assert (Hb : (batch <=? N.of_nat (length (s_values s))) = false) by (apply N.leb_gt; assumption).
  rewrite Hb. cbn [orb].
  assert (Hneed : ((0 <? length (s_values s))%nat && (skey <? key_at (s_values s) (length (s_values s) - 1))) = false).
  { destruct (Nat.ltb_spec 0 (length (s_values s))) as [Hpos|]; [|reflexivity]. cbn [andb].
    apply N.ltb_ge. rewrite Forall_forall in Hall. apply N.lt_le_incl. apply Hall.
    unfold key_at. apply nth_In. lia. }
  rewrite Hneed. reflexivity.
Qed.

Lemma sub64_self : forall a, a < two64 -> sub64 a a = 0.
Proof. intros a H. rewrite sub64_exact by lia. lia. Qed.

Lemma u32_0 : u32 0 = 0.
Proof. reflexivity. Qed.

Lemma cm_set_fill : forall batch base step i,
  0 < step -> i < batch -> i * step <= sec_lim -> base + i * step < two64 ->
  cm_set batch (fill_cm base step i) (base + i * step) (i + 1) (fill_size i) =
  (fill_cm base step (i + 1), 0, 0%Z).
Proof.
  intros batch base step i Hstep Hib Hspan H64.
  destruct (N.eq_dec i 0) as [->|Hi].
  - (* the first key: a new section *)
    replace (base + 0 * step) with base in * by lia.
    unfold fill_cm. cbn [N.eqb N.add]. change (0 + 1 =? 0) with false. cbv iota.
    unfold cm_set, locate, bscs. cbn [length Z.of_nat Z.sub Z.ltb Z.compare Z.opp Z.add Z.pos_sub orb rev shift_count Nat.sub].
    unfold insert_at. cbn [firstn skipn app nth].
    rewrite sec_set_append.
    + cbn [new_section s_start s_end s_values s_overflow app]. rewrite sub64_self, u32_0 by assumption.
      unfold set_nth. cbn [firstn skipn app].
      replace (if 0 <? base then base else 0) with base by (destruct (N.ltb_spec 0 base); lia).
      replace (base + (1 - 1) * step) with base by lia.
      change (N.to_nat 1) with 1%nat. cbn [fill_vals_from]. replace (0 * step) with 0 by lia. reflexivity.
    + constructor.
    + constructor.
    + cbn [new_section s_values length N.of_nat]. lia.
  - (* a later key: appended to the section *)
    unfold fill_cm. destruct (N.eqb_spec i 0) as [|_]; [contradiction|].
    destruct (N.eqb_spec (i + 1) 0) as [|_]; [lia|].
    set (S0 := {| s_start := base; s_end := base + (i - 1) * step;
                  s_values := fill_vals_from 0 (N.to_nat i) step; s_overflow := [] |}).
    assert (Hlen : length (s_values S0) = N.to_nat i) by apply fill_vals_len.
    assert (Hsub : sub64 (base + i * step) base = i * step) by (rewrite sub64_exact by lia; lia).
    assert (Hloc : locate batch [S0] (base + i * step) = Some 0%nat).
    { assert (H1 : (base <=? base + i * step) = true) by (apply N.leb_le; lia).
      assert (H2 : (counter S0 <? batch) = true).
      { unfold counter. rewrite Hlen. apply N.ltb_lt. lia. }
      assert (H3 : (sec_lim <? i * step) = false) by (apply N.ltb_ge; assumption).
      unfold locate, bscs.
      change (Z.of_nat (length [S0]) - 1)%Z with 0%Z.
      change (sec_at [S0] 0%Z) with S0.
      change (0 <? 0)%Z with false. cbv iota.
      change (s_start S0) with base.
      rewrite H1, H2. cbn [orb]. change (0 <? 0)%Z with false. cbn [orb].
      change (sec_at [S0] 0%Z) with S0. change (s_start S0) with base.
      rewrite Hsub, H3. reflexivity. }
    unfold cm_set. rewrite Hloc. cbn [nth].
    rewrite sec_set_append.
    + cbn [S0 s_start s_end s_values s_overflow]. rewrite Hsub, (u32_small (i * step)) by assumption.
      unfold set_nth. cbn [firstn skipn app].
      assert (He : (base + (i - 1) * step <? base + i * step) = true) by (apply N.ltb_lt; nia).
      rewrite He. replace (i + 1 - 1) with i by lia.
      replace (N.to_nat (i + 1)) with (S (N.to_nat i)) by lia.
      rewrite fill_vals_snoc. replace (0 + N.of_nat (N.to_nat i)) with i by lia. reflexivity.
    + apply fill_vals_sorted. assumption.
    + cbn [S0 s_start s_values]. rewrite Hsub, (u32_small (i * step)) by assumption.
      rewrite Forall_forall. intros x Hx. apply fill_vals_keys in Hx.
      replace (0 + N.of_nat (N.to_nat i)) with i in Hx by lia. nia.
    + rewrite Hlen. lia.
Qed.

Lemma cm_run_cons : forall batch cm o ops,
  cm_run batch cm (o :: ops) =
  (snd (cm_step batch cm o) :: fst (cm_run batch (fst (cm_step batch cm o)) ops),
   snd (cm_run batch (fst (cm_step batch cm o)) ops)).
Proof.
  intros. cbn [cm_run]. destruct (cm_step batch cm o) as [cm' r]. cbn [fst snd].
  destruct (cm_run batch cm' ops). reflexivity.
Qed.

Lemma cm_run_app : forall batch a cm b,
  cm_run batch cm (a ++ b) =
  (fst (cm_run batch cm a) ++ fst (cm_run batch (snd (cm_run batch cm a)) b),
   snd (cm_run batch (snd (cm_run batch cm a)) b)).
Proof.
  induction a as [|o a IH]; intros cm b.
  - cbn [app cm_run fst snd]. destruct (cm_run batch cm b). reflexivity.
  - cbn [app]. rewrite !cm_run_cons. cbn [fst snd]. rewrite IH. reflexivity.
Qed.

Lemma cm_run_fill_from : forall batch base step m i,
  0 < step -> i + N.of_nat m <= batch ->
  (i + N.of_nat m) * step <= sec_lim + step -> base + (i + N.of_nat m) * step < two64 + step ->
  cm_run batch (fill_cm base step i) (fill_ops_from i m base step) =
  (repeat (RSet 0 0%Z) m, fill_cm base step (i + N.of_nat m)).
Proof.
  induction m as [|m IH]; intros i Hstep Hb Hspan H64.
  - cbn [fill_ops_from cm_run repeat]. replace (i + N.of_nat 0) with i by lia. reflexivity.
  - cbn [fill_ops_from]. rewrite cm_run_cons. unfold cm_step.
    rewrite cm_set_fill by nia. cbn [fst snd].
    rewrite IH by (try assumption; nia).
    cbn [fst snd repeat]. replace (i + 1 + N.of_nat m) with (i + N.of_nat (S m)) by lia. reflexivity.
Qed.

Theorem fill_run : forall batch base step n, fill_ok batch base step n = true ->
  cm_run batch [] (fill_ops base step n) = (repeat (RSet 0 0%Z) (N.to_nat n), fill_cm base step n).
Proof.
  intros batch base step n H. unfold fill_ok in H.
  apply andb_true_iff in H. destruct H as [H H4]. apply andb_true_iff in H. destruct H as [H H3].
  apply andb_true_iff in H. destruct H as [H1 H2].
  apply N.ltb_lt in H1, H4. apply N.leb_le in H2, H3.
  unfold fill_ops. change (@nil section) with (fill_cm base step 0).
  rewrite cm_run_fill_from by (try assumption; lia).
  replace (0 + N.of_nat (N.to_nat n)) with n by lia. reflexivity.
Qed.

Theorem fill_then_run : forall batch base step n tail, fill_ok batch base step n = true ->
  cm_run batch [] (fill_ops base step n ++ tail) =
  (repeat (RSet 0 0%Z) (N.to_nat n) ++ fst (cm_run batch (fill_cm base step n) tail),
   snd (cm_run batch (fill_cm base step n) tail)).
Proof.
  intros. rewrite cm_run_app, fill_run by assumption. reflexivity.
Qed.

Lemma ldb_load_encode : forall osz es ans, ok_osz osz -> Forall (wf_entry osz) es ->
  l_db (ldb_load osz (encode osz es)) = ldb_load_entries es /\
  write_sorted_from_idx osz (encode osz es) = encode osz (sorted_entries es) /\
  metric_from_index_o osz (encode osz es) ans = metric_entries_o es ans.
Proof.
  intros osz es ans Ho Hw.
  unfold ldb_load, write_sorted_from_idx, read_needle_map, metric_from_index_o, ldb_load_entries,
    sorted_entries, metric_entries_o. cbn [l_db].
  rewrite walk_encode by assumption. repeat split.
Qed.

Lemma ref_get_above : forall r k, Forall (fun kv : N * (N * Z) => fst kv < k) r -> ref_get r k = None.
Proof.
  induction r as [|[k' v] r IH]; intros k H; [reflexivity|]. inversion H as [|? ? Hk Hr]; subst.
  cbn [ref_get]. cbn [fst] in Hk. destruct (N.eqb_spec k k'); [lia|]. apply IH. assumption.
Qed.
Lemma ref_remove_above : forall r k, Forall (fun kv : N * (N * Z) => fst kv < k) r -> ref_remove r k = r.
Proof.
  induction r as [|[k' v] r IH]; intros k H; [reflexivity|]. inversion H as [|? ? Hk Hr]; subst.
  unfold ref_remove in *. cbn [filter fst]. cbn [fst] in Hk.
  destruct (N.eqb_spec k' k); [lia|]. cbn [negb]. rewrite IH by assumption. reflexivity.
Qed.

Lemma ref_run_fill_from : forall m i base step acc, 0 < step ->
  Forall (fun kv : N * (N * Z) => fst kv < base + i * step) acc ->
  ref_run acc (fill_ops_from i m base step) = (repeat (RSet 0 0%Z) m, fill_ref_from i m base step acc).
Proof.
  induction m as [|m IH]; intros i base step acc Hs Hacc; [reflexivity|].
  cbn [fill_ops_from ref_run ref_step fill_ref_from repeat].
  rewrite (ref_get_above _ _ Hacc). unfold ref_put. rewrite (ref_remove_above _ _ Hacc).
  rewrite IH; [reflexivity|assumption|].
  constructor; [cbn [fst]; nia|].
  rewrite Forall_forall in *. intros x Hx. specialize (Hacc x Hx). nia.
Qed.

Theorem ref_run_fill : forall base step n, 0 < step ->
  ref_run [] (fill_ops base step n) = (repeat (RSet 0 0%Z) (N.to_nat n), fill_ref base step n).
Proof. intros. unfold fill_ops, fill_ref. apply ref_run_fill_from; [assumption|constructor]. Qed.

(* a history "fill ++ tail": the model from [fill_cm] and the reference from [fill_ref], on the
   tail alone (what check/C05.v evaluates for the case that fills a section to capacity) *)
Theorem fill_then_run_both : forall batch base step n tail, fill_ok batch base step n = true ->
  cm_run batch [] (fill_ops base step n ++ tail) =
    (repeat (RSet 0 0%Z) (N.to_nat n) ++ fst (cm_run batch (fill_cm base step n) tail),
     snd (cm_run batch (fill_cm base step n) tail)) /\
  ref_run [] (fill_ops base step n ++ tail) =
    (repeat (RSet 0 0%Z) (N.to_nat n) ++ fst (ref_run (fill_ref base step n) tail),
     snd (ref_run (fill_ref base step n) tail)).
Proof.
  intros batch base step n tail H. split; [apply fill_then_run; assumption|].
  assert (Hs : 0 < step).
  { unfold fill_ok in H. repeat (apply andb_true_iff in H; destruct H as [H ?]). apply N.ltb_lt. assumption. }
  rewrite ref_run_app, ref_run_fill by assumption. reflexivity.
Qed.

(* the long index file of check/C05.v, on its entry list *)
Theorem long_index_readers : forall osz head base step n tail ans, ok_osz osz ->
  Forall (wf_entry osz) (long_entries head base step n tail) ->
  let es := long_entries head base step n tail in
  l_db (ldb_load osz (encode osz es)) = ldb_load_entries es /\
  write_sorted_from_idx osz (encode osz es) = encode osz (sorted_entries es) /\
  metric_from_index_o osz (encode osz es) ans = metric_entries_o es ans.
Proof. intros. apply ldb_load_encode; assumption. Qed.

Definition c05_ex : list op :=
  [Put 4294967301 1099511627775 7%Z; Put 5 1 10%Z; Put 3 4294967296 20%Z; Put 100000 9 30%Z;
   Del 3 12; Get 3; Get 5; Get 4294967301; Get 8589934597].
Lemma c05_example_holds :
  ok_osz 5 /\ keys_ok c05_ex /\ forallb (op_in_range 5) c05_ex = true /\
  disciplined c05_ex = true /\ trig_empty_put c05_ex = false /\ trig_rewrite c05_ex = false /\
  length (snd (cm_run 100000 [] c05_ex)) = 3%nat /\
  fst (cm_run 100000 [] c05_ex) =
    [RSet 0 0%Z; RSet 0 0%Z; RSet 0 0%Z; RSet 0 0%Z; RDel 20%Z;
     RGet (Some (3, 4294967296, (-20)%Z)); RGet (Some (5, 1, 10%Z));
     RGet (Some (4294967301, 1099511627775, 7%Z)); RGet None] /\
  ref_metric c05_ex = {| m_del := 1; m_file := 4; m_delb := 20; m_fileb := 67; m_max := 4294967301 |}.
Proof.
  split; [right; reflexivity|]. split; [repeat constructor; vm_compute; reflexivity|].
  repeat split; vm_compute; reflexivity.
Qed.

(* a rewritten history (finding 1's witness): the closed form of the recomputed counters *)
Definition c05_ex_rewrite : list op :=
  [Put 1 1 10%Z; Put 1 2 20%Z; Put 2 3 30%Z; Del 2 4; Put 2 5 40%Z].
Lemma c05_example_rewrite_holds :
  forallb (op_in_range 4) c05_ex_rewrite = true /\ disciplined c05_ex_rewrite = true /\
  trig_empty_put c05_ex_rewrite = false /\ trig_rewrite c05_ex_rewrite = true /\
  ref_metric c05_ex_rewrite = {| m_del := 2; m_file := 4; m_delb := 40; m_fileb := 100; m_max := 2 |} /\
  reload_metric c05_ex_rewrite (ref_metric c05_ex_rewrite) =
    {| m_del := 3; m_file := 2; m_delb := 40; m_fileb := 100; m_max := 2 |} /\
  fill_ok 100000 0 2 100000 = true.
Proof. repeat split; vm_compute; reflexivity. Qed.
