(* Proofs about model/Seq.v (C13).  One scheme for the four sequencers: an invariant Inv state past
   and a relation R such that each step keeps Inv and puts its event in relation R with every
   earlier one (Section GenericRun); R implies the property.  Instances: mem_inv / mem_rel,
   etcd_inv / mev_ok (etcd), SFinv / sf_rel, Vinv / vol_ok.  Refutations are closed runs decided by
   vm_compute through trace_okb_spec. *)
From Coq Require Import List NArith ZArith Bool Arith Lia Sorted.
From Coq Require Import ZifyBool ZifyN ZifyNat.
From SW Require Import proof.ListFacts model.Seq.
Import ListNotations.
Local Open Scope N_scope.

Lemma ev_okb_spec : forall e1 e2, ev_okb e1 e2 = true <-> ev_ok e1 e2.
Proof.
  intros [m1 s1 c1|m1 k1] [m2 s2 c2|m2 k2]; unfold ev_okb, ev_ok, in_range; try tauto.
  - split; [intros H x; lia|]. intros H.
    destruct ((c1 =? 0) || (c2 =? 0) || (s1 + c1 <=? s2) || (s2 + c2 <=? s1)) eqn:E; [reflexivity|].
    exfalso. apply (H (N.max s1 s2)). lia.
  - split; [intros H Hm x Hx; lia|]. intros H.
    destruct (negb (Nat.eqb m1 m2) || (c2 =? 0) || (k1 <? s2)) eqn:E; [reflexivity|].
    exfalso. specialize (H ltac:(lia) s2). lia.
Qed.

Lemma fop_okb_spec : forall {E} (okb : E -> E -> bool) (ok : E -> E -> Prop) (tokb : list E -> bool),
  (forall e1 e2, okb e1 e2 = true <-> ok e1 e2) -> tokb [] = true ->
  (forall e tr, tokb (e :: tr) = forallb (okb e) tr && tokb tr) ->
  forall tr, tokb tr = true <-> ForallOrdPairs ok tr.
Proof.
  intros E okb ok tokb Hspec Hnil Hcons. induction tr as [|e tr IH].
  - split; [constructor|intros _; exact Hnil].
  - rewrite Hcons, andb_true_iff, forallb_forall, IH. split.
    + intros [H1 H2]. constructor; [|exact H2].
      apply Forall_forall. intros x Hx. apply Hspec. auto.
    + intros H. inversion H as [|? ? Hf Hp]; subst. split; [|exact Hp].
      intros x Hx. apply Hspec. rewrite Forall_forall in Hf. auto.
Qed.

Lemma trace_okb_spec : forall tr, trace_okb tr = true <-> ForallOrdPairs ev_ok tr.
Proof. exact (fop_okb_spec ev_okb ev_ok trace_okb ev_okb_spec eq_refl (fun _ _ => eq_refl)). Qed.

Lemma not_fop_of_okb : forall tr, trace_okb tr = false -> ~ ForallOrdPairs ev_ok tr.
Proof. intros tr H Hf. apply trace_okb_spec in Hf. congruence. Qed.

Lemma chain_okb_sound : forall tr hi, chain_okb hi tr = true ->
  trace_okb tr = true /\ forall e, In e tr -> match e with Ret _ s _ => hi <= s | Max _ _ => False end.
Proof.
  induction tr as [|e tr IH]; intros hi H; simpl in *.
  - split; [reflexivity|intros e []].
  - destruct e as [m s c|m k]; [|discriminate].
    apply andb_true_iff in H. destruct H as [H1 H2].
    destruct (IH _ H2) as [I1 I2]. split.
    + rewrite I1, andb_true_r. apply forallb_forall. intros x Hx. specialize (I2 x Hx).
      destruct x as [m' s' c'|]; [|destruct I2]. simpl. lia.
    + intros e [He|He]; [subst; lia|]. specialize (I2 e He). destruct e; auto. lia.
Qed.

Lemma trace_okb_fast_eq : forall tr, trace_okb_fast tr = trace_okb tr.
Proof.
  intros tr. unfold trace_okb_fast. destruct (chain_okb 0 tr) eqn:E; [|reflexivity].
  destruct (chain_okb_sound _ _ E) as [H _]. rewrite H. reflexivity.
Qed.

Lemma fop_map_in : forall {A B} (R : A -> A -> Prop) (R' : B -> B -> Prop) (f : A -> B) (l : list A),
  ForallOrdPairs R l ->
  (forall x y, In x l -> In y l -> R x y -> R' (f x) (f y)) ->
  ForallOrdPairs R' (map f l).
Proof.
  intros A B R R' f l H. induction H as [|a l Hf Hp IH]; intros Himp; simpl.
  - constructor.
  - constructor.
    + apply Forall_forall. intros y Hy. apply in_map_iff in Hy. destruct Hy as [x [Hx Hin]]. subst y.
      rewrite Forall_forall in Hf. apply Himp; simpl; auto.
    + apply IH. intros x y Hx Hy. apply Himp; simpl; auto.
Qed.

Lemma fop_impl : forall {A} (R R' : A -> A -> Prop) l, (forall x y, R x y -> R' x y) ->
  ForallOrdPairs R l -> ForallOrdPairs R' l.
Proof.
  intros A R R' l Himp H. induction H as [|a l Hf Hp IH]; constructor; auto.
  eapply Forall_impl; [|exact Hf]. intros; auto.
Qed.

Lemma nth_setnth_eq : forall {A} (l : list A) i x d, (i < length l)%nat -> nth i (setnth l i x) d = x.
Proof.
  induction l as [|y l IH]; intros i x d Hi; simpl in *; [lia|].
  destruct i; simpl; auto. apply IH. lia.
Qed.

Lemma nth_setnth_neq : forall {A} (l : list A) i j x d, i <> j -> nth j (setnth l i x) d = nth j l d.
Proof.
  induction l as [|y l IH]; intros i j x d Hij; simpl; auto.
  destruct i, j; simpl; auto; try congruence.
Qed.

Lemma length_setnth : forall {A} (l : list A) i x, length (setnth l i x) = length l.
Proof. induction l as [|y l IH]; intros i x; simpl; auto. destruct i; simpl; auto. Qed.

(* runs of a guarded step function keep an invariant that relates the state to
   the events so far, and every new event is in relation with every older one *)
Section GenericRun.
  Variables (S I E : Type) (step : S -> I -> S * option E) (g : S -> I -> bool).
  Variables (R : E -> E -> Prop) (Inv : S -> list E -> Prop).
  Hypothesis step_ok : forall s past i, Inv s past -> g s i = true ->
    match snd (step s i) with
    | Some x => Inv (fst (step s i)) (x :: past) /\ (forall old, In old past -> R old x)
    | None => Inv (fst (step s i)) past
    end.

  Lemma grun_ok : forall l s past, Inv s past -> gall step g s l = true ->
    ForallOrdPairs R (somes (snd (grun step s l))) /\
    (forall old new, In old past -> In new (somes (snd (grun step s l))) -> R old new).
  Proof.
    induction l as [|i l IH]; intros s past Hinv Hg; simpl in *.
    - split; [constructor|intros ? ? ? []].
    - apply andb_true_iff in Hg. destruct Hg as [Hg1 Hg2].
      pose proof (step_ok s past i Hinv Hg1) as Hs.
      destruct (step s i) as [s' e] eqn:Est. simpl in Hs, Hg2.
      destruct e as [x|].
      + destruct Hs as [Hinv' Hold]. specialize (IH s' (x :: past) Hinv' Hg2).
        destruct (grun step s' l) as [sf tr]. simpl in *. destruct IH as [Hfop Hcross].
        split.
        * constructor; auto. apply Forall_forall. intros y Hy. apply Hcross; auto.
        * intros old new Ho [Hn|Hn]; [subst; auto|]. apply Hcross; auto.
      + specialize (IH s' past Hs Hg2). destruct (grun step s' l) as [sf tr]. exact IH.
  Qed.

  Lemma grun_fop : forall l s, Inv s [] -> gall step g s l = true ->
    ForallOrdPairs R (somes (snd (grun step s l))).
  Proof. intros l s Hinv Hg. apply (grun_ok l s [] Hinv Hg). Qed.
End GenericRun.

Lemma gall_and : forall {S I E} (step : S -> I -> S * option E) g1 g2 l s,
  gall step (fun s i => g1 s i && g2 s i) s l = gall step g1 s l && gall step g2 s l.
Proof.
  induction l as [|i l IH]; intros s; simpl; auto.
  rewrite IH. destruct (g1 s i), (g2 s i), (gall step g1 (fst (step s i)) l); simpl; auto.
Qed.

Lemma gall_true : forall {S I E} (step : S -> I -> S * option E) l s, gall step (fun _ _ => true) s l = true.
Proof. induction l; intros; simpl; auto. Qed.

(* firstn (gfit_len ..) is the longest prefix whose guards all hold *)
Lemma gall_fit_len : forall {St I E} (step : St -> I -> St * option E) g l s,
  gall step g s (firstn (gfit_len step g s l) l) = true.
Proof.
  induction l as [|i l IH]; intros s; simpl; [reflexivity|].
  destruct (g s i) eqn:Eg; simpl; [|reflexivity]. rewrite Eg. simpl. apply IH.
Qed.

Lemma grun_firstn : forall {St I E} (step : St -> I -> St * option E) k l s,
  snd (grun step s (firstn k l)) = firstn k (snd (grun step s l)).
Proof.
  induction k as [|k IH]; intros l s; simpl.
  - destruct l; reflexivity.
  - destruct l as [|i l]; simpl; [reflexivity|].
    destruct (step s i) as [s' e]. specialize (IH l s').
    destruct (grun step s' (firstn k l)) as [sf tr]. destruct (grun step s' l) as [sf' tr']. simpl in *.
    f_equal. exact IH.
Qed.

Lemma gfit_len_all : forall {St I E} (step : St -> I -> St * option E) g l s,
  gall step g s l = true -> gfit_len step g s l = length l.
Proof.
  induction l as [|i l IH]; intros s H; simpl in *; [reflexivity|].
  apply andb_true_iff in H. destruct H as [H1 H2]. rewrite H1. f_equal. apply IH. exact H2.
Qed.

Lemma grun_app : forall {S I E} (step : S -> I -> S * option E) l1 l2 s,
  grun step s (l1 ++ l2) =
  (fst (grun step (fst (grun step s l1)) l2), snd (grun step s l1) ++ snd (grun step (fst (grun step s l1)) l2)).
Proof.
  induction l1 as [|i l1 IH]; intros l2 s; simpl.
  - destruct (grun step s l2); reflexivity.
  - destruct (step s i) as [s' e]. rewrite IH.
    destruct (grun step s' l1) as [s1 o1]. simpl.
    destruct (grun step s1 l2) as [s2 o2]. reflexivity.
Qed.

(* the values [val] picks from a trace whose ordered pairs are related by R are sorted, when
   R says that an earlier picked value is below a later one *)
Definition picks {E} (val : E -> option N) (tr : list E) : list N :=
  flat_map (fun e => match val e with Some v => [v] | None => [] end) tr.

Lemma picks_sorted : forall {E} (R : E -> E -> Prop) (val : E -> option N),
  (forall a b x y, val a = Some x -> val b = Some y -> R a b -> x < y) ->
  forall tr, ForallOrdPairs R tr -> StronglySorted N.lt (picks val tr).
Proof.
  intros E R val HR tr H. induction H as [|a tr Hf Hp IH]; [constructor|].
  unfold picks in *. cbn [flat_map]. destruct (val a) as [x|] eqn:Ea; [|exact IH].
  constructor; [exact IH|]. apply Forall_forall. intros y Hy. apply in_flat_map in Hy.
  destruct Hy as [b [Hb Hy]]. rewrite Forall_forall in Hf.
  destruct (val b) as [y'|] eqn:Eb; [|destruct Hy]. destruct Hy as [<-|[]]. eauto.
Qed.

Lemma sorted_nodup : forall l, StronglySorted N.lt l -> NoDup l.
Proof.
  induction 1 as [|a l Hs IH Hf]; constructor; auto.
  intro Hin. rewrite Forall_forall in Hf. specialize (Hf a Hin). lia.
Qed.

(* every range handed out ends at or below the counter, every SetMax argument is below it *)
Definition mem_inv (c : N) (past : list ev) : Prop :=
  forall e, In e past -> match e with Ret _ s n => s + n <= c | Max _ k => k < c end.

(* what the single counter gives, whoever the actor: ranges in order, every range above every earlier SetMax *)
Definition mem_rel (e1 e2 : ev) : Prop :=
  match e1, e2 with
  | Ret _ s1 c1, Ret _ s2 _ => s1 + c1 <= s2
  | Max _ k, Ret _ s _ => k < s
  | _, _ => True
  end.

Lemma mem_rel_ok : forall e1 e2, mem_rel e1 e2 -> ev_ok e1 e2.
Proof. intros [? ? ?|? ?] [? ? ?|? ?] H; simpl in *; auto; unfold in_range; intros; lia. Qed.

Lemma mem_step_ok : forall c past o, mem_inv c past -> mem_guard c o = true ->
  match snd (mem_step c o) with
  | Some x => mem_inv (fst (mem_step c o)) (x :: past) /\ (forall old, In old past -> mem_rel old x)
  | None => mem_inv (fst (mem_step c o)) past
  end.
Proof.
  intros c past o Hinv Hg. unfold mem_inv in *.
  destruct o as [count|k]; simpl in *; unfold w64.
  - assert (Hlt : c + count < two64) by lia.
    rewrite (N.mod_small _ _ Hlt). split.
    + intros e [He|He]; [subst; lia|]. specialize (Hinv e He). destruct e; lia.
    + intros old Ho. specialize (Hinv old Ho). destruct old; simpl; lia.
  - split; [|intros old _; destruct old; exact I].
    destruct (c <=? k) eqn:Ec.
    + assert (Hlt : k + 1 < two64) by lia. rewrite (N.mod_small _ _ Hlt).
      intros e [He|He]; [subst; lia|]. specialize (Hinv e He). destruct e; lia.
    + intros e [He|He]; [subst; lia|]. apply Hinv; auto.
Qed.

Lemma mem_rel_run : forall ops, mem_fits mem_init ops = true ->
  ForallOrdPairs mem_rel (somes (snd (mem_run mem_init ops))).
Proof.
  intros ops Hf. apply (grun_fop _ _ _ mem_step mem_guard mem_rel mem_inv mem_step_ok); [intros e []|exact Hf].
Qed.

Theorem mem_ok : forall ops, mem_fits mem_init ops = true ->
  ForallOrdPairs ev_ok (somes (snd (mem_run mem_init ops))).
Proof. intros ops Hf. exact (fop_impl _ _ _ mem_rel_ok (mem_rel_run ops Hf)). Qed.

(* ev_ok restricted to Ret / Ret pairs, for events of two different sequencers (a Max of one
   says nothing about the other) *)
Definition ranges_ok (e1 e2 : ev) : Prop :=
  match e1, e2 with
  | Ret _ s1 c1, Ret _ s2 c2 => forall x, ~ (in_range x s1 c1 /\ in_range x s2 c2)
  | _, _ => True
  end.

(* leader change, per pair: a range of the old leader that lies at or below the
   key k reported by the first heartbeat is never met again by the new leader,
   whose every range lies above its own first event Max 0 k *)
Theorem mem_failover_pair : forall ops1 ops2 k,
  mem_fits mem_init ops1 = true ->
  mem_fits mem_init (MSetMax k :: ops2) = true ->
  forall e1 e2, In e1 (somes (snd (mem_run mem_init ops1))) ->
                In e2 (somes (snd (mem_run mem_init (MSetMax k :: ops2)))) ->
                fo_unwritten k e1 = false -> ranges_ok e1 e2.
Proof.
  intros ops1 ops2 k Hf1 Hf2 e1 e2 H1 H2 Hw.
  destruct e1 as [m1 s1 c1|]; [|exact I]. destruct e2 as [m2 s2 c2|]; [|exact I].
  pose proof (mem_rel_run _ Hf2) as Hmax. unfold mem_run in *. simpl in Hmax, H2.
  destruct (grun mem_step (if mem_init <=? k then w64 (k + 1) else mem_init) ops2) as [cf tr].
  simpl in Hmax, H2. destruct H2 as [H2|H2]; [discriminate|].
  inversion Hmax as [|? ? Hfa _]; subst. rewrite Forall_forall in Hfa.
  specialize (Hfa _ H2). simpl in Hfa. unfold fo_unwritten, ev_hi in Hw.
  intros x [Hx1 Hx2]. unfold in_range in *. destruct (c1 =? 0) eqn:Ec; lia.
Qed.

(* corollary: when k is not below any key handed out before, every pair *)
Theorem mem_failover_ok : forall ops1 ops2 k,
  mem_fits mem_init ops1 = true ->
  mem_fits mem_init (MSetMax k :: ops2) = true ->
  (forall m s c x, In (Ret m s c) (somes (snd (mem_run mem_init ops1))) -> in_range x s c -> x <= k) ->
  forall e1 e2, In e1 (somes (snd (mem_run mem_init ops1))) ->
                In e2 (somes (snd (mem_run mem_init (MSetMax k :: ops2)))) -> ranges_ok e1 e2.
Proof.
  intros ops1 ops2 k Hf1 Hf2 Hk e1 e2 H1 H2. apply (mem_failover_pair ops1 ops2 k); auto.
  unfold fo_unwritten. destruct e1 as [m s c|]; cbn [ev_hi]; [|lia].
  destruct (c =? 0) eqn:Ec; [lia|].
  specialize (Hk m s c (s + c - 1) H1). unfold in_range in Hk. lia.
Qed.

(* memory: the run up to the first wrapping addition satisfies the property *)
Theorem mem_prefix_ok : forall ops,
  ForallOrdPairs ev_ok (somes (snd (mem_run mem_init (firstn (mem_fit_len mem_init ops) ops)))) /\
  snd (mem_run mem_init (firstn (mem_fit_len mem_init ops) ops)) = firstn (mem_fit_len mem_init ops) (snd (mem_run mem_init ops)) /\
  (mem_fits mem_init ops = true -> mem_fit_len mem_init ops = length ops).
Proof.
  intros ops. split; [|split].
  - apply mem_ok. unfold mem_fits, mem_fit_len. apply gall_fit_len.
  - unfold mem_run. apply grun_firstn.
  - unfold mem_fits, mem_fit_len. apply gfit_len_all.
Qed.

(* finding 3, memory form: NextFileId(2^64-1) wraps the counter from 1 to 0; the ranges are
   [1, 2^64), [0, 1), [1, 3): keys 1 and 2 are handed out again *)
Lemma mem_nofit_refuted :
  exists ops, ~ ForallOrdPairs ev_ok (somes (snd (mem_run mem_init ops))).
Proof.
  exists [MNext 18446744073709551615; MNext 1; MNext 2].
  apply not_fop_of_okb. vm_compute. reflexivity.
Qed.

(* finding 4: the heartbeat reports the largest key WRITTEN (here 2, a key the
   old leader handed out), not the largest key handed out (5) *)
Lemma mem_failover_written_refuted :
  exists ops1 ops2 k m s c,
    mem_fits mem_init ops1 = true /\ mem_fits mem_init (MSetMax k :: ops2) = true /\
    In (Ret m s c) (somes (snd (mem_run mem_init ops1))) /\ in_range k s c /\
    exists e1 e2, In e1 (somes (snd (mem_run mem_init ops1))) /\
                  In e2 (somes (snd (mem_run mem_init (MSetMax k :: ops2)))) /\ ~ ranges_ok e1 e2.
Proof.
  exists [MNext 5], [MNext 1], 2, 0%nat, 1, 5.
  split; [vm_compute; reflexivity|]. split; [vm_compute; reflexivity|].
  split; [vm_compute; auto|]. split; [unfold in_range; lia|].
  exists (Ret 0 1 5), (Ret 0 3 1). split; [vm_compute; auto|]. split; [vm_compute; auto|].
  intro H. apply (H 3). unfold in_range. lia.
Qed.

Example mem_example :
  let ops := [MNext 3; MSetMax 10; MNext 2; MSetMax 5; MNext 1] in
  mem_fits mem_init ops = true /\
  somes (snd (mem_run mem_init ops)) = [Ret 0 1 3; Max 0 10; Ret 0 11 2; Max 0 5; Ret 0 13 1].
Proof. split; vm_compute; reflexivity. Qed.

(* mguard puts every sum of a step below 2^64, where w64 is the identity (used in mstep_facts) *)
Lemma w64_small : forall x, x < two64 -> w64 x = x.
Proof. intros x H. unfold w64. apply N.mod_small. exact H. Qed.

Lemma reqsteps_ge : forall count, etcd_steps + count < two64 -> count <= reqsteps count.
Proof.
  intros count H. unfold reqsteps. destruct (etcd_steps <? count) eqn:E; [rewrite w64_small by exact H|];
    unfold etcd_steps in *; lia.
Qed.

Lemma sub_back : forall prev steps, prev + steps < two64 -> w64 (w64 (prev + steps) + two64 - steps) = prev.
Proof.
  intros prev steps H. rewrite (w64_small _ H).
  replace (prev + steps + two64 - steps) with (prev + 1 * two64) by lia.
  unfold w64. rewrite N.mod_add by (unfold two64; lia). apply N.mod_small. lia.
Qed.

(* value of the shared counter (0 while the key does not exist) *)
Definition store_val (st : option N) : N := match st with Some v => v | None => 0 end.

(* a master's range [cur, mx) lies below the store; a pending Set(k, PrevValue = prev) raises the value *)
Definition master_inv (st : option N) (m : mst) : Prop :=
  cur m <= mx m /\ mx m <= store_val st /\ match p m with MaxSet _ k prev => prev < k | _ => True end.

(* what one step of master i does to the store, to the master and to the trace: both
   counters only grow; a master's range [cur, mx) is either kept or replaced by one that
   starts at or above the old value of the store *)
Definition mfacts (i : nat) (st : option N) (m : mst) (st' : option N) (m' : mst) (e : option mev) : Prop :=
  store_val st <= store_val st' /\ cur m <= cur m' /\ master_inv st' m' /\ (mx m' = mx m \/ store_val st <= cur m') /\
  match e with
  | Some (MRet j s c) => j = i /\ cur m <= s /\ s + c = cur m' /\ (mx m' = mx m \/ store_val st <= s)
  | Some (MMax j k true) => j = i /\ k < cur m'
  | Some (MMax j k false) => j = i
  | Some (MRetErr j c) => j = i
  | None => True
  end.

Lemma hit_true : forall st prev, hit st prev = true -> st = Some prev.
Proof. intros [v|] prev H; simpl in H; [|discriminate]. f_equal. lia. Qed.

Ltac inv_step H := inversion H; subst; clear H.

Lemma mstep_facts : forall i st m a st' m' e,
  master_inv st m -> mguard m a = true -> mstep i st m a = (st', m', e) -> mfacts i st m st' m' e.
Proof.
  intros i st m a st' m' e [HL1 [HL2 HL3]] Hg Hs. unfold mfacts, master_inv.
  destruct a as [count|k| |f]; unfold mstep in Hs; unfold mguard in Hg.
  - destruct (p m) eqn:Ep; try (inv_step Hs; rewrite ?Ep; repeat split; auto; lia).
    rewrite (w64_small (cur m + count)) in Hs by lia.
    destruct (cur m + count <? mx m) eqn:Ec; [|destruct (reqsteps count =? 0)];
      inv_step Hs; simpl; rewrite ?Ep; repeat split; auto; lia.
  - destruct (p m) eqn:Ep; try (inv_step Hs; rewrite ?Ep; repeat split; auto; lia).
    destruct (mx m <? k) eqn:Ec; inv_step Hs; simpl; rewrite ?Ep; repeat split; auto; try lia.
    destruct (k <? cur m') eqn:Ek; [split; [reflexivity|lia]|reflexivity].
  - inv_step Hs. simpl. repeat split; auto; lia.
  - destruct (p m) as [| |count|count prev|w k|w k|w k prev] eqn:Ep.
    1, 2: inv_step Hs; rewrite Ep; repeat split; auto; lia.
    + (* NextGet: neither store nor range changes *)
      destruct f; destruct st as [v|]; inv_step Hs; simpl; repeat split; auto; lia.
    + (* NextSet: the arithmetic is exact; on a hit the store goes from prev to prev + steps and
         the new range is [prev, prev + steps) *)
      apply andb_true_iff in Hg. destruct Hg as [G1 G2]. apply N.ltb_lt in G1, G2.
      pose proof (reqsteps_ge count G1) as Hrq. cbv zeta in Hs.
      rewrite sub_back, !(w64_small (prev + _)) in Hs by lia.
      destruct f; [destruct (hit st prev) eqn:Eh| |destruct (hit st prev) eqn:Eh];
        try (apply hit_true in Eh; subst st); inv_step Hs; cbn [store_val cur mx file p set_pc] in *; repeat split; auto; lia.
    + (* MaxGet: Get answers a value, finds no key, or fails *)
      destruct f; [destruct st as [v|]| |]; cbn [store_val cur mx file p set_pc] in *.
      * destruct (k <=? v) eqn:Ek.
        -- destruct w; simpl in Hs; inv_step Hs; simpl; repeat split; auto; try lia.
           destruct (k <? v) eqn:Ekv; [split; [reflexivity|lia]|reflexivity].
        -- inv_step Hs. simpl. repeat split; auto; lia.
      * inv_step Hs. simpl. repeat split; auto; lia.
      * destruct st, w; simpl in Hs; inv_step Hs; simpl; repeat split; auto; lia.
      * destruct st, w; simpl in Hs; inv_step Hs; simpl; repeat split; auto; lia.
    + (* MaxCreate: the store may get k, the range does not change *)
      destruct f; destruct st as [v|]; destruct w; simpl in Hs; inv_step Hs; cbn [store_val cur mx file p set_pc] in *; repeat split; auto; lia.
    + (* MaxSet: on a hit the store goes from prev to k > prev; the range stays until the next
         MaxGet returns k *)
      destruct f; [destruct (hit st prev) eqn:Eh| |destruct (hit st prev) eqn:Eh];
        try (apply hit_true in Eh; subst st); destruct w; simpl in Hs; inv_step Hs; cbn [store_val cur mx file p set_pc] in *;
        repeat split; auto; lia.
Qed.

Definition getm (s : est) (j : nat) : mst := nth j (masters s) mst0.

(* the masters' ranges [cur, mx) are pairwise disjoint and lie below the store; every range
   handed out lies below the store and outside every master's remaining range *)
Record etcd_inv (s : est) (past : list mev) : Prop := {
  g_loc : forall j, master_inv (store s) (getm s j);
  g_win : forall j j', j <> j' -> mx (getm s j) <= cur (getm s j') \/ mx (getm s j') <= cur (getm s j);
  g_ret : forall i s0 c, In (MRet i s0 c) past ->
            s0 + c <= store_val (store s) /\ forall j, s0 + c <= cur (getm s j) \/ mx (getm s j) <= s0;
  g_max : forall i k, In (MMax i k true) past -> k < cur (getm s i) }.

Definition mev_ok (e1 e2 : mev) : Prop :=
  match e1, e2 with
  | MRet _ s1 c1, MRet _ s2 c2 => forall x, ~ (in_range x s1 c1 /\ in_range x s2 c2)
  | MMax m k true, MRet m' s c => m = m' -> forall x, in_range x s c -> k < x
  | _, _ => True
  end.

Lemma master_inv_mono : forall st st' m, store_val st <= store_val st' -> master_inv st m -> master_inv st' m.
Proof. intros st st' m H [H1 [H2 H3]]. repeat split; auto. lia. Qed.

Lemma estep_ok : forall s past ia, etcd_inv s past -> eguard s ia = true ->
  match snd (estep s ia) with
  | Some x => etcd_inv (fst (estep s ia)) (x :: past) /\ (forall old, In old past -> mev_ok old x)
  | None => etcd_inv (fst (estep s ia)) past
  end.
Proof.
  intros s past [i a] HG Hg. unfold estep.
  destruct (Nat.ltb i (length (masters s))) eqn:Ei; [|simpl; exact HG].
  apply Nat.ltb_lt in Ei.
  destruct (mstep i (store s) (nth i (masters s) mst0) a) as [[st' m'] e] eqn:Es.
  pose proof (mstep_facts _ _ _ _ _ _ _ (g_loc _ _ HG i) Hg Es) as [F1 [F2 [F3 [F4 F5]]]].
  fold (getm s i) in *. simpl.
  set (s' := {| store := st'; masters := setnth (masters s) i m' |}).
  assert (Hgi : getm s' i = m') by (unfold getm, s'; simpl; apply nth_setnth_eq; auto).
  assert (Hgj : forall j, j <> i -> getm s' j = getm s j)
    by (intros j Hj; unfold getm, s'; simpl; apply nth_setnth_neq; auto).
  assert (Hst : store s' = st') by reflexivity.
  (* only master i changed: by F4 its range is unchanged or starts at the old store value, and
     every other range and every range handed out lies below the store *)
  assert (Hloc : forall j, master_inv (store s') (getm s' j)).
  { intros j. destruct (Nat.eq_dec j i) as [->|Hj]; [rewrite Hgi; auto|].
    rewrite Hgj by auto. eapply master_inv_mono; [|apply (g_loc _ _ HG)]. simpl. auto. }
  assert (Hwin : forall j j', j <> j' -> mx (getm s' j) <= cur (getm s' j') \/ mx (getm s' j') <= cur (getm s' j)).
  { intros j j' Hjj.
    destruct (Nat.eq_dec j i) as [->|Hj]; destruct (Nat.eq_dec j' i) as [->|Hj']; try congruence.
    - rewrite Hgi, (Hgj j') by auto.
      pose proof (g_win _ _ HG i j' Hjj) as Hw. pose proof (g_loc _ _ HG j') as [_ [Hm _]].
      destruct F4 as [F4|F4]; [rewrite F4; lia|lia].
    - rewrite Hgi, (Hgj j) by auto.
      pose proof (g_win _ _ HG j i Hjj) as Hw. pose proof (g_loc _ _ HG j) as [_ [Hm _]].
      destruct F4 as [F4|F4]; [rewrite F4; lia|lia].
    - rewrite !Hgj by auto. apply (g_win _ _ HG); auto. }
  assert (Hret : forall i0 s0 c, In (MRet i0 s0 c) past ->
            s0 + c <= store_val (store s') /\ forall j, s0 + c <= cur (getm s' j) \/ mx (getm s' j) <= s0).
  { intros i0 s0 c Hin. destruct (g_ret _ _ HG _ _ _ Hin) as [R1 R2]. split; [simpl; lia|].
    intros j. destruct (Nat.eq_dec j i) as [->|Hj].
    - rewrite Hgi. specialize (R2 i). destruct F4 as [F4|F4]; [rewrite F4; lia|lia].
    - rewrite Hgj by auto. apply R2. }
  assert (Hmax : forall i0 k, In (MMax i0 k true) past -> k < cur (getm s' i0)).
  { intros i0 k Hin. pose proof (g_max _ _ HG _ _ Hin) as Hk.
    destruct (Nat.eq_dec i0 i) as [->|Hj]; [rewrite Hgi; lia|rewrite Hgj by auto; auto]. }
  destruct e as [x|]; [|constructor; auto].
  split.
  - constructor; auto.
    + intros i0 s0 c [Hin|Hin]; [|apply (Hret _ _ _ Hin)]. subst x.
      destruct F5 as [-> [G1 [G2 G3]]]. destruct F3 as [L1 [L2 _]]. split; [simpl; lia|].
      intros j. destruct (Nat.eq_dec j i) as [->|Hj]; [rewrite Hgi; lia|].
      rewrite Hgj by auto.
      pose proof (g_win _ _ HG i j (not_eq_sym Hj)) as Hw. pose proof (g_loc _ _ HG j) as [_ [Hm _]].
      destruct G3 as [G3|G3]; [rewrite G3 in L2; lia|lia].
    + intros i0 k [Hin|Hin]; [|apply Hmax; auto]. subst x.
      destruct F5 as [-> G1]. rewrite Hgi. auto.
  - intros old Hold. destruct x as [j s0 c|j c|j k b]; try (destruct old as [? ? ?|? ?|? ? []]; exact I).
    destruct F5 as [-> [G1 [G2 G3]]]. destruct F3 as [L1 [L2 _]].
    destruct old as [i0 s1 c1|i0 c1|i0 k b]; simpl; auto.
    + destruct (g_ret _ _ HG _ _ _ Hold) as [R1 R2]. specialize (R2 i). unfold in_range. intros x.
      destruct G3 as [G3|G3]; [rewrite G3 in L2; lia|lia].
    + destruct b; auto. intros <- x Hx. pose proof (g_max _ _ HG _ _ Hold) as Hk. unfold in_range in Hx. lia.
Qed.

Lemma etcd_inv_init : forall n, etcd_inv (einit n) [].
Proof.
  intros n.
  assert (Hg : forall j, getm (einit n) j = mst0).
  { intros j. apply nth_repeat. }
  constructor.
  - intros j. rewrite Hg. unfold master_inv, mst0. simpl. repeat split; lia.
  - intros j j' _. rewrite !Hg. simpl. lia.
  - intros ? ? ? [].
  - intros ? ? [].
Qed.

(* as long as no uint64 operation wraps: all pairs of events, tagged or not *)
Theorem etcd_all : forall n sched, etcd_fits n sched = true -> ForallOrdPairs mev_ok (etcd_trace n sched).
Proof.
  intros n sched H.
  exact (grun_fop _ _ _ estep eguard mev_ok etcd_inv estep_ok sched (einit n) (etcd_inv_init n) H).
Qed.

Theorem etcd_ranges_ok : forall n sched, etcd_fits n sched = true ->
  etcd_err_trigger (etcd_trace n sched) = false ->
  ForallOrdPairs ranges_ok (map vis (etcd_trace n sched)).
Proof.
  intros n sched H Ht. eapply fop_map_in; [apply etcd_all, H|].
  intros x y Hx Hy Hxy. pose proof (existsb_false_in _ _ _ Ht Hx). pose proof (existsb_false_in _ _ _ Ht Hy).
  destruct x as [? ? ?|? ?|? ? ?], y as [? ? ?|? ?|? ? ?]; simpl in *; try discriminate; auto.
Qed.

Theorem etcd_partial_ok : forall n sched, etcd_fits n sched = true ->
  etcd_err_trigger (etcd_trace n sched) = false ->
  etcd_setmax_trigger (etcd_trace n sched) = false ->
  ForallOrdPairs ev_ok (map vis (etcd_trace n sched)).
Proof.
  intros n sched H Ht Hu. eapply fop_map_in; [apply etcd_all, H|].
  intros x y Hx Hy Hxy. pose proof (existsb_false_in _ _ _ Ht Hx). pose proof (existsb_false_in _ _ _ Ht Hy).
  pose proof (existsb_false_in _ _ _ Hu Hx). pose proof (existsb_false_in _ _ _ Hu Hy).
  destruct x as [? ? ?|? ?|? ? []], y as [? ? ?|? ?|? ? []]; simpl in *; try discriminate; auto.
Qed.

(* per pair, no whole-trace hypothesis: two events that carry neither tag
   (NextFileId returned 0 after an etcd error; SetMax that did not move the
   sequence past k) satisfy the property *)
Definition pair_ok (e1 e2 : mev) : Prop :=
  untagged e1 = true -> untagged e2 = true -> ev_ok (vis e1) (vis e2).

Lemma mev_ok_pair : forall e1 e2, mev_ok e1 e2 -> pair_ok e1 e2.
Proof.
  intros e1 e2 H U1 U2. unfold untagged in *.
  destruct e1 as [? ? ?|? ?|? ? []], e2 as [? ? ?|? ?|? ? []]; simpl in *; try discriminate; auto.
Qed.

Theorem etcd_pairs_ok : forall n sched, etcd_fits n sched = true -> ForallOrdPairs pair_ok (etcd_trace n sched).
Proof. intros n sched H. eapply fop_impl; [apply mev_ok_pair|]. apply etcd_all; auto. Qed.

(* per step, no hypothesis at all: the run up to the first step at which a
   uint64 operation wraps satisfies the per-pair property; its trace is a
   prefix of the whole run's outputs *)
Theorem etcd_prefix_ok : forall n sched,
  ForallOrdPairs pair_ok (etcd_trace n (firstn (etcd_fit_len n sched) sched)) /\
  snd (erun (einit n) (firstn (etcd_fit_len n sched) sched)) = firstn (etcd_fit_len n sched) (snd (erun (einit n) sched)) /\
  (etcd_fits n sched = true -> etcd_fit_len n sched = length sched).
Proof.
  intros n sched. split; [|split].
  - apply etcd_pairs_ok. unfold etcd_fits, etcd_fit_len. apply gall_fit_len.
  - unfold erun. apply grun_firstn.
  - unfold etcd_fits, etcd_fit_len. apply gfit_len_all.
Qed.

(* one master boots against an empty etcd: Get (not found), Create, Get *)
Definition boot (i : nat) : list (nat * act) := [(i, ABoot); (i, ATick Ok); (i, ATick Ok); (i, ATick Ok)].

(* finding 0: SetMax(k) with k > maxSeqId writes k itself to etcd and the next id is k *)
Definition wit_setmax : list (nat * act) :=
  boot 0 ++ [(0%nat, ASetMax 1000); (0%nat, ATick Ok); (0%nat, ATick Ok); (0%nat, ATick Ok);
             (0%nat, ANext 1); (0%nat, ATick Ok); (0%nat, ATick Ok)].

Lemma etcd_setmax_refuted_fit :
  exists n sched, etcd_fits n sched = true /\ etcd_err_trigger (etcd_trace n sched) = false /\
                  ~ ForallOrdPairs ev_ok (map vis (etcd_trace n sched)).
Proof.
  exists 1%nat, wit_setmax. split; [vm_compute; reflexivity|]. split; [vm_compute; reflexivity|].
  apply not_fop_of_okb. vm_compute. reflexivity.
Qed.

Lemma etcd_setmax_refuted :
  exists n sched, etcd_err_trigger (etcd_trace n sched) = false /\
                  ~ ForallOrdPairs ev_ok (map vis (etcd_trace n sched)).
Proof. destruct etcd_setmax_refuted_fit as [n [sched [_ H]]]. eauto. Qed.

(* finding 0, second form: SetMax(k) with currentSeqId <= k <= maxSeqId is ignored *)
Definition wit_setmax_ignored : list (nat * act) :=
  boot 0 ++ [(0%nat, ANext 1); (0%nat, ATick Ok); (0%nat, ATick Ok); (0%nat, ASetMax 300); (0%nat, ANext 1)].

Lemma etcd_setmax_ignored_refuted :
  etcd_err_trigger (etcd_trace 1 wit_setmax_ignored) = false /\
  map vis (etcd_trace 1 wit_setmax_ignored) = [Ret 0 1 1; Max 0 300; Ret 0 2 1] /\
  ~ ForallOrdPairs ev_ok (map vis (etcd_trace 1 wit_setmax_ignored)).
Proof.
  split; [vm_compute; reflexivity|]. split; [vm_compute; reflexivity|].
  apply not_fop_of_okb. vm_compute. reflexivity.
Qed.

(* finding 2: an etcd error makes NextFileId return 0, twice *)
Definition wit_err : list (nat * act) :=
  boot 0 ++ [(0%nat, ANext 2); (0%nat, ATick Err); (0%nat, ANext 2); (0%nat, ATick Err)].

Lemma etcd_err_refuted_fit :
  exists n sched, etcd_fits n sched = true /\ etcd_setmax_trigger (etcd_trace n sched) = false /\
                  ~ ForallOrdPairs ev_ok (map vis (etcd_trace n sched)).
Proof.
  exists 1%nat, wit_err. split; [vm_compute; reflexivity|]. split; [vm_compute; reflexivity|].
  apply not_fop_of_okb. vm_compute. reflexivity.
Qed.

Lemma etcd_err_refuted :
  exists n sched, etcd_setmax_trigger (etcd_trace n sched) = false /\
                  ~ ForallOrdPairs ev_ok (map vis (etcd_trace n sched)).
Proof. destruct etcd_err_refuted_fit as [n [sched [_ H]]]. eauto. Qed.

(* finding 3 (etcd): NextFileId(2^64-1) wraps currentSeqId + count: no batch is
   fetched, currentSeqId moves backwards and key 1 is handed out twice *)
Definition wit_wrap : list (nat * act) :=
  boot 0 ++ [(0%nat, ANext 1); (0%nat, ATick Ok); (0%nat, ATick Ok);
             (0%nat, ANext 18446744073709551615); (0%nat, ANext 1)].

Lemma etcd_wrap_refuted :
  etcd_err_trigger (etcd_trace 1 wit_wrap) = false /\
  etcd_setmax_trigger (etcd_trace 1 wit_wrap) = false /\
  map vis (etcd_trace 1 wit_wrap) = [Ret 0 1 1; Ret 0 2 18446744073709551615; Ret 0 1 1] /\
  etcd_fit_len 1 wit_wrap = 7%nat /\
  ~ ForallOrdPairs ev_ok (map vis (etcd_trace 1 wit_wrap)).
Proof.
  split; [vm_compute; reflexivity|]. split; [vm_compute; reflexivity|].
  split; [vm_compute; reflexivity|]. split; [vm_compute; reflexivity|].
  apply not_fop_of_okb. vm_compute. reflexivity.
Qed.

(* finding 3, second form: count = 2^64-500 makes reqSteps 0; NextFileId returns
   key 0 without any etcd call *)
Lemma etcd_wrap_zero_steps :
  map vis (etcd_trace 1 (boot 0 ++ [(0%nat, ANext 18446744073709551116)])) = [Ret 0 0 18446744073709551116].
Proof. vm_compute. reflexivity. Qed.

(* two masters: both boot, both fetch with an interleaved compare-and-swap
   conflict, a harmless SetMax on master 1, a master restart *)
Definition ex_etcd : list (nat * act) :=
  boot 0 ++ [(1%nat, ABoot); (1%nat, ATick Ok);
             (0%nat, ANext 2); (1%nat, ANext 3);
             (0%nat, ATick Ok); (1%nat, ATick Ok);      (* both Get 1 *)
             (1%nat, ATick Ok);                         (* master 1 wins: 1 -> 501 *)
             (0%nat, ATick Ok);                         (* master 0 loses, retries *)
             (0%nat, ATick Ok); (0%nat, ATick Ok);      (* Get 501, Set 1001 *)
             (1%nat, ASetMax 2); (1%nat, ANext 1);
             (0%nat, ABoot); (0%nat, ATick Ok); (0%nat, ANext 5); (0%nat, ATick Ok); (0%nat, ATick ErrAfter);
             (0%nat, ATick Ok); (0%nat, ATick Ok)].

Example etcd_example :
  etcd_err_trigger (etcd_trace 2 ex_etcd) = false /\
  etcd_setmax_trigger (etcd_trace 2 ex_etcd) = false /\
  map vis (etcd_trace 2 ex_etcd) = [Ret 1 1 3; Ret 0 501 2; Max 1 2; Ret 1 4 1; Ret 0 1501 5].
Proof. split; [|split]; vm_compute; reflexivity. Qed.

(* wit_setmax, wit_setmax_ignored, wit_err and the example ex_etcd fit: none owes its outcome to a wrap *)
Lemma etcd_wits_fit :
  etcd_fits 1 wit_setmax = true /\ etcd_fits 1 wit_setmax_ignored = true /\ etcd_fits 1 wit_err = true /\
  etcd_fits 2 ex_etcd = true.
Proof. repeat split; vm_compute; reflexivity. Qed.

Lemma land_shiftl_low : forall a b n, b < 2 ^ n -> N.land (N.shiftl a n) b = 0.
Proof.
  intros a b n Hb. apply N.bits_inj. intros m. rewrite N.land_spec, N.bits_0.
  destruct (N.lt_ge_cases m n) as [Hm|Hm].
  - rewrite N.shiftl_spec_low by auto. reflexivity.
  - rewrite <- (N.mod_small b (2 ^ n)) by auto. rewrite N.mod_pow2_bits_high by auto.
    apply andb_false_r.
Qed.

Lemma lor_shiftl_add : forall a b n, b < 2 ^ n -> N.lor (N.shiftl a n) b = a * 2 ^ n + b.
Proof.
  intros a b n Hb. rewrite <- N.lxor_lor by (apply land_shiftl_low; auto).
  rewrite <- N.add_nocarry_lxor by (apply land_shiftl_low; auto).
  rewrite N.shiftl_mul_pow2. reflexivity.
Qed.

Lemma sf_id_add : forall now nid step, nid < 1024 -> step < 4096 ->
  sf_id now nid step = now * 4194304 + nid * 4096 + step.
Proof.
  intros now nid step Hn Hs. unfold sf_id.
  rewrite (lor_shiftl_add nid step 12) by (change (2 ^ 12) with 4096; lia).
  rewrite (lor_shiftl_add now _ 22) by (change (2 ^ 12) with 4096; change (2 ^ 22) with 4194304; lia).
  change (2 ^ 12) with 4096. change (2 ^ 22) with 4194304. lia.
Qed.

Lemma land_4095 : forall a, N.land a 4095 = a mod 4096.
Proof. intros a. change 4095 with (N.ones 12). rewrite N.land_ones. reflexivity. Qed.

(* lia needs div and mod as equations, for this lemma only *)
Ltac Zify.zify_post_hook ::= Z.div_mod_to_equations.
Lemma sf_node_field : forall t nid s, nid < 1024 -> s < 4096 ->
  ((t * 4194304 + nid * 4096 + s) / 4096) mod 1024 = nid.
Proof. intros. lia. Qed.
Ltac Zify.zify_post_hook ::= idtac.

Lemma nodup_N_spec : forall l, nodup_N l = true -> NoDup l.
Proof.
  induction l as [|x l nodup_N_spec]; simpl; intros H; [constructor|].
  apply andb_true_iff in H. destruct H as [H1 H2]. constructor.
  - intro Hin. apply negb_true_iff in H1.
    assert (existsb (N.eqb x) l = true) by (apply existsb_exists; exists x; split; auto; apply N.eqb_refl).
    congruence.
  - apply nodup_N_spec; auto.
Qed.

(* Generate on a node whose clock does not run backwards: the id is time * 2^22 + node id *
   2^12 + step of the node's new state, and exceeds the same sum for its previous state *)
Lemma sf_generate_spec : forall nid n now spin n' id,
  nid < 1024 -> sf_step n < 4096 -> sf_time n <= now -> sf_time n < spin ->
  sf_generate nid n now spin = (n', id) ->
  sf_step n' < 4096 /\ id = sf_time n' * 4194304 + nid * 4096 + sf_step n' /\
  sf_time n * 4194304 + nid * 4096 + sf_step n < id.
Proof.
  intros nid n now spin n' id Hnid Hstep Hnow Hspin Eg.
  unfold sf_generate in Eg. rewrite land_4095 in Eg.
  destruct (now =? sf_time n) eqn:En.
  - destruct ((sf_step n + 1) mod 4096 =? 0) eqn:Ez; inversion Eg; subst; simpl.
    + rewrite sf_id_add by lia. repeat split; try lia.
    + assert (Hs : (sf_step n + 1) mod 4096 = sf_step n + 1).
      { apply N.mod_small. assert (sf_step n + 1 <> 4096); [|lia].
        intro Hx. rewrite Hx in Ez. vm_compute in Ez. discriminate. }
      rewrite Hs. rewrite sf_id_add by lia. repeat split; lia.
  - inversion Eg; subst; simpl. rewrite sf_id_add by lia. repeat split; lia.
Qed.

Definition sf_key (nids : list N) (sts : list sfnode) (j : nat) : N :=
  sf_time (nth j sts sfnode0) * 4194304 + nth j nids 0 * 4096 + sf_step (nth j sts sfnode0).

Record SFinv (nids : list N) (sts : list sfnode) (past : list ev) : Prop := {
  sfi_len : length sts = length nids;
  sfi_step : forall j, sf_step (nth j sts sfnode0) < 4096;
  sfi_past : forall e, In e past ->
     match e with
     | Ret j id c => (j < length nids)%nat /\ c <= 1 /\ (id / 4096) mod 1024 = nth j nids 0 /\ id <= sf_key nids sts j
     | Max _ _ => False
     end }.

Definition sf_guard1 (sts : list sfnode) (c : sfcall) : bool := sf_guard sts c && (sc_count c <=? 1).

(* two ids of existing nodes satisfy the property if they are of the same node, or of two
   nodes with different 10-bit node ids *)
Definition sf_rel (nids : list N) (e1 e2 : ev) : Prop :=
  match e1, e2 with
  | Ret j _ _, Ret i _ _ =>
      (j < length nids)%nat /\ (i < length nids)%nat /\
      ((j = i \/ nth j nids 0 <> nth i nids 0) -> ev_ok e1 e2)
  | _, _ => False   (* the snowflake sequencer has no SetMax *)
  end.

Lemma sf_step_ok : forall nids, forallb (fun x => x <? 1024) nids = true ->
  forall sts past c, SFinv nids sts past -> sf_guard1 sts c = true ->
  match snd (sf_step1 nids sts c) with
  | Some x => SFinv nids (fst (sf_step1 nids sts c)) (x :: past) /\ (forall old, In old past -> sf_rel nids old x)
  | None => SFinv nids (fst (sf_step1 nids sts c)) past
  end.
Proof.
  intros nids Hlt sts past c HI Hg. rewrite forallb_forall in Hlt.
  assert (Hnid : forall j, nth j nids 0 < 1024).
  { intros j. destruct (Nat.ltb j (length nids)) eqn:E.
    - apply Nat.ltb_lt in E. specialize (Hlt (nth j nids 0) (nth_In _ _ E)). lia.
    - apply Nat.ltb_ge in E. rewrite nth_overflow by auto. lia. }
  unfold sf_step1. destruct (Nat.ltb (sc_node c) (length sts)) eqn:Ei; [|simpl; exact HI].
  apply Nat.ltb_lt in Ei. set (i := sc_node c) in *.
  unfold sf_guard1, sf_guard in Hg. fold i in Hg.
  set (n := nth i sts sfnode0) in *. set (nid := nth i nids 0).
  pose proof (sfi_step _ _ _ HI i) as Hstep. fold n in Hstep.
  pose proof (Hnid i) as Hnidi. fold nid in Hnidi.
  destruct (sf_generate nid n (sc_now c) (sc_spin c)) as [n' id] eqn:Eg. simpl.
  destruct (sf_generate_spec nid n (sc_now c) (sc_spin c) _ _ Hnidi Hstep ltac:(lia) ltac:(lia) Eg) as [Hs' [Hid Hgt]].
  pose proof (sfi_len _ _ _ HI) as Hlen.
  assert (Hkey_i : sf_key nids (setnth sts i n') i = id).
  { unfold sf_key. rewrite nth_setnth_eq by auto. fold nid. lia. }
  assert (Hkey_j : forall j, j <> i -> sf_key nids (setnth sts i n') j = sf_key nids sts j).
  { intros j Hj. unfold sf_key. rewrite nth_setnth_neq by auto. reflexivity. }
  assert (Hkey_old : sf_key nids sts i < id) by (unfold sf_key; fold n nid; lia).
  assert (Hfield : (id / 4096) mod 1024 = nid).
  { rewrite Hid. apply sf_node_field; auto. }
  split.
  - constructor; [rewrite length_setnth; exact Hlen| |].
    + intros j. destruct (Nat.eq_dec j i) as [->|Hj].
      * rewrite nth_setnth_eq by auto. auto.
      * rewrite nth_setnth_neq by auto. apply (sfi_step _ _ _ HI).
    + intros e [He|He].
      * subst e. rewrite Hkey_i. repeat split; auto; lia.
      * pose proof (sfi_past _ _ _ HI e He) as Hp. destruct e as [j id0 c0|]; auto.
        destruct Hp as [P1 [P2 [P3 P4]]]. repeat split; auto.
        destruct (Nat.eq_dec j i) as [->|Hj]; [rewrite Hkey_i; lia|rewrite Hkey_j by auto; auto].
  - intros old Ho. pose proof (sfi_past _ _ _ HI old Ho) as Hp. destruct old as [j id0 c0|]; [|destruct Hp].
    destruct Hp as [P1 [P2 [P3 P4]]]. simpl. split; [exact P1|]. split; [lia|].
    intros Hcond. unfold in_range. intros x.
    (* an older id of the same node is smaller; one of a node with another id differs in the node field *)
    assert (Hne : id0 <> id).
    { destruct (Nat.eq_dec j i) as [->|Hj]; [lia|]. intros ->. rewrite Hfield in P3.
      destruct Hcond as [Hc|Hc]; [exact (Hj Hc)|]. apply Hc. symmetry. exact P3. }
    lia.
Qed.

Lemma sf_init_inv : forall nids, SFinv nids (sf_init nids) [].
Proof.
  intros nids. unfold sf_init. constructor.
  - apply repeat_length.
  - intros j. rewrite nth_repeat. simpl. lia.
  - intros e [].
Qed.

Lemma sf_count_gall : forall nids calls sts, sf_count_trigger calls = false ->
  gall (sf_step1 nids) (fun _ c => sc_count c <=? 1) sts calls = true.
Proof.
  unfold sf_count_trigger. induction calls as [|c calls IH]; intros sts H; simpl in *; auto.
  apply orb_false_iff in H. destruct H as [H1 H2]. rewrite IH by auto.
  rewrite andb_true_r. lia.
Qed.

(* on every run with 10-bit node ids, monotone clocks and counts <= 1, two ids of the same node,
   or of nodes with different node ids, differ *)
Theorem sf_rel_run : forall nids calls,
  forallb (fun x => x <? 1024) nids = true ->
  sf_clock_ok nids (sf_init nids) calls = true ->
  sf_count_trigger calls = false ->
  ForallOrdPairs (sf_rel nids) (somes (snd (sf_run nids (sf_init nids) calls))).
Proof.
  intros nids calls Hn Hc Ht.
  apply (grun_fop _ _ _ (sf_step1 nids) sf_guard1 (sf_rel nids) (SFinv nids) (sf_step_ok nids Hn));
    [apply sf_init_inv|].
  unfold sf_guard1. rewrite gall_and. unfold sf_clock_ok in Hc. rewrite Hc. apply sf_count_gall, Ht.
Qed.

Theorem sf_partial_ok : forall nids calls,
  sf_nodes_ok nids = true ->
  sf_clock_ok nids (sf_init nids) calls = true ->
  sf_count_trigger calls = false ->
  ForallOrdPairs ev_ok (somes (snd (sf_run nids (sf_init nids) calls))).
Proof.
  intros nids calls Hn Hc Ht. apply andb_true_iff in Hn. destruct Hn as [Hlt Hnd].
  apply nodup_N_spec in Hnd. rewrite (NoDup_nth nids 0) in Hnd.
  eapply fop_impl; [|apply sf_rel_run; assumption].
  intros [j ? ?|] [i ? ?|]; try contradiction. intros [Hj [Hi H]]. apply H.
  destruct (Nat.eq_dec j i); [left; assumption|right]. intro Heq. auto.
Qed.

(* finding 1: snowflake ignores count: two NextFileId(3) in the same millisecond *)
Definition wit_snow : list sfcall :=
  [ {| sc_node := 0; sc_count := 3; sc_now := 1000; sc_spin := 1001 |};
    {| sc_node := 0; sc_count := 3; sc_now := 1000; sc_spin := 1001 |} ].

Lemma sf_count_refuted :
  exists nids calls, sf_nodes_ok nids = true /\ sf_clock_ok nids (sf_init nids) calls = true /\
                     ~ ForallOrdPairs ev_ok (somes (snd (sf_run nids (sf_init nids) calls))).
Proof.
  exists [5], wit_snow. split; [vm_compute; reflexivity|]. split; [vm_compute; reflexivity|].
  apply not_fop_of_okb. vm_compute. reflexivity.
Qed.

(* finding 5: two snowflake nodes with the same 10-bit node id generate the same
   id in the same millisecond (all other hypotheses of sf_partial_ok hold) *)
Definition wit_snow_collision : list sfcall :=
  [ {| sc_node := 0; sc_count := 1; sc_now := 1000; sc_spin := 1001 |};
    {| sc_node := 1; sc_count := 1; sc_now := 1000; sc_spin := 1001 |} ].

Lemma sf_collision_refuted :
  exists nids calls, forallb (fun x => x <? 1024) nids = true /\
                     sf_clock_ok nids (sf_init nids) calls = true /\ sf_count_trigger calls = false /\
                     ~ ForallOrdPairs ev_ok (somes (snd (sf_run nids (sf_init nids) calls))).
Proof.
  exists [5; 5], wit_snow_collision. split; [vm_compute; reflexivity|]. split; [vm_compute; reflexivity|].
  split; [vm_compute; reflexivity|]. apply not_fop_of_okb. vm_compute. reflexivity.
Qed.

Example sf_example :
  let calls := [ {| sc_node := 0; sc_count := 1; sc_now := 1000; sc_spin := 1001 |};
                 {| sc_node := 1; sc_count := 1; sc_now := 1000; sc_spin := 1001 |};
                 {| sc_node := 0; sc_count := 1; sc_now := 1000; sc_spin := 1001 |};
                 {| sc_node := 0; sc_count := 0; sc_now := 1002; sc_spin := 1003 |} ] in
  sf_nodes_ok [5; 6] = true /\ sf_clock_ok [5; 6] (sf_init [5; 6]) calls = true /\
  sf_count_trigger calls = false /\
  somes (snd (sf_run [5; 6] (sf_init [5; 6]) calls)) =
    [Ret 0 4194324480 1; Ret 1 4194328576 1; Ret 0 4194324481 1; Ret 0 4202713088 0].
Proof. repeat split; vm_compute; reflexivity. Qed.

(* the 12-bit roll-over: step 4095 -> 0 waits for the next millisecond *)
Example sf_rollover :
  sf_generate 5 {| sf_time := 1000; sf_step := 4095 |} 1000 1001 =
  ({| sf_time := 1001; sf_step := 0 |}, sf_id 1001 5 0).
Proof. vm_compute. reflexivity. Qed.

Definition vol_ok (e1 e2 : ev) : Prop :=
  match e1, e2 with
  | Ret _ v1 _, Ret _ v2 _ => v1 < v2
  | _, _ => True
  end.

(* under the growth lock at most one proposal is pending, and it is above everything returned *)
Record Vinv (s : vst) (past : list ev) : Prop := {
  vi_ret : forall e, In e past -> match e with Ret _ v _ => v <= vmax s | Max _ _ => False end;
  vi_pend : match vpend s with
             | [] => True
             | [(_, next)] => forall e, In e past -> match e with Ret _ v _ => v < next | Max _ _ => False end
             | _ => False
             end }.

Lemma vfind_in : forall l a x, vfind l a = Some x -> In (a, x) l.
Proof.
  induction l as [|[b y] l IH]; intros a x H; simpl in *; [discriminate|].
  destruct (Nat.eqb a b) eqn:E.
  - apply Nat.eqb_eq in E. inversion H; subst. auto.
  - right. auto.
Qed.

Definition vguard (s : vst) (o : vstep) : bool := vlock_guard s o && vfit_guard s o.

Lemma vstep_ok : forall s past o, Vinv s past -> vguard s o = true ->
  match snd (vstep1 s o) with
  | Some x => Vinv (fst (vstep1 s o)) (x :: past) /\ (forall old, In old past -> vol_ok old x)
  | None => Vinv (fst (vstep1 s o)) past
  end.
Proof.
  intros s past o [Hret Hpend] Hg. unfold vguard in Hg. apply andb_true_iff in Hg. destruct Hg as [Hg1 Hg2].
  destruct o as [a|a ok|v]; simpl in *.
  - destruct (vpend s) eqn:Ep; [|discriminate]. simpl.
    rewrite (N.mod_small (vmax s + 1)) by lia. constructor; simpl; rewrite ?Ep; auto.
    intros e He. specialize (Hret e He). destruct e; auto. lia.
  - destruct (vpend s) as [|[b next] [|? ?]] eqn:Ep; simpl; [constructor; rewrite ?Ep; auto| |destruct Hpend].
    destruct (Nat.eqb a b); simpl; [|constructor; rewrite ?Ep; auto].
    destruct ok; simpl.
    + split; [constructor; simpl; auto|].
      * intros e [<-|He]; [lia|]. specialize (Hret e He). destruct e; auto. lia.
      * intros old Ho. specialize (Hpend old Ho). destruct old; simpl; auto.
    + constructor; simpl; auto.
  - constructor; simpl; auto. intros e He. specialize (Hret e He). destruct e; auto. lia.
Qed.

Lemma vinit_inv : Vinv vinit [].
Proof. constructor; simpl; [intros ? []|exact I]. Qed.

Theorem vol_trace_ok : forall sched, vlocked vinit sched = true -> vfits vinit sched = true ->
  ForallOrdPairs vol_ok (somes (snd (vrun vinit sched))).
Proof.
  intros sched Hl Hf. unfold vrun.
  assert (Hg : gall vstep1 vguard vinit sched = true).
  { unfold vguard. rewrite gall_and. unfold vlocked, vfits in *. rewrite Hl, Hf. reflexivity. }
  exact (grun_fop _ _ _ vstep1 vguard vol_ok Vinv vstep_ok sched vinit vinit_inv Hg).
Qed.

Lemma rets_picks : forall l, rets l = picks (fun e => match e with Ret _ v _ => Some v | Max _ _ => None end) (somes l).
Proof. induction l as [|[[m v c|m k]|] l IH]; simpl; rewrite ?IH; reflexivity. Qed.

Lemma rets_sorted : forall l, ForallOrdPairs vol_ok (somes l) -> StronglySorted N.lt (rets l).
Proof.
  intros l H. rewrite rets_picks. apply (picks_sorted vol_ok); [|exact H].
  intros [? ? ?|? ?] [? ? ?|? ?] x y Ea Eb Hab; inversion Ea; inversion Eb; subst; exact Hab.
Qed.

Theorem vol_sorted : forall sched, vlocked vinit sched = true -> vfits vinit sched = true ->
  StronglySorted N.lt (rets (snd (vrun vinit sched))).
Proof. intros. apply rets_sorted. apply vol_trace_ok; auto. Qed.

Theorem vol_unique : forall sched, vlocked vinit sched = true -> vfits vinit sched = true ->
  NoDup (rets (snd (vrun vinit sched))).
Proof. intros. apply sorted_nodup. apply vol_sorted; auto. Qed.

Lemma vknown_le : forall sched s,
  vmax s <= vmax (fst (vrun s sched)) /\
  forall v, In v (vknown sched (snd (vrun s sched))) -> v <= vmax (fst (vrun s sched)).
Proof.
  unfold vrun. induction sched as [|o sched IH]; intros s; simpl.
  - split; [lia|intros v []].
  - destruct (vstep1 s o) as [s' e] eqn:Es.
    destruct (IH s') as [H1 H2]. destruct (grun vstep1 s' sched) as [sf outs] eqn:Er. simpl in *.
    assert (Hs : vmax s <= vmax s' /\ match e with Some (Ret _ v _) => v <= vmax s' | _ => True end /\
                 match o with VHb v => v <= vmax s' | _ => True end).
    { destruct o as [a|a ok|v]; simpl in Es.
      - destruct (vfind (vpend s) a); inversion Es; subst; simpl; repeat split; lia.
      - destruct (vfind (vpend s) a); [destruct ok|]; inversion Es; subst; simpl; repeat split; lia.
      - inversion Es; subst; simpl. repeat split; lia. }
    destruct Hs as [S1 [S2 S3]]. split; [lia|].
    intros v Hv.
    destruct o as [a|a ok|v0]; destruct e as [[? v1 ?|]|]; simpl in Hv; try (apply H2; exact Hv).
    all: destruct Hv as [Hv|Hv]; [subst; lia|apply H2; auto].
Qed.

Lemma vrun_hbs : forall hbs s,
  vpend (fst (vrun s (map VHb hbs))) = vpend s /\
  snd (vrun s (map VHb hbs)) = map (fun _ => None) hbs.
Proof.
  unfold vrun. induction hbs as [|h hbs IH]; intros s; simpl; [auto|].
  destruct (IH {| vmax := N.max (vmax s) h; vpend := vpend s |}) as [H1 H3].
  destruct (grun vstep1 {| vmax := N.max (vmax s) h; vpend := vpend s |} (map VHb hbs)) as [sf outs].
  simpl in *. split; [exact H1|]. f_equal. exact H3.
Qed.

(* the id computed at READ exceeds every id the master knows *)
Theorem vol_fresh : forall pre a hbs,
  let s := fst (vrun vinit pre) in
  vfind (vpend s) a = None -> vmax s + 1 < two32 ->
  exists next,
    snd (vrun s (VRead a :: map VHb hbs ++ [VApply a true])) =
      None :: map (fun _ => None) hbs ++ [Some (Ret a next 1)] /\
    forall v, In v (vknown pre (snd (vrun vinit pre))) -> v < next.
Proof.
  intros pre a hbs s Hf Hfit. exists (vmax s + 1). split.
  - unfold vrun. simpl. rewrite Hf.
    set (s1 := {| vmax := vmax s; vpend := (a, (vmax s + 1) mod two32) :: vpend s |}).
    rewrite grun_app. destruct (vrun_hbs hbs s1) as [H1 H3]. unfold vrun in *.
    destruct (grun vstep1 s1 (map VHb hbs)) as [s2 o2]. simpl in *. rewrite H3.
    rewrite H1. simpl. rewrite Nat.eqb_refl. simpl.
    rewrite (N.mod_small (vmax s + 1) two32) by lia. reflexivity.
  - intros v Hv. destruct (vknown_le pre vinit) as [_ H]. specialize (H v Hv). fold s in H. lia.
Qed.

(* without the growth lock two NextVolumeId read the same maximum *)
Lemma vol_unlocked_refuted :
  exists sched, vfits vinit sched = true /\ ~ NoDup (rets (snd (vrun vinit sched))).
Proof.
  exists [VRead 0; VRead 1; VApply 0 true; VApply 1 true]. split; [vm_compute; reflexivity|].
  vm_compute. intro H. inversion H as [|? ? Hn _]; subst. apply Hn. left. reflexivity.
Qed.

(* a heartbeat that arrives between READ and the raft apply is not taken into account *)
Lemma vol_hb_between :
  vlocked vinit [VRead 0; VHb 7; VApply 0 true] = true /\
  snd (vrun vinit [VRead 0; VHb 7; VApply 0 true]) = [None; None; Some (Ret 0 1 1)].
Proof. split; vm_compute; reflexivity. Qed.

Example vol_example :
  let sched := [VHb 3; VRead 0; VHb 2; VApply 0 true; VRead 1; VApply 1 false; VRead 1; VApply 1 true] in
  vlocked vinit sched = true /\ vfits vinit sched = true /\ rets (snd (vrun vinit sched)) = [4; 5].
Proof. repeat split; vm_compute; reflexivity. Qed.
