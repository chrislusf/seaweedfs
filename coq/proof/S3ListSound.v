(* C27, page soundness: for a marker without "/" and a clean prefix that does not point
   into the multipart area, the items of a page are a subsequence of the reference
   listing and at most max-keys many — on EVERY well-formed tree.  Plus what the
   reference listing consists of. *)
From Coq Require Import List NArith ZArith Bool String Ascii Arith Lia.
From SW Require Import model.S3List proof.S3ListProofs.
Import ListNotations.
Local Open Scope string_scope.
Local Open Scope list_scope.
Local Notation length := List.length.

(* induction over the nested tree type *)
Section TreeInd.
  Variable P : tree -> Prop.
  Hypothesis HF : forall n, P (File n).
  Hypothesis HD : forall n k, Forall P k -> P (Dir n k).
  Fixpoint tree_ind' (t : tree) : P t :=
    match t with
    | File n => HF n
    | Dir n k => HD n k ((fix go (l : list tree) : Forall P l :=
                            match l with
                            | [] => Forall_nil P
                            | x :: r => Forall_cons x (tree_ind' x) (go r)
                            end) k)
    end.
End TreeInd.

Lemma cut_slash_count : forall s, count_slash s = 0 -> cut_slash s = None.
Proof.
  induction s as [|c s IH]; simpl; intros H; [reflexivity|].
  destruct (Ascii.eqb c slash); [discriminate|]. rewrite (IH H). reflexivity.
Qed.

Lemma do_list_S : forall ae rootk delim f D prefix maxKeys marker,
  do_list ae rootk delim (S f) D prefix maxKeys marker =
  if (prefix =? "/") && delim then empty_res
  else if (maxKeys <=? 0)%Z then empty_res
  else
    let '(items0, maxKeys1, trunc0, next0, marker1) :=
      match cut_slash marker with
      | Some (subDir, subMarker) =>
          let r := do_list ae rootk delim f (D ++ [subDir]) "" maxKeys subMarker in
          (r_items r, (maxKeys - r_count r)%Z, r_trunc r, (subDir ++ "/" ++ r_next r)%string, subDir)
      | None => ([], maxKeys, false, "", marker)
      end in
    loop ae rootk delim (fun D' m' => do_list ae rootk delim f D' "" m' "") D maxKeys1
         (list_entries (resolve rootk D) prefix marker1 (Z.to_nat (maxKeys1 + 1))) items0 0%Z trunc0 next0.
Proof. reflexivity. Qed.

Lemma plain_of_bad_prefix : forall prefix, bad_prefix prefix = false -> plain (req_dir prefix).
Proof.
  intros prefix H. unfold bad_prefix in H. apply orb_false_iff in H. destruct H as [H _].
  unfold req_dir. set (D := fst (split_prefix prefix)) in *.
  assert (P : plain D).
  { unfold plain. apply Forall_forall. intros s Hs E. subst s.
    assert (existsb (String.eqb "") D = true) by (apply existsb_exists; exists ""; split; [exact Hs | reflexivity]).
    rewrite H in H0. discriminate. }
  unfold strip_leading_empty. destruct D as [|s D']; [exact P|].
  destruct s; [|exact P]. inversion P. contradiction.
Qed.

Theorem page_sound_partial : forall ae rootk prefix M marker delim,
  wf rootk = true -> count_slash marker = 0 -> bad_prefix prefix = false ->
  subseq (r_items (list_items ae rootk prefix M marker delim)) (ref_list ae rootk prefix delim) /\
  (Z.of_nat (length (r_items (list_items ae rootk prefix M marker delim))) <= Z.max 0 M)%Z.
Proof.
  intros ae rootk prefix M marker delim Hwf Hm Hp.
  unfold list_items, list_fuel, ref_list.
  set (D := req_dir prefix). set (pfx := snd (split_prefix prefix)).
  pose proof (plain_of_bad_prefix prefix Hp) as HP. fold D in HP.
  remember (S (forest_height rootk + count_slash marker)) as f eqn:Ef. clear Ef.
  rewrite do_list_S.
  destruct ((pfx =? "/") && delim); [simpl; split; [constructor | lia]|].
  destruct (M <=? 0)%Z; [simpl; split; [constructor | lia]|].
  rewrite (cut_slash_count marker Hm).
  destruct (walk rootk D) as [K|] eqn:HW.
  - pose proof (walk_wf D rootk K Hwf HW) as HK.
    rewrite (resolve_plain rootk D K HP HW). unfold list_entries.
    set (es := firstn (Z.to_nat (M + 1)) (filter (fun t => String.prefix pfx (tname t) && String.ltb marker (tname t)) K)).
    assert (Hsub : subseq es (filter (fun t => String.prefix pfx (tname t)) K)).
    { unfold es. apply (subseq_trans _ _ _ _ (subseq_firstn _ _ _)). apply subseq_filter2. }
    assert (Hin : forall e, In e es -> In e K).
    { intros e He. apply (subseq_in _ _ _ e (subseq_filter _ (fun t => String.prefix pfx (tname t)) K)).
      exact (subseq_in _ _ _ e Hsub He). }
    destruct (loop_sound ae rootk delim (fun D' m' => do_list ae rootk delim f D' "" m' "") D K M
                (do_list_sound ae rootk delim f) HP HW HK es Hin [] 0%Z false "") as [X [E1 [E2 [E3 E4]]]].
    simpl in E1. rewrite E1. split.
    + apply (subseq_trans _ _ _ _ E2). apply subseq_flat_map. exact Hsub.
    + rewrite E3 in E4. lia.
  - unfold resolve. rewrite (strip_trailing_plain D HP). rewrite HW. unfold list_entries. simpl.
    rewrite firstn_nil. simpl. split; [constructor | lia].
Qed.

Definition item_path (it : item) : list string := match it with IKey p => p | ICP p => p end.

Definition files_under (D : list string) (K : list tree) : list (list string) :=
  map (app D) (flat_map files_of K).

Lemma ref_tree_keys_real : forall ae delim t D p,
  In (IKey p) (ref_tree ae delim D t) -> In p (map (app D) (files_of t)).
Proof.
  intros ae delim t. induction t as [n|n k IH] using tree_ind'; intros D p H.
  - simpl in H. destruct H as [E|[]]. inversion E; subst. simpl. left. reflexivity.
  - simpl in H. destruct (n =? uploads); [destruct H|].
    destruct delim.
    + destruct (ae || existsb tree_has_file k); [destruct H as [E|[]]; discriminate | destruct H].
    + simpl files_of. rewrite map_map.
      apply in_flat_map in H. destruct H as [c [Hc Hp]].
      rewrite Forall_forall in IH.
      pose proof (IH c Hc (D ++ [n]) p Hp) as G.
      apply in_map_iff in G. destruct G as [q [E Hq]]. subst p.
      apply in_map_iff. exists q. split; [rewrite <- app_assoc; reflexivity|].
      apply in_flat_map. exists c. split; assumption.
Qed.

Theorem ref_keys_real : forall ae delim D K p,
  In (IKey p) (ref_forest ae delim D K) -> In p (files_under D K).
Proof.
  intros ae delim D K p H. unfold ref_forest in H. apply in_flat_map in H. destruct H as [t [Ht Hp]].
  pose proof (ref_tree_keys_real ae delim t D p Hp) as G. unfold files_under.
  apply in_map_iff in G. destruct G as [q [E Hq]]. apply in_map_iff. exists q. split; [exact E|].
  apply in_flat_map. exists t. split; assumption.
Qed.

Theorem ref_skips_uploads : forall ae delim D k, ref_tree ae delim D (Dir uploads k) = [].
Proof. intros. simpl. reflexivity. Qed.

Theorem ref_delim_shape : forall ae D K it, In it (ref_forest ae true D K) ->
  match it with
  | IKey p => exists n, p = D ++ [n] /\ In (File n) K
  | ICP p => exists n k, p = D ++ [n] /\ In (Dir n k) K /\ n <> uploads /\ (ae = true \/ has_file k = true)
  end.
Proof.
  intros ae D K it H. unfold ref_forest in H. apply in_flat_map in H. destruct H as [t [Ht Hi]].
  destruct t as [n|n k]; simpl in Hi.
  - destruct Hi as [E|[]]. subst it. exists n. split; [reflexivity | exact Ht].
  - destruct (n =? uploads) eqn:EU; [destruct Hi|].
    destruct (ae || existsb tree_has_file k) eqn:EA; [|destruct Hi].
    destruct Hi as [E|[]]. subst it. exists n, k. repeat split; try assumption.
    + apply String.eqb_neq. exact EU.
    + apply orb_true_iff in EA. exact EA.
Qed.

Lemma ref_tree_nodelim_keys : forall ae t D it, In it (ref_tree ae false D t) -> exists p, it = IKey p.
Proof.
  intros ae t. induction t as [n|n k IH] using tree_ind'; intros D it H; simpl in H.
  - destruct H as [E|[]]. exists (D ++ [n]). symmetry. exact E.
  - destruct (n =? uploads); [destruct H|]. apply in_flat_map in H. destruct H as [c [Hc Hi]].
    rewrite Forall_forall in IH. exact (IH c Hc _ it Hi).
Qed.

Theorem ref_nodelim_keys : forall ae D K it, In it (ref_forest ae false D K) -> exists p, it = IKey p.
Proof.
  intros ae D K it H. unfold ref_forest in H. apply in_flat_map in H. destruct H as [t [_ Hi]].
  exact (ref_tree_nodelim_keys ae t D it Hi).
Qed.

Lemma ref_tree_under : forall ae delim t D it, In it (ref_tree ae delim D t) ->
  exists q, item_path it = D ++ tname t :: q.
Proof.
  intros ae delim t. induction t as [n|n k IH] using tree_ind'; intros D it H; simpl in H.
  - destruct H as [E|[]]. subst it. exists []. reflexivity.
  - destruct (n =? uploads); [destruct H|]. destruct delim.
    + destruct (ae || existsb tree_has_file k); [|destruct H]. destruct H as [E|[]]. subst it. exists []. reflexivity.
    + apply in_flat_map in H. destruct H as [c [Hc Hi]]. rewrite Forall_forall in IH.
      destruct (IH c Hc _ it Hi) as [q E].
      exists (tname c :: q). rewrite E. rewrite <- app_assoc. reflexivity.
Qed.

Theorem ref_list_under_prefix : forall ae rootk prefix delim it, In it (ref_list ae rootk prefix delim) ->
  exists n q, item_path it = req_dir prefix ++ n :: q /\ String.prefix (snd (split_prefix prefix)) n = true.
Proof.
  intros ae rootk prefix delim it H. unfold ref_list, ref_forest in H.
  apply in_flat_map in H. destruct H as [t [Ht Hi]]. apply filter_In in Ht. destruct Ht as [_ Hp].
  destruct (ref_tree_under ae delim t _ it Hi) as [q E]. exists (tname t), q. split; assumption.
Qed.
