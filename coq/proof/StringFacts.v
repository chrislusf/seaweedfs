(* Facts about String.append, String.prefix and the byte order on strings that Coq
   8.16's String does not have. *)
From Coq Require Import NArith Bool String Ascii Lia.
Local Open Scope string_scope.

Lemma append_assoc : forall a b c : string, (a ++ b) ++ c = a ++ (b ++ c).
Proof. induction a as [|x a IH]; intros b c; simpl; [reflexivity | rewrite IH; reflexivity]. Qed.

Lemma append_nil_r : forall a : string, a ++ "" = a.
Proof. induction a as [|x a IH]; simpl; [reflexivity | rewrite IH; reflexivity]. Qed.

Lemma prefix_app : forall a b, String.prefix a (a ++ b) = true.
Proof.
  induction a as [|c a IH]; intros b; simpl; [destruct b; reflexivity|].
  destruct (ascii_dec c c) as [_|N]; [apply IH | contradiction].
Qed.

Lemma prefix_exists : forall a s, String.prefix a s = true -> exists z, s = a ++ z.
Proof.
  induction a as [|c a IH]; intros s H; [exists s; reflexivity|].
  destruct s as [|d s]; simpl in H; [discriminate|].
  destruct (ascii_dec c d) as [E|N]; [|discriminate]. subst d.
  destruct (IH s H) as [z Hz]. exists z. simpl. rewrite Hz. reflexivity.
Qed.

Lemma ascii_compare_lt_trans : forall a b c,
  Ascii.compare a b = Lt -> Ascii.compare b c = Lt -> Ascii.compare a c = Lt.
Proof. unfold Ascii.compare. intros a b c H1 H2. rewrite N.compare_lt_iff in *. lia. Qed.

Lemma ascii_compare_refl : forall a, Ascii.compare a a = Eq.
Proof. intros a. unfold Ascii.compare. apply N.compare_refl. Qed.

Lemma str_compare_refl : forall s, String.compare s s = Eq.
Proof. induction s as [|c s IH]; simpl; [reflexivity|]. rewrite ascii_compare_refl. exact IH. Qed.

Lemma str_compare_lt_trans : forall a b c,
  String.compare a b = Lt -> String.compare b c = Lt -> String.compare a c = Lt.
Proof.
  induction a as [|x a IH]; intros b c H1 H2.
  - destruct b; [discriminate|]. destruct c; [discriminate | reflexivity].
  - destruct b as [|y b]; [discriminate|]. destruct c as [|z c]; [discriminate|].
    simpl in *.
    destruct (Ascii.compare x y) eqn:E1; try discriminate.
    + apply Ascii.compare_eq_iff in E1. subst y.
      destruct (Ascii.compare x z) eqn:E2; try discriminate; [apply (IH b c); assumption | reflexivity].
    + destruct (Ascii.compare y z) eqn:E2; try discriminate.
      * apply Ascii.compare_eq_iff in E2. subst z. rewrite E1. reflexivity.
      * rewrite (ascii_compare_lt_trans x y z E1 E2). reflexivity.
Qed.
