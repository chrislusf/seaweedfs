(* Proofs about model/VolumeConc.v (C38): the decision procedure lin_check, the invariant of the
   machine, and what a run of the sequential volume model gives. *)
From Coq Require Import List NArith ZArith Bool Lia Permutation.
From SW Require Import model.Volume model.VolumeConc proof.VolumeProofs proof.VolumeKeyProofs.
Import ListNotations.
Local Open Scope N_scope.

Lemma forallb_perm : forall (A : Type) (f : A -> bool) l l', Permutation l l' -> forallb f l = forallb f l'.
Proof.
  intros A f l l' H. induction H; cbn [forallb].
  - reflexivity.
  - rewrite IHPermutation. reflexivity.
  - destruct (f x), (f y); reflexivity.
  - congruence.
Qed.

Lemma existsb_perm : forall (A : Type) (f : A -> bool) l l', Permutation l l' -> existsb f l = existsb f l'.
Proof.
  intros A f l l' H. induction H; cbn [existsb].
  - reflexivity.
  - rewrite IHPermutation. reflexivity.
  - destruct (f x), (f y); reflexivity.
  - congruence.
Qed.

Lemma picks_perm : forall (A : Type) (l : list A) x r, In (x, r) (picks l) -> Permutation (x :: r) l.
Proof.
  induction l as [|y l IH]; intros x r H; cbn [picks] in H; [contradiction|].
  destruct H as [H|H].
  - inversion H; subst. apply Permutation_refl.
  - apply in_map_iff in H. destruct H as [[x' r'] [E Hin]]. cbn [fst snd] in E. inversion E; subst.
    apply IH in Hin. eapply perm_trans; [apply perm_swap|]. apply perm_skip. exact Hin.
Qed.

Lemma picks_in : forall (A : Type) (l : list A) x, In x l -> exists r, In (x, r) (picks l).
Proof.
  induction l as [|y l IH]; intros x H; [contradiction|]. destruct H as [->|H].
  - exists l. left. reflexivity.
  - destruct (IH x H) as [r Hr]. exists (y :: r). right. apply in_map_iff. exists (x, r). split; auto.
Qed.

Lemma anyb_existsb : forall (A : Type) (f : A -> bool) l, anyb f l = existsb f l.
Proof. induction l as [|x l IH]; cbn [anyb existsb]; [reflexivity|]. rewrite IH. destruct (f x); reflexivity. Qed.

Section LinProofs.
  Context {Op Out St : Type}.
  Variable nxt : St -> Op -> St.
  Variable acc : St -> Op -> Out -> bool.

  Lemma minimal_perm : forall (a : orec Op Out) r r', Permutation r r' -> minimal a r = minimal a r'.
  Proof. intros. unfold minimal. apply forallb_perm. assumption. Qed.

  Lemma search_nil : forall finb fuel st, search nxt acc finb fuel st [] = finb st.
  Proof. intros finb fuel st. destruct fuel; reflexivity. Qed.

  Lemma search_sound : forall finb fuel st rem,
    search nxt acc finb fuel st rem = true ->
    exists lin st', Permutation lin rem /\ rt_ok lin = true /\ seq_ok nxt acc st lin = Some st' /\ finb st' = true.
  Proof.
    intros finb. induction fuel as [|f IH]; intros st rem H; destruct rem as [|x rem'].
    - exists [], st. repeat split; auto.
    - discriminate.
    - exists [], st. repeat split; auto.
    - cbn [search] in H. rewrite anyb_existsb in H. apply existsb_exists in H.
      destruct H as [[a rest] [Hin H]]. cbn [fst snd] in H.
      destruct (minimal a rest) eqn:H1; [|discriminate].
      destruct (acc st (o_op a) (o_out a)) eqn:H2; [|discriminate].
      destruct (IH _ _ H) as (lin & st' & P & RT & SQ & F).
      exists (a :: lin), st'. repeat split.
      + eapply perm_trans; [apply perm_skip; exact P|]. apply picks_perm. exact Hin.
      + cbn [rt_ok]. rewrite (minimal_perm a lin rest P), H1, RT. reflexivity.
      + cbn [seq_ok]. rewrite H2. exact SQ.
      + exact F.
  Qed.

  Lemma search_complete : forall finb lin st st' rem fuel,
    Permutation lin rem -> (length rem <= fuel)%nat -> rt_ok lin = true ->
    seq_ok nxt acc st lin = Some st' -> finb st' = true ->
    search nxt acc finb fuel st rem = true.
  Proof.
    intros finb. induction lin as [|a lin IH]; intros st st' rem fuel P L RT SQ F.
    - apply Permutation_nil in P. subst rem. rewrite search_nil. cbn [seq_ok] in SQ. inversion SQ; subst. exact F.
    - assert (Hin : In a rem) by (eapply Permutation_in; [exact P | left; reflexivity]).
      destruct rem as [|x rem']; [contradiction|].
      destruct fuel as [|f]; [cbn [length] in L; lia|].
      cbn [search]. rewrite anyb_existsb. apply existsb_exists.
      destruct (picks_in _ _ _ Hin) as [rest Hrest].
      exists (a, rest). split; [exact Hrest|]. cbn [fst snd].
      pose proof (picks_perm _ _ _ _ Hrest) as P2.
      assert (P3 : Permutation lin rest).
      { eapply Permutation_cons_inv. eapply perm_trans; [exact P|]. apply Permutation_sym. exact P2. }
      cbn [rt_ok] in RT. apply andb_true_iff in RT. destruct RT as [RT1 RT2].
      cbn [seq_ok] in SQ. destruct (acc st (o_op a) (o_out a)) eqn:A; [|discriminate].
      rewrite <- (minimal_perm a lin rest P3), RT1.
      eapply IH; eauto.
      apply Permutation_length in P2. cbn [length] in *. lia.
  Qed.

  Theorem lin_check_sound : forall s0 (fin : St -> Prop) finb h,
    (forall s, finb s = true -> fin s) ->
    lin_check nxt acc s0 finb h = true -> linearizable nxt acc s0 fin h.
  Proof.
    intros s0 fin finb h Hf H. unfold lin_check in H. apply search_sound in H.
    destruct H as (lin & st' & P & RT & SQ & F). exists lin, st'. auto.
  Qed.

  Theorem lin_check_complete : forall s0 (fin : St -> Prop) finb h,
    (forall s, fin s -> finb s = true) ->
    linearizable nxt acc s0 fin h -> lin_check nxt acc s0 finb h = true.
  Proof.
    intros s0 fin finb h Hf (lin & st' & P & RT & SQ & F). unfold lin_check.
    eapply search_complete; eauto.
  Qed.

  Lemma linearizable_perm : forall s0 (fin : St -> Prop) h h',
    Permutation h h' -> linearizable nxt acc s0 fin h -> linearizable nxt acc s0 fin h'.
  Proof.
    intros s0 fin h h' P (lin & st' & P1 & RT & SQ & F). exists lin, st'. repeat split; auto.
    eapply perm_trans; eauto.
  Qed.

  Lemma linearizable_weaken : forall s0 (fin fin' : St -> Prop) h,
    (forall s, fin s -> fin' s) -> linearizable nxt acc s0 fin h -> linearizable nxt acc s0 fin' h.
  Proof. intros s0 fin fin' h W (lin & st' & P1 & RT & SQ & F). exists lin, st'. auto. Qed.

  Lemma seq_ok_snoc : forall l st (a : orec Op Out),
    seq_ok nxt acc st (l ++ [a]) =
    match seq_ok nxt acc st l with
    | Some s' => if acc s' (o_op a) (o_out a) then Some (nxt s' (o_op a)) else None
    | None => None
    end.
  Proof.
    induction l as [|x l IH]; intros st a; cbn [app seq_ok].
    - destruct (acc st (o_op a) (o_out a)); reflexivity.
    - destruct (acc st (o_op x) (o_out x)); [apply IH | reflexivity].
  Qed.

  Lemma rt_ok_snoc : forall l (b : orec Op Out),
    rt_ok (l ++ [b]) = rt_ok l && forallb (fun a => negb (precedes b a)) l.
  Proof.
    induction l as [|a l IH]; intro b; cbn [app rt_ok forallb]; [reflexivity|].
    rewrite IH. unfold minimal. rewrite forallb_app. cbn [forallb].
    destruct (forallb (fun b0 => negb (precedes b0 a)) l), (negb (precedes b a)), (rt_ok l),
      (forallb (fun a0 => negb (precedes b a0)) l); reflexivity.
  Qed.

  Lemma seq_ok_map_ext : forall (A : Type) (g g' : A -> orec Op Out) l st,
    (forall x, o_op (g x) = o_op (g' x) /\ o_out (g x) = o_out (g' x)) ->
    seq_ok nxt acc st (map g l) = seq_ok nxt acc st (map g' l).
  Proof.
    induction l as [|x l IH]; intros st H; cbn [map seq_ok]; [reflexivity|].
    destruct (H x) as [E1 E2]. rewrite E1, E2.
    destruct (acc st (o_op (g' x)) (o_out (g' x))); [apply IH; exact H | reflexivity].
  Qed.
End LinProofs.

Lemma err_eqb_eq : forall a b, err_eqb a b = true <-> a = b.
Proof. split; [destruct a, b; simpl; intro H; try discriminate; reflexivity | intros ->; apply err_eqb_refl]. Qed.

Lemma hview_eqb_eq : forall a b, hview_eqb a b = true <-> a = b.
Proof.
  intros a b. split; [|intros ->; apply hview_eqb_refl].
  unfold hview_eqb. rewrite !andb_true_iff, !N.eqb_eq, !bytes_eqb_eq, Bool.eqb_true_iff.
  destruct a, b; cbn. intros [[[[[H1 H2] H3] H4] H5] H6]. subst. reflexivity.
Qed.

Lemma out_eqb_refl : forall o, out_eqb o o = true.
Proof.
  destruct o; cbn [out_eqb];
    rewrite ?err_eqb_refl, ?N.eqb_refl, ?Z.eqb_refl, ?view_eqb_refl, ?hview_eqb_refl, ?Bool.eqb_reflx; reflexivity.
Qed.

Lemma out_eqb_eq : forall a b, out_eqb a b = true -> a = b.
Proof.
  intros a b H. destruct a, b; cbn [out_eqb] in H; try discriminate; [..|reflexivity];
    rewrite ?andb_true_iff, ?err_eqb_eq, ?Bool.eqb_true_iff, ?N.eqb_eq, ?Z.eqb_eq, ?view_eqb_eq, ?hview_eqb_eq in H;
    decompose [and] H; subst; reflexivity.
Qed.

(* the critical section of every call lies between its Inv and its Res *)
Definition appl_ok (now : N) (a : appl) : Prop :=
  a_inv a <= a_at a /\ a_at a < now /\
  match a_stat a with ADone r => a_at a < r /\ r < now | _ => True end.

(* m_lin is in the order of the critical sections *)
Fixpoint at_decreasing (l : list appl) : Prop :=
  match l with
  | [] => True
  | a :: r => Forall (fun b => a_at b < a_at a) r /\ at_decreasing r
  end.

Definition same_flags (a b : vol) : Prop :=
  no_write_or_delete a = no_write_or_delete b /\ no_write_can_delete a = no_write_can_delete b.

Lemma step_flags : forall st t c, same_flags (fst (step st (t, op_of c))) st.
Proof.
  intros st t c. unfold same_flags. destruct c as [n fs|id ck rd|id ck]; unfold step, op_of; rewrite !let_pair; cbn [fst].
  - unfold store_write. destruct (is_read_only st); [split; reflexivity|].
    destruct (do_write_cases st n t) as [E|[E|E]]; rewrite E; split; reflexivity.
  - split; reflexivity.
  - destruct (store_delete_cases st id ck t) as [E|E]; rewrite E; split; reflexivity.
Qed.

Record minv (st0 : vol) (m : mstate) : Prop := {
  mi_pend : Forall (fun p => p_inv p <= m_now m) (m_pend m);
  mi_lin : Forall (appl_ok (m_now m)) (m_lin m);
  mi_dec : at_decreasing (m_lin m);
  (* replaying the critical sections in their order on the sequential model gives exactly
     the recorded results and the current volume *)
  mi_seq : seq_ok vol_nxt vol_acc st0 (map orec_of (rev (m_lin m))) = Some (m_vol m);
  (* no operation of the machine changes the read-only flags *)
  mi_flags : same_flags (m_vol m) st0 }.

Lemma minv_init : forall st0 b, minv st0 (minit st0 b).
Proof. intros. constructor; cbn; auto. split; reflexivity. Qed.

Lemma appl_ok_mono : forall now a, appl_ok now a -> appl_ok (now + 1) a.
Proof.
  intros now a (H1 & H2 & H3). unfold appl_ok. repeat split; auto; try lia.
  destruct (a_stat a); auto. lia.
Qed.

Lemma pend_mono : forall now l,
  Forall (fun p => p_inv p <= now) l -> Forall (fun p => p_inv p <= now + 1) l.
Proof. intros now l H. eapply Forall_impl; [|exact H]. cbv beta. intros. lia. Qed.

Lemma pend_set_pstat : forall now id s l,
  Forall (fun p => p_inv p <= now) l -> Forall (fun p => p_inv p <= now) (set_pstat id s l).
Proof.
  intros now id s l H. unfold set_pstat. apply Forall_map. eapply Forall_impl; [|exact H].
  cbv beta. intros p Hp. destruct (p_id p =? id); cbn; exact Hp.
Qed.

Lemma pend_del : forall now id l,
  Forall (fun p => p_inv p <= now) l -> Forall (fun p => p_inv p <= now) (del_pend id l).
Proof. intros now id l H. unfold del_pend. eapply incl_Forall; [apply incl_filter | exact H]. Qed.

(* steps that touch neither the volume nor the list of finished critical sections *)
Lemma minv_book : forall st0 m lk pd q w,
  minv st0 m -> Forall (fun p => p_inv p <= m_now m) pd ->
  minv st0 (upd m (m_vol m) lk pd (m_lin m) q w).
Proof.
  intros st0 m lk pd q w [I1 I2 I3 I4 I5] Hpd. constructor; cbn [upd m_now m_pend m_lin m_vol]; auto.
  - apply pend_mono. exact Hpd.
  - eapply Forall_impl; [|exact I2]. apply appl_ok_mono.
Qed.

(* a critical section *)
Lemma minv_apply : forall st0 m id p t s lk w,
  minv st0 m -> find_pend id (m_pend m) = Some p -> match s with ADone _ => False | _ => True end ->
  minv st0 (do_apply m p t s lk w).
Proof.
  intros st0 m id p t s lk w [I1 I2 I3 I4 I5] Hin Hs. unfold do_apply. apply find_some in Hin. destruct Hin as [Hin _].
  pose proof (step_flags (m_vol m) t (p_op p)) as SF.
  destruct (step (m_vol m) (t, op_of (p_op p))) as [v' o] eqn:E.
  assert (Hp : p_inv p <= m_now m) by (rewrite Forall_forall in I1; apply I1; exact Hin).
  constructor; cbn [upd m_now m_pend m_lin m_vol].
  - apply pend_mono. apply pend_del. exact I1.
  - constructor.
    + unfold appl_ok. cbn. repeat split; try lia. destruct s; auto. destruct Hs.
    + eapply Forall_impl; [|exact I2]. apply appl_ok_mono.
  - cbn [at_decreasing]. split; [|exact I3]. cbn [a_at].
    eapply Forall_impl; [|exact I2]. intros a (_ & H & _). exact H.
  - cbn [rev]. rewrite map_app. cbn [map]. rewrite seq_ok_snoc, I4.
    unfold vol_acc, vol_nxt, orec_of. cbn [o_op o_out a_t a_op a_out]. rewrite E. cbn [fst snd].
    rewrite out_eqb_refl. reflexivity.
  - cbn [fst] in SF. unfold same_flags in *. destruct SF, I5. split; congruence.
Qed.

Lemma at_decreasing_map : forall (f : appl -> appl) l,
  (forall a, a_at (f a) = a_at a) -> at_decreasing l -> at_decreasing (map f l).
Proof.
  intros f l Hf. induction l as [|a l IH]; cbn [map at_decreasing]; [auto|].
  intros [H1 H2]. split; [|apply IH; exact H2].
  apply Forall_map. rewrite Hf. eapply Forall_impl; [|exact H1]. cbv beta. intros b Hb. rewrite Hf. exact Hb.
Qed.

(* Submit() and the return of a call: only the status of one entry changes *)
Lemma minv_astat : forall st0 m id s lk q w,
  minv st0 m -> (s = AReturn \/ s = ADone (m_now m)) ->
  minv st0 (upd m (m_vol m) lk (m_pend m) (set_astat id s (m_lin m)) q w).
Proof.
  intros st0 m id s lk q w [I1 I2 I3 I4 I5] Hs. constructor; cbn [upd m_now m_pend m_lin m_vol]; [| | | |exact I5].
  - apply pend_mono. exact I1.
  - unfold set_astat. apply Forall_map. eapply Forall_impl; [|exact I2]. cbv beta.
    intros a Ha. destruct (a_id a =? id); [|apply appl_ok_mono; exact Ha].
    destruct Ha as (H1 & H2 & H3). unfold appl_ok. cbn. repeat split; try lia.
    destruct Hs as [-> | ->]; [auto | lia].
  - unfold set_astat. apply at_decreasing_map; [|exact I3]. intro a. destruct (a_id a =? id); reflexivity.
  - unfold set_astat. rewrite <- map_rev, map_map. rewrite <- I4. apply seq_ok_map_ext.
    intro a. destruct (a_id a =? id); split; reflexivity.
Qed.

Lemma mstep_inv : forall st0 m l m', minv st0 m -> mstep m l = Some m' -> minv st0 m'.
Proof.
  intros st0 m l m' I H. pose proof (mi_pend _ _ I) as IP.
  destruct l as [id c|id t|id|id t| | | |t| | | |id| ]; cbn [mstep] in H.
  - (* LInv *) destruct (id_used m id); [discriminate|]. inversion H; subst. apply minv_book; [exact I|].
    constructor; [apply N.le_refl | exact IP].
  - (* LEnter *) destruct (find_pend id (m_pend m)) as [p|] eqn:F; [|discriminate].
    destruct (is_pstat (p_stat p) PInvoked); [|discriminate].
    match type of H with (if ?b then _ else _) = _ => destruct b end; inversion H; subst.
    + apply (minv_apply _ _ id _ _ _ _ _ I F). exact Logic.I.
    + exact (minv_book _ _ _ _ _ _ I (pend_set_pstat _ _ _ _ IP)).
  - (* LSend *) destruct (find_pend id (m_pend m)) as [p|] eqn:F; [|discriminate].
    match type of H with (if ?b then _ else _) = _ => destruct b end; inversion H; subst.
    exact (minv_book _ _ _ _ _ _ I (pend_set_pstat _ _ _ _ IP)).
  - (* LApply *) destruct (find_pend id (m_pend m)) as [p|] eqn:F; [|discriminate].
    match type of H with (if ?b then _ else _) = _ => destruct b end; inversion H; subst.
    apply (minv_apply _ _ id _ _ _ _ _ I F). exact Logic.I.
  - (* LRecv *) destruct (m_worker m) as [b|b|b|b td|td]; try discriminate.
    destruct (m_queue m) as [|id q]; [discriminate|]. inversion H; subst.
    exact (minv_book _ _ _ _ _ _ I (pend_set_pstat _ _ _ _ IP)).
  - (* LDecide *) destruct (m_worker m) as [b|b|b|b td|td]; try discriminate. inversion H; subst.
    exact (minv_book _ _ _ _ _ _ I IP).
  - (* LLock *) destruct (m_worker m) as [b|b|b|b td|td]; try discriminate.
    destruct (m_lock m); [discriminate|]. inversion H; subst.
    exact (minv_book _ _ _ _ _ _ I IP).
  - (* LWApply *) destruct (m_worker m) as [b|b|b|b td|td]; try discriminate.
    destruct td as [|id todo]; [discriminate|].
    destruct (find_pend id (m_pend m)) as [p|] eqn:F; [|discriminate].
    destruct (is_pstat (p_stat p) PBatched); [|discriminate]. inversion H; subst.
    apply (minv_apply _ _ id _ _ _ _ _ I F). exact Logic.I.
  - (* LSync *) destruct (m_worker m) as [b|b|b|b td|td]; try discriminate.
    destruct td; [|discriminate]. inversion H; subst.
    exact (minv_book _ _ _ _ _ _ I IP).
  - (* LSubmit *) destruct (m_worker m) as [b|b|b|b td|td]; try discriminate.
    destruct td as [|id todo]; [discriminate|]. inversion H; subst.
    apply minv_astat; [exact I | left; reflexivity].
  - (* LUnlock *) destruct (m_worker m) as [b|b|b|b td|td]; try discriminate.
    destruct td; [|discriminate]. inversion H; subst.
    exact (minv_book _ _ _ _ _ _ I IP).
  - (* LRes *) destruct (find_appl id (m_lin m)) as [a|]; [|discriminate].
    destruct (a_stat a); try discriminate. inversion H; subst.
    apply minv_astat; [exact I | right; reflexivity].
  - (* LStop *) inversion H; subst. destruct I as [I1 I2 I3 I4 I5]. constructor; cbn; auto.
    + apply pend_mono. exact I1.
    + eapply Forall_impl; [|exact I2]. apply appl_ok_mono.
Qed.

Lemma mrun_inv : forall st0 sched m m', minv st0 m -> mrun m sched = Some m' -> minv st0 m'.
Proof.
  intros st0. induction sched as [|l sched IH]; intros m m' I H; cbn [mrun] in H.
  - inversion H; subst. exact I.
  - destruct (mstep m l) as [m1|] eqn:E; [|discriminate]. eapply IH; [|exact H]. eapply mstep_inv; eauto.
Qed.

(* the order of the critical sections respects real time *)
Lemma rt_ok_rev_lin : forall now l,
  Forall (appl_ok now) l -> at_decreasing l -> forallb is_done l = true ->
  rt_ok (map orec_of (rev l)) = true.
Proof.
  intros now. induction l as [|a l IH]; intros HF HD HC; [reflexivity|].
  cbn [rev]. rewrite map_app. cbn [map]. rewrite rt_ok_snoc.
  inversion HF as [|? ? Ha HF']; subst. destruct HD as [HD1 HD2].
  cbn [forallb] in HC. apply andb_true_iff in HC. destruct HC as [HC1 HC2].
  rewrite (IH HF' HD2 HC2). cbn [andb].
  apply forallb_forall. intros x Hx. apply in_map_iff in Hx. destruct Hx as [b [<- Hb]].
  apply in_rev in Hb.
  rewrite Forall_forall in HD1, HF'. pose proof (HD1 b Hb) as Hlt. destruct (HF' b Hb) as (Hb1 & _).
  destruct Ha as (_ & _ & Ha3). unfold is_done in HC1.
  unfold precedes, orec_of. cbn [o_res o_inv].
  destruct (a_stat a) as [| |r]; try discriminate.
  apply negb_true_iff. apply N.ltb_ge. lia.
Qed.

(* C38, with respect to the sequential volume model *)
Theorem machine_linearizable : forall st0 b sched m,
  mrun (minit st0 b) sched = Some m -> complete m = true ->
  linearizable vol_nxt vol_acc st0 (fun st => st = m_vol m) (history m).
Proof.
  intros st0 b sched m Hrun Hc.
  pose proof (mrun_inv st0 sched _ _ (minv_init st0 b) Hrun) as [I1 I2 I3 I4 I5].
  unfold complete in Hc. destruct (m_pend m); [|discriminate].
  exists (map orec_of (rev (m_lin m))), (m_vol m). repeat split.
  - unfold history. apply Permutation_map. apply Permutation_sym. apply Permutation_rev.
  - eapply rt_ok_rev_lin; eauto.
  - exact I4.
Qed.

(* every finished critical section lies between the Inv and the Res of its call *)
Theorem machine_apply_between : forall st0 b sched m a,
  mrun (minit st0 b) sched = Some m -> In a (m_lin m) ->
  a_inv a <= a_at a /\ match a_stat a with ADone r => a_at a < r | _ => True end.
Proof.
  intros st0 b sched m a Hrun Hin.
  pose proof (mrun_inv st0 sched _ _ (minv_init st0 b) Hrun) as [I1 I2 I3 I4 I5].
  rewrite Forall_forall in I2. destruct (I2 a Hin) as (H1 & H2 & H3). split; [exact H1|].
  destruct (a_stat a); auto. tauto.
Qed.

(* in every reachable state the read-only flags are those of the volume as loaded *)
Theorem machine_flags_const : forall st0 b sched m,
  mrun (minit st0 b) sched = Some m -> same_flags (m_vol m) st0.
Proof.
  intros st0 b sched m Hrun.
  exact (mi_flags _ _ (mrun_inv st0 sched _ _ (minv_init st0 b) Hrun)).
Qed.

(* hence, on a writable volume, the critical section of a write (sync path and worker alike) is
   doWriteRequest: the IsReadOnly() test that Volume.step repeats is the one LEnter made *)
Theorem machine_write_is_do_write : forall st0 b sched m n t,
  is_read_only st0 = false -> mrun (minit st0 b) sched = Some m ->
  step (m_vol m) (t, Write n) =
  (fst (do_write (m_vol m) n t),
   OWrite (w_err (snd (do_write (m_vol m) n t))) (w_unchanged (snd (do_write (m_vol m) n t)))
          (w_size (snd (do_write (m_vol m) n t)))).
Proof.
  intros st0 b sched m n t Hro Hrun. destruct (machine_flags_const _ _ _ _ Hrun) as [F1 F2].
  unfold step, store_write. unfold is_read_only in *. rewrite F1, F2, Hro.
  destruct (do_write (m_vol m) n t) as [st' w]. reflexivity.
Qed.

(* a refused call returns without touching the volume *)
Lemma refused_pure : forall st t,
  (forall n, is_read_only st = true -> fst (step st (t, Write n)) = st) /\
  (forall id c, no_write_or_delete st = true -> fst (step st (t, RawDelete id c)) = st).
Proof.
  intros st t. split.
  - intros n H. unfold step, store_write. rewrite H. reflexivity.
  - intros id c H. unfold step, store_delete. rewrite H. reflexivity.
Qed.

Lemma seq_ok_vol : forall (lin : hist) st st',
  seq_ok vol_nxt vol_acc st lin = Some st' ->
  run st (map o_op lin) = map o_out lin /\ state_after st (map o_op lin) = st'.
Proof.
  induction lin as [|a lin IH]; intros st st' H; cbn [seq_ok map] in *.
  - inversion H; subst. split; reflexivity.
  - unfold vol_acc, vol_nxt in H. destruct (out_eqb (snd (step st (o_op a))) (o_out a)) eqn:E; [|discriminate].
    apply out_eqb_eq in E. destruct (IH _ _ H) as [H1 H2].
    cbn [run]. unfold state_after in *. cbn [fold_left]. destruct (step st (o_op a)) as [s1 o1]. cbn [fst snd] in *.
    subst o1. rewrite H1. split; [reflexivity | exact H2].
Qed.

Lemma no_conflict_sym : forall a b, no_conflict a b = no_conflict b a.
Proof. intros. unfold no_conflict. apply andb_comm. Qed.

Lemma pairwise_nc_perm : forall l l', Permutation l l' -> pairwise_nc l = pairwise_nc l'.
Proof.
  intros l l' H. induction H; cbn [pairwise_nc forallb].
  - reflexivity.
  - rewrite IHPermutation, (forallb_perm _ _ _ _ H). reflexivity.
  - rewrite (no_conflict_sym x y).
    destruct (no_conflict y x), (forallb (no_conflict y) l), (forallb (no_conflict x) l), (pairwise_nc l); reflexivity.
  - congruence.
Qed.

Lemma needles_of_cons : forall ev evs,
  needles_of (ev :: evs) = match op_needle (snd ev) with Some n => [n] | None => [] end ++ needles_of evs.
Proof. reflexivity. Qed.

Lemma meta_dup_pairwise : forall evs seen,
  pairwise_nc (needles_of evs) = true ->
  (forall n s, In n (needles_of evs) -> In s seen -> conflicts n s = false) ->
  meta_dup seen evs = false.
Proof.
  induction evs as [|ev evs IH]; intros seen HP HS; cbn [meta_dup]; [reflexivity|].
  rewrite needles_of_cons in HP, HS. destruct (op_needle (snd ev)) as [n|]; cbn [app] in HP, HS.
  - cbn [pairwise_nc] in HP. apply andb_true_iff in HP. destruct HP as [HP1 HP2].
    apply orb_false_iff. split.
    + destruct (existsb (conflicts n) seen) eqn:E; [|reflexivity].
      apply existsb_exists in E. destruct E as [s [Hs Hc]].
      rewrite (HS n s (or_introl eq_refl) Hs) in Hc. discriminate.
    + apply IH; [exact HP2|]. intros n' s Hn' [<-|Hs].
      * rewrite forallb_forall in HP1. pose proof (HP1 n' Hn') as Hnc. unfold no_conflict in Hnc.
        apply andb_true_iff in Hnc. destruct Hnc as [_ Hnc]. apply negb_true_iff in Hnc. exact Hnc.
      * apply HS; [right; exact Hn' | exact Hs].
  - apply IH; assumption.
Qed.

Lemma conc_ok_perm : forall evs evs', Permutation evs evs' -> conc_ok evs = true ->
  wf_history evs' = true /\ empty_payload evs' = false /\ meta_dup [] evs' = false.
Proof.
  intros evs evs' P H. unfold conc_ok in H.
  apply andb_true_iff in H. destruct H as [H H3]. apply andb_true_iff in H. destruct H as [H1 H2].
  apply negb_true_iff in H2. repeat split.
  - unfold wf_history in *. rewrite <- (forallb_perm _ _ _ _ P). exact H1.
  - unfold empty_payload in *. rewrite <- (existsb_perm _ _ _ _ P). exact H2.
  - apply meta_dup_pairwise; [|intros n s _ []].
    rewrite <- (pairwise_nc_perm (needles_of evs) (needles_of evs')); [exact H3|].
    unfold needles_of. apply Permutation_flat_map. exact P.
Qed.

