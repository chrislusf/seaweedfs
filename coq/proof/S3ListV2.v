(* C27: the request forms (model/S3ListV2.v) against the marker-level client of
   model/S3ListMut.v (run_m).  What the V2 handler makes of (continuation-token, start-after),
   and that a client that resends its start-after with every token sees the same pages. *)
From Coq Require Import List NArith ZArith Bool String Ascii Arith Lia.
From SW Require Import model.S3List model.S3ListMut model.S3ListV2.
Import ListNotations.
Local Open Scope string_scope.
Local Open Scope list_scope.

Lemma v2_marker_token_wins : forall token startAfter,
  token <> "" -> v2_marker token startAfter = token.
Proof.
  intros token sa H. unfold v2_marker. destruct (token =? "") eqn:E; [|reflexivity].
  apply String.eqb_eq in E. contradiction.
Qed.

Lemma v2_marker_no_token : forall startAfter, v2_marker "" startAfter = startAfter.
Proof. reflexivity. Qed.

Lemma v2_marker_no_start_after : forall token, v2_marker token "" = token.
Proof.
  intros token. unfold v2_marker. destruct (token =? "") eqn:E; [|reflexivity].
  apply String.eqb_eq in E. symmetry. exact E.
Qed.

(* the request parameters of the other API version, fetch-owner and encoding-type do not
   reach the listing *)
Lemma handler_marker_v1 : forall m t s fo enc, handler_marker (mk_req false m t s fo enc) = m.
Proof. reflexivity. Qed.

Lemma handler_marker_v2 : forall m t s fo enc,
  handler_marker (mk_req true m t s fo enc) = if t =? "" then s else t.
Proof. reflexivity. Qed.

Lemma handler_marker_v2_token_wins : forall m token startAfter fo enc,
  token <> "" -> handler_marker (mk_req true m token startAfter fo enc) = token.
Proof. intros m token sa fo enc H. exact (v2_marker_token_wins token sa H). Qed.

Lemma handler_marker_v2_no_token : forall m startAfter fo enc,
  handler_marker (mk_req true m "" startAfter fo enc) = startAfter.
Proof. reflexivity. Qed.

Lemma serve_only_marker : forall ae rootk prefix M delim rq rq',
  handler_marker rq = handler_marker rq' ->
  serve ae rootk prefix M delim rq = serve ae rootk prefix M delim rq'.
Proof. intros. unfold serve. rewrite H. reflexivity. Qed.

(* a resent start-after that is byte-wise GREATER than the token does not win: the
   concrete shape of the SDK-paginator request on a page boundary at "logs.tar.gz" *)
Lemma v2_marker_not_max :
  String.ltb "logs.tar.gz" "logs/a" = true /\
  handler_marker (mk_req true "" "logs.tar.gz" "logs/a" false false) = "logs.tar.gz".
Proof. vm_compute. split; reflexivity. Qed.

Lemma next_request_marker : forall cl p,
  cl_resend cl = false \/ (cl_style cl <> V2StartAfter /\ (pg_next p =? "") = false) ->
  option_map handler_marker (next_request cl p) = next_marker (cl_style cl) p.
Proof.
  intros cl p H. unfold next_request, next_marker.
  destruct (cl_style cl) eqn:Est.
  - (* V2Token *)
    cbn [option_map]. unfold v2_request, handler_marker. cbn [rq_v2 rq_token rq_start_after].
    destruct H as [H|[_ H]].
    + rewrite H. rewrite v2_marker_no_start_after. reflexivity.
    + unfold v2_marker. rewrite H. reflexivity.
  - reflexivity.
  - destruct (last_key p); reflexivity.
  - destruct H as [H|[H _]]; [|congruence].
    rewrite H. destruct (last_key p); reflexivity.
Qed.

Definition strip (l : list (request * page)) : list (string * page) :=
  map (fun x => (handler_marker (fst x), snd x)) l.

(* the pages and the final tree of the request-level client are those of the marker-level
   client started at the first request's marker, provided the client does not resend, or it
   resends (continuation-token style or V1) and no truncated page has an empty token *)
Lemma run_v_run_m : forall n ae rootk prefix M delim cl rq,
  cl_resend cl = false \/
  (cl_style cl <> V2StartAfter /\
   tokens_nonempty (fst (run_m n ae rootk prefix M delim (cl_style cl) (handler_marker rq))) = true) ->
  run_m n ae rootk prefix M delim (cl_style cl) (handler_marker rq) =
  (strip (fst (run_v n ae rootk prefix M delim cl rq)), snd (run_v n ae rootk prefix M delim cl rq)).
Proof.
  induction n as [|n IH]; intros ae rootk prefix M delim cl rq H; cbn [run_m run_v].
  - reflexivity.
  - unfold serve.
    cbn [run_m] in H.
    destruct (list_objects_m ae rootk prefix M (handler_marker rq) delim) as [p rk] eqn:Ep.
    destruct (pg_trunc p) eqn:Et; [|reflexivity].
    assert (Hnext : option_map handler_marker (next_request cl p) = next_marker (cl_style cl) p).
    { apply next_request_marker. destruct H as [H|[Hs H]]; [left; exact H|right; split; [exact Hs|]].
      destruct (next_marker (cl_style cl) p) as [m|]; [destruct (run_m n ae rk prefix M delim (cl_style cl) m) as [l rk']|];
        cbn [fst tokens_nonempty forallb snd] in H; apply andb_prop in H; destruct H as [H _];
        rewrite Et in H; cbn [negb orb] in H; apply negb_true_iff in H; exact H. }
    destruct (next_request cl p) as [rq'|]; cbn [option_map] in Hnext; rewrite <- Hnext.
    + assert (H' : cl_resend cl = false \/
                   (cl_style cl <> V2StartAfter /\
                    tokens_nonempty (fst (run_m n ae rk prefix M delim (cl_style cl) (handler_marker rq'))) = true)).
      { destruct H as [H|[Hs H]]; [left; exact H|right; split; [exact Hs|]].
        rewrite <- Hnext in H.
        destruct (run_m n ae rk prefix M delim (cl_style cl) (handler_marker rq')) as [l rk'].
        cbn [fst tokens_nonempty forallb] in H. apply andb_prop in H. destruct H as [_ H]. exact H. }
      rewrite (IH ae rk prefix M delim cl rq' H').
      destruct (run_v n ae rk prefix M delim cl rq') as [l rk']. reflexivity.
    + reflexivity.
Qed.

Lemma run_client_run_m : forall n ae rootk prefix M delim cl,
  cl_resend cl = false \/
  (cl_style cl <> V2StartAfter /\
   tokens_nonempty (fst (run_m n ae rootk prefix M delim (cl_style cl) (handler_marker (first_request cl)))) = true) ->
  map snd (fst (run_client n ae rootk prefix M delim cl)) =
    map snd (fst (run_m n ae rootk prefix M delim (cl_style cl) (handler_marker (first_request cl)))) /\
  snd (run_client n ae rootk prefix M delim cl) =
    snd (run_m n ae rootk prefix M delim (cl_style cl) (handler_marker (first_request cl))).
Proof.
  intros n ae rootk prefix M delim cl H. unfold run_client.
  rewrite (run_v_run_m n ae rootk prefix M delim cl (first_request cl) H).
  cbn [fst snd]. split; [|reflexivity]. unfold strip. rewrite map_map. reflexivity.
Qed.

(* the SDK-paginator form: continuation-token style, the original start-after resent with
   every token, any stray parameters / fetch-owner / encoding-type *)
Lemma resend_start_after_same_pages : forall n ae rootk prefix M delim start stray fo enc resend,
  let cl := mk_client V2Token resend start stray fo enc in
  tokens_nonempty (fst (run_m n ae rootk prefix M delim V2Token start)) = true ->
  map snd (fst (run_client n ae rootk prefix M delim cl)) =
    map snd (fst (run_m n ae rootk prefix M delim V2Token start)) /\
  snd (run_client n ae rootk prefix M delim cl) = snd (run_m n ae rootk prefix M delim V2Token start).
Proof.
  intros n ae rootk prefix M delim start stray fo enc resend cl H.
  apply (run_client_run_m n ae rootk prefix M delim cl). right. split; [discriminate | exact H].
Qed.

Lemma plain_client_is_run_m : forall n ae rootk prefix M delim st start stray fo enc,
  let cl := mk_client st false start stray fo enc in
  map snd (fst (run_client n ae rootk prefix M delim cl)) =
    map snd (fst (run_m n ae rootk prefix M delim st start)) /\
  snd (run_client n ae rootk prefix M delim cl) = snd (run_m n ae rootk prefix M delim st start).
Proof.
  intros n ae rootk prefix M delim st start stray fo enc cl.
  pose proof (run_client_run_m n ae rootk prefix M delim cl (or_introl eq_refl)) as E.
  replace (handler_marker (first_request cl)) with start in E by (destruct st; reflexivity). exact E.
Qed.

(* non-vacuity: a bucket with logs/a..c beside logs.tar.gz, start-after = logs/a resent,
   max-keys 1: four pages, the token "logs.tar.gz" (below the start-after) is followed *)
Definition t_v2 : list tree :=
  [Dir "logs" [File "a"; File "b"; File "c"]; File "logs.tar.gz"; File "m"].

Lemma resend_example :
  wf t_v2 = true /\
  tokens_nonempty (fst (run_m 10 true t_v2 "" 1 false V2Token "logs/a")) = true /\
  map (fun x => pg_keys (snd x))
      (fst (run_client 10 true t_v2 "" 1 false (mk_client V2Token true "logs/a" "" true true))) =
    [["logs/b"]; ["logs/c"]; ["logs.tar.gz"]; ["m"]] /\
  map (fun x => (rq_token (fst x), rq_start_after (fst x)))
      (fst (run_client 10 true t_v2 "" 1 false (mk_client V2Token true "logs/a" "" true true))) =
    [("", "logs/a"); ("logs/b", "logs/a"); ("logs/c", "logs/a"); ("logs.tar.gz", "logs/a")].
Proof. vm_compute. repeat split; reflexivity. Qed.
