(* C08, model/Codecs.v, encoder-then-decoder direction: decimal and hexadecimal numerals (itoa/dec_val,
   hex_of_bytes/hex_val), then per codec the round trip and what an accepted input denotes.  The exact
   acceptance conditions and the width-indexed index codec are in CodecsAccept.v. *)
From Coq Require Import List NArith ZArith Bool Lia ZifyBool ZifyN ZifyNat.
From SW Require Import model.Needle model.Codecs proof.NeedleProofs.
Import ListNotations.
Local Open Scope N_scope.

Lemma dec_val_app : forall a b acc,
  dec_val (a ++ b) acc = match dec_val a acc with Some v => dec_val b v | None => None end.
Proof.
  induction a as [|c a IH]; intros b acc; [reflexivity|].
  cbn [app dec_val]. destruct (is_digit c); [apply IH|reflexivity].
Qed.

Lemma dec_val_digits : forall l acc v, dec_val l acc = Some v -> Forall (fun c => is_digit c = true) l.
Proof.
  induction l as [|c l IH]; intros acc v H; [constructor|].
  cbn [dec_val] in H. destruct (is_digit c) eqn:E; [|discriminate].
  constructor; [assumption|]. eapply IH; eassumption.
Qed.

Lemma dec_val_digit : forall d r acc, d < 10 -> dec_val ((48 + d) :: r) acc = dec_val r (acc * 10 + d).
Proof.
  intros d r acc H. cbn [dec_val]. unfold is_digit.
  destruct ((48 <=? 48 + d) && (48 + d <=? 57)) eqn:E; [f_equal; lia|lia].
Qed.

Lemma dec_digits_spec : forall fuel n acc, n < 2 ^ N.of_nat (S fuel) ->
  exists ds w, dec_digits (S fuel) n acc = ds ++ acc /\ ds <> [] /\
               forall k, dec_val ds k = Some (k * w + n).
Proof.
  induction fuel as [|f IH]; intros n acc Hn; cbn [dec_digits]; destruct (n <? 10) eqn:E.
  1, 3: exists [48 + n mod 10], 10; split; [reflexivity|]; split; [discriminate|];
    intros k; rewrite dec_val_digit by lia; cbn [dec_val]; f_equal; lia.
  - change (2 ^ N.of_nat 1) with 2 in Hn. lia.
  - assert (Hn' : n / 10 < 2 ^ N.of_nat (S f)).
    { replace (N.of_nat (S (S f))) with (N.succ (N.of_nat (S f))) in Hn by lia.
      rewrite N.pow_succ_r' in Hn. lia. }
    destruct (IH (n / 10) ((48 + n mod 10) :: acc) Hn') as [ds [w [Hd [Hne Hv]]]].
    exists (ds ++ [48 + n mod 10]), (w * 10). split.
    { change (dec_digits (S f) (n / 10) ((48 + n mod 10) :: acc) = (ds ++ [48 + n mod 10]) ++ acc).
      rewrite Hd, <- app_assoc. reflexivity. }
    split; [destruct ds; discriminate|].
    intros k. rewrite dec_val_app, Hv, dec_val_digit by lia. cbn [dec_val]. f_equal. lia.
Qed.

Lemma itoa_spec : forall n, itoa n <> [] /\ dec_val (itoa n) 0 = Some n.
Proof.
  intros n. unfold itoa.
  assert (Hn : n < 2 ^ N.of_nat (S (N.to_nat (N.log2 n)))).
  { replace (N.of_nat (S (N.to_nat (N.log2 n)))) with (N.succ (N.log2 n)) by lia.
    destruct (N.eq_dec n 0) as [-> | Hz]; [reflexivity|].
    apply N.log2_spec. lia. }
  destruct (dec_digits_spec _ n [] Hn) as [ds [w [Hd [Hne Hv]]]].
  rewrite Hd, app_nil_r. split; [assumption|]. rewrite Hv. f_equal; lia.
Qed.

Lemma itoa_digits : forall n, Forall (fun c => is_digit c = true) (itoa n).
Proof. intros n. destruct (itoa_spec n) as [_ H]. eapply dec_val_digits; eassumption. Qed.

Lemma itoa_not_in : forall n c, is_digit c = false -> ~ In c (itoa n).
Proof.
  intros n c Hc Hin. pose proof (itoa_digits n) as H. rewrite Forall_forall in H.
  apply H in Hin. congruence.
Qed.

Lemma parse_uint_dec_itoa : forall bits n, n < 2 ^ bits -> parse_uint_dec bits (itoa n) = Some n.
Proof.
  intros bits n H. destruct (itoa_spec n) as [Hne Hv]. unfold parse_uint_dec.
  destruct (itoa n) as [|c r] eqn:E; [congruence|]. rewrite Hv.
  destruct (n <? 2 ^ bits) eqn:E2; [reflexivity|lia].
Qed.

Lemma parse_uint_dec_sound : forall bits s v, parse_uint_dec bits s = Some v ->
  s <> [] /\ dec_val s 0 = Some v /\ v < 2 ^ bits.
Proof.
  intros bits s v H. unfold parse_uint_dec in H. destruct s as [|c r]; [discriminate|].
  destruct (dec_val (c :: r) 0) as [x|] eqn:E; [|discriminate].
  destruct (x <? 2 ^ bits) eqn:E2; [|discriminate]. inversion H; subst.
  split; [discriminate|]. split; [reflexivity|lia].
Qed.

Lemma volume_id_roundtrip : forall v, v < 2 ^ 32 -> new_volume_id (vid_string v) = Some v.
Proof. intros. apply parse_uint_dec_itoa. assumption. Qed.

Lemma volume_id_reject : forall s v, new_volume_id s = Some v ->
  s <> [] /\ dec_val s 0 = Some v /\ v < 2 ^ 32.
Proof. intros s v H. apply parse_uint_dec_sound in H. assumption. Qed.

Definition ttl_canon (t : ttl) : bool :=
  let '(c, u) := t in negb (c =? 0) && (1 <=? u) && (u <=? 6).

Lemma atoi_itoa : forall n, n < 2 ^ 63 -> atoi (itoa n) = Some (Z.of_N n).
Proof.
  intros n H. destruct (itoa_spec n) as [Hne Hv]. pose proof (itoa_digits n) as Hd.
  unfold atoi. destruct (itoa n) as [|c r]; [congruence|].
  inversion Hd as [|? ? Hc _]; subst. unfold is_digit in Hc.
  destruct (c =? 43) eqn:E1; [lia|]. destruct (c =? 45) eqn:E2; [lia|].
  rewrite Hv. change (2 ^ 63) with 9223372036854775808 in H.
  destruct (n <? 9223372036854775808) eqn:E3; [reflexivity|lia].
Qed.

(* a count followed by a unit letter: the letter is split off, the count is read back *)
Lemma read_ttl_count_unit : forall c ch, c < 256 -> is_digit ch = false -> to_stored_byte ch <> 0 ->
  read_ttl (itoa c ++ [ch]) = Some (c, to_stored_byte ch).
Proof.
  intros c ch Hc Hd Hu. unfold read_ttl.
  destruct (itoa c ++ [ch]) eqn:E; [destruct (itoa c); discriminate|]. rewrite <- E.
  unfold ttl_split. rewrite last_last, Hd, removelast_last, atoi_itoa.
  - destruct ((Z.of_N c <? 0)%Z || (255 <? Z.of_N c)%Z) eqn:E1; [lia|].
    destruct (to_stored_byte ch =? 0) eqn:E2; [lia|]. rewrite N2Z.id. reflexivity.
  - change (2 ^ 63) with 9223372036854775808. lia.
Qed.

(* the six unit letters are no digits and are stored as the unit they print *)
Lemma unit_char_spec : forall u,
  match unit_char u with
  | Some ch => is_digit ch = false /\ to_stored_byte ch = u /\ (1 <=? u) && (u <=? 6) = true
  | None => (1 <=? u) && (u <=? 6) = false
  end.
Proof.
  intros u. unfold unit_char.
  do 6 (match goal with |- context [u =? ?k] =>
          destruct (N.eqb_spec u k) as [->|?]; [repeat split; reflexivity|] end).
  lia.
Qed.

(* ReadTTL(t.String()) for every count and unit byte: canonical TTLs (count >= 1, unit 1..6)
   come back exactly, every other TTL prints as "" and comes back as the empty TTL *)
Lemma ttl_string_roundtrip : forall c u, c < 256 -> u < 256 ->
  read_ttl (ttl_string (c, u)) = Some (if ttl_canon (c, u) then (c, u) else (0, 0)).
Proof.
  intros c u Hc _. unfold ttl_string, ttl_canon. destruct (c =? 0); [reflexivity|]. cbn [negb andb].
  pose proof (unit_char_spec u) as Hu. destruct (unit_char u) as [ch|].
  - destruct Hu as (Hd & Hs & Hr).
    rewrite read_ttl_count_unit by (rewrite ?Hs; assumption || lia). rewrite Hs, Hr. reflexivity.
  - rewrite Hu. reflexivity.
Qed.

Lemma ttl_bytes_roundtrip : forall t, load_ttl_bytes (ttl_to_bytes t) = t.
Proof. intros [c u]. reflexivity. Qed.

Lemma ttl_u32_roundtrip : forall c u, c < 256 -> u < 256 ->
  load_ttl_u32 (ttl_to_u32 (c, u)) = if c =? 0 then (0, 0) else (c, u).
Proof.
  intros c u Hc Hu. unfold load_ttl_u32, ttl_to_u32. destruct (c =? 0) eqn:E; [reflexivity|].
  f_equal; lia.
Qed.

(* what ReadTTL accepts: the count is exactly the integer written (no wrap), 0..255, and the
   unit letter is a known one *)
Lemma read_ttl_sound : forall s c u, s <> [] -> read_ttl s = Some (c, u) ->
  atoi (fst (ttl_split s)) = Some (Z.of_N c) /\ c <= 255 /\
  u = to_stored_byte (snd (ttl_split s)) /\ 1 <= u <= 6.
Proof.
  intros s c u Hne H. unfold read_ttl in H. destruct s as [|x r]; [congruence|].
  destruct (ttl_split (x :: r)) as [cb ub]. cbn [fst snd].
  destruct (atoi cb) as [count|]; [|discriminate].
  destruct ((count <? 0)%Z || (255 <? count)%Z) eqn:E1; [discriminate|].
  destruct (to_stored_byte ub =? 0) eqn:E2; [discriminate|].
  inversion H; subst. split; [f_equal; lia|]. split; [lia|]. split; [reflexivity|].
  unfold to_stored_byte in *.
  repeat (destruct (ub =? _); [lia|]). lia.
Qed.

Lemma hex_digit_char : forall n, n < 16 -> hex_digit_val (hex_char n) = Some n.
Proof.
  intros n H. unfold hex_char, hex_digit_val. destruct (n <? 10) eqn:E.
  - replace ((48 <=? 48 + n) && (48 + n <=? 57)) with true by lia. f_equal. lia.
  - replace ((48 <=? 87 + n) && (87 + n <=? 57)) with false by lia.
    replace ((97 <=? 87 + n) && (87 + n <=? 102)) with true by lia. f_equal. lia.
Qed.

Lemma hex_char_not : forall n c, n < 16 -> c < 48 \/ (57 < c /\ c < 97) \/ 102 < c -> hex_char n <> c.
Proof. intros n c H Hc. unfold hex_char. destruct (n <? 10) eqn:E; lia. Qed.

Lemma hex_of_bytes_app : forall a b, hex_of_bytes (a ++ b) = hex_of_bytes a ++ hex_of_bytes b.
Proof. intros. unfold hex_of_bytes. apply flat_map_app. Qed.

Lemma hex_of_bytes_cons : forall b l,
  hex_of_bytes (b :: l) = hex_char (b / 16) :: hex_char (b mod 16) :: hex_of_bytes l.
Proof. reflexivity. Qed.

Lemma len_hex_of_bytes : forall l, len (hex_of_bytes l) = 2 * len l.
Proof.
  induction l as [|b l IH]; [reflexivity|].
  rewrite hex_of_bytes_cons.
  rewrite !len_cons, IH. lia.
Qed.

Lemma hex_val_bytes : forall l acc, bytes_ok l ->
  hex_val (hex_of_bytes l) acc = Some (fold_left (fun a b => a * 256 + b) l acc).
Proof.
  induction l as [|b l IH]; intros acc H; [reflexivity|].
  inversion H as [|? ? Hb Hl]; subst.
  rewrite hex_of_bytes_cons.
  cbn [hex_val fold_left]. rewrite !hex_digit_char by lia. rewrite IH by assumption.
  f_equal. f_equal. lia.
Qed.

Lemma hex_of_bytes_not_in : forall l c, bytes_ok l -> c < 48 \/ (57 < c /\ c < 97) \/ 102 < c ->
  ~ In c (hex_of_bytes l).
Proof.
  induction l as [|b l IH]; intros c H Hc Hin; [inversion Hin|].
  inversion H as [|? ? Hb Hl]; subst.
  rewrite hex_of_bytes_cons in Hin.
  destruct Hin as [E|[E|Hin]].
  - revert E. apply hex_char_not; [lia|assumption].
  - revert E. apply hex_char_not; [lia|assumption].
  - eapply IH; eassumption.
Qed.

Lemma parse_uint_hex_bytes : forall bits l, bytes_ok l -> l <> [] -> be_decode l < 2 ^ bits ->
  parse_uint_hex bits (hex_of_bytes l) = Some (be_decode l).
Proof.
  intros bits l Hok Hne Hlt. unfold parse_uint_hex.
  destruct (hex_of_bytes l) as [|c r] eqn:E.
  { exfalso. apply Hne. apply len_zero_nil.
    pose proof (len_hex_of_bytes l) as Hl. rewrite E, len_nil in Hl. lia. }
  rewrite <- E, hex_val_bytes by assumption. fold (be_decode l).
  destruct (be_decode l <? 2 ^ bits) eqn:E2; [reflexivity|lia].
Qed.

Lemma strip_zeros_app : forall k K C, (k <= length K)%nat -> strip_zeros k (K ++ C) = strip_zeros k K ++ C.
Proof.
  induction k as [|k IH]; intros K C H; [reflexivity|].
  destruct K as [|x K]; [cbn [length] in H; lia|].
  cbn [length] in H. cbn [app strip_zeros]. destruct x; [apply IH; lia|reflexivity].
Qed.

Lemma strip_zeros_decode : forall k l, be_decode (strip_zeros k l) = be_decode l.
Proof.
  induction k as [|k IH]; intros l; [reflexivity|].
  destruct l as [|x l]; [reflexivity|]. destruct x; [|reflexivity].
  cbn [strip_zeros]. rewrite IH. reflexivity.
Qed.

Lemma strip_zeros_ok : forall k l, bytes_ok l -> bytes_ok (strip_zeros k l).
Proof.
  induction k as [|k IH]; intros l H; [assumption|].
  destruct l as [|x l]; [assumption|]. destruct x; [|assumption].
  cbn [strip_zeros]. apply IH. inversion H; assumption.
Qed.

Lemma strip_zeros_len : forall k l, len (strip_zeros k l) <= len l <= len (strip_zeros k l) + N.of_nat k.
Proof.
  induction k as [|k IH]; intros l; [cbn [strip_zeros]; lia|].
  destruct l as [|x l]; [cbn [strip_zeros]; rewrite len_nil; lia|]. destruct x; [|cbn [strip_zeros]; lia].
  cbn [strip_zeros]. rewrite len_cons. specialize (IH l). lia.
Qed.

Lemma format_key_cookie_split : forall key cookie,
  format_key_cookie key cookie =
  hex_of_bytes (strip_zeros 7 (be_encode 8 key)) ++ hex_of_bytes (be_encode 4 cookie).
Proof.
  intros. unfold format_key_cookie.
  assert (H8 : length (be_encode 8 key) = 8%nat).
  { pose proof (len_be_encode 8 key) as H. unfold len in H. lia. }
  rewrite strip_zeros_app by lia. apply hex_of_bytes_app.
Qed.

(* the repaired loop keeps at least one key byte, whatever the key (0 included) *)
Lemma key_part_len : forall key, 1 <= len (strip_zeros 7 (be_encode 8 key)) <= 8.
Proof.
  intros key. pose proof (strip_zeros_len 7 (be_encode 8 key)) as H. rewrite len_be_encode in H.
  change (N.of_nat 7) with 7 in H. lia.
Qed.

Lemma parse_key_cookie_format : forall key cookie, key < 2 ^ 64 -> cookie < 2 ^ 32 ->
  parse_key_cookie (format_key_cookie key cookie) = Some (key, cookie).
Proof.
  intros key cookie Hk Hc. rewrite format_key_cookie_split.
  pose proof (key_part_len key) as HAlen.
  set (A := strip_zeros 7 (be_encode 8 key)) in *.
  assert (HA : be_decode A = key).
  { unfold A. rewrite strip_zeros_decode. apply be_decode_encode. assumption. }
  assert (HAok : bytes_ok A) by (apply strip_zeros_ok, be_encode_bytes_ok).
  assert (HAne : A <> []) by (intro E; rewrite E, len_nil in HAlen; lia).
  assert (HC : len (hex_of_bytes (be_encode 4 cookie)) = 8)
    by (rewrite len_hex_of_bytes, len_be_encode; reflexivity).
  unfold parse_key_cookie.
  rewrite len_app, HC, len_hex_of_bytes.
  destruct (2 * len A + 8 <=? 8) eqn:E1; [lia|].
  destruct (24 <? 2 * len A + 8) eqn:E2; [lia|].
  replace (2 * len A + 8 - 8) with (2 * len A) by lia.
  rewrite takeN_app, dropN_app by apply len_hex_of_bytes.
  rewrite parse_uint_hex_bytes by (auto; rewrite HA; assumption).
  rewrite parse_uint_hex_bytes.
  - rewrite HA, be_decode_encode by assumption. reflexivity.
  - apply be_encode_bytes_ok.
  - intro E. pose proof (len_be_encode 4 cookie) as H. rewrite E in H. discriminate H.
  - rewrite be_decode_encode by assumption. assumption.
Qed.

Lemma dropN_sep : forall A (a : list A) c b k, len a = k -> dropN (k + 1) (a ++ c :: b) = b.
Proof.
  intros A a c b k H. change (a ++ c :: b) with (a ++ [c] ++ b).
  rewrite app_assoc. apply dropN_app. rewrite len_app, H. reflexivity.
Qed.

Lemma index_of_app : forall c a b i, ~ In c a -> index_of c (a ++ c :: b) i = Some (i + len a).
Proof.
  intros c a. induction a as [|x a IH]; intros b i Hn.
  - cbn [app index_of]. rewrite N.eqb_refl. f_equal. rewrite len_nil. lia.
  - cbn [app index_of]. destruct (x =? c) eqn:E.
    + exfalso. apply Hn. left. lia.
    + rewrite IH by (intro; apply Hn; right; assumption). f_equal. rewrite len_cons. lia.
Qed.

Lemma index_of_not_in : forall c s i, ~ In c s -> index_of c s i = None.
Proof.
  intros c s. induction s as [|x s IH]; intros i Hn; [reflexivity|].
  cbn [index_of]. destruct (x =? c) eqn:E.
  - exfalso. apply Hn. left. lia.
  - apply IH. intro. apply Hn. right. assumption.
Qed.

(* a string that holds c, cut at its first and at its last c *)
Lemma split_first : forall (c : N) s, In c s -> exists a b, s = a ++ c :: b /\ ~ In c a.
Proof.
  intros c s. induction s as [|x s IH]; intros H; [destruct H|].
  destruct (N.eq_dec x c) as [->|Hx]; [exists [], s; split; [reflexivity|intros []]|].
  destruct H as [H|H]; [congruence|]. destruct (IH H) as [a [b [-> Hn]]].
  exists (x :: a), b. split; [reflexivity|]. intros [E|E]; [congruence|contradiction].
Qed.

Lemma split_last : forall (c : N) s, In c s -> exists a b, s = a ++ c :: b /\ ~ In c b.
Proof.
  intros c s. induction s as [|x s IH]; intros H; [destruct H|].
  destruct (in_dec N.eq_dec c s) as [Hs|Hs].
  - destruct (IH Hs) as [a [b [-> Hn]]]. exists (x :: a), b. split; [reflexivity|assumption].
  - destruct H as [->|H]; [|contradiction]. exists [], s. split; [reflexivity|assumption].
Qed.

Lemma last_index_not_in : forall c s i found, ~ In c s -> last_index_of c s i found = found.
Proof.
  intros c s. induction s as [|x s IH]; intros i found Hn; [reflexivity|].
  cbn [last_index_of]. destruct (x =? c) eqn:E.
  - exfalso. apply Hn. left. lia.
  - apply IH. intro. apply Hn. right. assumption.
Qed.

Lemma last_index_app : forall c a b i found, ~ In c b ->
  last_index_of c (a ++ c :: b) i found = Some (i + len a).
Proof.
  intros c a. induction a as [|x a IH]; intros b i found Hn.
  - cbn [app last_index_of]. rewrite N.eqb_refl, last_index_not_in by assumption.
    f_equal. rewrite len_nil. lia.
  - cbn [app last_index_of]. rewrite IH by assumption. f_equal. rewrite len_cons. lia.
Qed.

Lemma format_ok_chars : forall key cookie c, c < 48 \/ (57 < c /\ c < 97) \/ 102 < c ->
  ~ In c (format_key_cookie key cookie).
Proof.
  intros. unfold format_key_cookie. apply hex_of_bytes_not_in; [|assumption].
  apply strip_zeros_ok. apply Forall_app. split; apply be_encode_bytes_ok.
Qed.

Lemma file_id_roundtrip : forall vid key cookie, vid < 2 ^ 32 -> key < 2 ^ 64 ->
  cookie < 2 ^ 32 -> parse_file_id (fid_string vid key cookie) = Some (vid, key, cookie).
Proof.
  intros vid key cookie Hv Hk Hc. unfold parse_file_id, fid_string, vid_string.
  cbn [app]. rewrite index_of_app by (apply itoa_not_in; reflexivity).
  destruct (itoa_spec vid) as [Hne _].
  assert (Hl : len (itoa vid) <> 0) by (intro E; apply Hne, len_zero_nil, E).
  destruct (0 + len (itoa vid) =? 0) eqn:E; [lia|].
  replace (0 + len (itoa vid)) with (len (itoa vid)) by lia.
  rewrite takeN_app by reflexivity.
  rewrite dropN_sep by reflexivity.
  unfold new_volume_id. rewrite parse_uint_dec_itoa by assumption.
  rewrite parse_key_cookie_format by assumption. reflexivity.
Qed.

(* the printed key part is never empty and never longer than 16 digits: 10..24 characters in all *)
Lemma len_format_range : forall key cookie, 10 <= len (format_key_cookie key cookie) <= 24.
Proof.
  intros key cookie. rewrite format_key_cookie_split, len_app, !len_hex_of_bytes, len_be_encode.
  pose proof (key_part_len key). lia.
Qed.

Lemma parse_path_plain : forall key cookie, key < 2 ^ 64 -> cookie < 2 ^ 32 ->
  parse_path (format_key_cookie key cookie) = Some (key, cookie).
Proof.
  intros key cookie Hk Hc. unfold parse_path.
  pose proof (len_format_range key cookie) as Hl.
  destruct (len (format_key_cookie key cookie) <=? 8) eqn:E; [lia|].
  rewrite last_index_not_in by (apply format_ok_chars; lia).
  rewrite parse_key_cookie_format by assumption. reflexivity.
Qed.

Lemma parse_path_delta : forall key cookie d, key < 2 ^ 64 -> cookie < 2 ^ 32 -> d < 2 ^ 64 ->
  parse_path (format_key_cookie key cookie ++ [95] ++ itoa d) =
    Some ((key + d) mod 18446744073709551616, cookie).
Proof.
  intros key cookie d Hk Hc Hd. unfold parse_path.
  pose proof (len_format_range key cookie) as Hl.
  destruct (len (format_key_cookie key cookie ++ [95] ++ itoa d) <=? 8) eqn:E.
  { rewrite len_app in E. lia. }
  cbn [app]. rewrite last_index_app by (apply itoa_not_in; reflexivity).
  destruct (0 <? 0 + len (format_key_cookie key cookie)) eqn:E2; [|lia].
  replace (0 + len (format_key_cookie key cookie)) with (len (format_key_cookie key cookie)) by lia.
  rewrite takeN_app by reflexivity.
  rewrite dropN_sep by reflexivity.
  rewrite parse_key_cookie_format by assumption.
  destruct (itoa_spec d) as [Hne _]. destruct (itoa d) as [|x r] eqn:Ei; [congruence|].
  rewrite <- Ei, parse_uint_dec_itoa by assumption. reflexivity.
Qed.

(* whatever ParseNeedleIdCookie accepts has 9..24 characters, and key and cookie are the
   hexadecimal values of the two parts, cookie = the last 8 characters *)
Lemma parse_key_cookie_sound : forall s key cookie, parse_key_cookie s = Some (key, cookie) ->
  8 < len s <= 24 /\ hex_val (takeN (len s - 8) s) 0 = Some key /\ key < 2 ^ 64 /\
  hex_val (dropN (len s - 8) s) 0 = Some cookie /\ cookie < 2 ^ 32.
Proof.
  intros s key cookie H. unfold parse_key_cookie in H.
  destruct (len s <=? 8) eqn:E1; [discriminate|].
  destruct (24 <? len s) eqn:E2; [discriminate|].
  unfold parse_uint_hex in H.
  destruct (takeN (len s - 8) s) as [|a ra] eqn:Ea; [discriminate|].
  destruct (hex_val (a :: ra) 0) as [k|] eqn:Ek; [|discriminate].
  destruct (k <? 2 ^ 64) eqn:Ek2; [|discriminate].
  destruct (dropN (len s - 8) s) as [|b rb] eqn:Eb; [discriminate|].
  destruct (hex_val (b :: rb) 0) as [c|] eqn:Ec; [|discriminate].
  destruct (c <? 2 ^ 32) eqn:Ec2; [|discriminate].
  inversion H; subst. repeat split; try lia; reflexivity.
Qed.

Lemma rp_cases : forall x, x <= 2 -> x = 0 \/ x = 1 \/ x = 2.
Proof. intros. lia. Qed.

Lemma rp_string_roundtrip : forall dc rack same, dc <= 2 -> rack <= 2 -> same <= 2 ->
  rp_from_string (rp_string (dc, rack, same)) = Some (dc, rack, same).
Proof.
  intros dc rack same H1 H2 H3.
  destruct (rp_cases dc H1) as [-> | [-> | ->]]; destruct (rp_cases rack H2) as [-> | [-> | ->]];
    destruct (rp_cases same H3) as [-> | [-> | ->]]; reflexivity.
Qed.

Lemma rp_byte_roundtrip : forall dc rack same, dc <= 2 -> rack <= 2 -> same <= 2 ->
  rp_from_byte (rp_byte (dc, rack, same)) = Some (dc, rack, same).
Proof.
  intros dc rack same H1 H2 H3.
  destruct (rp_cases dc H1) as [-> | [-> | ->]]; destruct (rp_cases rack H2) as [-> | [-> | ->]];
    destruct (rp_cases same H3) as [-> | [-> | ->]]; reflexivity.
Qed.

Lemma rp_string3_sound : forall a b c r, rp_parse 0 [a; b; c] (0, 0, 0) = Some r ->
  rp_valid r = true /\ rp_string r = [a; b; c].
Proof.
  intros a b c r H. cbn [rp_parse] in H.
  destruct ((48 <=? a) && (a <=? 50)) eqn:Ea; [|discriminate].
  change (0 =? 0) with true in H. cbn iota in H. cbn [rp_parse] in H.
  destruct ((48 <=? b) && (b <=? 50)) eqn:Eb; [|discriminate].
  change (0 + 1 =? 0) with false in H. change (0 + 1 =? 1) with true in H. cbn iota in H.
  cbn [rp_parse] in H.
  destruct ((48 <=? c) && (c <=? 50)) eqn:Ec; [|discriminate].
  change (0 + 1 + 1 =? 0) with false in H. change (0 + 1 + 1 =? 1) with false in H.
  change (0 + 1 + 1 =? 2) with true in H. cbn iota in H. inversion H; subst.
  unfold rp_valid, rp_string. split; [lia|].
  f_equal; [|f_equal; [|f_equal]]; lia.
Qed.

Lemma rp_parse_chars : forall s i r r', rp_parse i s r = Some r' ->
  Forall (fun c => 48 <= c <= 50) s.
Proof.
  induction s as [|c s IH]; intros i r r' H; [constructor|].
  cbn [rp_parse] in H. destruct ((48 <=? c) && (c <=? 50)) eqn:E; [|discriminate].
  destruct r as [[dc rack] same]. constructor; [lia|]. eapply IH; eassumption.
Qed.

Lemma len3_inv : forall (s : list N), len s = 3 -> exists a b c, s = [a; b; c].
Proof.
  intros s H. destruct s as [|a [|b [|c [|d s]]]]; try (cbn in H; discriminate).
  - exists a, b, c. reflexivity.
  - rewrite !len_cons in H. lia.
Qed.

(* repaired code: an accepted string is the empty string (the default placement 000) or the
   3-character encoding of the valid placement returned *)
Lemma rp_string_reject : forall s r, rp_from_string s = Some r ->
  rp_valid r = true /\ ((s = [] /\ r = (0, 0, 0)) \/ rp_string r = s).
Proof.
  intros s r H. unfold rp_from_string in H.
  destruct (negb (len s =? 0) && negb (len s =? 3)) eqn:E; [discriminate|].
  assert (Hl : len s = 0 \/ len s = 3) by lia. destruct Hl as [Hl|Hl].
  - apply len_zero_nil in Hl. subst s. cbn [rp_parse] in H. inversion H; subst.
    split; [reflexivity|]. left. split; reflexivity.
  - destruct (len3_inv s Hl) as [a [b [c ->]]].
    destruct (rp_string3_sound a b c r H) as [Hv Hs]. split; [assumption|]. right. assumption.
Qed.

(* an accepted byte is the byte of the valid placement returned: its decimal digits are the counts *)
Lemma rp_byte_reject : forall b r, b < 256 -> rp_from_byte b = Some r -> rp_valid r = true /\ rp_byte r = b.
Proof.
  intros b r Hb H. apply rp_string_reject in H. destruct H as [Hv [[E _]|E]]; [discriminate E|].
  split; [exact Hv|]. destruct r as [[dc rack] same]. unfold rp_valid in Hv.
  unfold rp_string, fmt03 in E. inversion E. unfold rp_byte. lia.
Qed.

Lemma rp_string_chars : forall s r, rp_from_string s = Some r -> Forall (fun c => 48 <= c <= 50) s.
Proof.
  intros s r H. unfold rp_from_string in H.
  destruct (negb (len s =? 0) && negb (len s =? 3)); [discriminate|].
  eapply rp_parse_chars. exact H.
Qed.

Lemma reject_examples :
  read_ttl [51; 48; 48; 109] = None            (* "300m" *)
  /\ read_ttl [53; 120] = None                 (* "5x" *)
  /\ read_ttl [45; 53; 109] = None             (* "-5m" *)
  /\ read_ttl [50; 53; 54; 104] = None         (* "256h" *)
  /\ read_ttl [109] = None                     (* "m" *)
  /\ new_volume_id [52; 50; 57; 52; 57; 54; 55; 50; 57; 55] = None   (* "4294967297" *)
  /\ new_volume_id [] = None
  /\ parse_file_id [51; 44; 48; 49; 54; 51; 55; 48; 51; 122; 100; 54] = None  (* "3,0163703zd6" *)
  /\ rp_from_string [48; 48; 51] = None        (* "003" *)
  /\ rp_from_string [49] = None                (* "1" *)
  /\ rp_from_string [48; 48; 49; 49] = None    (* "0011" *)
  /\ rp_from_byte 3 = None /\ rp_from_byte 255 = None.
Proof. vm_compute. repeat split; reflexivity. Qed.

Definition sb_has_extra (s : super_block) : bool := negb (len (sb_extra s) =? 0).

Definition sb_ok (s : super_block) : Prop :=
  sb_version s < 256 /\ rp_valid (sb_rp s) = true /\ fst (sb_ttl s) < 256 /\ snd (sb_ttl s) < 256 /\
  sb_compaction s < 2 ^ 16.

Lemma sb_bytes_eq : forall s, sb_bytes s =
  [sb_version s; rp_byte (sb_rp s); fst (sb_ttl s); snd (sb_ttl s)]
  ++ be_encode 2 (sb_compaction s) ++ be_encode 2 (len (sb_extra s)) ++ sb_extra s.
Proof. intros s. unfold sb_bytes. destruct (sb_extra s); reflexivity. Qed.

Lemma sb_read_bytes : forall pb s tail, sb_ok s -> len (sb_extra s) < 65536 ->
  sb_read pb (sb_bytes s ++ tail) =
    if sb_has_extra s then
      match pb (sb_extra s) with
      | Some e => Some {| sb_version := sb_version s; sb_rp := sb_rp s; sb_ttl := sb_ttl s;
                          sb_compaction := sb_compaction s; sb_extra := e |}
      | None => None
      end
    else Some {| sb_version := sb_version s; sb_rp := sb_rp s; sb_ttl := sb_ttl s;
                 sb_compaction := sb_compaction s; sb_extra := [] |}.
Proof.
  intros pb s tail [Hv [Hrp [Hc [Hu Hcomp]]]] Hx.
  rewrite sb_bytes_eq, <- !app_assoc. cbn [app]. unfold sb_read.
  match goal with |- context [len ?F <? 8] => destruct (len F <? 8) eqn:E end.
  { rewrite !len_cons, !len_app, !len_be_encode in E. lia. }
  cbn [nth].
  match goal with |- context [dropN 8 ?F] => set (file := F) end.
  (* the fixed part is eight explicit bytes *)
  assert (H4 : dropN 4 file = be_encode 2 (sb_compaction s) ++ be_encode 2 (len (sb_extra s)) ++ sb_extra s ++ tail)
    by (apply (dropN_app _ [_; _; _; _]); reflexivity).
  assert (H6 : dropN 6 file = be_encode 2 (len (sb_extra s)) ++ sb_extra s ++ tail)
    by (apply (dropN_app _ ([_; _; _; _] ++ be_encode 2 _)); reflexivity).
  assert (H8 : dropN 8 file = sb_extra s ++ tail)
    by (apply (dropN_app _ ([_; _; _; _] ++ be_encode 2 _ ++ be_encode 2 _)); reflexivity).
  rewrite H4, H6, H8. clear E H4 H6 H8 file.
  destruct (sb_rp s) as [[dc rack] same] eqn:Erp. unfold rp_valid in Hrp.
  rewrite rp_byte_roundtrip by lia.
  rewrite !(takeN_app _ (be_encode 2 _)), !be_decode_encode by (assumption || reflexivity).
  rewrite (takeN_app _ (sb_extra s)) by reflexivity. rewrite N.ltb_irrefl.
  unfold sb_has_extra. destruct (sb_ttl s) as [c u].
  destruct (len (sb_extra s) =? 0) eqn:E0, (0 <? len (sb_extra s)) eqn:E1; try lia; reflexivity.
Qed.

(* FULL round trip (repaired code): [pb] returns the marshalled extra unchanged, which is the
   protobuf round-trip law for bytes that proto.Marshal produced *)
Lemma sb_roundtrip : forall pb s tail, sb_ok s -> len (sb_extra s) < 65536 ->
  (sb_has_extra s = true -> pb (sb_extra s) = Some (sb_extra s)) ->
  sb_read pb (sb_bytes s ++ tail) = Some s.
Proof.
  intros pb s tail Hok Hl Hpb. rewrite sb_read_bytes by assumption.
  destruct (sb_has_extra s) eqn:Hx.
  - rewrite Hpb by reflexivity. destruct s; reflexivity.
  - assert (He : sb_extra s = []).
    { apply len_zero_nil. unfold sb_has_extra in Hx. lia. }
    destruct s as [v r t c e]. cbn in He. subst e. reflexivity.
Qed.

(* truncated extra or extra that protobuf rejects: an error, never a different super block *)
Lemma sb_read_sound : forall pb file s, sb_read pb file = Some s ->
  8 <= len file /\ rp_from_byte (nth 1 file 0) = Some (sb_rp s) /\
  sb_version s = nth 0 file 0 /\ sb_ttl s = (nth 2 file 0, nth 3 file 0) /\
  sb_compaction s = be_decode (takeN 2 (dropN 4 file)) /\
  let extra_size := be_decode (takeN 2 (dropN 6 file)) in
  (if 0 <? extra_size
   then len (takeN extra_size (dropN 8 file)) = extra_size /\ pb (takeN extra_size (dropN 8 file)) = Some (sb_extra s)
   else sb_extra s = []).
Proof.
  intros pb file s H. unfold sb_read in H.
  destruct (len file <? 8) eqn:E; [discriminate|].
  destruct (rp_from_byte (nth 1 file 0)) as [r|] eqn:Er; [|discriminate].
  cbv zeta. cbv zeta in H. set (x := be_decode (takeN 2 (dropN 6 file))) in *.
  destruct (0 <? x) eqn:Ex.
  - destruct (len (takeN x (dropN 8 file)) <? x) eqn:El; [discriminate|].
    destruct (pb (takeN x (dropN 8 file))) as [e|] eqn:Ep; [|discriminate].
    inversion H; subst. cbn. pose proof (len_takeN_le _ (dropN 8 file) x).
    repeat split; try reflexivity; lia.
  - inversion H; subst. cbn. repeat split; try reflexivity; lia.
Qed.

Lemma int32_roundtrip : forall x, (- 2147483648 <= x < 2147483648)%Z -> to_int32 (of_int32 x) = x.
Proof.
  intros x H. unfold to_int32, of_int32.
  destruct (Z.to_N (x mod 4294967296)%Z <? 2147483648) eqn:E; lia.
Qed.

Lemma of_int32_lt : forall x, of_int32 x < 2 ^ 32.
Proof. intros. unfold of_int32. change (2 ^ 32) with 4294967296. lia. Qed.

Lemma offset_roundtrip : forall a, a mod 8 = 0 -> a < 34359738368 -> to_actual_offset (to_offset a) = a.
Proof. intros a H1 H2. unfold to_actual_offset, to_offset. lia. Qed.
