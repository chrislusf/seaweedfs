(* Proofs about model/TopoPlace.v (C10): the weighted shuffle of PickNodesByWeight is a permutation of
   the candidates; every list findEmptySlotsForOneVolume returns without error satisfies [placement_ok],
   spelled out as the proposition [placement] (placement_ok_sound); [find_all] lists exactly the results
   of all oracles and [admits] decides membership in it. *)
From Coq Require Import String List ZArith Bool Arith Lia Permutation.
From SW Require Import proof.ListFacts model.TopoPlace.
Import ListNotations.
Local Open Scope Z_scope.

Lemma uget_absent : forall u t, ~ In t (map fst u) -> uget u t = zero_counts.
Proof.
  induction u as [|[k c] u IH]; intros t H; simpl in *; auto.
  destruct (String.eqb_spec k t); [tauto|apply IH; tauto].
Qed.

Lemma nth_remove_perm : forall A (l : list A) i d, (i < length l)%nat ->
  Permutation (nth i l d :: remove_nth i l) l.
Proof.
  induction l as [|x l IH]; intros i d Hi; simpl in *; [lia|].
  destruct i; simpl; auto.
  eapply perm_trans; [apply perm_swap|]. constructor. apply IH. lia.
Qed.

Lemma remove_nth_length : forall A (l : list A) i, (i < length l)%nat ->
  S (length (remove_nth i l)) = length l.
Proof.
  intros A [|x l] i Hi; [inversion Hi|].
  exact (Permutation_length (nth_remove_perm _ _ i x Hi)).
Qed.

Lemma code_index_lt : forall A (code : list nat) (x : A) l,
  (Nat.modulo (hd O code) (length (x :: l)) < length (x :: l))%nat.
Proof. intros. apply Nat.mod_upper_bound. discriminate. Qed.

Lemma permute_fuel_perm : forall A fuel code (l : list A), length l = fuel ->
  Permutation (permute_fuel fuel code l) l.
Proof.
  induction fuel as [|f IH]; intros code [|x l] Hl; try discriminate; [constructor|].
  cbn [permute_fuel].
  pose proof (code_index_lt _ code x l) as Hi.
  eapply perm_trans; [|apply (nth_remove_perm _ _ _ x Hi)].
  constructor. apply IH. apply remove_nth_length in Hi. cbn [length] in *. lia.
Qed.

Lemma permute_perm : forall A code (l : list A), Permutation (permute code l) l.
Proof. intros. apply permute_fuel_perm. reflexivity. Qed.

Lemma permute_length : forall A code (l : list A), length (permute code l) = length l.
Proof. intros. apply Permutation_length, permute_perm. Qed.

Lemma permute_in : forall A code (l : list A) x, In x (permute code l) <-> In x l.
Proof. intros. apply Permutation_in'; [reflexivity|apply permute_perm]. Qed.

Lemma all_orders_cons : forall n i c, (i <= n)%nat -> In c (all_orders n) -> In (i :: c) (all_orders (S n)).
Proof.
  intros n i c Hi Hc. cbn [all_orders]. apply in_flat_map. exists i. split.
  - apply in_seq. lia.
  - apply in_map. exact Hc.
Qed.

Lemma all_orders_nonempty : forall n, exists c, In c (all_orders n).
Proof.
  induction n as [|n [c Hc]].
  - exists []. left. reflexivity.
  - exists (O :: c). apply all_orders_cons; [lia|exact Hc].
Qed.

Lemma remove_nth_app : forall A (l1 l2 : list A) y, remove_nth (length l1) (l1 ++ y :: l2) = l1 ++ l2.
Proof. induction l1 as [|x l1 IH]; intros; simpl; auto. rewrite IH. reflexivity. Qed.

Lemma all_orders_reach_fuel : forall n A fuel (l p : list A), length l = fuel -> (fuel <= n)%nat ->
  Permutation l p -> exists c, In c (all_orders n) /\ permute_fuel fuel c l = p.
Proof.
  induction n as [|n IH]; intros A fuel l p Hl Hn Hp; subst fuel.
  - destruct l; [|simpl in Hn; lia]. apply Permutation_nil in Hp. subst. exists []. split; [left|]; reflexivity.
  - destruct p as [|y p'].
    { apply Permutation_sym, Permutation_nil in Hp. subst.
      destruct (all_orders_nonempty (S n)) as [c Hc]. exists c. split; [exact Hc|reflexivity]. }
    destruct (in_split y l) as [l1 [l2 Hs]]; [rewrite Hp; left; reflexivity|]. subst l.
    apply Permutation_sym, Permutation_cons_app_inv, Permutation_sym in Hp.
    rewrite app_length in Hn. simpl in Hn.
    destruct (IH A _ (l1 ++ l2) p' eq_refl) as (c & Hc & E); [rewrite app_length; lia|exact Hp|].
    exists (length l1 :: c). split; [apply all_orders_cons; [lia|exact Hc]|].
    assert (Hlen : length (l1 ++ y :: l2) = S (length (l1 ++ l2))) by (rewrite !app_length; simpl; lia).
    rewrite Hlen. destruct (l1 ++ y :: l2) as [|x l] eqn:El; [discriminate|].
    cbn [permute_fuel hd tl]. rewrite <- El, Nat.mod_small by (rewrite app_length; simpl; lia).
    rewrite nth_middle, remove_nth_app, E. reflexivity.
Qed.

Lemma all_orders_complete : forall n A (l : list A) c, (length l <= n)%nat ->
  exists c', In c' (all_orders n) /\ permute c' l = permute c l.
Proof.
  intros n A l c H. apply all_orders_reach_fuel; [reflexivity|exact H|]. apply Permutation_sym, permute_perm.
Qed.

Lemma all_orders_reach : forall A (l p : list A), Permutation l p ->
  exists c, In c (all_orders (length l)) /\ permute c l = p.
Proof. intros A l p H. apply all_orders_reach_fuel; auto. Qed.

Lemma Permutation_filter : forall A (f : A -> bool) l l', Permutation l l' ->
  Permutation (filter f l) (filter f l').
Proof.
  intros A f l l' H. induction H; simpl.
  - constructor.
  - destruct (f x); auto.
  - destruct (f x), (f y); [apply perm_swap|apply Permutation_refl..].
  - eapply perm_trans; eauto.
Qed.

Lemma filter_split_perm : forall A (f : A -> bool) l,
  Permutation l (filter f l ++ filter (fun x => negb (f x)) l).
Proof.
  induction l as [|x l IH]; simpl; auto.
  destruct (f x); simpl.
  - constructor. exact IH.
  - apply Permutation_cons_app. exact IH.
Qed.

Lemma filter_perm_lift : forall A (f : A -> bool) l p, Permutation p (filter f l) ->
  exists l', Permutation l l' /\ filter f l' = p.
Proof.
  intros A f l p Hp.
  exists (p ++ filter (fun x => negb (f x)) l). split.
  - rewrite Hp. apply filter_split_perm.
  - rewrite filter_app, (filter_all_true f p), (filter_all_false f); [apply app_nil_r| |].
    + intros x Hx. apply filter_In in Hx. apply negb_true_iff, Hx.
    + intros x Hx. rewrite Hp in Hx. apply filter_In in Hx. apply Hx.
Qed.

Lemma Forall2_in_r : forall A B (P : A -> B -> Prop) l1 l2 y, Forall2 P l1 l2 -> In y l2 ->
  exists x, In x l1 /\ P x y.
Proof.
  intros A B P l1 l2 y H. induction H; intro Hin; [contradiction|].
  destruct Hin as [Hin|Hin].
  - subst. exists x. split; [left; reflexivity|assumption].
  - destruct (IHForall2 Hin) as [x' [H1 H2]]. exists x'. split; [right|]; auto.
Qed.

Lemma Forall2_len : forall A B (P : A -> B -> Prop) l1 l2, Forall2 P l1 l2 -> length l1 = length l2.
Proof. intros A B P l1 l2 H. induction H; simpl; auto. Qed.

Lemma Forall2_map_eq : forall A B C (f : A -> C) (g : B -> C) (P : A -> B -> Prop) l1 l2,
  Forall2 P l1 l2 -> (forall x y, P x y -> f x = g y) -> map f l1 = map g l2.
Proof.
  intros A B C f g P l1 l2 H Hfg. induction H; simpl; auto. f_equal; auto.
Qed.

Lemma exists_iff_compat : forall A (P Q : A -> Prop), (forall x, P x <-> Q x) ->
  ((exists x, P x) <-> (exists x, Q x)).
Proof. intros A P Q H. split; intros [x Hx]; exists x; apply H; exact Hx. Qed.

Lemma flat_map_flat_map : forall A B C (f : B -> list C) (g : A -> list B) l,
  flat_map f (flat_map g l) = flat_map (fun x => flat_map f (g x)) l.
Proof.
  induction l as [|x l IH]; simpl; auto. rewrite flat_map_app, IH. reflexivity.
Qed.

Lemma Forall_filter : forall A (f : A -> bool) (P : A -> Prop) l, (forall x, f x = true -> P x) -> Forall P (filter f l).
Proof. intros A f P l H. apply Forall_forall. intros x Hx. apply filter_In in Hx. apply H, Hx. Qed.

Section PickProofs.
  Context {A : Type}.
  Variable avail : A -> Z.

  Lemma NoDup_app_l : forall (l1 l2 : list A), NoDup (l1 ++ l2) -> NoDup l1.
  Proof.
    induction l1 as [|x l1 IH]; intros l2 H; [constructor|].
    simpl in H. inversion H; subst. constructor.
    - intro Hin. apply H2. apply in_or_app. left. exact Hin.
    - eapply IH; eauto.
  Qed.

  Lemma NoDup_firstn : forall (l : list A) n, NoDup l -> NoDup (firstn n l).
  Proof. intros l n H. rewrite <- (firstn_skipn n l) in H. eapply NoDup_app_l, H. Qed.

  (* cw: the candidates with their current weights; a drawn candidate stays in the list with
     weight 0, [pos cw] are those still to draw *)
  Definition wsum (cw : list (A * Z)) : Z := fold_right (fun e s => snd e + s) 0 cw.
  Definition pos (cw : list (A * Z)) : list A := map fst (filter (fun e => 0 <? snd e) cw).
  Definition nonneg (cw : list (A * Z)) : Prop := Forall (fun e => 0 <= snd e) cw.

  Lemma wsum_app : forall a b, wsum (a ++ b) = wsum a + wsum b.
  Proof. induction a as [|e a IH]; intros; simpl; auto. rewrite IH. lia. Qed.

  Lemma pos_app : forall a b, pos (a ++ b) = pos a ++ pos b.
  Proof. intros. unfold pos. rewrite filter_app, map_app. reflexivity. Qed.

  Lemma wsum_pos : forall cw, nonneg cw -> 0 <= wsum cw /\ (pos cw <> [] -> 0 < wsum cw).
  Proof.
    induction 1 as [|e cw He _ [IH1 IH2]]; [split; [reflexivity|intro H; elim H; reflexivity]|].
    unfold pos in *. cbn [wsum fold_right filter]. fold (wsum cw).
    destruct (Z.ltb_spec 0 (snd e)); split; try lia.
    intro Hp. apply IH2 in Hp. lia.
  Qed.

  Lemma draw_spec : forall cw r last, nonneg cw -> last <= r < last + wsum cw ->
    exists pre c w post, cw = pre ++ (c, w) :: post /\ 0 < w /\
                         draw r last cw = Some (c, w, pre ++ (c, 0) :: post).
  Proof.
    intros cw r last H. revert last.
    induction H as [|[c w] cw Hw _ IH]; intros last Hr; cbn [draw wsum fold_right snd] in *; [lia|].
    fold (wsum cw) in Hr.
    destruct (Z.leb_spec last r); [|lia]. destruct (Z.ltb_spec r (last + w)); cbn [andb].
    - exists [], c, w, cw. repeat split. lia.
    - destruct (IH (last + w)) as (pre & c' & w' & post & -> & Hw' & ->); [lia|].
      exists ((c, w) :: pre), c', w', post. auto.
  Qed.

  Lemma shuffle_perm : forall n rs total cw,
    nonneg cw -> total = wsum cw -> n = length (pos cw) ->
    Permutation (shuffle n rs total cw) (pos cw).
  Proof.
    induction n as [|n IH]; intros rs total cw Hnn -> Hn.
    - simpl. destruct (pos cw); [constructor|discriminate].
    - cbn [shuffle].
      assert (Hp : 0 < wsum cw).
      { apply wsum_pos; auto. intro E. rewrite E in Hn. discriminate. }
      (* the None branch of [shuffle] is dead: 0 <= r mod total < total = wsum cw *)
      destruct (draw_spec cw (Z.modulo (hd 0 rs) (wsum cw)) 0 Hnn) as (pre & c & w & post & -> & Hw & ->).
      { pose proof (Z.mod_pos_bound (hd 0 rs) (wsum cw) Hp). lia. }
      assert (Hpos : pos (pre ++ (c, w) :: post) = pos pre ++ c :: pos post).
      { rewrite pos_app. unfold pos at 2. cbn [filter snd]. rewrite (proj2 (Z.ltb_lt 0 w) Hw). reflexivity. }
      assert (Hpos' : pos (pre ++ (c, 0) :: post) = pos pre ++ pos post) by (rewrite pos_app; reflexivity).
      rewrite Hpos in *. apply Permutation_cons_app. rewrite <- Hpos'.
      apply Forall_app in Hnn as [Hpre Hpost]. apply IH.
      + apply Forall_app. split; [exact Hpre|]. inversion Hpost. constructor; [reflexivity|assumption].
      + rewrite !wsum_app. simpl. lia.
      + rewrite Hpos', app_length in *. simpl in Hn. lia.
  Qed.

  Lemma draw_zeros : forall (zs : list (A * Z)) (c : A) w rest, Forall (fun e => snd e = 0) zs -> 0 < w ->
    draw 0 0 (zs ++ (c, w) :: rest) = Some (c, w, zs ++ (c, 0) :: rest).
  Proof.
    intros zs c w rest Hz Hw. induction Hz as [|[z wz] zs E _ IH]; cbn [app draw].
    - rewrite (proj2 (Z.ltb_lt 0 (0 + w))) by lia. reflexivity.
    - simpl in E. subst wz. cbn [Z.leb Z.ltb Z.add Z.compare andb]. rewrite IH. reflexivity.
  Qed.

  Definition weighted (l : list A) : list (A * Z) := map (fun c => (c, avail c)) l.

  (* rs = []: every draw is 0 *)
  Lemma shuffle_zeros : forall l zs, Forall (fun e => snd e = 0) zs -> Forall (fun c => 0 < avail c) l ->
    shuffle (length l) [] (sum_weights avail l) (zs ++ weighted l) = l.
  Proof.
    induction l as [|c l IH]; intros zs Hz Hl; [reflexivity|]. inversion Hl; subst.
    cbn [length shuffle hd tl weighted map sum_weights fold_right]. rewrite Zmod_0_l, draw_zeros by assumption.
    f_equal. fold (sum_weights avail l).
    replace (avail c + sum_weights avail l - avail c) with (sum_weights avail l) by lia.
    change (zs ++ (c, 0) :: map (fun c => (c, avail c)) l) with (zs ++ [(c, 0)] ++ weighted l).
    rewrite app_assoc. apply IH; [|assumption].
    apply Forall_app. split; [exact Hz|repeat constructor].
  Qed.

  Lemma weighted_pos : forall l, Forall (fun c => 0 < avail c) l ->
    nonneg (weighted l) /\ pos (weighted l) = l /\ wsum (weighted l) = sum_weights avail l.
  Proof.
    induction 1 as [|c l Hc _ (IH1 & IH2 & IH3)]; [repeat split; constructor|].
    unfold pos, nonneg in *. cbn [weighted map filter snd wsum sum_weights fold_right].
    rewrite (proj2 (Z.ltb_lt 0 (avail c)) Hc). cbn [map fst].
    repeat split; [constructor; [simpl; lia|exact IH1]|f_equal; exact IH2|f_equal; exact IH3].
  Qed.

  Lemma candidates_spec : forall order children c,
    In c (candidates avail order children) <-> In c children /\ 0 < avail c.
  Proof.
    intros. unfold candidates. rewrite filter_In, permute_in, Z.ltb_lt. tauto.
  Qed.

  Lemma candidates_pos : forall order children, Forall (fun c => 0 < avail c) (candidates avail order children).
  Proof. intros. apply Forall_forall. intros c Hc. apply candidates_spec in Hc. apply Hc. Qed.

  Lemma sorted_candidates_perm : forall order rs children,
    Permutation (sorted_candidates avail order rs children) (candidates avail order children).
  Proof.
    intros. destruct (weighted_pos _ (candidates_pos order children)) as (Hnn & Hpos & Hsum).
    pose proof (shuffle_perm (length (candidates avail order children)) rs _ _ Hnn (eq_sym Hsum)) as H.
    rewrite Hpos in H. exact (H eq_refl).
  Qed.

  Lemma sorted_candidates_zeros : forall order children,
    sorted_candidates avail order [] children = candidates avail order children.
  Proof. intros. apply (shuffle_zeros _ []); [constructor|apply candidates_pos]. Qed.

  (* every (map order, random numbers) pair is equivalent to a map order from [all_orders]
     with all random numbers 0 *)
  Lemma sorted_candidates_normal : forall order rs children,
    exists order', In order' (all_orders (length children)) /\
      candidates avail order' children = sorted_candidates avail order rs children.
  Proof.
    intros order rs children.
    destruct (filter_perm_lift _ (fun c => 0 <? avail c) children (sorted_candidates avail order rs children))
      as [l' [Hl' Hf]].
    { rewrite sorted_candidates_perm. apply Permutation_filter, permute_perm. }
    destruct (all_orders_reach _ _ _ Hl') as (c' & Hin & E).
    exists c'. split; [exact Hin|]. unfold candidates. rewrite E. exact Hf.
  Qed.

  Lemma pick_nodes_normal : forall order rs number filt children,
    exists order', In order' (all_orders (length children)) /\
      pick_nodes avail order rs number filt children = pick_nodes avail order' [] number filt children.
  Proof.
    intros.
    destruct (sorted_candidates_normal order rs children) as [order' [Hin Heq]].
    exists order'. split; auto.
    unfold pick_nodes. rewrite sorted_candidates_zeros, Heq.
    rewrite (Permutation_length (sorted_candidates_perm order rs children)). reflexivity.
  Qed.

  Lemma first_passing_spec : forall (filt : A -> bool) l k0,
    match first_passing filt l k0 with
    | Some (k, x) => exists pre post, l = pre ++ x :: post /\ k = (k0 + length pre)%nat /\ filt x = true
    | None => forall x, In x l -> filt x = false
    end.
  Proof.
    induction l as [|y l IH]; intros k0; simpl; [intros x []|].
    destruct (filt y) eqn:E.
    - exists [], l. repeat split; [simpl; lia|exact E].
    - specialize (IH (S k0)). destruct (first_passing filt l (S k0)) as [[k x]|].
      + destruct IH as (pre & post & -> & -> & Hf). exists (y :: pre), post. repeat split; [simpl; lia|exact Hf].
      + intros x [<-|Hx]; auto.
  Qed.

  (* the slice expression of PickNodesByWeight: the first numberOfNodes-1 of the sorted candidates
     without the first accepted one *)
  Lemma pick_rest : forall (pre post : list A) x number,
    (if Nat.leb (number - 1) (length pre) then firstn (number - 1) (pre ++ x :: post)
     else firstn (length pre) (pre ++ x :: post) ++ skipn (S (length pre)) (firstn number (pre ++ x :: post)))
    = firstn (number - 1) (pre ++ post).
  Proof.
    intros pre post x number. destruct (Nat.leb_spec (number - 1) (length pre)) as [H|H].
    - rewrite !firstn_app. replace (number - 1 - length pre)%nat with O by lia. reflexivity.
    - remember (number - 1 - length pre)%nat as m.
      replace (number - 1)%nat with (length pre + m)%nat by lia.
      replace number with (length pre + S m)%nat by lia.
      rewrite !firstn_app_2, firstn_app, firstn_all, Nat.sub_diag, skipn_app, skipn_all2 by lia.
      replace (S (length pre) - length pre)%nat with 1%nat by lia.
      cbn [firstn skipn app]. rewrite app_nil_r. reflexivity.
  Qed.

  Lemma pick_nodes_spec : forall order rs number filt children first rest,
    pick_nodes avail order rs number filt children = Some (first, rest) ->
    exists pre post, sorted_candidates avail order rs children = pre ++ first :: post /\
      filt first = true /\ (number <= length (pre ++ first :: post))%nat /\
      rest = firstn (number - 1) (pre ++ post).
  Proof.
    intros order rs number filt children first rest H. unfold pick_nodes in H.
    destruct (Nat.ltb_spec (length (candidates avail order children)) number) as [|Hlen]; [discriminate|].
    rewrite <- (Permutation_length (sorted_candidates_perm order rs children)) in Hlen.
    pose proof (first_passing_spec filt (sorted_candidates avail order rs children) 0) as Hf.
    destruct (first_passing filt _ 0) as [[k x]|]; [|discriminate].
    destruct Hf as (pre & post & Hs & Hk & Hx). simpl in Hk. subst k. rewrite Hs in H, Hlen.
    rewrite pick_rest in H. injection H as <- <-. exists pre, post. auto.
  Qed.

  (* pick_nodes_ok without NoDup children *)
  Lemma pick_nodes_members : forall order rs number filt children first rest,
    pick_nodes avail order rs number filt children = Some (first, rest) ->
    filt first = true /\ forall c, In c (first :: rest) -> In c children /\ 0 < avail c.
  Proof.
    intros order rs number filt children first rest H.
    destruct (pick_nodes_spec _ _ _ _ _ _ _ H) as (pre & post & Hs & Hf & _ & ->).
    split; [exact Hf|]. intros c Hc. apply (candidates_spec order).
    rewrite <- (sorted_candidates_perm order rs children), Hs.
    destruct Hc as [<-|Hc]; [apply in_elt|].
    apply firstn_in, in_app_or in Hc. apply in_or_app. simpl. tauto.
  Qed.

  Theorem pick_nodes_ok : forall order rs number filt children first rest,
    NoDup children -> (1 <= number)%nat ->
    pick_nodes avail order rs number filt children = Some (first, rest) ->
    filt first = true /\ NoDup (first :: rest) /\ length rest = (number - 1)%nat /\
    (forall c, In c (first :: rest) -> In c children /\ 0 < avail c).
  Proof.
    intros order rs number filt children first rest Hnd Hnum H.
    destruct (pick_nodes_members _ _ _ _ _ _ _ H) as [Hf Hm].
    destruct (pick_nodes_spec _ _ _ _ _ _ _ H) as (pre & post & Hs & _ & Hlen & ->).
    assert (Hnds : NoDup (pre ++ first :: post)).
    { rewrite <- Hs, sorted_candidates_perm. apply NoDup_filter. rewrite permute_perm. exact Hnd. }
    apply NoDup_remove in Hnds as [Hnd1 Hnd2].
    split; [exact Hf|]. split; [|split; [|exact Hm]].
    - constructor; [|apply NoDup_firstn, Hnd1]. intro Hc. apply Hnd2. eapply firstn_in, Hc.
    - rewrite firstn_length, app_length. rewrite app_length in Hlen. simpl in Hlen. lia.
  Qed.
End PickProofs.

Lemma reserve_in_rack_ok : forall o nodes r n, reserve_in_rack o r nodes = Some n ->
  In n nodes /\ 0 < avail_node o n.
Proof.
  induction nodes as [|m ns IH]; intros r n H; cbn [reserve_in_rack] in H; [discriminate|].
  destruct (Z.leb_spec (avail_node o m) 0); [|destruct (avail_node o m <=? r)].
  1, 2: destruct (IH _ _ H); split; [right|]; assumption.
  injection H as <-. split; [left; reflexivity|assumption].
Qed.

Lemma reserve_in_dc_ok : forall o racks r orders rk n, reserve_in_dc o r racks orders = Some (rk, n) ->
  In rk racks /\ In n (r_nodes rk) /\ 0 < avail_node o n.
Proof.
  induction racks as [|k rs IH]; intros r orders rk n H; cbn [reserve_in_dc] in H; [discriminate|].
  destruct (avail_rack o k <=? 0); [|destruct (avail_rack o k <=? r);
    [|destruct (reserve_in_rack o r (permute (hd [] orders) (r_nodes k))) as [m|] eqn:E]].
  (* the rack is skipped, or entered in vain: the walk goes on with the remaining racks *)
  1, 2, 4: destruct (IH _ _ _ _ H) as [H1 H2]; split; [right|]; assumption.
  injection H as <- <-. apply reserve_in_rack_ok in E. rewrite permute_in in E.
  split; [left; reflexivity|exact E].
Qed.

Definition srv_of_pair (dc : dcenter) (p : rack * dnode) : server := srv dc (fst p) (snd p).

(* one ReserveOneVolume on another rack / another data center of the main server, under its oracle *)
Definition rack_step (o : grow_option) (dc : dcenter) (rk : rack) (ro : rack_oracle) : option server :=
  option_map (srv dc rk)
    (reserve_in_rack o (Z.modulo (ro_r ro) (avail_rack o rk)) (permute (ro_nodes ro) (r_nodes rk))).
Definition dc_step (o : grow_option) (dc : dcenter) (d : dc_oracle) : option server :=
  option_map (srv_of_pair dc)
    (reserve_in_dc o (Z.modulo (do_r d) (avail_dc o dc)) (permute (do_racks d) (d_racks dc)) (do_nodes d)).

Definition room_in_rack (o : grow_option) (dc : dcenter) (rk : rack) (s : server) : Prop :=
  exists n, s = srv dc rk n /\ In n (r_nodes rk) /\ 0 < avail_node o n.
Definition room_in_dc (o : grow_option) (dc : dcenter) (s : server) : Prop :=
  exists rk, In rk (d_racks dc) /\ room_in_rack o dc rk s.

Lemma rack_step_ok : forall o dc rk ro s, rack_step o dc rk ro = Some s -> room_in_rack o dc rk s.
Proof.
  unfold rack_step. intros o dc rk ro s H.
  destruct (reserve_in_rack o _ _) as [n|] eqn:E; [|discriminate]. injection H as <-.
  apply reserve_in_rack_ok in E. rewrite permute_in in E. exists n. split; [reflexivity|exact E].
Qed.

Lemma dc_step_ok : forall o dc d s, dc_step o dc d = Some s -> room_in_dc o dc s.
Proof.
  unfold dc_step. intros o dc d s H.
  destruct (reserve_in_dc o _ _ _) as [[rk n]|] eqn:E; [|discriminate]. injection H as <-.
  apply reserve_in_dc_ok in E. rewrite permute_in in E. exists rk. split; [apply E|].
  exists n. split; [reflexivity|apply E].
Qed.

(* reserve_racks and reserve_dcs are the same loop over two kinds of stages: every stage adds the
   server of its step to the list, the first step that fails ends the loop with an error *)
Section ReserveSeq.
  Context {X O : Type} (step : X -> O -> option server) (dflt : O).

  Fixpoint reserve_seq (acc : list server) (xs : list X) (os : list O) : result :=
    match xs with
    | [] => (acc, false)
    | x :: rest => match step x (hd dflt os) with
                   | Some s => reserve_seq (acc ++ [s]) rest (tl os)
                   | None => (acc, true)
                   end
    end.

  Lemma reserve_seq_ok : forall (P : X -> server -> Prop), (forall x o s, step x o = Some s -> P x s) ->
    forall xs acc os ss, reserve_seq acc xs os = (ss, false) ->
    exists ext, ss = acc ++ ext /\ Forall2 P xs ext.
  Proof.
    intros P HP. induction xs as [|x rest IH]; intros acc os ss H; cbn [reserve_seq] in H.
    - injection H as <-. exists []. split; [symmetry; apply app_nil_r|constructor].
    - destruct (step x (hd dflt os)) as [s|] eqn:E; [|discriminate].
      destruct (IH _ _ _ H) as (ext & -> & Hf). exists (s :: ext). split.
      + rewrite <- app_assoc. reflexivity.
      + constructor; [exact (HP _ _ _ E)|exact Hf].
  Qed.

  Lemma reserve_seq_succeeds : forall xs acc os, (forall x o, In x xs -> step x o <> None) ->
    snd (reserve_seq acc xs os) = false.
  Proof.
    induction xs as [|x rest IH]; intros acc os H; cbn [reserve_seq]; [reflexivity|].
    destruct (step x (hd dflt os)) eqn:E; [|destruct (H _ _ (or_introl eq_refl) E)].
    apply IH. intros y o Hy. apply H. right. exact Hy.
  Qed.

  Lemma reserve_seq_all : forall (outs : X -> list (option server)) xs,
    (forall x out, In x xs -> (In out (outs x) <-> exists o, out = step x o)) ->
    forall acc res, In res (extend_all acc (map outs xs)) <-> exists os, reserve_seq acc xs os = res.
  Proof.
    induction xs as [|x rest IH]; intros Hx acc res; cbn [map extend_all reserve_seq].
    - split; [intros [<-|[]]; exists []; reflexivity|intros [_ <-]; left; reflexivity].
    - specialize (IH (fun y out Hy => Hx y out (or_intror Hy))).
      rewrite in_flat_map. split.
      + intros (out & Hout & H). apply Hx in Hout as [o ->]; [|left; reflexivity].
        destruct (step x o) as [s|] eqn:E.
        * apply IH in H as [os H]. exists (o :: os). cbn [hd tl]. rewrite E. exact H.
        * destruct H as [<-|[]]. exists [o]. cbn [hd]. rewrite E. reflexivity.
      + intros [os H]. exists (step x (hd dflt os)). split; [apply Hx; [left; reflexivity|eauto]|].
        destruct (step x (hd dflt os)); [apply IH; eauto|left; exact H].
  Qed.
End ReserveSeq.

Lemma reserve_racks_seq : forall o dc racks acc os,
  reserve_racks o dc acc racks os = reserve_seq (rack_step o dc) default_rack_oracle acc racks os.
Proof.
  induction racks as [|rk rest IH]; intros acc os; cbn [reserve_racks reserve_seq]; [reflexivity|].
  unfold rack_step. destruct (reserve_in_rack o _ _); cbn [option_map]; [apply IH|reflexivity].
Qed.

Lemma reserve_dcs_seq : forall o dcs acc os,
  reserve_dcs o acc dcs os = reserve_seq (dc_step o) default_dc_oracle acc dcs os.
Proof.
  induction dcs as [|dc rest IH]; intros acc os; cbn [reserve_dcs reserve_seq]; [reflexivity|].
  unfold dc_step. destruct (reserve_in_dc o _ _ _) as [[rk n]|]; cbn [option_map]; [apply IH|reflexivity].
Qed.

Lemma server_eqb_eq : forall a b, server_eqb a b = true <-> a = b.
Proof.
  intros [[a1 a2] a3] [[b1 b2] b3]. unfold server_eqb. rewrite !andb_true_iff, !String.eqb_eq.
  split; [intros [[? ?] ?]; subst; reflexivity|intro H; inversion H; auto].
Qed.

Lemma nodupb_spec : forall A (eqb : A -> A -> bool), (forall x y, eqb x y = true <-> x = y) ->
  forall l, nodupb eqb l = true <-> NoDup l.
Proof.
  intros A eqb He. induction l as [|x l IH]; simpl; [split; [constructor|reflexivity]|].
  rewrite andb_true_iff, negb_true_iff, IH, NoDup_cons_iff, <- not_true_iff_false, existsb_exists.
  apply and_iff_compat_r, not_iff_compat. split.
  - intros [y [Hy E]]. apply He in E. subst y. exact Hy.
  - intro Hx. exists x. split; [exact Hx|apply He; reflexivity].
Qed.

Lemma nodupb_sound : forall A (eqb : A -> A -> bool), (forall x y, eqb x y = true <-> x = y) ->
  forall l, nodupb eqb l = true -> NoDup l.
Proof. intros A eqb He l. apply nodupb_spec, He. Qed.

Lemma NoDup_app_intro : forall A (l1 l2 : list A), NoDup l1 -> NoDup l2 ->
  (forall x, In x l1 -> ~ In x l2) -> NoDup (l1 ++ l2).
Proof.
  induction l1 as [|x l1 IH]; intros l2 H1 H2 Hd; simpl; auto.
  inversion H1; subst. constructor.
  - intro Hin. apply in_app_or in Hin. destruct Hin as [Hin|Hin]; [contradiction|].
    apply (Hd x); [left; reflexivity|exact Hin].
  - apply IH; auto. intros y Hy. apply Hd. right. exact Hy.
Qed.

Lemma NoDup_map_sub : forall A B (f : A -> B) l l', NoDup (map f l) -> NoDup l' -> incl l' l -> NoDup (map f l').
Proof.
  induction l' as [|x l' IH]; intros Hnd Hnd' Hi; simpl; [constructor|].
  inversion Hnd'; subst. constructor.
  - intro Hin. apply in_map_iff in Hin. destruct Hin as [y [Hy Hin]].
    assert (y = x).
    { eapply NoDup_map_inj; eauto; apply Hi; [right; exact Hin|left; reflexivity]. }
    subst. contradiction.
  - apply IH; auto. intros y Hy. apply Hi. right. exact Hy.
Qed.

Lemma pick_nodes_ids : forall A B (avail : A -> Z) (id : A -> B) order rs number filt children first rest,
  NoDup (map id children) -> (1 <= number)%nat ->
  pick_nodes avail order rs number filt children = Some (first, rest) ->
  filt first = true /\ NoDup (map id (first :: rest)) /\ length rest = (number - 1)%nat /\
  (forall c, In c (first :: rest) -> In c children /\ 0 < avail c).
Proof.
  intros A B avail id order rs number filt children first rest Hnd Hn H.
  destruct (pick_nodes_ok avail _ _ _ _ _ _ _ (NoDup_map_inv _ _ Hnd) Hn H) as (Hf & Hd & Hl & Hm).
  split; [exact Hf|]. split; [|split; assumption].
  apply (NoDup_map_sub _ _ id children); [exact Hnd|exact Hd|]. intros c Hc. apply Hm, Hc.
Qed.

Lemma has_free_slot_spec : forall t o s, has_free_slot t o s = true <->
  exists dc rk n, In dc (t_dcs t) /\ In rk (d_racks dc) /\ In n (r_nodes rk) /\ s = srv dc rk n /\ 1 <= avail_node o n.
Proof.
  intros t o s. unfold has_free_slot. split.
  - intro H.
    apply existsb_exists in H as (dc & Hdc & H). apply andb_prop in H as [E1 H].
    apply existsb_exists in H as (rk & Hrk & H). apply andb_prop in H as [E2 H].
    apply existsb_exists in H as (n & Hn & H). apply andb_prop in H as [E3 H].
    apply String.eqb_eq in E1, E2, E3. apply Z.leb_le in H.
    exists dc, rk, n. repeat split; auto.
    destruct s as [[a b] c]. unfold srv, s_dc, s_rack, s_node in *. simpl in *. subst. reflexivity.
  - intros (dc & rk & n & Hdc & Hrk & Hn & -> & Ha). unfold srv, s_dc, s_rack, s_node. simpl.
    apply existsb_exists. exists dc. split; [exact Hdc|]. rewrite String.eqb_refl. simpl.
    apply existsb_exists. exists rk. split; [exact Hrk|]. rewrite String.eqb_refl. simpl.
    apply existsb_exists. exists n. split; [exact Hn|]. rewrite String.eqb_refl. apply Z.leb_le, Ha.
Qed.

Lemma has_free_slot_intro : forall t o dc rk s,
  In dc (t_dcs t) -> In rk (d_racks dc) -> room_in_rack o dc rk s -> has_free_slot t o s = true.
Proof.
  intros t o dc rk s H1 H2 (n & -> & H3 & H4). apply has_free_slot_spec. exists dc, rk, n. repeat split; auto. lia.
Qed.

Lemma filter_one_of_three : forall A (f g h : A -> bool) l,
  (forall x, In x l -> f x = true /\ g x = false /\ h x = false) ->
  filter f l = l /\ filter g l = [] /\ filter h l = [].
Proof.
  intros A f g h l H. split; [|split]; [apply filter_all_true|apply filter_all_false|apply filter_all_false];
    intros x Hx; apply (H x Hx).
Qed.

(* [base]: the servers of the main rack R of the main data center D, with the main server m;
   [extR]: one server in each of distinct other racks of D; [extD]: one in each of distinct
   other data centers *)
Lemma placement_from_parts : forall t o D R base extR extD m,
  (forall s, In s (base ++ extR ++ extD) -> has_free_slot t o s = true) ->
  NoDup base -> In m base ->
  (forall s, In s base -> s_dc s = D /\ s_rack s = R) ->
  (forall s, In s extR -> s_dc s = D) -> NoDup (R :: map s_rack extR) -> NoDup (D :: map s_dc extD) ->
  pref_ok (go_dc o) D = true -> pref_ok (go_rack o) R = true -> pref_ok (go_node o) (s_node m) = true ->
  length base = (rp_same o + 1)%nat -> length extR = rp_rack o -> length extD = rp_dc o ->
  placement_ok t o (base ++ extR ++ extD) = true.
Proof.
  intros t o D R base extR extD m Hfree Hndb Hm Hb Hr Hndr Hndd P1 P2 P3 L1 L2 L3.
  apply NoDup_cons_iff in Hndr as [HR Hndr]. apply NoDup_cons_iff in Hndd as [HD Hndd].
  assert (Hr' : forall s, In s extR -> s_rack s <> R).
  { intros s Hs E. apply HR. rewrite <- E. apply in_map, Hs. }
  assert (Hd : forall s, In s extD -> s_dc s <> D).
  { intros s Hs E. apply HD. rewrite <- E. apply in_map, Hs. }
  destruct (Hb m Hm) as [HmD HmR].
  unfold placement_ok. repeat (apply andb_true_intro; split).
  - apply Nat.eqb_eq. rewrite !app_length. lia.
  - apply nodupb_spec; [apply server_eqb_eq|].
    apply NoDup_app_intro; [exact Hndb|apply NoDup_app_intro| ].
    + eapply NoDup_map_inv, Hndr.
    + eapply NoDup_map_inv, Hndd.
    + intros x Hx Hx'. apply (Hd x Hx'), Hr, Hx.
    + intros x Hx Hx'. destruct (Hb x Hx) as [E1 E2]. apply in_app_or in Hx' as [Hx'|Hx'].
      * apply (Hr' x Hx'), E2.
      * apply (Hd x Hx'), E1.
  - apply forallb_forall, Hfree.
  - apply existsb_exists. exists m. split; [apply in_or_app; left; exact Hm|].
    unfold shape_ok. rewrite HmD, HmR.
    (* the three filters of shape_ok cut the list back into its three parts *)
    set (fs := fun s => String.eqb (s_dc s) D && String.eqb (s_rack s) R).
    set (fr := fun s => String.eqb (s_dc s) D && negb (String.eqb (s_rack s) R)).
    set (fd := fun s => negb (String.eqb (s_dc s) D)).
    destruct (filter_one_of_three _ fs fr fd base) as (B1 & B2 & B3).
    { intros s Hs. unfold fs, fr, fd. destruct (Hb s Hs) as [-> ->]. rewrite !String.eqb_refl. auto. }
    destruct (filter_one_of_three _ fr fs fd extR) as (R1 & R2 & R3).
    { intros s Hs. unfold fs, fr, fd.
      rewrite (Hr s Hs), String.eqb_refl, (proj2 (String.eqb_neq _ _) (Hr' s Hs)). auto. }
    destruct (filter_one_of_three _ fd fs fr extD) as (D1 & D2 & D3).
    { intros s Hs. unfold fs, fr, fd. rewrite (proj2 (String.eqb_neq _ _) (Hd s Hs)). auto. }
    rewrite !filter_app, B1, B2, B3, R1, R2, R3, D1, D2, D3, !app_nil_r. cbn [app].
    rewrite P1, P2, P3, L1, L2, L3, !Nat.eqb_refl.
    rewrite (proj2 (nodupb_spec _ String.eqb String.eqb_eq _) Hndr).
    rewrite (proj2 (nodupb_spec _ String.eqb String.eqb_eq _) Hndd). reflexivity.
Qed.

Lemma wf_topology_spec : forall t, wf_topology t = true ->
  NoDup (map d_id (t_dcs t)) /\
  (forall dc, In dc (t_dcs t) -> NoDup (map r_id (d_racks dc)) /\
     forall rk, In rk (d_racks dc) -> NoDup (map n_id (r_nodes rk))).
Proof.
  intros t H. unfold wf_topology in H. apply andb_prop in H as [H1 H2].
  split; [apply (nodupb_sound _ String.eqb String.eqb_eq), H1|].
  intros dc Hdc. rewrite forallb_forall in H2. apply H2, andb_prop in Hdc as [H3 H4].
  split; [apply (nodupb_sound _ String.eqb String.eqb_eq), H3|].
  intros rk Hrk. rewrite forallb_forall in H4. apply (nodupb_sound _ String.eqb String.eqb_eq), H4, Hrk.
Qed.

Lemma pref_filter_dc : forall o dc, dc_filter o dc = true -> pref_ok (go_dc o) (d_id dc) = true.
Proof. intros o dc H. unfold dc_filter in H. destruct (pref_ok (go_dc o) (d_id dc)); [reflexivity|discriminate]. Qed.
Lemma pref_filter_rack : forall o rk, rack_filter o rk = true -> pref_ok (go_rack o) (r_id rk) = true.
Proof. intros o rk H. unfold rack_filter in H. destruct (pref_ok (go_rack o) (r_id rk)); [reflexivity|discriminate]. Qed.
Lemma pref_filter_node : forall o n, node_filter o n = true -> pref_ok (go_node o) (n_id n) = true.
Proof. intros o n H. unfold node_filter in H. destruct (pref_ok (go_node o) (n_id n)); [reflexivity|discriminate]. Qed.

Theorem find_empty_slots_placement : forall orc t o ss,
  wf_topology t = true -> find_empty_slots orc t o = (ss, false) -> placement_ok t o ss = true.
Proof.
  intros orc t o ss Hwf H.
  destruct (wf_topology_spec t Hwf) as [Wd Wr].
  unfold find_empty_slots in H.
  destruct (pick_nodes (avail_dc o) _ _ _ _ (t_dcs t)) as [[mdc odcs]|] eqn:Pd; [|discriminate].
  destruct (pick_nodes (avail_rack o) _ _ _ _ (d_racks mdc)) as [[mrk orks]|] eqn:Pr; [|discriminate].
  destruct (pick_nodes (avail_node o) _ _ _ _ (r_nodes mrk)) as [[mn ons]|] eqn:Pn; [|discriminate].
  apply (pick_nodes_ids _ _ _ d_id) in Pd as (Fd & Nd & Ld & Md); [|exact Wd|lia].
  destruct (Md mdc (or_introl eq_refl)) as [Hmdc _]. destruct (Wr mdc Hmdc) as [Wr1 Wn].
  apply (pick_nodes_ids _ _ _ r_id) in Pr as (Fr & Nr & Lr & Mr); [|exact Wr1|lia].
  destruct (Mr mrk (or_introl eq_refl)) as [Hmrk _].
  apply (pick_nodes_ids _ _ _ n_id) in Pn as (Fn & Nn & Ln & Mn); [|exact (Wn mrk Hmrk)|lia].
  rewrite reserve_racks_seq in H. destruct (reserve_seq _ _ _ orks _) as [ss1 [|]] eqn:RR; [discriminate|].
  apply (reserve_seq_ok _ _ _ (rack_step_ok o mdc)) in RR as (extR & -> & FR).
  rewrite reserve_dcs_seq in H. apply (reserve_seq_ok _ _ _ (dc_step_ok o)) in H as (extD & -> & FD).
  rewrite <- app_assoc.
  assert (ER : map s_rack extR = map r_id orks).
  { symmetry. apply (Forall2_map_eq _ _ _ _ _ _ _ _ FR). intros rk s (n & -> & _). reflexivity. }
  assert (ED : map s_dc extD = map d_id odcs).
  { symmetry. apply (Forall2_map_eq _ _ _ _ _ _ _ _ FD). intros dc s (rk & _ & n & -> & _). reflexivity. }
  apply (placement_from_parts t o (d_id mdc) (r_id mrk) (map (srv mdc mrk) (mn :: ons)) extR extD (srv mdc mrk mn)).
  - intros s Hs. apply in_app_or in Hs as [Hs|Hs]; [|apply in_app_or in Hs as [Hs|Hs]].
    + apply in_map_iff in Hs as (n & <- & Hn). apply (has_free_slot_intro t o mdc mrk); auto.
      exists n. split; [reflexivity|apply Mn, Hn].
    + destruct (Forall2_in_r _ _ _ _ _ _ FR Hs) as (rk & Hrk & Hin).
      apply (has_free_slot_intro t o mdc rk); auto. apply Mr. right. exact Hrk.
    + destruct (Forall2_in_r _ _ _ _ _ _ FD Hs) as (dc & Hdc & rk & Hrk & Hin).
      apply (has_free_slot_intro t o dc rk); auto. apply Md. right. exact Hdc.
  - apply (NoDup_map_inv s_node). rewrite map_map. exact Nn.
  - left. reflexivity.
  - intros s Hs. apply in_map_iff in Hs as (n & <- & _). split; reflexivity.
  - intros s Hs. destruct (Forall2_in_r _ _ _ _ _ _ FR Hs) as (rk & _ & n & -> & _). reflexivity.
  - rewrite ER. exact Nr.
  - rewrite ED. exact Nd.
  - apply pref_filter_dc, Fd.
  - apply pref_filter_rack, Fr.
  - apply pref_filter_node, Fn.
  - rewrite map_length. simpl. lia.
  - rewrite <- (Forall2_len _ _ _ _ _ FR). lia.
  - rewrite <- (Forall2_len _ _ _ _ _ FD). lia.
Qed.

Lemma dedup_incl : forall A (eqb : A -> A -> bool) l x, In x (dedup eqb l) -> In x l.
Proof.
  induction l as [|y l IH]; intros x H; simpl in *; auto.
  destruct (existsb (eqb y) (dedup eqb l)).
  - right. apply IH. exact H.
  - destruct H as [H|H]; [left; auto|right; apply IH; auto].
Qed.

Lemma dedup_complete : forall A (eqb : A -> A -> bool), (forall x y, eqb x y = true -> x = y) ->
  forall l x, In x l -> In x (dedup eqb l).
Proof.
  intros A eqb He. induction l as [|y l IH]; intros x H; simpl in *; [contradiction|].
  destruct (existsb (eqb y) (dedup eqb l)) eqn:E.
  - destruct H as [H|H]; [|apply IH; auto].
    subst. apply existsb_exists in E. destruct E as [z [Hz Hyz]]. apply He in Hyz. subst. exact Hz.
  - destruct H as [H|H]; [left; auto|right; apply IH; auto].
Qed.

Lemma opt_server_eqb_eq : forall a b, opt_server_eqb a b = true <-> a = b.
Proof.
  intros [a|] [b|]; simpl; rewrite ?server_eqb_eq; split; congruence.
Qed.

Lemma dedup_opt_in : forall x l, In x (dedup opt_server_eqb l) <-> In x l.
Proof.
  split; [apply dedup_incl|apply dedup_complete]. intros a b. apply opt_server_eqb_eq.
Qed.

Lemma zrange_in : forall n v, In v (zrange n) <-> 0 <= v < n.
Proof.
  intros n v. unfold zrange. rewrite in_map_iff. split.
  - intros [k [E Hk]]. apply in_seq in Hk. subst v. lia.
  - intros H. exists (Z.to_nat v). split; [apply Z2Nat.id; lia|]. apply in_seq. lia.
Qed.

Lemma in_map_all_orders : forall A B (f : list A -> B) l y,
  In y (map (fun ord => f (permute ord l)) (all_orders (length l))) <-> exists ord, y = f (permute ord l).
Proof.
  intros A B f l y. split.
  - intro H. apply in_map_iff in H as (ord & <- & _). eauto.
  - intros [ord ->]. destruct (all_orders_complete (length l) _ l ord (le_n _)) as (ord' & Hin & <-).
    apply in_map_iff. eauto.
Qed.

Lemma rack_outcomes_spec : forall o dc r rk out,
  In out (rack_outcomes o dc r rk) <->
  exists ord, out = option_map (srv dc rk) (reserve_in_rack o r (permute ord (r_nodes rk))).
Proof.
  intros. unfold rack_outcomes. rewrite dedup_opt_in.
  apply (in_map_all_orders _ _ (fun p => option_map (srv dc rk) (reserve_in_rack o r p))).
Qed.

Lemma reserve_rack_all_spec : forall o dc rk out, 0 < avail_rack o rk ->
  (In out (reserve_rack_all o dc rk) <-> exists ro, out = rack_step o dc rk ro).
Proof.
  intros o dc rk out Ha. unfold reserve_rack_all, rack_step. rewrite dedup_opt_in, in_flat_map. split.
  - intros (r & Hr & H). apply zrange_in in Hr.
    apply (in_map_all_orders _ _ (fun p => option_map (srv dc rk) (reserve_in_rack o r p))) in H as [ord ->].
    exists {| ro_r := r; ro_nodes := ord |}. cbn [ro_r ro_nodes]. rewrite Z.mod_small by lia. reflexivity.
  - intros [ro ->]. exists (Z.modulo (ro_r ro) (avail_rack o rk)). split.
    + apply zrange_in, Z.mod_pos_bound, Ha.
    + apply (in_map_all_orders _ _ (fun p => option_map (srv dc rk) (reserve_in_rack o _ p))). eauto.
Qed.

Lemma walk_dc_all_spec : forall o dc racks r out,
  In out (walk_dc_all o dc r racks) <->
  exists orders, out = option_map (srv_of_pair dc) (reserve_in_dc o r racks orders).
Proof.
  induction racks as [|rk rs IH]; intros r out.
  - simpl. split.
    + intros [H|[]]. exists []. auto.
    + intros [_ H]. left. auto.
  - cbn [walk_dc_all reserve_in_dc].
    destruct (avail_rack o rk <=? 0); [apply IH|].
    destruct (avail_rack o rk <=? r); [apply IH|].
    rewrite in_flat_map. split.
    + intros (o1 & Ho1 & H). apply rack_outcomes_spec in Ho1 as [ord ->].
      destruct (reserve_in_rack o r (permute ord (r_nodes rk))) as [n|] eqn:Er; cbn [option_map] in H.
      * destruct H as [<-|[]]. exists [ord]. cbn [hd]. rewrite Er. reflexivity.
      * apply IH in H as [orders ->]. exists (ord :: orders). cbn [hd tl]. rewrite Er. reflexivity.
    + intros [orders ->].
      exists (option_map (srv dc rk) (reserve_in_rack o r (permute (hd [] orders) (r_nodes rk)))).
      split; [apply rack_outcomes_spec; eauto|].
      destruct (reserve_in_rack o r (permute (hd [] orders) (r_nodes rk))); cbn [option_map].
      * left. reflexivity.
      * apply IH. eauto.
Qed.

Lemma reserve_dc_all_spec : forall o dc out, 0 < avail_dc o dc ->
  (In out (reserve_dc_all o dc) <-> exists d, out = dc_step o dc d).
Proof.
  intros o dc out Ha. unfold reserve_dc_all, dc_step. rewrite dedup_opt_in, in_flat_map. split.
  - intros (r & Hr & H). apply zrange_in in Hr. apply in_flat_map in H as (ord & _ & H).
    apply walk_dc_all_spec in H as [orders ->].
    exists {| do_r := r; do_racks := ord; do_nodes := orders |}. cbn [do_r do_racks do_nodes].
    rewrite Z.mod_small by lia. reflexivity.
  - intros [d ->]. exists (Z.modulo (do_r d) (avail_dc o dc)). split.
    + apply zrange_in, Z.mod_pos_bound, Ha.
    + destruct (all_orders_complete (length (d_racks dc)) _ (d_racks dc) (do_racks d) (le_n _)) as (ord & Hin & Heq).
      apply in_flat_map. exists ord. split; [exact Hin|]. rewrite Heq. apply walk_dc_all_spec. eauto.
Qed.

Lemma reserve_racks_all_spec : forall o dc racks acc res,
  (forall rk, In rk racks -> 0 < avail_rack o rk) ->
  (In res (reserve_racks_all o dc acc racks) <-> exists os, reserve_racks o dc acc racks os = res).
Proof.
  intros o dc racks acc res Ha. unfold reserve_racks_all.
  rewrite (reserve_seq_all (rack_step o dc) default_rack_oracle).
  - apply exists_iff_compat. intro os. rewrite reserve_racks_seq. reflexivity.
  - intros rk out Hrk. apply reserve_rack_all_spec, Ha, Hrk.
Qed.

Lemma reserve_dcs_all_spec : forall o dcs acc res,
  (forall dc, In dc dcs -> 0 < avail_dc o dc) ->
  (In res (reserve_dcs_all o acc dcs) <-> exists os, reserve_dcs o acc dcs os = res).
Proof.
  intros o dcs acc res Ha. unfold reserve_dcs_all.
  rewrite (reserve_seq_all (dc_step o) default_dc_oracle).
  - apply exists_iff_compat. intro os. rewrite reserve_dcs_seq. reflexivity.
  - intros dc out Hdc. apply reserve_dc_all_spec, Ha, Hdc.
Qed.

(* [] for the random numbers of a pick: every draw is 0 *)
Definition plain_oracle (od ork on : list nat) (osr : list rack_oracle) (osd : list dc_oracle) : oracle :=
  {| o_dc_order := od; o_dc_rs := []; o_rack_order := ork; o_rack_rs := []; o_node_order := on;
     o_node_rs := []; o_other_racks := osr; o_other_dcs := osd |}.

Theorem find_all_spec : forall t o res,
  In res (find_all t o) <-> exists orc, find_empty_slots orc t o = res.
Proof.
  intros t o res. unfold find_all. split.
  - intro H. apply in_flat_map in H as (od & _ & H).
    enough (E : exists ork on osr osd, find_empty_slots (plain_oracle od ork on osr osd) t o = res)
      by (destruct E as (ork & on & osr & osd & E); eauto).
    unfold find_empty_slots.
    cbn [plain_oracle o_dc_order o_dc_rs o_rack_order o_rack_rs o_node_order o_node_rs o_other_racks o_other_dcs].
    destruct (pick_nodes (avail_dc o) od [] _ _ (t_dcs t)) as [[mdc odcs]|] eqn:Pd.
    2:{ destruct H as [<-|[]]. exists [], [], [], []. reflexivity. }
    apply in_flat_map in H as (ork & _ & H). exists ork.
    destruct (pick_nodes (avail_rack o) ork [] _ _ (d_racks mdc)) as [[mrk orks]|] eqn:Pr.
    2:{ destruct H as [<-|[]]. exists [], [], []. reflexivity. }
    apply in_flat_map in H as (on & _ & H). exists on.
    destruct (pick_nodes (avail_node o) on [] _ _ (r_nodes mrk)) as [[mn ons]|] eqn:Pn.
    2:{ destruct H as [<-|[]]. exists [], []. reflexivity. }
    apply in_flat_map in H as ([ss1 e1] & H1 & H).
    apply reserve_racks_all_spec in H1 as [osr H1].
    2:{ intros rk Hrk. apply (pick_nodes_members _ _ _ _ _ _ _ _ Pr). right. exact Hrk. }
    exists osr. rewrite H1. cbn [snd fst] in H. destruct e1.
    + destruct H as [<-|[]]. exists []. reflexivity.
    + apply reserve_dcs_all_spec in H; [exact H|].
      intros dc Hdc. apply (pick_nodes_members _ _ _ _ _ _ _ _ Pd). right. exact Hdc.
  - intros [orc <-]. unfold find_empty_slots.
    destruct (pick_nodes_normal (avail_dc o) (o_dc_order orc) (o_dc_rs orc) (rp_dc o + 1) (dc_filter o) (t_dcs t))
      as [od [Hod ->]].
    apply in_flat_map. exists od. split; [exact Hod|].
    destruct (pick_nodes (avail_dc o) od [] _ _ (t_dcs t)) as [[mdc odcs]|] eqn:Pd; [|left; reflexivity].
    destruct (pick_nodes_normal (avail_rack o) (o_rack_order orc) (o_rack_rs orc) (rp_rack o + 1) (rack_filter o) (d_racks mdc))
      as [ork [Hork ->]].
    apply in_flat_map. exists ork. split; [exact Hork|].
    destruct (pick_nodes (avail_rack o) ork [] _ _ (d_racks mdc)) as [[mrk orks]|] eqn:Pr; [|left; reflexivity].
    destruct (pick_nodes_normal (avail_node o) (o_node_order orc) (o_node_rs orc) (rp_same o + 1) (node_filter o) (r_nodes mrk))
      as [on [Hon ->]].
    apply in_flat_map. exists on. split; [exact Hon|].
    destruct (pick_nodes (avail_node o) on [] _ _ (r_nodes mrk)) as [[mn ons]|] eqn:Pn; [|left; reflexivity].
    apply in_flat_map.
    exists (reserve_racks o mdc (srv mdc mrk mn :: map (srv mdc mrk) ons) orks (o_other_racks orc)). split.
    + apply reserve_racks_all_spec; [|eauto].
      intros rk Hrk. apply (pick_nodes_members _ _ _ _ _ _ _ _ Pr). right. exact Hrk.
    + destruct (reserve_racks o mdc _ orks (o_other_racks orc)) as [ss1 [|]]; cbn [snd fst]; [left; reflexivity|].
      apply reserve_dcs_all_spec; [|eauto].
      intros dc Hdc. apply (pick_nodes_members _ _ _ _ _ _ _ _ Pd). right. exact Hdc.
Qed.

Lemma list_eqb_eq : forall A (eqb : A -> A -> bool), (forall x y, eqb x y = true <-> x = y) ->
  forall l1 l2, list_eqb eqb l1 l2 = true <-> l1 = l2.
Proof.
  intros A eqb He. induction l1 as [|x l1 IH]; intros [|y l2]; simpl; try (split; congruence).
  rewrite andb_true_iff, He, IH. split; [intros [-> ->]; reflexivity|intro H; inversion H; auto].
Qed.

Lemma result_eqb_eq : forall a b, result_eqb a b = true <-> a = b.
Proof.
  intros [a1 a2] [b1 b2]. unfold result_eqb. simpl.
  rewrite andb_true_iff, (list_eqb_eq _ server_eqb server_eqb_eq), Bool.eqb_true_iff.
  split; [intros [? ?]; subst; reflexivity|intro H; inversion H; auto].
Qed.

Theorem admits_enum_spec : forall t o res,
  admits_enum t o res = true <-> exists orc, find_empty_slots orc t o = res.
Proof.
  intros t o res. unfold admits_enum. rewrite existsb_exists. rewrite <- find_all_spec. split.
  - intros [x [Hx E]]. apply result_eqb_eq in E. subst. exact Hx.
  - intro H. exists res. split; auto. apply result_eqb_eq. reflexivity.
Qed.

Lemma extend_all_app : forall o1 o2 acc,
  extend_all acc (o1 ++ o2) =
  flat_map (fun r : result => if snd r then [r] else extend_all (fst r) o2) (extend_all acc o1).
Proof.
  induction o1 as [|out o1 IH]; intros o2 acc.
  - simpl. rewrite app_nil_r. reflexivity.
  - cbn [app extend_all]. rewrite flat_map_flat_map. apply flat_map_ext.
    intros [s|]; [apply IH|reflexivity].
Qed.

Lemma extend_all_shift : forall outs acc,
  extend_all acc outs = map (fun r => (acc ++ fst r, snd r)) (extend_all [] outs).
Proof.
  induction outs as [|out rest IH]; intros acc; cbn [extend_all].
  - simpl. rewrite app_nil_r. reflexivity.
  - induction out as [|[s|] out IHo]; cbn [flat_map map]; [reflexivity| |]; rewrite map_app, IHo; f_equal.
    + rewrite (IH (acc ++ [s])), (IH ([] ++ [s])), map_map. apply map_ext.
      intros [l e]. simpl. rewrite <- app_assoc. reflexivity.
    + simpl. rewrite app_nil_r. reflexivity.
Qed.

Lemma extend_all_prefix : forall outs acc l e, In (l, e) (extend_all acc outs) -> exists ext, l = acc ++ ext.
Proof.
  intros outs acc l e H. rewrite extend_all_shift in H. apply in_map_iff in H as (r & E & _).
  inversion E. eauto.
Qed.

Lemma in_existsb_opt : forall x out, existsb (opt_server_eqb x) out = true <-> In x out.
Proof.
  intros x out. rewrite existsb_exists. split.
  - intros [y [Hy E]]. apply opt_server_eqb_eq in E. subst. exact Hy.
  - intro H. exists x. split; [exact H|apply opt_server_eqb_eq; reflexivity].
Qed.

Lemma match_ext_spec : forall outs tgt err,
  match_ext tgt err outs = true <-> In (tgt, err) (extend_all [] outs).
Proof.
  induction outs as [|out rest IH]; intros [|s t] err; cbn [match_ext extend_all].
  - split; [intro H; apply negb_true_iff in H; subst; left; reflexivity|intros [H|[]]; inversion H; reflexivity].
  - split; [discriminate|intros [H|[]]; discriminate H].
  - rewrite andb_true_iff, in_existsb_opt, in_flat_map. split.
    + intros [-> Hn]. exists None. split; [exact Hn|left; reflexivity].
    + intros ([s|] & Hx & H).
      * rewrite extend_all_shift in H. apply in_map_iff in H as (r & E & _). discriminate E.
      * destruct H as [H|[]]. inversion H. auto.
  - rewrite andb_true_iff, in_existsb_opt, IH, in_flat_map. split.
    + intros [Hs Hm]. exists (Some s). split; [exact Hs|].
      rewrite extend_all_shift. apply in_map_iff. exists (t, err). auto.
    + intros ([s'|] & Hx & H).
      * rewrite extend_all_shift in H. apply in_map_iff in H as ([l e] & E & Hr). inversion E. subst. auto.
      * destruct H as [H|[]]. discriminate H.
Qed.

Lemma strip_prefix_spec : forall p l t, strip_prefix p l = Some t <-> l = p ++ t.
Proof.
  induction p as [|x p IH]; intros l t; simpl.
  - split; [intro H; inversion H; reflexivity|intro H; subst; reflexivity].
  - destruct l as [|y l]; [split; discriminate|].
    destruct (server_eqb x y) eqn:E.
    + apply server_eqb_eq in E. subst y. rewrite IH. split; [intro; subst; reflexivity|intro H; inversion H; reflexivity].
    + split; [discriminate|]. intro H. inversion H. subst.
      assert (server_eqb x x = true) by (apply server_eqb_eq; reflexivity). congruence.
Qed.

(* [res = ([], true)], in the form admits_find_all needs *)
Lemma fail_iff_empty_error : forall (res : result),
  (snd res && match fst res with [] => true | _ :: _ => false end) = true <-> In res [(([] : list server), true)].
Proof.
  intros [ss err]. simpl. split.
  - intro H. apply andb_prop in H. destruct H as [H1 H2]. subst. destruct ss; [left; reflexivity|discriminate].
  - intros [H|[]]. inversion H. reflexivity.
Qed.

Theorem admits_find_all : forall t o res, admits t o res = true <-> In res (find_all t o).
Proof.
  intros t o res. unfold admits, find_all. rewrite existsb_exists, in_flat_map.
  apply exists_iff_compat. intro od. apply and_iff_compat_l.
  destruct (pick_nodes (avail_dc o) od [] (rp_dc o + 1) (dc_filter o) (t_dcs t)) as [[mdc odcs]|];
    [|apply fail_iff_empty_error].
  cbv zeta. rewrite existsb_exists, in_flat_map.
  apply exists_iff_compat. intro ork. apply and_iff_compat_l.
  destruct (pick_nodes (avail_rack o) ork [] (rp_rack o + 1) (rack_filter o) (d_racks mdc)) as [[mrk orks]|];
    [|apply fail_iff_empty_error].
  cbv zeta. rewrite existsb_exists, in_flat_map.
  apply exists_iff_compat. intro on. apply and_iff_compat_l.
  destruct (pick_nodes (avail_node o) on [] (rp_same o + 1) (node_filter o) (r_nodes mrk)) as [[mn ons]|];
    [|apply fail_iff_empty_error].
  unfold reserve_racks_all, reserve_dcs_all.
  rewrite <- extend_all_app.
  set (base := srv mdc mrk mn :: map (srv mdc mrk) ons).
  destruct res as [ss err]. cbn [fst snd].
  destruct (strip_prefix base ss) as [tgt|] eqn:E.
  - apply strip_prefix_spec in E. subst ss. rewrite match_ext_spec, (extend_all_shift _ base), in_map_iff. split.
    + intro H. exists (tgt, err). auto.
    + intros ([l e] & E & H). inversion E as [[E1 E2]]. apply app_inv_head in E1. subst. exact H.
  - split; [discriminate|]. intro H. apply extend_all_prefix in H. destruct H as [ext H].
    apply strip_prefix_spec in H. congruence.
Qed.

Theorem admits_spec : forall t o res,
  admits t o res = true <-> exists orc, find_empty_slots orc t o = res.
Proof. intros. rewrite admits_find_all. apply find_all_spec. Qed.

Definition in_rack_of (m s : server) : Prop := s_dc s = s_dc m /\ s_rack s = s_rack m.
Definition in_other_rack_of (m s : server) : Prop := s_dc s = s_dc m /\ s_rack s <> s_rack m.
Definition in_other_dc_of (m s : server) : Prop := s_dc s <> s_dc m.

Definition honoured (pref id : string) : Prop := pref = ""%string \/ id = pref.

(* the placement rule of C10, spelled out *)
Definition placement (t : topology) (o : grow_option) (ss : list server) : Prop :=
  length ss = (1 + rp_dc o + rp_rack o + rp_same o)%nat /\
  NoDup ss /\
  (forall s, In s ss -> exists dc rk n, In dc (t_dcs t) /\ In rk (d_racks dc) /\ In n (r_nodes rk) /\
                                        s = srv dc rk n /\ 1 <= avail_node o n) /\
  exists m same oracks odcs, In m ss /\
    honoured (go_dc o) (s_dc m) /\ honoured (go_rack o) (s_rack m) /\ honoured (go_node o) (s_node m) /\
    Permutation ss (same ++ oracks ++ odcs) /\
    Forall (in_rack_of m) same /\ length same = (rp_same o + 1)%nat /\
    Forall (in_other_rack_of m) oracks /\ length oracks = rp_rack o /\ NoDup (map s_rack oracks) /\
    Forall (in_other_dc_of m) odcs /\ length odcs = rp_dc o /\ NoDup (map s_dc odcs).

Lemma pref_ok_honoured : forall p id, pref_ok p id = true -> honoured p id.
Proof.
  intros p id H. unfold pref_ok in H. apply orb_prop in H. destruct H as [H|H]; apply String.eqb_eq in H.
  - left. exact H.
  - right. exact H.
Qed.

Lemma filter3_perm : forall A (f g h : A -> bool) l,
  (forall x, In x l -> (f x = true /\ g x = false /\ h x = false) \/
                       (f x = false /\ g x = true /\ h x = false) \/
                       (f x = false /\ g x = false /\ h x = true)) ->
  Permutation l (filter f l ++ filter g l ++ filter h l).
Proof.
  induction l as [|x l IH]; intro H; simpl; [constructor|].
  assert (IH' : Permutation l (filter f l ++ filter g l ++ filter h l)) by (apply IH; intros; apply H; right; auto).
  destruct (H x (or_introl eq_refl)) as [[E1 [E2 E3]]|[[E1 [E2 E3]]|[E1 [E2 E3]]]]; rewrite E1, E2, E3; simpl.
  - constructor. exact IH'.
  - apply Permutation_cons_app. exact IH'.
  - rewrite app_assoc. apply Permutation_cons_app. rewrite <- app_assoc. exact IH'.
Qed.

Theorem placement_ok_sound : forall t o ss, placement_ok t o ss = true -> placement t o ss.
Proof.
  intros t o ss H. unfold placement_ok in H.
  apply andb_prop in H as [H H4]. apply andb_prop in H as [H H3]. apply andb_prop in H as [H1 H2].
  split; [apply Nat.eqb_eq, H1|]. split; [apply (nodupb_sound _ server_eqb server_eqb_eq), H2|]. split.
  - intros s Hs. apply has_free_slot_spec. rewrite forallb_forall in H3. apply H3, Hs.
  - apply existsb_exists in H4 as (m & Hm & H4). unfold shape_ok in H4.
    apply andb_prop in H4 as [H4 N3]. apply andb_prop in H4 as [H4 L3]. apply andb_prop in H4 as [H4 N2].
    apply andb_prop in H4 as [H4 L2]. apply andb_prop in H4 as [H4 L1]. apply andb_prop in H4 as [H4 P3].
    apply andb_prop in H4 as [P1 P2].
    set (fs := fun s => String.eqb (s_dc s) (s_dc m) && String.eqb (s_rack s) (s_rack m)) in *.
    set (fr := fun s => String.eqb (s_dc s) (s_dc m) && negb (String.eqb (s_rack s) (s_rack m))) in *.
    set (fd := fun s => negb (String.eqb (s_dc s) (s_dc m))) in *.
    exists m, (filter fs ss), (filter fr ss), (filter fd ss).
    split; [exact Hm|]. split; [apply pref_ok_honoured, P1|]. split; [apply pref_ok_honoured, P2|].
    split; [apply pref_ok_honoured, P3|]. split.
    { apply filter3_perm. intros x _. unfold fs, fr, fd.
      destruct (String.eqb (s_dc x) (s_dc m)), (String.eqb (s_rack x) (s_rack m)); simpl;
        [left|right; left|right; right|right; right]; auto. }
    split.
    { apply Forall_filter. intros x Hx. apply andb_prop in Hx as [E1 E2]. apply String.eqb_eq in E1, E2. split; auto. }
    split; [apply Nat.eqb_eq, L1|]. split.
    { apply Forall_filter. intros x Hx. apply andb_prop in Hx as [E1 E2]. apply String.eqb_eq in E1.
      apply negb_true_iff, String.eqb_neq in E2. split; auto. }
    split; [apply Nat.eqb_eq, L2|]. split; [apply (nodupb_sound _ String.eqb String.eqb_eq), N2|]. split.
    { apply Forall_filter. intros x Hx. apply negb_true_iff, String.eqb_neq in Hx. exact Hx. }
    split; [apply Nat.eqb_eq, L3|]. apply (nodupb_sound _ String.eqb String.eqb_eq), N3.
Qed.

Theorem c10_placement_thm : forall orc t o ss,
  wf_topology t = true -> find_empty_slots orc t o = (ss, false) ->
  placement_ok t o ss = true /\ placement t o ss.
Proof.
  intros orc t o ss Hwf H. pose proof (find_empty_slots_placement orc t o ss Hwf H) as P.
  split; [exact P|apply placement_ok_sound; exact P].
Qed.

Theorem c10_no_placement_error_thm : forall orc t o,
  wf_topology t = true -> (forall ss, placement_ok t o ss = false) ->
  snd (find_empty_slots orc t o) = true.
Proof.
  intros orc t o Hwf Hno. destruct (find_empty_slots orc t o) as [ss e] eqn:E. simpl.
  destruct e; auto. pose proof (find_empty_slots_placement orc t o ss Hwf E) as P. rewrite Hno in P. discriminate.
Qed.
