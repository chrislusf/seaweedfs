(* C27 (model/S3List.v), doListFilerEntries against the reference lister: byte order and sorted
   directories, the directories of a well-formed tree (walk / resolve), and on any tree a page
   is a subsequence of the reference listing.  The other S3List*.v files build on this one. *)
From Coq Require Import List NArith ZArith Bool String Ascii Arith Lia.
From SW Require Import proof.StringFacts proof.ListFacts model.S3List.
Import ListNotations.
Local Open Scope string_scope.
Local Open Scope list_scope.
Local Notation length := List.length.

Lemma ltb_irrefl : forall s, String.ltb s s = false.
Proof. intros s. unfold String.ltb. rewrite str_compare_refl. reflexivity. Qed.

Lemma ltb_lt : forall a b, String.ltb a b = true <-> String.compare a b = Lt.
Proof. intros a b. unfold String.ltb. destruct (String.compare a b); split; intros H; try discriminate; reflexivity. Qed.

Lemma ltb_trans : forall a b c, String.ltb a b = true -> String.ltb b c = true -> String.ltb a c = true.
Proof. intros a b c H1 H2. apply ltb_lt. apply (str_compare_lt_trans a b c); apply ltb_lt; assumption. Qed.

Lemma ltb_asym : forall a b, String.ltb a b = true -> String.ltb b a = false.
Proof.
  intros a b H. apply ltb_lt in H. unfold String.ltb. rewrite String.compare_antisym. rewrite H. reflexivity.
Qed.

Lemma ltb_empty : forall s, String.ltb "" s = negb (s =? "").
Proof. destruct s; reflexivity. Qed.

Lemma sorted_head_lt : forall l x y, sorted_names (x :: l) = true -> In y l -> String.ltb x y = true.
Proof.
  induction l as [|z l IH]; intros x y H Hy; [destruct Hy|].
  simpl in H. apply andb_true_iff in H. destruct H as [H1 H2].
  destruct Hy as [E|Hy]; [subst z; exact H1|]. exact (ltb_trans x z y H1 (IH z y H2 Hy)).
Qed.

Lemma sorted_tail : forall x l, sorted_names (x :: l) = true -> sorted_names l = true.
Proof. intros x l H. destruct l as [|y l]; [reflexivity|]. simpl in H. apply andb_true_iff in H. exact (proj2 H). Qed.

Lemma sorted_nodup : forall l, sorted_names l = true -> NoDup l.
Proof.
  induction l as [|x l IH]; intros H; [constructor|]. constructor.
  - intros Hin. pose proof (sorted_head_lt l x x H Hin) as K. rewrite ltb_irrefl in K. discriminate.
  - apply IH. exact (sorted_tail x l H).
Qed.

Lemma wf_tail : forall t kids, wf (t :: kids) = true -> wf kids = true.
Proof.
  intros t kids H. unfold wf in *. simpl in H. apply andb_true_iff in H. destruct H as [H1 H2].
  apply andb_true_iff in H1. destruct H1 as [_ H1]. apply andb_true_iff. split; [exact H1|].
  exact (sorted_tail _ _ H2).
Qed.

Lemma wf_in : forall kids t, wf kids = true -> In t kids -> wf_tree t = true.
Proof.
  intros kids t H Hin. unfold wf in H. apply andb_true_iff in H. destruct H as [H _].
  rewrite forallb_forall in H. exact (H t Hin).
Qed.

Lemma wf_kids : forall n k kids, wf kids = true -> In (Dir n k) kids -> wf k = true.
Proof.
  intros n k kids H Hin. pose proof (wf_in kids _ H Hin) as W. simpl in W.
  apply andb_true_iff in W. exact (proj2 W).
Qed.

Lemma wf_good_names : forall kids t, wf kids = true -> In t kids -> good_name (tname t) = true.
Proof.
  intros kids t H Hin. pose proof (wf_in kids t H Hin) as W.
  destruct t; simpl in W; apply andb_true_iff in W; exact (proj1 W).
Qed.

Lemma wf_no_slash : forall kids t, wf kids = true -> In t kids -> no_slash (tname t) = true.
Proof.
  intros kids t H Hin. pose proof (wf_good_names kids t H Hin) as GN. unfold good_name in GN.
  apply andb_true_iff in GN. exact (proj2 GN).
Qed.

Lemma good_name_nonempty : forall s, good_name s = true -> s <> "".
Proof. intros s H E. subst s. discriminate. Qed.

Lemma wf_after_empty : forall kids t, wf kids = true -> In t kids -> String.ltb "" (tname t) = true.
Proof.
  intros kids t H Hin. rewrite ltb_empty. apply negb_true_iff. apply String.eqb_neq.
  apply good_name_nonempty. exact (wf_good_names kids t H Hin).
Qed.

Lemma wf_sorted : forall kids, wf kids = true -> sorted_names (map tname kids) = true.
Proof. intros kids H. unfold wf in H. apply andb_true_iff in H. exact (proj2 H). Qed.

Lemma wf_head_lt : forall t kids u, wf (t :: kids) = true -> In u kids -> String.ltb (tname t) (tname u) = true.
Proof. intros t kids u H Hu. exact (sorted_head_lt _ _ _ (wf_sorted _ H) (in_map tname kids u Hu)). Qed.

Lemma find_dir_in : forall n k kids, wf kids = true -> In (Dir n k) kids -> find_dir n kids = Some k.
Proof.
  induction kids as [|t kids IH]; intros H Hin; [destruct Hin|].
  destruct Hin as [E|Hin].
  - subst t. simpl. rewrite String.eqb_refl. reflexivity.
  - pose proof (wf_head_lt t kids (Dir n k) H Hin) as Hn. simpl in Hn.
    assert (Hne : (tname t =? n) = false).
    { destruct (tname t =? n) eqn:E; [|reflexivity]. apply String.eqb_eq in E. rewrite E in Hn. rewrite ltb_irrefl in Hn. discriminate. }
    destruct t as [m|m k']; simpl in *; rewrite Hne; apply IH; try exact (wf_tail _ _ H); exact Hin.
Qed.

Lemma find_dir_some : forall n kids k, find_dir n kids = Some k -> In (Dir n k) kids.
Proof.
  induction kids as [|t kids IH]; intros k H; [discriminate|].
  destruct t as [m|m k']; simpl in H.
  - destruct (m =? n); [discriminate|]. right. apply IH. exact H.
  - destruct (m =? n) eqn:E; [apply String.eqb_eq in E; subst m; inversion H; subst; left; reflexivity|].
    right. apply IH. exact H.
Qed.

(* a directory path without empty segments: what a clean prefix / entry names give *)
Definition plain (D : list string) : Prop := Forall (fun s => s <> "") D.

Lemma strip_trailing_plain : forall D, plain D -> strip_trailing_empty D = D.
Proof.
  intros D H. unfold strip_trailing_empty. destruct (rev D) as [|s r] eqn:E; [reflexivity|].
  destruct s; [|reflexivity]. exfalso.
  assert (In "" D) by (apply in_rev; rewrite E; left; reflexivity).
  unfold plain in H. rewrite Forall_forall in H. exact (H _ H0 eq_refl).
Qed.

Lemma plain_app : forall D n, plain D -> n <> "" -> plain (D ++ [n]).
Proof. intros D n H Hn. unfold plain. apply Forall_app. split; [exact H | constructor; [exact Hn | constructor]]. Qed.

Lemma walk_app : forall D kids n, walk kids (D ++ [n]) =
  match walk kids D with Some K => find_dir n K | None => None end.
Proof.
  induction D as [|s D IH]; intros kids n; simpl.
  - destruct (find_dir n kids); reflexivity.
  - destruct (find_dir s kids) as [k|]; [apply IH | reflexivity].
Qed.

Lemma resolve_child : forall rootk D K n k, plain D -> walk rootk D = Some K -> wf K = true -> In (Dir n k) K ->
  resolve rootk (D ++ [n]) = k /\ walk rootk (D ++ [n]) = Some k /\ plain (D ++ [n]).
Proof.
  intros rootk D K n k HP HW HK Hin.
  assert (Hn : n <> "") by (apply good_name_nonempty; exact (wf_good_names K (Dir n k) HK Hin)).
  pose proof (plain_app D n HP Hn) as HP2.
  assert (W : walk rootk (D ++ [n]) = Some k) by (rewrite walk_app, HW; exact (find_dir_in n k K HK Hin)).
  split; [|split; [exact W | exact HP2]].
  unfold resolve. rewrite (strip_trailing_plain _ HP2). rewrite W. reflexivity.
Qed.

Lemma resolve_plain : forall rootk D K, plain D -> walk rootk D = Some K -> resolve rootk D = K.
Proof. intros rootk D K HP HW. unfold resolve. rewrite (strip_trailing_plain _ HP). rewrite HW. reflexivity. Qed.

Lemma walk_wf : forall D rootk K, wf rootk = true -> walk rootk D = Some K -> wf K = true.
Proof.
  induction D as [|s D IH]; intros rootk K H HW; simpl in HW; [inversion HW; subst; exact H|].
  destruct (find_dir s rootk) as [k|] eqn:E; [|discriminate].
  apply (IH k K); [|exact HW]. exact (wf_kids s k rootk H (find_dir_some _ _ _ E)).
Qed.

Lemma height_child : forall n k kids, In (Dir n k) kids -> S (forest_height k) <= forest_height kids.
Proof.
  intros n k kids H. unfold forest_height.
  pose proof (proj1 (list_max_le (map height kids) _) (Nat.le_refl _)) as F. rewrite Forall_forall in F.
  exact (F (height (Dir n k)) (in_map height kids _ H)).
Qed.

Lemma walk_height : forall D rootk K, walk rootk D = Some K -> forest_height K <= forest_height rootk.
Proof.
  induction D as [|s D IH]; intros rootk K HW; simpl in HW; [inversion HW; lia|].
  destruct (find_dir s rootk) as [k|] eqn:E; [|discriminate].
  pose proof (IH k K HW). pose proof (height_child s k rootk (find_dir_some _ _ _ E)). lia.
Qed.

Inductive subseq {A : Type} : list A -> list A -> Prop :=
| sub_nil : forall l, subseq [] l
| sub_cons : forall x l1 l2, subseq l1 l2 -> subseq (x :: l1) (x :: l2)
| sub_skip : forall x l1 l2, subseq l1 l2 -> subseq l1 (x :: l2).

Lemma subseq_refl : forall A (l : list A), subseq l l.
Proof. induction l; constructor; assumption. Qed.

Lemma subseq_app : forall A (a a' b b' : list A), subseq a a' -> subseq b b' -> subseq (a ++ b) (a' ++ b').
Proof.
  intros A a a' b b' H. revert b b'. induction H; intros b b' Hb; simpl.
  - induction l as [|x l IH]; simpl; [exact Hb | apply sub_skip; exact IH].
  - apply sub_cons. apply IHsubseq. exact Hb.
  - apply sub_skip. apply IHsubseq. exact Hb.
Qed.

Lemma subseq_app_l : forall A (a r : list A), subseq a (a ++ r).
Proof. intros A a r. rewrite <- (app_nil_r a) at 1. apply subseq_app; [apply subseq_refl | constructor]. Qed.

Lemma subseq_trans : forall A (a b c : list A), subseq a b -> subseq b c -> subseq a c.
Proof.
  intros A a b c H1 H2. revert a H1. induction H2; intros a H1.
  - inversion H1. constructor.
  - inversion H1; subst; [constructor | apply sub_cons; apply IHsubseq; assumption | apply sub_skip; apply IHsubseq; assumption].
  - apply sub_skip. apply IHsubseq. exact H1.
Qed.

Lemma subseq_in : forall A (a b : list A) x, subseq a b -> In x a -> In x b.
Proof.
  intros A a b x H. induction H; intros Hx; [destruct Hx | |].
  - destruct Hx as [E|Hx]; [left; exact E | right; apply IHsubseq; exact Hx].
  - right. apply IHsubseq. exact Hx.
Qed.

Lemma subseq_length : forall A (a b : list A), subseq a b -> (List.length a <= List.length b)%nat.
Proof. intros A a b H. induction H; simpl; lia. Qed.

Lemma subseq_filter : forall A (f : A -> bool) l, subseq (filter f l) l.
Proof. induction l as [|x l IH]; simpl; [constructor|]. destruct (f x); [apply sub_cons | apply sub_skip]; exact IH. Qed.

Lemma filter_filter_and : forall A (f g : A -> bool) l, filter (fun x => f x && g x) l = filter g (filter f l).
Proof. intros A f g l. symmetry. apply filter_filter. Qed.

Lemma subseq_filter2 : forall A (f g : A -> bool) l, subseq (filter (fun x => f x && g x) l) (filter f l).
Proof. intros A f g l. rewrite filter_filter_and. apply subseq_filter. Qed.

Lemma subseq_firstn : forall A n (l : list A), subseq (firstn n l) l.
Proof. intros A n l. rewrite <- (firstn_skipn n l) at 2. apply subseq_app_l. Qed.

Lemma subseq_flat_map : forall A B (f : A -> list B) a b, subseq a b -> subseq (flat_map f a) (flat_map f b).
Proof.
  intros A B f a b H. induction H; simpl.
  - constructor.
  - apply subseq_app; [apply subseq_refl | exact IHsubseq].
  - change (flat_map f l1) with ([] ++ flat_map f l1).
    apply subseq_app; [constructor | exact IHsubseq].
Qed.

Section Sound.
  Variable ae : bool.
  Variable rootk : list tree.
  Variable delim : bool.
  Hypothesis Hwf : wf rootk = true.

  (* what the recursive call may return for an existing plain directory *)
  Definition rec_sound (rec : list string -> Z -> res) : Prop :=
    forall D K M, plain D -> walk rootk D = Some K -> wf K = true ->
      subseq (r_items (rec D M)) (ref_forest ae delim D K) /\
      r_count (rec D M) = Z.of_nat (length (r_items (rec D M))) /\
      (r_count (rec D M) <= Z.max 0 M)%Z.

  (* r extends items by a subsequence of Rf, counts what it added, and stays within the budget *)
  Definition extends (Rf : list item) (M1 : Z) (items : list item) (counter : Z) (r : res) : Prop :=
    exists X, r_items r = items ++ X /\ subseq X Rf /\
              r_count r = (counter + Z.of_nat (length X))%Z /\ (r_count r <= Z.max counter M1)%Z.

  Lemma loop_sound : forall rec D K M1, rec_sound rec -> plain D -> walk rootk D = Some K -> wf K = true ->
    forall es, (forall e, In e es -> In e K) ->
    forall items counter trunc next,
      extends (ref_forest ae delim D es) M1 items counter (loop ae rootk delim rec D M1 es items counter trunc next).
  Proof.
    intros rec D K M1 HR HP HW HK. induction es as [|e es IH]; intros Hin items counter trunc next.
    - exists []. simpl. rewrite app_nil_r. repeat split; [constructor | lia | lia].
    - simpl loop. destruct (counter >=? M1)%Z eqn:EC.
      + exists []. simpl. rewrite app_nil_r. repeat split; [constructor | lia | lia].
      + assert (HC : (counter < M1)%Z) by (rewrite Z.geb_leb in EC; apply Z.leb_gt in EC; exact EC).
        assert (Hin' : forall e0, In e0 es -> In e0 K) by (intros e0 H0; apply Hin; right; exact H0).
        assert (HeK : In e K) by (apply Hin; left; reflexivity).
        (* the entry added the block Y, a subsequence of its reference block Z, and the loop goes on *)
        assert (Hstep : forall Y Z tr nx, subseq Y Z -> (counter + Z.of_nat (length Y) <= M1)%Z ->
                  extends (Z ++ ref_forest ae delim D es) M1 items counter
                          (loop ae rootk delim rec D M1 es (items ++ Y) (counter + Z.of_nat (length Y)) tr nx)).
        { intros Y Z tr nx HY HB. destruct (IH Hin' (items ++ Y) (counter + Z.of_nat (length Y))%Z tr nx) as [X [E1 [E2 [E3 E4]]]].
          exists (Y ++ X). rewrite E1, E3, app_assoc, app_length.
          repeat split; [apply subseq_app; assumption | lia | lia]. }
        change (ref_forest ae delim D (e :: es)) with (ref_tree ae delim D e ++ ref_forest ae delim D es).
        destruct e as [n|n k]; simpl ref_tree.
        * exact (Hstep [IKey (D ++ [n])] _ trunc n (subseq_refl _ _) ltac:(simpl; lia)).
        * destruct (resolve_child rootk D K n k HP HW HK HeK) as [RC [WC PC]].
          destruct (n =? uploads); [exact (IH Hin' items counter trunc n)|].
          destruct delim eqn:ED; simpl negb; cbv iota.
          -- rewrite RC. unfold has_file. rewrite <- negb_orb.
             destruct (ae || existsb tree_has_file k); simpl negb; cbv iota.
             ++ exact (Hstep [ICP (D ++ [n])] _ trunc n (subseq_refl _ _) ltac:(simpl; lia)).
             ++ exact (IH Hin' items counter trunc n).
          -- destruct (HR (D ++ [n]) k (M1 - counter)%Z PC WC (wf_kids n k K HK HeK)) as [S1 [S2 S3]].
             rewrite ED in S1. fold (ref_forest ae false (D ++ [n]) k).
             set (r := rec (D ++ [n]) (M1 - counter)%Z) in *. rewrite S2.
             destruct (r_trunc r); [|exact (Hstep _ _ _ _ S1 ltac:(lia))].
             exists (r_items r). simpl. repeat split; [|lia].
             rewrite <- (app_nil_r (r_items r)). apply subseq_app; [exact S1 | constructor].
  Qed.

  Lemma filter_all_entries : forall K, wf K = true ->
    filter (fun t => String.prefix "" (tname t) && String.ltb "" (tname t)) K = K.
  Proof.
    intros K H. apply forallb_filter_id. apply forallb_forall. intros t Ht.
    rewrite (wf_after_empty K t H Ht). destruct (tname t); reflexivity.
  Qed.

  Lemma do_list_sound : forall fuel, rec_sound (fun D M => do_list ae rootk delim fuel D "" M "").
  Proof.
    induction fuel as [|f IH]; intros D K M HP HW HK.
    - simpl. repeat split; [constructor | lia].
    - simpl do_list.
      destruct (M <=? 0)%Z eqn:EM; [simpl; repeat split; [constructor | lia]|].
      unfold list_entries. rewrite (resolve_plain rootk D K HP HW). rewrite (filter_all_entries K HK).
      destruct (loop_sound (fun D' m' => do_list ae rootk delim f D' "" m' "") D K M IH HP HW HK
                  (firstn (Z.to_nat (M + 1)) K) (fun e He => subseq_in _ _ _ e (subseq_firstn _ _ _) He) [] 0%Z false "") as [X [E1 [E2 [E3 E4]]]].
      simpl in E1. rewrite E1. repeat split.
      + apply (subseq_trans _ _ _ _ E2). apply subseq_flat_map. apply subseq_firstn.
      + rewrite E3. lia.
      + lia.
  Qed.
End Sound.
