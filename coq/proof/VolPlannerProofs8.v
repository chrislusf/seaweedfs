(* Proofs about model/VolPlanner.v (C15): volume.fix.replication.  Every step of an accepted
   dry-run plan satisfies [FixOk]; the planner's count of planned copies is the real change of
   occupancy ([OccInv]). *)
From Coq Require Import List NArith ZArith Bool Arith Lia Permutation.
From SW Require Import proof.ListFacts model.VolPlanner proof.VolPlannerProofs proof.VolPlannerProofs2
  proof.VolPlannerProofs3 proof.VolPlannerProofs4 proof.VolPlannerProofs5 proof.VolPlannerProofs6.
Import ListNotations.

Lemma pick_from_in : forall rs best, In (pick_from best rs) (best :: rs).
Proof.
  induction rs as [|r rs IH]; intros best; cbn [pick_from]; [left; auto|].
  destruct (v_mtime (r_info best) <? v_mtime (r_info r))%N.
  - destruct (IH r) as [H|H]; [right; left; auto|right; right; auto].
  - destruct (IH best) as [H|H]; [left; auto|right; right; auto].
Qed.

Lemma mem_N_iff : forall x l, mem_N x l = true <-> In x l.
Proof. exact (existsb_eqb_In N.eqb N.eqb_eq). Qed.

Lemma remove_N_key : forall x l, remove_N x l = remove_key (fun y => y) x l.
Proof. induction l as [|a l IH]; cbn [remove_N remove_key]; [|rewrite IH]; reflexivity. Qed.

Lemma remove_N_nodup : forall x l, NoDup l -> NoDup (remove_N x l) /\ ~ In x (remove_N x l).
Proof.
  intros x l H. rewrite <- (map_id l) in H. apply (remove_key_nodup _ x) in H.
  rewrite map_id, <- remove_N_key in H. exact H.
Qed.

Lemma fix_src_in : forall s vid src, fix_src s vid = Some src -> In src (reps_of s vid).
Proof.
  intros s vid src H. unfold fix_src in H. destruct (reps_of s vid) as [|r0 rs']; [discriminate|].
  inversion H; subst. destruct (pick_from_in (r0 :: rs') r0) as [Hp|Hp]; [left; exact Hp|exact Hp].
Qed.

Lemma fix_copy_facts : forall s planned vid from to, fix_copy_ok s planned vid from to = true ->
  exists src t, fix_src s vid = Some src /\ In src (reps_of s vid) /\ l_node (r_loc src) = from /\
    In t s /\ n_id t = to /\
    (0 < fix_free planned t (v_dt (r_info src)))%Z /\
    satisfy (rp_of_byte (v_rp (r_info src))) (locs (reps_of s vid)) (n_loc t) = true.
Proof.
  intros s planned vid from to H. unfold fix_copy_ok in H.
  destruct (fix_src s vid) as [src|] eqn:Es; [|discriminate].
  apply andb_true_iff in H. destruct H as [Hfrom H].
  destruct (find_node s to) as [t|] eqn:Et; [|discriminate].
  apply find_node_some in Et. destruct Et as [Ht Etid].
  apply andb_true_iff in H. destruct H as [Hd _]. unfold fix_dst_ok in Hd.
  apply andb_true_iff in Hd. destruct Hd as [Hfree Hsat]. apply Z.ltb_lt in Hfree.
  exists src, t. repeat split; auto.
  - apply fix_src_in; auto.
  - apply N.eqb_eq; auto.
Qed.

Local Open Scope Z_scope.
(* Prop form of the model's [counts_okb] *)
Definition counts_ok (s : snapshot) : Prop :=
  forall n dt d, In n s -> disk_of n dt = Some d -> Z.of_nat (length (vols_of_dt n dt)) <= d_count d.

Lemma counts_okb_ok : forall s, counts_okb s = true -> counts_ok s.
Proof.
  intros s H n dt d Hn Hd. unfold counts_okb in H. rewrite forallb_forall in H.
  specialize (H n Hn). rewrite forallb_forall in H.
  pose proof Hd as Hd'. unfold disk_of in Hd'. apply find_some in Hd'. destruct Hd' as [Hin E].
  apply N.eqb_eq in E. specialize (H d Hin). rewrite E, Hd in H. apply Z.leb_le in H. exact H.
Qed.

(* the planner's count of planned copies is the real change of occupancy *)
Definition OccInv (s : snapshot) (planned : N -> N -> Z) (w : world) : Prop :=
  (forall id dt, w_occ w id dt = w_occ (init_world s) id dt + planned id dt) /\
  (forall id dt, 0 <= planned id dt).

(* what every step of a repair plan satisfies: all clauses, the placement clause of a purge only
   outside the trigger of finding 3 (pickOneReplicaToDelete ranks by age alone) *)
Definition FixOk (s : snapshot) (w : world) (st : step) : Prop :=
  ok_coloc (prop_step s w st) = true /\ ok_repair (prop_step s w st) = true /\
  ok_pres (prop_step s w st) || step_delete_trig w st = true /\
  purge_count_ok w st = true /\
  (counts_ok s -> ok_cap (prop_step s w st) = true).

(* one repair copy, for a volume not yet touched by this run *)
Lemma copy_step_ok : forall s planned w vid from to,
  wf_snap s -> w_reps w vid = reps_of s vid -> OccInv s planned w ->
  fix_copy_ok s planned vid from to = true ->
  FixOk s w (Copy vid from to) /\
  OccInv s (match fix_src s vid with
            | Some src => upd2 planned to (v_dt (r_info src)) 1 | None => planned end)
         (apply_step s w (Copy vid from to)).
Proof.
  intros s planned w vid from to Hwf Hw [Ho Hp] H.
  destruct (fix_copy_facts _ _ _ _ _ H) as [src [t [Esrc [Hsrc [Efrom [Ht [Etid [Hfree Hsat]]]]]]]].
  pose proof Hwf as [Hnd Hvids].
  pose proof (init_NodesOk s Hwf vid) as HN. cbn [init_world w_reps] in HN.
  pose proof (replica_at_unique _ _ HN Hsrc) as Hat. rewrite Efrom, <- Hw in Hat.
  assert (loc_of s to = n_loc t) as Etl by (rewrite <- Etid; apply loc_of_in; auto).
  assert (ids_ok (n_loc t :: locs (reps_of s vid))) as Hids.
  { apply (ids_ok_cons_cl s (init_world s) vid); auto; [apply init_WInv|apply in_map; auto]. }
  set (dt := v_dt (r_info src)) in *. rewrite Esrc.
  split.
  - unfold FixOk. cbn [prop_step step_delete_trig purge_count_ok]. rewrite Hat, Hw, orb_false_r.
    cbn [ok_coloc ok_repair ok_pres ok_cap]. split; [|split; [|split; [|split; [reflexivity|]]]].
    + destruct (holds (reps_of s vid) to) eqn:E; auto. apply holds_iff in E.
      exfalso. eapply satisfy_no_coloc; eauto. change (l_node (n_loc t)) with (n_id t). rewrite Etid. auto.
    + rewrite Etl. destruct (sub_placement _ (locs (reps_of s vid))) eqn:Es; auto. cbn [implb].
      apply sub_placement_iff. apply satisfy_SubP; auto. apply sub_placement_iff; auto.
    + (* the volume was not satisfied: satisfyReplicaPlacement refuses every copy otherwise *)
      rewrite (satisfy_not_valid _ _ _ Hids Hsat). reflexivity.
    + (* a free slot by the planner's count is one by the true count *)
      intros Hcnt. apply Z.ltb_lt. fold dt. rewrite Ho. cbn [init_world w_occ].
      unfold max_of. rewrite <- Etid, find_node_in; auto.
      unfold fix_free, cap_free in Hfree. unfold cap_max.
      destruct (disk_of t dt) as [d|] eqn:Ed.
      * pose proof (Hcnt t dt d Ht Ed). lia.
      * pose proof (Hp (n_id t) dt). lia.
  - cbn [apply_step]. rewrite Hat. cbn [r_info]. fold dt.
    split; intros id dt'; cbn [w_occ]; unfold upd2; pose proof (Hp id dt');
      destruct ((id =? to)%N && (dt' =? dt)%N); rewrite ?Ho; lia.
Qed.
Local Close Scope Z_scope.

Lemma copy_step_other : forall s w vid from to vid', vid' <> vid ->
  w_reps (apply_step s w (Copy vid from to)) vid' = w_reps w vid'.
Proof.
  intros. cbn [apply_step]. destruct (replica_at (w_reps w vid) from); [|reflexivity].
  cbn [w_reps]. apply upd1_neq; auto.
Qed.

Lemma fix_under_steps : forall s evs planned pending w,
  wf_snap s -> NoDup pending ->
  (forall vid, In vid pending -> w_reps w vid = reps_of s vid) -> OccInv s planned w ->
  fix_under_run s planned pending evs = true ->
  Steps (FixOk s) s w (fix_steps evs).
Proof.
  intros s evs. induction evs as [|e evs IH]; intros planned pending w Hwf Hnd Hw Hocc H; [exact I|].
  (* a copy or a refusal, of a pending volume: in both cases it leaves the pending list *)
  destruct e as [vid|vid at_|vid from to|vid]; cbn [fix_under_run] in H; try discriminate;
    rewrite !andb_true_iff in H; destruct H as [[Hmem Hok] Hrec]; apply mem_N_iff in Hmem;
    destruct (remove_N_nodup vid pending Hnd) as [Hnd' Hnin].
  - destruct (copy_step_ok s planned w vid from to Hwf (Hw vid Hmem) Hocc Hok) as [Hq Hocc'].
    split; [exact Hq|]. eapply (IH _ (remove_N vid pending)); eauto.
    intros vid' Hv'. assert (vid' <> vid) as Hne by (intro; subst; auto).
    rewrite copy_step_other; auto. apply Hw. rewrite remove_N_key in Hv'. eapply remove_key_incl; eauto.
  - apply (IH planned (remove_N vid pending) w); auto.
    intros vid' Hv'. apply Hw. rewrite remove_N_key in Hv'. eapply remove_key_incl; eauto.
Qed.

Lemma take_overs_steps : forall evs a b, take_overs evs = (a, b) -> fix_steps evs = fix_steps b.
Proof.
  induction evs as [|e evs IH]; intros a b H; cbn [take_overs] in H.
  - inversion H; reflexivity.
  - destruct e; try (inversion H; reflexivity).
    destruct (take_overs evs) as [a' b'] eqn:E. inversion H; subst.
    cbn [fix_steps flat_map app]. fold (fix_steps evs). eapply IH; eauto.
Qed.

Lemma under_vids_nodup : forall s, NoDup (under_vids s).
Proof. intros. unfold under_vids. apply NoDup_filter. unfold all_vids. apply NoDup_nodup. Qed.

Lemma remove_at_key : forall at_ rs, remove_at at_ rs = remove_key (fun r => l_node (r_loc r)) at_ rs.
Proof. induction rs as [|r rs IH]; cbn [remove_at remove_key]; [|rewrite IH]; reflexivity. Qed.

Lemma remove_at_length : forall at_ rs, holds rs at_ = true -> S (length (remove_at at_ rs)) = length rs.
Proof.
  intros at_ rs H. apply holds_iff in H. unfold locs in H. rewrite map_map in H.
  rewrite remove_at_key. apply remove_key_length. exact H.
Qed.

Lemma delete_ok_holds : forall rs at_, delete_ok rs at_ = true -> holds rs at_ = true.
Proof.
  intros rs at_ H. unfold delete_ok in H. apply existsb_exists in H. destruct H as [r [Hr H]].
  apply andb_true_iff in H. destruct H as [H _]. unfold holds. apply existsb_exists. exists r; auto.
Qed.

Lemma holds_replica_at : forall rs at_, holds rs at_ = true -> exists r, replica_at rs at_ = Some r.
Proof.
  intros rs at_ H. unfold holds in H. apply existsb_exists in H. destruct H as [r [Hr H]].
  unfold replica_at. destruct (find (fun r0 => (l_node (r_loc r0) =? at_)%N) rs) as [r'|] eqn:E; [eauto|].
  pose proof (find_none _ _ E r Hr) as Hn. cbn beta in Hn. congruence.
Qed.

Lemma excused_of_cap : forall trig s tr w, ok_cap (prop_trace s w tr) = true ->
  excused ok_cap trig s w tr = true.
Proof. intros trig s. apply excused_of_clause. reflexivity. Qed.

Theorem fix_accepts_steps : forall s retry evs, wf_snap s -> fix_accepts s retry evs = true ->
  Steps (FixOk s) s (init_world s) (fix_steps evs).
Proof.
  intros s retry evs Hwf H. unfold fix_accepts in H.
  destruct s as [|n0 s0] eqn:Es; [destruct evs; [exact I|discriminate]|]. rewrite <- Es in *.
  destruct (take_overs evs) as [overs rest] eqn:Et. rewrite (take_overs_steps _ _ _ Et).
  apply andb_true_iff in H. destruct H as [_ H].
  destruct (over_vids s) as [|ov ovs] eqn:Eo.
  - apply (fix_under_steps s rest (fun _ _ => 0%Z) (under_vids s)); auto.
    + apply under_vids_nodup.
    + split; intros; lia.
  - (* the purge of the first over-replicated volume *)
    destruct overs as [|v0 overs']; [discriminate|].
    destruct rest as [|[| vid at_ | |] [|? ?]]; try discriminate.
    apply andb_true_iff in H. destruct H as [H Hdel]. apply andb_true_iff in H. destruct H as [_ Hmem].
    apply mem_N_iff in Hmem.
    split; [|exact I]. unfold FixOk. cbn [prop_step init_world w_reps step_delete_trig purge_count_ok].
    pose proof (delete_ok_holds _ _ Hdel) as Hh. destruct (holds_replica_at _ _ Hh) as [r Hr]. rewrite Hr.
    destruct (reps_of s vid) as [|r0 rs'] eqn:Er; [discriminate|].
    cbn [ok_coloc ok_repair ok_pres ok_cap head_rp].
    assert (copy_count (rp_of_byte (v_rp (r_info r0))) <=? length (remove_at at_ (r0 :: rs')) = true) as Hcnt.
    { apply Nat.leb_le. pose proof (remove_at_length _ _ Hh) as Hl.
      assert (In vid (over_vids s)) as Hov by (rewrite Eo; exact Hmem).
      unfold over_vids in Hov. apply filter_In in Hov. destruct Hov as [_ Hov]. apply Nat.ltb_lt in Hov.
      rewrite Er in Hov. cbn [head_rp] in Hov. lia. }
    rewrite Hcnt. repeat split; auto. cbn [andb].
    (* placement: excused by the trigger, or really preserved *)
    destruct (delete_pres_trig (r0 :: rs')) eqn:Etr; [apply orb_true_r|]. rewrite orb_false_r.
    unfold delete_pres_trig in Etr. cbn [head_rp] in Etr.
    destruct (has_valid_subset (rp_of_byte (v_rp (r_info r0))) (locs (r0 :: rs'))) eqn:Eh; [|reflexivity].
    cbn [andb implb] in *.
    unfold delete_ok in Hdel. apply existsb_exists in Hdel. destruct Hdel as [x [Hx Hd]].
    apply andb_true_iff in Hd. destruct Hd as [Hat Hmin]. apply N.eqb_eq in Hat.
    pose proof (existsb_false_in _ _ x Etr Hx) as Hno. cbn beta in Hno.
    rewrite Hmin, Hat in Hno. cbn [andb] in Hno. apply negb_false_iff in Hno. exact Hno.
Qed.

Lemma FixOk_trace : forall s w tr, Steps (FixOk s) s w tr ->
  ok_coloc (prop_trace s w tr) = true /\
  ok_repair (prop_trace s w tr) = true /\
  excused ok_pres step_delete_trig s w tr = true /\
  all_steps purge_count_ok s w tr = true /\
  (counts_ok s -> ok_cap (prop_trace s w tr) = true).
Proof.
  intros s w tr H. split; [|split; [|split; [|split]]].
  - apply (Steps_clause ok_coloc s (FixOk s) eq_refl (fun _ _ => eq_refl)) with (2 := H).
    intros w0 st H0. apply H0.
  - apply (Steps_clause ok_repair s (FixOk s) eq_refl (fun _ _ => eq_refl)) with (2 := H).
    intros w0 st H0. apply H0.
  - apply (Steps_excused ok_pres step_delete_trig s (FixOk s)) with (2 := H).
    intros w0 st H0. apply H0.
  - apply (Steps_excused (fun _ => false) purge_count_ok s (FixOk s)) with (2 := H).
    intros w0 st H0. apply H0.
  - intros Hcnt. apply (Steps_clause ok_cap s (FixOk s) eq_refl (fun _ _ => eq_refl)) with (2 := H).
    intros w0 st H0. apply H0. exact Hcnt.
Qed.

Theorem fix_accepts_safe : forall s retry evs, wf_snap s -> fix_accepts s retry evs = true ->
  ok_coloc (prop_trace s (init_world s) (fix_steps evs)) = true /\
  ok_repair (prop_trace s (init_world s) (fix_steps evs)) = true /\
  excused ok_pres step_delete_trig s (init_world s) (fix_steps evs) = true /\
  all_steps purge_count_ok s (init_world s) (fix_steps evs) = true.
Proof.
  intros s retry evs Hwf H. pose proof (FixOk_trace _ _ _ (fix_accepts_steps s retry evs Hwf H)). tauto.
Qed.

Theorem fix_accepts_capacity : forall s retry evs, wf_snap s -> counts_okb s = true ->
  fix_accepts s retry evs = true ->
  ok_cap (prop_trace s (init_world s) (fix_steps evs)) = true.
Proof.
  intros s retry evs Hwf Hcnt H. apply (FixOk_trace _ _ _ (fix_accepts_steps s retry evs Hwf H)).
  apply counts_okb_ok. exact Hcnt.
Qed.

(* the planner's own notion of capacity *)
Theorem fix_copy_own_capacity : forall s planned vid from to, fix_copy_ok s planned vid from to = true ->
  exists src t, In src (reps_of s vid) /\ l_node (r_loc src) = from /\ In t s /\ n_id t = to /\
    (0 < cap_free t (v_dt (r_info src)) - planned to (v_dt (r_info src)))%Z.
Proof.
  intros s planned vid from to H.
  destruct (fix_copy_facts _ _ _ _ _ H) as [src [t [_ [Hsrc [Efrom [Ht [Etid [Hfree _]]]]]]]].
  exists src, t. repeat split; auto. unfold fix_free in Hfree. rewrite Etid in Hfree. exact Hfree.
Qed.
