(* Proofs about model/VolumeCrash.v (C03): the needle maps, the invariant of the running volume,
   what one operation does to it. *)
From Coq Require Import List NArith ZArith Bool Lia ZifyBool ZifyN ZifyNat.
From SW Require Import model.Needle proof.NeedleProofs model.VolumeCrash.
Import ListNotations.
Local Open Scope N_scope.

Arguments Z.of_N : simpl never.
Arguments Z.to_N : simpl never.
Arguments Z.ltb : simpl never.
Arguments Z.eqb : simpl never.
Arguments Z.opp : simpl never.

Lemma In_takeN : forall A (l : list A) k x, In x (takeN k l) -> In x l.
Proof.
  intros A l k x H. rewrite takeN_firstn in H. rewrite <- (firstn_skipn (N.to_nat k) l).
  apply in_or_app. left. assumption.
Qed.

Lemma takeN_ge : forall A (l : list A) k, len l <= k -> takeN k l = l.
Proof. intros. rewrite takeN_firstn. apply firstn_all2. unfold len in *. lia. Qed.

Lemma takeN_app_ge : forall A (a b : list A) k, len a <= k -> takeN k (a ++ b) = a ++ takeN (k - len a) b.
Proof.
  intros A a b k H. rewrite !takeN_firstn, firstn_app. unfold len in *.
  rewrite firstn_all2 by lia. f_equal. f_equal. lia.
Qed.

(* a window of a prefix of X is either short or the same window of X *)
Lemma window_of_prefix : forall (X : list N) m o a,
  a <= len (takeN a (dropN o (takeN m X))) -> takeN a (dropN o (takeN m X)) = takeN a (dropN o X).
Proof.
  intros X m o a H. rewrite dropN_takeN, takeN_takeN in *.
  destruct (N.le_gt_cases a (m - o)) as [Hle|Hgt].
  - rewrite N.min_l in * by assumption. reflexivity.
  - rewrite N.min_r in H by lia. rewrite N.min_r by lia.
    pose proof (len_takeN_le _ (dropN o X) (m - o)). lia.
Qed.

Lemma len_zeros : forall k, len (zeros k) = k.
Proof. intros. unfold zeros, len. rewrite repeat_length. lia. Qed.

Lemma round_up8_spec : forall x, x <= round_up8 x /\ round_up8 x mod 8 = 0 /\ (x mod 8 = 0 -> round_up8 x = x).
Proof. intros. unfold round_up8. destruct (x mod 8 =? 0) eqn:E; lia. Qed.

Lemma size_valid_pos : forall s, size_valid s = true -> (0 < s)%Z.
Proof. intros s H. unfold size_valid, TombstoneFileSize in H. lia. Qed.

Lemma size_valid_of_N : forall x, 0 < x -> size_valid (Z.of_N x) = true.
Proof. intros. unfold size_valid, TombstoneFileSize. lia. Qed.

Lemma size_deleted_neg : forall s, size_deleted s = false -> (0 <= s)%Z.
Proof. intros s H. unfold size_deleted, TombstoneFileSize in H. lia. Qed.

Lemma nm_get_set_other : forall m k v k', k <> k' -> nm_get (nm_set m k v) k' = nm_get m k'.
Proof. intros. unfold nm_set. cbn [nm_get]. destruct (k =? k') eqn:E; [lia|reflexivity]. Qed.

Lemma nm_get_set_same : forall m k v, nm_get (nm_set m k v) k = Some v.
Proof. intros. unfold nm_set. cbn [nm_get]. rewrite N.eqb_refl. reflexivity. Qed.

Lemma nm_get_delete_other : forall m k k', k <> k' -> nm_get (nm_delete m k) k' = nm_get m k'.
Proof.
  intros m k k' H. unfold nm_delete. destruct (nm_get m k) as [v|]; [|reflexivity].
  destruct (size_valid (nv_size v)); [|reflexivity]. cbn [nm_get]. destruct (k =? k') eqn:E; [lia|reflexivity].
Qed.

Lemma nm_get_delete_same : forall m k, nm_get (nm_delete m k) k =
  match nm_get m k with
  | Some v => if size_valid (nv_size v) then Some {| nv_off := nv_off v; nv_size := (- nv_size v)%Z |} else Some v
  | None => None
  end.
Proof.
  intros m k. unfold nm_delete. destruct (nm_get m k) as [v|] eqn:E; [|assumption].
  destruct (size_valid (nv_size v)); [|assumption]. cbn [nm_get]. rewrite N.eqb_refl. reflexivity.
Qed.

Lemma nm_get_remove_same : forall m k, nm_get (nm_remove m k) k = None.
Proof.
  induction m as [|[k' v] m IH]; intros k; [reflexivity|].
  cbn [nm_remove]. destruct (k' =? k) eqn:E; [apply IH|]. cbn [nm_get]. rewrite E. apply IH.
Qed.

Lemma nm_get_remove_other : forall m k k', k' <> k -> nm_get (nm_remove m k) k' = nm_get m k'.
Proof.
  induction m as [|[k0 v] m IH]; intros k k' H; [reflexivity|].
  cbn [nm_remove nm_get]. destruct (k0 =? k) eqn:E.
  - destruct (k0 =? k') eqn:E'; [lia|]. apply IH; assumption.
  - cbn [nm_get]. destruct (k0 =? k') eqn:E'; [reflexivity|]. apply IH; assumption.
Qed.

(* every binding of a loaded map comes from an index entry: same key and offset, the size of
   the entry or (in-memory map, after a deletion) its negation *)
Definition from_entry (es : list entry) (k : N) (nv : nval) : Prop :=
  exists e, In e es /\ e_key e = k /\ nv_off nv = e_off e /\ negb (e_off e =? 0) = true /\
            ((nv_size nv = e_size e /\ (e_size e <> TombstoneFileSize)) \/
             (nv_size nv = (- e_size e)%Z /\ size_valid (e_size e) = true)).

Lemma from_entry_mono : forall es es' k nv, incl es es' -> from_entry es k nv -> from_entry es' k nv.
Proof. intros es es' k nv Hi [e [H1 H2]]. exists e. split; [apply Hi; assumption|assumption]. Qed.

Definition map_from (es : list entry) (m : nmap) : Prop :=
  forall k nv, nm_get m k = Some nv -> from_entry es k nv.

(* the binding an index entry with an offset and a size other than the tombstone's makes *)
Lemma from_entry_new : forall es e, negb (e_off e =? 0) = true -> e_size e <> TombstoneFileSize ->
  from_entry (es ++ [e]) (e_key e) {| nv_off := e_off e; nv_size := e_size e |}.
Proof.
  intros es e Ho Hs. exists e. cbn [nv_off nv_size].
  split; [apply in_or_app; right; left; reflexivity|]. auto 6.
Qed.

Lemma load_compact_step_from : forall es m e, map_from es m -> map_from (es ++ [e]) (load_compact_step m e).
Proof.
  intros es m e Hm k nv Hg. unfold load_compact_step in Hg.
  assert (Hold : map_from (es ++ [e]) m).
  { intros k0 nv0 H0. eapply from_entry_mono; [apply incl_appl, incl_refl|eauto]. }
  destruct (N.eq_dec (e_key e) k) as [<-|Hne].
  2:{ destruct (_ && _); [rewrite nm_get_set_other in Hg|rewrite nm_get_delete_other in Hg]; auto. }
  destruct (negb (e_off e =? 0) && size_valid (e_size e)) eqn:Ec.
  - rewrite nm_get_set_same in Hg. inversion Hg. apply andb_true_iff in Ec. destruct Ec as [Eo Es].
    apply from_entry_new; [assumption|]. apply size_valid_pos in Es. unfold TombstoneFileSize. lia.
  - (* a deletion keeps the entry the binding came from and negates its size *)
    rewrite nm_get_delete_same in Hg. destruct (nm_get m (e_key e)) as [v|] eqn:Eg; [|discriminate].
    destruct (size_valid (nv_size v)) eqn:Ev; inversion Hg; subst nv; [|auto].
    destruct (Hold _ v Eg) as [e0 [Hin [Hkey [Hoff [Hnz Hsz]]]]]. exists e0. cbn [nv_off nv_size].
    split; [assumption|]. split; [assumption|]. split; [assumption|]. split; [assumption|].
    right. destruct Hsz as [[Hs _]|[Hs Hv]].
    + rewrite <- Hs. auto.
    + apply size_valid_pos in Ev, Hv. lia.
Qed.

Lemma load_sorted_step_from : forall es m e, map_from es m -> map_from (es ++ [e]) (load_sorted_step m e).
Proof.
  intros es m e Hm k nv Hg. unfold load_sorted_step in Hg.
  assert (Hrm : map_from (es ++ [e]) (nm_remove m (e_key e))).
  { intros k0 nv0 H0. destruct (N.eq_dec k0 (e_key e)) as [->|Hne].
    - rewrite nm_get_remove_same in H0. discriminate.
    - rewrite nm_get_remove_other in H0 by assumption. eapply from_entry_mono; [apply incl_appl, incl_refl|eauto]. }
  destruct (negb (e_off e =? 0) && negb (e_size e =? TombstoneFileSize)%Z) eqn:Ec; [|apply Hrm; assumption].
  destruct (N.eq_dec (e_key e) k) as [<-|Hne]; [|rewrite nm_get_set_other in Hg by assumption; auto].
  rewrite nm_get_set_same in Hg. inversion Hg. apply andb_true_iff in Ec. destruct Ec as [Eo Es].
  apply from_entry_new; [assumption|lia].
Qed.

Lemma fold_from : forall (step : nmap -> entry -> nmap),
  (forall es m e, map_from es m -> map_from (es ++ [e]) (step m e)) ->
  forall es2 es1 m, map_from es1 m -> map_from (es1 ++ es2) (fold_left step es2 m).
Proof.
  intros step Hstep. induction es2 as [|e es2 IH]; intros es1 m Hm.
  - rewrite app_nil_r. assumption.
  - cbn [fold_left]. replace (es1 ++ e :: es2) with ((es1 ++ [e]) ++ es2) by (rewrite <- app_assoc; reflexivity).
    apply IH. apply Hstep. assumption.
Qed.

Lemma load_compact_from : forall es, map_from es (load_compact es).
Proof.
  intros. unfold load_compact. apply (fold_from load_compact_step load_compact_step_from es [] []).
  intros k nv H. discriminate.
Qed.

Lemma load_sorted_from : forall es, map_from es (load_sorted es).
Proof.
  intros. unfold load_sorted. apply (fold_from load_sorted_step load_sorted_step_from es [] []).
  intros k nv H. discriminate.
Qed.

Lemma load_compact_snoc : forall es e, load_compact (es ++ [e]) = load_compact_step (load_compact es) e.
Proof. intros. unfold load_compact. rewrite fold_left_app. reflexivity. Qed.

Definition cat (l : list (N * arec)) : list N := concat (map (fun p => encode Ver (a_n (snd p))) l).
Definition dat_of (l : list (N * arec)) : list N := super_block ++ cat l.
Definition idx_of (l : list (N * arec)) : list entry := map (fun p => entry_of (fst p) (snd p)) l.

(* the stored offsets are the running sum of the record lengths *)
Fixpoint lay (s : N) (l : list (N * arec)) : Prop :=
  match l with
  | [] => True
  | (o, r) :: t => o = s /\ lay (s + len (encode Ver (a_n r))) t
  end.

Lemma cat_app : forall a b, cat (a ++ b) = cat a ++ cat b.
Proof. intros. unfold cat. rewrite map_app, concat_app. reflexivity. Qed.

Lemma cat_cons : forall o r t, cat ((o, r) :: t) = encode Ver (a_n r) ++ cat t.
Proof. reflexivity. Qed.

Lemma lay_app : forall a b s, lay s (a ++ b) <-> lay s a /\ lay (s + len (cat a)) b.
Proof.
  induction a as [|[o r] a IH]; intros b s.
  - cbn [app lay cat map concat]. rewrite len_nil, N.add_0_r. tauto.
  - cbn [app lay]. rewrite cat_cons, len_app, IH, N.add_assoc. tauto.
Qed.

Lemma lay_split : forall l s o r, lay s l -> In (o, r) l ->
  exists l1 l2, l = l1 ++ (o, r) :: l2 /\ o = s + len (cat l1).
Proof.
  induction l as [|[o0 r0] l IH]; intros s o r Hl Hin; [destruct Hin|].
  destruct Hin as [Heq|Hin].
  - inversion Heq; subst. exists [], l. destruct Hl as [Ho _]. split; [reflexivity|].
    cbn [cat map concat]. rewrite len_nil. lia.
  - destruct Hl as [Ho Hl]. destruct (IH _ o r Hl Hin) as [l1 [l2 [E1 E2]]].
    exists ((o0, r0) :: l1), l2. split; [rewrite E1; reflexivity|].
    rewrite cat_cons, len_app. lia.
Qed.

Lemma lay_find : forall l s o r, lay s l -> In (o, r) l -> find_rec l o = Some r.
Proof.
  induction l as [|[o0 r0] l IH]; intros s o r Hl Hin; [destruct Hin|].
  destruct Hl as [Ho Hl]. cbn [find_rec]. destruct Hin as [Heq|Hin].
  - inversion Heq; subst. rewrite N.eqb_refl. reflexivity.
  - destruct (lay_split _ _ _ _ Hl Hin) as [l1 [l2 [_ E2]]].
    pose proof (len_encode_ge Ver (a_n r0)).
    destruct (o0 =? o) eqn:E; [lia|]. eapply IH; eauto.
Qed.

Lemma find_rec_in : forall l o r, find_rec l o = Some r -> In (o, r) l.
Proof.
  induction l as [|[o0 r0] l IH]; intros o r H; [discriminate|].
  cbn [find_rec] in H. destruct (o0 =? o) eqn:E.
  - inversion H; subst. left. f_equal. lia.
  - right. apply IH. assumption.
Qed.

Section WithCrc.
  Variable crc : list N -> N.

  (* what a caller passes: a representable needle with a payload and Checksum = NewCRC(Data) (the
     empty payload is finding 0 of C01/C02); 64/32-bit id, cookie and clock for a delete *)
  Definition wf_op (o : op) : Prop :=
    match o with
    | Write n => rec_ok n /\ data n <> [] /\ checksum n = crc (data n)
    | Delete k c ts => k < 2 ^ 64 /\ c < 2 ^ 32 /\ ts < 2 ^ 64
    end.

  Definition arec_ok (r : arec) : Prop :=
    rec_ok (a_n r) /\
    (if a_tomb r then data (a_n r) = [] else data (a_n r) <> [] /\ checksum (a_n r) = crc (data (a_n r))).

  Lemma tombstone_ok : forall k c ts, k < 2 ^ 64 -> c < 2 ^ 32 -> ts < 2 ^ 64 ->
    arec_ok {| a_n := tombstone k c ts; a_tomb := true |}.
  Proof.
    intros k c ts Hk Hc Hts. split; [|reflexivity]. split; [reflexivity|].
    unfold ranges_ok, tombstone. cbn [cookie id name last_modified pairs_size append_at_ns].
    change (body_size _) with 0. repeat split; try assumption; try reflexivity. rewrite len_nil. lia.
  Qed.

  Definition recs_ok (l : list (N * arec)) : Prop := Forall (fun p => arec_ok (snd p)) l.

  Lemma len_enc_ok : forall r, arec_ok r -> len (encode Ver (a_n r)) = actual_size (body_size (a_n r)) Ver.
  Proof. intros r [[H _] _]. apply len_encode. assumption. Qed.

  Lemma cat_aligned : forall l, recs_ok l -> len (cat l) mod 8 = 0.
  Proof.
    induction l as [|[o r] l IH]; intros H; [reflexivity|].
    inversion H as [|? ? Hr Hl]; subst. rewrite cat_cons, len_app.
    specialize (IH Hl). cbn [snd] in Hr. rewrite (len_enc_ok r Hr).
    pose proof (actual_size_aligned (body_size (a_n r)) Ver). lia.
  Qed.

  Record Inv (st : pstate) : Prop := {
    inv_dat : p_dat st = dat_of (p_recs st);
    inv_lay : lay 8 (p_recs st);
    inv_idx : p_idx st = idx_of (p_recs st);
    inv_ok : recs_ok (p_recs st);
    inv_map : p_map st = load_compact (p_idx st)
  }.

  Lemma len_super_block : len super_block = 8.
  Proof. reflexivity. Qed.

  Lemma inv_init : Inv p_init.
  Proof. constructor; try reflexivity; constructor. Qed.

  Lemma len_dat_of : forall l, len (dat_of l) = 8 + len (cat l).
  Proof. intros. unfold dat_of. rewrite len_app, len_super_block. reflexivity. Qed.

  Lemma rec_in_dat : forall st o r, Inv st -> In (o, r) (p_recs st) ->
    exists pre post, p_dat st = pre ++ encode Ver (a_n r) ++ post /\ len pre = o /\ o mod 8 = 0 /\ 8 <= o /\ arec_ok r.
  Proof.
    intros st o r HI Hin. destruct (lay_split _ _ _ _ (inv_lay st HI) Hin) as [l1 [l2 [E1 E2]]].
    pose proof (inv_ok st HI) as Hok. rewrite E1 in Hok. unfold recs_ok in Hok.
    apply Forall_app in Hok. destruct Hok as [Hok1 Hok2]. inversion Hok2 as [|? ? Hr _]; subst x l.
    exists (super_block ++ cat l1), (cat l2). split.
    - rewrite (inv_dat st HI), E1. unfold dat_of. rewrite cat_app, cat_cons, <- !app_assoc. reflexivity.
    - rewrite len_app, len_super_block. pose proof (cat_aligned l1 Hok1). cbn [snd] in Hr.
      split; [lia|]. split; [lia|]. split; [lia|assumption].
  Qed.

  Lemma entry_in_idx : forall st e, Inv st -> In e (p_idx st) ->
    exists o r, In (o, r) (p_recs st) /\ e = entry_of o r.
  Proof.
    intros st e HI Hin. rewrite (inv_idx st HI) in Hin. unfold idx_of in Hin.
    apply in_map_iff in Hin. destruct Hin as [[o r] [E Hin]]. exists o, r. split; [assumption|]. symmetry. exact E.
  Qed.

  (* a binding of a map loaded from (part of) the index points at a record of its key that
     carries a payload slot; the size is that of the record, negated once deleted *)
  Definition bound_to (k : N) (nv : nval) (r : arec) : Prop :=
    nv_off nv <> 0 /\ id (a_n r) = k /\ a_tomb r = false /\
    (nv_size nv = Z.of_N (body_size (a_n r)) \/
     (nv_size nv = (- Z.of_N (body_size (a_n r)))%Z /\ 0 < body_size (a_n r))).

  Lemma binding_record : forall st es k nv, Inv st -> incl es (p_idx st) -> from_entry es k nv ->
    exists r, In (nv_off nv * 8, r) (p_recs st) /\ bound_to k nv r.
  Proof.
    intros st es k nv HI Hinc [e [Hin [Hk [Hoff [Hnz Hsz]]]]].
    destruct (entry_in_idx st e HI (Hinc e Hin)) as [o [r [Hr He]]].
    destruct (rec_in_dat st o r HI Hr) as [pre [post [_ [_ [Hal [Hge Hok]]]]]].
    subst e. unfold entry_of in *. cbn [e_key e_off e_size] in *.
    assert (Eo : nv_off nv * 8 = o) by (rewrite Hoff; lia).
    exists r. rewrite Eo. split; [assumption|]. split; [lia|]. split; [assumption|].
    unfold entry_size, TombstoneFileSize in Hsz. destruct (a_tomb r) eqn:Et.
    - exfalso. destruct Hsz as [[Hs Hne]|[Hs Hv]]; [lia|discriminate Hv].
    - split; [reflexivity|]. destruct Hsz as [[Hs _]|[Hs Hv]]; [left; assumption|].
      right. apply size_valid_pos in Hv. split; [assumption|lia].
  Qed.

  Lemma map_from_idx : forall st, Inv st -> map_from (p_idx st) (p_map st).
  Proof. intros st HI. rewrite (inv_map st HI). apply load_compact_from. Qed.

  Lemma inv_bind : forall st k nv, Inv st -> nm_get (p_map st) k = Some nv ->
    exists r, In (nv_off nv * 8, r) (p_recs st) /\ bound_to k nv r.
  Proof.
    intros st k nv HI Hg. apply (binding_record st (p_idx st)); [assumption|apply incl_refl|].
    apply (map_from_idx st HI k nv Hg).
  Qed.

  Lemma bound_record : forall st k pv r, Inv st -> nm_get (p_map st) k = Some pv ->
    In (nv_off pv * 8, r) (p_recs st) ->
    find_rec (p_recs st) (nv_off pv * 8) = Some r /\ arec_ok r /\ bound_to k pv r.
  Proof.
    intros st k pv r HI Hg Hin.
    pose proof (lay_find _ _ _ _ (inv_lay st HI) Hin) as Hf.
    destruct (inv_bind st k pv HI Hg) as [r' [Hin' Hb]].
    pose proof (lay_find _ _ _ _ (inv_lay st HI) Hin') as Hf'.
    rewrite Hf in Hf'. inversion Hf'; subst r'.
    destruct (rec_in_dat st _ r HI Hin) as [_ [_ [_ [_ [_ [_ Hok]]]]]]. auto.
  Qed.

  Lemma rec_offset_lt : forall st o r, Inv st -> In (o, r) (p_recs st) -> o < len (p_dat st) /\ 8 <= o.
  Proof.
    intros st o r HI Hin. destruct (rec_in_dat st o r HI Hin) as [pre [post [Hd [Hp [_ [Hge _]]]]]].
    pose proof (len_encode_ge Ver (a_n r)). rewrite Hd, !len_app. lia.
  Qed.

  Lemma bound_offset_lt : forall st k nv, Inv st -> nm_get (p_map st) k = Some nv ->
    nv_off nv * 8 < len (p_dat st) /\ 8 <= nv_off nv * 8.
  Proof.
    intros st k nv HI Hg. destruct (inv_bind st k nv HI Hg) as [r [Hin _]]. apply (rec_offset_lt st _ r HI Hin).
  Qed.

  Lemma inv_append : forall st r m, Inv st -> arec_ok r ->
    m = load_compact_step (p_map st) (entry_of (len (p_dat st)) r) ->
    Inv (p_append st r m true).
  Proof.
    intros st r m HI Hr Hm. unfold p_append. constructor; cbn [p_recs p_dat p_idx p_map].
    - rewrite (inv_dat st HI). unfold dat_of. rewrite cat_app, <- app_assoc. cbn [cat map concat snd].
      rewrite app_nil_r. reflexivity.
    - apply lay_app. split; [apply (inv_lay st HI)|]. cbn [lay]. split; [|exact I].
      rewrite (inv_dat st HI), len_dat_of. reflexivity.
    - rewrite (inv_idx st HI). unfold idx_of. rewrite map_app. reflexivity.
    - apply Forall_app. split; [apply (inv_ok st HI)|]. constructor; [exact Hr|constructor].
    - rewrite load_compact_snoc, <- (inv_map st HI). exact Hm.
  Qed.

  Lemma len_dat_ge8 : forall st, Inv st -> 8 <= len (p_dat st) /\ len (p_dat st) mod 8 = 0.
  Proof.
    intros st HI. rewrite (inv_dat st HI), len_dat_of. pose proof (cat_aligned _ (inv_ok st HI)). lia.
  Qed.

  Lemma body_size_pos : forall n, data n <> [] -> 0 < body_size n.
  Proof. intros n H. pose proof (data_size_lt_body n H). lia. Qed.

  (* a new record always lies behind the one its key is bound to *)
  Lemma newer_true : forall st k, Inv st ->
    match nm_get (p_map st) k with Some nv => nv_off nv * 8 <? len (p_dat st) | None => true end = true.
  Proof.
    intros st k HI. destruct (nm_get (p_map st) k) as [nv|] eqn:Eg; [|reflexivity].
    destruct (bound_offset_lt st _ nv HI Eg). lia.
  Qed.

  Lemma inv_write : forall st n, Inv st -> wf_op (Write n) -> Inv (p_write st n).
  Proof.
    intros st n HI [Hok [Hne Hck]]. unfold p_write.
    destruct (p_unchanged st n); [assumption|].
    destruct (negb (p_cookie_ok st n)); [assumption|].
    rewrite (newer_true st (id n) HI). apply inv_append; [assumption| |].
    - split; [exact Hok|]. cbn [a_tomb a_n]. split; assumption.
    - unfold load_compact_step, entry_of. cbn [e_off e_size e_key a_n a_tomb entry_size].
      destruct (len_dat_ge8 st HI) as [H8 _].
      assert (E1 : negb (len (p_dat st) / 8 =? 0) = true) by lia.
      rewrite E1, (size_valid_of_N _ (body_size_pos n Hne)). reflexivity.
  Qed.

  Lemma inv_delete : forall st k c ts, Inv st -> wf_op (Delete k c ts) -> Inv (p_delete st k c ts).
  Proof.
    intros st k c ts HI [Hk [Hc Hts]]. unfold p_delete.
    destruct (nm_get (p_map st) k) as [nv|]; [|assumption].
    destruct (size_valid (nv_size nv)); [|assumption].
    apply inv_append; [assumption|apply tombstone_ok; assumption|].
    unfold load_compact_step, entry_of. cbn [e_off e_size e_key a_n a_tomb entry_size tombstone id].
    replace (size_valid TombstoneFileSize) with false by reflexivity. rewrite andb_false_r. reflexivity.
  Qed.

  Lemma inv_step : forall st o, Inv st -> wf_op o -> Inv (p_step st o).
  Proof. intros st [n|k c ts] HI Hw; [apply inv_write|apply inv_delete]; assumption. Qed.

  Lemma inv_fold : forall h st, Inv st -> Forall wf_op h -> Inv (fold_left p_step h st).
  Proof.
    induction h as [|o h IH]; intros st HI Hw; [assumption|].
    inversion Hw; subst. cbn [fold_left]. apply IH; [apply inv_step|]; assumption.
  Qed.

  Lemma inv_run : forall h, Forall wf_op h -> Inv (p_run h).
  Proof. intros. apply inv_fold; [apply inv_init|assumption]. Qed.

  Definition op_rec (o : op) : arec :=
    match o with
    | Write n => {| a_n := n; a_tomb := false |}
    | Delete k c ts => {| a_n := tombstone k c ts; a_tomb := true |}
    end.

  Lemma op_rec_key : forall o, id (a_n (op_rec o)) = op_key o.
  Proof. intros [n|k c ts]; reflexivity. Qed.

  Lemma p_step_cases : forall st o, Inv st ->
    p_step st o = st \/ exists m, p_step st o = p_append st (op_rec o) m true.
  Proof.
    intros st [n|k c ts] HI; cbn [p_step op_rec].
    - unfold p_write. destruct (p_unchanged st n); [auto|]. destruct (negb (p_cookie_ok st n)); [auto|].
      rewrite (newer_true st (id n) HI). eauto.
    - unfold p_delete. destruct (nm_get (p_map st) k) as [nv|]; [|auto].
      destruct (size_valid (nv_size nv)); eauto.
  Qed.

  Definition extends (st st' : pstate) : Prop :=
    exists X Y Z, p_dat st' = p_dat st ++ X /\ p_idx st' = p_idx st ++ Y /\ p_recs st' = p_recs st ++ Z /\
                  (length Y <= 1)%nat /\ length Y = length Z.

  Lemma step_extends : forall st o, Inv st -> extends st (p_step st o).
  Proof.
    intros st o HI. destruct (p_step_cases st o HI) as [->|[m ->]].
    - exists [], [], []. rewrite !app_nil_r. repeat split; auto.
    - eexists _, [_], [_]. cbn [p_append p_dat p_idx p_recs]. repeat split; auto.
  Qed.

  Lemma fold_extends : forall h st, Inv st -> Forall wf_op h ->
    exists X Y Z, p_dat (fold_left p_step h st) = p_dat st ++ X /\ p_idx (fold_left p_step h st) = p_idx st ++ Y /\
                  p_recs (fold_left p_step h st) = p_recs st ++ Z.
  Proof.
    induction h as [|o h IH]; intros st HI Hw.
    - exists [], [], []. cbn [fold_left]. rewrite !app_nil_r. auto.
    - inversion Hw; subst. cbn [fold_left].
      destruct (step_extends st o HI) as [X1 [Y1 [Z1 [E1 [E2 [E3 _]]]]]].
      destruct (IH (p_step st o) (inv_step st o HI H1) H2) as [X2 [Y2 [Z2 [F1 [F2 F3]]]]].
      exists (X1 ++ X2), (Y1 ++ Y2), (Z1 ++ Z2). rewrite F1, F2, F3, E1, E2, E3, !app_assoc. auto.
  Qed.

  Lemma p_run_app : forall h1 h2, p_run (h1 ++ h2) = fold_left p_step h2 (p_run h1).
  Proof. intros. unfold p_run. apply fold_left_app. Qed.

  Lemma recs_from_ops : forall h, Forall wf_op h -> forall o r, In (o, r) (p_recs (p_run h)) ->
    exists x, In x h /\ r = op_rec x.
  Proof.
    induction h as [|x h IH] using rev_ind; intros Hwf o r Hin; [destruct Hin|].
    apply Forall_app in Hwf. destruct Hwf as [Hwf _].
    assert (Hold : In (o, r) (p_recs (p_run h)) -> exists y, In y (h ++ [x]) /\ r = op_rec y).
    { intros Hi. destruct (IH Hwf o r Hi) as [y [Hy E]]. exists y. split; [apply in_or_app; left|]; assumption. }
    rewrite p_run_app in Hin. cbn [fold_left] in Hin.
    destruct (p_step_cases (p_run h) x (inv_run h Hwf)) as [E|[m E]]; rewrite E in Hin; [auto|].
    cbn [p_append p_recs] in Hin. apply in_app_or in Hin. destruct Hin as [Hin|[Hin|[]]]; [auto|].
    inversion Hin. exists x. split; [apply in_or_app; right; left|]; reflexivity.
  Qed.
End WithCrc.
