(* C17: the fold over the sorted chunks, the last-writer-wins reference,
   the sort, manifest resolution, and the central theorem (lookup = overlay). *)
From Coq Require Import List NArith Bool Arith Lia Permutation Sorted.
From Coq Require Import ZifyBool ZifyN ZifyNat.
From SW Require Import proof.ListFacts model.Chunks proof.ChunksProofs.
Import ListNotations.
Local Open Scope N_scope.

(* c17_visibles_sorted_disjoint: merging non-empty chunks, in ANY order, keeps vis_ok *)
Theorem merges_keep_invariant : forall cs vs0, vis_ok vs0 -> Forall (fun c => 0 < c_size c) cs ->
  vis_ok (fold_left merge_into_visibles cs vs0).
Proof.
  induction cs as [|c cs IH]; intros vs0 Hok Hf; simpl; auto.
  inversion Hf; subst. apply IH; auto using merge_ok.
Qed.

Lemma fold_merge_from : forall (P : chunk -> Prop) s vs0, vis_ok vs0 ->
  Forall (fun c => 0 < c_size c /\ P c) s ->
  Forall (fun v => exists c, P c /\ visible_in c v) vs0 ->
  Forall (fun v => exists c, P c /\ visible_in c v) (fold_left merge_into_visibles s vs0).
Proof.
  induction s as [|c s IH]; intros vs0 Hok Hs Hvs; simpl; auto.
  inversion Hs as [|? ? [Hc Pc] Hs']; subst. apply IH; auto using merge_ok, merge_from.
Qed.

(* what chunk_ltb (the less of NonOverlappingVisibleIntervals' sort.Slice) compares *)
Definition key (c : chunk) : N * N := (c_mtime c, c_fid c).
(* a is not newer than b *)
Definition cle (a b : chunk) : Prop := chunk_ltb b a = false.

Lemma ltb_spec : forall a b, chunk_ltb a b =
  (c_mtime a <? c_mtime b) || ((c_mtime a =? c_mtime b) && (c_fid a <? c_fid b)).
Proof. intros a b. unfold chunk_ltb. destruct (c_mtime a =? c_mtime b) eqn:E; lia. Qed.

Lemma ltb_irrefl : forall a, chunk_ltb a a = false.
Proof. intros a. rewrite ltb_spec. lia. Qed.
Lemma ltb_trans : forall a b c, chunk_ltb a b = true -> chunk_ltb b c = true -> chunk_ltb a c = true.
Proof. intros a b c. rewrite !ltb_spec. lia. Qed.
Lemma ltb_asym : forall a b, chunk_ltb a b = true -> chunk_ltb b a = false.
Proof. intros a b. rewrite !ltb_spec. lia. Qed.
Lemma cle_trans : forall a b c, cle a b -> cle b c -> cle a c.
Proof. intros a b c. unfold cle. rewrite !ltb_spec. lia. Qed.
Lemma ltb_le_trans : forall a b c, chunk_ltb a b = true -> chunk_ltb c b = false -> chunk_ltb a c = true.
Proof. intros a b c. rewrite !ltb_spec. lia. Qed.
Lemma ltb_antisym_key : forall a b, chunk_ltb a b = false -> chunk_ltb b a = false -> key a = key b.
Proof. intros a b. rewrite !ltb_spec. intros H1 H2. unfold key. f_equal; lia. Qed.

Definition is_newest (l : list chunk) (p : N) (c : chunk) : Prop :=
  In c l /\ covers c p = true /\
  forall c', In c' l -> covers c' p = true -> chunk_ltb c c' = false.

Lemma winner_spec : forall l p,
  match winner l p with
  | Some c => is_newest l p c
  | None => forall c, In c l -> covers c p = false
  end.
Proof.
  induction l as [|c l IH]; intros p; simpl.
  - intros ? [].
  - specialize (IH p). destruct (winner l p) as [w|].
    + destruct IH as [Iw [Cw Mw]].
      destruct (covers c p && chunk_ltb w c) eqn:E.
      * apply andb_true_iff in E. destruct E as [Cc Lt].
        split; [left; auto|]. split; auto.
        intros c' [Hc'|Hc'] Cc'; subst; [apply ltb_irrefl|].
        specialize (Mw c' Hc' Cc').
        destruct (chunk_ltb c c') eqn:E2; auto.
        rewrite (ltb_trans w c c' Lt E2) in Mw. discriminate.
      * split; [right; auto|]. split; auto.
        intros c' [Hc'|Hc'] Cc'; subst; auto.
        rewrite Cc' in E. simpl in E. exact E.
    + destruct (covers c p) eqn:Cc.
      * split; [left; auto|]. split; auto.
        intros c' [Hc'|Hc'] Cc'; subst; [apply ltb_irrefl|].
        rewrite (IH c' Hc') in Cc'. discriminate.
      * intros c' [Hc'|Hc']; subst; auto.
Qed.

Lemma winner_in : forall l p w, winner l p = Some w -> In w l /\ covers w p = true.
Proof.
  intros l p w H. pose proof (winner_spec l p) as S. rewrite H in S. destruct S as [A [B _]]. auto.
Qed.

Lemma newest_unique : forall l p a b, NoDup (map key l) ->
  is_newest l p a -> is_newest l p b -> a = b.
Proof.
  intros l p a b Hn [Ia [Ca Ma]] [Ib [Cb Mb]].
  apply (NoDup_map_inj key l a b Hn Ia Ib).
  apply ltb_antisym_key; auto.
Qed.

Lemma winner_newest : forall l p c, NoDup (map key l) -> is_newest l p c -> winner l p = Some c.
Proof.
  intros l p c Hn Hc. pose proof (winner_spec l p) as S.
  destruct (winner l p) as [w|].
  - f_equal. eapply newest_unique; eauto.
  - destruct Hc as [Ic [Cc _]]. rewrite (S c Ic) in Cc. discriminate.
Qed.

(* the winner survives in any sublist that still holds it *)
Lemma winner_sub : forall l l' p, NoDup (map key l') ->
  (forall c, In c l' -> In c l) -> (forall w, winner l p = Some w -> In w l') ->
  winner l' p = winner l p.
Proof.
  intros l l' p Hn Hsub Hw. pose proof (winner_spec l p) as S.
  destruct (winner l p) as [w|].
  - apply winner_newest; auto. destruct S as [_ [Cw Mw]]. repeat split; auto.
  - pose proof (winner_spec l' p) as S'. destruct (winner l' p) as [w'|]; auto.
    destruct S' as [Iw [Cw _]]. rewrite (S w' (Hsub w' Iw)) in Cw. discriminate.
Qed.

Lemma winner_perm : forall l l' p, Permutation l l' -> NoDup (map key l) -> winner l p = winner l' p.
Proof.
  intros l l' p Hp Hn. symmetry. apply winner_sub.
  - eapply Permutation_NoDup; [apply Permutation_map; exact Hp|exact Hn].
  - intros c. apply Permutation_in. symmetry. exact Hp.
  - intros w Hw. apply (Permutation_in _ Hp). apply (winner_in _ _ _ Hw).
Qed.

Theorem overlay_perm : forall d d' p, Permutation d d' -> NoDup (map key d) -> overlay_src d p = overlay_src d' p.
Proof. intros d d' p P Hn. unfold overlay_src. rewrite (winner_perm d d' p P Hn). reflexivity. Qed.

Lemma winner_filter_keep : forall (f : chunk -> bool) l p, NoDup (map key l) ->
  (forall w, winner l p = Some w -> f w = true) ->
  winner (filter f l) p = winner l p.
Proof.
  intros f l p Hn H. apply winner_sub.
  - apply NoDup_map_filter. exact Hn.
  - intros c Hc. apply filter_In in Hc. tauto.
  - intros w Hw. apply filter_In. split; [apply (winner_in _ _ _ Hw)|auto].
Qed.

Lemma insert_chunk_perm : forall c l, Permutation (c :: l) (insert_chunk c l).
Proof.
  intros c l. induction l as [|x l IH]; simpl; auto.
  destruct (chunk_ltb x c); auto.
  eapply perm_trans; [apply perm_swap|]. constructor. auto.
Qed.

Lemma sort_chunks_perm : forall l, Permutation l (sort_chunks l).
Proof.
  induction l as [|c l IH]; simpl; auto.
  eapply perm_trans; [|apply insert_chunk_perm]. constructor. auto.
Qed.

Lemma insert_chunk_sorted : forall c l, StronglySorted cle l -> StronglySorted cle (insert_chunk c l).
Proof.
  intros c l H. induction H as [|x l Hs IH Hf]; simpl.
  - repeat constructor.
  - rewrite Forall_forall in Hf. destruct (chunk_ltb x c) eqn:E.
    + constructor; auto. apply Forall_forall. intros y Hy.
      apply Permutation_in with (l' := c :: l) in Hy; [|apply Permutation_sym, insert_chunk_perm].
      destruct Hy as [Hy|Hy]; subst; [apply ltb_asym; auto|apply Hf; auto].
    + constructor; [constructor; auto; apply Forall_forall; auto|].
      apply Forall_forall. intros y [Hy|Hy]; subst; [exact E|].
      apply (cle_trans c x y); [exact E|apply Hf; auto].
Qed.

Lemma sort_chunks_sorted : forall l, StronglySorted cle (sort_chunks l).
Proof. induction l; simpl; [constructor|apply insert_chunk_sorted; auto]. Qed.

(* ANY sorted permutation is the same list when the (mtime,key) pairs are distinct:
   which sorting algorithm sort.Slice uses is irrelevant. *)
Lemma sorted_perm_unique : forall l1 l2, StronglySorted cle l1 -> StronglySorted cle l2 ->
  Permutation l1 l2 -> NoDup (map key l1) -> l1 = l2.
Proof.
  induction l1 as [|a l1 IH]; intros l2 S1 S2 P Hn.
  - apply Permutation_nil in P. auto.
  - destruct l2 as [|b l2]; [apply Permutation_sym, Permutation_nil in P; discriminate|].
    assert (a = b).
    { assert (Ia : In a (b :: l2)) by (eapply Permutation_in; [exact P|left; auto]).
      assert (Ib : In b (a :: l1)) by (eapply Permutation_in; [apply Permutation_sym; exact P|left; auto]).
      destruct Ia as [Ia|Ia]; auto. destruct Ib as [Ib|Ib]; auto.
      pose proof (ss_in_cons _ _ _ _ S1 Ib) as L1. pose proof (ss_in_cons _ _ _ _ S2 Ia) as L2.
      unfold cle in *. apply (NoDup_map_inj key (a :: l1)); auto; [left; auto|right; auto|].
      apply ltb_antisym_key; auto. }
    subst b. f_equal. apply IH.
    + inversion S1; auto.
    + inversion S2; auto.
    + eapply Permutation_cons_inv; eauto.
    + inversion Hn; auto.
Qed.

Theorem sort_chunks_unique : forall l s, Permutation l s -> StronglySorted cle s ->
  NoDup (map key l) -> s = sort_chunks l.
Proof.
  intros l s P S Hn. apply sorted_perm_unique; auto.
  - apply sort_chunks_sorted.
  - eapply perm_trans; [apply Permutation_sym; exact P|apply sort_chunks_perm].
  - eapply Permutation_NoDup; [apply Permutation_map; exact P|exact Hn].
Qed.

(* merging in sorted order: a later chunk is never older, so the winner among the merged chunks
   shows through, and below it what was visible before *)
Lemma fold_merge_src : forall s vs0 p, StronglySorted cle s -> vis_ok vs0 ->
  Forall (fun c => 0 < c_size c) s ->
  src_of_visibles (fold_left merge_into_visibles s vs0) p =
  match winner s p with
  | Some c => Some (c_fid c, p - c_off c)
  | None => src_of_visibles vs0 p
  end.
Proof.
  intros s vs0 p Hs. revert vs0. induction Hs as [|c s Hs IH Hc]; intros vs0 Hok Hf; simpl; auto.
  inversion Hf as [|? ? Hsz Hf']; subst. rewrite (IH _ (merge_ok vs0 c Hok Hsz) Hf').
  destruct (winner s p) as [w|] eqn:E.
  - apply winner_in in E. rewrite Forall_forall in Hc. rewrite (Hc w (proj1 E)), andb_false_r. reflexivity.
  - rewrite merge_src; auto. destruct (covers c p); reflexivity.
Qed.

Theorem visibles_overlay : forall d, Forall (fun c => 0 < c_size c) d ->
  vis_ok (visibles_of (sort_chunks d)) /\
  Forall (fun v => exists c, In c d /\ visible_in c v) (visibles_of (sort_chunks d)) /\
  (NoDup (map key d) -> forall p, src_of_visibles (visibles_of (sort_chunks d)) p = overlay_src d p).
Proof.
  intros d Hf. unfold visibles_of.
  pose proof (Permutation_Forall (sort_chunks_perm d) Hf) as Hf'.
  split; [apply merges_keep_invariant; auto; apply iok_nil|]. split.
  - apply fold_merge_from; [apply iok_nil| |constructor].
    apply Forall_forall. intros c Hc. split; [exact (proj1 (Forall_forall _ _) Hf' c Hc)|].
    apply (Permutation_in _ (Permutation_sym (sort_chunks_perm d)) Hc).
  - intros Hn p. rewrite (fold_merge_src _ _ p (sort_chunks_sorted d) (iok_nil _ _) Hf').
    unfold overlay_src. rewrite (winner_perm d (sort_chunks d) p (sort_chunks_perm d) Hn).
    destruct (winner (sort_chunks d) p); reflexivity.
Qed.

Definition resolve_one (f : nat) (ms : mstore) (s e : N) (c : chunk) : option (list chunk * list chunk) :=
  if outside_window s e c then Some ([], [])
  else if negb (c_manifest c) then Some ([c], [])
  else match ms_lookup ms (c_fid c) with
       | None => None
       | Some sub =>
           match resolve f ms s e sub with
           | None => None
           | Some (d, m) => Some (d, c :: m)
           end
       end.

Lemma resolve_nil : forall f ms s e, resolve (S f) ms s e [] = Some ([], []).
Proof. reflexivity. Qed.

Lemma resolve_cons : forall f ms s e c l,
  resolve (S f) ms s e (c :: l) = join_resolved (resolve_one f ms s e c) (resolve (S f) ms s e l).
Proof. reflexivity. Qed.

Lemma join_some : forall a b d m, join_resolved a b = Some (d, m) ->
  exists d1 m1 d2 m2, a = Some (d1, m1) /\ b = Some (d2, m2) /\ d = d1 ++ d2 /\ m = m1 ++ m2.
Proof.
  intros a b d m H. destruct a as [[d1 m1]|]; [|discriminate]. destruct b as [[d2 m2]|]; [|discriminate].
  simpl in H. inversion H; subst. exists d1, m1, d2, m2. auto.
Qed.

Definition in_window (s e : N) (c : chunk) : bool := negb (outside_window s e c).

(* resolved chunks are data chunks that intersect the window, hence non-empty (in_window_size) *)
Lemma resolve_data : forall fuel ms s e cs d m, resolve fuel ms s e cs = Some (d, m) ->
  Forall (fun c => c_manifest c = false /\ outside_window s e c = false) d.
Proof.
  induction fuel as [|f IHf]; intros ms s e cs d m H; [discriminate|].
  revert d m H. induction cs as [|c cs IHc]; intros d m H.
  - rewrite resolve_nil in H. inversion H; subst. constructor.
  - rewrite resolve_cons in H. apply join_some in H.
    destruct H as [d1 [m1 [d2 [m2 [H1 [H2 [Ed Em]]]]]]]. subst d m.
    apply Forall_app. split; [|eapply IHc; eauto].
    unfold resolve_one in H1. destruct (outside_window s e c) eqn:Eo.
    + inversion H1; subst. constructor.
    + destruct (c_manifest c) eqn:Em; simpl in H1.
      * destruct (ms_lookup ms (c_fid c)) as [sub|]; [|discriminate].
        destruct (resolve f ms s e sub) as [[d' m']|] eqn:Er; [|discriminate].
        inversion H1; subst. eapply IHf; eauto.
      * inversion H1; subst. constructor; auto.
Qed.

Lemma in_window_size : forall s e c, outside_window s e c = false -> 0 < c_size c.
Proof. intros s e c H. unfold outside_window, c_stop in H. lia. Qed.

Lemma covers_in_window : forall s e c p, covers c p = true -> s <= p -> p < e -> outside_window s e c = false.
Proof. intros s e c p H H1 H2. unfold covers, outside_window in *. lia. Qed.

Lemma resolve_data_only : forall f ms s e cs, Forall (fun c => c_manifest c = false) cs ->
  resolve (S f) ms s e cs = Some (filter (in_window s e) cs, []).
Proof.
  intros f ms s e cs H. induction H as [|c cs Hc Hf IH].
  - reflexivity.
  - rewrite resolve_cons. rewrite IH. unfold resolve_one, in_window. simpl.
    destruct (outside_window s e c); simpl; [reflexivity|]. rewrite Hc. reflexivity.
Qed.

Lemma data_filter : forall l, Forall (fun c => c_manifest c = false) (filter (fun c => negb (c_manifest c)) l).
Proof.
  intros l. apply Forall_forall. intros c Hc. apply filter_In in Hc.
  destruct (c_manifest c); [destruct Hc; discriminate|reflexivity].
Qed.

Lemma non_overlapping_spec : forall fuel ms chunks s e d m,
  resolve fuel ms s e chunks = Some (d, m) ->
  let vs := fst (non_overlapping_visible_intervals fuel ms chunks s e) in
  vis_ok vs /\ Forall (fun v => exists c, In c d /\ visible_in c v) vs /\
  (NoDup (map key d) -> forall p, src_of_visibles vs p = overlay_src d p).
Proof.
  intros fuel ms chunks s e d m H. unfold non_overlapping_visible_intervals. rewrite H.
  apply visibles_overlay.
  eapply Forall_impl; [|exact (resolve_data _ _ _ _ _ _ _ H)].
  intros c [_ Hc]. exact (in_window_size _ _ _ Hc).
Qed.

(* the parts of non_overlapping_spec in the form props/C17.v states them *)
Theorem non_overlapping_ok : forall fuel ms chunks s e d m,
  resolve fuel ms s e chunks = Some (d, m) ->
  vis_ok (fst (non_overlapping_visible_intervals fuel ms chunks s e)).
Proof. intros fuel ms chunks s e d m H. apply (non_overlapping_spec _ _ _ _ _ _ _ H). Qed.

Theorem non_overlapping_overlay : forall fuel ms chunks s e d m,
  resolve fuel ms s e chunks = Some (d, m) -> NoDup (map key d) ->
  forall p, src_of_visibles (fst (non_overlapping_visible_intervals fuel ms chunks s e)) p = overlay_src d p.
Proof. intros fuel ms chunks s e d m H. apply (non_overlapping_spec _ _ _ _ _ _ _ H). Qed.

(* the same for a plain list of data chunks and any window: inside the window the lookup is
   the overlay of ALL the chunks (those outside the window cannot matter) *)
Theorem non_overlapping_overlay_data : forall f ms chunks s e p,
  Forall (fun c => c_manifest c = false) chunks -> NoDup (map key chunks) ->
  s <= p -> p < e ->
  src_of_visibles (fst (non_overlapping_visible_intervals (S f) ms chunks s e)) p = overlay_src chunks p.
Proof.
  intros f ms chunks s e p Hd Hn Hs He.
  rewrite (non_overlapping_overlay (S f) ms chunks s e _ _ (resolve_data_only f ms s e chunks Hd)).
  - unfold overlay_src. rewrite winner_filter_keep; auto.
    intros w Hw. destruct (winner_in _ _ _ Hw) as [_ Cw].
    unfold in_window. rewrite (covers_in_window s e w p Cw Hs He). reflexivity.
  - apply NoDup_map_filter. auto.
Qed.
