(* C17: ChunkStreamReader (stream.go; it writes nothing for a hole).  On a file whose views are contiguous
   from offset 0 any sequence of Reads delivers the overlay; with a hole it does not (finding 0);
   Seek on a reader with an empty buffer positions correctly strictly inside the file, and wrongly at
   the end of it (finding 1). *)
From Coq Require Import List NArith ZArith Bool Arith Lia.
From Coq Require Import ZifyBool ZifyN ZifyNat.
From SW Require Import proof.ListFacts model.Chunks proof.ChunksProofs proof.ChunksOverlay proof.ChunksRead proof.ChunksStream.
Import ListNotations.
Local Open Scope N_scope.

(* what the reader still has to deliver: the unread part of the buffer, then the views not yet fetched *)
Definition csr_rest (src : chunk_source) (views : list chunk_view) (s : csr) : list N :=
  skipn (Z.to_nat (cs_bpos s)) (cs_buf s) ++ concat (map (fetch_view src) (skipn (cs_idx s) views)).

(* taking n items of a list that begins with t, when t has no more than n *)
Lemma take_prefix : forall n (t r : list N), (length t <= n)%nat ->
  firstn n (t ++ r) = t ++ firstn (n - length t) r /\
  skipn n (t ++ r) = skipn (n - length t) r /\
  (length (t ++ r) <? n)%nat = (length r <? n - length t)%nat.
Proof.
  intros n t r H. rewrite firstn_app, skipn_app, app_length, firstn_all2, skipn_all2 by lia.
  repeat split; auto.
  destruct (Nat.ltb_spec (length t + length r) n), (Nat.ltb_spec (length r) (n - length t)); auto; lia.
Qed.

Lemma firstn_cut : forall n (a : list N), firstn n a ++ skipn (length (firstn n a)) a = a.
Proof.
  intros n a. rewrite firstn_length. destruct (le_lt_dec n (length a)).
  - rewrite Nat.min_l by lia. apply firstn_skipn.
  - rewrite Nat.min_r, skipn_all, firstn_all2, app_nil_r by lia. reflexivity.
Qed.

Lemma csr_read_loop_spec : forall src views fuel s want,
  (0 <= cs_bpos s)%Z -> (want + (length views - cs_idx s) < fuel)%nat ->
  exists s', csr_read_loop fuel src views s want =
      CsrOk (firstn want (csr_rest src views s)) (length (csr_rest src views s) <? want)%nat s' /\
    (0 <= cs_bpos s')%Z /\ csr_rest src views s' = skipn want (csr_rest src views s).
Proof.
  intros src views. induction fuel as [|f IH]; intros s want Hp Hf; [lia|].
  destruct want as [|w].
  - exists s. simpl. repeat split; auto.
  - cbn [csr_read_loop]. destruct (csr_empty s) eqn:Ee.
    + unfold csr_empty in Ee.
      assert (Hb : skipn (Z.to_nat (cs_bpos s)) (cs_buf s) = []) by (apply skipn_all2; lia).
      destruct (nth_error views (cs_idx s)) as [w0|] eqn:En.
      * assert (Hi : (cs_idx s < length views)%nat) by (apply nth_error_Some; congruence).
        destruct (IH (csr_fetch src w0 (S (cs_idx s))) (S w)) as [s' [E1 [E2 E3]]]; [simpl; lia|simpl; lia|].
        assert (Hr : csr_rest src views (csr_fetch src w0 (S (cs_idx s))) = csr_rest src views s).
        { unfold csr_rest. rewrite Hb. simpl. rewrite (skipn_nth_error _ _ _ En). reflexivity. }
        rewrite Hr in *. exists s'. auto.
      * apply nth_error_None in En.
        assert (Hr : csr_rest src views s = []).
        { unfold csr_rest. rewrite Hb. rewrite skipn_all2 by lia. reflexivity. }
        rewrite Hr. exists s. simpl. rewrite Hr. repeat split; auto.
    + unfold csr_empty in Ee. destruct (cs_bpos s <? 0)%Z eqn:En; [lia|].
      set (a := skipn (Z.to_nat (cs_bpos s)) (cs_buf s)).
      set (b := concat (map (fetch_view src) (skipn (cs_idx s) views))).
      set (t := firstn (S w) a).
      assert (Hla : (1 <= length a)%nat) by (unfold a; rewrite skipn_length; lia).
      assert (Hlt : (1 <= length t)%nat).
      { unfold t. rewrite firstn_length. lia. }
      set (s2 := {| cs_idx := cs_idx s; cs_buf := cs_buf s; cs_boff := cs_boff s;
                    cs_bpos := (cs_bpos s + Z.of_nat (length t))%Z |}).
      destruct (IH s2 (S w - length t)%nat) as [s' [E1 [E2 E3]]]; [unfold s2; cbn [cs_bpos]; lia|unfold s2; cbn [cs_idx]; lia|].
      assert (Hr2 : csr_rest src views s2 = skipn (length t) a ++ b).
      { unfold csr_rest, s2, a, b. cbn [cs_bpos cs_buf cs_idx]. rewrite <- skipn_add. f_equal. f_equal. lia. }
      rewrite E1. exists s'. rewrite Hr2 in *.
      destruct (take_prefix (S w) t (skipn (length t) a ++ b)) as [T1 [T2 T3]];
        [unfold t; rewrite firstn_length; lia|].
      change (csr_rest src views s) with (a ++ b).
      replace (a ++ b) with (t ++ skipn (length t) a ++ b) by (rewrite app_assoc; unfold t; now rewrite firstn_cut).
      rewrite T1, T2, T3. repeat split; auto.
Qed.

Theorem csr_read_spec : forall src views s want, (0 <= cs_bpos s)%Z ->
  exists s', csr_read src views s want =
      CsrOk (firstn want (csr_rest src views s)) (length (csr_rest src views s) <? want)%nat s' /\
    (0 <= cs_bpos s')%Z /\ csr_rest src views s' = skipn want (csr_rest src views s).
Proof. intros. unfold csr_read. apply csr_read_loop_spec; auto. lia. Qed.

(* a sequence of Read calls: the concatenation of what they return; None = a call panicked *)
Fixpoint csr_run (src : chunk_source) (views : list chunk_view) (s : csr) (wants : list nat) : option (list N) :=
  match wants with
  | [] => Some []
  | n :: r => match csr_read src views s n with
              | CsrPanic => None
              | CsrOk o _ s' => match csr_run src views s' r with Some o' => Some (o ++ o') | None => None end
              end
  end.

Theorem csr_run_spec : forall src views wants s, (0 <= cs_bpos s)%Z ->
  csr_run src views s wants = Some (firstn (fold_right Nat.add 0%nat wants) (csr_rest src views s)).
Proof.
  intros src views. induction wants as [|n r IH]; intros s Hp; simpl; auto.
  destruct (csr_read_spec src views s n Hp) as [s' [E1 [E2 E3]]]. rewrite E1.
  rewrite (IH s' E2), E3. rewrite firstn_add. reflexivity.
Qed.

(* without gaps StreamContent's loop writes the views' data and nothing else *)
Lemma gapless_stream : forall src ws pos, views_gapless pos ws = true ->
  stream_views src ws pos = (concat (map (fetch_view src) ws), pos + csr_total ws).
Proof.
  intros src. induction ws as [|w r IH]; intros pos H; simpl in *; [rewrite N.add_0_r; reflexivity|].
  apply andb_prop in H. destruct H as [H1 H2]. rewrite (IH _ H2).
  replace (cv_logic w - pos) with 0 by lia. simpl. f_equal. lia.
Qed.

(* the byte stream of a hole-free file is the overlay of [0, E), E = the end of the content *)
Lemma gapless_content : forall src fuel ms chunks d m,
  resolve fuel ms 0 max_int64 chunks = Some (d, m) -> NoDup (map key d) ->
  (forall c, In c d -> N.of_nat (length (src (c_fid c))) = c_size c) ->
  let V := view_from_chunks fuel ms chunks 0 max_int64 in
  views_gapless 0 V = true ->
  exists E, concat (map (fetch_view src) V) = map (overlay src d) (nrange 0 E) /\
            E = csr_total V /\
            (forall w, In w V -> N.of_nat (length (fetch_view src w)) = cv_size w) /\
            (forall p, E <= p -> p < max_int64 -> overlay_src d p = None).
Proof.
  intros src fuel ms chunks d m Hres Hn Hlen V Hg.
  destruct (stream_window src fuel ms chunks d m 0 max_int64 Hres Hn Hlen) as [E [Eq [_ [_ [_ E4]]]]].
  fold V in Eq. rewrite (gapless_stream src V 0 Hg) in Eq. inversion Eq as [[E1 E2]].
  exists E. rewrite E2. split; [|split; [|split; [|exact E4]]]; auto.
  - destruct (window_views fuel ms chunks d m 0 max_int64 Hres Hn) as [_ [_ HW]].
    rewrite Forall_forall in HW. intros w Hin. destruct (HW w Hin) as [_ [_ [c [Ic Hc]]]].
    destruct (view_in_fetch src c w Hc (Hlen c Ic)) as [F1 F2].
    rewrite F1, firstn_length, skipn_length. lia.
Qed.

(* Reads: PARTIAL — on a file without holes every sequence of Read calls on a fresh reader delivers
   the overlay of [0, E) in order (never panics), and no chunk has a byte in [E, MaxInt64) *)
Theorem csr_stream_partial : forall src fuel ms chunks d m,
  resolve fuel ms 0 max_int64 chunks = Some (d, m) -> NoDup (map key d) ->
  (forall c, In c d -> N.of_nat (length (src (c_fid c))) = c_size c) ->
  let V := view_from_chunks fuel ms chunks 0 max_int64 in
  views_gapless 0 V = true ->
  exists E,
    (forall wants, csr_run src V csr_new wants =
                   Some (firstn (fold_right Nat.add 0%nat wants) (map (overlay src d) (nrange 0 E)))) /\
    (forall p, E <= p -> p < max_int64 -> overlay_src d p = None).
Proof.
  intros src fuel ms chunks d m Hres Hn Hlen V Hg.
  destruct (gapless_content src fuel ms chunks d m Hres Hn Hlen Hg) as [E [C1 [_ [_ C4]]]]. fold V in C1.
  exists E. split; auto. intros wants. rewrite csr_run_spec by (simpl; lia).
  unfold csr_rest. simpl. rewrite C1. reflexivity.
Qed.

(* Seek(offset, io.SeekStart) on a reader whose buffer is empty (a fresh one, or one that has consumed
   exactly its buffer), strictly inside a hole-free stream: the reader is positioned at offset *)
Lemma seek_loop_empty : forall src ws i pos s off,
  csr_empty s = true -> views_gapless pos ws = true ->
  (forall w, In w ws -> N.of_nat (length (fetch_view src w)) = cv_size w) ->
  pos <= off -> off < pos + csr_total ws ->
  exists w j, csr_seek_loop src ws i (Z.of_N off) s = csr_fetch src w (S (i + j)) /\
    cv_logic w <= off /\
    skipn (N.to_nat (off - cv_logic w)) (fetch_view src w) ++ concat (map (fetch_view src) (skipn (S j) ws)) =
    skipn (N.to_nat (off - pos)) (concat (map (fetch_view src) ws)).
Proof.
  intros src. induction ws as [|w r IH]; intros i pos s off He Hg Hl H1 H2; [simpl in *; lia|].
  simpl in Hg, H2. cbn [csr_seek_loop map concat].
  apply andb_prop in Hg. destruct Hg as [G1 G2]. rewrite He. simpl.
  pose proof (Hl w (or_introl eq_refl)) as Hlw.
  destruct ((Z.of_N (cv_logic w) <=? Z.of_N off)%Z && (Z.of_N off <? Z.of_N (cv_logic w + cv_size w))%Z) eqn:Ec; simpl.
  - exists w, 0%nat. replace (i + 0)%nat with i by lia. split; auto. split; [lia|].
    rewrite skipn_app. replace (N.to_nat (off - pos) - length (fetch_view src w))%nat with 0%nat by lia.
    simpl. f_equal. f_equal. lia.
  - destruct (IH (S i) (cv_logic w + cv_size w) s off He G2 (fun w' Hw' => Hl w' (or_intror Hw'))) as [w' [j [E1 [E2 E3]]]];
      [lia|lia|].
    exists w', (S j). split; [rewrite E1; f_equal; lia|]. split; auto.
    change (skipn (S (S j)) (w :: r)) with (skipn (S j) r).
    rewrite E3. rewrite skipn_app. rewrite (skipn_all2 (fetch_view src w)) by lia. simpl. f_equal. lia.
Qed.

Theorem csr_seek_partial : forall src fuel ms chunks d m s off,
  resolve fuel ms 0 max_int64 chunks = Some (d, m) -> NoDup (map key d) ->
  (forall c, In c d -> N.of_nat (length (src (c_fid c))) = c_size c) ->
  let V := view_from_chunks fuel ms chunks 0 max_int64 in
  views_gapless 0 V = true -> csr_empty s = true ->
  exists E, off < E ->
    (let '(pos, err, s') := csr_seek src V s (Z.of_N off) 0 in
     pos = Z.of_N off /\ err = false /\
     forall wants, csr_run src V s' wants =
                   Some (firstn (fold_right Nat.add 0%nat wants) (map (overlay src d) (nrange off E)))) /\
    (forall p, E <= p -> p < max_int64 -> overlay_src d p = None).
Proof.
  intros src fuel ms chunks d m s off Hres Hn Hlen V Hg He.
  destruct (gapless_content src fuel ms chunks d m Hres Hn Hlen Hg) as [E [C1 [C2 [C3 C4]]]]. fold V in C1, C2, C3.
  exists E. intros Hoff. split; auto.
  destruct (seek_loop_empty src V 0 0 s off He Hg C3) as [w [j [E1 [E2 E3]]]]; [lia|lia|].
  unfold csr_seek. cbv zeta. rewrite E1. simpl cs_idx. simpl cs_buf. simpl cs_boff.
  split; auto. split; [lia|]. intros wants. rewrite csr_run_spec by (simpl; lia).
  unfold csr_rest. simpl cs_bpos. simpl cs_buf. simpl cs_idx.
  replace (Z.to_nat (Z.of_N off - Z.of_N (cv_logic w))) with (N.to_nat (off - cv_logic w)) by lia.
  rewrite E3. rewrite C1. f_equal. rewrite N.sub_0_r.
  (* skipn off (map f (nrange 0 E)) = map f (nrange off E) *)
  rewrite (nrange_split 0 off E) by lia. rewrite map_app, skipn_app.
  rewrite skipn_all2 by (rewrite map_length, nrange_length; lia).
  rewrite map_length, nrange_length. replace (N.to_nat off - N.to_nat (off - 0))%nat with 0%nat by lia.
  reflexivity.
Qed.

Definition hole_chunks := [Chunk 1 0 2 1 false; Chunk 2 5 2 2 false].
Definition hole_src : chunk_source := fun f => match f with 1 => [11;12] | 2 => [21;22] | _ => [] end.

(* finding 0: a hole is dropped *)
Theorem csr_stream_refuted :
  exists src chunks wants,
    resolve 1 [] 0 max_int64 chunks = Some (chunks, []) /\ NoDup (map key chunks) /\
    (forall c, In c chunks -> N.of_nat (length (src (c_fid c))) = c_size c) /\
    map (overlay src chunks) (nrange 0 (total_size chunks)) = [11;12;0;0;0;21;22] /\
    csr_run src (view_from_chunks 1 [] chunks 0 max_int64) csr_new wants = Some [11;12;21;22] /\
    (exists s', csr_seek src (view_from_chunks 1 [] chunks 0 max_int64) csr_new 5 0 = (5%Z, true, s')).
Proof.
  exists hole_src, hole_chunks, [7%nat]. split; [vm_compute; reflexivity|]. split.
  - repeat (constructor; [simpl; intuition discriminate|]). constructor.
  - split.
    + intros c [H|[H|[]]]; subst; reflexivity.
    + split; [vm_compute; reflexivity|]. split; [vm_compute; reflexivity|]. eexists. vm_compute. reflexivity.
Qed.

(* finding 1: Seek to the end of a hole-free file, then Read: bytes of the first view instead of EOF *)
Definition gapless_chunks := [Chunk 1 0 2 1 false; Chunk 2 2 2 2 false].
Theorem csr_seek_refuted :
  exists src chunks,
    resolve 1 [] 0 max_int64 chunks = Some (chunks, []) /\ NoDup (map key chunks) /\
    views_gapless 0 (view_from_chunks 1 [] chunks 0 max_int64) = true /\ total_size chunks = 4 /\
    let V := view_from_chunks 1 [] chunks 0 max_int64 in
    let '(pos, err, s') := csr_seek src V csr_new 4 0 in
    pos = 4%Z /\ err = false /\ exists s'', csr_read src V s' 2 = CsrOk [11;12] false s''.
Proof.
  exists hole_src, gapless_chunks. split; [vm_compute; reflexivity|]. split.
  - repeat (constructor; [simpl; intuition discriminate|]). constructor.
  - split; [vm_compute; reflexivity|]. split; [vm_compute; reflexivity|].
    vm_compute. split; auto. split; auto. eexists. reflexivity.
Qed.
