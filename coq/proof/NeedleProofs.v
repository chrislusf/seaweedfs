(* C02, model/Needle.v: the length of a record (len_encode), readNeedleDataVersion2 and ReadBytes on an
   encoding followed by anything (read_v2_enc, read_bytes_parts), hence the round trip and its
   failure for empty data, the scan over a list of records (scan_records) and the detection of
   overwritten data bytes. *)
From Coq Require Import List NArith ZArith Bool Lia ZifyBool ZifyN ZifyNat.
From SW Require Import proof.ListFacts model.Needle.
Import ListNotations.
Local Open Scope N_scope.
Ltac Zify.zify_post_hook ::= Z.div_mod_to_equations.

Arguments N.add : simpl never.
Arguments N.mul : simpl never.
Arguments N.div : simpl never.
Arguments N.modulo : simpl never.
Arguments N.sub : simpl never.
Arguments N.pow : simpl never.
Arguments N.ltb : simpl never.
Arguments N.leb : simpl never.
Arguments N.eqb : simpl never.
Arguments N.land : simpl never.

Lemma len_nil : forall A, len (@nil A) = 0.
Proof. reflexivity. Qed.

Lemma len_cons : forall A (x : A) l, len (x :: l) = 1 + len l.
Proof. intros. unfold len. simpl length. lia. Qed.

Lemma len_app : forall A (a b : list A), len (a ++ b) = len a + len b.
Proof. intros. unfold len. rewrite app_length. lia. Qed.

Lemma len_zero_nil : forall A (l : list A), len l = 0 -> l = [].
Proof. intros A [|x l] H; [reflexivity|]. rewrite len_cons in H. lia. Qed.

Lemma takeN_firstn : forall A k (l : list A), takeN k l = firstn (N.to_nat k) l.
Proof.
  intros A k l. revert k. induction l as [|x r IH]; intros k.
  - destruct (N.to_nat k); reflexivity.
  - cbn [takeN]. destruct (k =? 0) eqn:E.
    + replace (N.to_nat k) with O by lia. reflexivity.
    + replace (N.to_nat k) with (S (N.to_nat (N.pred k))) by lia. cbn [firstn]. rewrite IH. reflexivity.
Qed.

Lemma dropN_skipn : forall A k (l : list A), dropN k l = skipn (N.to_nat k) l.
Proof.
  intros A k l. revert k. induction l as [|x r IH]; intros k.
  - destruct (N.to_nat k); reflexivity.
  - cbn [dropN]. destruct (k =? 0) eqn:E.
    + replace (N.to_nat k) with O by lia. reflexivity.
    + replace (N.to_nat k) with (S (N.to_nat (N.pred k))) by lia. cbn [skipn]. rewrite IH. reflexivity.
Qed.

Lemma takeN_0 : forall A (l : list A), takeN 0 l = [].
Proof. intros A [|x l]; reflexivity. Qed.

Lemma takeN_app : forall A (a b : list A) k, len a = k -> takeN k (a ++ b) = a.
Proof.
  intros A a b k H. rewrite takeN_firstn. unfold len in *. subst k. rewrite Nat2N.id.
  rewrite firstn_app, Nat.sub_diag, firstn_all. simpl. apply app_nil_r.
Qed.

Lemma dropN_app : forall A (a b : list A) k, len a = k -> dropN k (a ++ b) = b.
Proof.
  intros A a b k H. rewrite dropN_skipn. unfold len in *. subst k. rewrite Nat2N.id.
  rewrite skipn_app, Nat.sub_diag, skipn_all. reflexivity.
Qed.

Lemma takeN_all : forall A (a : list A) k, len a = k -> takeN k a = a.
Proof. intros. rewrite <- (app_nil_r a) at 1. apply takeN_app; auto. Qed.

Lemma dropN_all : forall A (a : list A) k, len a = k -> dropN k a = [].
Proof. intros. rewrite <- (app_nil_r a) at 1. apply dropN_app; auto. Qed.

Lemma dropN_0 : forall A (a : list A), dropN 0 a = a.
Proof. intros A [|x l]; reflexivity. Qed.

Lemma len_takeN : forall A (a : list A) k, k <= len a -> len (takeN k a) = k.
Proof. intros A a k H. rewrite takeN_firstn. unfold len in *. rewrite firstn_length. lia. Qed.

Lemma len_takeN_le : forall A (a : list A) k, len (takeN k a) <= k.
Proof. intros A a k. rewrite takeN_firstn. unfold len. rewrite firstn_length. lia. Qed.

Lemma len_dropN : forall A (a : list A) k, len (dropN k a) = len a - k.
Proof. intros A a k. rewrite dropN_skipn. unfold len. rewrite skipn_length. lia. Qed.

Lemma takeN_dropN : forall A (a : list A) k, takeN k a ++ dropN k a = a.
Proof. intros. rewrite takeN_firstn, dropN_skipn. apply firstn_skipn. Qed.

Lemma takeN_takeN : forall A (l : list A) a b, takeN a (takeN b l) = takeN (N.min a b) l.
Proof. intros. rewrite !takeN_firstn, firstn_firstn. f_equal. lia. Qed.

Lemma dropN_takeN : forall A (l : list A) o m, dropN o (takeN m l) = takeN (m - o) (dropN o l).
Proof. intros. rewrite !takeN_firstn, !dropN_skipn, skipn_firstn_comm. f_equal. lia. Qed.

Lemma dropN_add_app : forall A (a b : list A) k j, len a = k -> dropN (k + j) (a ++ b) = dropN j b.
Proof.
  intros A a b k j H. rewrite !dropN_skipn. unfold len in *. subst k.
  rewrite N2Nat.inj_add, Nat2N.id, skipn_app.
  rewrite skipn_all2 by lia. simpl. f_equal. lia.
Qed.

Lemma dropN_dropN : forall A (a : list A) k j, dropN j (dropN k a) = dropN (k + j) a.
Proof.
  intros A a k j. rewrite !dropN_skipn, N2Nat.inj_add. symmetry. apply skipn_add.
Qed.

Lemma len_be_encode : forall k v, len (be_encode k v) = N.of_nat k.
Proof.
  induction k as [|k IH]; intros v; [reflexivity|].
  cbn [be_encode]. rewrite len_app, IH, len_cons, len_nil. lia.
Qed.

Lemma be_decode_snoc : forall l b, be_decode (l ++ [b]) = be_decode l * 256 + b.
Proof. intros. unfold be_decode. rewrite fold_left_app. reflexivity. Qed.

Lemma be_decode_encode_mod : forall k v, be_decode (be_encode k v) = v mod 256 ^ N.of_nat k.
Proof.
  induction k as [|k IH]; intros v.
  - cbn. rewrite N.mod_1_r. reflexivity.
  - cbn [be_encode]. rewrite be_decode_snoc, IH.
    replace (N.of_nat (S k)) with (N.succ (N.of_nat k)) by lia.
    rewrite N.pow_succ_r'.
    assert (Hp : 256 ^ N.of_nat k <> 0) by (apply N.pow_nonzero; lia).
    rewrite (N.mod_mul_r v 256 (256 ^ N.of_nat k)) by lia. lia.
Qed.

Lemma be_decode_encode : forall k v, v < 256 ^ N.of_nat k -> be_decode (be_encode k v) = v.
Proof. intros. rewrite be_decode_encode_mod. apply N.mod_small; auto. Qed.

Definition bytes_ok (l : list N) : Prop := Forall (fun b => b < 256) l.

Lemma be_encode_bytes_ok : forall k v, bytes_ok (be_encode k v).
Proof.
  induction k as [|k IH]; intros v; [constructor|].
  cbn [be_encode]. apply Forall_app. split; [apply IH|].
  constructor; [|constructor]. apply N.mod_lt. lia.
Qed.

Lemma be_read : forall k v r K, N.of_nat k = K -> v < 256 ^ K ->
  be_decode (takeN K (be_encode k v ++ r)) = v /\ dropN K (be_encode k v ++ r) = r.
Proof.
  intros k v r K HK Hv. subst K. split.
  - rewrite takeN_app by apply len_be_encode. apply be_decode_encode; auto.
  - apply dropN_app. apply len_be_encode.
Qed.

Lemma padding_range : forall s v, 1 <= padding_length s v <= 8.
Proof.
  intros. unfold padding_length, ts_size, NeedlePaddingSize, NeedleHeaderSize, NeedleChecksumSize, TimestampSize.
  destruct (v =? 3); lia.
Qed.

Lemma actual_size_aligned : forall s v, actual_size s v mod 8 = 0.
Proof.
  intros. unfold actual_size, body_length, padding_length, ts_size,
    NeedlePaddingSize, NeedleHeaderSize, NeedleChecksumSize, TimestampSize.
  destruct (v =? 3); lia.
Qed.

(* what a caller of Append must guarantee for the record to have the length the index records:
   mime shorter than 256 bytes, a TTL when the TTL flag is set, PairsSize = len(Pairs) *)
Definition enc_okb (n : needle) : bool :=
  (len (mime n) <? 256)
  && (negb (has_ttl n) || match ttl n with Some _ => true | None => false end)
  && (negb (has_pairs n) || (pairs_size n =? len (pairs n))).

Lemma data_cases : forall n,
  (data n = [] /\ (0 <? data_size n) = false) \/ (data n <> [] /\ (0 <? data_size n) = true).
Proof.
  intros n. unfold data_size. destruct (data n); [left|right]; split; reflexivity || discriminate.
Qed.

Lemma name_size_le : forall n, name_size n <= len (name n).
Proof. intros. unfold name_size. destruct (255 <=? len (name n)) eqn:E; lia. Qed.

Lemma len_name_field : forall n, len (name_field n) = if has_name n then 1 + name_size n else 0.
Proof.
  intros. unfold name_field. destruct (has_name n); [|reflexivity].
  rewrite len_cons, len_takeN; [reflexivity|apply name_size_le].
Qed.

Lemma len_mime_field : forall n, len (mime n) < 256 ->
  len (mime_field n) = if has_mime n then 1 + mime_size n else 0.
Proof.
  intros n H. unfold mime_field, mime_size. destruct (has_mime n); [|reflexivity].
  rewrite len_cons, N.mod_small by lia. reflexivity.
Qed.

Lemma len_lm_field : forall n, len (lm_field n) = if has_lm n then 5 else 0.
Proof. intros. unfold lm_field. destruct (has_lm n); [apply len_be_encode|reflexivity]. Qed.

Lemma len_ttl_field : forall n, (has_ttl n = true -> ttl n <> None) ->
  len (ttl_field n) = if has_ttl n then 2 else 0.
Proof.
  intros n H. unfold ttl_field. destruct (has_ttl n); [|reflexivity].
  destruct (ttl n) as [[c u]|]; [reflexivity|]. exfalso. apply H; reflexivity.
Qed.

Lemma len_pairs_field : forall n, (has_pairs n = true -> pairs_size n = len (pairs n)) ->
  len (pairs_field n) = if has_pairs n then 2 + pairs_size n else 0.
Proof.
  intros n H. unfold pairs_field. destruct (has_pairs n); [|reflexivity].
  rewrite len_app, len_be_encode, H by reflexivity. lia.
Qed.

Lemma enc_okb_spec : forall n, enc_okb n = true ->
  len (mime n) < 256 /\ (has_ttl n = true -> ttl n <> None) /\
  (has_pairs n = true -> pairs_size n = len (pairs n)).
Proof.
  intros n H. unfold enc_okb in H.
  apply andb_true_iff in H. destruct H as [H H3]. apply andb_true_iff in H. destruct H as [H1 H2].
  split; [lia|]. split.
  - intros Ht. rewrite Ht in H2. simpl in H2. destruct (ttl n); congruence.
  - intros Hp. rewrite Hp in H3. simpl in H3. lia.
Qed.

Lemma len_body_bytes : forall n, enc_okb n = true -> len (body_bytes n) = body_size n.
Proof.
  intros n H. apply enc_okb_spec in H. destruct H as [H1 [H2 H3]].
  unfold body_bytes, body_size. destruct (0 <? data_size n); [|reflexivity].
  rewrite !len_app, len_be_encode, len_cons, len_nil, len_name_field, len_mime_field,
    len_lm_field, len_ttl_field, len_pairs_field by assumption.
  unfold data_size, LastModifiedBytesLength, TtlBytesLength.
  destruct (has_name n), (has_mime n), (has_lm n), (has_ttl n), (has_pairs n); lia.
Qed.

Lemma len_header_bytes : forall n, len (header_bytes n) = 16.
Proof. intros. unfold header_bytes. rewrite !len_app, !len_be_encode. reflexivity. Qed.

Lemma len_pad_source : forall v n, len (pad_source v n) = 8.
Proof.
  intros. unfold pad_source. destruct (v =? 3).
  - rewrite len_app, len_be_encode. reflexivity.
  - rewrite len_app, len_be_encode.
    destruct ((0 <? data_size n) && has_lm n); rewrite len_be_encode; reflexivity.
Qed.

Lemma len_tail_bytes : forall v n,
  len (tail_bytes v n) = 4 + ts_size v + padding_length (body_size n) v.
Proof.
  intros. unfold tail_bytes, ts_size, TimestampSize.
  pose proof (padding_range (body_size n) v) as Hp.
  rewrite !len_app, len_be_encode, len_takeN by (rewrite len_pad_source; lia).
  destruct (v =? 3); [rewrite len_be_encode|rewrite len_nil]; lia.
Qed.

Lemma len_encode : forall v n, enc_okb n = true -> len (encode v n) = actual_size (body_size n) v.
Proof.
  intros v n H. unfold encode, actual_size, body_length, NeedleHeaderSize, NeedleChecksumSize.
  rewrite !len_app, len_header_bytes, len_body_bytes, len_tail_bytes by assumption. lia.
Qed.

Lemma len_encode_ge : forall v n, 16 <= len (encode v n).
Proof. intros. unfold encode. rewrite len_app, len_header_bytes. lia. Qed.

Lemma parse_header_enc : forall c i s X, c < 2 ^ 32 -> i < 2 ^ 64 -> s < 2 ^ 32 ->
  parse_header (be_encode 4 c ++ be_encode 8 i ++ be_encode 4 s ++ X) = (c, i, s).
Proof.
  intros c i s X Hc Hi Hs. unfold parse_header.
  rewrite takeN_app by apply len_be_encode.
  rewrite dropN_app by apply len_be_encode.
  rewrite takeN_app by apply len_be_encode.
  rewrite (app_assoc (be_encode 4 c)).
  rewrite dropN_app by (rewrite len_app, !len_be_encode; reflexivity).
  rewrite takeN_app by apply len_be_encode.
  rewrite !be_decode_encode by assumption. reflexivity.
Qed.

Lemma match_nonempty : forall (l : list N) A (a : A) (b : A), l <> [] ->
  match l with [] => a | _ :: _ => b end = b.
Proof. intros [|x l] A a b H; [congruence|reflexivity]. Qed.

(* expected effect of each step of readNeedleDataVersion2 on the encoding of n *)
Definition upd_data (n : needle) (d : dneedle) : dneedle :=
  d_upd (d_upd (d_set_data_size d (data_size n)) (fun m => n_set_data m (data n))) (fun m => n_set_flags m (flags n)).
Definition upd_name (n : needle) (d : dneedle) : dneedle :=
  if has_name n then d_upd (d_set_name_size d (name_size n)) (fun m => n_set_name m (name n)) else d.
Definition upd_mime (n : needle) (d : dneedle) : dneedle :=
  if has_mime n then d_upd (d_set_mime_size d (mime_size n)) (fun m => n_set_mime m (mime n)) else d.
Definition upd_lm (n : needle) (d : dneedle) : dneedle :=
  if has_lm n then d_upd d (fun m => n_set_lm m (last_modified n)) else d.
Definition upd_ttl (n : needle) (d : dneedle) : dneedle :=
  if has_ttl n then d_upd d (fun m => n_set_ttl m (ttl n)) else d.
Definition upd_pairs (n : needle) (d : dneedle) : dneedle :=
  if has_pairs n then d_upd (d_upd d (fun m => n_set_pairs_size m (pairs_size n))) (fun m => n_set_pairs m (pairs n)) else d.

(* DataSize, data and the flags byte, for any data (the empty string included) *)
Lemma step_data_bytes : forall dt fl R d, len dt < 2 ^ 32 ->
  step_data (be_encode 4 (len dt) ++ dt ++ [fl] ++ R) d =
    Cont R (d_upd (d_upd (d_set_data_size d (len dt)) (fun m => n_set_data m dt)) (fun m => n_set_flags m fl)).
Proof.
  intros dt fl R d Hds. unfold step_data.
  set (rest := be_encode 4 (len dt) ++ dt ++ [fl] ++ R).
  assert (Hlen : len rest = 4 + len dt + 1 + len R).
  { unfold rest. rewrite !len_app, len_be_encode, len_cons, len_nil. lia. }
  rewrite match_nonempty by (intro E; rewrite E, len_nil in Hlen; lia).
  destruct (len rest <? 4) eqn:E1; [lia|].
  unfold rest. rewrite takeN_app, dropN_app by apply len_be_encode.
  rewrite be_decode_encode by assumption.
  destruct (len (dt ++ [fl] ++ R) <? len dt) eqn:E2; [rewrite len_app in E2; lia|].
  rewrite takeN_app, dropN_app by reflexivity. reflexivity.
Qed.

(* a step of readNeedleDataVersion2 on the encoding of n: once the flags byte of n is in place, the
   step consumes the field F, whatever follows, applies U and leaves the flags alone *)
Definition field_step (n : needle) (step : list N -> dneedle -> step_res) (F : list N) (U : dneedle -> dneedle) : Prop :=
  forall d R, flags (d_n d) = flags n -> step (F ++ R) d = Cont R (U d) /\ flags (d_n (U d)) = flags n.

Lemma field_then : forall n step F U r d R, r = Cont (F ++ R) d /\ flags (d_n d) = flags n ->
  field_step n step F U -> and_then r step = Cont R (U d) /\ flags (d_n (U d)) = flags n.
Proof. intros n step F U r d R [-> Hf] H. exact (H d R Hf). Qed.

Lemma step_name_enc : forall n, len (name n) <= 255 -> field_step n step_name (name_field n) (upd_name n).
Proof.
  intros n Hl d R Hf. split; [|unfold upd_name; destruct (has_name n); exact Hf].
  unfold name_field, upd_name, step_name, has_name. rewrite Hf.
  destruct (has_flag (flags n) FlagHasName) eqn:E.
  - assert (Hs : name_size n = len (name n)).
    { unfold name_size. destruct (255 <=? len (name n)) eqn:E1; lia. }
    cbn [app]. rewrite Hs, takeN_all by reflexivity.
    destruct (len (name n ++ R) <? len (name n)) eqn:E2; [rewrite len_app in E2; lia|].
    rewrite takeN_app, dropN_app by reflexivity. reflexivity.
  - cbn [app]. destruct R; reflexivity.
Qed.

Lemma step_mime_enc : forall n, len (mime n) < 256 -> field_step n step_mime (mime_field n) (upd_mime n).
Proof.
  intros n Hl d R Hf. split; [|unfold upd_mime; destruct (has_mime n); exact Hf].
  unfold mime_field, upd_mime, step_mime, has_mime. rewrite Hf.
  destruct (has_flag (flags n) FlagHasMime) eqn:E.
  - assert (Hs : mime_size n = len (mime n)) by (unfold mime_size; apply N.mod_small; lia).
    cbn [app]. rewrite Hs.
    destruct (len (mime n ++ R) <? len (mime n)) eqn:E2; [rewrite len_app in E2; lia|].
    rewrite takeN_app, dropN_app by reflexivity. reflexivity.
  - cbn [app]. destruct R; reflexivity.
Qed.

Lemma step_lm_enc : forall n, last_modified n < 2 ^ 40 -> field_step n step_lm (lm_field n) (upd_lm n).
Proof.
  intros n Hl d R Hf. split; [|unfold upd_lm; destruct (has_lm n); exact Hf].
  unfold lm_field, upd_lm, step_lm, has_lm. rewrite Hf.
  destruct (has_flag (flags n) FlagHasLastModifiedDate) eqn:E.
  - assert (Hlen : len (be_encode 5 (last_modified n) ++ R) = 5 + len R)
      by (rewrite len_app, len_be_encode; reflexivity).
    rewrite match_nonempty by (intro E0; rewrite E0, len_nil in Hlen; lia).
    unfold LastModifiedBytesLength.
    destruct (len (be_encode 5 (last_modified n) ++ R) <? 5) eqn:E2; [lia|].
    rewrite takeN_app, dropN_app by apply len_be_encode.
    rewrite be_decode_encode by assumption. reflexivity.
  - cbn [app]. destruct R; reflexivity.
Qed.

Lemma step_ttl_enc : forall n, (has_ttl n = true -> ttl n <> None) ->
  field_step n step_ttl (ttl_field n) (upd_ttl n).
Proof.
  intros n Ht d R Hf. split; [|unfold upd_ttl; destruct (has_ttl n); exact Hf].
  unfold ttl_field, upd_ttl, step_ttl, has_ttl. rewrite Hf.
  destruct (has_flag (flags n) FlagHasTtl) eqn:E.
  - destruct (ttl n) as [[c u]|]; [reflexivity|]. exfalso. apply Ht; [exact E|reflexivity].
  - cbn [app]. destruct R; reflexivity.
Qed.

Lemma step_pairs_enc : forall n, (has_pairs n = true -> pairs_size n = len (pairs n)) -> pairs_size n < 2 ^ 16 ->
  field_step n step_pairs (pairs_field n) (upd_pairs n).
Proof.
  intros n Hp Hl d R Hf. split; [|unfold upd_pairs; destruct (has_pairs n); exact Hf].
  unfold pairs_field, upd_pairs, step_pairs, has_pairs. rewrite Hf.
  destruct (has_flag (flags n) FlagHasPairs) eqn:E.
  - specialize (Hp E).
    assert (Hlen : len ((be_encode 2 (pairs_size n) ++ pairs n) ++ R) = 2 + len (pairs n) + len R)
      by (rewrite !len_app, len_be_encode; reflexivity).
    rewrite match_nonempty by (intro E0; rewrite E0, len_nil in Hlen; lia).
    destruct (len ((be_encode 2 (pairs_size n) ++ pairs n) ++ R) <? 2) eqn:E2; [lia|].
    rewrite <- app_assoc.
    rewrite takeN_app, dropN_app by apply len_be_encode.
    rewrite be_decode_encode by assumption.
    destruct (len (pairs n ++ R) <? pairs_size n) eqn:E3; [rewrite len_app in E3; lia|].
    rewrite takeN_app, dropN_app by (symmetry; assumption). reflexivity.
  - cbn [app]. destruct R; reflexivity.
Qed.

Lemma flags_upd_data : forall n d, flags (d_n (upd_data n d)) = flags n.
Proof. reflexivity. Qed.

(* well-formed needle for a round trip (besides [enc_okb]): the value ranges of the fixed-width
   fields; [body_size n < 2^31] because Size is a signed 32-bit integer *)
Definition ranges_ok (n : needle) : Prop :=
  cookie n < 2 ^ 32 /\ id n < 2 ^ 64 /\ body_size n < 2 ^ 31 /\ len (name n) <= 255 /\
  last_modified n < 2 ^ 40 /\ pairs_size n < 2 ^ 16 /\ append_at_ns n < 2 ^ 64.

Definition rec_ok (n : needle) : Prop := enc_okb n = true /\ ranges_ok n.

Definition read_all (n : needle) (d : dneedle) : dneedle :=
  upd_pairs n (upd_ttl n (upd_lm n (upd_mime n (upd_name n (upd_data n d))))).

Lemma data_size_lt_body : forall n, data n <> [] -> data_size n < body_size n.
Proof.
  intros n H. unfold body_size. destruct (data_cases n) as [[He _]|[_ ->]]; [congruence|lia].
Qed.

Lemma read_v2_enc : forall n d, data n <> [] -> enc_okb n = true -> ranges_ok n ->
  read_v2 (body_bytes n) d = Cont [] (read_all n d).
Proof.
  intros n d Hne Hok Hr. destruct Hr as [_ [_ [Hbs [Hnm [Hlm [Hps _]]]]]].
  apply enc_okb_spec in Hok. destruct Hok as [Hm [Ht Hp]].
  pose proof (data_size_lt_body n Hne) as Hds.
  unfold body_bytes. destruct (data_cases n) as [[He _]|[_ ->]]; [congruence|].
  unfold read_v2, read_all, data_size in *. rewrite <- (app_nil_r (pairs_field n)).
  refine (proj1 (B := flags _ = flags n) _).
  eapply field_then; [|apply step_pairs_enc; assumption].
  eapply field_then; [|apply step_ttl_enc; assumption].
  eapply field_then; [|apply step_lm_enc; assumption].
  eapply field_then; [|apply step_mime_enc; assumption].
  eapply field_then; [|apply step_name_enc; assumption].
  split; [apply step_data_bytes; lia | reflexivity].
Qed.

Lemma read_v2_nil : forall d, read_v2 [] d = Cont [] d.
Proof. reflexivity. Qed.

Lemma takeN_app_le : forall A (a b : list A) k, k <= len a -> takeN k (a ++ b) = takeN k a.
Proof.
  intros A a b k H. rewrite !takeN_firstn, firstn_app. unfold len in H.
  replace (N.to_nat k - length a)%nat with O by lia. cbn [firstn]. apply app_nil_r.
Qed.

(* the faithful variant (DataSize read within the capacity of the blob) differs from
   [read_v2] only on bodies of 1..3 bytes, which the writer never produces *)
Lemma step_data_x_eq : forall ext rest d, rest = [] \/ 4 <= len rest ->
  step_data_x ext rest d = step_data rest d.
Proof.
  intros ext rest d [H|H]; [subst; reflexivity|].
  unfold step_data_x, step_data. destruct rest as [|x r]; [reflexivity|].
  rewrite takeN_app_le by assumption.
  destruct (len (x :: r) <? 4) eqn:E; [lia|]. cbn [orb]. reflexivity.
Qed.

Lemma read_v2_x_eq : forall ext body d, body = [] \/ 4 <= len body ->
  read_v2_x ext body d = read_v2 body d.
Proof. intros. unfold read_v2_x, read_v2. rewrite step_data_x_eq by assumption. reflexivity. Qed.

Lemma read_v2_x_nil : forall ext d, read_v2_x ext [] d = Cont [] d.
Proof. reflexivity. Qed.

Lemma read_v2_x_enc : forall ext n d, data n <> [] -> enc_okb n = true -> ranges_ok n ->
  read_v2_x ext (body_bytes n) d = Cont [] (read_all n d).
Proof.
  intros ext n d Hne Hok Hr. rewrite read_v2_x_eq; [apply read_v2_enc; assumption|].
  right. rewrite len_body_bytes by assumption. pose proof (data_size_lt_body n Hne) as H.
  unfold body_size in *. destruct (0 <? data_size n); lia.
Qed.

(* finishing touches of ReadBytes / ReadNeedleBodyBytes: checksum and timestamp *)
Definition finish (v : N) (ck ns : N) (d : dneedle) : dneedle :=
  let d2 := d_upd d (fun m => n_set_checksum m ck) in
  if v =? 3 then d_upd d2 (fun m => n_set_append m ns) else d2.

(* all steps together, in closed form: a field is overwritten when its flag is set *)
Lemma read_all_eq : forall n d, read_all n d =
  {| d_n := {| cookie := cookie (d_n d); id := id (d_n d); data := data n; flags := flags n;
               name := if has_name n then name n else name (d_n d);
               mime := if has_mime n then mime n else mime (d_n d);
               pairs_size := if has_pairs n then pairs_size n else pairs_size (d_n d);
               pairs := if has_pairs n then pairs n else pairs (d_n d);
               last_modified := if has_lm n then last_modified n else last_modified (d_n d);
               ttl := if has_ttl n then ttl n else ttl (d_n d);
               checksum := checksum (d_n d); append_at_ns := append_at_ns (d_n d) |};
     d_size := d_size d; d_data_size := data_size n;
     d_name_size := if has_name n then name_size n else d_name_size d;
     d_mime_size := if has_mime n then mime_size n else d_mime_size d |}.
Proof.
  intros n d. unfold read_all, upd_pairs, upd_ttl, upd_lm, upd_mime, upd_name.
  destruct (has_pairs n), (has_ttl n), (has_lm n), (has_mime n), (has_name n); reflexivity.
Qed.

Lemma finish_read_all : forall v n,
  finish v (checksum n) (append_at_ns n) (read_all n (header_needle (cookie n) (id n) (body_size n))) = dview v n.
Proof. intros v n. rewrite read_all_eq. unfold finish, dview, view. destruct (v =? 3); reflexivity. Qed.

Lemma data_read_all : forall n d, data (d_n (read_all n d)) = data n.
Proof. intros. rewrite read_all_eq. reflexivity. Qed.

Lemma crc_value_lt : forall c, crc_value c < 2 ^ 32.
Proof. intros. unfold crc_value. change (2 ^ 32) with 4294967296. apply N.mod_lt. lia. Qed.

(* CRC.Value is injective on 32-bit values (a rotation followed by a constant addition) *)
Lemma crc_value_inj : forall a b, a < 2 ^ 32 -> b < 2 ^ 32 -> crc_value a = crc_value b -> a = b.
Proof.
  intros a b Ha Hb H. unfold crc_value in H. change (2 ^ 32) with 4294967296 in *.
  (* with quotient and remainder by 2^15 as unknowns the rotation is linear; what is left is
     one reduction modulo 2^32 on each side *)
  pose proof (N.div_mod' a 32768) as Ea. pose proof (N.div_mod' b 32768) as Eb.
  pose proof (N.mod_lt a 32768) as La. pose proof (N.mod_lt b 32768) as Lb.
  revert H Ea Eb La Lb. generalize (a / 32768), (a mod 32768), (b / 32768), (b mod 32768). lia.
Qed.

Lemma encode_split : forall v n R,
  encode v n ++ R = header_bytes n ++ body_bytes n ++ tail_bytes v n ++ R.
Proof. intros. unfold encode. rewrite <- !app_assoc. reflexivity. Qed.

Lemma tail_read : forall v n R,
  be_decode (takeN 4 (tail_bytes v n ++ R)) = crc_value (checksum n) /\
  (v =? 3 = true -> append_at_ns n < 2 ^ 64 ->
   be_decode (takeN 8 (dropN 4 (tail_bytes v n ++ R))) = append_at_ns n).
Proof.
  intros v n R. unfold tail_bytes. rewrite <- !app_assoc. split.
  - rewrite takeN_app by apply len_be_encode. apply be_decode_encode. apply crc_value_lt.
  - intros Hv Hns. rewrite Hv. rewrite dropN_app by apply len_be_encode.
    rewrite takeN_app by apply len_be_encode. apply be_decode_encode. assumption.
Qed.

Lemma parse_header_bytes : forall n X, cookie n < 2 ^ 32 -> id n < 2 ^ 64 -> body_size n < 2 ^ 32 ->
  parse_header (header_bytes n ++ X) = (cookie n, id n, body_size n).
Proof.
  intros. unfold header_bytes. rewrite <- !app_assoc. apply parse_header_enc; assumption.
Qed.

Lemma parse_header_encode : forall v n R, ranges_ok n ->
  parse_header (encode v n ++ R) = (cookie n, id n, body_size n).
Proof.
  intros v n R (Hc & Hi & Hbs & _). rewrite encode_split. apply parse_header_bytes; try assumption. lia.
Qed.

Section WithCrcProofs.
  Variable crc : list N -> N.

  (* ReadBytes on a record given by its parts - header (c, i, length of the body), body, stored
     checksum, timestamp (version 3), padding - followed by anything, when the body decodes to d1 *)
  Lemma read_bytes_parts : forall v c i body ck ts P R d1,
    c < 2 ^ 32 -> i < 2 ^ 64 -> len body < 2 ^ 32 -> ck < 2 ^ 32 -> ts < 2 ^ 64 ->
    (forall ext, read_v2_x ext body (header_needle c i (len body)) = Cont [] d1) ->
    read_bytes crc ((be_encode 4 c ++ be_encode 8 i ++ be_encode 4 (len body)) ++ body
                    ++ (be_encode 4 ck ++ (if v =? 3 then be_encode 8 ts else []) ++ P) ++ R) (len body) v =
      if (0 <? len body) && negb (ck =? crc_value (crc (data (d_n d1)))) then (d1, SCrc)
      else let d2 := if 0 <? len body then d_upd d1 (fun m => n_set_checksum m (crc (data (d_n d1)))) else d1 in
           (if v =? 3 then d_upd d2 (fun m => n_set_append m ts) else d2, SOk).
  Proof.
    intros v c i body ck ts P R d1 Hc Hi Hb Hck Hts Hrd.
    set (H := be_encode 4 c ++ be_encode 8 i ++ be_encode 4 (len body)).
    assert (HH : len H = 16) by (unfold H; rewrite !len_app, !len_be_encode; reflexivity).
    unfold read_bytes, NeedleHeaderSize.
    replace (parse_header (H ++ body ++ (be_encode 4 ck ++ (if v =? 3 then be_encode 8 ts else []) ++ P) ++ R))
      with (c, i, len body) by (unfold H; rewrite <- !app_assoc; symmetry; apply parse_header_enc; assumption).
    cbv beta iota. rewrite N.eqb_refl. cbn [negb].
    rewrite (dropN_app _ H _ 16), takeN_app, Hrd by auto.
    rewrite (app_assoc H body), dropN_app by (rewrite len_app, HH; reflexivity).
    rewrite <- !app_assoc, takeN_app, be_decode_encode by (assumption || apply len_be_encode).
    destruct ((0 <? len body) && negb (ck =? crc_value (crc (data (d_n d1))))); [reflexivity|].
    rewrite dropN_app by apply len_be_encode.
    destruct (v =? 3); [|reflexivity].
    rewrite takeN_app, be_decode_encode by (assumption || apply len_be_encode). reflexivity.
  Qed.

  (* decode of an encoding, in the generality needed by both ReadData (R = []) and the scan
     (R = the rest of the file) *)
  Lemma read_bytes_enc_gen : forall v n R, data n <> [] -> enc_okb n = true -> ranges_ok n ->
    read_bytes crc (encode v n ++ R) (body_size n) v =
      if crc_value (checksum n) =? crc_value (crc (data n))
      then (finish v (crc (data n)) (append_at_ns n) (read_all n (header_needle (cookie n) (id n) (body_size n))), SOk)
      else (read_all n (header_needle (cookie n) (id n) (body_size n)), SCrc).
  Proof.
    intros v n R Hne Hok Hr. pose proof Hr as (Hc & Hi & Hbs & _ & _ & _ & Hns).
    pose proof (data_size_lt_body n Hne) as Hds. pose proof (len_body_bytes n Hok) as Hlb.
    rewrite encode_split. unfold header_bytes, tail_bytes. rewrite <- Hlb.
    rewrite (read_bytes_parts v _ _ _ _ (append_at_ns n) _ R (read_all n (header_needle (cookie n) (id n) (len (body_bytes n)))))
      by (assumption || lia || apply crc_value_lt || (intros; apply read_v2_x_enc; assumption)).
    rewrite data_read_all. replace (0 <? len (body_bytes n)) with true by lia.
    destruct (crc_value (checksum n) =? crc_value (crc (data n))); reflexivity.
  Qed.

  Lemma read_bytes_crc_error : forall v n R, data n <> [] -> enc_okb n = true -> ranges_ok n ->
    crc_value (checksum n) <> crc_value (crc (data n)) ->
    snd (read_bytes crc (encode v n ++ R) (body_size n) v) = SCrc.
  Proof.
    intros v n R Hne Hok Hr Hck. rewrite read_bytes_enc_gen by assumption.
    destruct (crc_value (checksum n) =? crc_value (crc (data n))) eqn:E; [lia|reflexivity].
  Qed.

  Lemma body_empty : forall n, data n = [] -> body_size n = 0 /\ body_bytes n = [].
  Proof.
    intros n H. unfold body_size, body_bytes, data_size. rewrite H. split; reflexivity.
  Qed.

  (* a needle written with empty data: only the header (and timestamp) comes back *)
  Lemma read_bytes_enc_empty : forall v n R, data n = [] ->
    cookie n < 2 ^ 32 -> id n < 2 ^ 64 -> append_at_ns n < 2 ^ 64 ->
    read_bytes crc (encode v n ++ R) 0 v = (stripped v n 0, SOk).
  Proof.
    intros v n R He Hc Hi Hns. destruct (body_empty n He) as [Hs Hb].
    rewrite encode_split. unfold header_bytes, tail_bytes. rewrite Hs, Hb.
    rewrite (read_bytes_parts v _ _ [] _ (append_at_ns n) _ R (header_needle (cookie n) (id n) 0))
      by (assumption || reflexivity || apply crc_value_lt).
    unfold stripped. destruct (v =? 3); reflexivity.
  Qed.

  Lemma read_data_exact : forall v rec pre post size, len rec = actual_size size v ->
    read_data crc (pre ++ rec ++ post) (len pre) size v = read_bytes crc rec size v.
  Proof.
    intros v rec pre post size Hl. unfold read_data.
    rewrite dropN_app, takeN_app, Hl, N.ltb_irrefl by auto. reflexivity.
  Qed.

  (* what ScanVolumeFileFrom hands to the visitor for a record: ReadNeedleBodyBytes recomputes
     the checksum from the data instead of comparing it *)
  Definition scan_visit (v : N) (n : needle) : dneedle :=
    if 0 <? data_size n
    then finish v (crc (data n)) (append_at_ns n) (read_all n (header_needle (cookie n) (id n) (body_size n)))
    else stripped v n (crc []).

  Fixpoint scan_expected (v : N) (rs : list needle) (off : N) : list (dneedle * N) :=
    match rs with
    | [] => []
    | n :: rs' => (scan_visit v n, off) :: scan_expected v rs' (off + actual_size (body_size n) v)
    end.

  (* one turn of the scan loop on a whole record: ReadNeedleHeader parses (parse_header_encode), the
     body read has the length the header announces (len_body_bytes, len_tail_bytes), and
     ReadNeedleBodyBytes decodes it as ReadBytes does, without the checksum compare *)
  Lemma scan_step : forall fuel v n R off, rec_ok n ->
    scan_from crc (S fuel) v (encode v n ++ R) off =
      (scan_visit v n, off) :: scan_from crc fuel v R (off + actual_size (body_size n) v).
  Proof.
    intros fuel v n R off [Hok Hr].
    pose proof Hr as [_ [_ [_ [_ [_ [_ Hns]]]]]].
    cbn [scan_from].
    pose proof (len_encode_ge v n) as Hge.
    destruct (len (encode v n ++ R) <? NeedleHeaderSize) eqn:E1.
    { rewrite len_app in E1. unfold NeedleHeaderSize in E1. lia. }
    assert (Hbl : len (body_bytes n ++ tail_bytes v n) = body_length (body_size n) v).
    { rewrite len_app, len_body_bytes, len_tail_bytes by assumption.
      unfold body_length, NeedleChecksumSize. lia. }
    assert (H2 : takeN (body_length (body_size n) v) (dropN NeedleHeaderSize (encode v n ++ R))
                 = body_bytes n ++ tail_bytes v n).
    { rewrite encode_split. unfold NeedleHeaderSize. rewrite dropN_app by apply len_header_bytes.
      rewrite (app_assoc (body_bytes n)). apply takeN_app. assumption. }
    rewrite parse_header_encode by assumption. cbv beta iota. rewrite !H2.
    unfold NeedleHeaderSize.
    rewrite Hbl. rewrite N.ltb_irrefl.
    rewrite takeN_app by (apply len_body_bytes; assumption).
    assert (Htl : dropN (body_size n + NeedleChecksumSize) (body_bytes n ++ tail_bytes v n)
                  = dropN 4 (tail_bytes v n ++ [])).
    { rewrite app_nil_r. apply dropN_add_app. apply len_body_bytes; assumption. }
    rewrite Htl.
    assert (Hrest : dropN (16 + body_length (body_size n) v) (encode v n ++ R) = R).
    { apply dropN_app. rewrite len_encode by assumption. reflexivity. }
    rewrite Hrest.
    replace (off + 16 + body_length (body_size n) v) with (off + actual_size (body_size n) v)
      by (unfold actual_size, NeedleHeaderSize; lia).
    destruct (tail_read v n []) as [_ Hts].
    unfold scan_visit, stripped, finish. destruct (data_cases n) as [[He ->]|[Hne ->]].
    - destruct (body_empty n He) as [Hs Hb]. rewrite Hb, Hs, read_v2_x_nil. cbn [body_result].
      destruct (v =? 3); [rewrite Hts by auto|]; reflexivity.
    - rewrite read_v2_x_enc by assumption. cbn [body_result]. rewrite data_read_all.
      destruct (v =? 3); [rewrite Hts by auto|]; reflexivity.
  Qed.

  Lemma scan_from_app : forall v rs fuel off R, Forall rec_ok rs -> (length rs <= fuel)%nat ->
    scan_from crc fuel v (concat (map (encode v) rs) ++ R) off
      = scan_expected v rs off
        ++ scan_from crc (fuel - length rs) v R (off + len (concat (map (encode v) rs))).
  Proof.
    intros v rs. induction rs as [|n rs IH]; intros fuel off R Hall Hf.
    - cbn [map concat app scan_expected length]. rewrite Nat.sub_0_r, len_nil, N.add_0_r. reflexivity.
    - destruct fuel as [|fuel]; [simpl in Hf; lia|].
      inversion Hall as [|? ? Hn Hrs]; subst.
      cbn [map concat scan_expected length]. rewrite <- app_assoc, scan_step by assumption.
      rewrite IH by (auto; simpl in Hf; lia). cbn [app]. f_equal. f_equal.
      cbn [Nat.sub]. f_equal. destruct Hn as [Hok _]. rewrite len_app, len_encode by assumption. lia.
  Qed.

  Lemma length_concat_ge : forall v rs, (length rs <= length (concat (map (encode v) rs)))%nat.
  Proof.
    intros v rs. induction rs as [|n rs IH]; [simpl; lia|].
    cbn [map concat]. rewrite app_length. pose proof (len_encode_ge v n) as H.
    unfold len in H. simpl. lia.
  Qed.

  (* scanning a volume file = super block (any prefix) followed by the records, starting at the
     end of the prefix, visits exactly the records with their offsets, in order *)
  Lemma scan_records : forall v pre rs, Forall rec_ok rs ->
    scan crc v (pre ++ concat (map (encode v) rs)) (len pre) = scan_expected v rs (len pre).
  Proof.
    intros v pre rs Hall. unfold scan. rewrite dropN_app by reflexivity.
    pose proof (length_concat_ge v rs) as Hge.
    rewrite <- (app_nil_r (concat _)), scan_from_app by (rewrite ?app_length; assumption || lia).
    destruct (_ - _)%nat; apply app_nil_r.
  Qed.

  Lemma scan_visit_wf : forall v n, data n <> [] -> checksum n = crc (data n) ->
    scan_visit v n = dview v n.
  Proof.
    intros v n Hne Hck. unfold scan_visit.
    destruct (data_cases n) as [[He _]|[_ ->]]; [congruence|]. rewrite <- Hck. apply finish_read_all.
  Qed.

  Lemma scan_expected_ids : forall v rs off,
    map (fun p => (id (d_n (fst p)), cookie (d_n (fst p)), snd p)) (scan_expected v rs off) =
    (fix go (rs : list needle) (off : N) :=
       match rs with [] => [] | n :: rs' => (id n, cookie n, off) :: go rs' (off + actual_size (body_size n) v) end) rs off.
  Proof.
    intros v rs. induction rs as [|n rs IH]; intros off; [reflexivity|].
    cbn [scan_expected map fst snd]. rewrite IH. f_equal.
    unfold scan_visit. destruct (0 <? data_size n); [|reflexivity].
    rewrite read_all_eq. unfold finish. destruct (v =? 3); reflexivity.
  Qed.
End WithCrcProofs.

(* the record with its data region overwritten by d' (same length) *)
Definition overwrite_data (rec : list N) (old_len : N) (d' : list N) : list N :=
  takeN 20 rec ++ d' ++ dropN (20 + old_len) rec.

Lemma body_size_set_data : forall n d', len d' = len (data n) -> body_size (n_set_data n d') = body_size n.
Proof.
  intros n d' H. destruct n as [c i dt fl nm mm ps pr lm tt ck ns].
  unfold body_size, data_size, has_name, has_mime, has_lm, has_ttl, has_pairs, name_size, mime_size, n_set_data.
  cbn [cookie id data flags name mime pairs_size pairs last_modified ttl checksum append_at_ns] in *.
  rewrite H. reflexivity.
Qed.

(* a record is P ++ data ++ Q with 20 bytes P (header and DataSize) in front of the data *)
Lemma overwrite_window : forall (P d Q d' : list N), len P = 20 ->
  overwrite_data (P ++ d ++ Q) (len d) d' = P ++ d' ++ Q.
Proof.
  intros P d Q d' H. unfold overwrite_data. rewrite takeN_app by assumption.
  rewrite (app_assoc P d), dropN_app by (rewrite len_app, H; reflexivity). reflexivity.
Qed.

(* neither P nor Q depends on the data, only on its length *)
Lemma encode_data_window : forall v n, data n <> [] -> exists P Q, len P = 20 /\
  forall d', len d' = len (data n) -> encode v (n_set_data n d') = P ++ d' ++ Q.
Proof.
  intros v n Hne.
  assert (Hpos : 0 <? len (data n) = true) by (destruct (data_cases n) as [[? _]|[_ ?]]; [congruence|assumption]).
  exists (header_bytes n ++ be_encode 4 (len (data n))),
         ([flags n] ++ name_field n ++ mime_field n ++ lm_field n ++ ttl_field n ++ pairs_field n ++ tail_bytes v n).
  split; [rewrite len_app, len_header_bytes, len_be_encode; reflexivity|].
  intros d' H. pose proof (body_size_set_data n d' H) as Hbs.
  destruct n as [c i dt fl nm mm ps pr lm tt ck ns].
  unfold encode, header_bytes, body_bytes, tail_bytes, pad_source, name_field, mime_field, lm_field,
    ttl_field, pairs_field, data_size, has_name, has_mime, has_lm, has_ttl, has_pairs, name_size, mime_size in *.
  rewrite Hbs. unfold n_set_data in *.
  cbn [cookie id data flags name mime pairs_size pairs last_modified ttl checksum append_at_ns] in *.
  rewrite H, Hpos, <- !app_assoc. reflexivity.
Qed.

Lemma n_set_data_same : forall n, n_set_data n (data n) = n.
Proof. intros. destruct n; reflexivity. Qed.

Lemma encode_set_data : forall v n d', data n <> [] -> len d' = len (data n) ->
  encode v (n_set_data n d') = overwrite_data (encode v n) (len (data n)) d'.
Proof.
  intros v n d' Hne H. destruct (encode_data_window v n Hne) as [P [Q [HP E]]].
  rewrite (E d' H). replace (encode v n) with (P ++ data n ++ Q)
    by (rewrite <- (E (data n) eq_refl), n_set_data_same; reflexivity).
  symmetry. apply overwrite_window, HP.
Qed.

Lemma set_data_ok : forall n d', len d' = len (data n) -> enc_okb n = true -> ranges_ok n ->
  enc_okb (n_set_data n d') = true /\ ranges_ok (n_set_data n d').
Proof.
  intros n d' Hl Hok Hr. split; [destruct n; exact Hok|].
  unfold ranges_ok in *. rewrite (body_size_set_data n d' Hl). destruct n. exact Hr.
Qed.

(* A stored record whose data bytes are overwritten (any number of them, same length) is
   reported as corrupted whenever the checksum tells the two byte strings apart. *)
Lemma altered_data_detected_ranges : forall crc v n d', data n <> [] -> enc_okb n = true -> ranges_ok n ->
  checksum n = crc (data n) -> len d' = len (data n) ->
  crc d' < 2 ^ 32 -> crc (data n) < 2 ^ 32 -> crc d' <> crc (data n) ->
  snd (read_bytes crc (overwrite_data (encode v n) (len (data n)) d') (body_size n) v) = SCrc.
Proof.
  intros crc v n d' Hne Hok Hr Hck Hl Hb1 Hb2 Hcrc.
  destruct (set_data_ok n d' Hl Hok Hr) as [Hok' Hr'].
  rewrite <- encode_set_data, <- (app_nil_r (encode v (n_set_data n d'))), <- (body_size_set_data n d' Hl)
    by assumption.
  assert (Hd : data (n_set_data n d') = d') by (destruct n; reflexivity).
  apply read_bytes_crc_error; try assumption; rewrite Hd.
  - intro E. apply Hne, len_zero_nil. rewrite <- Hl, E. reflexivity.
  - replace (checksum (n_set_data n d')) with (checksum n) by (destruct n; reflexivity).
    rewrite Hck. intro E. apply crc_value_inj in E; auto.
Qed.

Section CrcDetects.
  Variable crc : list N -> N.
  Hypothesis crc_range : forall b, crc b < 2 ^ 32.

  Lemma altered_data_detected : forall v n d', data n <> [] -> enc_okb n = true -> ranges_ok n ->
    checksum n = crc (data n) -> len d' = len (data n) -> crc d' <> crc (data n) ->
    snd (read_bytes crc (overwrite_data (encode v n) (len (data n)) d') (body_size n) v) = SCrc.
  Proof. intros. apply altered_data_detected_ranges; auto. Qed.
End CrcDetects.

Lemma encode_aligned : forall v n, enc_okb n = true ->
  len (encode v n) = actual_size (body_size n) v /\ len (encode v n) mod 8 = 0.
Proof.
  intros v n H. rewrite len_encode by assumption. split; [reflexivity|apply actual_size_aligned].
Qed.

(* trigger of the known finding "empty payload": the needle is written with empty data *)
Definition empty_payload (n : needle) : bool := len (data n) =? 0.

Lemma empty_payload_false : forall n, empty_payload n = false -> data n <> [].
Proof. intros n H E. unfold empty_payload in H. rewrite E in H. discriminate. Qed.

Lemma empty_payload_true : forall n, empty_payload n = true -> data n = [].
Proof. intros n H. apply len_zero_nil. unfold empty_payload in H. lia. Qed.

Lemma roundtrip_partial : forall crc v n, empty_payload n = false -> enc_okb n = true -> ranges_ok n ->
  checksum n = crc (data n) ->
  read_bytes crc (encode v n) (body_size n) v = (dview v n, SOk).
Proof.
  intros crc v n He Hok Hr Hck. rewrite <- (app_nil_r (encode v n)).
  rewrite read_bytes_enc_gen by auto using empty_payload_false.
  rewrite <- Hck, N.eqb_refl, finish_read_all. reflexivity.
Qed.

Lemma roundtrip_in_file : forall crc v n pre post, empty_payload n = false -> enc_okb n = true ->
  ranges_ok n -> checksum n = crc (data n) ->
  read_data crc (pre ++ encode v n ++ post) (len pre) (body_size n) v = (dview v n, SOk).
Proof.
  intros. rewrite read_data_exact by (apply len_encode; assumption). apply roundtrip_partial; assumption.
Qed.

Lemma roundtrip_empty : forall crc v n, empty_payload n = true ->
  cookie n < 2 ^ 32 -> id n < 2 ^ 64 -> append_at_ns n < 2 ^ 64 ->
  body_size n = 0 /\ read_bytes crc (encode v n) (body_size n) v = (stripped v n 0, SOk).
Proof.
  intros crc v n He Hc Hi Hns. apply empty_payload_true in He.
  destruct (body_empty n He) as [Hs _]. split; [assumption|].
  rewrite Hs, <- (app_nil_r (encode v n)). apply read_bytes_enc_empty; assumption.
Qed.

(* the full round-trip statement fails for a well-formed needle with empty data: its name is lost *)
Definition empty_witness : needle :=
  {| cookie := 7; id := 1; data := []; flags := 2; name := [97]; mime := []; pairs_size := 0; pairs := [];
     last_modified := 0; ttl := None; checksum := 0; append_at_ns := 5 |}.

Lemma roundtrip_refuted : exists n, enc_okb n = true /\ ranges_ok n /\
  forall crc v, checksum n = crc (data n) ->
    read_bytes crc (encode v n) (body_size n) v <> (dview v n, SOk).
Proof.
  exists empty_witness. split; [reflexivity|]. split.
  { unfold ranges_ok. vm_compute. repeat split; try reflexivity; discriminate. }
  intros crc v _ H.
  destruct (roundtrip_empty crc v empty_witness) as [_ Hr]; try (vm_compute; reflexivity).
  rewrite Hr in H. apply (f_equal (fun p => name (d_n (fst p)))) in H. discriminate H.
Qed.

(* needles all of whose unflagged fields are empty are their own view *)
Definition normalb (v : N) (n : needle) : bool :=
  (has_name n || (len (name n) =? 0)) && (has_mime n || (len (mime n) =? 0))
  && (has_pairs n || ((pairs_size n =? 0) && (len (pairs n) =? 0)))
  && (has_lm n || (last_modified n =? 0))
  && (has_ttl n || match ttl n with None => true | Some _ => false end)
  && ((v =? 3) || (append_at_ns n =? 0)).

Lemma if_default : forall (h : bool) A (x d : A), (h = false -> x = d) -> (if h then x else d) = x.
Proof. intros [|] A x d H; [reflexivity|symmetry; auto]. Qed.

Lemma view_normal : forall v n, normalb v n = true -> view v n = n.
Proof.
  intros v n H. unfold normalb in H. repeat (apply andb_true_iff in H; destruct H as [H ?]).
  destruct n as [c i dt fl nm mm ps pr lm tt ck ns].
  unfold view, has_name, has_mime, has_lm, has_ttl, has_pairs in *.
  cbn [cookie id data flags name mime pairs_size pairs last_modified ttl checksum append_at_ns] in *.
  (* a field whose flag is off is empty already *)
  f_equal; apply if_default; intros Hh; rewrite Hh in *; cbn [orb] in *;
    try (apply len_zero_nil); try (destruct tt; [discriminate|reflexivity]); lia.
Qed.

(* the records as written, with their offsets *)
Fixpoint written (v : N) (rs : list needle) (off : N) : list (dneedle * N) :=
  match rs with
  | [] => []
  | n :: rs' => (dview v n, off) :: written v rs' (off + actual_size (body_size n) v)
  end.

Lemma scan_expected_written : forall crc v rs off,
  Forall (fun n => empty_payload n = false /\ checksum n = crc (data n)) rs ->
  scan_expected crc v rs off = written v rs off.
Proof.
  intros crc v rs. induction rs as [|n rs IH]; intros off H; [reflexivity|].
  inversion H as [|? ? [He Hck] Hrs]; subst. cbn [scan_expected written].
  rewrite scan_visit_wf by auto using empty_payload_false. rewrite IH by assumption. reflexivity.
Qed.

Lemma scan_written : forall crc v pre rs, Forall rec_ok rs ->
  Forall (fun n => empty_payload n = false /\ checksum n = crc (data n)) rs ->
  scan crc v (pre ++ concat (map (encode v) rs)) (len pre) = written v rs (len pre).
Proof. intros. rewrite scan_records by assumption. apply scan_expected_written; assumption. Qed.

(* a toy checksum for the non-vacuity examples (NOT CRC32-C; any function will do) *)
Definition toy_crc (b : list N) : N := fold_left (fun a x => (a * 31 + x + 1) mod 4294967296) b 0.

Definition example_needle : needle :=
  {| cookie := 305419896; id := 4660; data := [1; 2; 3; 255; 0]; flags := 191;
     name := [97; 46; 116; 120; 116]; mime := [116; 47; 112]; pairs_size := 2; pairs := [123; 125];
     last_modified := 1600000000; ttl := Some (3, 2); checksum := toy_crc [1; 2; 3; 255; 0];
     append_at_ns := 1600000000123456789 |}.
