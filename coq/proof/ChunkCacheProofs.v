(* C31: [inv stored st]: every memory entry and every disk record is the data of an earlier store
   whose file id has that record's needle key (step_inv).  Every answer of the lookup order
   ([tiers], tiers_ind) is empty, the memory entry, or a long enough disk record, hence [explained];
   explained = transparent or alias (explained_split) gives the per-lookup and the unique-key
   theorems and the totality of the check's trigger. *)
From Coq Require Import List NArith Bool Arith Lia ZifyBool ZifyN ZifyNat.
From SW Require Import proof.ListFacts model.ChunkCache.
Import ListNotations.
Local Open Scope N_scope.

Lemma fileid_eqb_eq : forall a b, fileid_eqb a b = true <-> a = b.
Proof.
  intros [v k c|t] [v' k' c'|t']; simpl; split; intros H; try discriminate; try congruence.
  - apply andb_true_iff in H. destruct H as [H Hc]. apply andb_true_iff in H. destruct H as [Hv Hk].
    apply N.eqb_eq in Hv, Hk, Hc. congruence.
  - inversion H; subst. rewrite !N.eqb_refl. reflexivity.
  - apply N.eqb_eq in H. congruence.
  - inversion H; subst. apply N.eqb_refl.
Qed.

Lemma fileid_eqb_refl : forall a, fileid_eqb a a = true.
Proof. intros. apply fileid_eqb_eq. reflexivity. Qed.

Lemma bytes_eqb_refl : forall a, bytes_eqb a a = true.
Proof. exact (eqb_list_refl N.eqb N.eqb_eq). Qed.

Lemma bytes_eqb_eq : forall a b, bytes_eqb a b = true -> a = b.
Proof. exact (fun a b => proj1 (eqb_list_eq N.eqb N.eqb_eq a b)). Qed.

Lemma is_empty_false : forall d : bytes, is_empty d = false -> d <> [].
Proof. destruct d; simpl; congruence. Qed.

(* the stores of a history so far, newest first *)
Definition stored_t := list (fileid * bytes).

(* a disk record carries the data of a store whose file id has the record's key *)
Definition rec_ok (stored : stored_t) (r : rec) : Prop :=
  exists f, fid_key f = Some (r_key r) /\ In (f, r_data r) stored.
Definition seg_ok (stored : stored_t) (s : segment) : Prop :=
  forall r, In r (sg_recs s) -> rec_ok stored r.
Definition layer_ok (stored : stored_t) (l : layer) : Prop :=
  forall s, In s l -> seg_ok stored s.
Definition inv (stored : stored_t) (st : state) : Prop :=
  incl (mem st) stored /\ layer_ok stored (l0 st) /\ layer_ok stored (l1 st) /\ layer_ok stored (l2 st).

Lemma layer_ok_mono : forall stored stored' l, incl stored stored' -> layer_ok stored l -> layer_ok stored' l.
Proof.
  intros stored stored' l Hi H s Hs r Hr. destruct (H s Hs r Hr) as [f [Hk Hin]].
  exists f. split; auto.
Qed.

Lemma write_seg_ok : forall stored s key d f,
  seg_ok stored s -> fid_key f = Some key -> In (f, d) stored -> seg_ok stored (write_seg s key d).
Proof. intros stored s key d f H Hk Hin r [Hr|Hr]; [subst r; exists f; auto|apply H; exact Hr]. Qed.

Lemma layer_set_ok : forall stored limit l key d f,
  layer_ok stored l -> fid_key f = Some key -> In (f, d) stored ->
  layer_ok stored (layer_set limit l key d).
Proof.
  intros stored limit l key d f H Hk Hin. unfold layer_set.
  destruct l as [|front rest]; [exact H|].
  destruct (limit <? sg_size front + blen d); intros s [Hs|Hs]; subst.
  - apply (write_seg_ok _ _ _ _ f); auto. intros r [].
  - apply H, in_removelast, Hs.
  - apply (write_seg_ok _ _ _ _ f); auto. apply H. left. reflexivity.
  - apply H. right. exact Hs.
Qed.

Lemma find_seg_in : forall l id s, find_seg l id = Some s -> In s l.
Proof.
  induction l as [|x l IH]; intros id s H; [discriminate|].
  simpl in H. destruct (sg_id x =? id); [inversion H; left; auto|right; eapply IH; eauto].
Qed.

Lemma regen_seg_ok : forall stored s, seg_ok stored s -> seg_ok stored (regen_seg s).
Proof.
  intros stored s H r Hr. simpl in Hr. apply in_map_iff in Hr. destruct Hr as [r0 [E Hr0]]. subst r.
  destruct (H r0 Hr0) as [f [Hk Hin]]. exists f. auto.
Qed.

Lemma pick_segs_ok : forall stored l order, layer_ok stored l -> layer_ok stored (pick_segs l order).
Proof.
  intros stored l order H. induction order as [|[id g] order IH]; intros s Hs; [destruct Hs|].
  simpl in Hs. destruct (find_seg l id) as [x|] eqn:E; [|apply IH; exact Hs].
  destruct Hs as [Hs|Hs]; [|apply IH; exact Hs].
  pose proof (H x (find_seg_in _ _ _ E)) as Hx.
  subst s. destruct g; [apply regen_seg_ok|]; exact Hx.
Qed.

Lemma reopen_layer_ok : forall stored l order,
  layer_ok stored l -> layer_ok stored (reopen_layer l order).
Proof.
  intros stored l order H. unfold reopen_layer.
  destruct (Nat.eqb _ _); [apply pick_segs_ok|]; exact H.
Qed.

Lemma seg_find_some : forall rs key r, seg_find rs key = Some r -> In r rs /\ r_key r = key.
Proof.
  induction rs as [|x rs IH]; intros key r H; [discriminate|].
  simpl in H. destruct (r_key x =? key) eqn:E.
  - inversion H; subst. apply N.eqb_eq in E. split; [left|]; auto.
  - destruct (IH _ _ H). split; [right|]; auto.
Qed.

Lemma seg_get_some : forall s key d, seg_get s key = Some d ->
  exists r, In r (sg_recs s) /\ r_key r = key /\ r_data r = d.
Proof.
  intros s key d H. unfold seg_get in H. destruct (seg_find (sg_recs s) key) as [r|] eqn:E; [|discriminate].
  destruct (r_valid r); [|discriminate]. inversion H. destruct (seg_find_some _ _ _ E). exists r. auto.
Qed.

Lemma layer_get_sound : forall stored l key d,
  layer_ok stored l -> layer_get l key = d -> d <> [] ->
  exists f, fid_key f = Some key /\ In (f, d) stored.
Proof.
  intros stored l key d H. induction l as [|s l IH]; intros E Hne; simpl in E; [congruence|].
  assert (Hl : layer_ok stored l) by (intros x Hx; apply H; right; auto).
  destruct (seg_get s key) as [x|] eqn:G; [|apply IH; auto].
  destruct (is_empty x) eqn:Em; [apply IH; auto|].
  subst x. destruct (seg_get_some _ _ _ G) as [r [Hr [Hk Hd]]].
  destruct (H s (or_introl eq_refl) r Hr) as [f [Hfk Hin]]. exists f. rewrite <- Hk, <- Hd. auto.
Qed.

Lemma layer_get_slice_sound : forall stored l key off len x,
  layer_ok stored l -> layer_get_slice l key off len = x -> x <> [] ->
  exists f d, fid_key f = Some key /\ In (f, d) stored /\ slice d off len = Some x.
Proof.
  intros stored l key off len x H. induction l as [|s l IH]; intros E Hne; simpl in E; [congruence|].
  assert (Hl : layer_ok stored l) by (intros y Hy; apply H; right; auto).
  destruct (seg_get s key) as [d|] eqn:G; [|apply IH; auto].
  destruct (slice d off len) as [y|] eqn:S; [|apply IH; auto].
  destruct (is_empty y) eqn:Em; [apply IH; auto|].
  subst y. destruct (seg_get_some _ _ _ G) as [r [Hr [Hk Hd]]].
  destruct (H s (or_introl eq_refl) r Hr) as [f [Hfk Hin]]. exists f, d. rewrite <- Hk. subst d. auto.
Qed.

Lemma mem_find_some : forall m f d, mem_find m f = Some d -> In (f, d) m.
Proof.
  induction m as [|[g x] m IH]; intros f d H; [discriminate|].
  simpl in H. destruct (fileid_eqb g f) eqn:E.
  - apply fileid_eqb_eq in E. inversion H; subst. left. reflexivity.
  - right. apply IH. exact H.
Qed.

(* a slice that passes the length test [off + len <= |x|] is the leading [len] bytes *)
Lemma slice_hit : forall d off len x, slice d off len = Some x -> off + len <= blen x ->
  (off + len <=? blen d) = true /\ x = firstn (N.to_nat len) (skipn (N.to_nat off) d).
Proof.
  intros d off len x H Hl. unfold slice in H.
  destruct (two63 <=? len); [discriminate|].
  destruct (blen d <? off) eqn:E; [discriminate|].
  inversion H as [Hx]. clear H. unfold blen in *.
  assert (Lx : List.length x = Nat.min (N.to_nat (N.min len (N.of_nat (List.length d) - off)))
                                       (List.length d - N.to_nat off)).
  { rewrite <- Hx, firstn_length, skipn_length. reflexivity. }
  assert (A : N.min len (N.of_nat (List.length d) - off) = len) by lia.
  rewrite A. split; [lia|reflexivity].
Qed.

Lemma slice_len : forall d off len x, slice d off len = Some x -> blen x <= len.
Proof.
  intros d off len x H. unfold slice in H.
  destruct (two63 <=? len); [discriminate|].
  destruct (blen d <? off); [discriminate|].
  inversion H as [Hx]. unfold blen. rewrite firstn_length. lia.
Qed.

Lemma layer_get_slice_len : forall l key off len, blen (layer_get_slice l key off len) <= len.
Proof.
  induction l as [|s l IH]; intros key off len; simpl; [unfold blen; simpl; lia|].
  destruct (seg_get s key) as [d|]; [|apply IH].
  destruct (slice d off len) as [x|] eqn:S; [|apply IH].
  destruct (is_empty x); [apply IH|]. eapply slice_len; eauto.
Qed.

(* the shape shared by doGetChunk and doGetChunkSlice: the memory tier's answer [md], then the
   three disk tiers through [g]; a tier's answer is taken if it has at least [m] bytes *)
Definition tiers (p : params) (st : state) (m : N) (md : bytes) (f : fileid) (g : layer -> N -> bytes) : bytes :=
  if (m <=? limit0 p) && (m <=? blen md) then md else
  match fid_key f with
  | None => []
  | Some k =>
      let d0 := g (l0 st) k in
      if (m <=? limit0 p) && (m <=? blen d0) then d0 else
      let d1 := g (l1 st) k in
      if (m <=? limit1 p) && (m <=? blen d1) then d1 else
      let d2 := g (l2 st) k in
      if m <=? blen d2 then d2 else []
  end.

Lemma get_with_tiers : forall p st memd f m,
  get_with p st memd f m =
  if too_big m then [] else tiers p st m (match memd with Some d => d | None => [] end) f layer_get.
Proof. reflexivity. Qed.

Lemma get_slice_small_tiers : forall p st memd f off len,
  get_slice_small p st memd f off len =
  tiers p st (off + len)
        (match memd with
         | Some d => match slice d off len with Some x => x | None => [] end
         | None => []
         end) f (fun l k => layer_get_slice l k off len).
Proof. reflexivity. Qed.

(* an answer is nothing, the memory tier's, or a disk tier's, and then long enough *)
Lemma tiers_ind : forall (P : bytes -> Prop) p st m md f g,
  P [] -> (m <= blen md -> P md) ->
  (forall k lay, fid_key f = Some k -> In lay [l0 st; l1 st; l2 st] -> m <= blen (g lay k) -> P (g lay k)) ->
  P (tiers p st m md f g).
Proof.
  intros P p st m md f g H0 Hm Hd. unfold tiers.
  destruct ((m <=? limit0 p) && (m <=? blen md)) eqn:C; [apply Hm; lia|].
  destruct (fid_key f) as [k|]; [|exact H0].
  destruct ((m <=? limit0 p) && (m <=? blen (g (l0 st) k))) eqn:C0.
  { apply (Hd k (l0 st)); simpl; auto. lia. }
  destruct ((m <=? limit1 p) && (m <=? blen (g (l1 st) k))) eqn:C1.
  { apply (Hd k (l1 st)); simpl; auto. lia. }
  destruct (m <=? blen (g (l2 st) k)) eqn:C2; [|exact H0].
  apply (Hd k (l2 st)); simpl; auto. lia.
Qed.

(* every GetChunkSlice with an offset above 0 misses: each tier hands
   back at most [length] bytes and the result is tested against offset + length *)
Lemma slice_dead : forall p st md f off len,
  0 < off -> get_slice_with p st md f off len = [].
Proof.
  intros p st md f off len Ho. unfold get_slice_with.
  destruct (slice_guard off len); [reflexivity|].
  rewrite get_slice_small_tiers. apply tiers_ind; [reflexivity| |].
  - intros C. exfalso.
    assert (Hm : blen match md with
                      | Some d => match slice d off len with Some x => x | None => [] end
                      | None => [] end <= len).
    { destruct md as [d|]; [|unfold blen; simpl; lia].
      destruct (slice d off len) as [x|] eqn:S; [eapply slice_len; eauto|unfold blen; simpl; lia]. }
    lia.
  - intros k lay _ _ C. pose proof (layer_get_slice_len lay k off len). lia.
Qed.

(* for uint64 values the guard of doGetChunkSlice (wrapped sum below the offset, or
   above math.MaxInt64) is exactly "offset + length is 2^63 or more" *)
Lemma slice_guard_spec : forall off len, off < two64 -> len < two64 ->
  slice_guard off len = (two63 <=? off + len).
Proof.
  intros off len Ho Hl. unfold slice_guard, two63, two64 in *.
  destruct (9223372036854775808 <=? off + len) eqn:E.
  - apply N.leb_le in E. apply orb_true_iff.
    destruct (N.lt_ge_cases (off + len) 18446744073709551616) as [Hs|Hs].
    + right. rewrite N.mod_small by exact Hs. apply N.leb_le. exact E.
    + left. apply N.ltb_lt.
      assert (M : (off + len) mod 18446744073709551616 = off + len - 18446744073709551616).
      { symmetry. apply (N.mod_unique _ _ 1); lia. }
      rewrite M. lia.
  - apply N.leb_gt in E. rewrite N.mod_small by lia. apply orb_false_iff.
    split; [apply N.ltb_ge; lia|apply N.leb_gt; exact E].
Qed.

Lemma huge_get_misses : forall p st md f m, two63 <= m -> get_with p st md f m = [].
Proof.
  intros p st md f m H. unfold get_with, too_big. apply N.leb_le in H. rewrite H. reflexivity.
Qed.

Lemma huge_slice_misses : forall p st md f off len,
  off < two64 -> len < two64 -> two63 <= off + len -> get_slice_with p st md f off len = [].
Proof.
  intros p st md f off len Ho Hl H. unfold get_slice_with.
  rewrite (slice_guard_spec off len Ho Hl). apply N.leb_le in H. rewrite H. reflexivity.
Qed.

Lemma huge_offset_misses : forall p st md f off len,
  off < two64 -> len < two64 -> two63 <= off \/ two63 <= len -> get_slice_with p st md f off len = [].
Proof.
  intros p st md f off len Ho Hl H. apply huge_slice_misses; auto. destruct H; lia.
Qed.

Definition uniq (F : list fileid) : Prop :=
  forall a b, In a F -> In b F -> key_clash a b = false.

Lemma keys_unique_uniq : forall ops, keys_unique ops = true -> uniq (fids_of ops).
Proof.
  intros ops H a b Ha Hb. unfold keys_unique in H. rewrite forallb_forall in H.
  specialize (H a Ha). rewrite forallb_forall in H. specialize (H b Hb).
  apply negb_true_iff in H. exact H.
Qed.

Lemma uniq_same : forall F a b k, uniq F -> In a F -> In b F ->
  fid_key a = Some k -> fid_key b = Some k -> a = b.
Proof.
  intros F a b k U Ha Hb Ka Kb. specialize (U a b Ha Hb). unfold key_clash in U.
  rewrite Ka, Kb, N.eqb_refl in U. simpl in U. apply negb_false_iff in U. apply fileid_eqb_eq. exact U.
Qed.

Lemma allowed_intro : forall rel stored o f g d x,
  op_fid o = Some f -> In (g, d) stored -> rel g f = true -> expected o d = Some x ->
  allowed_by rel stored o x = true.
Proof.
  intros rel stored o f g d x Hf Hin Hr He. unfold allowed_by. rewrite Hf.
  apply existsb_exists. exists (g, d). split; auto.
  simpl. rewrite Hr, He, bytes_eqb_refl. reflexivity.
Qed.

Lemma transparent_hit : forall stored o f d x,
  op_fid o = Some f -> In (f, d) stored -> expected o d = Some x -> transparent_answer stored o x = true.
Proof.
  intros stored o f d x Hf Hin He.
  change (is_empty x || allowed_by fileid_eqb stored o x = true).
  rewrite (allowed_intro fileid_eqb _ _ _ _ _ _ Hf Hin (fileid_eqb_refl f) He). apply orb_true_r.
Qed.

Lemma transparent_empty : forall stored o, transparent_answer stored o [] = true.
Proof. reflexivity. Qed.

Lemma expected_get : forall f m d, (m <=? blen d) = true -> expected (Get f m) d = Some d.
Proof. intros f m d H. cbn [expected]. rewrite H. reflexivity. Qed.

Lemma expected_slice : forall f off len d x,
  slice d off len = Some x -> (off + len <=? blen x) = true ->
  expected (GetSlice f off len) d = Some x.
Proof.
  intros f off len d x S H. apply N.leb_le in H.
  destruct (slice_hit _ _ _ _ S H) as [A E]. cbn [expected]. rewrite A, <- E. reflexivity.
Qed.

Lemma related_refl : forall f, related f f = true.
Proof. intros. unfold related. rewrite fileid_eqb_refl. reflexivity. Qed.

Lemma related_key : forall g f k, fid_key g = Some k -> fid_key f = Some k -> related g f = true.
Proof.
  intros g f k Hg Hf. unfold related, same_key. rewrite Hg, Hf, N.eqb_refl. apply orb_true_r.
Qed.

Lemma explained_by : forall stored o f g d x,
  op_fid o = Some f -> In (g, d) stored -> related g f = true -> expected o d = Some x ->
  explained stored o x = true.
Proof.
  intros stored o f g d x Hf Hin Hr He. unfold explained.
  rewrite (allowed_intro related _ _ _ _ _ _ Hf Hin Hr He). apply orb_true_r.
Qed.

Section Explained.
  Variable p : params.

  Lemma disk_get_explained : forall stored f k m lay,
    fid_key f = Some k -> layer_ok stored lay -> (m <=? blen (layer_get lay k)) = true ->
    explained stored (Get f m) (layer_get lay k) = true.
  Proof.
    intros stored f k m lay Hk Hl Hm.
    destruct (layer_get lay k) as [|b d'] eqn:E; [reflexivity|].
    destruct (layer_get_sound stored lay k (b :: d') Hl E) as [g [Gk Gin]]; [discriminate|].
    eapply explained_by; [reflexivity|exact Gin|eapply related_key; eauto|].
    apply expected_get. exact Hm.
  Qed.

  Lemma mem_choice_stored : forall stored st f d,
    inv stored st -> In (Some d) (mem_choices st f) -> In (f, d) stored.
  Proof.
    intros stored st f d [Hm _] H. unfold mem_choices in H.
    destruct (mem_find (mem st) f) as [d'|] eqn:E.
    - destruct H as [H|[H|[]]]; [discriminate|]. inversion H; subst d'. apply Hm, mem_find_some, E.
    - destruct H as [H|[]]. discriminate.
  Qed.

  Lemma inv_layers : forall stored st lay,
    inv stored st -> In lay [l0 st; l1 st; l2 st] -> layer_ok stored lay.
  Proof. intros stored st lay [_ [H0 [H1 H2]]] [H|[H|[H|[]]]]; subst lay; assumption. Qed.

  Lemma get_explained : forall stored st md f m,
    inv stored st -> In md (mem_choices st f) ->
    explained stored (Get f m) (get_with p st md f m) = true.
  Proof.
    intros stored st md f m Hi Hmd. rewrite get_with_tiers.
    destruct (too_big m); [reflexivity|]. apply tiers_ind; [reflexivity| |].
    - destruct md as [d|]; [|reflexivity]. intros C.
      eapply explained_by; [reflexivity|eapply mem_choice_stored; eauto|apply related_refl|].
      apply expected_get. apply N.leb_le. exact C.
    - intros k lay K Hl C. apply disk_get_explained; auto; [eapply inv_layers; eauto|].
      apply N.leb_le. exact C.
  Qed.

  Lemma disk_slice_explained : forall stored f k off len lay,
    fid_key f = Some k -> layer_ok stored lay ->
    (off + len <=? blen (layer_get_slice lay k off len)) = true ->
    explained stored (GetSlice f off len) (layer_get_slice lay k off len) = true.
  Proof.
    intros stored f k off len lay Hk Hl Hm.
    destruct (layer_get_slice lay k off len) as [|b x'] eqn:E; [reflexivity|].
    destruct (layer_get_slice_sound stored lay k off len (b :: x') Hl E) as [g [d [Gk [Gin Sl]]]]; [discriminate|].
    eapply explained_by; [reflexivity|exact Gin|eapply related_key; eauto|].
    apply expected_slice; assumption.
  Qed.

  Lemma get_slice_explained : forall stored st md f off len,
    inv stored st -> In md (mem_choices st f) ->
    explained stored (GetSlice f off len) (get_slice_with p st md f off len) = true.
  Proof.
    intros stored st md f off len Hi Hmd. unfold get_slice_with.
    destruct (slice_guard off len); [reflexivity|].
    rewrite get_slice_small_tiers. apply tiers_ind; [reflexivity| |].
    - destruct md as [d|]; [|reflexivity].
      destruct (slice d off len) as [x|] eqn:S; [|reflexivity]. intros C.
      eapply explained_by; [reflexivity|eapply mem_choice_stored; eauto|apply related_refl|].
      apply expected_slice; [assumption|]. apply N.leb_le. exact C.
    - intros k lay K Hl C. apply disk_slice_explained; auto; [eapply inv_layers; eauto|].
      apply N.leb_le. exact C.
  Qed.

  Lemma answers_explained : forall stored st o,
    inv stored st -> forallb (explained stored o) (answers p st o) = true.
  Proof.
    intros stored st o Hi. apply forallb_forall. intros r Hr.
    destruct o as [f d|f m|f off len|a b c]; simpl in Hr; try destruct Hr.
    - apply in_map_iff in Hr. destruct Hr as [md [E Hmd]]. subst r. apply get_explained; auto.
    - apply in_map_iff in Hr. destruct Hr as [md [E Hmd]]. subst r. apply get_slice_explained; auto.
  Qed.
End Explained.

Lemma step_inv : forall p stored st o, inv stored st -> inv (remember stored o) (step p st o).
Proof.
  intros p stored st o [Hm [H0 [H1 H2]]].
  destruct o as [f d|f m|f off len|a b c]; simpl; try (repeat split; assumption).
  - assert (I : incl stored ((f, d) :: stored)) by (intros x Hx; right; exact Hx).
    pose proof (layer_ok_mono _ _ _ I H0) as H0'.
    pose proof (layer_ok_mono _ _ _ I H1) as H1'.
    pose proof (layer_ok_mono _ _ _ I H2) as H2'.
    assert (M : incl (if blen d <=? limit0 p then (f, d) :: mem st else mem st) ((f, d) :: stored)).
    { destruct (blen d <=? limit0 p).
      - intros x [Hx|Hx]; [left; auto|right; apply Hm; auto].
      - intros x Hx. right. apply Hm. auto. }
    unfold store. destruct (fid_key f) as [k|] eqn:K.
    + destruct (blen d <=? limit0 p) eqn:C0; [|destruct (blen d <=? limit1 p) eqn:C1];
        repeat split; simpl; auto; eapply layer_set_ok; eauto; left; reflexivity.
    + repeat split; simpl; auto.
  - repeat split; simpl; try apply reopen_layer_ok; auto. intros x [].
Qed.

Lemma fresh_layer_ok : forall stored n, layer_ok stored (fresh_layer n).
Proof.
  induction n as [|n IH]; intros s Hs; simpl in Hs; [destruct Hs|].
  destruct Hs as [Hs|Hs]; [subst s; intros r []|apply IH; exact Hs].
Qed.

Lemma init_inv : inv [] init_state.
Proof.
  unfold inv, init_state. simpl.
  split; [intros x []|]. split; [apply (fresh_layer_ok [] 2)|].
  split; [apply (fresh_layer_ok [] 3)|apply (fresh_layer_ok [] 2)].
Qed.

(* c31_transparent_modulo_key: every answer is explained by a store with the same needle key *)
Lemma run_explained : forall p ops stored st,
  inv stored st -> all_from explained stored ops (run p st ops) = true.
Proof.
  intros p. induction ops as [|o ops IH]; intros stored st Hi; [reflexivity|].
  simpl. apply andb_true_iff. split.
  - destruct (is_lookup o); [|reflexivity]. apply answers_explained. exact Hi.
  - apply IH. apply step_inv. exact Hi.
Qed.

Theorem explained_full : forall p ops, all_from explained [] ops (run p init_state ops) = true.
Proof. intros. apply run_explained. exact init_inv. Qed.

Lemma related_split : forall g f, related g f = fileid_eqb g f || key_clash g f.
Proof.
  intros g f. unfold related, key_clash, same_key.
  destruct (fileid_eqb g f); [reflexivity|]. simpl.
  destruct (fid_key g), (fid_key f); simpl; rewrite ?andb_true_r; reflexivity.
Qed.

(* an explained answer is transparent, or an instance of finding 0 at that very lookup *)
Lemma explained_split : forall stored o r,
  explained stored o r = transparent_answer stored o r || alias_answer stored o r.
Proof.
  intros stored o r.
  change (transparent_answer stored o r) with (is_empty r || allowed_by fileid_eqb stored o r).
  unfold explained, alias_answer. rewrite <- orb_assoc. f_equal.
  unfold allowed_by. destruct (op_fid o) as [f|]; [|reflexivity].
  induction stored as [|[g d] l IH]; simpl; [reflexivity|]. rewrite IH, related_split.
  destruct (fileid_eqb g f), (key_clash g f),
    (match expected o d with Some x => bytes_eqb x r | None => false end),
    (existsb (fun fd => fileid_eqb (fst fd) f &&
                        match expected o (snd fd) with Some x => bytes_eqb x r | None => false end) l);
    reflexivity.
Qed.

Lemma alias_answer_before : forall stored o r,
  alias_answer stored o r = true -> alias_before stored o = true.
Proof.
  intros stored o r. unfold alias_answer, allowed_by, alias_before.
  destruct (op_fid o) as [f|]; auto. rewrite !existsb_exists.
  intros [fd [Hin H]]. exists fd. apply andb_true_iff in H. tauto.
Qed.

Lemma explained_clean : forall stored o r,
  step_clean stored o = true -> explained stored o r = true -> transparent_answer stored o r = true.
Proof.
  intros stored o r Hc He. rewrite explained_split in He.
  apply orb_true_iff in He. destruct He as [He|Ha]; auto.
  apply alias_answer_before in Ha. unfold step_clean in Hc. rewrite Ha in Hc. discriminate.
Qed.

Lemma all_from_impl : forall (P Q : pred),
  (forall stored o r, P stored o r = true -> Q stored o r = true) ->
  forall ops stored outs, all_from P stored ops outs = true -> all_from Q stored ops outs = true.
Proof.
  intros P Q PQ. induction ops as [|o ops IH]; intros stored outs H; [reflexivity|].
  destruct outs as [|rs outs]; [discriminate|]. simpl in H |- *.
  apply andb_true_iff in H. destruct H as [H1 H2]. apply andb_true_iff. split; [|apply IH; exact H2].
  destruct (is_lookup o); [|reflexivity].
  rewrite forallb_forall in H1. apply forallb_forall. intros r Hr. apply PQ. apply H1. exact Hr.
Qed.

Lemma explained_narrow : forall stored o r, explained stored o r = true -> narrow_answer stored o r = true.
Proof.
  intros stored o r H. unfold narrow_answer. destruct (step_clean stored o) eqn:C; [|reflexivity].
  simpl. apply explained_clean; assumption.
Qed.

(* PARTIAL, per lookup: transparency at every lookup that is not preceded by a store
   for another file id with the same needle key *)
Theorem transparent_narrow : forall p ops, all_from narrow_answer [] ops (run p init_state ops) = true.
Proof. intros. eapply all_from_impl; [exact explained_narrow|apply explained_full]. Qed.

Lemma fids_of_cons : forall o ops f, In f (fids_of ops) -> In f (fids_of (o :: ops)).
Proof. intros o ops f H. simpl. destruct (op_fid o); [right|]; auto. Qed.

(* [F] holds every file id stored so far and every one still to come, so that key-uniqueness of F
   makes each lookup of the induction clean *)
Lemma narrow_all_clean : forall F, uniq F -> forall ops stored outs,
  (forall g x, In (g, x) stored -> In g F) ->
  (forall f, In f (fids_of ops) -> In f F) ->
  all_from narrow_answer stored ops outs = true -> all_from transparent_answer stored ops outs = true.
Proof.
  intros F HF. induction ops as [|o ops IH]; intros stored outs HS Hops H; [reflexivity|].
  destruct outs as [|rs outs]; [discriminate|]. simpl in H |- *.
  apply andb_true_iff in H. destruct H as [H1 H2].
  apply andb_true_iff. split.
  - destruct (is_lookup o); [|reflexivity].
    assert (C : step_clean stored o = true).
    { unfold step_clean. apply negb_true_iff. unfold alias_before.
      destruct (op_fid o) as [f|] eqn:Of; [|reflexivity].
      destruct (existsb (fun fd => key_clash (fst fd) f) stored) eqn:X; [|reflexivity].
      apply existsb_exists in X. destruct X as [[g d] [Hin K]]. simpl in K.
      rewrite (HF g f) in K; [discriminate|eapply HS; eauto|].
      apply Hops. simpl. rewrite Of. left. reflexivity. }
    rewrite forallb_forall in H1. apply forallb_forall. intros r Hr. specialize (H1 r Hr).
    unfold narrow_answer in H1. rewrite C in H1. exact H1.
  - apply IH; auto.
    + intros g x Hin. destruct o as [f d|f m|f off len|a b c]; simpl in Hin;
        try (eapply HS; eassumption).
      destruct Hin as [Hin|Hin]; [|eapply HS; eassumption]. inversion Hin; subst.
      apply Hops. simpl. left. reflexivity.
    + intros f Hf. apply Hops. apply fids_of_cons. exact Hf.
Qed.

Theorem transparent_partial : forall p ops,
  keys_unique ops = true ->
  transparent_from [] ops (run p init_state ops) = true.
Proof.
  intros p ops H. unfold transparent_from.
  apply (narrow_all_clean (fids_of ops) (keys_unique_uniq ops H)); auto.
  - intros g x [].
  - apply transparent_narrow.
Qed.

(* the full statement and its refutation *)
Definition transparent_full : Prop := forall p ops,
  transparent_from [] ops (run p init_state ops) = true.

(* NewTieredChunkCache(_, dir, 16, 16): store "3,01637037d6", look up "4,01637037d6" *)
Definition w_params : params := {| unit_size := 16; disk_units := 16 |}.
Definition w_ops : list op :=
  [Store (Fid 3 1 1668298710) [104; 101; 108; 108; 111];
   Get (Fid 4 1 1668298710) 1].

Theorem transparent_refuted : ~ transparent_full.
Proof. intro H. specialize (H w_params w_ops). vm_compute in H. discriminate. Qed.

Lemma witness_facts :
  keys_unique w_ops = false /\
  run w_params init_state w_ops = [[]; [[104; 101; 108; 108; 111]]].
Proof. vm_compute. auto. Qed.

(* NewTieredChunkCache(_, dir, 64, 1): store 5 bytes under "3,01637037d6" (third disk tier);
   GetChunk(same id, 2^63) and GetChunkSlice(same id, 1, 2^63-1) miss, GetChunk(same id, 5) hits *)
Definition w1_params : params := {| unit_size := 1; disk_units := 64 |}.
Definition w1_ops : list op :=
  [Store (Fid 3 1 1668298710) [104; 101; 108; 108; 111];
   Get (Fid 3 1 1668298710) two63;
   GetSlice (Fid 3 1 1668298710) 1 9223372036854775807;
   Get (Fid 3 1 1668298710) 5].

Lemma witness1_facts :
  keys_unique w1_ops = true /\ hist_ok w1_ops = true /\
  run w1_params init_state w1_ops = [[]; [[]]; [[]]; [[104; 101; 108; 108; 111]]] /\
  transparent_from [] w1_ops (run w1_params init_state w1_ops) = true.
Proof. vm_compute. repeat split; reflexivity. Qed.

Lemma admits_in : forall rs impl, admits rs impl = true -> In impl rs.
Proof.
  intros rs impl H. apply existsb_exists in H. destruct H as [x [Hx E]].
  apply bytes_eqb_eq in E. subst. exact Hx.
Qed.

(* a miss of the memory tier is always admitted: the first admitted answer is the
   one computed with the entry evicted *)
Lemma miss_admitted : forall p st f m, In (get_with p st None f m) (answers p st (Get f m)).
Proof.
  intros. simpl. unfold mem_choices. destruct (mem_find (mem st) f); left; reflexivity.
Qed.

Lemma admitted_from : forall (P : pred) ops stored outs impl,
  all_from P stored ops outs = true -> admitted_all ops outs impl = true ->
  impl_from P stored ops impl = true.
Proof.
  intros P. induction ops as [|o ops IH]; intros stored outs impl T A; [reflexivity|].
  destruct outs as [|rs outs]; [discriminate|]. destruct impl as [|r impl]; [discriminate|].
  simpl in T, A |- *.
  apply andb_true_iff in T. destruct T as [T1 T2].
  apply andb_true_iff in A. destruct A as [A1 A2].
  apply andb_true_iff. split; [|eapply IH; eauto].
  destruct (is_lookup o); [|reflexivity].
  rewrite forallb_forall in T1. apply T1. apply admits_in. exact A1.
Qed.

(* every answer the correspondence relation accepts is what the property allows,
   under unique keys *)
Theorem admitted_hit_is_spec : forall p ops impl,
  keys_unique ops = true ->
  admitted_all ops (run p init_state ops) impl = true ->
  impl_transparent [] ops impl = true.
Proof.
  intros p ops impl HU HA. unfold impl_transparent.
  eapply admitted_from; [apply transparent_partial; assumption|exact HA].
Qed.

(* without any hypothesis: every accepted answer is explained by a store with the
   same needle key, and is transparent at every clean lookup *)
Theorem admitted_explained : forall p ops impl,
  admitted_all ops (run p init_state ops) impl = true ->
  impl_from explained [] ops impl = true /\ impl_from narrow_answer [] ops impl = true.
Proof.
  intros p ops impl HA.
  split; [exact (admitted_from _ _ _ _ _ (explained_full p ops) HA)
        |exact (admitted_from _ _ _ _ _ (transparent_narrow p ops) HA)].
Qed.

(* when the model admits the implementation's answers, [classify] never gives up *)
Lemma classify_total : forall ops stored impl acc,
  impl_from explained stored ops impl = true -> classify stored ops impl acc <> None.
Proof.
  induction ops as [|o ops IH]; intros stored impl acc H; [simpl; discriminate|].
  destruct impl as [|r impl]; [simpl; discriminate|].
  simpl in H |- *. apply andb_true_iff in H. destruct H as [H1 H2].
  destruct (is_lookup o) eqn:L; simpl; [|apply IH; exact H2].
  destruct (transparent_answer stored o r) eqn:T; simpl; [apply IH; exact H2|].
  (* explained but not transparent: finding 0 at this very lookup *)
  rewrite explained_split, T in H1. simpl in H1. rewrite H1. apply IH. exact H2.
Qed.

(* the label that comes out: the one that went in, if there was one; otherwise 0, or none when
   every lookup was transparent *)
Lemma classify_spec : forall ops stored impl acc t,
  classify stored ops impl acc = Some t ->
  match acc with
  | Some _ => t = acc
  | None => t = Some 0 \/
            (t = None /\ (Nat.leb (List.length ops) (List.length impl) = true ->
                          impl_from transparent_answer stored ops impl = true))
  end.
Proof.
  induction ops as [|o ops IH]; intros stored impl acc t C.
  - simpl in C. inversion C; subst. destruct t; auto.
  - destruct impl as [|r impl].
    { simpl in C. inversion C; subst. destruct t; auto. }
    simpl in C |- *.
    destruct (is_lookup o && negb (transparent_answer stored o r)) eqn:B.
    + destruct (alias_answer stored o r); [|discriminate].
      apply IH in C. destruct acc; simpl in C; auto.
    + apply IH in C. destruct acc; auto. destruct C as [C|[C1 C2]]; auto.
      right. split; auto. intros Hl. rewrite (C2 Hl), andb_true_r.
      destruct (is_lookup o); [|reflexivity]. apply negb_false_iff in B. exact B.
Qed.

Theorem trigger_only_zero : forall ops impl, trigger ops impl = None \/ trigger ops impl = Some 0.
Proof.
  intros ops impl. unfold trigger. destruct (classify [] ops impl None) as [t|] eqn:C; [|left; reflexivity].
  apply classify_spec in C. destruct C as [C|[C _]]; auto.
Qed.

Theorem trigger_total : forall p ops impl,
  admitted_all ops (run p init_state ops) impl = true ->
  Nat.leb (List.length ops) (List.length impl) = true ->
  impl_transparent [] ops impl = false -> trigger ops impl <> None.
Proof.
  intros p ops impl HA Hl HF. unfold trigger.
  destruct (admitted_explained p ops impl HA) as [HE _].
  destruct (classify [] ops impl None) as [t|] eqn:C.
  - apply classify_spec in C. destruct C as [C|[_ C]]; [subst t; discriminate|].
    unfold impl_transparent in HF. rewrite (C Hl) in HF. discriminate.
  - exfalso. eapply classify_total; eauto.
Qed.

Lemma narrow_spec : forall stored o r,
  narrow_answer stored o r = true -> alias_before stored o = false ->
  transparent_answer stored o r = true.
Proof.
  intros stored o r H A. unfold narrow_answer, step_clean in H. rewrite A in H. exact H.
Qed.

(* one content per file id: nothing stale can be returned *)
Lemma single_content : forall stored o f d r,
  op_fid o = Some f -> (forall x, In (f, x) stored -> x = d) ->
  transparent_answer stored o r = true -> r = [] \/ expected o d = Some r.
Proof.
  intros stored o f d r Hf Hs H. unfold transparent_answer in H. rewrite Hf in H.
  destruct r as [|b r']; [left; reflexivity|right]. simpl in H.
  apply existsb_exists in H. destruct H as [[g x] [Hin Hx]]. simpl in Hx.
  apply andb_true_iff in Hx. destruct Hx as [E Hx]. apply fileid_eqb_eq in E. subst g.
  rewrite (Hs x Hin) in Hx. destruct (expected o d) as [y|]; [|discriminate].
  apply bytes_eqb_eq in Hx. congruence.
Qed.

Lemma example_facts :
  let p := {| unit_size := 16; disk_units := 32 |} in
  let a := Fid 3 1 7 in let b := Fid 3 2 8 in let c := Fid 4 3 9 in
  let ops := [Store a [1; 2; 3; 4; 5; 6; 7; 8; 9]; Store b [10; 11; 12; 13; 14; 15; 16; 17; 18; 19];
              Store c [20; 21; 22];
              Restart [(0, true); (1, true)] [(0, true); (1, true); (2, true)] [(0, true); (1, true)];
              Get a 1; Get b 4; Get c 1; GetSlice b 0 3] in
  keys_unique ops = true /\ hist_ok ops = true /\
  run p init_state ops = [[]; []; []; []; [[]]; [[10; 11; 12; 13; 14; 15; 16; 17; 18; 19]]; [[]]; [[10; 11; 12]]].
Proof. vm_compute. repeat split; reflexivity. Qed.

Lemma example_mixed_facts :
  let p := {| unit_size := 16; disk_units := 32 |} in
  let a := Fid 3 1 7 in let b := Fid 3 2 8 in
  let ops := [Store a [1; 2; 3]; Store b [4; 5; 6];
              Restart [(1, true); (0, false)] [(0, false); (1, false); (2, false)] [(0, false); (1, false)];
              Get a 1; Get b 1] in
  hist_ok ops = true /\
  run p init_state ops = [[]; []; []; [[]]; [[4; 5; 6]]].
Proof. vm_compute. repeat split; reflexivity. Qed.

(* NewTieredChunkCache(_, dir, 64, 8): "abcde" and "XYZ" stored under two ids;
   GetChunkSlice("XYZ" id, 2^64-1, 2) and, after a restart, GetChunkSlice(id, 2^64-4, 6) miss
   (with and without the memory entry), the plain lookup after them hits *)
Definition w2_params : params := {| unit_size := 8; disk_units := 64 |}.
Definition w2_ops : list op :=
  [Store (Fid 3 1 1668298710) [97; 98; 99; 100; 101];
   Store (Fid 3 2 1668298710) [88; 89; 90];
   GetSlice (Fid 3 2 1668298710) 18446744073709551615 2;
   Restart [(1, false); (0, false)] [(2, false); (1, false); (0, false)] [(1, false); (0, false)];
   GetSlice (Fid 3 2 1668298710) 18446744073709551612 6;
   Get (Fid 3 2 1668298710) 1].

Lemma witness2_facts :
  keys_unique w2_ops = true /\ hist_ok w2_ops = true /\
  run w2_params init_state w2_ops = [[]; []; [[]; []]; []; [[]]; [[88; 89; 90]]] /\
  transparent_from [] w2_ops (run w2_params init_state w2_ops) = true.
Proof. vm_compute. repeat split; reflexivity. Qed.

(* doReset truncates .dat and .idx and removes the leveldb; the reload regenerates
   the map from the emptied .idx: nothing of the old contents is left *)
Lemma reset_seg_spec : forall s,
  reset_seg s = {| sg_id := sg_id s; sg_size := 0; sg_recs := [] |}.
Proof. reflexivity. Qed.

Lemma reset_forgets : forall s k, seg_get (reset_seg s) k = None.
Proof. reflexivity. Qed.

(* the volume a rotation moved to the front answers for the key just written and
   for no other key, whatever it held before (evicted needles are gone for good,
   also after the volume is filled again: [seg_get] only sees records written
   after the reset) *)
Lemma rotation_front_only_new : forall limit front rest key d k,
  (limit <? sg_size front + blen d) = true -> k <> key ->
  match layer_set limit (front :: rest) key d with
  | s :: _ => seg_get s k = None /\ seg_get s key = Some d /\ sg_size s = pad8 (blen d)
  | [] => False
  end.
Proof.
  intros limit front rest key d k Hfull Hk.
  unfold layer_set. rewrite Hfull.
  rewrite reset_seg_spec. unfold write_seg, seg_get. cbn [sg_recs sg_size sg_id seg_find r_key r_valid r_data].
  rewrite N.eqb_refl.
  destruct (key =? k) eqn:E; [apply N.eqb_eq in E; congruence|].
  repeat split.
Qed.

(* a full rotation cycle of the middle tier and beyond.  NewTieredChunkCache(_, dir,
   32, 8): three segments of 32 bytes; ten ids with 9-byte chunks (16 bytes padded,
   two per segment) are stored, every id ever stored is looked up after every store:
   the four evicted ids miss (the reset volumes 0 and 1 have been filled again: the
   offset of id 2 is covered by id 8's needle), the six ids the three segments hold
   hit with their own bytes, and every admitted answer of the history is transparent *)
Definition rot_params : params := {| unit_size := 8; disk_units := 32 |}.
Definition rot_fid (i : nat) : fileid := Fid 3 (N.of_nat i) 2864434397.
Definition rot_data (i : nat) : bytes := repeat (N.of_nat (64 + i)) 9.
Fixpoint rot_ops (n : nat) : list op :=
  match n with
  | O => []
  | S n' => rot_ops n' ++ Store (rot_fid n) (rot_data n) :: map (fun i => Get (rot_fid i) 9) (seq 1 n)
  end.

Lemma rotation_witness_facts :
  keys_unique (rot_ops 10) = true /\ hist_ok (rot_ops 10) = true /\
  transparent_from [] (rot_ops 10) (run rot_params init_state (rot_ops 10)) = true /\
  skipn 55 (run rot_params init_state (rot_ops 10)) =
    [[[]]; [[]]; [[]]; [[]]; [rot_data 5]; [rot_data 6];
     [rot_data 7]; [rot_data 8]; [rot_data 9]; [rot_data 10]].
Proof. vm_compute. repeat split; reflexivity. Qed.
