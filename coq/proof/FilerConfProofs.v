(* Proofs about model/FilerConf.v (C23).
   Per field, "v resolves the field" ([resolves]) is the declarative reading of longest-prefix
   matching.  The model's fold, the reference resolver and the executable oracle are each shown to
   produce or accept exactly the resolving values; over one value per key there is only one, so the
   three agree. *)
From Coq Require Import List NArith Bool String Arith Permutation Sorted.
From SW Require Import model.FilerConf.
Import ListNotations.
Local Open Scope string_scope.
Local Open Scope list_scope.

Lemma prefix_same_length_eq : forall s a b,
  String.prefix a s = true -> String.prefix b s = true ->
  String.length a = String.length b -> a = b.
Proof.
  intros s a b Ha Hb Hl. apply prefix_correct in Ha, Hb.
  rewrite <- Ha, <- Hb, Hl. reflexivity.
Qed.

Lemma str_nonempty_true : forall s, str_nonempty s = true <-> s <> "".
Proof. intros s. unfold str_nonempty. rewrite negb_true_iff. apply String.eqb_neq. Qed.

Lemma str_nonempty_false : forall s, str_nonempty s = false <-> s = "".
Proof. intros s. unfold str_nonempty. rewrite negb_false_iff. apply String.eqb_eq. Qed.

(* well-formed rule sets: one value per key *)
Definition wf (rs : rules) : Prop := NoDup (map fst rs).

Lemma wf_nil : wf [].
Proof. constructor. Qed.

Lemma wf_key_eq : forall rs r1 r2, wf rs -> In r1 rs -> In r2 rs -> fst r1 = fst r2 -> r1 = r2.
Proof.
  unfold wf. induction rs as [|x rs IH]; simpl; intros r1 r2 W I1 I2 E; [tauto|].
  inversion_clear W as [|? ? Hn Hd].
  destruct I1 as [->|I1], I2 as [->|I2]; auto.
  - contradict Hn. rewrite E. apply in_map, I2.
  - contradict Hn. rewrite <- E. apply in_map, I1.
Qed.

(* stored keys are never empty (AddLocationConf("") panics before storing anything) *)
Definition keys_ok (rs : rules) : Prop := forall r, In r rs -> fst r <> "".

Lemma keys_ok_nil : keys_ok [].
Proof. intros r []. Qed.

Lemma remove_key_in : forall p rs r, In r (remove_key p rs) <-> In r rs /\ fst r <> p.
Proof.
  intros p rs r. unfold remove_key. rewrite filter_In, negb_true_iff, String.eqb_neq. reflexivity.
Qed.

Lemma remove_key_notin : forall p rs, ~ In p (map fst (remove_key p rs)).
Proof.
  intros p rs Hin. apply in_map_iff in Hin as [x [Hx Hin]]. apply remove_key_in in Hin. tauto.
Qed.

Lemma remove_key_id : forall p rs, ~ In p (map fst rs) -> remove_key p rs = rs.
Proof.
  intros p rs. induction rs as [|r rs IH]; simpl; intros H; auto.
  destruct (String.eqb_spec (fst r) p); simpl; [tauto|].
  f_equal. apply IH. tauto.
Qed.

Lemma remove_key_wf : forall p rs, wf rs -> wf (remove_key p rs).
Proof.
  unfold wf, remove_key. intros p rs. induction rs as [|r rs IH]; simpl; intros H; [constructor|].
  inversion_clear H as [|? ? Hn Hd].
  destruct (negb (String.eqb (fst r) p)); simpl; auto.
  constructor; auto. contradict Hn. exact (incl_map fst (incl_filter _ rs) _ Hn).
Qed.

Lemma remove_key_keys_ok : forall p rs, keys_ok rs -> keys_ok (remove_key p rs).
Proof. intros p rs Hk r Hr. apply remove_key_in in Hr. apply Hk. tauto. Qed.

Lemma put_in : forall rs p c r, In r (put rs p c) <-> r = (p, c) \/ (In r rs /\ fst r <> p).
Proof.
  intros rs p c r. unfold put. simpl. rewrite remove_key_in. split; intros [H|H]; auto.
Qed.

Lemma put_wf : forall rs p c, wf rs -> wf (put rs p c).
Proof.
  intros rs p c H. unfold wf, put. simpl.
  constructor; [apply remove_key_notin | apply remove_key_wf, H].
Qed.

Lemma put_keys_ok : forall rs p c, keys_ok rs -> str_nonempty p = true -> keys_ok (put rs p c).
Proof.
  intros rs p c Hk Hp r Hr. apply put_in in Hr as [->|[Hr _]].
  - apply str_nonempty_true, Hp.
  - apply Hk, Hr.
Qed.

Theorem del_spec : forall rs p r, In r (del rs p) <-> In r rs /\ fst r <> p.
Proof. intros. apply remove_key_in. Qed.

Theorem del_put : forall rs p c, del (put rs p c) p = del rs p.
Proof.
  intros. unfold del, put. simpl. rewrite String.eqb_refl. apply remove_key_id, remove_key_notin.
Qed.

Theorem del_put_put : forall rs p c1 c2, del (put (put rs p c1) p c2) p = del rs p.
Proof. intros. rewrite !del_put. reflexivity. Qed.

Theorem del_put_match : forall rs p c path,
  match_rule (del (put rs p c) p) path = match_rule (del rs p) path.
Proof. intros. rewrite del_put. reflexivity. Qed.

Theorem del_put_restores : forall rs p c path, wf rs -> ~ In p (map fst rs) ->
  match_rule (del (put rs p c) p) path = match_rule rs path.
Proof.
  intros rs p c path _ Hn. rewrite del_put. unfold del. rewrite remove_key_id by exact Hn. reflexivity.
Qed.

(* MatchPrefix order: insertion sort by key length *)
Definition shorter (a b : rule) : Prop := String.length (fst a) <= String.length (fst b).

Lemma insert_by_len_perm : forall r l, Permutation (r :: l) (insert_by_len r l).
Proof.
  intros r l. induction l as [|x l IH]; simpl; auto.
  destruct (Nat.leb (String.length (fst r)) (String.length (fst x))); auto.
  rewrite perm_swap. auto.
Qed.

Lemma sort_by_len_perm : forall l, Permutation l (sort_by_len l).
Proof.
  induction l as [|r l IH]; simpl; auto.
  rewrite <- insert_by_len_perm. auto.
Qed.

Lemma insert_by_len_sorted : forall r l,
  StronglySorted shorter l -> StronglySorted shorter (insert_by_len r l).
Proof.
  intros r l H. induction H as [|x l Hs IH Hx]; simpl.
  - repeat constructor.
  - destruct (Nat.leb_spec (String.length (fst r)) (String.length (fst x))) as [Hle|Hlt].
    + repeat constructor; auto.
      eapply Forall_impl; [|exact Hx]. intros y. apply Nat.le_trans, Hle.
    + constructor; auto. eapply Permutation_Forall; [apply insert_by_len_perm|].
      constructor; auto. apply Nat.lt_le_incl, Hlt.
Qed.

Lemma sort_by_len_sorted : forall l, StronglySorted shorter (sort_by_len l).
Proof. induction l; simpl; [constructor|apply insert_by_len_sorted; auto]. Qed.

Lemma matching_in : forall rs path r,
  In r (matching rs path) <-> In r rs /\ String.prefix (fst r) path = true.
Proof. intros. unfold matching. rewrite <- sort_by_len_perm. apply filter_In. Qed.

(* the declarative reading of "longest matching rule that sets the field" *)
Definition is_longest_setting (set : conf -> bool) (rs : rules) (path : string) (r : rule) : Prop :=
  In r rs /\ String.prefix (fst r) path = true /\ set (snd r) = true /\
  forall r', In r' rs -> String.prefix (fst r') path = true -> set (snd r') = true ->
             String.length (fst r') <= String.length (fst r).

Definition none_sets (set : conf -> bool) (rs : rules) (path : string) : Prop :=
  forall r, In r rs -> String.prefix (fst r) path = true -> set (snd r) = false.

(* two prefixes of one path with the same length are the same key *)
Lemma longest_unique : forall set rs path r1 r2, wf rs ->
  is_longest_setting set rs path r1 -> is_longest_setting set rs path r2 -> r1 = r2.
Proof.
  intros set rs path r1 r2 Hwf [I1 [P1 [S1 M1]]] [I2 [P2 [S2 M2]]].
  apply (wf_key_eq rs); auto. apply (prefix_same_length_eq path); auto.
  apply Nat.le_antisymm; auto.
Qed.

Lemma longest_not_none : forall set rs path r,
  is_longest_setting set rs path r -> none_sets set rs path -> False.
Proof. intros set rs path r [I [P [S _]]] N. rewrite (N r I P) in S. discriminate. Qed.

Section Field.
  Context {A : Type} (set : conf -> bool) (get : conf -> A).

  (* v is the value of a longest matching rule that sets the field, or the default when no
     matching rule sets it *)
  Definition resolves (dflt : A) (rs : rules) (path : string) (v : A) : Prop :=
    (exists r, is_longest_setting set rs path r /\ v = get (snd r)) \/
    (none_sets set rs path /\ v = dflt).

  Lemma resolves_unique : forall dflt rs path v v', wf rs ->
    resolves dflt rs path v -> resolves dflt rs path v' -> v = v'.
  Proof.
    intros dflt rs path v v' W [[r [L ->]]|[N ->]] [[r' [L' ->]]|[N' ->]]; auto.
    - rewrite (longest_unique set rs path r r'); auto.
    - destruct (longest_not_none set rs path r L N').
    - destruct (longest_not_none set rs path r' L' N).
  Qed.

  Lemma resolves_ext : forall dflt rs1 rs2 path v,
    (forall x, String.prefix (fst x) path = true -> (In x rs1 <-> In x rs2)) ->
    resolves dflt rs1 path v -> resolves dflt rs2 path v.
  Proof.
    intros dflt rs1 rs2 path v E [[r [[I [P [S M]]] ->]]|[N ->]]; [left; exists r|right];
      repeat split; auto.
    - apply E; auto.
    - intros r' I' P' S'. apply M; auto. apply E; auto.
    - intros r I P. apply N; auto. apply E; auto.
  Qed.

  (* a field whose merge is "b's value if b sets it" *)
  Definition fieldwise : Prop := forall a b, get (merge a b) = if set b then get b else get a.

  (* folding merge over matching rules sorted by length: the last setter wins, and it is a
     longest one *)
  Lemma fold_merge_resolves : forall path l, fieldwise ->
    StronglySorted shorter l -> (forall r, In r l -> String.prefix (fst r) path = true) ->
    forall a, resolves (get a) l path (get (fold_left merge (map snd l) a)).
  Proof.
    intros path l Hm Hs. induction Hs as [|x l Hs IH Hx]; intros Hp a; simpl.
    - right. split; [intros r []|reflexivity].
    - rewrite Forall_forall in Hx.
      destruct (IH (fun r H => Hp r (or_intror H)) (merge a (snd x))) as [[r [[I [P [S M]]] G]]|[N G]].
      + (* a setter later in the list wins; x is no longer than it *)
        left. exists r. split; [|exact G]. repeat split; auto using in_cons.
        intros r' [<-|I'] P' S'; [exact (Hx r I)|auto].
      + (* nothing later sets the field: the value is the one merged from x *)
        rewrite Hm in G. destruct (set (snd x)) eqn:Sx.
        * left. exists x. split; [|exact G]. repeat split; auto using in_eq.
          intros r' [<-|I'] P' S'; auto. rewrite (N r' I' P') in S'. discriminate.
        * right. split; [|exact G]. intros r [<-|I] P; auto.
  Qed.

  Lemma match_field_spec : forall rs path,
    fieldwise -> resolves (get empty_conf) rs path (get (match_rule rs path)).
  Proof.
    intros rs path Hm. apply (resolves_ext _ (matching rs path)).
    - intros x Px. rewrite matching_in. tauto.
    - apply fold_merge_resolves; [exact Hm|apply sort_by_len_sorted|].
      intros r Hr. apply matching_in in Hr. tauto.
  Qed.
End Field.

Lemma cands_in : forall set rs path r,
  In r (cands set rs path) <-> In r rs /\ String.prefix (fst r) path = true /\ set (snd r) = true.
Proof. intros. unfold cands. rewrite filter_In, andb_true_iff. reflexivity. Qed.

Lemma longest_cands : forall set rs path r,
  is_longest_setting set rs path r <->
  In r (cands set rs path) /\
  forall r', In r' (cands set rs path) -> String.length (fst r') <= String.length (fst r).
Proof.
  intros set rs path r. setoid_rewrite cands_in. unfold is_longest_setting. split.
  - intros [I [P [S M]]]. repeat split; auto. intros r' [I' [P' S']]. auto.
  - intros [[I [P S]] M]. repeat split; auto.
Qed.

Lemma none_cands : forall set rs path,
  none_sets set rs path <-> forall r, ~ In r (cands set rs path).
Proof.
  intros set rs path. setoid_rewrite cands_in. split; intros N r.
  - intros [I [P S]]. rewrite (N r I P) in S. discriminate.
  - intros I P. apply not_true_is_false. intros S. apply (N r). auto.
Qed.

(* the step of the reference resolver [best]: keep the first longest candidate seen so far *)
Definition keep_longer (acc : option rule) (r : rule) : option rule :=
  match acc with
  | None => Some r
  | Some b => if Nat.ltb (String.length (fst b)) (String.length (fst r)) then Some r else acc
  end.

Lemma best_cands : forall set rs path, best set rs path = fold_left keep_longer (cands set rs path) None.
Proof.
  intros set rs path. unfold best, cands, rule. generalize (@None (string * conf)).
  induction rs as [|x rs IH]; intros acc; simpl; auto.
  destruct (String.prefix (fst x) path && set (snd x)); simpl; apply IH.
Qed.

Lemma fold_keep_longer : forall l,
  match fold_left keep_longer l None with
  | Some r => In r l /\ forall b, In b l -> String.length (fst b) <= String.length (fst r)
  | None => l = []
  end.
Proof.
  induction l as [|x l IH] using rev_ind; simpl; auto.
  rewrite fold_left_app. simpl. destruct (fold_left keep_longer l None) as [m|]; simpl.
  - destruct IH as [Im Hm].
    destruct (Nat.ltb_spec (String.length (fst m)) (String.length (fst x))) as [Hlt|Hle];
      (split; [apply in_or_app; simpl; auto|]);
      intros b Hb; apply in_app_or in Hb as [Hb|[<-|[]]]; auto.
    apply Nat.le_trans with (String.length (fst m)); auto using Nat.lt_le_incl.
  - subst l. simpl. split; auto. intros b [<-|[]]. auto.
Qed.

Lemma best_spec : forall set rs path,
  match best set rs path with
  | Some r => is_longest_setting set rs path r
  | None => none_sets set rs path
  end.
Proof.
  intros set rs path. rewrite best_cands.
  pose proof (fold_keep_longer (cands set rs path)) as H.
  destruct (fold_left keep_longer (cands set rs path) None); [apply longest_cands, H|].
  apply none_cands. rewrite H. auto.
Qed.

Lemma ref_field_spec : forall {A} set (get : conf -> A) dflt rs path,
  resolves set get dflt rs path (ref_field set get dflt rs path).
Proof.
  intros A set get dflt rs path. unfold ref_field. pose proof (best_spec set rs path) as H.
  destruct (best set rs path) as [r|]; [left; exists r|right]; auto.
Qed.

Theorem field_ok_spec : forall {A} (eqb : A -> A -> bool) set (get : conf -> A) dflt rs path v,
  (forall x y, eqb x y = true <-> x = y) ->
  (field_ok eqb set get dflt rs path v = true <-> resolves set get dflt rs path v).
Proof.
  intros A eqb set get dflt rs path v Heq. unfold field_ok, resolves.
  rewrite none_cands. setoid_rewrite longest_cands.
  destruct (cands set rs path) as [|c cs].
  - rewrite Heq. split; [auto|]. intros [[r [[[] _] _]]|[_ H]]. exact H.
  - rewrite existsb_exists. split.
    + intros [r [I H]]. apply andb_true_iff in H as [Hv M]. rewrite forallb_forall in M.
      left. exists r. split; [split; [exact I|]|apply Heq, Hv].
      intros r' I'. apply Nat.leb_le, M, I'.
    + intros [[r [[I M] ->]]|[E _]]; [|destruct (E c); left; auto].
      exists r. split; [exact I|]. apply andb_true_iff. split; [apply Heq; reflexivity|].
      apply forallb_forall. intros r' I'. apply Nat.leb_le, M, I'.
Qed.

(* all seven fields of the real record are such fields *)
Lemma merge_fieldwise :
  fieldwise set_collection collection /\ fieldwise set_replication replication /\
  fieldwise set_ttl ttl /\ fieldwise set_disk_type disk_type /\ fieldwise set_fsync fsync /\
  fieldwise set_growth growth /\ fieldwise set_read_only read_only.
Proof.
  (* all but fsync hold by computation (merge is literally the if); fsync: b || a = if b then b else a *)
  repeat split. intros a b. unfold set_fsync. simpl. destruct (fsync b); reflexivity.
Qed.

(* c is a right answer for path over rs: each field resolves *)
Definition is_answer (rs : rules) (path : string) (c : conf) : Prop :=
  resolves set_collection collection "" rs path (collection c) /\
  resolves set_replication replication "" rs path (replication c) /\
  resolves set_ttl ttl "" rs path (ttl c) /\
  resolves set_disk_type disk_type "" rs path (disk_type c) /\
  resolves set_fsync fsync false rs path (fsync c) /\
  resolves set_growth growth 0%N rs path (growth c) /\
  resolves set_read_only read_only false rs path (read_only c).

Lemma answer_unique : forall rs path c d, wf rs ->
  is_answer rs path c -> is_answer rs path d -> c = d.
Proof.
  intros rs path [] [] W (H1 & H2 & H3 & H4 & H5 & H6 & H7) (K1 & K2 & K3 & K4 & K5 & K6 & K7).
  simpl in *. f_equal; eapply resolves_unique; eassumption.
Qed.

Lemma answer_ext : forall rs1 rs2 path c, (forall x, In x rs1 <-> In x rs2) ->
  is_answer rs1 path c -> is_answer rs2 path c.
Proof.
  intros rs1 rs2 path c E (H1 & H2 & H3 & H4 & H5 & H6 & H7).
  repeat split; eapply resolves_ext; eauto.
Qed.

Lemma match_is_answer : forall rs path, is_answer rs path (match_rule rs path).
Proof.
  intros rs path. destruct merge_fieldwise as (H1 & H2 & H3 & H4 & H5 & H6 & H7).
  repeat split; apply match_field_spec; assumption.
Qed.

Lemma ref_is_answer : forall rs path, is_answer rs path (ref_match rs path).
Proof. intros rs path. repeat split; apply ref_field_spec. Qed.

Lemma andb_iff : forall b1 b2 P Q,
  (b1 = true <-> P) -> (b2 = true <-> Q) -> (b1 && b2 = true <-> P /\ Q).
Proof. intros b1 b2 P Q H1 H2. rewrite andb_true_iff, H1, H2. reflexivity. Qed.

Lemma match_ok_spec : forall rs path c, match_ok rs path c = true <-> is_answer rs path c.
Proof.
  intros rs path c. unfold match_ok, is_answer. rewrite <- !andb_assoc.
  repeat apply andb_iff; apply field_ok_spec; auto using String.eqb_eq, N.eqb_eq, Bool.eqb_true_iff.
Qed.

Theorem match_rule_is_ref : forall rs path, wf rs -> match_rule rs path = ref_match rs path.
Proof.
  intros rs path W. apply (answer_unique rs path); auto using match_is_answer, ref_is_answer.
Qed.

Theorem match_rule_ext : forall rs1 rs2 path,
  wf rs2 -> (forall x, In x rs1 <-> In x rs2) -> match_rule rs1 path = match_rule rs2 path.
Proof.
  intros rs1 rs2 path W E. apply (answer_unique rs2 path); auto using match_is_answer.
  apply (answer_ext rs1); auto using match_is_answer.
Qed.

Theorem match_ok_iff : forall rs path c, wf rs -> (match_ok rs path c = true <-> c = match_rule rs path).
Proof.
  intros rs path c W. rewrite match_ok_spec. split.
  - intros H. apply (answer_unique rs path); auto using match_is_answer.
  - intros ->. apply match_is_answer.
Qed.

Theorem del_match_ref : forall rs p path, wf rs ->
  match_rule (del rs p) path = ref_match (filter (fun r => negb (String.eqb (fst r) p)) rs) path.
Proof. intros rs p path W. apply (match_rule_is_ref (del rs p)), remove_key_wf, W. Qed.

Theorem unset_is_zero : forall c,
  (set_collection c = false <-> collection c = "") /\
  (set_replication c = false <-> replication c = "") /\
  (set_ttl c = false <-> ttl c = "") /\
  (set_disk_type c = false <-> disk_type c = "") /\
  (set_fsync c = false <-> fsync c = false) /\
  (set_growth c = false <-> growth c = 0%N) /\
  (set_read_only c = false <-> read_only c = false).
Proof.
  intros c.
  assert (G : set_growth c = false <-> growth c = 0%N).
  { unfold set_growth. rewrite N.ltb_ge. apply N.le_0_r. }
  (* the four strings, fsync (the test is the field), growth, read_only (likewise) *)
  exact (conj (str_nonempty_false _) (conj (str_nonempty_false _) (conj (str_nonempty_false _)
        (conj (str_nonempty_false _) (conj (iff_refl _) (conj G (iff_refl _))))))).
Qed.

(* a longer rule cannot clear fsync / read_only / growth set by a shorter one *)
Theorem merge_cannot_clear : forall a b,
  (fsync a = true -> fsync (merge a b) = true) /\
  (read_only a = true -> read_only (merge a b) = true) /\
  (growth b = 0%N -> growth (merge a b) = growth a).
Proof.
  intros a b. simpl. repeat split; intros H; rewrite H.
  - apply orb_true_r.
  - destruct (read_only b); reflexivity.
  - reflexivity.
Qed.

(* ToProto order is a permutation of the stored rules *)
Lemma insert_by_key_perm : forall r l, Permutation (r :: l) (insert_by_key r l).
Proof.
  intros r l. induction l as [|x l IH]; simpl; auto.
  destruct (String.leb (fst r) (fst x)); auto.
  rewrite perm_swap. auto.
Qed.

Lemma dump_perm : forall rs, Permutation rs (dump rs).
Proof.
  induction rs as [|r rs IH]; simpl; auto.
  rewrite <- insert_by_key_perm. auto.
Qed.

Theorem dump_in : forall rs r, In r (dump rs) <-> In r rs.
Proof. intros rs r. rewrite <- dump_perm. reflexivity. Qed.

Lemma dump_wf : forall rs, wf rs -> wf (dump rs).
Proof. unfold wf. intros rs H. rewrite <- dump_perm. exact H. Qed.

Lemma dump_keys_ok : forall rs, keys_ok rs -> keys_ok (dump rs).
Proof. intros rs H r Hr. apply H, dump_in, Hr. Qed.

(* doLoadConf without an empty prefix is a fold of AddLocationConf and returns normally *)
Lemma load_partial : forall rs l, existsb (fun r => negb (str_nonempty (fst r))) l = false ->
  load rs l = (fold_left (fun acc r => put acc (fst r) (snd r)) l rs, ODone).
Proof.
  intros rs l. revert rs. induction l as [|x l IH]; intros rs H; simpl in *; auto.
  apply orb_false_iff in H as [H1 H2]. apply negb_false_iff in H1. rewrite H1. apply IH, H2.
Qed.

Lemma keys_ok_no_empty : forall l,
  keys_ok l -> existsb (fun r => negb (str_nonempty (fst r))) l = false.
Proof.
  intros l K. apply not_true_is_false. intros E.
  apply existsb_exists in E as [r [I E]]. apply negb_true_iff, str_nonempty_false in E.
  exact (K r I E).
Qed.

Lemma fold_put_in : forall l rs r, wf l ->
  (In r (fold_left (fun acc r => put acc (fst r) (snd r)) l rs) <->
   In r l \/ (In r rs /\ ~ In (fst r) (map fst l))).
Proof.
  unfold wf. induction l as [|[p c] l IH]; intros rs r W; simpl; [tauto|].
  inversion_clear W as [|? ? Hn Hd]. rewrite IH, put_in by exact Hd. split.
  - intros [H|[[H|[H1 H2]] H3]]; [auto|auto|]. right. split; [exact H1|]. intros [E|E]; auto.
  - intros [[<-|H]|[H1 H2]]; [auto|auto|].
    right. split; [right; split; [exact H1|]|]; intros E; apply H2; auto.
Qed.

(* an invariant of the empty rule set, of put (of a non-empty prefix) and of del holds of
   every reachable rule set *)
Lemma step_preserves : forall P : rules -> Prop,
  P [] -> (forall rs p c, P rs -> str_nonempty p = true -> P (put rs p c)) ->
  (forall rs p, P rs -> P (del rs p)) ->
  forall m rs o, P rs -> P (fst (step_with m rs o)).
Proof.
  intros P Hnil Hput Hdel.
  assert (Hload : forall l rs, P rs -> P (fst (load rs l))).
  { induction l as [|r l IH]; intros rs H; simpl; auto.
    destruct (str_nonempty (fst r)) eqn:E; simpl; auto. }
  intros m rs [p c|p|path|l| | |] H; simpl; auto.
  destruct (str_nonempty p) eqn:E; simpl; auto.
Qed.

Lemma step_wf : forall m rs o, wf rs -> wf (fst (step_with m rs o)).
Proof.
  apply step_preserves; auto using wf_nil, put_wf. intros rs p. apply remove_key_wf.
Qed.

Lemma step_keys_ok : forall m rs o, keys_ok rs -> keys_ok (fst (step_with m rs o)).
Proof.
  apply step_preserves; auto using keys_ok_nil, put_keys_ok. intros rs p. apply remove_key_keys_ok.
Qed.

Lemma step_with_eq : forall rs o, wf rs -> step_with match_rule rs o = step_with ref_match rs o.
Proof. intros rs [p c|p|path|l| | |] H; simpl; auto. rewrite match_rule_is_ref by auto. reflexivity. Qed.

Lemma run_with_cons : forall m rs o ops,
  run_with m rs (o :: ops) = snd (step_with m rs o) :: run_with m (fst (step_with m rs o)) ops.
Proof. intros. simpl. destruct (step_with m rs o). reflexivity. Qed.

Theorem run_is_ref_run : forall ops rs, wf rs -> run rs ops = ref_run rs ops.
Proof.
  unfold run, ref_run. induction ops as [|o ops IH]; intros rs W; auto.
  rewrite !run_with_cons, step_with_eq by exact W. f_equal. apply IH, step_wf, W.
Qed.

(* ToText + LoadFromBytes into a fresh FilerConf changes no answer *)
Theorem reload_same : forall m rs, wf rs -> keys_ok rs ->
  snd (step_with m rs Reload) = ODone /\
  forall path, match_rule (fst (step_with m rs Reload)) path = match_rule rs path.
Proof.
  intros m rs W K. simpl. rewrite load_partial by apply keys_ok_no_empty, dump_keys_ok, K.
  split; auto. intros path. apply match_rule_ext; auto.
  intros x. simpl. rewrite fold_put_in by apply dump_wf, W. rewrite dump_in. simpl. tauto.
Qed.

(* finding 0: an empty location prefix panics *)
Theorem no_panic_refuted : exists ops, In OPanic (run [] ops).
Proof. exists [Add "" empty_conf]. left. reflexivity. Qed.

Lemma step_no_panic : forall m rs o, keys_ok rs -> op_empty_prefix o = false ->
  snd (step_with m rs o) <> OPanic.
Proof.
  intros m rs [p c|p|path|l| | |] K H; simpl in *; try discriminate.
  - apply negb_false_iff in H. rewrite H. discriminate.
  - rewrite load_partial by exact H. discriminate.
  - rewrite load_partial by apply keys_ok_no_empty, dump_keys_ok, K. discriminate.
Qed.

Theorem no_panic_partial : forall m ops rs, wf rs -> keys_ok rs ->
  existsb op_empty_prefix ops = false -> ~ In OPanic (run_with m rs ops).
Proof.
  intros m ops rs _. revert rs. induction ops as [|o ops IH]; intros rs K H; [intros []|].
  simpl in H. apply orb_false_iff in H as [H1 H2]. rewrite run_with_cons. intros [E|E].
  - exact (step_no_panic m rs o K H1 E).
  - exact (IH _ (step_keys_ok m rs o K) H2 E).
Qed.

Theorem add_partial : forall m rs p c, op_empty_prefix (Add p c) = false ->
  step_with m rs (Add p c) = (put rs p c, ODone).
Proof. intros m rs p c H. simpl in *. apply negb_false_iff in H. rewrite H. reflexivity. Qed.

(* non-vacuity: /a and /a/b nested, /ab a sibling whose key is a string prefix of no path below /a/ *)
Definition ex_a : conf := {| collection := "x"; replication := ""; ttl := "1d"; disk_type := "hdd";
                             fsync := false; growth := 0; read_only := false |}.
Definition ex_ab : conf := {| collection := ""; replication := "001"; ttl := "2d"; disk_type := "ssd";
                              fsync := true; growth := 2; read_only := false |}.
Definition ex_rules : rules := put (put (put [] "/a" ex_a) "/a/b" ex_ab) "/ab" empty_conf.

Lemma example_holds :
  wf ex_rules /\ keys_ok ex_rules /\
  match_rule ex_rules "/a/b/c" =
    {| collection := "x"; replication := "001"; ttl := "2d"; disk_type := "ssd";
       fsync := true; growth := 2; read_only := false |} /\
  match_ok ex_rules "/a/b/c" (match_rule ex_rules "/a/b/c") = true /\
  match_rule (del ex_rules "/a/b") "/a/b/c" = ex_a /\
  existsb op_empty_prefix [Add "/a" ex_a; Load [("/a/b", ex_ab)]; Reload; Match "/a/b/c"; Dump] = false.
Proof.
  split; [repeat apply put_wf; apply wf_nil|].
  split; [repeat apply put_keys_ok; try apply keys_ok_nil; reflexivity|].
  vm_compute. repeat split.
Qed.
