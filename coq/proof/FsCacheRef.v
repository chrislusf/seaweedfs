(* Proofs about the placeholder-aware reference of model/FsCache.v (C39):
   the cache tree refines it for ALL valid histories, lookups and FsNode
   existence; the model-independent trigger [ptrigger] is the tree trigger;
   a ghost move always shows. *)
From Coq Require Import String List NArith Bool Arith Lia.
From SW Require Import model.FsCache proof.FsCacheProofs.
Import ListNotations.
Local Open Scope string_scope.
Local Open Scope list_scope.

Lemma has_nil : forall t, has t [] = true.
Proof. reflexivity. Qed.

Lemma has_cons : forall t n q,
  has t (n :: q) = match find_child n (children t) with Some c => has c q | None => false end.
Proof. exact (look_cons (fun _ => true) false). Qed.

Lemma has_empty_cons : forall n q, has empty_node (n :: q) = false.
Proof. reflexivity. Qed.

Lemma has_child_or_empty_cons : forall t n m q,
  has (child_or_empty n t) (m :: q) = has t (n :: m :: q).
Proof.
  intros. rewrite (has_cons t n). unfold child_or_empty.
  destruct (find_child n (children t)); reflexivity.
Qed.

Lemma is_prefix_nil_r : forall q, is_prefix q [] = match q with [] => true | _ => false end.
Proof. intros [|n q]; reflexivity. Qed.

Lemma has_set : forall p t v q, has (set t p v) q = is_prefix q p || has t q.
Proof.
  induction p as [|n p IH]; intros t v q.
  - destruct q as [|m q]; [reflexivity|]. simpl. rewrite !has_cons. reflexivity.
  - destruct q as [|m q]; [reflexivity|].
    cbn [set]. rewrite !has_cons. cbn [children is_prefix].
    destruct (String.eqb m n) eqn:E; cbn [andb].
    + apply String.eqb_eq in E. subst m. rewrite find_put_same, IH.
      destruct q as [|x q]; [reflexivity|].
      rewrite has_child_or_empty_cons, has_cons. reflexivity.
    + rewrite find_put_other by auto. reflexivity.
Qed.

Lemma has_remove_at : forall p t q, p <> [] ->
  has (remove_at t p) q = if is_prefix p q then false else has t q.
Proof. exact (look_remove_at (fun _ => true) false). Qed.

Lemma has_delete : forall p t q, q <> [] ->
  has (delete t p) q = if is_prefix p q then false else has t q.
Proof.
  intros [|n p] t q Hq.
  - destruct q; [contradiction|]. reflexivity.
  - apply has_remove_at. discriminate.
Qed.

Lemma has_graft : forall p t s q, p <> [] ->
  has (graft t p s) q = if is_prefix p q then has s (skipn (length p) q) else has t q || is_prefix q p.
Proof.
  induction p as [|n p IH]; intros t s q Hne; [contradiction|].
  destruct p as [|x p'].
  - cbn [graft]. destruct q as [|m q]; [reflexivity|].
    rewrite !has_cons. cbn [children is_prefix length skipn].
    destruct (String.eqb n m) eqn:E; cbn [andb].
    + apply String.eqb_eq in E. subst m. rewrite find_put_same. reflexivity.
    + rewrite find_put_other by (rewrite String.eqb_sym; auto).
      rewrite String.eqb_sym, E. cbn [andb]. rewrite orb_false_r. reflexivity.
  - change (graft t (n :: x :: p') s) with
      (Node (value t) (put_child n (graft (child_or_empty n t) (x :: p') s) (children t))).
    destruct q as [|m q]; [reflexivity|].
    rewrite !has_cons. cbn [children]. cbn [is_prefix length skipn].
    destruct (String.eqb n m) eqn:E; cbn [andb].
    + apply String.eqb_eq in E. subst m. rewrite find_put_same.
      rewrite IH by discriminate. rewrite String.eqb_refl. cbn [andb].
      destruct q as [|y q]; [cbn [is_prefix]; rewrite !orb_true_r; reflexivity|].
      rewrite has_child_or_empty_cons, has_cons. reflexivity.
    + rewrite find_put_other by (rewrite String.eqb_sym; auto).
      rewrite String.eqb_sym, E. cbn [andb]. rewrite orb_false_r. reflexivity.
Qed.

Lemma has_node_at : forall t p s r, node_at t p = Some s -> has s r = has t (p ++ r).
Proof. intros t p s r H. unfold has. rewrite node_at_app, H. reflexivity. Qed.

Lemma has_move_found : forall t old new src q, old <> [] -> new <> [] ->
  node_at t old = Some src ->
  has (fst (move t old new)) q =
    if is_prefix new q then has t (old ++ skipn (length new) q)
    else (if is_prefix old q then false else has t q) || is_prefix q new.
Proof.
  intros t old new src q Ho Hn Hs. unfold move. rewrite Hs. simpl.
  rewrite has_graft by auto. rewrite has_remove_at by auto.
  rewrite (has_node_at _ _ _ _ Hs). reflexivity.
Qed.

Lemma d_mem_app : forall a b q, d_mem (a ++ b) q = d_mem a q || d_mem b q.
Proof. intros. unfold d_mem. apply existsb_app. Qed.

Lemma d_mem_filter : forall (f : path -> bool) d q, d_mem (filter f d) q = f q && d_mem d q.
Proof.
  intros f d q. unfold d_mem. induction d as [|e d IH]; simpl.
  - rewrite andb_false_r. reflexivity.
  - destruct (f e) eqn:Fe; simpl; rewrite IH.
    + destruct (path_eqb q e) eqn:E; simpl.
      * apply path_eqb_eq in E. subst e. rewrite Fe. reflexivity.
      * reflexivity.
    + destruct (path_eqb q e) eqn:E; simpl; auto.
      apply path_eqb_eq in E. subst e. rewrite Fe. reflexivity.
Qed.

Lemma d_mem_map_cons : forall n d m q,
  d_mem (map (cons n) d) (m :: q) = String.eqb m n && d_mem d q.
Proof.
  intros n d m q. unfold d_mem. induction d as [|e d IH]; cbn [map existsb].
  - rewrite andb_false_r. reflexivity.
  - rewrite IH. cbn [path_eqb]. destruct (String.eqb m n); reflexivity.
Qed.

Lemma d_mem_map_cons_nil : forall n d, d_mem (map (cons n) d) [] = false.
Proof. intros n d. unfold d_mem. induction d; simpl; auto. Qed.

Lemma d_mem_prefixes : forall p q, d_mem (prefixes p) q = is_prefix q p.
Proof.
  induction p as [|n p IH]; intros q.
  - destruct q; reflexivity.
  - destruct q as [|m q]; [reflexivity|].
    change (prefixes (n :: p)) with ([] :: map (cons n) (prefixes p)).
    change (d_mem ([] :: map (cons n) (prefixes p)) (m :: q))
      with (false || d_mem (map (cons n) (prefixes p)) (m :: q)).
    rewrite d_mem_map_cons, IH. reflexivity.
Qed.

(* a set of directories is a value map whose values do not matter *)
Lemma d_mem_as_get : forall d q,
  d_mem d q = match r_get (map (fun p => (p, 0%N)) d) q with Some _ => true | None => false end.
Proof.
  intros d q. unfold d_mem. induction d as [|e d IH]; simpl; [reflexivity|].
  rewrite IH. destruct (path_eqb q e); reflexivity.
Qed.

Lemma d_mem_rekeyed : forall d old new q,
  d_mem (map (rekey_path old new) (filter (is_prefix old) d)) q =
    is_prefix new q && d_mem d (old ++ skipn (length new) q).
Proof.
  intros d old new q. rewrite !d_mem_as_get.
  replace (map (fun p => (p, 0%N)) (map (rekey_path old new) (filter (is_prefix old) d)))
    with (map (rekey old new) (filter (fun e => is_prefix old (fst e)) (map (fun p => (p, 0%N)) d))).
  - rewrite r_get_rekeyed. now destruct (is_prefix new q).
  - induction d as [|e d IH]; simpl; [reflexivity|].
    destruct (is_prefix old e); simpl; now rewrite IH.
Qed.

Lemma is_prefix_antisym_skip : forall new q, is_prefix new q = true -> is_prefix q new = true ->
  skipn (length new) q = [].
Proof.
  induction new as [|x new IH]; intros [|y q] H1 H2; simpl in *; try discriminate; auto.
  apply andb_true_iff in H1. apply andb_true_iff in H2. apply IH; tauto.
Qed.

Definition pagree (t : tree) (s : pstate) : Prop :=
  (forall q, get t q = p_get s q) /\ (forall q, has t q = p_has s q).

Lemma p_init_agree : forall root, pagree (init root) (p_init root).
Proof.
  intros root. split; intro q.
  - apply init_agree.
  - destruct q as [|n q]; [reflexivity|]. unfold init, has, p_has, p_init, d_mem. simpl.
    reflexivity.
Qed.

Lemma snd_let_move : forall (A : Type) (x : A * bool),
  snd (let '(t', moved) := x in (t', {| r_node := None; r_flag := moved |})) =
    {| r_node := None; r_flag := snd x |}.
Proof. intros A [? ?]. reflexivity. Qed.

Lemma p_set_agree : forall t s p v, pagree t s -> pagree (set t p v) (p_set s p v).
Proof.
  intros t s p v [Ag Ah]. split; intro q.
  - unfold p_get, p_set. cbn [p_vals]. rewrite get_set, r_get_set. rewrite Ag. reflexivity.
  - rewrite has_set. destruct q as [|n q]; [reflexivity|].
    unfold p_has, p_set. cbn [p_dirs]. rewrite d_mem_app, d_mem_prefixes.
    rewrite Ah. reflexivity.
Qed.

Lemma p_step_agree : forall t s o, pagree t s -> valid_op o = true ->
  pagree (fst (step t o)) (fst (p_step s o)).
Proof.
  intros t s o [Ag Ah] V. destruct o as [p v|p fresh|p|p|old new]; cbn [step p_step].
  - apply p_set_agree. split; assumption.
  - unfold ensure, p_ensure. rewrite <- (Ag p).
    destruct (get t p); cbn [fst]; [split; auto|]. apply p_set_agree. split; assumption.
  - split; auto.
  - cbn [fst]. split; intro q.
    + unfold p_get, p_delete. cbn [p_vals]. rewrite get_delete, r_get_delete, Ag. reflexivity.
    + destruct q as [|n q]; [reflexivity|].
      rewrite has_delete by discriminate.
      unfold p_has, p_delete. cbn [p_dirs]. rewrite d_mem_filter.
      rewrite Ah. destruct (is_prefix p (n :: q)); reflexivity.
  - assert (Ho : old <> []) by (intro; subst; discriminate).
    assert (Hn : new <> []) by (intro; subst; destruct old; discriminate).
    rewrite !fst_let_move.
    pose proof (Ah old) as Hold. unfold has in Hold. unfold p_move.
    destruct (node_at t old) as [src|] eqn:Hs.
    + rewrite <- Hold. cbn [fst]. split; intro q.
      * rewrite (get_move_found t old new src) by auto.
        unfold p_get. cbn [p_vals]. rewrite r_get_move_body. rewrite !Ag. reflexivity.
      * rewrite (has_move_found t old new src) by auto.
        destruct q as [|n q].
        { destruct new; [contradiction|]. cbn [is_prefix]. rewrite orb_true_r. reflexivity. }
        unfold p_has at 1. cbn [p_dirs].
        rewrite !d_mem_app, d_mem_rekeyed, d_mem_prefixes, !d_mem_filter.
        destruct (is_prefix new (n :: q)) eqn:Pn; cbn [andb negb orb].
        -- rewrite orb_false_r.
           rewrite Ah.
           destruct (is_prefix (n :: q) new) eqn:Pq.
           ++ rewrite (is_prefix_antisym_skip _ _ Pn Pq), app_nil_r.
              rewrite <- Ah. unfold has. rewrite Hs. rewrite orb_true_r. reflexivity.
           ++ rewrite orb_false_r.
              destruct (old ++ skipn (length new) (n :: q)) eqn:Eo.
              { apply app_eq_nil in Eo. destruct Eo; contradiction. }
              reflexivity.
        -- rewrite Ah. unfold p_has.
           destruct (is_prefix old (n :: q)); cbn [negb andb orb];
             destruct (is_prefix (n :: q) new); cbn [orb]; rewrite ?orb_true_r, ?orb_false_r; reflexivity.
    + rewrite move_missing by auto. rewrite <- Hold. cbn [fst]. split; auto.
Qed.

Lemma p_run_agree : forall ops t s, pagree t s -> forallb valid_op ops = true ->
  pagree (run t ops) (p_run s ops).
Proof.
  induction ops as [|o ops IH]; intros t s A V; simpl in *; auto.
  apply andb_true_iff in V. destruct V as [V1 V2].
  apply IH; auto. apply p_step_agree; auto.
Qed.

(* FULL: for every valid history the cache answers every lookup like the
   placeholder-aware reference, and an FsNode exists exactly where it says *)
Theorem refines_placeholder_reference : forall root ops, forallb valid_op ops = true ->
  forall q, get (run (init root) ops) q = p_get (p_run (p_init root) ops) q
         /\ has (run (init root) ops) q = p_has (p_run (p_init root) ops) q.
Proof.
  intros root ops V q.
  destruct (p_run_agree ops _ _ (p_init_agree root) V) as [Ag Ah]. split; auto.
Qed.

(* ... and so is everything an operation hands back, Move's non-nil result included *)
Lemma p_step_ret_agree : forall t s o, pagree t s -> snd (step t o) = snd (p_step s o).
Proof.
  intros t s o [Ag Ah]. destruct o as [p v|p fresh|p|p|old new]; cbn [step p_step]; auto.
  - unfold ensure, p_ensure. rewrite <- (Ag p). destruct (get t p); reflexivity.
  - cbn [snd]. rewrite Ag. reflexivity.
  - rewrite !snd_let_move. f_equal.
    pose proof (Ah old) as Hold. unfold has in Hold. unfold move, p_move.
    rewrite <- Hold. destruct (node_at t old); reflexivity.
Qed.

Theorem placeholder_returns_agree : forall root ops o, forallb valid_op ops = true ->
  snd (step (run (init root) ops) o) = snd (p_step (p_run (p_init root) ops) o).
Proof.
  intros root ops o V. apply p_step_ret_agree. apply p_run_agree; auto using p_init_agree.
Qed.

Lemma ghost_move_is_pghost_move : forall t s m o, pagree t s -> ghost_move t m o = pghost_move s m o.
Proof.
  intros t s m o [_ Ah]. destruct o; simpl; auto. rewrite Ah. reflexivity.
Qed.

Lemma trigger_from_is_ptrigger_from : forall ops t s m, pagree t s -> forallb valid_op ops = true ->
  trigger_from t m ops = ptrigger_from s m ops.
Proof.
  induction ops as [|o ops IH]; intros t s m A V; simpl in *; auto.
  apply andb_true_iff in V. destruct V as [V1 V2].
  rewrite (ghost_move_is_pghost_move t s m o A). f_equal. apply IH; auto. apply p_step_agree; auto.
Qed.

Lemma trigger_is_ptrigger : forall root ops, forallb valid_op ops = true -> trigger root ops = ptrigger root ops.
Proof. intros. apply trigger_from_is_ptrigger_from; auto using p_init_agree. Qed.

(* partial statement against the flat reference, trigger decided on references only *)
Theorem refines_reference_partial_p : forall root ops, forallb valid_op ops = true ->
  ptrigger root ops = false ->
  forall q, get (run (init root) ops) q = r_get (r_run (r_init root) ops) q.
Proof.
  intros root ops V T. apply refines_reference_partial; auto. rewrite trigger_is_ptrigger; auto.
Qed.

Theorem returns_agree_p : forall root ops o, forallb valid_op ops = true ->
  ptrigger root ops = false ->
  let t := run (init root) ops in let m := r_run (r_init root) ops in
  let s := p_run (p_init root) ops in
  match o with
  | Move old _ => p_has s old = r_has m old -> snd (step t o) = snd (r_step m o)
  | _ => snd (step t o) = snd (r_step m o)
  end.
Proof.
  intros root ops o V T t m s.
  pose proof (returns_agree root ops o V) as H. rewrite trigger_is_ptrigger in H by auto.
  specialize (H T). cbv zeta in H. destruct o; auto.
  intro E. apply H. fold t. fold m. rewrite <- E.
  destruct (p_run_agree ops _ _ (p_init_agree root) V) as [_ Ah]. apply Ah.
Qed.

(* the flat reference restarted from what the cache holds *)
Lemma pagree_vals : forall t s, pagree t s -> agree t (p_vals s).
Proof. intros t s [Ag _] q. apply Ag. Qed.

Theorem step_refines_reference_partial : forall root ops o,
  forallb valid_op ops = true -> valid_op o = true ->
  let t := run (init root) ops in let s := p_run (p_init root) ops in
  pghost_here s o = false ->
  forall q, get (fst (step t o)) q = r_get (fst (r_step (p_vals s) o)) q.
Proof.
  intros root ops o V Vo t s G.
  assert (A : pagree t s) by (apply p_run_agree; auto using p_init_agree).
  apply step_agree; auto using pagree_vals.
  rewrite (ghost_move_is_pghost_move t s _ o A). exact G.
Qed.

Lemma r_get_some_has : forall m p q v, r_get m q = Some v -> is_prefix p q = true -> r_has m p = true.
Proof.
  intros m p q v Hg Hp. destruct (r_has m p) eqn:E; auto.
  rewrite (r_has_false_get _ _ _ E Hp) in Hg. discriminate.
Qed.

(* the trigger is exact per step: a ghost move is visible in some lookup right after it *)
Lemma ghost_step_differs : forall t s m o, pagree t s -> agree t m -> valid_op o = true ->
  pghost_move s m o = true ->
  exists q, get (fst (step t o)) q <> r_get (fst (r_step m o)) q.
Proof.
  intros t s m o [Ag Ah] A V G. destruct o as [| | | |old new]; try discriminate.
  assert (Ho : old <> []) by (intro; subst; discriminate).
  assert (Hn : new <> []) by (intro; subst; destruct old; discriminate).
  cbn [pghost_move] in G. apply andb_true_iff in G. destruct G as [G Gn].
  apply andb_true_iff in G. destruct G as [Gh Go]. apply negb_true_iff in Go.
  destruct (r_has_true_get _ _ Gn) as [q [v [Pq Hv]]].
  exists q. cbn [step r_step]. rewrite !fst_let_move.
  rewrite r_move_missing by auto. cbn [fst]. rewrite Hv.
  rewrite <- Ah in Gh. unfold has in Gh.
  destruct (node_at t old) as [src|] eqn:Hs; [|discriminate].
  rewrite (get_move_found t old new src) by auto. rewrite Pq.
  rewrite A. rewrite (r_has_false_get m old) by auto using is_prefix_app. discriminate.
Qed.

Theorem trigger_exact : forall root ops o,
  forallb valid_op ops = true -> valid_op o = true ->
  ptrigger root ops = false ->
  pghost_move (p_run (p_init root) ops) (r_run (r_init root) ops) o = true ->
  exists q, get (run (init root) (ops ++ [o])) q <> r_get (r_run (r_init root) (ops ++ [o])) q.
Proof.
  intros root ops o V Vo T G.
  assert (Hrun : forall l t, run t (l ++ [o]) = fst (step (run t l) o))
    by (induction l; intros; simpl; auto).
  assert (Hrrun : forall l m, r_run m (l ++ [o]) = fst (r_step (r_run m l) o))
    by (induction l; intros; simpl; auto).
  rewrite Hrun, Hrrun.
  eapply ghost_step_differs; eauto.
  - apply p_run_agree; auto using p_init_agree.
  - apply run_agree; auto using init_agree. rewrite trigger_from_is_ptrigger_from with (s := p_init root); auto using p_init_agree.
Qed.

(* the same from any point of any history, against the restarted flat reference *)
Theorem ghost_here_differs : forall root ops o,
  forallb valid_op ops = true -> valid_op o = true ->
  let t := run (init root) ops in let s := p_run (p_init root) ops in
  pghost_here s o = true ->
  exists q, get (fst (step t o)) q <> r_get (fst (r_step (p_vals s) o)) q.
Proof.
  intros root ops o V Vo t s G.
  assert (A : pagree t s) by (apply p_run_agree; auto using p_init_agree).
  eapply ghost_step_differs; eauto using pagree_vals.
Qed.

(* a 3-operation refutation: rename a child out, then rename the now-empty directory *)
Definition witness3 : list op :=
  [Set_ ["a"; "x"] 1%N; Move ["a"; "x"] ["b"]; Move ["a"] ["b"]].

Theorem refines_reference_refuted3 : exists root ops q,
  forallb valid_op ops = true /\
  get (run (init root) ops) q <> r_get (r_run (r_init root) ops) q.
Proof.
  exists None, witness3, ["b"]. split; [reflexivity|]. vm_compute. discriminate.
Qed.

Lemma witness3_trigger : ptrigger None witness3 = true /\ ptrigger None (firstn 2 witness3) = false.
Proof. split; reflexivity. Qed.

Lemma witness4_trigger : ptrigger None witness_ops = true.
Proof. reflexivity. Qed.

Theorem move_relocates_has : forall t old new q, old <> [] -> new <> [] ->
  has t old = true ->
  get (fst (move t old new)) q =
    (if is_prefix new q then get t (old ++ skipn (length new) q)
     else if is_prefix old q then None else get t q)
  /\ has (fst (move t old new)) q =
    (if is_prefix new q then has t (old ++ skipn (length new) q)
     else (if is_prefix old q then false else has t q) || is_prefix q new)
  /\ snd (move t old new) = true.
Proof.
  intros t old new q Ho Hn H. unfold has in H.
  destruct (node_at t old) as [src|] eqn:Hs; [|discriminate].
  split; [apply (get_move_found t old new src); auto|].
  split; [apply (has_move_found t old new src); auto|].
  unfold move. rewrite Hs. reflexivity.
Qed.

Theorem move_missing_has : forall t old new, has t old = false -> move t old new = (t, false).
Proof.
  intros t old new H. apply move_missing. unfold has in H. destruct (node_at t old); auto; discriminate.
Qed.

Theorem delete_removes_dirs : forall p t q, q <> [] ->
  has (delete t p) q = if is_prefix p q then false else has t q.
Proof. exact has_delete. Qed.

Theorem set_creates_dirs : forall p t v q, has (set t p v) q = is_prefix q p || has t q.
Proof. exact has_set. Qed.

Definition example_ops : list op :=
  [Set_ ["a"] 1%N; Set_ ["a"; "x"] 2%N; Set_ ["a"; "x"; "y"] 3%N; Set_ ["b"; "x"] 4%N;
   Move ["a"] ["a"; "x"]; Move ["a"; "x"; "x"] ["b"]; Delete ["a"; "x"; "x"];
   Ensure ["b"; "y"] 5%N; Move ["b"] ["b"]; Move ["nope"] ["b"]].

Lemma example_history :
  forallb valid_op example_ops = true /\ ptrigger (Some 0%N) example_ops = false /\
  map (get (run (init (Some 0%N)) example_ops)) [[]; ["a"]; ["a"; "x"]; ["b"]; ["b"; "y"]; ["b"; "x"]]
    = [Some 0%N; None; Some 1%N; Some 2%N; Some 3%N; None] /\
  map (has (run (init (Some 0%N)) example_ops)) [["a"]; ["a"; "x"]; ["a"; "x"; "x"]; ["c"]]
    = [true; true; false; false] /\
  ptrigger None witness3 = true /\ ptrigger None witness_ops = true /\
  (* a ghost move in the middle of a history, and a non-ghost step after it *)
  (let ops := witness3 ++ [Set_ ["a"; "y"] 7%N] in
   pghost_here (p_run (p_init None) ops) (Move ["a"] ["c"]) = false /\
   pghost_here (p_run (p_init None) ops) (Move ["b"] ["a"; "y"]) = true).
Proof. vm_compute. repeat split; reflexivity. Qed.
