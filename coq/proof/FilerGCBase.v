(* C20, groundwork: membership/disjointness reflection, chunk lists without manifests,
   CompactFileChunks as a partition by file id, the referenced set of a state whose
   names carry no link id.  Then the three generic transitions of a link-free, manifest-free
   state (an entry written at a name, names removed, an entry moved) and what each needs from
   the scheduled chunk ids for "no live chunk deleted" and "all garbage scheduled". *)
From Coq Require Import List NArith ZArith Bool String Arith Lia Permutation.
From SW Require Import proof.ListFacts model.FilerNS proof.FilerNSBase model.Chunks model.HardLink model.FilerGC
  proof.HardLinkBase proof.HardLinkInv proof.HardLinkOps.
Import ListNotations.
Local Open Scope list_scope.

Lemma mem_In : forall x l, mem x l = true <-> In x l.
Proof. exact (existsb_eqb_In N.eqb N.eqb_eq). Qed.

Lemma mem_false : forall x l, mem x l = false <-> ~ In x l.
Proof. intros. rewrite <- mem_In. destruct (mem x l); split; congruence. Qed.

Lemma disjoint_intro : forall a b, (forall x, In x a -> ~ In x b) -> disjoint a b = true.
Proof.
  intros a b H. unfold disjoint. apply forallb_forall. intros x Hx.
  apply negb_true_iff, mem_false. auto.
Qed.

Lemma all_garbage_intro : forall rb ra sched,
  (forall c, In c rb -> In c ra \/ In c sched) -> all_garbage_b rb ra sched = true.
Proof.
  intros rb ra sched H. unfold all_garbage_b. apply forallb_forall. intros c Hc.
  apply orb_true_iff. destruct (H c Hc); [left|right]; now apply mem_In.
Qed.

Lemma has_fid_In : forall cs f, has_fid cs f = true <-> In f (fids cs).
Proof.
  intros cs f. unfold has_fid, fids. rewrite existsb_exists, in_map_iff. split.
  - intros [c [Hin E]]. apply N.eqb_eq in E. eauto.
  - intros [c [E Hin]]. exists c. split; [assumption|]. subst. apply N.eqb_refl.
Qed.

Lemma has_fid_false : forall cs f, has_fid cs f = false <-> ~ In f (fids cs).
Proof. intros. rewrite <- has_fid_In. destruct (has_fid cs f); split; congruence. Qed.

Definition good_chunk (c : chunk) : Prop := c_manifest c = false /\ chunk_ok c = true.
Definition good_list (cs : list chunk) : Prop := Forall good_chunk cs.

Lemma good_not_outside : forall c, good_chunk c -> outside_window 0 max_int64 c = false.
Proof.
  intros c [_ H]. unfold chunk_ok in H. apply andb_true_iff in H. destruct H as [H1 H2].
  apply N.ltb_lt in H1. apply N.ltb_lt in H2.
  unfold outside_window, c_stop. apply N.leb_gt. lia.
Qed.

Lemma resolve_good : forall f ms cs, good_list cs -> resolve (S f) ms 0 max_int64 cs = Some (cs, []).
Proof.
  intros f ms cs H. simpl. induction H as [|c cs Hc Hcs IH]; [reflexivity|].
  simpl. rewrite IH. rewrite (good_not_outside c Hc). destruct Hc as [Hm _]. rewrite Hm. reflexivity.
Qed.

Lemma reach_good : forall ev cs, good_list cs -> reach ev cs = fids cs.
Proof.
  intros. unfold reach, resolve_fuel. rewrite resolve_good by assumption. simpl. apply app_nil_r.
Qed.

Lemma expand_good : forall ev cs, good_list cs -> expand_delete ev cs = fids cs.
Proof.
  intros ev cs H. unfold expand_delete. induction H as [|c cs [Hm _] Hcs IH]; [reflexivity|].
  simpl. rewrite Hm. simpl. now rewrite IH.
Qed.

Lemma good_filter : forall (f : chunk -> bool) cs, good_list cs -> good_list (filter f cs).
Proof.
  intros f cs H. induction H; simpl; [constructor|]. destruct (f x); [constructor|]; assumption.
Qed.

Lemma good_app : forall a b, good_list a -> good_list b -> good_list (a ++ b).
Proof. intros. apply Forall_app. split; assumption. Qed.

Lemma filter_manifest_good : forall cs, good_list cs ->
  filter c_manifest cs = [] /\ filter (fun c => negb (c_manifest c)) cs = cs.
Proof.
  intros cs H. induction H as [|c cs [Hm _] Hcs [IH1 IH2]]; [split; reflexivity|].
  simpl. rewrite Hm. simpl. rewrite IH1, IH2. split; reflexivity.
Qed.

Lemma minus_good : forall ev a b, good_list a -> good_list b ->
  minus_chunks ev a b = Some (do_minus a b).
Proof.
  intros. unfold minus_chunks, resolve_fuel. rewrite !resolve_good by assumption. simpl. now rewrite app_nil_r.
Qed.

Lemma compact_spec : forall fuel ms cs, exists g : N -> bool,
  compact_file_chunks fuel ms cs =
    (filter (fun c => g (c_fid c)) cs, filter (fun c => negb (g (c_fid c))) cs).
Proof.
  intros. unfold compact_file_chunks.
  exists (fun f => existsb (fun v => N.eqb (v_fid v) f)
                     (fst (non_overlapping_visible_intervals fuel ms cs 0 max_int64))).
  apply partition_filter.
Qed.

Lemma In_fids_filter : forall (g : N -> bool) cs f,
  In f (fids (filter (fun c => g (c_fid c)) cs)) <-> In f (fids cs) /\ g f = true.
Proof.
  intros g cs f. unfold fids. rewrite !in_map_iff. split.
  - intros [c [E Hin]]. apply filter_In in Hin. destruct Hin as [Hin Hg]. subst. split; eauto.
  - intros [[c [E Hin]] Hg]. exists c. split; [assumption|]. apply filter_In. subst. auto.
Qed.

(* cleanupChunks for a manifest-free list: (kept, garbage) with kept/covered a partition of the
   list by file id *)
Lemma cleanup_good : forall ev old cs, good_list cs ->
  (forall o, old = Some o -> good_list (h_chunks o)) ->
  exists g : N -> bool,
    cleanup_chunks ev old cs =
      Some (filter (fun c => g (c_fid c)) cs,
            match old with Some o => do_minus (h_chunks o) cs | None => [] end ++
            filter (fun c => negb (g (c_fid c))) cs).
Proof.
  intros ev old cs Hg Hold. unfold cleanup_chunks.
  destruct (filter_manifest_good cs Hg) as [F1 F2]. rewrite F1, F2.
  destruct (compact_spec resolve_fuel (ms ev) cs) as [g Hc]. exists g. rewrite Hc, app_nil_r.
  destruct old as [o|]; [|reflexivity].
  rewrite (minus_good ev (h_chunks o) cs (Hold o eq_refl) Hg). reflexivity.
Qed.

Lemma In_do_minus : forall a b f, In f (fids (do_minus a b)) <-> In f (fids a) /\ ~ In f (fids b).
Proof.
  intros a b f. unfold do_minus. split.
  - intro H. apply in_map_iff in H. destruct H as [c [E Hin]].
    apply filter_In in Hin. destruct Hin as [Hin Hn].
    apply negb_true_iff, has_fid_false in Hn. subst. split; [now apply in_map|assumption].
  - intros [H Hn]. apply in_map_iff in H. destruct H as [c [E Hin]].
    apply in_map_iff. exists c. split; [assumption|]. apply filter_In. split; [assumption|].
    apply negb_true_iff, has_fid_false. now subst.
Qed.

(* a state without hard links and manifests: no name carries a link id, every chunk list is manifest-free with
   sizes and offsets in range, directories have no chunks *)
Record PS (s : st) : Prop := {
  ps_nd : NoDup (map fst (names s));
  ps_plain : forall q e, nfind s q = Some e -> h_hl e = 0%N;
  ps_good : forall q e, nfind s q = Some e -> good_list (h_chunks e);
  ps_dir : forall q e, nfind s q = Some e -> h_dir e = true -> h_chunks e = []
}.

Definition ids (e : hentry) : list N := fids (h_chunks e).
Definition ids_at (s : st) (p : path) : list N := match nfind s p with Some e => ids e | None => [] end.

(* two different names share no chunk id *)
Definition Excl (s : st) : Prop :=
  forall q1 e1 q2 e2, nfind s q1 = Some e1 -> nfind s q2 = Some e2 -> q1 <> q2 ->
    forall c, In c (ids e1) -> ~ In c (ids e2).

Lemma PS_empty : PS empty_st.
Proof. constructor; simpl; try constructor; intros; discriminate. Qed.

Lemma Excl_empty : Excl empty_st.
Proof. intros q1 e1 q2 e2 H. discriminate. Qed.

Lemma refs_spec : forall ev s, PS s ->
  forall c, In c (refs ev s) <-> exists q e, nfind s q = Some e /\ In c (ids e).
Proof.
  intros ev s P c. unfold refs. rewrite in_flat_map. split.
  - intros [[q e] [Hin Hc]]. simpl in Hc.
    pose proof (In_nfind s q e (ps_nd _ P) Hin) as Hf.
    rewrite (view_plain s e (ps_plain _ P q e Hf)) in Hc.
    rewrite (reach_good ev _ (ps_good _ P q e Hf)) in Hc. eauto.
  - intros [q [e [Hf Hc]]]. exists (q, e). split; [now apply nfind_In|]. simpl.
    rewrite (view_plain s e (ps_plain _ P q e Hf)).
    now rewrite (reach_good ev _ (ps_good _ P q e Hf)).
Qed.

Lemma reach_at_ps : forall ev s p, PS s -> reach_at ev s p = ids_at s p.
Proof.
  intros ev s p P. unfold reach_at, ids_at, w_find. destruct (nfind s p) as [e|] eqn:E; [|reflexivity].
  rewrite (view_plain s e (ps_plain _ P p e E)). apply reach_good. apply (ps_good _ P p e E).
Qed.

Lemma find_entry_ps : forall ev s p, PS s -> p <> [] -> find_entry ev s p = nfind s p.
Proof.
  intros ev s p P Hp. rewrite find_entry_nonroot by assumption. unfold w_find.
  destruct (nfind s p) as [e|] eqn:E; [|reflexivity]. now rewrite (view_plain s e (ps_plain _ P p e E)).
Qed.


(* the outcome of one operation: the new state is again link-free with exclusive chunk ownership,
   nothing scheduled is referenced afterwards, and (if the operation asked for the data to go)
   everything that stopped being referenced is scheduled *)
Record Outcome_ok (ev : env) (s s' : st) (sched : list N) (req : bool) : Prop := {
  g_ps : PS s';
  g_excl : Excl s';
  g_live : forall c, In c sched -> ~ In c (refs ev s');
  g_garb : req = true -> forall c, In c (refs ev s) -> In c (refs ev s') \/ In c sched
}.

Lemma outcome_same : forall ev s req, PS s -> Excl s -> Outcome_ok ev s s [] req.
Proof. intros. constructor; auto; intros c []. Qed.

Lemma outcome_prop : forall ev s s' sched req (o : op), Outcome_ok ev s s' sched req ->
  requests_deletion ev s o = req ->
  step_prop ev s o (refs ev s) (refs ev s') sched = true.
Proof.
  intros ev s s' sched req o G Hr. unfold step_prop. apply andb_true_iff. split.
  - unfold no_live_b. apply disjoint_intro. apply (g_live _ _ _ _ _ G).
  - rewrite Hr. destruct req; [|reflexivity]. apply all_garbage_intro. apply (g_garb _ _ _ _ _ G eq_refl).
Qed.

Lemma w_insert_plain_names : forall s p e, h_hl e = 0%N ->
  names (w_insert s p e) = aput HardLink.path_eqb (names s) p e.
Proof. intros. unfold w_insert, raw_put. simpl. now rewrite huhl_names. Qed.

Lemma PS_insert : forall s p e, PS s -> h_hl e = 0%N -> good_list (h_chunks e) ->
  (h_dir e = true -> h_chunks e = []) -> PS (w_insert s p e).
Proof.
  intros s p e P He Hg Hd. constructor.
  - rewrite w_insert_plain_names by assumption. apply aput_NoDup; [apply peqb_spec|apply (ps_nd _ P)].
  - intros q e' H. rewrite w_insert_nfind in H. destruct (HardLink.path_eqb p q); [inversion H; now subst|].
    apply (ps_plain _ P q e' H).
  - intros q e' H. rewrite w_insert_nfind in H. destruct (HardLink.path_eqb p q); [inversion H; now subst|].
    apply (ps_good _ P q e' H).
  - intros q e' H. rewrite w_insert_nfind in H. destruct (HardLink.path_eqb p q); [inversion H; now subst|].
    apply (ps_dir _ P q e' H).
Qed.

Lemma base_ok_PS : forall s s0, PS s -> base_ok s s0 -> PS s0.
Proof.
  intros s s0 P [->|[d [t [Hdn ->]]]]; [exact P|].
  apply PS_insert; auto; try (apply Forall_nil); reflexivity.
Qed.

(* E is written at p into s0, which is s plus possibly one implicit directory (base_ok); [sched] must be the ids
   of the old entry at p that E drops, plus possibly ids new to the filer that E does not keep *)
Lemma write_generic : forall ev s s0 p E sched,
  PS s -> Excl s -> base_ok s s0 ->
  h_hl E = 0%N -> good_list (h_chunks E) -> (h_dir E = true -> h_chunks E = []) ->
  (forall c, In c (ids E) -> In c (ids_at s p) \/ ~ In c (refs ev s)) ->
  (forall c, In c sched -> ~ In c (ids E) /\ (In c (ids_at s p) \/ ~ In c (refs ev s))) ->
  (forall c, In c (ids_at s p) -> ~ In c (ids E) -> In c sched) ->
  Outcome_ok ev s (w_insert s0 p E) sched true.
Proof.
  intros ev s s0 p E sched P X B He Hg Hd Hnew Hsound Hcomp.
  (* who owns a chunk in the new state: p with the new entry, or an old name with its old entry *)
  assert (Hown : forall q e c, nfind (w_insert s0 p E) q = Some e -> In c (ids e) ->
            (q = p /\ e = E) \/ (q <> p /\ nfind s q = Some e)).
  { intros q e c H Hc. rewrite w_insert_nfind in H. destruct (peqb_spec p q).
    - subst q. inversion H. auto.
    - right. split; [congruence|]. destruct (base_nfind s s0 q e B H) as [A|[_ [C _]]]; [exact A|].
      unfold ids in Hc. rewrite C in Hc. contradiction. }
  (* a chunk of another old name is neither p's nor new to the filer *)
  assert (Hold : forall q e c, q <> p -> nfind s q = Some e -> In c (ids e) ->
            In c (ids_at s p) \/ ~ In c (refs ev s) -> False).
  { intros q e c Hq H Hc [Ho|Ho].
    - unfold ids_at in Ho. destruct (nfind s p) as [eo|] eqn:Eo; [|contradiction].
      exact (X p eo q e Eo H (not_eq_sym Hq) c Ho Hc).
    - apply Ho. apply (refs_spec ev s P). eauto. }
  pose proof (base_ok_PS s s0 P B) as P0.
  assert (P' : PS (w_insert s0 p E)) by (apply PS_insert; auto).
  constructor.
  - exact P'.
  - intros q1 e1 q2 e2 H1 H2 Hne c Hc1 Hc2.
    destruct (Hown q1 e1 c H1 Hc1) as [[-> ->]|[A1 B1]]; destruct (Hown q2 e2 c H2 Hc2) as [[-> ->]|[A2 B2]].
    + congruence.
    + exact (Hold q2 e2 c A2 B2 Hc2 (Hnew c Hc1)).
    + exact (Hold q1 e1 c A1 B1 Hc1 (Hnew c Hc2)).
    + exact (X q1 e1 q2 e2 B1 B2 Hne c Hc1 Hc2).
  - intros c Hc Hr. apply (refs_spec ev _ P') in Hr. destruct Hr as [q [e [Hq Hce]]].
    destruct (Hsound c Hc) as [Hn Ho].
    destruct (Hown q e c Hq Hce) as [[-> ->]|[A B1]]; [contradiction|exact (Hold q e c A B1 Hce Ho)].
  - intros _ c Hc. apply (refs_spec ev s P) in Hc. destruct Hc as [q [e [Hq Hce]]].
    destruct (peqb_spec p q).
    + subst q. destruct (in_dec N.eq_dec c (ids E)) as [Hi|Hi].
      * left. apply (refs_spec ev _ P'). exists p, E. split; [|assumption].
        rewrite w_insert_nfind. now rewrite path_eqb_refl.
      * right. apply Hcomp; [|assumption]. unfold ids_at. now rewrite Hq.
    + left. apply (refs_spec ev _ P'). exists q, e. split; [|assumption].
      rewrite w_insert_nfind. destruct (peqb_spec p q); [contradiction|].
      apply (base_keeps s s0 q e B Hq).
Qed.

Lemma PS_subset : forall s s', PS s -> NoDup (map fst (names s')) ->
  (forall q e, nfind s' q = Some e -> nfind s q = Some e) -> PS s'.
Proof.
  intros s s' P Hnd Hsub. constructor; auto.
  - intros q e H. apply (ps_plain _ P q e (Hsub q e H)).
  - intros q e H. apply (ps_good _ P q e (Hsub q e H)).
  - intros q e H. apply (ps_dir _ P q e (Hsub q e H)).
Qed.

(* s' holds a part of the names of s with their entries; [sched] must be ids of removed names, and all of them
   when the data is to go *)
Lemma remove_generic : forall ev s s' sched req,
  PS s -> Excl s -> NoDup (map fst (names s')) ->
  (forall q e, nfind s' q = Some e -> nfind s q = Some e) ->
  (forall c, In c sched -> exists q e, nfind s q = Some e /\ nfind s' q = None /\ In c (ids e)) ->
  (req = true -> forall q e c, nfind s q = Some e -> nfind s' q = None -> In c (ids e) -> In c sched) ->
  Outcome_ok ev s s' sched req.
Proof.
  intros ev s s' sched req P X Hnd Hsub Hsound Hcomp.
  pose proof (PS_subset s s' P Hnd Hsub) as P'.
  constructor.
  - exact P'.
  - intros q1 e1 q2 e2 H1 H2. apply (X q1 e1 q2 e2 (Hsub _ _ H1) (Hsub _ _ H2)).
  - intros c Hc Hr. apply (refs_spec ev _ P') in Hr. destruct Hr as [q [e [Hq Hce]]].
    destruct (Hsound c Hc) as [q0 [e0 [H0 [H0' Hc0]]]].
    assert (Hne : q0 <> q) by (intro E; subst; congruence).
    apply (X q0 e0 q e H0 (Hsub _ _ Hq) Hne c Hc0 Hce).
  - intros Hr c Hc. apply (refs_spec ev s P) in Hc. destruct Hc as [q [e [Hq Hce]]].
    destruct (nfind s' q) as [e'|] eqn:E'.
    + left. apply (refs_spec ev _ P'). exists q, e'. split; [assumption|].
      pose proof (Hsub q e' E'). congruence.
    + right. apply (Hcomp Hr q e c Hq E' Hce).
Qed.

(* final state: oldp is gone, newp carries oldp's chunks, the entry that was at newp is replaced and
   its chunks are scheduled, possibly an implicit parent directory has appeared *)
Lemma move_generic : forall ev s s' oldp newp eo E sched,
  PS s -> Excl s -> oldp <> newp -> nfind s oldp = Some eo ->
  PS s' ->
  nfind s' oldp = None -> nfind s' newp = Some E -> ids E = ids eo ->
  (forall q e, q <> oldp -> q <> newp -> nfind s' q = Some e ->
     nfind s q = Some e \/ (nfind s q = None /\ h_chunks e = [])) ->
  (forall q e, q <> oldp -> q <> newp -> nfind s q = Some e -> nfind s' q = Some e) ->
  (forall c, In c sched <-> In c (ids_at s newp)) ->
  Outcome_ok ev s s' sched true.
Proof.
  intros ev s s' oldp newp eo E sched P X Hne Ho P' Hgone Hnew Hids Hback Hfwd Hsched.
  (* who owns a chunk in the new state: newp with the moved entry, or a third name with its old entry *)
  assert (Hown : forall q e c, nfind s' q = Some e -> In c (ids e) ->
            (q = newp /\ e = E) \/ (q <> oldp /\ q <> newp /\ nfind s q = Some e)).
  { intros q e c H Hc. destruct (peqb_spec q newp); [subst; left; split; congruence|].
    destruct (peqb_spec q oldp); [subst; congruence|].
    destruct (Hback q e n0 n H) as [A|[_ A]]; auto. unfold ids in Hc. rewrite A in Hc. contradiction. }
  constructor.
  - exact P'.
  - intros q1 e1 q2 e2 H1 H2 Hn c Hc1 Hc2.
    destruct (Hown q1 e1 c H1 Hc1) as [[-> ->]|[A1 [A1' B1]]];
    destruct (Hown q2 e2 c H2 Hc2) as [[-> ->]|[A2 [A2' B2]]].
    + congruence.
    + rewrite Hids in Hc1. exact (X oldp eo q2 e2 Ho B2 (not_eq_sym A2) c Hc1 Hc2).
    + rewrite Hids in Hc2. exact (X oldp eo q1 e1 Ho B1 (not_eq_sym A1) c Hc2 Hc1).
    + exact (X q1 e1 q2 e2 B1 B2 Hn c Hc1 Hc2).
  - intros c Hc Hr. apply Hsched in Hc. unfold ids_at in Hc.
    destruct (nfind s newp) as [et|] eqn:Et; [|contradiction].
    apply (refs_spec ev _ P') in Hr. destruct Hr as [q [e [Hq Hce]]].
    destruct (Hown q e c Hq Hce) as [[-> ->]|[A [A' B1]]].
    + rewrite Hids in Hce. exact (X oldp eo newp et Ho Et Hne c Hce Hc).
    + exact (X newp et q e Et B1 (not_eq_sym A') c Hc Hce).
  - intros _ c Hc. apply (refs_spec ev s P) in Hc. destruct Hc as [q [e [Hq Hce]]].
    destruct (peqb_spec q oldp).
    + subst q. assert (e = eo) by congruence. subst e. left. apply (refs_spec ev _ P').
      exists newp, E. split; [assumption|]. now rewrite Hids.
    + destruct (peqb_spec q newp).
      * subst q. right. apply Hsched. unfold ids_at. now rewrite Hq.
      * left. apply (refs_spec ev _ P'). exists q, e. split; [|assumption]. now apply Hfwd.
Qed.
