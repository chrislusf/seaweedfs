(* C17: CompactFileChunks on a list that still contains manifest chunks (finding 2),
   and the concrete examples. *)
From Coq Require Import List NArith Bool Arith Lia Permutation.
From Coq Require Import ZifyBool ZifyN ZifyNat.
From SW Require Import proof.ListFacts model.Chunks proof.ChunksProofs proof.ChunksOverlay proof.ChunksRead proof.ChunksStream
  proof.ChunksManifest.
Import ListNotations.
Local Open Scope N_scope.

(* the wrap: chunks [0,2)+[5,7), StreamContent(3, MaxInt64) and a window that
   ends one past MaxInt64 *)
Lemma stream_wrap_example :
  let chunks := [Chunk 1 0 2 1 false; Chunk 2 5 2 2 false] in
  let src := fun f => match f with 1 => [11;12] | 2 => [21;22] | _ => [] end in
  stream_content_w src 1 [] chunks 3 max_int64 = [0;0;21;22] /\
  stream_content_w src 1 [] chunks 6 (max_int64 - 5) = [22] /\
  view_from_chunks_w 1 [] chunks 6 (max_int64 - 3) = [View 2 1 1 6 2].
Proof. vm_compute. repeat split; reflexivity. Qed.

(* finding 2: CompactFileChunks on a list with a manifest chunk throws the manifest (and with it
   everything it lists) into the garbage *)
Theorem compact_manifest_refuted :
  exists ms chunks d m,
    resolve 2 ms 0 max_int64 chunks = Some (d, m) /\ NoDup (map key d) /\
    existsb c_manifest chunks = true /\
    compact_file_chunks 2 ms chunks = ([], chunks) /\
    overlay_src d 0 <> None /\
    (* what the callers do (SeparateManifestChunks first) keeps the manifest *)
    compact_entry 2 ms chunks = (chunks, []).
Proof.
  exists [(60, [Chunk 1 0 4 1 false])], [Chunk 60 0 4 0 true], [Chunk 1 0 4 1 false], [Chunk 60 0 4 0 true].
  split; [vm_compute; reflexivity|]. split; [repeat constructor; simpl; tauto|].
  split; [reflexivity|]. split; [vm_compute; reflexivity|]. split; [vm_compute; discriminate|].
  vm_compute. reflexivity.
Qed.

(* with the manifests separated first (SeparateManifestChunks, what both callers do) nothing that
   is visible is lost, whatever the manifests contribute: a dropped data chunk is covered everywhere by newer kept data chunks *)
Theorem compact_entry_same : forall f ms chunks,
  Forall (fun c => c_stop c <= max_int64) chunks ->
  NoDup (map key (filter (fun c => negb (c_manifest c)) chunks)) ->
  Permutation (fst (compact_entry (S f) ms chunks) ++ snd (compact_entry (S f) ms chunks)) chunks /\
  forall p, overlay_src (filter (fun c => negb (c_manifest c)) (fst (compact_entry (S f) ms chunks))) p =
            overlay_src (filter (fun c => negb (c_manifest c)) chunks) p.
Proof.
  intros f ms chunks Hstop Hn. unfold compact_entry.
  set (data := filter (fun c => negb (c_manifest c)) chunks) in *.
  pose proof (data_filter chunks) as Hd. fold data in Hd.
  assert (Hs : Forall (fun c => c_stop c <= max_int64) data) by (exact (incl_Forall (incl_filter _ chunks) Hstop)).
  destruct (compact_same f ms data Hd Hs Hn) as [P1 P2].
  destruct (compact_file_chunks (S f) ms data) as [keep garb] eqn:E. simpl in *.
  split.
  - rewrite <- app_assoc. eapply Permutation_trans.
    + apply Permutation_app_head. exact P1.
    + apply (filter_perm_partition c_manifest).
  - intros p. rewrite filter_app, filter_all_false, filter_all_true; auto.
    + (* what is kept of the data chunks is data *)
      rewrite Forall_forall in Hd. intros c Hc. rewrite Hd; auto.
      apply (Permutation_in _ P1). apply in_or_app. auto.
    + intros c Hc. apply filter_In in Hc. destruct Hc as [_ Hc]. rewrite Hc. reflexivity.
Qed.

(* chunks [0,2) and [5,7), GET of bytes 0..6: zeros in the hole and after the last chunk *)
Lemma stream_example :
  let chunks := [Chunk 1 0 2 1 false; Chunk 2 5 2 2 false] in
  let src := fun f => match f with 1 => [11;12] | 2 => [21;22] | _ => [] end in
  stream_content src 1 [] chunks 0 7 = [11;12;0;0;0;21;22] /\
  stream_content src 1 [] chunks 3 6 = [0;0;21;22;0;0] /\
  stream_content src 1 [] chunks 0 max_int64 = [11;12;0;0;0;21;22].
Proof. vm_compute. repeat split; reflexivity. Qed.

Lemma nested_example :
  let b := Chunk 2 2 4 3 false in let c := Chunk 3 5 3 2 false in let d0 := Chunk 4 1 2 1 false in
  let a := Chunk 1 0 4 4 false in let z := Chunk 5 12 2 5 false in
  let inner := Chunk 60 2 6 0 true in let outer := Chunk 61 1 7 0 true in
  let ms := [(61, [inner; d0]); (60, [b; c])] in
  let chunks := [outer; a; z] in
  let src := fun f => match f with 1 => [10;11;12;13] | 2 => [20;21;22;23] | 3 => [30;31;32] | 4 => [40;41]
                                 | 5 => [50;51] | _ => [] end in
  resolve 3 ms 0 max_int64 chunks = Some ([b; c; d0; a; z], [outer; inner]) /\
  NoDup (map key [b; c; d0; a; z]) /\
  let r := read_at src (view_from_chunks 3 ms chunks 0 max_int64) 15 (repeat 238 17) 0 in
  rr_buf r = [10;11;12;13;22;23;31;32;0;0;0;0;50;51;0;238;238] /\ rr_n r = 15 /\ rr_eof r = true /\
  fst (compact_file_chunks 1 [] [b; c; d0; a; z]) = [b; c; a; z] /\
  fst (maybe_manifestize 2 100 9 chunks) = [outer; Chunk 100 0 14 9 true].
Proof.
  cbv zeta. split; [vm_compute; reflexivity|]. split.
  - repeat (constructor; [simpl; intuition discriminate|]). constructor.
  - vm_compute. repeat split; reflexivity.
Qed.
