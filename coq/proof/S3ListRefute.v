(* C27: concrete counterexamples (evaluated by vm_compute on the faithful model; every
   one of them is also replayed against the real handlers by harness/cmd/c27). *)
From Coq Require Import List NArith ZArith Bool String Ascii Arith.
From SW Require Import model.S3List.
Import ListNotations.
Local Open Scope string_scope.
Local Open Scope list_scope.

Definition F := File.
Definition Dr := Dir.

(* finding 0: prefix "d/", the client continues from the last key *)
Definition t_k0 : list tree := [Dr "d" [F "a"; F "b"; Dr "e" [F "a"]]].
(* finding 1: a bucket that once had a multipart upload *)
Definition t_k1 : list tree := [Dr ".uploads" [Dr "x" [F "0001.part"]]; F "a"; F "b"; F "da"].
(* finding 2: delimiter listing continued from the last item, a common prefix *)
Definition t_k2 : list tree := [F "a"; Dr "d" [F "a"; F "b"]; F "da"].
(* finding 3: two directory levels *)
Definition t_k3 : list tree := [Dr "d" [Dr "e" [F "a"; F "b"]; F "f"]; F "da"].
(* finding 4: prefix pointing into the multipart area *)
Definition t_k4 : list tree := [Dr ".uploads" [Dr "x" [F "0001.part"]]; F "a"].
(* finding 5: start-after names a directory *)
Definition t_k5 : list tree := [Dr "d" [Dr "e" [F "a"]]; F "da"].

(* marker "d/" with delimiter "/": the keys d/a, d/b are listed although they belong
   to the common prefix d/ *)
Theorem page_unsound_marker_into_subdir :
  wf t_k2 = true /\
  pg_keys (list_objects false t_k2 "" 5 "d/" true) = ["d/a"; "d/b"; "da"] /\
  page_sound_b false t_k2 "" 5 true "" (list_objects false t_k2 "" 5 "d/" true) = false.
Proof. vm_compute. repeat split; reflexivity. Qed.

(* marker "d/e/a" with max-keys 1: two keys on the page *)
Theorem page_unsound_too_many :
  wf t_k3 = true /\
  pg_keys (list_objects false t_k3 "" 1 "d/e/a" false) = ["d/e/b"; "da"] /\
  page_sound_b false t_k3 "" 1 false "" (list_objects false t_k3 "" 1 "d/e/a" false) = false.
Proof. vm_compute. repeat split; reflexivity. Qed.

(* prefix ".uploads/": the parts of an upload in progress are listed *)
Theorem page_unsound_uploads_prefix :
  wf t_k4 = true /\
  pg_keys (list_objects false t_k4 ".uploads/" 1000 "" false) = [".uploads/x/0001.part"] /\
  page_sound_b false t_k4 ".uploads/" 1000 false "" (list_objects false t_k4 ".uploads/" 1000 "" false) = false.
Proof. vm_compute. repeat split; reflexivity. Qed.

Definition all_keys (pages : list page) : list string := flat_map pg_keys pages.
Definition ended (pages : list page) : bool :=
  match rev pages with p :: _ => negb (pg_trunc p) | [] => false end.

(* finding 0: d/b is never listed *)
Theorem paginate_incomplete_lastkey_prefix_dir :
  let pages := paginate 14 false t_k0 "d/" 1 false V1LastKey "" in
  wf t_k0 = true /\ ended pages = true /\ all_keys pages = ["d/a"; "d/e/a"] /\
  spec_keys t_k0 "d/" false "" = ["d/a"; "d/b"; "d/e/a"] /\
  enumerates_b false t_k0 "d/" false "" pages = false.
Proof. vm_compute. repeat split; reflexivity. Qed.

(* finding 1: the first page says "not truncated" although "da" was not listed *)
Theorem paginate_incomplete_zero_yield :
  let pages := paginate 14 false t_k1 "" 2 false V2Token "" in
  wf t_k1 = true /\ ended pages = true /\ all_keys pages = ["a"; "b"] /\
  spec_keys t_k1 "" false "" = ["a"; "b"; "da"] /\
  enumerates_b false t_k1 "" false "" pages = false.
Proof. vm_compute. repeat split; reflexivity. Qed.

(* finding 2: d/a and d/b are listed beside the common prefix d/ *)
Theorem paginate_unsound_delim_lastkey :
  let pages := paginate 14 false t_k2 "" 1 true V1LastKey "" in
  wf t_k2 = true /\ ended pages = true /\ all_keys pages = ["a"; "d/a"; "d/b"; "da"] /\
  spec_keys t_k2 "" true "" = ["a"; "da"] /\
  enumerates_b false t_k2 "" true "" pages = false.
Proof. vm_compute. repeat split; reflexivity. Qed.

(* finding 3: with the continuation token itself: page 2 holds two keys for max-keys 1
   and d/f is never listed *)
Theorem paginate_incomplete_deep_token :
  let pages := paginate 14 false t_k3 "" 1 false V2Token "" in
  wf t_k3 = true /\ ended pages = true /\
  map pg_keys pages = [["d/e/a"]; ["d/e/b"; "da"]; []] /\
  spec_keys t_k3 "" false "" = ["d/e/a"; "d/e/b"; "d/f"; "da"] /\
  enumerates_b false t_k3 "" false "" pages = false.
Proof. vm_compute. repeat split; reflexivity. Qed.

(* finding 5: start-after "d": the keys below d/ sort behind "d" but are skipped *)
Theorem paginate_incomplete_start_is_dir :
  let pages := paginate 14 false t_k5 "" 1000 false V2StartAfter "d" in
  wf t_k5 = true /\ ended pages = true /\ all_keys pages = ["da"] /\
  spec_keys t_k5 "" false "d" = ["d/e/a"; "da"] /\
  enumerates_b false t_k5 "" false "d" pages = false.
Proof. vm_compute. repeat split; reflexivity. Qed.
