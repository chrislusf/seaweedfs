(* C05: newNeedleMapMetricFromIndexFile (reverse walk of the .idx with a set of seen keys) as a
   right fold over the entry list; and the history-level functions (entries_of, ref_run, ref_metric,
   disciplined_from) at a history extended by one operation, which NeedleMapExact.v inducts with. *)
From Coq Require Import List NArith ZArith Bool.
From SW Require Import model.NeedleMap proof.NeedleMapRefine proof.NeedleMapProofs.
Import ListNotations.
Local Open Scope N_scope.

(* the walk of newNeedleMapMetricFromIndexFile, last entry first, from the empty state *)
Definition walk_back (E : list entry) : metric * list N :=
  fold_right (fun e acc => mfi_step acc e) (metric0, []) E.

Lemma mfi_rev : forall E, fold_left mfi_step (rev E) (metric0, []) = walk_back E.
Proof.
  intros E. unfold walk_back. rewrite <- (rev_involutive E) at 2.
  rewrite fold_left_rev_right. reflexivity.
Qed.

Definition hask (k : N) (E : list entry) : bool := existsb (fun e => e_key e =? k) E.
Definition vsize (e : entry) : N := if size_is_valid (e_size e) then u64_of_size (e_size e) else 0.
(* the (valid) size of the last entry with key k *)
Fixpoint last_valid (k : N) (E : list entry) : N :=
  match E with
  | [] => 0
  | e :: E1 => if (e_key e =? k) && negb (hask k E1) then vsize e else last_valid k E1
  end.
Definition b2n (b : bool) : N := if b then 1 else 0.
Definition mem (x : N) (S : list N) : bool := existsb (N.eqb x) S.

Lemma last_valid_absent : forall k E, hask k E = false -> last_valid k E = 0.
Proof.
  induction E as [|e E IH]; intros H; [reflexivity|]. unfold hask in *. simpl in *.
  apply orb_false_iff in H. destruct H as [H1 H2]. rewrite H1. simpl. apply IH. assumption.
Qed.

Lemma mfi_step_fst : forall m S e, fst (mfi_step (m, S) e) = mfi_metric_step (mem (e_key e) S) m e.
Proof.
  intros. unfold mfi_step, mfi_metric_step, mem. destruct (existsb (N.eqb (e_key e)) S); reflexivity.
Qed.
Lemma mfi_step_snd : forall m S e x,
  mem x (snd (mfi_step (m, S) e)) = (e_key e =? x) || mem x S.
Proof.
  intros m S e x. unfold mfi_step. fold (mem (e_key e) S).
  destruct (mem (e_key e) S) eqn:E; cbn [negb snd].
  - destruct (N.eqb_spec (e_key e) x) as [<-|]; [rewrite E|]; reflexivity.
  - unfold mem. cbn [existsb]. rewrite (N.eqb_sym x (e_key e)). reflexivity.
Qed.

Lemma walk_back_seen : forall E x, mem x (snd (walk_back E)) = hask x E.
Proof.
  intros E x. induction E as [|e E IH]; [reflexivity|].
  cbn [walk_back fold_right]. fold (walk_back E). destruct (walk_back E) as [m S].
  rewrite mfi_step_snd. cbn [snd] in IH. rewrite IH. reflexivity.
Qed.

Lemma walk_back_fst_cons : forall e E,
  fst (walk_back (e :: E)) = mfi_metric_step (hask (e_key e) E) (fst (walk_back E)) e.
Proof.
  intros e E. cbn [walk_back fold_right]. fold (walk_back E).
  pose proof (walk_back_seen E (e_key e)) as H. destruct (walk_back E) as [m S].
  cbn [fst snd] in *. rewrite mfi_step_fst, H. reflexivity.
Qed.

Lemma hask_cons : forall x e E, hask x (e :: E) = (e_key e =? x) || hask x E.
Proof. reflexivity. Qed.

Lemma two32_nz : two32 <> 0.
Proof. discriminate. Qed.
Lemma two64_nz : two64 <> 0.
Proof. discriminate. Qed.

Lemma metric_ext : forall a b : metric,
  m_del a = m_del b -> m_file a = m_file b -> m_delb a = m_delb b -> m_fileb a = m_fileb b ->
  m_max a = m_max b -> a = b.
Proof. intros [] []; simpl; intros; subst; reflexivity. Qed.


Definition ever_put (k : N) (ops : list op) : bool :=
  existsb (fun o => match o with Put k' _ _ => k' =? k | _ => false end) ops.
Definition disc_cond (r : rmap) (o : op) : bool :=
  match o with
  | Put _ off sz => negb (off =? 0) && (0 <=? sz)%Z
  | Del k _ => match ref_get r k with Some (_, sz) => (0 <? sz)%Z | None => false end
  | Get _ => true
  end.

Lemma ref_run_snoc : forall ops r o, snd (ref_run r (ops ++ [o])) = fst (ref_step (snd (ref_run r ops)) o).
Proof.
  intros. rewrite ref_run_app. cbn [ref_run snd]. destruct (ref_step (snd (ref_run r ops)) o). reflexivity.
Qed.

Lemma disciplined_from_app : forall ops r o,
  disciplined_from r (ops ++ [o]) = disciplined_from r ops && disc_cond (snd (ref_run r ops)) o.
Proof.
  induction ops as [|a ops IH]; intros r o.
  - cbn [app disciplined_from ref_run snd]. unfold disc_cond. rewrite andb_true_r. reflexivity.
  - cbn [app disciplined_from ref_run]. rewrite IH. destruct (ref_step r a) as [r' x]. cbn [fst].
    destruct (ref_run r' ops). rewrite andb_assoc. reflexivity.
Qed.

Lemma mem_cons : forall x y S, mem x (y :: S) = (x =? y) || mem x S.
Proof. reflexivity. Qed.

Lemma ever_put_app : forall k ops o,
  ever_put k (ops ++ [o]) = ever_put k ops || match o with Put k' _ _ => k' =? k | _ => false end.
Proof. intros. unfold ever_put. rewrite existsb_app. simpl. rewrite orb_false_r. reflexivity. Qed.

Lemma entries_of_app : forall ops o, entries_of (ops ++ [o]) = entries_of ops ++ entry_of_op o.
Proof. intros. unfold entries_of. rewrite flat_map_app. simpl. rewrite app_nil_r. reflexivity. Qed.

Lemma hask_app : forall x E e, hask x (E ++ [e]) = hask x E || (e_key e =? x).
Proof. intros. unfold hask. rewrite existsb_app. simpl. rewrite orb_false_r. reflexivity. Qed.

Lemma last_valid_snoc : forall k E e,
  last_valid k (E ++ [e]) = if e_key e =? k then vsize e else last_valid k E.
Proof.
  intros k E e. induction E as [|a E IH].
  - simpl. destruct (e_key e =? k); reflexivity.
  - cbn [app last_valid]. rewrite hask_app, IH.
    destruct (e_key e =? k); destruct (e_key a =? k); destruct (hask k E); reflexivity.
Qed.

Definition rm_state (ops : list op) : rmap * metric := fold_left ref_metric_step ops ([], metric0).

Lemma rm_state_fst : forall ops, fst (rm_state ops) = snd (ref_run [] ops).
Proof.
  intros ops. unfold rm_state. induction ops as [|o ops IH] using rev_ind; [reflexivity|].
  rewrite fold_left_app, ref_run_snoc. cbn [fold_left]. rewrite <- IH.
  destruct (fold_left ref_metric_step ops ([], metric0)) as [r m]. reflexivity.
Qed.

(* [add_del] when the value the reference holds for the key is a live one *)
Definition log_hit (m : metric) (v : option (N * Z)) : metric :=
  match v with Some (_, os) => if (0 <? os)%Z then add_del m os else m | None => m end.

Lemma ref_metric_app : forall ops o,
  ref_metric (ops ++ [o]) =
  let r := snd (ref_run [] ops) in
  match o with
  | Put k _ sz => log_hit (add_file (maybe_max (ref_metric ops) k) sz) (ref_get r k)
  | Del k _ => log_hit (ref_metric ops) (ref_get r k)
  | Get _ => ref_metric ops
  end.
Proof.
  intros. unfold ref_metric. fold (rm_state (ops ++ [o])). fold (rm_state ops).
  unfold rm_state at 1. rewrite fold_left_app. cbn [fold_left]. fold (rm_state ops).
  rewrite <- rm_state_fst. destruct (rm_state ops). destruct o; reflexivity.
Qed.

Lemma log_hit_other : forall m v, m_file (log_hit m v) = m_file m /\
  m_fileb (log_hit m v) = m_fileb m /\ m_max (log_hit m v) = m_max m.
Proof. intros m [[o s]|]; [cbn [log_hit]; destruct (0 <? s)%Z|]; repeat split. Qed.

Lemma maybe_max_eq : forall m k, maybe_max m k =
  {| m_del := m_del m; m_file := m_file m; m_delb := m_delb m; m_fileb := m_fileb m;
     m_max := N.max (m_max m) k |}.
Proof.
  intros m k. unfold maybe_max. destruct (N.ltb_spec (m_max m) k).
  - rewrite N.max_r by (apply N.lt_le_incl; assumption). reflexivity.
  - rewrite N.max_l by assumption. destruct m; reflexivity.
Qed.
