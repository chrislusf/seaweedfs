(* Proofs about model/VolPlanner.v (C15): volumeServer.evacuate, no colocation and placement.
   [evac_run_inv] carries an invariant of (cluster, volumes still to move) along an accepted
   plan; VolPlannerProofs10 uses it again for the free slots. *)
From Coq Require Import List NArith ZArith Bool Arith Lia Permutation.
From SW Require Import model.VolPlanner proof.VolPlannerProofs proof.VolPlannerProofs2
  proof.VolPlannerProofs3 proof.VolPlannerProofs4 proof.VolPlannerProofs5 proof.VolPlannerProofs6.
Import ListNotations.

Lemma others_in : forall s this n, In n (others_of s this) -> In n s /\ n_id n <> this.
Proof.
  intros s this n H. unfold others_of in H. apply filter_In in H. destruct H as [H1 H2].
  apply negb_true_iff in H2. apply N.eqb_neq in H2. auto.
Qed.

Lemma evac_target_facts : forall s w this v to, evac_target_ok s w this v to = true ->
  exists t, In t s /\ n_id t = to /\ to <> l_node this /\
            movable w (vols_of_dt t (v_dt v)) v this (n_loc t) = true.
Proof.
  intros s w this v to H. unfold evac_target_ok in H.
  destruct (find (fun n => (n_id n =? to)%N) (others_of s (l_node this))) as [t|] eqn:E; [|discriminate].
  apply find_some in E. destruct E as [Ht Eid]. apply N.eqb_eq in Eid. apply others_in in Ht.
  apply andb_true_iff in H. destruct H as [Hm _].
  exists t. repeat split; try tauto. subst to. tauto.
Qed.

(* an invariant of (cluster, volumes still to move) that every accepted move keeps gives [Q]
   on every step of the plan *)
Lemma evac_run_inv : forall s this skip (Inv : world -> list vol -> Prop) (Q : world -> step -> Prop),
  (forall w v vs to, Inv w (v :: vs) -> evac_target_ok s w this v to = true ->
     let st := Move (v_id v) (v_dt v) (l_node this) to in
     Q w st /\ Inv (apply_step s w st) vs) ->
  (forall w v vs, Inv w (v :: vs) -> Inv w vs) ->
  forall vs evs w, Inv w vs -> evac_run s this skip w vs evs = true ->
  Steps Q s w (evac_steps (l_node this) evs).
Proof.
  intros s this skip Inv Q Hmove Hskip. induction vs as [|v vs IH]; intros evs w HI H.
  - destruct evs; [exact I|discriminate].
  - destruct evs as [|[vid dt to|vid|vid] evs]; cbn [evac_run] in H; try discriminate.
    + rewrite !andb_true_iff in H. destruct H as [[[Hv Hd] Htg] Hrec].
      apply N.eqb_eq in Hv, Hd. subst vid dt.
      destruct (Hmove _ _ _ _ HI Htg) as [Hq HI'].
      split; [exact Hq|]. apply IH; assumption.
    + rewrite !andb_true_iff in H. apply (IH evs w); [eapply Hskip; eauto|apply H].
    + destruct evs; [exact I|discriminate].
Qed.

(* the volumes still to move are distinct and still on the evacuated server *)
Definition EvacInv (s : snapshot) (this : loc) (w : world) (vs : list vol) : Prop :=
  WInv s w /\ NodesOk w /\ NoDup (map v_id vs) /\
  forall v, In v vs -> In {| r_loc := this; r_info := v |} (w_reps w (v_id v)).

Lemma evac_run_safe : forall s this skip vs evs w,
  NoDup (map n_id s) -> In this (cluster_locs s) -> EvacInv s this w vs ->
  evac_run s this skip w vs evs = true ->
  Steps (MoveOk s) s w (evac_steps (l_node this) evs).
Proof.
  intros s this skip vs evs w Hnd Hthis. apply evac_run_inv; clear vs evs w.
  - intros w v vs to (HW & HN & Hvs & Hin) Htg st.
    cbn [map] in Hvs. inversion Hvs as [|? ? Hnv Hdv]; subst.
    destruct (evac_target_facts _ _ _ _ _ Htg) as [t [Ht [Etid [_ Hmov]]]].
    assert (loc_of s (l_node this) = this) as Efl by (apply loc_of_cl; auto).
    assert (loc_of s to = n_loc t) as Etl by (rewrite <- Etid; apply loc_of_in; auto).
    unfold movable in Hmov. apply andb_true_iff in Hmov. destruct Hmov as [Hg _].
    destruct (move_step_safe s w (v_dt v) (l_node this) to v Hnd HW HN)
      as [Hm [HW' [HN' [_ HK]]]]; auto.
    { rewrite Etl. unfold cluster_locs. apply in_map; auto. }
    { rewrite Efl. apply Hin. left; auto. }
    { unfold move_guard. rewrite Efl, Etl. exact Hg. }
    split; [exact Hm|].
    split; [exact HW'|]. split; [exact HN'|]. split; [exact Hdv|].
    intros x Hx. apply HK; [apply Hin; right; auto|left].
    intro E. apply Hnv. rewrite <- E. apply in_map; auto.
  - intros w v vs (HW & HN & Hvs & Hin). cbn [map] in Hvs. inversion Hvs; subst.
    split; [exact HW|]. split; [exact HN|]. split; [assumption|]. intros x Hx. apply Hin. right; auto.
Qed.

Lemma insert_all_perm : forall {A} (x : A) l y, In y (insert_all x l) -> Permutation (x :: l) y.
Proof.
  induction l as [|a l IH]; intros y Hy; cbn [insert_all] in Hy.
  - destruct Hy as [<-|[]]. apply Permutation_refl.
  - destruct Hy as [<-|Hy]; [apply Permutation_refl|].
    apply in_map_iff in Hy. destruct Hy as [z [<- Hz]].
    eapply perm_trans; [apply perm_swap|]. apply perm_skip. apply IH; auto.
Qed.

Lemma perms_perm : forall {A} (l p : list A), In p (perms l) -> Permutation l p.
Proof.
  induction l as [|a l IH]; intros p Hp; cbn [perms] in Hp.
  - destruct Hp as [<-|[]]. constructor.
  - apply in_flat_map in Hp. destruct Hp as [q [Hq Hp]].
    eapply perm_trans; [apply perm_skip; apply IH; exact Hq|]. apply insert_all_perm; auto.
Qed.

(* thisNode.info.DiskInfos in some order: the volumes of the evacuated server, permuted *)
Lemma evac_accepts_run : forall s this skip evs, evac_accepts s this skip evs = true ->
  exists n vs, find_node s this = Some n /\ Permutation (all_vols n) vs /\
    evac_run s (n_loc n) skip (init_world s) vs evs = true.
Proof.
  intros s this skip evs H. unfold evac_accepts in H.
  destruct (find_node s this) as [n|]; [|discriminate].
  apply existsb_exists in H. destruct H as [ds [Hds Hrun]].
  exists n, (flat_map d_vols ds). split; [reflexivity|]. split; [|exact Hrun].
  apply Permutation_flat_map, perms_perm. exact Hds.
Qed.

Theorem evac_accepts_safe : forall s this skip evs,
  wf_snap s -> evac_accepts s this skip evs = true ->
  ok_coloc (prop_trace s (init_world s) (evac_steps this evs)) = true /\
  excused ok_pres step_rp_trig s (init_world s) (evac_steps this evs) = true /\
  (trig_rp_xy s = false -> ok_pres (prop_trace s (init_world s) (evac_steps this evs)) = true).
Proof.
  intros s this skip evs Hwf H. apply MoveOk_trace.
  destruct (evac_accepts_run _ _ _ _ H) as (n & vs & En & HP & Hrun).
  apply find_node_some in En. destruct En as [Hn <-]. destruct Hwf as [Hnd Hvids].
  apply (evac_run_safe s (n_loc n) skip vs evs); auto.
  - unfold cluster_locs. apply in_map; auto.
  - split; [apply init_WInv|]. split; [apply init_NodesOk; split; auto|]. split.
    + eapply Permutation_NoDup; [apply Permutation_map; exact HP|]. apply Hvids; auto.
    + intros v Hv. apply (Permutation_in _ (Permutation_sym HP)) in Hv. apply init_rest; auto.
Qed.

