(* C40, the replicated volume as a state machine.  An acknowledged step determines what every
   listed location serves for the file id afterwards from what it held before ([upload_step_ack],
   [delete_step_ack]); the theorems about one step are read off these, location by location. *)
From Coq Require Import List NArith Bool String Ascii Lia.
From SW Require Import proof.ListFacts model.ReplWrite proof.ReplWriteProofs.
Import ListNotations.
Local Open Scope string_scope.
Local Open Scope N_scope.

Lemma forallb_false_exists : forall (A : Type) (f : A -> bool) l,
  forallb f l = false -> exists x, In x l /\ f x = false.
Proof.
  intros A f. induction l as [|x l IH]; intros H; [discriminate|].
  cbn [forallb] in H. destruct (f x) eqn:E.
  - destruct (IH H) as [y [Hy Hf]]. exists y. split; [right; exact Hy | exact Hf].
  - exists x. split; [left; reflexivity | exact E].
Qed.

Lemma pairs_eqb_eq : forall a b, pairs_eqb a b = true <-> a = b.
Proof.
  split; [|intros ->; apply pairs_eqb_refl]. revert b.
  induction a as [|[k v] a IH]; intros [|[k' v'] b] H; cbn in H; try discriminate; [reflexivity|].
  apply andb_true_iff in H. destruct H as [H Hr]. apply andb_true_iff in H. destruct H as [Hk Hv].
  apply String.eqb_eq in Hk. apply String.eqb_eq in Hv. subst. f_equal. apply IH. exact Hr.
Qed.

(* the part of a view the property compares *)
Definition outcome_of (v : view) :=
  (so_state v, so_name v, so_mime v, so_pairs v, so_lastmod v, fst (so_ttl v), snd (so_ttl v),
   so_dec_ok v, so_len v, so_crc v).

Lemma same_outcome_eq : forall a b, same_outcome a b = true <-> outcome_of a = outcome_of b.
Proof.
  intros a b. unfold same_outcome, outcome_of.
  rewrite !andb_true_iff, !N.eqb_eq, !String.eqb_eq, pairs_eqb_eq, Bool.eqb_true_iff. split.
  - intros [[[[[[[[[H1 H2] H3] H4] H5] H6] H7] H8] H9] H10]. congruence.
  - intros H. injection H as H1 H2 H3 H4 H5 H6 H7 H8 H9 H10. repeat split; assumption.
Qed.

Lemma same_outcome_split : forall a b,
  same_outcome a b = true <-> same_but_mime a b = true /\ so_mime a = so_mime b.
Proof.
  intros a b. unfold same_but_mime. rewrite !same_outcome_eq. unfold outcome_of.
  cbn [clear_mime so_state so_name so_mime so_pairs so_lastmod so_ttl so_dec_ok so_len so_crc]. split.
  - intros H. injection H as H1 H2 H3 H4 H5 H6 H7 H8 H9 H10. split; congruence.
  - intros [H H3]. injection H as H1 H2 H4 H5 H6 H7 H8 H9 H10. congruence.
Qed.

(* what [same_content] compares *)
Definition content_of (v : view) := (so_state v, so_len v, if so_len v =? 0 then 0 else so_crc v).

Lemma same_content_eq : forall a b, same_content a b = true <-> content_of a = content_of b.
Proof.
  intros a b. unfold same_content, content_of. rewrite !andb_true_iff, orb_true_iff, !N.eqb_eq. split.
  - intros [[H1 H2] H3]. rewrite <- H1, <- H2. destruct (so_len a =? 0) eqn:E; [reflexivity|].
    destruct H3 as [H3|H3]; [apply N.eqb_neq in E; contradiction | rewrite H3; reflexivity].
  - intros H. injection H as H1 H2 H3. rewrite <- H2 in H3. repeat split; try assumption.
    destruct (so_len a =? 0) eqn:E; [left; apply N.eqb_eq; exact E | right; exact H3].
Qed.

Lemma same_outcome_content : forall a b, same_outcome a b = true -> same_content a b = true.
Proof.
  intros a b H. apply same_content_eq. apply same_outcome_eq in H. unfold outcome_of in H.
  injection H as H1 H2 H3 H4 H5 H6 H7 H8 H9 H10. unfold content_of. rewrite H1, H9, H10. reflexivity.
Qed.

Lemma upd_same : forall s k v, upd s k v k = v.
Proof. intros s k v. unfold upd. rewrite N.eqb_refl. reflexivity. Qed.

Lemma upd_other : forall s k v k', k' <> k -> upd s k v k' = s k'.
Proof. intros s k v k' H. unfold upd. apply N.eqb_neq in H. rewrite H. reflexivity. Qed.

Lemma write_local_unchanged : forall s ck n, is_unchanged s ck n = true -> write_local s ck n = (s, 1).
Proof.
  intros s ck n H. destruct s as [|ck0 n0|ck0]; cbn [is_unchanged] in H; try discriminate.
  cbn [write_local]. rewrite H. reflexivity.
Qed.

Lemma write_local_changed : forall s ck n, is_unchanged s ck n = false -> snd (write_local s ck n) <> 2 ->
  write_local s ck n = (Live ck n, 0).
Proof.
  intros s ck n H Hres. destruct s as [|ck0 n0|ck0]; cbn [is_unchanged write_local] in *.
  - reflexivity.
  - rewrite H in *. destruct (ck0 =? ck); [reflexivity | exfalso; apply Hres; reflexivity].
  - destruct (ck0 =? ck); [reflexivity | exfalso; apply Hres; reflexivity].
Qed.

(* what a server serves after a write it did not refuse *)
Definition kept_view (s : slot) (ck : N) (n : needle) : view :=
  if is_unchanged s ck n then slot_view s else view_of n.
Definition server_kept_view (r : option store) (k ck : N) (n : needle) : view :=
  match r with Some s => kept_view (s k) ck n | None => blank 3 false end.

Lemma write_local_kept : forall s ck n, snd (write_local s ck n) <> 2 ->
  slot_view (fst (write_local s ck n)) = kept_view s ck n.
Proof.
  intros s ck n H. unfold kept_view. destruct (is_unchanged s ck n) eqn:E.
  - rewrite (write_local_unchanged _ _ _ E). reflexivity.
  - rewrite (write_local_changed _ _ _ E H). reflexivity.
Qed.

(* if what a server that answers "unchanged" holds has the projection f of what it is sent,
   so has what it serves afterwards *)
Lemma kept_proj : forall (A : Type) (f : view -> A) s ck n,
  (is_unchanged s ck n = true -> f (slot_view s) = f (view_of n)) ->
  f (kept_view s ck n) = f (view_of n).
Proof.
  intros A f s ck n H. unfold kept_view. destruct (is_unchanged s ck n); [apply H|]; reflexivity.
Qed.

(* the slot after a delete the server accepted: the Size = 0 record of an empty upload stays *)
Definition after_delete (s : slot) : slot :=
  match s with Live ck n => if body_empty (n_body n) then s else Dead ck | _ => s end.
Definition server_after_delete (r : option store) (k : N) : view :=
  match r with Some s => slot_view (after_delete (s k)) | None => blank 3 false end.

Lemma delete_local_accepted : forall s ck,
  snd (delete_local s ck) = 202 \/ snd (delete_local s ck) = 404 -> fst (delete_local s ck) = after_delete s.
Proof.
  intros [|ck0 n0|ck0] ck H; cbn [delete_local after_delete] in *; try reflexivity.
  destruct (body_empty (n_body n0)); [reflexivity|]. destruct (ck0 =? ck); [reflexivity|].
  destruct H; discriminate.
Qed.

Definition gone_or_empty (v : view) : bool := is_deleted v || empty_record v.

Lemma after_delete_view : forall s,
  is_deleted (slot_view (after_delete s)) = negb (slot_empty s) /\
  gone_or_empty (slot_view (after_delete s)) = true.
Proof.
  intros [|ck n|ck]; cbn [after_delete slot_empty]; try (split; reflexivity).
  destruct (body_empty (n_body n)) eqn:E; [|split; reflexivity].
  cbn [slot_view]. unfold view_of. rewrite E. split; reflexivity.
Qed.

Lemma server_after_delete_view : forall r k,
  is_deleted (server_after_delete r k) = negb (server_slot_empty r k) /\
  gone_or_empty (server_after_delete r k) = true.
Proof. intros [s|] k; [apply after_delete_view | split; reflexivity]. Qed.

(* distributedOperation, for any action [g] of one location under its fault *)
Fixpoint distributed (g : N -> option store -> option store * bool) (fs : list N) (rs : list (option store))
  : list (option store) * bool :=
  match rs with
  | [] => ([], true)
  | r :: rs' =>
      let '(r', ok) := g (hd 0 fs) r in
      let '(rs'', ok') := distributed g (tl fs) rs' in
      (r' :: rs'', ok && ok')
  end.

Lemma replicas_upload_distributed : forall rs fs k ck rn,
  replicas_upload fs rs k ck rn = distributed (fun f r => replica_upload f r k ck rn) fs rs.
Proof.
  induction rs as [|r rs IH]; intros fs k ck rn; [reflexivity|].
  cbn [replicas_upload distributed]. rewrite IH. reflexivity.
Qed.

Lemma replicas_delete_distributed : forall rs fs k ck,
  replicas_delete fs rs k ck = distributed (fun f r => replica_delete f r k ck) fs rs.
Proof.
  induction rs as [|r rs IH]; intros fs k ck; [reflexivity|].
  cbn [replicas_delete distributed]. rewrite IH. reflexivity.
Qed.

Section Distributed.
Variable g : N -> option store -> option store * bool.

Lemma distributed_cons : forall fs r rs,
  distributed g fs (r :: rs) =
  (fst (g (hd 0 fs) r) :: fst (distributed g (tl fs) rs),
   snd (g (hd 0 fs) r) && snd (distributed g (tl fs) rs)).
Proof. intros. cbn [distributed]. destruct (g (hd 0 fs) r), (distributed g (tl fs) rs). reflexivity. Qed.

(* a projection of every location afterwards, read off the location before; where the
   operation is acknowledged, every location has acknowledged *)
Lemma distributed_map : forall (A : Type) (h h' : option store -> A) rs fs,
  (forall f r, (snd (distributed g fs rs) = true -> snd (g f r) = true) -> h (fst (g f r)) = h' r) ->
  map h (fst (distributed g fs rs)) = map h' rs.
Proof.
  induction rs as [|r rs IH]; intros fs H; [reflexivity|].
  rewrite distributed_cons in *. cbn [fst snd map] in *. f_equal.
  - apply H. intros Hok. apply andb_true_iff in Hok. apply Hok.
  - apply IH. intros f x Hx. apply H. intros Hok. apply Hx. apply andb_true_iff in Hok. apply Hok.
Qed.

Lemma distributed_ok : forall rs fs r,
  snd (distributed g fs rs) = true -> In r rs -> exists f, snd (g f r) = true.
Proof.
  induction rs as [|x rs IH]; intros fs r Hok Hin; [destruct Hin|].
  rewrite distributed_cons in Hok. apply andb_true_iff in Hok. destruct Hok as [H1 H2].
  destruct Hin as [E|Hin]; [subst; eauto | eapply IH; eassumption].
Qed.

Lemma distributed_blocked : forall (B : N -> bool), (forall f r, B f = true -> snd (g f r) = false) ->
  forall rs fs, existsb B (firstn (List.length rs) fs) = true -> snd (distributed g fs rs) = false.
Proof.
  intros B HB. induction rs as [|r rs IH]; intros fs H; [discriminate|].
  rewrite distributed_cons. destruct fs as [|f fs]; [discriminate|].
  cbn [List.length firstn existsb hd tl snd] in *. apply orb_true_iff in H. destruct H as [H|H].
  - rewrite (HB _ _ H). reflexivity.
  - rewrite (IH _ H). apply andb_false_r.
Qed.

End Distributed.

Lemma replica_upload_kept : forall f r k ck rn, snd (replica_upload f r k ck rn) = true ->
  r <> None /\ server_view (fst (replica_upload f r k ck rn)) k = server_kept_view r k ck rn.
Proof.
  intros f r k ck rn. unfold replica_upload. destruct (blocks_upload f); [discriminate|].
  destruct r as [s|]; [|discriminate]. cbn [replica_serve_upload server_kept_view].
  pose proof (write_local_kept (s k) ck rn) as Hk.
  destruct (write_local (s k) ck rn) as [sl res]. cbn [fst snd server_view] in *. intros Hok.
  rewrite upd_same. split; [discriminate|]. apply Hk. intros E. subst res. discriminate.
Qed.

Lemma upload_step_ack : forall sy o q k ck fs,
  let n := create_needle o q in
  let rn := create_needle o (replicate o n) in
  success (snd (upload_step sy o q k ck fs)) = true ->
  sy_nolookup sy = false /\ snd (replicas_upload fs (sy_r sy) k ck rn) = true /\ ~ In None (sy_r sy) /\
  key_views (fst (upload_step sy o q k ck fs)) k =
    kept_view (sy_p sy k) ck n :: map (fun r => server_kept_view r k ck rn) (sy_r sy).
Proof.
  intros sy o q k ck fs n rn Hs. unfold upload_step in *. fold n rn in Hs |- *.
  destruct (sy_nolookup sy); [cbn [snd] in Hs; discriminate|].
  pose proof (write_local_kept (sy_p sy k) ck n) as Hp.
  destruct (write_local (sy_p sy k) ck n) as [sl res]. cbn [fst snd] in Hp.
  destruct (res =? 2) eqn:Eres; [cbn [snd] in Hs; discriminate|].
  rewrite replicas_upload_distributed in *.
  pose proof (distributed_map (fun f r => replica_upload f r k ck rn) _
                (fun r => server_view r k) (fun r => server_kept_view r k ck rn) (sy_r sy) fs) as Hm.
  pose proof (distributed_ok (fun f r => replica_upload f r k ck rn) (sy_r sy) fs None) as Hn.
  destruct (distributed (fun f r => replica_upload f r k ck rn) fs (sy_r sy)) as [rs ok]. cbn [fst snd] in *.
  destruct ok; [|discriminate]. repeat split.
  - intros Hin. destruct (Hn eq_refl Hin) as [f Hf]. apply (replica_upload_kept f None k ck rn Hf). reflexivity.
  - unfold key_views. cbn [sy_p sy_r]. rewrite upd_same, Hp, Hm; [reflexivity| |].
    + intros f r Hr. apply replica_upload_kept. apply Hr. reflexivity.
    + intros E. subst res. discriminate.
Qed.

(* to show R between the primary's and every replica's view after an acknowledged upload it
   suffices to show it between their [kept_view]s of the state before *)
Lemma upload_step_forall : forall (R : view -> view -> bool) sy o q k ck fs,
  let n := create_needle o q in
  let rn := create_needle o (replicate o n) in
  success (snd (upload_step sy o q k ck fs)) = true ->
  (forall s, In (Some s) (sy_r sy) -> R (kept_view (sy_p sy k) ck n) (kept_view (s k) ck rn) = true) ->
  forallb (R (slot_view (sy_p (fst (upload_step sy o q k ck fs)) k)))
          (map (fun r => server_view r k) (sy_r (fst (upload_step sy o q k ck fs)))) = true.
Proof.
  intros R sy o q k ck fs n rn Hs H.
  destruct (upload_step_ack sy o q k ck fs Hs) as [_ [_ [Hnone Hv]]].
  unfold key_views in Hv. injection Hv as Hv1 Hv2. rewrite Hv1, Hv2.
  apply forallb_forall. intros v Hv. apply in_map_iff in Hv. destruct Hv as [[s|] [E Hin]]; [|contradiction].
  subst v. apply H. exact Hin.
Qed.

Lemma replica_body_empty : forall o q,
  trig_empty o q = false -> body_empty (n_body (create_needle o q)) = true ->
  body_empty (n_body (create_needle o (replicate o (create_needle o q)))) = true.
Proof.
  intros o q H Hb. unfold trig_empty in H. cbv zeta in H. rewrite Hb in H. cbn [andb] in H.
  apply negb_false_iff in H. exact H.
Qed.

Lemma same_but_mime_views : forall o q,
  trig_empty o q = false ->
  same_but_mime (view_of (create_needle o q)) (view_of (create_needle o (replicate o (create_needle o q)))) = true.
Proof.
  intros o q Hemp. unfold same_but_mime, view_of.
  destruct (body_empty (n_body (create_needle o q))) eqn:Hb.
  - rewrite (replica_body_empty o q Hemp Hb). reflexivity.
  - rewrite (replica_body_nonempty o q Hb). apply same_outcome_eq. unfold outcome_of, clear_mime.
    cbn [so_state so_name so_mime so_pairs so_lastmod so_ttl so_dec_ok so_len so_crc].
    destruct (replica_content o q) as [Hc1 [Hc2 Hc3]].
    rewrite (replica_name_view o q), (replica_pairs_view o q), (replica_lastmod o q), (replica_ttl_view o q),
      Hc1, Hc2, Hc3. reflexivity.
Qed.

Lemma same_outcome_views : forall o q,
  trig_empty o q = false -> trig_mime o q = false ->
  same_outcome (view_of (create_needle o q)) (view_of (create_needle o (replicate o (create_needle o q)))) = true.
Proof.
  intros o q Hemp Hmime. apply same_outcome_split. split; [apply same_but_mime_views; exact Hemp|].
  unfold view_of. destruct (body_empty (n_body (create_needle o q))) eqn:Hb.
  - rewrite (replica_body_empty o q Hemp Hb). reflexivity.
  - rewrite (replica_body_nonempty o q Hb). cbn [so_mime]. rewrite !mime_view.
    symmetry. apply replica_mime; assumption.
Qed.

Lemma body_empty_len : forall b, body_empty b = true -> b_len b = 0.
Proof.
  intros b H. unfold body_empty in H. apply andb_true_iff in H. destruct H as [_ H]. apply N.eqb_eq in H. exact H.
Qed.

Lemma same_content_views : forall o q,
  same_content (view_of (create_needle o q)) (view_of (create_needle o (replicate o (create_needle o q)))) = true.
Proof.
  intros o q. unfold view_of. destruct (replica_content o q) as [_ [Hc2 Hc3]].
  destruct (body_empty (n_body (create_needle o q))) eqn:Hb.
  - destruct (body_empty (n_body (create_needle o (replicate o _)))); [reflexivity|].
    unfold same_content. cbn [blank so_state so_len so_crc]. rewrite Hc2, (body_empty_len _ Hb). reflexivity.
  - rewrite (replica_body_nonempty o q Hb). apply same_content_eq. unfold content_of.
    cbn [so_state so_len so_crc]. rewrite Hc2, Hc3. reflexivity.
Qed.

Lemma body_eqb_eq : forall a b, body_eqb a b = true -> a = b.
Proof.
  intros [l1 c1 g1] [l2 c2 g2] H. unfold body_eqb in H. cbn [b_len b_crc b_gz] in H.
  apply andb_true_iff in H. destruct H as [H Hg]. apply andb_true_iff in H. destruct H as [Hl Hc].
  apply N.eqb_eq in Hl. apply N.eqb_eq in Hc. apply Bool.eqb_prop in Hg. congruence.
Qed.

(* a server that answers "unchanged" holds the content it is sent *)
Lemma unchanged_content : forall s ck n,
  is_unchanged s ck n = true -> same_content (slot_view s) (view_of n) = true.
Proof.
  intros s ck n H. destruct s as [|ck0 n0|ck0]; cbn [is_unchanged] in H; try discriminate.
  apply andb_true_iff in H. destruct H as [_ Hbe]. apply body_eqb_eq in Hbe.
  apply same_content_eq. cbn [slot_view]. unfold content_of, view_of. rewrite Hbe.
  destruct (body_empty (n_body n)); reflexivity.
Qed.

Lemma no_drop_same_outcome : forall s ck n, unchanged_drops s ck n = false -> is_unchanged s ck n = true ->
  same_outcome (slot_view s) (view_of n) = true.
Proof.
  intros s ck n H Hu. unfold unchanged_drops in H. rewrite Hu in H. apply negb_false_iff in H. exact H.
Qed.

(* for a relation R coarser than same_outcome (an equality of projections): if the request's
   two needles are R-related then, outside trigger 2, an acknowledged upload leaves every
   location R-related to the primary.  Outside trigger 2 either every server answers
   "unchanged" and they agree already, or every such server holds what it is sent. *)
Lemma upload_step_rel : forall (A : Type) (R : view -> view -> bool) (f : view -> A),
  (forall a b, R a b = true <-> f a = f b) ->
  (forall a b, same_outcome a b = true -> R a b = true) ->
  forall sy o q k ck fs,
  R (view_of (create_needle o q)) (view_of (create_needle o (replicate o (create_needle o q)))) = true ->
  trig_unchanged sy o q k ck = false ->
  success (snd (upload_step sy o q k ck fs)) = true ->
  forallb (R (slot_view (sy_p (fst (upload_step sy o q k ck fs)) k)))
          (map (fun r => server_view r k) (sy_r (fst (upload_step sy o q k ck fs)))) = true.
Proof.
  intros A R f R_f Hsame sy o q k ck fs Hnr Hunch Hs. apply upload_step_forall; [exact Hs|]. intros s Hin.
  unfold trig_unchanged in Hunch. cbv zeta in Hunch.
  destruct (all_unchanged_alike sy k ck _ _) eqn:Ea.
  - unfold all_unchanged_alike in Ea. apply andb_true_iff in Ea. destruct Ea as [Hu Ha].
    rewrite forallb_forall in Ha. specialize (Ha _ Hin). cbn [server_unchanged_alike] in Ha.
    apply andb_true_iff in Ha. destruct Ha as [Hu' Ha].
    unfold kept_view. rewrite Hu, Hu'. apply Hsame. exact Ha.
  - rewrite andb_true_r in Hunch. apply orb_false_iff in Hunch. destruct Hunch as [Hd1 Hd2].
    pose proof (existsb_false_in _ _ _ Hd2 Hin) as Hd3. cbn [server_unchanged_drops] in Hd3.
    apply R_f.
    rewrite (kept_proj _ f _ _ _ (fun Hu => proj1 (R_f _ _) (Hsame _ _ (no_drop_same_outcome _ _ _ Hd1 Hu)))).
    rewrite (kept_proj _ f _ _ _ (fun Hu => proj1 (R_f _ _) (Hsame _ _ (no_drop_same_outcome _ _ _ Hd3 Hu)))).
    apply R_f. exact Hnr.
Qed.

(* an acknowledged upload, outside the three triggers, leaves every listed location with
   the primary's outcome for the file id - whatever the servers held before (earlier
   uploads that failed half-way, deletes that failed half-way, other cookies), whatever
   the faults of this step *)
Theorem upload_step_partial : forall sy o q k ck fs,
  trig_empty o q = false -> trig_mime o q = false -> trig_unchanged sy o q k ck = false ->
  upload_consistent (snd (upload_step sy o q k ck fs)) (key_views (fst (upload_step sy o q k ck fs)) k) = true.
Proof.
  intros sy o q k ck fs Hemp Hmime Hunch. unfold upload_consistent.
  destruct (success (snd (upload_step sy o q k ck fs))) eqn:Hs; [|reflexivity]. cbn [negb orb].
  unfold key_views.
  exact (upload_step_rel _ same_outcome outcome_of same_outcome_eq (fun a b H => H)
           sy o q k ck fs (same_outcome_views o q Hemp Hmime) Hunch Hs).
Qed.

(* inside the mime trigger everything but the mime type still agrees *)
Theorem upload_step_but_mime : forall sy o q k ck fs,
  trig_empty o q = false -> trig_unchanged sy o q k ck = false ->
  success (snd (upload_step sy o q k ck fs)) = true ->
  forallb (same_but_mime (slot_view (sy_p (fst (upload_step sy o q k ck fs)) k)))
          (map (fun r => server_view r k) (sy_r (fst (upload_step sy o q k ck fs)))) = true.
Proof.
  intros sy o q k ck fs Hemp Hunch Hs.
  exact (upload_step_rel _ same_but_mime (fun v => outcome_of (clear_mime v)) (fun a b => same_outcome_eq _ _)
           (fun a b H => proj1 (proj1 (same_outcome_split a b) H))
           sy o q k ck fs (same_but_mime_views o q Hemp) Hunch Hs).
Qed.

(* inside every trigger the decoded content still agrees: an acknowledged upload always
   leaves every listed location serving the same bytes *)
Theorem upload_step_content : forall sy o q k ck fs,
  success (snd (upload_step sy o q k ck fs)) = true ->
  forallb (same_content (slot_view (sy_p (fst (upload_step sy o q k ck fs)) k)))
          (map (fun r => server_view r k) (sy_r (fst (upload_step sy o q k ck fs)))) = true.
Proof.
  intros sy o q k ck fs Hs. apply upload_step_forall; [exact Hs|]. intros s _.
  apply same_content_eq.
  rewrite !(kept_proj _ content_of) by (intros Hu; apply same_content_eq, (unchanged_content _ _ _ Hu)).
  apply same_content_eq. apply same_content_views.
Qed.

Lemma replica_delete_accepted : forall f r k ck, snd (replica_delete f r k ck) = true ->
  server_view (fst (replica_delete f r k ck)) k = server_after_delete r k.
Proof.
  intros f r k ck. unfold replica_delete. destruct (blocks_delete f); [discriminate|].
  destruct r as [s|]; [|reflexivity]. cbn [replica_serve_delete server_after_delete].
  pose proof (delete_local_accepted (s k) ck) as Ha.
  destruct (delete_local (s k) ck) as [sl st]. cbn [fst snd server_view] in *. intros Hok.
  rewrite upd_same. f_equal. apply Ha.
  apply orb_true_iff in Hok. destruct Hok as [Hok|Hok]; apply N.eqb_eq in Hok; auto.
Qed.

Lemma delete_step_ack : forall sy k ck fs,
  success (snd (delete_step sy k ck fs)) = true ->
  sy_nolookup sy = false /\ snd (replicas_delete fs (sy_r sy) k ck) = true /\
  key_views (fst (delete_step sy k ck fs)) k =
    slot_view (after_delete (sy_p sy k)) :: map (fun r => server_after_delete r k) (sy_r sy).
Proof.
  intros sy k ck fs Hs. unfold delete_step in *.
  pose proof (delete_local_accepted (sy_p sy k) ck) as Ha.
  destruct (delete_local (sy_p sy k) ck) as [sl st] eqn:Ed. cbn [fst snd] in Ha.
  destruct (st =? 202) eqn:Est; cbn [negb] in *.
  - apply N.eqb_eq in Est. subst st.
    destruct (sy_nolookup sy); [cbn [snd] in Hs; discriminate|].
    rewrite replicas_delete_distributed in *.
    pose proof (distributed_map (fun f r => replica_delete f r k ck) _
                  (fun r => server_view r k) (fun r => server_after_delete r k) (sy_r sy) fs) as Hm.
    destruct (distributed (fun f r => replica_delete f r k ck) fs (sy_r sy)) as [rs ok]. cbn [fst snd] in *.
    destruct ok; [|discriminate]. repeat split.
    unfold key_views. cbn [sy_p sy_r]. rewrite upd_same, Ha, Hm; auto.
    intros f r Hr. apply replica_delete_accepted. apply Hr. reflexivity.
  - exfalso. cbn [snd] in Hs.
    destruct (sy_p sy k) as [|ck0 n0|ck0]; cbn [delete_local] in Ed.
    + injection Ed as _ E. subst st. discriminate.
    + destruct (body_empty (n_body n0)); [injection Ed as _ E; subst st; discriminate|].
      destruct (ck0 =? ck); injection Ed as _ E; subst st; discriminate.
    + injection Ed as _ E. subst st. discriminate.
Qed.

(* after an acknowledged delete exactly the servers that held the Size = 0 record of an
   empty upload still serve the file id *)
Lemma delete_step_deleted : forall sy k ck fs,
  success (snd (delete_step sy k ck fs)) = true ->
  forallb is_deleted (key_views (fst (delete_step sy k ck fs)) k) = negb (trig_empty_slot sy k).
Proof.
  intros sy k ck fs Hs. destruct (delete_step_ack sy k ck fs Hs) as [_ [_ Hv]]. rewrite Hv.
  unfold trig_empty_slot. cbn [forallb]. rewrite negb_orb, (proj1 (after_delete_view _)). f_equal.
  clear Hv. induction (sy_r sy) as [|r rs IH]; [reflexivity|].
  cbn [map forallb existsb]. rewrite IH, negb_orb, (proj1 (server_after_delete_view r k)). reflexivity.
Qed.

(* an acknowledged delete leaves the file id served by no listed location - unless some
   server holds the Size = 0 record of an empty upload for it *)
Theorem delete_step_partial : forall sy k ck fs,
  trig_empty_slot sy k = false ->
  delete_consistent (snd (delete_step sy k ck fs)) (key_views (fst (delete_step sy k ck fs)) k) = true.
Proof.
  intros sy k ck fs Hemp. unfold delete_consistent.
  destruct (success (snd (delete_step sy k ck fs))) eqn:Hs; [|reflexivity].
  rewrite (delete_step_deleted sy k ck fs Hs), Hemp. reflexivity.
Qed.

Theorem trig_empty_slot_exact : forall sy k ck fs,
  trig_empty_slot sy k = true -> success (snd (delete_step sy k ck fs)) = true ->
  delete_consistent (snd (delete_step sy k ck fs)) (key_views (fst (delete_step sy k ck fs)) k) = false.
Proof.
  intros sy k ck fs Ht Hs. unfold delete_consistent.
  rewrite Hs, (delete_step_deleted sy k ck fs Hs), Ht. reflexivity.
Qed.

(* inside the trigger: a server that still serves the file after an acknowledged delete
   serves the empty record *)
Theorem delete_step_residual : forall sy k ck fs,
  success (snd (delete_step sy k ck fs)) = true ->
  forallb gone_or_empty (key_views (fst (delete_step sy k ck fs)) k) = true.
Proof.
  intros sy k ck fs Hs. destruct (delete_step_ack sy k ck fs Hs) as [_ [_ Hv]]. rewrite Hv.
  cbn [forallb]. rewrite (proj2 (after_delete_view _)).
  apply forallb_forall. intros v Hin. apply in_map_iff in Hin. destruct Hin as [r [E _]]. subst v.
  apply server_after_delete_view.
Qed.

(* a replica that fails every attempt of the step (answering 500, dropping the connection,
   or serving the request and losing the answer), a listed volume server that does not
   hold the volume, or a failing location lookup makes the upload fail towards the client *)
Theorem upload_failure_reported : forall sy o q k ck fs,
  existsb blocks_upload (firstn (List.length (sy_r sy)) fs) = true \/ In None (sy_r sy) \/ sy_nolookup sy = true ->
  success (snd (upload_step sy o q k ck fs)) = false.
Proof.
  intros sy o q k ck fs H.
  destruct (success (snd (upload_step sy o q k ck fs))) eqn:Hs; [exfalso|reflexivity].
  destruct (upload_step_ack sy o q k ck fs Hs) as [Hl [Hok [Hnone _]]].
  destruct H as [H|[H|H]]; [|exact (Hnone H)|congruence].
  rewrite replicas_upload_distributed, (distributed_blocked _ blocks_upload) in Hok; [discriminate| |exact H].
  intros f r Hb. unfold replica_upload. rewrite Hb. reflexivity.
Qed.

(* a replica that fails the one attempt of a delete, or a failing lookup, makes the delete fail *)
Theorem delete_failure_reported : forall sy k ck fs,
  existsb blocks_delete (firstn (List.length (sy_r sy)) fs) = true \/ sy_nolookup sy = true ->
  success (snd (delete_step sy k ck fs)) = false.
Proof.
  intros sy k ck fs H.
  destruct (success (snd (delete_step sy k ck fs))) eqn:Hs; [exfalso|reflexivity].
  destruct (delete_step_ack sy k ck fs Hs) as [Hl [Hok _]].
  destruct H as [H|H]; [|congruence].
  rewrite replicas_delete_distributed, (distributed_blocked _ blocks_delete) in Hok; [discriminate| |exact H].
  intros f r Hb. unfold replica_delete. rewrite Hb. reflexivity.
Qed.

Lemma replica_upload_frame : forall f r k ck rn k', k' <> k ->
  server_view (fst (replica_upload f r k ck rn)) k' = server_view r k'.
Proof.
  intros f r k ck rn k' Hk.
  assert (Hs : server_view (fst (replica_serve_upload r k ck rn)) k' = server_view r k').
  { destruct r as [s|]; [|reflexivity]. cbn [replica_serve_upload].
    destruct (write_local (s k) ck rn) as [sl res]. cbn [fst server_view]. rewrite upd_other by exact Hk. reflexivity. }
  unfold replica_upload. destruct (blocks_upload f); cbn [fst]; [|exact Hs].
  destruct (applies f); [exact Hs | reflexivity].
Qed.

Lemma replica_delete_frame : forall f r k ck k', k' <> k ->
  server_view (fst (replica_delete f r k ck)) k' = server_view r k'.
Proof.
  intros f r k ck k' Hk.
  assert (Hs : server_view (fst (replica_serve_delete r k ck)) k' = server_view r k').
  { destruct r as [s|]; [|reflexivity]. cbn [replica_serve_delete].
    destruct (delete_local (s k) ck) as [sl st]. cbn [fst server_view]. rewrite upd_other by exact Hk. reflexivity. }
  unfold replica_delete. destruct (blocks_delete f); cbn [fst]; [|exact Hs].
  destruct (applies f); [exact Hs | reflexivity].
Qed.

Theorem step_frame : forall sy s k', k' <> s_key s ->
  key_views (fst (do_step sy s)) k' = key_views sy k'.
Proof.
  intros sy s k' Hk. unfold do_step. destruct (s_op s) as [o q|].
  - unfold upload_step. destruct (sy_nolookup sy); [reflexivity|].
    destruct (write_local (sy_p sy (s_key s)) (s_ck s) (create_needle o q)) as [sl res].
    destruct (res =? 2); [reflexivity|].
    rewrite replicas_upload_distributed.
    set (d := distributed _ (s_faults s) (sy_r sy)).
    assert (Hf : map (fun r => server_view r k') (fst d) = map (fun r => server_view r k') (sy_r sy))
      by (apply distributed_map; intros f r _; apply replica_upload_frame; exact Hk).
    destruct d as [rs ok].
    cbn [fst] in *. unfold key_views. cbn [sy_p sy_r]. rewrite upd_other by exact Hk. rewrite Hf. reflexivity.
  - unfold delete_step.
    destruct (delete_local (sy_p sy (s_key s)) (s_ck s)) as [sl st].
    destruct (negb (st =? 202)); [reflexivity|]. destruct (sy_nolookup sy); [reflexivity|].
    rewrite replicas_delete_distributed.
    set (d := distributed _ (s_faults s) (sy_r sy)).
    assert (Hf : map (fun r => server_view r k') (fst d) = map (fun r => server_view r k') (sy_r sy))
      by (apply distributed_map; intros f r _; apply replica_delete_frame; exact Hk).
    destruct d as [rs ok].
    cbn [fst] in *. unfold key_views. cbn [sy_p sy_r]. rewrite upd_other by exact Hk. rewrite Hf. reflexivity.
Qed.

(* what the property asks of one step: consistent outside the step's own trigger; inside
   it, the rest of the property (everything but the mime type / the decoded content / only
   empty records survive a delete); every blocking fault reported *)
Definition step_ok (sy : sys) (s : step) : Prop :=
  (step_trigger sy s = None ->
   step_consistent s (snd (do_step sy s)) (key_views (fst (do_step sy s)) (s_key s)) = true) /\
  step_residual s (step_trigger sy s) (snd (do_step sy s)) (key_views (fst (do_step sy s)) (s_key s)) = true /\
  (step_blocked s (List.length (sy_r sy)) = true -> success (snd (do_step sy s)) = false).

Fixpoint hist_ok (sy : sys) (h : list step) : Prop :=
  match h with
  | [] => True
  | s :: h' => step_ok sy s /\ hist_ok (fst (do_step sy s)) h'
  end.

Theorem every_step_ok : forall sy s, step_ok sy s.
Proof.
  intros sy s. unfold step_ok, step_trigger, step_consistent, step_residual, step_blocked, do_step.
  destruct (s_op s) as [o q|]; repeat split.
  - intros Ht.
    destruct (trig_empty o q) eqn:E1; [discriminate|].
    destruct (trig_unchanged sy o q (s_key s) (s_ck s)) eqn:E2; [discriminate|].
    destruct (trig_mime o q) eqn:E3; [discriminate|].
    apply upload_step_partial; assumption.
  - destruct (success (snd (upload_step sy o q (s_key s) (s_ck s) (s_faults s)))) eqn:Hs; [|reflexivity].
    cbn [negb orb]. unfold key_views.
    pose proof (upload_step_content sy o q (s_key s) (s_ck s) (s_faults s) Hs) as Hc.
    destruct (trig_empty o q) eqn:E1; [exact Hc|].
    destruct (trig_unchanged sy o q (s_key s) (s_ck s)) eqn:E2; [exact Hc|].
    destruct (trig_mime o q) eqn:E3; [|exact Hc].
    apply upload_step_but_mime; assumption.
  - intros Hb. apply upload_failure_reported. left. exact Hb.
  - intros Ht. destruct (trig_empty_slot sy (s_key s)) eqn:E1; [discriminate|].
    apply delete_step_partial. exact E1.
  - destruct (success (snd (delete_step sy (s_key s) (s_ck s) (s_faults s)))) eqn:Hs; [|reflexivity].
    cbn [negb orb]. exact (delete_step_residual sy (s_key s) (s_ck s) (s_faults s) Hs).
  - intros Hb. apply delete_failure_reported. left. exact Hb.
Qed.

Theorem history_partial : forall h sy, hist_ok sy h.
Proof.
  induction h as [|s h IH]; intros sy; [exact I|]. split; [apply every_step_ok | apply IH].
Qed.

Lemma same_outcome_lastmod : forall a b, same_outcome a b = true -> so_lastmod a = so_lastmod b.
Proof.
  intros a b H. apply same_outcome_eq in H. unfold outcome_of in H.
  injection H as H1 H2 H3 H4 H5 H6 H7 H8 H9 H10. exact H5.
Qed.

(* trigger 0: the primary's and the replica's needle differ in the mime type *)
Lemma trig_mime_differs : forall o q,
  trig_mime o q = true ->
  same_outcome (view_of (create_needle o q)) (view_of (create_needle o (replicate o (create_needle o q)))) = false.
Proof.
  intros o q H. rewrite trig_mime_spec in H. apply andb_true_iff in H. destruct H as [Hb Hm].
  apply negb_true_iff in Hb. apply negb_true_iff in Hm.
  destruct (same_outcome _ _) eqn:Es; [|reflexivity]. apply same_outcome_split in Es. destruct Es as [_ Es].
  unfold view_of in Es. rewrite Hb, (replica_body_nonempty o q Hb) in Es. cbn [so_mime] in Es.
  rewrite !mime_view in Es. rewrite Es, String.eqb_refl in Hm. discriminate.
Qed.

(* trigger 1 (uploads): the primary reads back nothing, the replica a last-modified time *)
Lemma trig_empty_differs : forall o q,
  trig_empty o q = true -> n_lastmod (create_needle o q) mod 1099511627776 <> 0 ->
  same_outcome (view_of (create_needle o q)) (view_of (create_needle o (replicate o (create_needle o q)))) = false.
Proof.
  intros o q H Hlm. destruct (same_outcome _ _) eqn:Es; [exfalso|reflexivity].
  apply same_outcome_lastmod in Es.
  unfold trig_empty in H. cbv zeta in H. apply andb_true_iff in H. destruct H as [Hb Hb']. apply negb_true_iff in Hb'.
  unfold view_of in Es. rewrite Hb, Hb' in Es. cbn [blank so_lastmod] in Es.
  rewrite (replica_lastmod o q) in Es. congruence.
Qed.

(* on a file id the primary and the first listed replica do not hold yet, an acknowledged
   upload whose two needles differ is inconsistent *)
Lemma upload_fresh_differs : forall o q k ck p s rs fs,
  p k = Absent -> s k = Absent ->
  same_outcome (view_of (create_needle o q)) (view_of (create_needle o (replicate o (create_needle o q)))) = false ->
  let r := upload_step {| sy_p := p; sy_r := Some s :: rs; sy_nolookup := false |} o q k ck fs in
  success (snd r) = true -> upload_consistent (snd r) (key_views (fst r) k) = false.
Proof.
  intros o q k ck p s rs fs Hp Hsk Hd r Hs. unfold upload_consistent. rewrite Hs.
  destruct (upload_step_ack _ o q k ck fs Hs) as [_ [_ [_ Hv]]]. unfold r. rewrite Hv.
  cbn [sy_p sy_r map forallb server_kept_view]. rewrite Hp, Hsk. unfold kept_view. cbn [is_unchanged].
  rewrite Hd. reflexivity.
Qed.

Theorem trig_mime_exact : forall o q k ck p s rs fs,
  p k = Absent -> s k = Absent -> trig_mime o q = true ->
  let r := upload_step {| sy_p := p; sy_r := Some s :: rs; sy_nolookup := false |} o q k ck fs in
  success (snd r) = true -> upload_consistent (snd r) (key_views (fst r) k) = false.
Proof.
  intros o q k ck p s rs fs Hp Hs Ht. apply upload_fresh_differs; [assumption | assumption |].
  apply trig_mime_differs. exact Ht.
Qed.

Theorem trig_empty_exact : forall o q k ck p s rs fs,
  p k = Absent -> s k = Absent -> trig_empty o q = true ->
  n_lastmod (create_needle o q) mod 1099511627776 <> 0 ->
  let r := upload_step {| sy_p := p; sy_r := Some s :: rs; sy_nolookup := false |} o q k ck fs in
  success (snd r) = true -> upload_consistent (snd r) (key_views (fst r) k) = false.
Proof.
  intros o q k ck p s rs fs Hp Hs Ht Hlm. apply upload_fresh_differs; [assumption | assumption |].
  apply trig_empty_differs; assumption.
Qed.

(* outside triggers 0 and 1, an acknowledged upload inside trigger 2 is inconsistent *)
Theorem trig_unchanged_exact : forall sy o q k ck fs,
  trig_unchanged sy o q k ck = true -> trig_empty o q = false -> trig_mime o q = false ->
  success (snd (upload_step sy o q k ck fs)) = true ->
  upload_consistent (snd (upload_step sy o q k ck fs)) (key_views (fst (upload_step sy o q k ck fs)) k) = false.
Proof.
  intros sy o q k ck fs Ht Hemp Hmime Hs. unfold upload_consistent. rewrite Hs. cbn [negb orb].
  pose proof (proj1 (same_outcome_eq _ _) (same_outcome_views o q Hemp Hmime)) as Hnr.
  destruct (upload_step_ack sy o q k ck fs Hs) as [_ [_ [Hnone Hv]]]. rewrite Hv. clear Hv Hs.
  unfold trig_unchanged in Ht. cbv zeta in Ht.
  set (n := create_needle o q) in *. set (rn := create_needle o (replicate o n)) in *.
  set (pv := kept_view (sy_p sy k) ck n).
  apply andb_true_iff in Ht. destruct Ht as [Hdrops Halike]. apply negb_true_iff in Halike.
  destruct (forallb (same_outcome pv) (map (fun r => server_kept_view r k ck rn) (sy_r sy))) eqn:Eall; [exfalso|reflexivity].
  (* every replica ends with the primary's outcome *)
  assert (Hall : forall s, In (Some s) (sy_r sy) -> outcome_of pv = outcome_of (kept_view (s k) ck rn)).
  { intros s Hin. apply same_outcome_eq. rewrite forallb_forall in Eall.
    apply (Eall _ (in_map (fun r => server_kept_view r k ck rn) _ _ Hin)). }
  (* the primary's outcome is the one of the needle it was sent *)
  assert (Hpn : outcome_of pv = outcome_of (view_of n)).
  { unfold pv, kept_view in *. destruct (is_unchanged (sy_p sy k) ck n) eqn:Eu; [|reflexivity].
    unfold all_unchanged_alike in Halike. rewrite Eu in Halike.
    destruct (forallb_false_exists _ _ _ Halike) as [[s|] [Hin Hf]]; [|contradiction].
    specialize (Hall s Hin). cbn [server_unchanged_alike] in Hf.
    destruct (is_unchanged (s k) ck rn); [|congruence].
    apply same_outcome_eq in Hall. cbn [andb] in Hf. congruence. }
  (* so no server keeps another outcome *)
  apply orb_true_iff in Hdrops. destruct Hdrops as [Hd|Hd].
  - unfold unchanged_drops in Hd. apply andb_true_iff in Hd. destruct Hd as [Hu Hd].
    unfold pv, kept_view in Hpn. rewrite Hu in Hpn. apply same_outcome_eq in Hpn. rewrite Hpn in Hd. discriminate.
  - apply existsb_exists in Hd. destruct Hd as [[s|] [Hin Hd]]; [|discriminate].
    specialize (Hall s Hin). cbn [server_unchanged_drops] in Hd. unfold unchanged_drops in Hd.
    apply andb_true_iff in Hd. destruct Hd as [Hu Hd]. unfold kept_view in Hall. rewrite Hu in Hall.
    assert (Hx : same_outcome (slot_view (s k)) (view_of rn) = true) by (apply same_outcome_eq; congruence).
    rewrite Hx in Hd. discriminate.
Qed.

(* ts = 12345 in every witness request *)
Definition mk_req (put : bool) (name ctype : string) (blen bcrc : N) : request :=
  {| q_put := put; q_name := name; q_ctype := ctype; q_gzip := false; q_pairs := [];
     q_ts := 12345; q_ttl_set := false; q_ttl := (0, 0); q_cm := false;
     q_body := {| b_len := blen; b_crc := bcrc; b_gz := false |} |}.
Definition mk_or (detect : string) (exts : list (string * string)) : oracles :=
  {| o_detect := detect; o_gz128 := false; o_ext_types := exts |}.
Definition mk_step (o : op) (fs : list N) : step := {| s_key := 7; s_ck := 9; s_op := o; s_faults := fs |}.

Definition txt_types : list (string * string) := [(".txt", "text/plain; charset=utf-8")].
Definition text_utf8 : string := "text/plain; charset=utf-8".
Definition one_replica : sys := init 1 false false.

(* no mime on the primary, a text payload: the replica stores the sniffed type *)
Definition witness_sniffed : list step :=
  [mk_step (Up (mk_or text_utf8 [(".bin", octet)]) (mk_req false "b.bin" "" 24 1485685935)) [0]].
(* PUT with application/octet-stream: kept by the primary, dropped by the replica *)
Definition witness_put_octet : list step :=
  [mk_step (Up (mk_or octet []) (mk_req true "" octet 10 1164760902)) [0]].
(* empty payload, then a delete *)
Definition witness_empty : list step :=
  [mk_step (Up (mk_or text_utf8 txt_types) (mk_req false "a.txt" "text/plain" 0 0)) [0]; mk_step Del [0]].
(* the same bytes again under another mime type: the primary answers "unchanged" and keeps
   the old one, the replica - whose stored bytes were the gzip stream - stores the new one *)
Definition witness_unchanged : list step :=
  [mk_step (Up (mk_or text_utf8 txt_types) (mk_req false "a.txt" "text/plain" 24 1485685935)) [0];
   mk_step (Up (mk_or text_utf8 txt_types) (mk_req false "a.txt" "image/jpeg" 24 1485685935)) [0]].
(* a failed upload, then the same bytes under another name: the primary keeps the first
   name, the replica stores the second *)
Definition witness_unchanged_fault : list step :=
  [mk_step (Up (mk_or text_utf8 txt_types) (mk_req false "a.txt" "text/x-log" 24 1485685935)) [1];
   mk_step (Up (mk_or text_utf8 txt_types) (mk_req false "b.txt" "text/x-log" 24 1485685935)) [0]].
(* a failed upload and the identical retry *)
Definition witness_retry : list step :=
  [mk_step (Up (mk_or text_utf8 txt_types) (mk_req false "a.txt" "text/x-log" 24 1485685935)) [1];
   mk_step (Up (mk_or text_utf8 txt_types) (mk_req false "a.txt" "text/x-log" 24 1485685935)) [0]].
(* a listed location without the volume *)
Definition witness_lost_volume : list step :=
  [mk_step (Up (mk_or text_utf8 txt_types) (mk_req false "a.txt" "text/plain" 24 1485685935)) [0]].

(* statuses, and what the servers serve for the witness file id (7, see mk_step) after every step *)
Definition statuses (sy : sys) (h : list step) : list N := map snd (run sy h).
Definition views_of_run (sy : sys) (h : list step) : list (list view) := map (fun r => key_views (fst r) 7) (run sy h).
Fixpoint triggers_of_run (sy : sys) (h : list step) : list (option N) :=
  match h with [] => [] | s :: h' => step_trigger sy s :: triggers_of_run (fst (do_step sy s)) h' end.
Definition consistent_of_run (sy : sys) (h : list step) : list bool :=
  map (fun x => step_consistent (fst x) (snd (snd x)) (key_views (fst (snd x)) 7)) (combine h (run sy h)).

Theorem same_outcome_refuted_mime :
  statuses one_replica witness_sniffed = [201] /\
  consistent_of_run one_replica witness_sniffed = [false] /\
  triggers_of_run one_replica witness_sniffed = [Some 0] /\
  map (map so_mime) (views_of_run one_replica witness_sniffed) = [[""; text_utf8]] /\
  statuses one_replica witness_put_octet = [201] /\
  triggers_of_run one_replica witness_put_octet = [Some 0] /\
  map (map so_mime) (views_of_run one_replica witness_put_octet) = [[octet; ""]].
Proof. vm_compute. repeat split. Qed.

Theorem same_outcome_refuted_empty :
  statuses one_replica witness_empty = [201; 202] /\
  consistent_of_run one_replica witness_empty = [false; false] /\
  triggers_of_run one_replica witness_empty = [Some 1; Some 1] /\
  map (map so_name) (views_of_run one_replica witness_empty) = [[""; "a.txt"]; [""; ""]] /\
  map (map so_state) (views_of_run one_replica witness_empty) = [[0; 0]; [0; 2]].
Proof. vm_compute. repeat split. Qed.

Theorem same_outcome_refuted_unchanged :
  statuses one_replica witness_unchanged = [201; 204] /\
  consistent_of_run one_replica witness_unchanged = [true; false] /\
  triggers_of_run one_replica witness_unchanged = [None; Some 2] /\
  map (map so_mime) (views_of_run one_replica witness_unchanged) = [["text/plain"; "text/plain"]; ["text/plain"; "image/jpeg"]] /\
  statuses one_replica witness_unchanged_fault = [500; 204] /\
  consistent_of_run one_replica witness_unchanged_fault = [true; false] /\
  triggers_of_run one_replica witness_unchanged_fault = [None; Some 2] /\
  map (map so_name) (views_of_run one_replica witness_unchanged_fault) = [["a.txt"; ""]; ["a.txt"; "b.txt"]].
Proof. vm_compute. repeat split. Qed.

(* the identical retry of an upload that failed on the replica is sent to the replica
   although the primary finds its own copy unchanged *)
Theorem retry_reaches_replica :
  statuses one_replica witness_retry = [500; 204] /\
  triggers_of_run one_replica witness_retry = [None; None] /\
  map (map so_state) (views_of_run one_replica witness_retry) = [[0; 1]; [0; 0]] /\
  consistent_of_run one_replica witness_retry = [true; true].
Proof. vm_compute. repeat split. Qed.

(* a listed location that does not hold the volume holds nothing afterwards, and the upload
   is answered with 500 *)
Theorem lost_volume_reported :
  statuses (init 1 true false) witness_lost_volume = [500] /\
  map (map so_state) (views_of_run (init 1 true false) witness_lost_volume) = [[0; 3]] /\
  consistent_of_run (init 1 true false) witness_lost_volume = [true].
Proof. vm_compute. repeat split. Qed.

Theorem same_outcome_refuted : exists h,
  exists2 r, nth_error (run one_replica h) 0 = Some r &
  success (snd r) = true /\ upload_consistent (snd r) (key_views (fst r) 7) = false.
Proof.
  exists witness_sniffed. eexists; [reflexivity|]. vm_compute. split; reflexivity.
Qed.

(* non-vacuity of the partial theorems: a three-step history on two replicas, outside
   every trigger at every step *)
Definition example_up : op :=
  Up {| o_detect := "text/plain; charset=utf-8"; o_gz128 := true;
        o_ext_types := [(".txt", "text/plain; charset=utf-8")] |}
     {| q_put := false; q_name := "dir/report.txt"; q_ctype := "text/x-log"; q_gzip := false;
        q_pairs := [("A", "1"); ("Bb", "v v")]; q_ts := 0; q_ttl_set := true; q_ttl := (3, 1);
        q_cm := false; q_body := {| b_len := 19800; b_crc := 3515653520; b_gz := false |} |}.
Definition example_hist : list step :=
  [{| s_key := 7; s_ck := 9; s_op := example_up; s_faults := [0; 1] |};
   {| s_key := 7; s_ck := 9; s_op := example_up; s_faults := [4; 0] |};
   {| s_key := 7; s_ck := 9; s_op := Del; s_faults := [0; 0] |}].

Lemma example_history :
  triggers_of_run (init 2 false false) example_hist = [None; None; None] /\
  statuses (init 2 false false) example_hist = [500; 204; 202] /\
  map (map so_flags) (views_of_run (init 2 false false) example_hist) = [[62; 63; 0]; [62; 63; 63]; [0; 0; 0]] /\
  map (map so_state) (views_of_run (init 2 false false) example_hist) = [[0; 0; 1]; [0; 0; 0]; [2; 2; 2]] /\
  map (map so_name) (views_of_run (init 2 false false) example_hist) =
    [["report.txt"; "report.txt"; ""]; ["report.txt"; "report.txt"; "report.txt"]; [""; ""; ""]] /\
  consistent_of_run (init 2 false false) example_hist = [true; true; true].
Proof. vm_compute. repeat split. Qed.

(* non-vacuity of the exactness theorems' hypotheses *)
Lemma example_exact :
  trig_mime (mk_or text_utf8 [(".bin", octet)]) (mk_req false "b.bin" "" 24 1485685935) = true /\
  trig_empty (mk_or text_utf8 txt_types) (mk_req false "a.txt" "text/plain" 0 0) = true /\
  n_lastmod (create_needle (mk_or text_utf8 txt_types) (mk_req false "a.txt" "text/plain" 0 0)) mod 1099511627776 <> 0 /\
  (* an empty payload under a type that is not compressed reaches the replica empty: no trigger *)
  trig_empty (mk_or text_utf8 [(".jpg", "image/jpeg")]) (mk_req false "c.jpg" "image/png" 0 0) = false.
Proof. vm_compute. repeat split. discriminate. Qed.
