(* C06: WriteDatFile (ec_decoder.go, repaired `>`) turns the data shards back
   into the original .dat. *)
From Coq Require Import List ZArith NArith Bool Lia ZifyBool.
From SW Require Import model.EC proof.ECProofs proof.ECReadProofs.
Import ListNotations.
Local Open Scope Z_scope.

(* invariant rule for the `for shardId := 0; shardId < 10; shardId++` loops *)
Lemma fold_zcount_inv {St} (step : St -> Z -> St) (P : Z -> St -> Prop) :
  forall n j st, P j st ->
  (forall i st', j <= i < j + Z.of_nat n -> P i st' -> P (i + 1) (step st' i)) ->
  P (j + Z.of_nat n) (fold_left step (zcount j n) st).
Proof.
  induction n as [|n IH]; intros j st H0 Hstep.
  - cbn. replace (j + 0) with j by lia. exact H0.
  - cbn [zcount fold_left].
    replace (j + Z.of_nat (S n)) with ((j + 1) + Z.of_nat n) by lia.
    apply IH.
    + apply Hstep; [lia|exact H0].
    + intros i st' Hi HP. apply Hstep; [lia|exact HP].
Qed.

Section Decode.
  Variables (dat : Z -> byte) (L S D R s : Z) (sh : list (list byte)).
  Hypothesis HL : 0 < L.
  Hypothesis HS : 0 < S.
  Hypothesis HD : 0 <= D.
  Hypothesis Hlay : layout L S D R s.
  Hypothesis EF : enc_facts dat L S D R s sh.

  (* one pass over the 10 shards in a row of a region; shard i gives n_of(remaining) bytes,
     which is min(remaining, block size) in both loops of WriteDatFile *)
  Section Row.
    Variables (b proc bs n : Z) (n_of : Z -> Z).
    Hypothesis Hreg : region dat D sh b proc bs n.
    Hypothesis Hbs : 0 < bs.
    Hypothesis Hproc : 0 <= proc.

    (* in front of row k: all bytes before it are written, every shard stands at its block k *)
    Definition at_row (k : Z) (s0 : wstate) : Prop :=
      w_rem s0 = D - proc - k * (bs * 10) /\ w_out s0 = dslice dat 0 (D - w_rem s0) /\
      forall x, 0 <= x < 10 -> w_pos s0 x = b + k * bs.

    (* inside row k, shards 0..i-1 done, rem0 bytes were left at its start *)
    Definition in_row (k rem0 i : Z) (st : option wstate) : Prop :=
      exists s0, st = Some s0 /\ w_rem s0 = Z.max 0 (rem0 - i * bs) /\
        w_out s0 = dslice dat 0 (D - w_rem s0) /\
        (forall x, i <= x < 10 -> w_pos s0 x = b + k * bs) /\
        (0 < w_rem s0 -> forall x, 0 <= x < i -> w_pos s0 x = b + (k + 1) * bs).

    Lemma row_copied k s0 : 0 <= k < n -> at_row k s0 -> 0 < w_rem s0 ->
      (forall i, 0 <= i < 10 -> n_of (Z.max 0 (w_rem s0 - i * bs)) = Z.min (Z.max 0 (w_rem s0 - i * bs)) bs) ->
      exists s1, wd_row sh n_of (Some s0) = Some s1 /\ w_rem s1 = Z.max 0 (w_rem s0 - 10 * bs) /\
        w_out s1 = dslice dat 0 (D - w_rem s1) /\ (0 < w_rem s1 -> at_row (k + 1) s1).
    Proof.
      intros Hk (Hrem & Hout & Hpos) Hrem0 Hn_of. assert (0 <= k * (bs * 10)) by nia.
      assert (H10 : in_row k (w_rem s0) (0 + Z.of_nat 10) (wd_row sh n_of (Some s0))).
      { apply fold_zcount_inv with (P := in_row k (w_rem s0)).
        - exists s0. split; [reflexivity|]. split; [lia|]. split; [exact Hout|].
          split; intros; [apply Hpos|]; lia.
        - intros i st' Hi (s1 & -> & Hrem1 & Hout1 & Hge & Hlt).
          unfold wd_step. rewrite (Hge i), Hrem1, Hn_of, <- Hrem1 by lia.
          rewrite <- (Z.add_0_r (b + k * bs)).
          rewrite (region_copy dat D sh b proc bs n) by (auto; lia).
          rewrite dslice_datz by lia.
          eexists. split; [reflexivity|]. cbn [w_rem w_pos w_out]. split; [lia|]. split; [|split].
          + destruct (Z.eq_dec (Z.min (w_rem s1) bs) 0) as [->|Hm].
            * rewrite dslice_0, app_nil_r, Hout1. f_equal. lia.
            * replace (proc + k * (bs * 10) + i * bs + 0) with (0 + (D - w_rem s1)) by lia.
              rewrite Hout1, dslice_app by lia. f_equal. lia.
          + intros x Hx. unfold upd. destruct (x =? i) eqn:Ex; [lia|]. apply Hge. lia.
          + intros Hpos1 x Hx. unfold upd. destruct (x =? i) eqn:Ex; [lia|]. apply Hlt; lia. }
      destruct H10 as (s1 & -> & Hrem1 & Hout1 & _ & Hlt1).
      exists s1. split; [reflexivity|]. split; [lia|]. split; [exact Hout1|].
      intros H1. split; [lia|]. split; [exact Hout1|]. intros x Hx. apply Hlt1; lia.
    Qed.
  End Row.

  (* `for datFileSize > 10*large`: it ends in front of the small rows *)
  Lemma large_loop : forall fuel k s0, 0 <= k <= R -> (Z.to_nat (R - k) <= fuel)%nat ->
    at_row 0 0 L k s0 -> exists s1, wd_large fuel L sh (Some s0) = Some s1 /\ at_row 0 0 L R s1.
  Proof.
    destruct (layout_bounds L S D R s HL Hlay) as (_ & _ & _ & Hlt & Hge).
    induction fuel as [|f IH]; intros k s0 Hk Hf Hat.
    - assert (k = R) by lia. subst k. exists s0. split; [reflexivity|exact Hat].
    - cbn [wd_large]. pose proof Hat as (Hrem & _).
      assert ((k + 1) * (L * 10) <= R * (L * 10) \/ k = R) by nia.
      destruct (w_rem s0 >? 10 * L) eqn:E.
      + assert (k <> R) by (intros ->; lia).
        destruct (row_copied 0 0 L R (fun _ => L) (ef_large EF) HL (Z.le_refl 0) k s0)
          as (s1 & -> & Hrem1 & _ & Hat1); try lia; [exact Hat|intros i Hi; nia|].
        apply (IH (k + 1) s1); try lia. apply Hat1. lia.
      + assert (k = R) by lia. subst k. exists s0. split; [reflexivity|exact Hat].
  Qed.

  (* `for datFileSize > 0`, from small row k on *)
  Lemma small_loop : forall fuel k s0, 0 <= k -> (Z.to_nat (w_rem s0) <= fuel)%nat ->
    w_out s0 = dslice dat 0 (D - w_rem s0) -> 0 <= w_rem s0 ->
    (0 < w_rem s0 -> at_row (R * L) (R * (L * 10)) S k s0) ->
    exists s1, wd_small fuel S sh (Some s0) = Some s1 /\ w_out s1 = dslice dat 0 D.
  Proof.
    destruct (layout_bounds L S D R s HL Hlay) as (HR & _ & Hend & _).
    assert (HRL : 0 <= R * (L * 10)) by nia.
    induction fuel as [|f IH]; intros k s0 Hk Hf Hout Hrem Hat.
    - exists s0. split; [reflexivity|]. rewrite Hout. f_equal. lia.
    - cbn [wd_small]. destruct (w_rem s0 >? 0) eqn:E.
      + specialize (Hat ltac:(lia)). pose proof Hat as (Hrem0 & _).
        assert (k < s) by nia.
        destruct (row_copied (R * L) (R * (L * 10)) S s (fun r => Z.min r S) (ef_small EF) HS HRL k s0)
          as (s1 & -> & Hrem1 & Hout1 & Hat1); try lia; [exact Hat|].
        apply (IH (k + 1) s1); try lia. exact Hout1. exact Hat1.
      + exists s0. split; [reflexivity|]. rewrite Hout. f_equal. lia.
  Qed.

  Lemma write_dat_exact : write_dat L S sh D = Some (dslice dat 0 D).
  Proof.
    destruct (layout_bounds L S D R s HL Hlay) as (HR & _ & _ & Hlt & _).
    unfold write_dat.
    destruct (large_loop (Z.to_nat D) 0 (mkW D (fun _ => 0) [])) as (s1 & -> & Hrem1 & Hout1 & Hpos1).
    { lia. }
    { destruct (Z.eq_dec R 0); [lia|]. specialize (Hlt ltac:(lia)). nia. }
    { unfold at_row. cbn [w_rem w_out w_pos]. split; [lia|]. split; [|intros; lia].
      rewrite Z.sub_diag. reflexivity. }
    destruct (small_loop (Z.to_nat (w_rem s1)) 0 s1 ltac:(lia) (le_n _) Hout1) as (s2 & -> & ->).
    - lia.
    - intros _. split; [lia|]. split; [exact Hout1|]. intros x Hx. rewrite Hpos1; lia.
    - reflexivity.
  Qed.
End Decode.

Theorem decode_exact : forall dat L S buf D,
  sizes_ok L S buf -> 0 <= D ->
  write_dat L S (data_shards dat L S buf D) D = Some (dslice dat 0 D).
Proof.
  intros dat L S buf D Hok HD.
  destruct (shards_facts dat L S buf D Hok HD) as (R & s & HL & HS & Hlay & _ & EF).
  eapply write_dat_exact; eauto.
Qed.
