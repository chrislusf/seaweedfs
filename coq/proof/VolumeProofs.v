(* Proofs about model/Volume.v (C01): comparison functions, the per-key invariant, witnesses of the
   two findings.  The refinement theorems are in VolumeKeyMain.v. *)
From Coq Require Import List NArith ZArith Bool Lia.
From SW Require Import proof.ListFacts model.Volume.
From SW Require Export proof.VolumeFacts.
Import ListNotations.
Local Open Scope N_scope.

Lemma bytes_eqb_eq : forall a b, bytes_eqb a b = true <-> a = b.
Proof. exact (eqb_list_eq N.eqb N.eqb_eq). Qed.

Lemma bytes_eqb_refl : forall a, bytes_eqb a a = true.
Proof. intro a. apply bytes_eqb_eq. reflexivity. Qed.

Lemma pair_eqb_eq : forall a b, pair_eqb a b = true <-> a = b.
Proof.
  intros [a1 a2] [b1 b2]. unfold pair_eqb. simpl. rewrite andb_true_iff, !N.eqb_eq.
  split; [intros [-> ->]; reflexivity | intro H; inversion H; auto].
Qed.

Lemma view_eqb_eq : forall a b, view_eqb a b = true <-> a = b.
Proof.
  intros a b. unfold view_eqb. rewrite !andb_true_iff, !N.eqb_eq, !bytes_eqb_eq, pair_eqb_eq.
  destruct a, b; simpl. split.
  - intros [[[[[[[[H1 H2] H3] H4] H5] H6] H7] H8] H9]. subst. reflexivity.
  - intro H. inversion H; subst. repeat split; reflexivity.
Qed.

Lemma hview_eqb_refl : forall a, hview_eqb a a = true.
Proof.
  intro a. unfold hview_eqb. rewrite !bytes_eqb_refl, N.eqb_refl. simpl. destruct (h_gzip a); reflexivity.
Qed.

Lemma view_eqb_refl : forall a, view_eqb a a = true.
Proof. intro a. apply view_eqb_eq. reflexivity. Qed.

Lemma s_get_same : forall m k v, s_get ((k, v) :: m) k = Some v.
Proof. intros. simpl. rewrite N.eqb_refl. reflexivity. Qed.
Lemma s_get_other : forall m k k' v, k' <> k -> s_get ((k', v) :: m) k = s_get m k.
Proof. intros m k k' v H. simpl. apply N.eqb_neq in H. rewrite H. reflexivity. Qed.

(* a representable needle reads back in full *)
Lemma wf_view : forall n, wf_needle n = true -> view_of n = exp_view n.
Proof.
  intros n H. unfold wf_needle in H. rewrite !andb_true_iff in H. destruct H as [[[[_ H2] H3] _] _].
  unfold view_of, exp_view, stored_name.
  rewrite firstn_all2 by (unfold blen in H2; apply N.ltb_lt in H2; lia).
  apply N.ltb_lt in H3. rewrite (N.mod_small _ _ H3). reflexivity.
Qed.

Lemma view_expired_exp : forall n a now,
  view_expired (exp_view n) a now =
  expirable n && negb (now <? a + ttl_minutes (v_ttl (exp_view n)) * 60000000000).
Proof.
  intros. unfold view_expired, expirable.
  destruct (has_ttl (v_flags (exp_view n))), (negb (ttl_minutes (v_ttl (exp_view n)) =? 0)),
    (has_lastmod (v_flags (exp_view n))); reflexivity.
Qed.

(* one key of the volume against its entry in the specification: a live entry is the record the
   needle map points at, read back in full; a deleted one has a negative size in the needle map.
   [seen]: the needles written so far *)
Definition R_entry (st : vol) (seen : list needle) (id : N) (oe : option sentry) : Prop :=
  match oe with
  | None => nm_get (nm st) id = None
  | Some e =>
      match s_live e with
      | Some (n, t) =>
          exists off r,
            nm_get (nm st) id = Some {| nv_off := off; nv_size := Z.of_N (r_size r) |} /\
            find_rec (recs st) off = Some r /\ off <> 0 /\ 0 < r_size r /\
            view_of (r_n r) = exp_view n /\
            n_cookie n = s_cookie e /\ n_id n = id /\
            (expirable n = true -> r_at r = t) /\ In n seen
      | None =>
          exists off sz r,
            nm_get (nm st) id = Some {| nv_off := off; nv_size := sz |} /\ (sz < 0)%Z /\
            find_rec (recs st) off = Some r /\ off <> 0 /\ n_cookie (r_n r) = s_cookie e
      end
  end.

Lemma R_entry_frame : forall st st' seen seen' id oe,
  R_entry st seen id oe ->
  nm_get (nm st') id = nm_get (nm st) id ->
  (forall off r, find_rec (recs st) off = Some r -> find_rec (recs st') off = Some r) ->
  incl seen seen' ->
  R_entry st' seen' id oe.
Proof.
  intros st st' seen seen' id oe H Hnm Hrec Hincl. unfold R_entry in *.
  destruct oe as [e|]; [|congruence].
  destruct (s_live e) as [[n t]|].
  - destruct H as (off & r & H1 & H2 & H3 & H4 & H5 & H6 & H7 & H8 & H9).
    exists off, r. rewrite Hnm. repeat split; auto.
  - destruct H as (off & sz & r & H1 & H2 & H3 & H4 & H5).
    exists off, sz, r. rewrite Hnm. repeat split; auto.
Qed.

Definition fresh (seen : list needle) (n : needle) : Prop := existsb (conflicts n) seen = false.

Lemma fresh_not_conflict : forall seen n n0, fresh seen n -> In n0 seen -> conflicts n n0 = false.
Proof.
  intros seen n n0 Hf Hi. unfold fresh in Hf.
  destruct (conflicts n n0) eqn:E; [|reflexivity].
  assert (existsb (conflicts n) seen = true) by (apply existsb_exists; exists n0; auto). congruence.
Qed.

Lemma count_nonneg : forall b : bytes, (Z.of_N (blen b) <? 0)%Z = false.
Proof. intro b. apply Z.ltb_ge. lia. Qed.

Theorem reads_pure : forall st t id c rd,
  fst (step st (t, Get id c rd)) = st /\ fst (step st (t, RawRead id c rd)) = st.
Proof.
  intros. unfold step. destruct (http_get st id c rd t). destruct (store_read st id c rd t) as [[e cnt] v].
  split; reflexivity.
Qed.

Theorem readonly_rejects : forall st t,
  is_read_only st = true ->
  (forall n, step st (t, Write n) = (st, OWrite EReadOnly false 0)) /\
  (forall u, step st (t, Post u) = (st, OPost 500 EReadOnly)).
Proof.
  intros st t H. split; intros; unfold step, store_write; rewrite H; reflexivity.
Qed.

Definition mk (id cookie : N) (data : bytes) (flags : N) (name mime : bytes) (lastmod : N) : needle :=
  {| n_id := id; n_cookie := cookie; n_data := data; n_flags := flags; n_name := name; n_mime := mime;
     n_pairs := []; n_lastmod := lastmod; n_ttl := (0, 0) |}.

(* finding 0: an empty blob (cookie 10, name "nm") is served to cookie 11, "deleted" with 202, and still served *)
Definition witness_empty : list event :=
  [(1000, Write (mk 1 10 [] 2 [110; 109] [] 0)); (2000, Get 1 11 false); (3000, Del 1 10); (4000, Get 1 10 false)].

(* finding 1: the same bytes and cookie with another name / mime / last-modified are acknowledged and dropped *)
Definition witness_unchanged : list event :=
  [(1000, Write (mk 4 12 [104; 101; 108; 108; 111] 14 [110; 49] [116; 47; 97] 12345));
   (2000, Write (mk 4 12 [104; 101; 108; 108; 111] 14 [110; 50] [116; 47; 98] 12346));
   (3000, Get 4 12 false)].

Lemma refines_refuted_empty :
  wf_history witness_empty = true /\ meta_dup [] witness_empty = false /\
  empty_payload witness_empty = true /\
  all2 match_out (spec_run spec_init witness_empty) (run init witness_empty) = false /\
  run init witness_empty =
    [OWrite ENone false 0; OGet 200 blank_hview; ODel 202 0; OGet 200 blank_hview].
Proof. vm_compute. repeat split; reflexivity. Qed.

Lemma refines_refuted_unchanged :
  wf_history witness_unchanged = true /\ empty_payload witness_unchanged = false /\
  meta_dup [] witness_unchanged = true /\
  all2 match_out (spec_run spec_init witness_unchanged) (run init witness_unchanged) = false /\
  run init witness_unchanged =
    [OWrite ENone false 22; OWrite ENone true 0;
     OGet 200 {| h_data := [104; 101; 108; 108; 111]; h_name := [110; 49]; h_mime := [116; 47; 97];
                 h_pairs := []; h_lastmod := 12345; h_gzip := false |}].
Proof. vm_compute. repeat split; reflexivity. Qed.

Lemma refuted_empty_ex :
  exists h, wf_history h = true /\ meta_dup [] h = false /\
            all2 match_out (spec_run spec_init h) (run init h) = false.
Proof. exists witness_empty. destruct refines_refuted_empty as (A & B & _ & D & _). auto. Qed.

Lemma refuted_unchanged_ex :
  exists h, wf_history h = true /\ empty_payload h = false /\
            all2 match_out (spec_run spec_init h) (run init h) = false.
Proof. exists witness_unchanged. destruct refines_refuted_unchanged as (A & B & _ & D & _). auto. Qed.

Lemma cookie_read_refuted :
  exists h id c t hv,
    wf_history h = true /\ meta_dup [] h = false /\
    (forall n, s_lookup (spec_after spec_init h) id t <> Some (c, n)) /\
    step (state_after init h) (t, Get id c false) = (state_after init h, OGet 200 hv).
Proof.
  exists [(1000, Write (mk 1 10 [] 2 [110; 109] [] 0))], 1, 11, 2000, blank_hview.
  split; [reflexivity|]. split; [reflexivity|]. split; [|reflexivity].
  intros n H. vm_compute in H. discriminate.
Qed.

Lemma cookie_delete_refuted :
  exists h id c t,
    wf_history h = true /\ meta_dup [] h = false /\
    (forall n, s_lookup (spec_after spec_init h) id t <> Some (c, n)) /\
    snd (step (state_after init h) (t, Del id c)) = ODel 202 0.
Proof.
  exists [(1000, Write (mk 1 10 [] 2 [110; 109] [] 0))], 1, 11, 2000.
  split; [reflexivity|]. split; [reflexivity|]. split; [|reflexivity].
  intros n H. vm_compute in H. discriminate.
Qed.

(* a history inside all hypotheses: write, read, foreign cookie, overwrite, rejected overwrite, raw read,
   refused and accepted delete, rewrite, read-only rejection *)
Definition example_history : list event :=
  [(1000, Write (mk 1 10 [1; 2; 3] 14 [110; 49] [116; 47; 97] 100));
   (2000, Get 1 10 false);
   (3000, Get 1 11 false);                                      (* other cookie *)
   (4000, Write (mk 1 10 [4; 5] 14 [110; 50] [116; 47; 98] 200)); (* overwrite *)
   (5000, Write (mk 1 11 [9] 0 [] [] 0));                       (* overwrite with another cookie: rejected *)
   (6000, RawRead 1 10 false);
   (7000, Del 1 11);                                            (* other cookie: 400 *)
   (8000, Del 1 10);
   (9000, Get 1 10 false);
   (10000, Write (mk 1 10 [4; 5] 14 [110; 50] [116; 47; 98] 200)); (* write again after the delete *)
   (11000, SetNoWriteOrDelete true);
   (12000, Write (mk 2 10 [7] 0 [] [] 0));                      (* read-only: rejected *)
   (13000, Del 1 10);                                           (* read-only: 500 *)
   (14000, Get 1 10 false)].

Lemma example_ok :
  wf_history example_history = true /\ empty_payload example_history = false /\
  meta_dup [] example_history = false /\
  map (fun o => match o with
                | OWrite e _ _ => (0, if err_eqb e ENone then 1 else 0)
                | OGet s _ => (1, s) | ODel s _ => (2, s) | ORead e _ _ => (3, if err_eqb e ENone then 1 else 0)
                | _ => (9, 0) end) (run init example_history) =
  [(0, 1); (1, 200); (1, 404); (0, 1); (0, 0); (3, 1); (2, 400); (2, 202); (1, 404); (0, 1); (9, 0);
   (0, 0); (2, 500); (1, 200)].
Proof. vm_compute. repeat split; reflexivity. Qed.
