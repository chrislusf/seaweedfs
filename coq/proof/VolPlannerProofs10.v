(* Proofs about model/VolPlanner.v (C15): volumeServer.evacuate and free slots, by the invariant
   [EvacCap] carried along the plan with VolPlannerProofs7.evac_run_inv. *)
From Coq Require Import List NArith ZArith Bool Arith Lia Permutation.
From SW Require Import proof.ListFacts model.VolPlanner proof.VolPlannerProofs proof.VolPlannerProofs2
  proof.VolPlannerProofs3 proof.VolPlannerProofs5 proof.VolPlannerProofs7.
Import ListNotations.
Local Open Scope Z_scope.

Definition cnt_dt (vs : list vol) (dt : N) : Z := Z.of_nat (length (filter (fun v => (v_dt v =? dt)%N) vs)).

Lemma cnt_dt_cons : forall v vs dt, cnt_dt (v :: vs) dt = (if (v_dt v =? dt)%N then 1 else 0) + cnt_dt vs dt.
Proof. intros. unfold cnt_dt. cbn [filter]. destruct (v_dt v =? dt)%N; cbn [length]; lia. Qed.
Lemma cnt_dt_cons_pos : forall v vs dt, 0 < cnt_dt vs dt -> 0 < cnt_dt (v :: vs) dt.
Proof. intros v vs dt H. rewrite cnt_dt_cons. destruct (v_dt v =? dt)%N; lia. Qed.

(* every other server outside the trigger set [T] has room for all the volumes of a disk type
   that are still to move *)
Definition EvacCap (s : snapshot) (this : N) (T : N -> N -> bool) (w : world) (vs : list vol) : Prop :=
  forall n dt, In n s -> n_id n <> this -> 0 < cnt_dt vs dt -> T (n_id n) dt = false ->
    w_occ w (n_id n) dt + cnt_dt vs dt <= max_of s (n_id n) dt.

Definition EvacCapOk (s : snapshot) (T : N -> N -> bool) (w : world) (st : step) : Prop :=
  ok_cap (prop_step s w st) || match st with Move _ dt _ to => T to dt | _ => false end = true.

Lemma evac_run_cap : forall s this skip T vs evs w,
  EvacCap s (l_node this) T w vs -> evac_run s this skip w vs evs = true ->
  Steps (EvacCapOk s T) s w (evac_steps (l_node this) evs).
Proof.
  intros s this skip T vs evs w. apply evac_run_inv; clear vs evs w.
  - intros w v vs to Hinv Htg st.
    destruct (evac_target_facts _ _ _ _ _ Htg) as [t [Ht [Etid [Hne _]]]]. split.
    + unfold EvacCapOk, st. destruct (T to (v_dt v)) eqn:ET; [apply orb_true_r|]. rewrite orb_false_r.
      cbn [prop_step ok_cap]. apply Z.ltb_lt.
      assert (0 < cnt_dt (v :: vs) (v_dt v)) as Hpos.
      { rewrite cnt_dt_cons, N.eqb_refl. unfold cnt_dt. lia. }
      rewrite <- Etid in ET, Hne |- *. pose proof (Hinv t (v_dt v) Ht Hne Hpos ET) as Hi. lia.
    + intros n dt Hn Hnid Hpos HT.
      pose proof (Hinv n dt Hn Hnid (cnt_dt_cons_pos v vs dt Hpos) HT) as Hi. rewrite cnt_dt_cons in Hi.
      unfold st. cbn [apply_step w_occ]. unfold upd2.
      rewrite (proj2 (N.eqb_neq _ _) Hnid), (N.eqb_sym (v_dt v) dt) in *. cbn [andb].
      destruct (n_id n =? to)%N, (dt =? v_dt v)%N; cbn [andb]; lia.
  - intros w v vs Hinv n dt Hn Hnid Hpos HT.
    pose proof (Hinv n dt Hn Hnid (cnt_dt_cons_pos v vs dt Hpos) HT) as Hi. rewrite cnt_dt_cons in Hi. destruct (v_dt v =? dt)%N; lia.
Qed.

Lemma cnt_dt_perm : forall n vs dt, Permutation (all_vols n) vs ->
  cnt_dt vs dt = Z.of_nat (length (vols_of_dt n dt)).
Proof.
  intros n vs dt HP. unfold cnt_dt, vols_of_dt. f_equal.
  apply Permutation_length, filter_perm, Permutation_sym, HP.
Qed.

(* every move goes to a server with a free slot, or that server cannot take all the volumes of
   the moved volume's disk type that the evacuated server holds (finding 1) *)
Theorem evac_accepts_cap_excused : forall s this skip evs,
  NoDup (map n_id s) -> evac_accepts s this skip evs = true ->
  excused ok_cap (step_evac_trig s this) s (init_world s) (evac_steps this evs) = true.
Proof.
  intros s this skip evs Hnd H.
  destruct (evac_accepts_run _ _ _ _ H) as (t & vs & En & HP & Hrun).
  destruct (find_node_some _ _ _ En) as [Ht <-].
  apply (Steps_excused ok_cap (step_evac_trig s (n_id t)) s (EvacCapOk s (evac_cap_trig s (n_id t))) (fun _ _ Hq => Hq)).
  apply (evac_run_cap s (n_loc t) skip (evac_cap_trig s (n_id t)) vs evs); auto.
  intros n dt Hn Hnid Hpos HT. rewrite (cnt_dt_perm t vs dt HP).
  unfold evac_cap_trig in HT. rewrite En in HT. apply Z.ltb_ge in HT. exact HT.
Qed.

(* hence a free slot at every move when no other server is in the trigger set for a disk type
   of the evacuated server *)
Theorem evac_accepts_capacity : forall s this skip evs,
  NoDup (map n_id s) -> trig_evac_cap s this = false -> evac_accepts s this skip evs = true ->
  ok_cap (prop_trace s (init_world s) (evac_steps this evs)) = true.
Proof.
  intros s this skip evs Hnd Htr H. unfold trig_evac_cap in Htr.
  destruct (evac_accepts_run _ _ _ _ H) as (t & vs & En & HP & Hrun). rewrite En in Htr.
  destruct (find_node_some _ _ _ En) as [Ht <-].
  apply (Steps_clause ok_cap s (EvacCapOk s (fun _ _ => false)) eq_refl (fun _ _ => eq_refl)).
  { intros w st Hq. unfold EvacCapOk in Hq. destruct st; rewrite orb_false_r in Hq; exact Hq. }
  apply (evac_run_cap s (n_loc t) skip _ vs evs); auto.
  intros n dt Hn Hnid Hpos _. rewrite (cnt_dt_perm t vs dt HP). rewrite (cnt_dt_perm t vs dt HP) in Hpos.
  (* some volume of the evacuated server has this disk type *)
  destruct (vols_of_dt t dt) as [|v0 r] eqn:Ef; [cbn in Hpos; lia|]. rewrite <- Ef.
  assert (In v0 (vols_of_dt t dt)) as Hv0 by (rewrite Ef; left; auto).
  apply filter_In in Hv0. destruct Hv0 as [Hv0 Edt]. apply N.eqb_eq in Edt.
  assert (In n (others_of s (n_id t))) as Hno.
  { apply filter_In. split; auto. apply negb_true_iff, N.eqb_neq. exact Hnid. }
  pose proof (existsb_false_in _ _ v0 (existsb_false_in _ _ n Htr Hno) Hv0) as Hno'. cbn beta in Hno'.
  rewrite Edt in Hno'. apply Z.ltb_ge in Hno'.
  unfold max_of. rewrite find_node_in; auto.
Qed.
