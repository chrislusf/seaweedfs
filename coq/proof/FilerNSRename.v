(* Proofs about model/FilerNS.v (C18): moveEntry / AtomicRenameEntry. *)
From Coq Require Import List NArith Bool String Arith Lia Permutation.
From SW Require Import model.FilerNS proof.FilerNSBase proof.FilerNSCreate proof.FilerNSDelete.
Import ListNotations.
Local Open Scope list_scope.

Lemma iter_err_pres : forall {X} (step : store -> X -> store * err) (P : store -> Prop),
  (forall s x, P s -> P (fst (step s x))) ->
  forall xs s, P s -> P (fst (iter_err step xs s)).
Proof.
  intros X step P H xs. induction xs as [|x xs IH]; intros s Hs; simpl; auto.
  specialize (H s x Hs). destruct (step s x) as [s1 r]. simpl in H.
  destruct (is_err r); simpl; auto.
Qed.

Lemma move_entry_wf : forall f s oldp e newp, wf s -> wf (fst (move_entry f s oldp e newp)).
Proof.
  induction f as [|f IH]; intros s oldp e newp Hwf; [exact Hwf|].
  cbn [move_entry]. destruct (path_eqb oldp newp); [exact Hwf|].
  pose proof (create_entry_wf s newp (strip_hl e) false Hwf) as H1.
  destruct (create_entry s newp (strip_hl e) false) as [s1 r1]. simpl in H1.
  destruct (is_err r1); [exact H1|].
  assert (H2 : wf (fst (if e_dir e
                        then iter_err (fun s0 (c : name * entry) => move_entry f s0 (child oldp (fst c)) (snd c) (child newp (fst c)))
                                      (list_children s1 oldp) s1
                        else (s1, OK)))).
  { destruct (e_dir e); [|exact H1]. apply iter_err_pres; auto. }
  destruct (if e_dir e then _ else _) as [s2 r2]. simpl in H2.
  destruct (is_err r2); [exact H2|]. apply delete_entry_wf. exact H2.
Qed.

Theorem rename_wf : forall s od on nd nn, wf s -> wf (fst (rename s od on nd nn)).
Proof.
  intros s od on nd nn Hwf. unfold rename, rename_fuel.
  destruct (is_prefix (child od on) nd); [exact Hwf|].
  destruct (find_entry s (child od on)); [|exact Hwf]. apply move_entry_wf. exact Hwf.
Qed.

Definition disjoint (a b : path) : Prop := is_prefix a b = false /\ is_prefix b a = false.

Lemma disjoint_strip : forall a b r, disjoint a b -> strip_prefix a (b ++ r) = None.
Proof.
  intros a b r [H1 H2]. apply strip_prefix_none. intros t Ht. symmetry in Ht.
  destruct (prefix_comparable _ _ _ _ Ht) as [[u Hu]|[u Hu]].
  - rewrite is_prefix_false in H1. apply (H1 u). exact Hu.
  - rewrite is_prefix_false in H2. apply (H2 u). exact Hu.
Qed.

Lemma disjoint_sym : forall a b, disjoint a b -> disjoint b a.
Proof. intros a b [H1 H2]. split; assumption. Qed.

Lemma disjoint_child : forall a b n, disjoint a b -> disjoint (a ++ [n]) (b ++ [n]).
Proof.
  intros a b n H. split; apply is_prefix_false; intros r Hr.
  - assert (E : strip_prefix a (b ++ [n]) = None) by (apply disjoint_strip; exact H).
    rewrite Hr, <- app_assoc, strip_prefix_app in E. discriminate.
  - assert (E : strip_prefix b (a ++ [n]) = None) by (apply disjoint_strip, disjoint_sym; exact H).
    rewrite Hr, <- app_assoc, strip_prefix_app in E. discriminate.
Qed.

Lemma disjoint_neq : forall a b, disjoint a b -> a <> b.
Proof. intros a b [H _] E. subst. rewrite is_prefix_refl in H. discriminate. Qed.
(* the store after a move with nothing in its way, pointwise: below newp what was below oldp (without link
   fields), nothing below oldp, [base] everywhere else *)

Definition moved_find (s : store) (oldp newp : path) (base : path -> option entry) (q : path) : option entry :=
  match strip_prefix newp q with
  | Some r => option_map strip_hl (find s (oldp ++ r))
  | None => match strip_prefix oldp q with Some _ => None | None => base q end
  end.

(* the namespace after the implicit ancestors of p were created from tmpl *)
Definition with_ancestors (s : store) (p : path) (tmpl : entry) (q : path) : option entry :=
  match find s q with
  | Some y => Some y
  | None => if existsb (path_eqb q) (ancestors p) then Some (implicit_dir tmpl) else None
  end.

Lemma with_ancestors_parent : forall s d n tmpl, tree_ok s ->
  d = [] \/ (exists de, find s d = Some de /\ e_dir de = true) ->
  forall q, with_ancestors s (d ++ [n]) tmpl q = find s q.
Proof.
  intros s d n tmpl Hs Hd q. unfold with_ancestors. destruct (find s q) eqn:Eq; auto.
  rewrite ancestors_mem. destruct (nonroot q) eqn:Nq; auto. simpl.
  destruct (is_prefix q d) eqn:Pq; auto. pose proof (nonroot_nonnil q Nq) as Hq.
  destruct Hd as [->|[de [Hde _]]].
  - apply is_prefix_true in Pq. destruct Pq as [t Ht]. symmetry in Ht. apply app_eq_nil in Ht. tauto.
  - destruct (prefix_of_existing s d de q Hs Hde Hq Pq) as [f [Hf _]]. congruence.
Qed.

Lemma no_file_ancestor : forall s d n, tree_ok s ->
  d = [] \/ (exists de, find s d = Some de /\ e_dir de = true) ->
  has_file_ancestor s (d ++ [n]) = false.
Proof.
  intros s d n Hs Hd. destruct (has_file_ancestor s (d ++ [n])) eqn:Eh; auto. exfalso.
  apply has_file_ancestor_spec in Eh. destruct Eh as [a [fl [Ha [Hpa [Hfl Hdl]]]]].
  apply nonroot_nonnil in Ha.
  destruct Hd as [->|[de [Hde Hdd]]].
  - apply is_prefix_true in Hpa. destruct Hpa as [t Ht]. symmetry in Ht. apply app_eq_nil in Ht. tauto.
  - destruct (prefix_of_existing s d de a Hs Hde Ha Hpa) as [f [Hf [->|Hd]]]; congruence.
Qed.

Lemma anc_not_under : forall oldp newp r, disjoint oldp newp ->
  existsb (path_eqb (oldp ++ r)) (ancestors newp) = false.
Proof.
  intros oldp newp r Hdis. destruct (path_cases newp) as [->|[d [n ->]]]; [reflexivity|].
  rewrite ancestors_mem. destruct (is_prefix (oldp ++ r) d) eqn:Pq; [|now rewrite andb_false_r].
  exfalso. apply is_prefix_true in Pq. destruct Pq as [t ->].
  destruct Hdis as [Hd _]. rewrite is_prefix_false in Hd. apply (Hd (r ++ t ++ [n])).
  rewrite <- !app_assoc. reflexivity.
Qed.

Lemma anc_not_below : forall (newp : path) r, existsb (path_eqb (newp ++ r)) (ancestors newp) = false.
Proof.
  intros newp r. destruct (path_cases newp) as [->|[d [n ->]]]; [reflexivity|].
  rewrite ancestors_mem, <- app_assoc. simpl. now rewrite is_prefix_longer, andb_false_r.
Qed.

Lemma strip_hl_dir : forall e, e_dir (strip_hl e) = e_dir e.
Proof. reflexivity. Qed.

(* the state of moveFolderSubEntries in closed form: on top of g, the children of oldp whose
   names are in D have arrived below newp *)
Definition moved_children (oldp newp : path) (D : name -> bool) (g : path -> option entry) (q : path) : option entry :=
  match strip_prefix newp q with
  | Some (n :: r) => if D n then option_map strip_hl (g (oldp ++ n :: r)) else g q
  | _ => match strip_prefix oldp q with
         | Some (n :: _) => if D n then None else g q
         | _ => g q
         end
  end.

Lemma moved_children_none : forall oldp newp g q, moved_children oldp newp (fun _ => false) g q = g q.
Proof.
  intros. unfold moved_children.
  destruct (strip_prefix newp q) as [[|? ?]|]; destruct (strip_prefix oldp q) as [[|? ?]|]; reflexivity.
Qed.

(* moving one more child, n, is adding n to D *)
Lemma moved_children_step : forall oldp newp D g n q, disjoint oldp newp -> D n = false ->
  match strip_prefix (newp ++ [n]) q with
  | Some r => option_map strip_hl (moved_children oldp newp D g (oldp ++ n :: r))
  | None => match strip_prefix (oldp ++ [n]) q with
            | Some _ => None
            | None => moved_children oldp newp D g q
            end
  end = moved_children oldp newp (fun m => String.eqb n m || D m) g q.
Proof.
  intros oldp newp D g n q Hdis Dn. rewrite !strip_prefix_child. unfold moved_children.
  destruct (strip_prefix newp q) as [[|m r]|] eqn:E1.
  - apply strip_prefix_spec in E1. rewrite app_nil_r in E1. subst q.
    assert (X := disjoint_strip oldp newp [] Hdis). rewrite app_nil_r in X. rewrite X. reflexivity.
  - apply strip_prefix_spec in E1. subst q. rewrite (disjoint_strip oldp newp (m :: r) Hdis).
    destruct (String.eqb_spec n m) as [<-|Hnm]; [|reflexivity].
    rewrite (disjoint_strip newp oldp (n :: r) (disjoint_sym _ _ Hdis)), strip_prefix_app, Dn. reflexivity.
  - destruct (strip_prefix oldp q) as [[|m r]|]; try reflexivity.
    destruct (String.eqb n m); reflexivity.
Qed.

Lemma move_entry_unobstructed : forall f s oldp e newp, wf s -> oldp <> [] -> newp <> [] ->
  disjoint oldp newp ->
  find s oldp = Some e ->
  (forall m r, find s (newp ++ m :: r) = None) ->
  (forall en, find s newp = Some en -> e_dir en = e_dir e) ->
  has_file_ancestor s newp = false ->
  (forall q x, find s q = Some x -> is_prefix oldp q = true -> List.length q < List.length oldp + f) ->
  exists s', move_entry f s oldp e newp = (s', OK) /\
    forall q, find s' q = moved_find s oldp newp (with_ancestors s newp (strip_hl e)) q.
Proof.
  induction f as [|f IH]; intros s oldp e newp Hwf Hop Hnp Hdis He Hbelow Htype Hanc Hb.
  - exfalso. specialize (Hb oldp e He (is_prefix_refl oldp)). lia.
  - cbn [move_entry].
    destruct (path_eqb_spec oldp newp) as [E|_]; [exfalso; exact (disjoint_neq _ _ Hdis E)|].
    set (B := with_ancestors s newp (strip_hl e)).
    (* step 1: CreateEntry of the target *)
    assert (H1 : exists s1, create_entry s newp (strip_hl e) false = (s1, OK) /\ wf s1 /\
                 forall q, find s1 q = if path_eqb newp q then Some (strip_hl e) else B q).
    { subst B. destruct (create_entry_ref s newp (strip_hl e) false Hwf) as [Hwf1 [Hr [Heq _]]].
      destruct (create_entry s newp (strip_hl e) false) as [s1 r1]. cbn [fst snd] in *.
      exists s1. unfold ref_create in Hr, Heq. destruct newp as [|a0 n0] eqn:E0; [congruence|]. rewrite <- E0 in *. clear E0.
      destruct (find s newp) as [en|] eqn:En.
      - assert (HB : forall q, with_ancestors s newp (strip_hl e) q = find s q).
        { destruct (path_cases newp) as [E|[d [n E]]]; [congruence|]. rewrite E in *.
          apply with_ancestors_parent; [apply Hwf|]. eapply (proj2 Hwf); eauto. }
        rewrite strip_hl_dir, (Htype en eq_refl) in Hr, Heq. destruct (e_dir e); cbn in Hr, Heq; subst r1;
          (split; [reflexivity|]; split; [exact Hwf1|]; intro q; now rewrite Heq, find_insert, HB).
      - rewrite Hanc in Hr, Heq. cbn in Hr, Heq. subst r1. split; [reflexivity|]. split; [exact Hwf1|].
        intro q. now rewrite Heq, find_insert, find_add_missing_ancestors. }
    destruct H1 as [s1 [Hc [Hwf1 Hf1]]]. rewrite Hc. cbn [is_err].
    assert (B1 : forall r, B (oldp ++ r) = find s (oldp ++ r)).
    { intro r. unfold B, with_ancestors. rewrite (anc_not_under oldp newp r Hdis). now destruct (find s (oldp ++ r)). }
    assert (B2 : forall m r, B (newp ++ m :: r) = None).
    { intros m r. unfold B, with_ancestors. now rewrite Hbelow, anc_not_below. }
    assert (Hs1old : forall r, find s1 (oldp ++ r) = find s (oldp ++ r)).
    { intro r. rewrite Hf1. destruct (path_eqb_spec newp (oldp ++ r)) as [E|_]; [|apply B1].
      exfalso. destruct Hdis as [Hd _]. rewrite is_prefix_false in Hd. apply (Hd r). exact E. }
    assert (Hs1new : forall m r, find s1 (newp ++ m :: r) = None).
    { intros m r. rewrite Hf1. destruct (path_eqb_spec newp (newp ++ m :: r)) as [E|_]; [|apply B2].
      apply app_eq_self_nil in E. discriminate. }
    assert (Hs1np : find s1 newp = Some (strip_hl e)) by (rewrite Hf1, path_eqb_refl; reflexivity).
    assert (Hon : strip_prefix oldp newp = None /\ strip_prefix newp oldp = None).
    { split; [rewrite <- (app_nil_r newp)|rewrite <- (app_nil_r oldp)];
        apply disjoint_strip; [exact Hdis|apply disjoint_sym, Hdis]. }
    (* steps 2 and 3 yield (s2, OK) where s2 has the children, all of them, moved *)
    assert (H2 : exists s2 D,
      (if e_dir e
       then iter_err (fun s0 (c : name * entry) => move_entry f s0 (child oldp (fst c)) (snd c) (child newp (fst c)))
                     (list_children s1 oldp) s1
       else (s1, OK)) = (s2, OK) /\
      (forall q, find s2 q = moved_children oldp newp D (find s1) q) /\
      (forall n, D n = true \/ find s1 (oldp ++ [n]) = None)).
    { destruct (e_dir e) eqn:Edir.
      2:{ (* a file: nothing below it *)
        exists s1, (fun _ => false). split; [reflexivity|].
        split; [intro q; now rewrite moved_children_none|]. intro n. right.
        rewrite Hs1old. eapply tree_ok_file_below; eauto; [apply Hwf|discriminate]. }
      assert (Hloop : forall cs D s0, NoDup (map fst cs) ->
                (forall c, In c cs -> find s1 (oldp ++ [fst c]) = Some (snd c) /\ D (fst c) = false) ->
                wf s0 -> (forall q, find s0 q = moved_children oldp newp D (find s1) q) ->
                exists s2 D',
                  iter_err (fun s0 (c : name * entry) => move_entry f s0 (child oldp (fst c)) (snd c) (child newp (fst c)))
                           cs s0 = (s2, OK) /\
                  (forall q, find s2 q = moved_children oldp newp D' (find s1) q) /\
                  (forall m, D m = true \/ In m (map fst cs) -> D' m = true)).
      { induction cs as [|[n ce] cs IHcs]; intros D s0 Hnd Hcs Hwf0 Hf0.
        { exists s0, D. split; [reflexivity|]. split; [exact Hf0|]. intros m [H|[]]. exact H. }
        inversion Hnd as [|? ? Hn Hnd']; subst.
        destruct (Hcs (n, ce) (or_introl eq_refl)) as [Hce Dn]. cbn [fst snd] in Hce, Dn.
        assert (Hnp0 : find s0 newp = Some (strip_hl e)).
        { rewrite Hf0. unfold moved_children. rewrite strip_prefix_refl, (proj1 Hon). exact Hs1np. }
        assert (Hold0 : forall r, find s0 (oldp ++ n :: r) = find s1 (oldp ++ n :: r)).
        { intro r. rewrite Hf0. unfold moved_children.
          now rewrite (disjoint_strip newp oldp (n :: r) (disjoint_sym _ _ Hdis)), strip_prefix_app, Dn. }
        assert (Hnew0 : forall r, find s0 (newp ++ n :: r) = None).
        { intro r. rewrite Hf0. unfold moved_children. rewrite strip_prefix_app, Dn. apply Hs1new. }
        destruct (IH s0 (child oldp n) ce (child newp n)) as [s3 [Hmv Hf3]]; unfold child; auto.
        + apply snoc_nonnil.
        + apply snoc_nonnil.
        + apply disjoint_child. exact Hdis.
        + rewrite (Hold0 []). exact Hce.
        + intros m r. rewrite <- app_cons_assoc. apply Hnew0.
        + intros en Hen. rewrite (Hnew0 []) in Hen. discriminate.
        + apply no_file_ancestor; [apply Hwf0|]. right. exists (strip_hl e). split; [exact Hnp0|exact Edir].
        + intros q x Hq Hp. apply is_prefix_true in Hp. destruct Hp as [r ->].
          rewrite <- app_cons_assoc in Hq. rewrite Hold0, Hs1old in Hq.
          assert (Hb' := Hb (oldp ++ n :: r) x Hq (is_prefix_app _ _)).
          rewrite <- app_cons_assoc. rewrite !app_length in *. simpl in *. lia.
        + pose proof (move_entry_wf f s0 (oldp ++ [n]) ce (newp ++ [n]) Hwf0) as Hwf3.
          unfold child in Hmv. cbn [iter_err fst snd]. rewrite Hmv in *. cbn [is_err fst] in *.
          destruct (IHcs (fun m => String.eqb n m || D m) s3 Hnd') as [s2 [D' [Hit [Hf2 HD']]]]; auto.
          * intros [n' ce'] Hin. destruct (Hcs _ (or_intror Hin)) as [A Bf]. split; [exact A|].
            cbn [fst] in *. rewrite Bf, orb_false_r. apply String.eqb_neq. intros <-.
            apply Hn. apply (in_map fst _ _ Hin).
          * intro q. rewrite Hf3, <- (moved_children_step oldp newp D (find s1) n q Hdis Dn).
            unfold moved_find, child.
            destruct (strip_prefix (newp ++ [n]) q) as [r|]; [now rewrite <- app_cons_assoc, Hf0|].
            destruct (strip_prefix (oldp ++ [n]) q); [reflexivity|].
            rewrite (with_ancestors_parent s0 newp n _ (proj2 Hwf0) (or_intror (ex_intro _ _ (conj Hnp0 Edir)))).
            apply Hf0.
          * exists s2, D'. split; [exact Hit|]. split; [exact Hf2|].
            intros m [Hm|[<-|Hm]]; apply HD'.
            -- left. now rewrite Hm, orb_true_r.
            -- left. now rewrite String.eqb_refl.
            -- right. exact Hm. }
      destruct (Hloop (list_children s1 oldp) (fun _ => false) s1) as [s2 [D [Hit [Hf2 HD]]]].
      - apply list_children_NoDup, Hwf1.
      - intros [n ce] Hin. split; [|reflexivity]. apply list_children_spec in Hin; [exact Hin|apply Hwf1].
      - exact Hwf1.
      - intro q. now rewrite moved_children_none.
      - exists s2, D. split; [exact Hit|]. split; [exact Hf2|].
        intro n. destruct (find s1 (oldp ++ [n])) as [ce|] eqn:Ec; [left|now right].
        apply HD. right. apply (in_map fst _ (n, ce)). apply list_children_spec; [apply Hwf1|exact Ec]. }
    destruct H2 as [s2 [D [Hl [Hf2 HD]]]].
    assert (Hwf2 : wf s2).
    { change s2 with (fst (s2, OK)). rewrite <- Hl. destruct (e_dir e); [|exact Hwf1]. apply iter_err_pres; [|exact Hwf1].
      intros. apply move_entry_wf. assumption. }
    rewrite Hl. cbn [is_err].
    (* step 4: delete the (now empty) source *)
    destruct (delete_entry_ref s2 oldp false false Hwf2) as [Hwf3 [Hr3 He3]].
    destruct (delete_entry s2 oldp false false) as [s3 r3]. cbn [fst snd] in *.
    assert (Ho2 : find s2 oldp = Some e).
    { rewrite Hf2. unfold moved_children. rewrite (proj2 Hon), strip_prefix_refl.
      rewrite <- (app_nil_r oldp), Hs1old, app_nil_r. exact He. }
    assert (Hnc : has_children s2 oldp = false).
    { apply has_children_false. intro n. rewrite Hf2. unfold moved_children.
      rewrite (disjoint_strip newp oldp [n] (disjoint_sym _ _ Hdis)), strip_prefix_app.
      destruct (HD n) as [-> | Hn]; [reflexivity|]. now destruct (D n). }
    unfold ref_delete in Hr3, He3. destruct oldp as [|a0 o0] eqn:Eo; [congruence|]. rewrite <- Eo in *.
    rewrite Ho2, Hnc, andb_false_r in Hr3, He3. cbn [fst snd] in *. subst r3.
    exists s3. split; [reflexivity|].
    intro q. rewrite He3, find_ref_remove_subtree, Hf2. unfold moved_find, moved_children, is_prefix.
    destruct (strip_prefix newp q) as [r|] eqn:E1.
    + apply strip_prefix_spec in E1. subst q. rewrite (disjoint_strip oldp newp r Hdis).
      destruct r as [|n r].
      * rewrite !app_nil_r, Hs1np, He. reflexivity.
      * rewrite Hs1old, Hs1new. destruct (HD n) as [-> | Hn]; [reflexivity|].
        destruct (D n); [reflexivity|].
        rewrite (app_cons_assoc oldp), tree_ok_absent_below; [reflexivity|apply Hwf|apply snoc_nonnil|].
        now rewrite <- Hs1old.
    + destruct (strip_prefix oldp q) as [r|] eqn:E2; [reflexivity|]. rewrite Hf1.
      destruct (path_eqb_spec newp q) as [<-|_]; [|reflexivity].
      rewrite strip_prefix_refl in E1. discriminate.
Qed.

Lemma find_moved_list : forall oldp newp s q,
  find (flat_map (fun kv => match strip_prefix oldp (fst kv) with
                            | Some r => [(newp ++ r, strip_hl (snd kv))]
                            | None => []
                            end) s) q =
  match strip_prefix newp q with
  | Some r => option_map strip_hl (find s (oldp ++ r))
  | None => None
  end.
Proof.
  intros oldp newp s q. induction s as [|[k e] s IH]; simpl.
  - destruct (strip_prefix newp q); reflexivity.
  - destruct (strip_prefix oldp k) as [r|] eqn:Ek; simpl.
    + apply strip_prefix_spec in Ek. subst k.
      destruct (path_eqb_spec (newp ++ r) q) as [<-|Hne].
      * rewrite strip_prefix_app, path_eqb_refl. reflexivity.
      * rewrite IH. destruct (strip_prefix newp q) as [r'|] eqn:Eq; auto.
        apply strip_prefix_spec in Eq. subst q.
        destruct (path_eqb_spec (oldp ++ r) (oldp ++ r')) as [E|_]; auto.
        apply app_inv_head in E. congruence.
    + rewrite IH. destruct (strip_prefix newp q) as [r'|] eqn:Eq; auto.
      destruct (path_eqb_spec k (oldp ++ r')) as [E|_]; auto.
      subst k. rewrite strip_prefix_app in Ek. discriminate.
Qed.

Lemma moved_find_ref_move : forall s oldp newp eo, disjoint oldp newp ->
  find s oldp = Some eo -> (forall m r, find s (newp ++ m :: r) = None) ->
  forall q, moved_find s oldp newp (with_ancestors s newp (strip_hl eo)) q = find (ref_move s oldp newp eo) q.
Proof.
  intros s oldp newp eo Hdis He Hbelow q. unfold ref_move, moved_find.
  rewrite find_app, find_moved_list, find_add_missing_ancestors, find_ref_remove_subtree.
  destruct (strip_prefix newp q) as [r|] eqn:E1.
  - apply strip_prefix_spec in E1. subst q.
    destruct (find s (oldp ++ r)) as [x|] eqn:Ex; simpl; auto.
    destruct r as [|m r]; [rewrite app_nil_r in Ex; congruence|].
    unfold is_prefix. rewrite (disjoint_strip oldp newp (m :: r) Hdis), Hbelow, anc_not_below. reflexivity.
  - unfold is_prefix. destruct (strip_prefix oldp q) as [r|] eqn:E2; auto.
    apply strip_prefix_spec in E2. subst q. rewrite anc_not_under; auto.
Qed.

(* Outside the trigger, on a well-formed namespace: the reference rename is a refusal, which is what
   AtomicRenameEntry answers as well (changing nothing), or both move the source subtree to a place
   where nothing is in its way; the result is given pointwise by [moved_find]. *)
Lemma rename_cases : forall s od on nd nn se re, wf s ->
  ref_rename s od on nd nn = Some (se, re) ->
  (rename s od on nd nn = (s, re) /\ se = s /\ (re <> OK \/ child od on = child nd nn)) \/
  (exists eo s', find s (child od on) = Some eo /\ rename s od on nd nn = (s', OK) /\ re = OK /\
     disjoint (child od on) (child nd nn) /\
     (forall m r, find s (child nd nn ++ m :: r) = None) /\
     (forall en, find s (child nd nn) = Some en -> e_dir en = e_dir eo) /\
     forall q, find s' q = moved_find s (child od on) (child nd nn) (with_ancestors s (child nd nn) (strip_hl eo)) q /\
               find se q = find s' q).
Proof.
  intros s od on nd nn se re Hwf Href. unfold ref_rename in Href. unfold rename, rename_fuel.
  set (oldp := child od on) in *. set (newp := child nd nn) in *.
  assert (Hop : oldp <> []) by apply snoc_nonnil. assert (Hnp : newp <> []) by apply snoc_nonnil.
  destruct (is_prefix oldp nd) eqn:Hpre; [injection Href as <- <-; left; repeat split; left; discriminate|].
  rewrite find_entry_nonroot by assumption.
  destruct (find s oldp) as [eo|] eqn:Eo; [|injection Href as <- <-; left; repeat split; left; discriminate].
  destruct (path_eqb_spec oldp newp) as [Eon|Hne].
  { injection Href as <- <-. left. unfold default_fuel. cbn [move_entry]. rewrite Eon, path_eqb_refl. auto. }
  assert (Hd1 : is_prefix oldp newp = false).
  { unfold newp, child. rewrite is_prefix_snoc, Hpre. simpl. fold (child nd nn). fold newp.
    destruct (path_eqb_spec oldp newp); [congruence|reflexivity]. }
  (* the move, where nothing is in the way: then the source is not below the target either
     (Moved is the second disjunct of the statement) *)
  match goal with |- _ \/ ?Moved =>
    assert (Hmove : (forall m r, find s (newp ++ m :: r) = None) ->
                    (forall en, find s newp = Some en -> e_dir en = e_dir eo) ->
                    has_file_ancestor s newp = false -> Some (ref_move s oldp newp eo, OK) = Some (se, re) -> Moved)
  end.
  { intros Hbelow Htype Hanc E. injection E as <- <-.
    assert (Hdis : disjoint oldp newp).
    { split; [exact Hd1|]. apply is_prefix_false. intros [|m r] Hr.
      - rewrite app_nil_r in Hr. congruence.
      - rewrite Hr, Hbelow in Eo. discriminate. }
    destruct (move_entry_unobstructed (default_fuel s) s oldp eo newp Hwf Hop Hnp Hdis Eo Hbelow Htype Hanc) as [s' [Hmv Hf]].
    - intros q x Hq _. apply max_len_find in Hq. unfold default_fuel. lia.
    - exists eo, s'. repeat split; auto; try apply Hdis. rewrite Hf. symmetry. apply moved_find_ref_move; auto. }
  destruct (find s newp) as [en|] eqn:En.
  - assert (Hanc : has_file_ancestor s newp = false).
    { destruct (path_cases newp) as [E|[d [n E]]]; [congruence|]. rewrite E in *.
      apply no_file_ancestor; [apply Hwf|]. eapply (proj2 Hwf); eauto. }
    (* a type conflict is what CreateEntry of the target answers *)
    assert (Hcreate : create_entry s newp (strip_hl eo) false =
              if e_dir en && negb (e_dir eo) then (s, EIsDir)
              else if negb (e_dir en) && e_dir eo then (s, EIsFile)
              else (insert s newp (strip_hl eo), OK)).
    { unfold create_entry. destruct newp as [|a0 n0] eqn:E0; [congruence|]. rewrite <- E0 in *.
      rewrite find_entry_nonroot by assumption. rewrite En. reflexivity. }
    destruct (e_dir eo) eqn:Deo, (e_dir en) eqn:Den; cbn [negb andb] in *.
    + destruct (has_children s newp) eqn:Hc; [discriminate|]. right. apply Hmove; auto; [|congruence].
      apply no_children_nothing_below; [apply Hwf|auto|]. now apply has_children_false.
    + injection Href as <- <-. left. unfold default_fuel. cbn [move_entry].
      destruct (path_eqb_spec oldp newp); [congruence|]. rewrite Hcreate. cbn. repeat split; left; discriminate.
    + injection Href as <- <-. left. unfold default_fuel. cbn [move_entry].
      destruct (path_eqb_spec oldp newp); [congruence|]. rewrite Hcreate. cbn. repeat split; left; discriminate.
    + right. apply Hmove; auto; [|congruence].
      intros m r. eapply tree_ok_file_below; eauto; [apply Hwf|discriminate].
  - destruct (has_file_ancestor s newp) eqn:Eh.
    + injection Href as <- <-. left. unfold default_fuel. cbn [move_entry].
      destruct (path_eqb_spec oldp newp); [congruence|].
      destruct (create_entry_ref s newp (strip_hl eo) false Hwf) as [_ [Hr [_ Hs]]].
      destruct (create_entry s newp (strip_hl eo) false) as [s1 r1]. cbn [fst snd] in *.
      unfold ref_create in Hr. destruct newp as [|a0 n0] eqn:E0; [congruence|]. rewrite <- E0 in *.
      rewrite En, Eh in Hr. cbn in Hr. subst r1. rewrite Hs by discriminate. cbn. repeat split; left; discriminate.
    + right. apply Hmove; auto; [|discriminate].
      intros m r. apply tree_ok_absent_below; auto. apply Hwf.
Qed.

Theorem rename_ref : forall s od on nd nn se re, wf s ->
  ref_rename s od on nd nn = Some (se, re) ->
  snd (rename s od on nd nn) = re /\ equiv (fst (rename s od on nd nn)) se.
Proof.
  intros s od on nd nn se re Hwf Href.
  destruct (rename_cases _ _ _ _ _ _ _ Hwf Href) as [[-> [-> _]]|[eo [s' [_ [-> [-> [_ [_ [_ Hf]]]]]]]]].
  - split; [reflexivity|apply equiv_refl].
  - split; [reflexivity|]. intro q. symmetry. apply Hf.
Qed.

Theorem rename_into_own_subtree_refused : forall s od on nd nn,
  is_prefix (child od on) nd = true -> rename s od on nd nn = (s, EInvalid).
Proof. intros s od on nd nn H. unfold rename, rename_fuel. rewrite H. reflexivity. Qed.
