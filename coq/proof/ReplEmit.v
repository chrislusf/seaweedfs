(* C36: genProcessFunction against the reference plan ([sync_spec]: every event but a
   two-entry event about the watched directory's own entry; no panic), and the labels of
   emitted events (finding 1). *)
From Coq Require Import List NArith ZArith Bool String Ascii Arith Lia.
From SW Require Import model.Repl proof.ReplProofs.
Import ListNotations.
Local Open Scope list_scope.

Local Arguments String.length : simpl never.
Local Arguments Nat.ltb : simpl never.

(* an event with both entries one of whose keys is the watched directory itself (it is
   renamed, renamed onto, or its own entry updated): the events [sync_spec] leaves out *)
Definition root_move (c : config) (ev : event) : bool :=
  match ev_old ev, ev_new ev with
  | Some _, Some _ => touches_root c ev
  | _, _ => false
  end.

Lemma lprefix_refl : forall s, lprefix s s = true.
Proof. intro s. rewrite <- (app_nil_r s) at 2. apply lprefix_app. Qed.

(* pathIsUnder and buildKey, for the key of an entry [x] in directory [d] *)
Lemma sync_key : forall c ev s t d x,
  config_segs c s t -> forallb plain d = true -> plain x = true ->
  under (child (abs d) x) (abs s) = lprefix s d || list_eqb (d ++ [x]) s /\
  (lprefix s d = true -> (incremental c = true -> plain (date_key ev) = true) ->
   build_key c ev (abs s) (child (abs d) x) =
   if incremental c then map_path_inc c (date_key ev) (d ++ [x]) else map_path c (d ++ [x])).
Proof.
  intros c ev s t d x Hc Pd Px. pose proof (cs_plain_src _ _ _ Hc) as Ps.
  rewrite child_abs, under_abs, lprefix_snoc by (auto using plain_last). split; [reflexivity|].
  intros D Hdk. unfold build_key. destruct (incremental c).
  - apply (map_key_inc c s t); auto using plain_last. rewrite lprefix_snoc, D. reflexivity.
  - apply (map_key c s t); auto using plain_last. rewrite lprefix_snoc, D. reflexivity.
Qed.

(* genProcessFunction issues the reference plan of the sink's kind.  A create / delete event
   about the watched directory's own entry is ignored, as the reference says (the entry is
   not strictly inside): the early test on the directories already rejects it. *)
Theorem sync_spec : forall c ev,
  wf_config c = true -> wf_event ev = true -> root_move c ev = false ->
  (incremental c = true -> plain (date_key ev) = true) ->
  sync_process c ev = if incremental c then mirror_spec_inc c ev else mirror_spec c ev.
Proof.
  intros c ev Hc He Hroot Hdk.
  destruct (wf_config_inv c Hc) as [s [t Hcs]]. pose proof Hcs as [Ps Pt Es Et En _ _].
  destruct (wf_event_inv ev He) as [Hd [Hold [Hnew Hsame]]].
  destruct (is_clean_abs_inv _ Hd) as [d [Pd [Ed Sd]]].
  unfold root_move, touches_root, old_key, new_key in Hroot. rewrite Es, Sd in Hroot.
  unfold sync_process, mirror_spec, mirror_spec_inc. rewrite En, Sd, Ed, under_abs by auto.
  destruct (ev_old ev) as [o|]; destruct (ev_new ev) as [n|]; simpl in Hold, Hnew, Hroot |- *.
  - (* update / rename within, out of, into the subtree *)
    apply andb_true_iff in Hnew. destruct Hnew as [Pn Cp].
    destruct (is_clean_abs_inv _ Cp) as [p [Pp [Ep Sp]]].
    rewrite Sp in Hroot |- *. rewrite Ep. apply orb_false_iff in Hroot. destruct Hroot as [R1 R2].
    destruct (sync_key c ev s t d (e_name o) Hcs Pd Hold) as [U1 K1].
    destruct (sync_key c ev s t p (e_name n) Hcs Pp Pn) as [U2 K2].
    rewrite U1, U2, R1, R2, !orb_false_r, under_abs, !inside_snoc, Es by auto.
    destruct (lprefix s d) eqn:D; destruct (lprefix s p) eqn:P; simpl; rewrite ?K1, ?K2 by auto;
      destruct (incremental c); simpl; try reflexivity.
    (* left: both keys inside, not incremental; the slice NewParentPath[len(sourcePath):] is
       in bounds because the new parent is below the source *)
    rewrite abs_len_mono, child_abs by auto.
    rewrite !(map_key c s t) by (auto using plain_last; rewrite lprefix_snoc, D; reflexivity). reflexivity.
  - destruct (sync_key c ev s t d (e_name o) Hcs Pd Hold) as [U1 K1].
    rewrite U1, inside_snoc, Es.
    destruct (lprefix s d) eqn:D; simpl; rewrite ?K1 by auto; destruct (incremental c); reflexivity.
  - apply andb_true_iff in Hnew. destruct Hnew as [Pn _].
    apply String.eqb_eq in Hsame. rewrite <- Hsame, Sd, Ed.
    destruct (sync_key c ev s t d (e_name n) Hcs Pd Pn) as [U1 K1].
    rewrite under_abs, U1, inside_snoc, Es by auto.
    destruct (lprefix s d) eqn:D; simpl; rewrite ?K1 by auto; destruct (incremental c); reflexivity.
  - destruct (lprefix s d), (incremental c); reflexivity.
Qed.

Theorem sync_mirror_all : forall c ev,
  wf_config c = true -> wf_event ev = true -> incremental c = false ->
  root_move c ev = false ->
  sync_process c ev = mirror_spec c ev.
Proof.
  intros c ev Hc He Hi Hr. rewrite sync_spec by (auto; congruence). rewrite Hi. reflexivity.
Qed.

Lemma touches_root_move : forall c ev, touches_root c ev = false -> root_move c ev = false.
Proof. intros c ev H. unfold root_move. destruct (ev_old ev), (ev_new ev); auto. Qed.

Theorem sync_mirror : forall c ev,
  wf_config c = true -> wf_event ev = true -> incremental c = false ->
  touches_root c ev = false ->
  sync_process c ev = mirror_spec c ev.
Proof. intros c ev Hc He Hi Hr. apply sync_mirror_all; auto using touches_root_move. Qed.

Theorem sync_mirror_inc : forall c ev,
  wf_config c = true -> wf_event ev = true -> incremental c = true ->
  touches_root c ev = false -> plain (date_key ev) = true ->
  sync_process c ev = mirror_spec_inc c ev.
Proof.
  intros c ev Hc He Hi Hr Hdk. rewrite sync_spec by (auto using touches_root_move). rewrite Hi. reflexivity.
Qed.

(* genProcessFunction's slice-bounds panic (NewParentPath[len(sourcePath):]) needs a
   [root_move]: an incremental sink never reaches the slice, whatever the pathIsUnder tests
   say, and the reference plan of the others has no panic *)
Theorem sync_no_panic : forall c ev,
  wf_config c = true -> wf_event ev = true -> root_move c ev = false ->
  is_panic (sync_process c ev) = false.
Proof.
  intros c ev Hc He Hr. destruct (incremental c) eqn:Hi.
  - unfold sync_process. rewrite Hi. simpl.
    destruct (negb _ && negb _); [reflexivity|].
    destruct (ev_old ev), (ev_new ev); simpl; repeat destruct (under _ _); reflexivity.
  - rewrite sync_mirror_all by auto. unfold mirror_spec.
    destruct (ev_old ev), (ev_new ev); simpl; repeat destruct (inside _ _); reflexivity.
Qed.

Definition emit_labels (op : emit_op) : list (list Z * bool) := map (emit_label op) (em_evs op).

(* FULL statement: every event emitted for a request carries the request's
   signatures and keeps the "replicated" flag *)
Definition emit_full : Prop :=
  forall op sg fl, In (sg, fl) (emit_labels op) -> emit_ok op sg fl = true.

Definition w_emit : emit_op :=
  {| em_self := 5%Z; em_kind := EDelete; em_top := "/data/a"; em_top2 := ""; em_sigs := [7%Z]; em_from_other := true;
     em_evs := [ {| m_key := "/data/a/b/g"; m_isdir := false; m_has_old := true; m_has_new := false; m_sigs := []; m_from_other := false |};
                 {| m_key := "/data/a/b"; m_isdir := true; m_has_old := true; m_has_new := false; m_sigs := []; m_from_other := false |};
                 {| m_key := "/data/a/f"; m_isdir := false; m_has_old := true; m_has_new := false; m_sigs := []; m_from_other := false |};
                 {| m_key := "/data/a"; m_isdir := true; m_has_old := true; m_has_new := false; m_sigs := []; m_from_other := false |} ] |}.

Theorem emit_full_refuted : ~ emit_full.
Proof.
  intro H. specialize (H w_emit [5%Z] true).
  assert (I : In ([5%Z], true) (emit_labels w_emit)) by (vm_compute; auto).
  specialize (H I). vm_compute in H. discriminate.
Qed.

Theorem emit_partial : forall op sg fl,
  emit_unsafe op = false -> In (sg, fl) (emit_labels op) -> emit_ok op sg fl = true.
Proof.
  intros op sg fl Hs Hin. apply in_map_iff in Hin. destruct Hin as [m [Hm Hin]].
  destruct (emit_ok op sg fl) eqn:E; [reflexivity|].
  rewrite <- Hs. unfold emit_unsafe. apply existsb_exists. exists m. rewrite Hm, E. auto.
Qed.

(* the converse, again by the definition of [emit_unsafe] (some label fails [emit_ok]) *)
Theorem emit_unsafe_exact : forall op,
  emit_unsafe op = true -> exists sg fl, In (sg, fl) (emit_labels op) /\ emit_ok op sg fl = false.
Proof.
  intros op H. unfold emit_unsafe in H. apply existsb_exists in H. destruct H as [m [Hin Hb]].
  destruct (emit_label op m) as [sg fl] eqn:E. exists sg, fl. split.
  - unfold emit_labels. apply in_map_iff. exists m. auto.
  - apply negb_true_iff in Hb. exact Hb.
Qed.

(* the part of the statement that holds for every request: the event of the
   named entry itself always carries the request's signatures and flag *)
Theorem emit_top_ok : forall op m,
  em_kind op <> ERename -> m_key m = em_top op ->
  emit_ok op (fst (emit_label op m)) (snd (emit_label op m)) = true.
Proof.
  intros op m Hk Ht. unfold emit_label, emit_ok, emitted_bare, emitted_flag. rewrite Ht, String.eqb_refl.
  assert (S : forallb (fun s => existsb (Z.eqb s) (with_self (em_self op) (em_sigs op))) (em_sigs op) = true).
  { apply forallb_forall. intros x Hx. apply existsb_exists. exists x. split; [|apply Z.eqb_refl].
    unfold with_self. destruct (existsb _ _); [auto|apply in_or_app; auto]. }
  destruct (em_kind op); simpl; try congruence; rewrite S; simpl; apply orb_negb_l.
Qed.

(* the consequence for two-way filer.sync: filer B applies a recursive delete
   that came from filer A (signature 7); the event B emits for a child carries
   only B's signature, so the sync back to A (target signature 7) applies it *)
Theorem echo_after_recursive_delete :
  exists c ev,
    In (target_sig c) (em_sigs w_emit) /\ target_sig c <> 0%Z /\
    ev_sigs ev = fst (emit_label w_emit (nth 2 (em_evs w_emit) (nth 0 (em_evs w_emit) (Build_emitted "" false false false [] false)))) /\
    sync_filtered c ev <> Nothing.
Proof.
  exists {| src := "/data"; tgt := "/data"; incremental := false; sink_is_filer := true; target_sig := 7%Z |}.
  exists {| ev_dir := "/data/a"; ev_old := Some {| e_name := "f"; e_isdir := false; e_date := "2021-03-04"; e_data := [] |}; ev_new := None;
            ev_new_parent := ""; ev_delete_chunks := true; ev_from_other := true; ev_sigs := [5%Z] |}.
  split; [vm_compute; auto|]. split; [discriminate|]. split; [vm_compute; reflexivity|].
  vm_compute. discriminate.
Qed.
