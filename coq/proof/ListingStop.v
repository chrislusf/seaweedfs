(* C19: what a callback that answers false gets.  The stop-aware
   StreamListDirectoryEntries hands its callback exactly the first min(limit, k+1) entries of
   the selection (k = index of the first false answer), for every store, directory and request.
   Method: both refill loops keep the invariant [linv] of ListingProofs.v on their view of the
   state ([inner_view], [outer_view]); a stopped state satisfies it with the limit replaced by the number of
   entries delivered and nothing owed. *)
From Coq Require Import List NArith Bool String Ascii Arith Lia.
From SW Require Import proof.ListFacts model.Listing proof.ListingBase proof.ListingStore proof.ListingScan proof.ListingPattern
                       proof.ListingProofs proof.ListingHand.
Import ListNotations.
Local Open Scope string_scope.
Local Open Scope list_scope.
Local Notation length := List.length.

(* a level at which nothing is owed has delivered a page of as many entries as it passed on *)
Lemma linv_stop_intro : forall f d0 c p r m,
  lpos f d0 c p r m -> r_count r = 0 -> linv f d0 c p (length (r_names r)) r m.
Proof.
  intros f d0 c p r m I H0. split; [exact I|]. rewrite H0. split; [lia|].
  destruct I as [Inames _]. rewrite Inames, map_length, firstn_filter_prefix. cbn [firstn]. rewrite app_nil_r. reflexivity.
Qed.

(* a refill round whose callback stopped: the position advances, nothing is owed any more *)
Lemma linv_step_stop : forall f d0 c p L0 r m k r1 m1,
  linv f d0 c p L0 r m -> r_count r = S k ->
  lpos f (r_dir r) (cand (r_last r) false p (r_dir r)) p r1 m1 ->
  r_count r1 = 0 -> length (r_names r1) <= S k ->
  linv f d0 c p (length (r_names (join r r1))) (join r r1) (m + m1) /\
  length (r_names (join r r1)) <= L0.
Proof.
  intros f d0 c p L0 r m k r1 m1 Hinv Ec P Ec1 Hle.
  assert (Hl : r_last r <> "") by (apply (linv_last _ _ _ _ _ _ _ Hinv); lia).
  pose proof (linv_names_le _ _ _ _ _ _ _ Hinv) as Hroom.
  destruct Hinv as [I _].
  split; [apply linv_stop_intro; [exact (lpos_step _ _ _ _ _ _ _ _ I Hl P)|exact Ec1]|].
  destruct I as [_ [_ [Inext _]]]. destruct P as [Pnames _]. rewrite (Inext Hl) in Pnames.
  cbn [join r_names]. rewrite app_length. rewrite Ec in Hroom.
  assert (Hn1 : length (r_names r1) <= length (filter f (skipn m c))).
  { rewrite Pnames, map_length. apply length_filter_firstn_le. }
  lia.
Qed.

(* the view [r] of a level after the caller's callback was called [n] times *)
Record sinv (f : entry -> bool) (d0 : dirst) (c : list entry) (p : string) (L0 : nat) (ans0 : list bool)
           (r : lres) (n : nat) (ans : list bool) (stop : bool) (m : nat) : Prop := {
  sv_inv : linv f d0 c p (if stop then length (r_names r) else L0) r m;
  sv_stopped : stop = true -> r_count r = 0;
  sv_room : length (r_names r) <= L0;
  sv_ans : ans_ok ans0 n ans stop }.

(* one refill round under a callback that has not stopped yet; a round that still owes
   something has consumed a candidate *)
Lemma sinv_step : forall f d0 c p L0 ans0 r n ans m k r1 n1 ans1 stop1 m1,
  sinv f d0 c p L0 ans0 r n ans false m -> r_count r = S k ->
  sinv f (r_dir r) (cand (r_last r) false p (r_dir r)) p (S k) ans r1 n1 ans1 stop1 m1 ->
  sinv f d0 c p L0 ans0 (join r r1) (n + n1) ans1 stop1 (m + m1) /\
  (0 < r_count r1 -> length (skipn (m + m1) c) < length (skipn m c)).
Proof.
  intros f d0 c p L0 ans0 r n ans m k r1 n1 ans1 stop1 m1 [HL _ Hlen Ha] Hc [PL P0 Plen Pa].
  split.
  - pose proof (ans_ok_trans _ _ _ _ _ _ Ha Pa) as Hans.
    destruct stop1.
    + destruct (linv_step_stop f d0 c p L0 r m k r1 m1 HL Hc (proj1 PL) (P0 eq_refl) Plen) as [HS1 HS2].
      split; [exact HS1|intros _; exact (P0 eq_refl)|exact HS2|exact Hans].
    + pose proof (linv_step f d0 c p L0 r m k r1 m1 HL Hc PL) as HS1.
      split; [exact HS1|discriminate| |exact Hans].
      pose proof (linv_names_le _ _ _ _ _ _ _ HS1). lia.
  - intros Hpos. rewrite skipn_add.
    assert (Hl : r_last r <> "") by (apply (linv_last _ _ _ _ _ _ _ HL); lia).
    destruct HL as [[_ [_ [Inext _]]] _]. rewrite (Inext Hl) in PL.
    exact (linv_progress _ _ _ _ _ _ _ PL Hpos).
Qed.
Arguments sinv_step {f d0 c p L0 ans0 r n ans m k r1 n1 ans1 stop1 m1}.

Definition sinv1 (ms : string -> bool) (d0 : dirst) (c : list entry) (p : string) (L0 : nat) (ans0 : list bool)
           (rs : sres) (m : nat) : Prop :=
  sinv elive d0 c p L0 ans0 (inner_view rs) (length (s_names rs)) (s_ans rs) (s_stop rs) m /\ by_closure ms rs.

Lemma names_len : forall ms v,
  length (filter (fun n => negb (ms n)) (map ename (filter elive v))) = length (filter (passes ms) v).
Proof.
  intros. rewrite length_filter_map, filter_filter. reflexivity.
Qed.

Lemma do_list_s_sinv : forall s ms d start incl L p ans, wf d ->
  exists rs m, do_list_s s ms d start incl L p ans = Some rs /\
               sinv1 ms d (cand start incl p d) p L ans rs m.
Proof.
  intros s ms d start incl L p ans Hwf.
  destruct (wrapper_list_spec s d start incl L p Hwf) as [w [Ew Hw]].
  unfold do_list_s. rewrite (wrapper_list_s_hand s ms d start incl L p ans w Ew).
  pose proof (scan_linv _ _ _ _ _ _ Hw) as Hl. destruct Hw as [H1 _].
  set (c := cand start incl p d) in *.
  destruct (hand_prefix ms (w_vis w) ans) as [j [J1 [J2 [J3 J4]]]].
  pose proof (hand_ans ms (w_vis w) ans) as HA. rewrite <- names_len in HA.
  set (h := hand ms (w_vis w) ans) in *.
  assert (HjL : j <= L) by (rewrite H1, firstn_length in J2; lia).
  destruct (h_stop h) eqn:Eh.
  - (* stopped inside this call: it is the call with limit j *)
    assert (Hv : h_vis h = firstn j c).
    { rewrite J1, H1, firstn_firstn. f_equal. lia. }
    rewrite Hv in *.
    pose proof (scan_linv _ _ _ _ _ _ (scan_ok_last_visited d start incl j p Hwf)) as [Hp _].
    eexists _, j. split; [reflexivity|]. split; [|split; reflexivity].
    unfold inner_view. cbn [s_exp s_last s_live s_names s_dir s_ans s_stop w_vis w_last r_names r_count].
    split; [exact (linv_stop_intro elive d c p
                     {| r_count := 0; r_last := last_name (firstn j c);
                        r_names := map ename (filter elive (firstn j c)); r_dir := del_expired (firstn j c) d |}
                     j Hp eq_refl)|reflexivity| |exact HA]; cbn [r_names].
    rewrite map_length. pose proof (filter_length_le elive (firstn j c)). rewrite firstn_length in H. lia.
  - rewrite (J3 eq_refl) in *.
    eexists _, L. split; [reflexivity|]. split; [|split; reflexivity].
    unfold inner_view. cbn [s_exp s_last s_live s_names s_dir s_ans s_stop w_vis w_last r_names r_count].
    split; [exact Hl|discriminate| |exact HA]; cbn [r_names].
    rewrite map_length, H1. pose proof (filter_length_le elive (firstn L c)). rewrite firstn_length in H. lia.
Qed.

Lemma inner_view_done : forall rs, s_exp rs = 0 \/ s_stop rs = true -> r_count (inner_view rs) = 0.
Proof. intros rs [H|H]; unfold inner_view; cbn [r_count]; rewrite H; [destruct (s_stop rs)|]; reflexivity. Qed.

Lemma valid_loop_s_spec : forall fuel s ms p d0 c L0 ans0 rs m,
  wf d0 -> sinv1 ms d0 c p L0 ans0 rs m -> (0 < r_count (inner_view rs) -> length (skipn m c) < fuel) ->
  exists rs' m', valid_loop_s fuel s ms p rs = Some rs' /\ sinv1 ms d0 c p L0 ans0 rs' m' /\ r_count (inner_view rs') = 0.
Proof.
  induction fuel as [|f IH]; intros s ms p d0 c L0 ans0 rs m Hwf Hinv Hfuel; cbn [valid_loop_s].
  all: destruct (s_exp rs) as [|k] eqn:Ec; [exists rs, m; auto using inner_view_done|].
  all: destruct (s_stop rs) eqn:Es; [exists rs, m; auto using inner_view_done|].
  all: assert (Hc : r_count (inner_view rs) = S k) by (unfold inner_view; cbn [r_count]; rewrite Es; exact Ec).
  - exfalso. specialize (Hfuel ltac:(lia)). lia.
  - destruct Hinv as [HS HC]. rewrite Es in HS.
    assert (Hwf1 : wf (s_dir rs)).
    { destruct HS as [[[_ [Idir _]] _] _ _ _]. cbn [inner_view r_dir] in Idir. rewrite Idir. apply wf_del_expired; auto. }
    destruct (do_list_s_sinv s ms (s_dir rs) (s_last rs) false (S k) p (s_ans rs) Hwf1) as [rs1 [m1 [E1 [PS PC]]]].
    rewrite E1.
    destruct (sinv_step HS Hc PS) as [HS2 Hdec].
    apply (IH s ms p d0 c L0 ans0 _ (m + m1) Hwf).
    + split; [rewrite <- app_length in HS2; exact HS2|]. apply (by_closure_app ms rs rs1); auto.
    + intros Hpos. specialize (Hfuel ltac:(lia)). specialize (Hdec Hpos). lia.
Qed.

Lemma pattern_list_s_sinv1 : forall s ms d start incl L p ans, wf d ->
  exists rs m, pattern_list_s s ms d start incl L p ans = Some rs /\
               sinv1 ms d (cand start incl p d) p L ans rs m /\ r_count (inner_view rs) = 0.
Proof.
  intros s ms d start incl L p ans Hwf. unfold pattern_list_s.
  destruct (do_list_s_sinv s ms d start incl L p ans Hwf) as [rs0 [m0 [E0 P]]]. rewrite E0.
  apply (valid_loop_s_spec (S (length d)) s ms p d (cand start incl p d) L ans rs0 m0 Hwf P).
  intros _. rewrite skipn_length. unfold cand. pose proof (filter_length_le (sel start incl p) d). lia.
Qed.

Definition sinv2 (p rest excl : string) (d0 : dirst) (c : list entry) (L0 : nat) (ans0 : list bool)
           (rs : sres) (m : nat) : Prop :=
  sinv (good p rest excl) d0 c p L0 ans0 (outer_view rs) (length (s_names rs)) (s_ans rs) (s_stop rs) m.

Lemma sinv1_sinv2 : forall p rest excl d c L ans rs m,
  sinv1 (ms_of p rest excl) d c p L ans rs m -> r_count (inner_view rs) = 0 -> sinv2 p rest excl d c L ans rs m.
Proof.
  intros p rest excl d c L ans rs m [[HL _ Hlen Ha] [Cn Cm]] H0.
  pose proof (linv_pattern p rest excl d c _ (inner_view rs) m HL H0) as HP.
  cbn [inner_view r_names r_last r_dir] in HP, Hlen. rewrite <- Cn, <- Cm in HP.
  assert (Hle : length (s_names rs) <= L).
  { rewrite Cn. pose proof (filter_length_le (fun n => negb (ms_of p rest excl n)) (s_live rs)). lia. }
  split; [| |exact Hle|exact Ha].
  - destruct (s_stop rs) eqn:Es; [|unfold outer_view; rewrite Es; exact HP].
    apply linv_stop_intro; [exact (proj1 HP)|]. cbn [outer_view r_count]. rewrite Es. reflexivity.
  - intros Es. cbn [outer_view r_count]. rewrite Es. reflexivity.
Qed.

Lemma pattern_list_s_sinv2 : forall s d start incl L p rest excl ans, wf d ->
  exists rs m, pattern_list_s s (ms_of p rest excl) d start incl L p ans = Some rs /\
               sinv2 p rest excl d (cand start incl p d) L ans rs m.
Proof.
  intros s d start incl L p rest excl ans Hwf.
  destruct (pattern_list_s_sinv1 s (ms_of p rest excl) d start incl L p ans Hwf) as [rs [m [E [Q Q0]]]].
  exists rs, m. split; [exact E|]. apply sinv1_sinv2; auto.
Qed.

Lemma outer_view_done : forall rs, s_miss rs = 0 \/ s_stop rs = true -> r_count (outer_view rs) = 0.
Proof. intros rs [H|H]; unfold outer_view; cbn [r_count]; rewrite H; [destruct (s_stop rs)|]; reflexivity. Qed.

Lemma stream_loop_s_spec : forall fuel s p rest excl d0 c L0 ans0 rs m,
  wf d0 -> sinv2 p rest excl d0 c L0 ans0 rs m -> (0 < r_count (outer_view rs) -> length (skipn m c) < fuel) ->
  exists rs' m', stream_loop_s fuel s (ms_of p rest excl) p rs = Some rs' /\
                 sinv2 p rest excl d0 c L0 ans0 rs' m' /\ r_count (outer_view rs') = 0.
Proof.
  induction fuel as [|f IH]; intros s p rest excl d0 c L0 ans0 rs m Hwf Hinv Hfuel; cbn [stream_loop_s].
  all: destruct (s_miss rs) as [|k] eqn:Ec; [exists rs, m; auto using outer_view_done|].
  all: destruct (s_stop rs) eqn:Es; [exists rs, m; auto using outer_view_done|].
  all: assert (Hc : r_count (outer_view rs) = S k) by (unfold outer_view; cbn [r_count]; rewrite Es; exact Ec).
  - exfalso. specialize (Hfuel ltac:(lia)). lia.
  - unfold sinv2 in Hinv. rewrite Es in Hinv.
    assert (Hwf1 : wf (s_dir rs)).
    { destruct Hinv as [[[_ [Idir _]] _] _ _ _]. cbn [outer_view r_dir] in Idir. rewrite Idir. apply wf_del_expired; auto. }
    destruct (pattern_list_s_sinv2 s (s_dir rs) (s_last rs) false (S k) p rest excl (s_ans rs) Hwf1) as [rs1 [m1 [E1 PS]]].
    rewrite E1.
    destruct (sinv_step Hinv Hc PS) as [HS2 Hdec].
    apply (IH s p rest excl d0 c L0 ans0 _ (m + m1) Hwf).
    + rewrite <- app_length in HS2. exact HS2.
    + intros Hpos. specialize (Hfuel ltac:(lia)). specialize (Hdec Hpos). lia.
Qed.

Lemma stream_list_s_inv : forall s d start incl L prefix pat excl ans, wf d ->
  exists rs m, stream_list_s s d start incl L prefix pat excl ans = Some rs /\
    sinv2 (eff_prefix prefix pat) (snd (split_pattern pat)) excl d
          (cand start incl (eff_prefix prefix pat) d) L ans rs m /\
    r_count (outer_view rs) = 0.
Proof.
  intros s d start incl L prefix pat excl ans Hwf. unfold stream_list_s.
  set (p := eff_prefix prefix pat). set (rest := snd (split_pattern pat)).
  destruct (pattern_list_s_sinv2 s d start incl L p rest excl ans Hwf) as [rs0 [m0 [E0 P]]]. rewrite E0.
  apply (stream_loop_s_spec _ s p rest excl d (cand start incl p d) L ans rs0 m0 Hwf P).
  intros _. rewrite skipn_length. unfold cand.
  pose proof (filter_length_le (sel start incl p) d). lia.
Qed.

(* the number [n] of entries delivered is stop_want L ans, as far as taking a prefix of [P] can tell *)
Lemma want_eq : forall (P : list entry) L ans n a stop,
  ans_ok ans n a stop -> n <= L ->
  n = length (firstn (if stop then n else L) P) ->
  firstn (if stop then n else L) P = firstn (stop_want L ans) P.
Proof.
  intros P L ans n a stop [_ A2] HnL Hn. unfold stop_want. destruct stop.
  - destruct A2 as [Hp Hf]. rewrite Hf. f_equal. lia.
  - destruct (first_false ans) as [k|] eqn:Ef; [|reflexivity].
    rewrite (first_false_skipn n ans A2) in Ef.
    destruct (first_false (skipn n ans)) as [k'|]; [|discriminate]. injection Ef as <-.
    destruct (Nat.le_gt_cases L (S (n + k'))) as [H|H]; [f_equal; lia|].
    rewrite Nat.min_r by lia. rewrite firstn_length in Hn.
    rewrite (firstn_all2 (n := L) P) by lia. rewrite (firstn_all2 (n := S (n + k')) P) by lia. reflexivity.
Qed.

(* c19_stop_exact: for EVERY callback (list of answers), store, directory and request the stop-aware
   StreamListDirectoryEntries terminates and hands the callback exactly the first
   min(limit, index of the first false + 1) entries of the selection; the directory loses expired
   children only; the returned lastFileName is the place to continue from; a callback that
   answered false is not called again *)
Theorem stream_list_s_full : forall s d start incl L prefix pat excl ans, wf d ->
  exists rs, stream_list_s s d start incl L prefix pat excl ans = Some rs /\
    s_names rs = map ename (firstn (stop_want L ans) (impl_sel start incl prefix pat excl d)) /\
    wf (s_dir rs) /\ filter elive (s_dir rs) = filter elive d /\
    (s_last rs <> "" -> impl_sel (s_last rs) false prefix pat excl (s_dir rs) =
                        skipn (stop_want L ans) (impl_sel start incl prefix pat excl d)) /\
    (s_last rs = "" -> s_names rs = []) /\
    stop_respected ans (s_names rs) = true.
Proof.
  intros s d start incl L prefix pat excl ans Hwf.
  destruct (stream_list_s_inv s d start incl L prefix pat excl ans Hwf) as [rs [m [E [[HL _ Hlen Ha] H0]]]].
  exists rs. split; [exact E|].
  destruct (lpos_dir _ _ _ _ _ _ _ Hwf (proj1 HL)) as [Hwf' Hlive].
  destruct (linv_done _ _ _ _ _ _ _ HL H0) as [D1 [D2 D3]].
  cbn [outer_view r_names r_dir r_last] in *. fold (impl_sel start incl prefix pat excl d) in D1, D2.
  set (M := impl_sel start incl prefix pat excl d) in *.
  assert (Hw : firstn (if s_stop rs then length (s_names rs) else L) M = firstn (stop_want L ans) M).
  { apply (want_eq _ L ans _ _ _ Ha Hlen). rewrite D1 at 1. apply map_length. }
  rewrite Hw in D1.
  split; [exact D1|]. split; [exact Hwf'|]. split; [exact Hlive|]. split; [|split; [exact D3|]].
  - intros Hl. unfold impl_sel at 1. rewrite (D2 Hl). symmetry.
    apply (firstn_app_skipn_eq M _ _ (stop_want L ans) (eq_sym (firstn_skipn _ M))). symmetry. exact Hw.
  - unfold stop_respected. destruct (first_false ans) as [k|] eqn:Ef; [|reflexivity].
    apply Nat.leb_le. rewrite D1, map_length, firstn_length. unfold stop_want. rewrite Ef. lia.
Qed.
