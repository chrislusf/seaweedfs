(* C30, the in-memory dirty pages (ContinuousIntervals / ContinuousDirtyPages): AddPage, flush and
   saveExistingLargestPageToStorage keep minv on trigger-free histories, hence flush and Read are POSIX;
   well-formedness alone holds on every history. *)
From Coq Require Import List ZArith NArith Bool Lia Permutation.
From SW Require Import model.DirtyPages proof.DirtyPagesBase proof.DirtyPagesIntervals proof.DirtyPagesState
                       proof.DirtyPagesRead.
Import ListNotations.
Local Open Scope Z_scope.

(* the in-memory instance: a node carries its bytes *)
Lemma m_nbytes : forall t, m_valid t -> nbytes (list N) m_fetch t = n_pay t.
Proof.
  intros t [H1 H2]. unfold nbytes, m_fetch. rewrite H2. apply slice_full.
Qed.

Lemma m_H_len : forall t, m_valid t -> 0 < n_size t /\ zlen (nbytes (list N) m_fetch t) = n_size t.
Proof. intros t H. rewrite m_nbytes by auto. destruct H. split; auto. Qed.

Lemma m_H_fetch : forall t a b, m_valid t -> 0 <= a -> a <= b -> b <= n_size t ->
  m_fetch (n_pay t) a b = slice (nbytes (list N) m_fetch t) a b.
Proof. intros t a b H _ _ _. rewrite m_nbytes by auto. reflexivity. Qed.

Lemma m_H_sub : forall t a b, m_valid t -> n_off t <= a -> a < b -> b <= n_off t + n_size t ->
  let t' := {| n_off := a; n_size := b - a; n_pay := m_psub (n_pay t) (a - n_off t) (b - n_off t) |} in
  m_valid t' /\ nbytes (list N) m_fetch t' = slice (nbytes (list N) m_fetch t) (a - n_off t) (b - n_off t).
Proof.
  intros t a b H Ha Hab Hb t'. pose proof H as [H1 H2].
  assert (V : m_valid t').
  { split; cbn [t' n_size n_pay]; [lia|]. unfold m_psub. rewrite zlen_slice; lia. }
  split; auto. rewrite (m_nbytes _ V), (m_nbytes t H). reflexivity.
Qed.

(* the in-memory addNodeToTail never merges: m_merge is None *)
Lemma m_H_merge : forall t u w : mnode, m_valid t -> m_valid u -> n_off u = n_off t + n_size t ->
  m_merge t u = Some w ->
  m_valid w /\ n_off w = n_off t /\ n_size w = n_size t + n_size u /\
  nbytes (list N) m_fetch w = nbytes (list N) m_fetch t ++ nbytes (list N) m_fetch u.
Proof. intros t u w _ _ _ H. discriminate. Qed.

Notation m_wf := (wf (list N) m_valid).
Notation m_cat := (cat (list N) m_fetch).

Lemma m_node_valid : forall off data, data <> [] -> m_valid (m_node off data).
Proof.
  intros off data H. split; cbn [m_node n_size n_pay]; auto. apply zlen_pos; auto.
Qed.

Theorem m_add_spec : forall c off data, m_wf c -> data <> [] ->
  m_wf (m_add c (m_node off data)) /\
  forall p, m_cat (m_add c (m_node off data)) p =
            if (off <=? p) && (p <? off + zlen data) then zget data (p - off) else m_cat c p.
Proof.
  intros c off data Hwf Hd. pose proof (m_node_valid off data Hd) as Hv.
  destruct (add_interval_spec (list N) m_psub m_merge m_fetch m_valid m_H_len m_H_sub m_H_merge
              c (m_node off data) Hwf Hv) as [H1 H2].
  split; auto. intros p. unfold m_add. rewrite H2. unfold nat_. rewrite (m_nbytes _ Hv).
  cbn [m_node n_off n_size n_pay]. destruct (range_spec off (off + zlen data) p); auto.
  destruct (zget_in_range data (p - off)) as [b Hb]; [lia|]. rewrite Hb. auto.
Qed.

(* the bytes a flush uploads for a list: every node's Data, concatenated *)
Lemma m_all_bytes : forall l a b, seg (list N) m_valid a l b ->
  m_list_all_bytes l = lbytes (list N) m_fetch l.
Proof.
  induction l as [|t l IH]; intros a b H; [reflexivity|]. destruct H as [Hv [_ H]].
  unfold m_list_all_bytes, lbytes in *. cbn [flat_map]. rewrite (m_nbytes t Hv). f_equal. eauto.
Qed.

(* the invariant along a trigger-free history *)
Definition minv (s : mstate) : (Z -> N) -> Z -> Prop := binv (list N) m_fetch m_valid (m_iv s) (m_meta s).
Definition minv_f (s : mstate) (f : list N) : Prop := minv s (pget f) (zlen f).
Definition m_ends (s : mstate) : list Z := map (tail_end (list N)) (m_iv s).

(* saveExistingLargestPageToStorage moves the bytes of one list into a chunk *)
Lemma m_save_largest_inv : forall s g A, minv s g A ->
  minv (fst (m_save_largest s)) g A /\
  (m_iv s <> [] -> snd (m_save_largest s) = true /\
                   S (length (m_iv (fst (m_save_largest s)))) = length (m_iv s)) /\
  (m_iv s = [] -> m_save_largest s = (s, false)).
Proof.
  intros s g A [Iwf Iattr IA Il Ic Ib]. unfold m_save_largest.
  pose proof (remove_largest_spec (list N) m_fetch m_valid m_H_len (m_iv s) Iwf) as R.
  destruct (remove_largest (list N) (m_iv s)) as [[l rest]|].
  - pose proof (wf_perm R Iwf) as Wlr. pose proof Wlr as [Wl [_ Wp]]. apply Forall_cons_iff in Wl. destruct Wl as [Hl Hrest].
    destruct (Il l) as [L1 L2]; [apply (Permutation_in _ (Permutation_sym R)); left; auto|].
    pose proof (wfl_seg l Hl) as Sg. destruct (seg_le m_H_len Sg) as [_ Hlt].
    destruct (lbytes_spec m_H_len Sg) as [B1 B2].
    rewrite (m_all_bytes l _ _ Sg), Iattr. unfold l_size.
    replace (Z.min (tail_end (list N) l - head_off (list N) l) (A - head_off (list N) l))
      with (zlen (lbytes (list N) m_fetch l)) by lia.
    destruct (Z.eqb_spec (zlen (lbytes (list N) m_fetch l)) 0); [specialize (Hlt (proj1 Hl)); lia|].
    unfold limit_bytes. rewrite firstn_zlen. cbn [fst snd].
    split; [|split].
    + constructor; cbn [m_iv m_meta add_chunk f_attr f_chunks]; auto.
      * split; auto.
      * intros m Hm. apply Il. apply (Permutation_in _ (Permutation_sym R)). right. auto.
      * intros c Hc. apply in_app_or in Hc. destruct Hc as [Hc|[Hc|[]]]; auto.
        subst c. cbn [fst snd]. lia.
      * intros p Hp Ho. rewrite (Ib p Hp Ho), (cat_perm m_H_len p R Iwf), cget_app.
        cbn [cat cget fst snd]. rewrite <- B2. destruct (lat (list N) m_fetch l p) eqn:El; [|reflexivity].
        rewrite (lat_cat_disjoint m_H_len Wlr El). reflexivity.
    + intros _. split; auto. cbn [m_iv]. rewrite (Permutation_length R). reflexivity.
    + intros Hnil. rewrite Hnil in R. apply Permutation_nil_cons in R. destruct R.
  - cbn [fst snd]. split; [constructor; auto|]. split; [congruence|auto].
Qed.

Lemma m_save_all_inv : forall fuel s g A, minv s g A ->
  minv (m_save_all fuel s) g A /\ ((length (m_iv s) < fuel)%nat -> m_iv (m_save_all fuel s) = []).
Proof.
  induction fuel as [|fuel IH]; intros s g A I.
  - simpl. split; auto. lia.
  - cbn [m_save_all]. destruct (m_save_largest_inv s g A I) as [I' [Hne Hnil]].
    destruct (m_save_largest s) as [s' more] eqn:E. cbn [fst snd] in *.
    destruct (m_iv s) eqn:Eiv.
    + pose proof (Hnil eq_refl) as Q. inversion Q; subst. split; auto.
    + destruct Hne as [Hm Hlen]; [discriminate|]. subst more.
      destruct (IH s' g A I') as [J1 J2]. split; auto. intros Hf. apply J2. simpl in Hlen, Hf. lia.
Qed.

Lemma m_flush_inv : forall s g A, minv s g A -> minv (m_flush s) g A /\ m_iv (m_flush s) = [].
Proof.
  intros s g A I. unfold m_flush. destruct (m_save_all_inv (S (length (m_iv s))) s g A I) as [J1 J2].
  split; auto.
Qed.

Lemma m_add_page_inv : forall limit s g A off data, minv s g A ->
  0 <= off -> data <> [] -> off + zlen data <= A ->
  minv (m_add_page limit s off data) (override g off data) A.
Proof.
  intros limit s g A off data I Hoff Hd Hend. unfold m_add_page.
  set (s1 := if zlen data >? limit then _ else s).
  assert (I1 : binv_except _ m_fetch m_valid (m_iv s1) (m_meta s1) g A off (off + zlen data)).
  { unfold s1. destruct (zlen data >? limit); cbn [m_iv m_meta].
    - destruct (m_flush_inv s g A I) as [J _]. unfold limit_bytes. rewrite firstn_zlen.
      apply binv_except_add_chunk; auto. apply binv_to_except; auto.
    - apply binv_to_except; auto. }
  destruct (m_add_spec (m_iv s1) off data (bi_wf I1) Hd) as [W C].
  pose proof (binv_add m_H_len m_H_len I1 W C Hoff Hend) as I2.
  cbn [m_iv m_meta]. destruct (total_size _ _ >=? limit); auto.
  apply m_save_largest_inv; auto.
Qed.

(* a Read changes nothing but the view cache *)
Lemma m_step_read : forall limit s off len,
  m_step limit s (Read off len) =
  ({| m_iv := m_iv s; m_meta := snd (handle_read (m_meta s) (m_dirty_read s) off len) |},
   ORead (fst (m_dirty_read s (repeat 0%N (Z.to_nat len)) off)) (snd (m_dirty_read s (repeat 0%N (Z.to_nat len)) off))
         (fst (handle_read (m_meta s) (m_dirty_read s) off len))).
Proof.
  intros. cbn [m_step]. destruct (m_dirty_read s _ off). destruct (handle_read _ _ off len). reflexivity.
Qed.

Lemma m_step_inv : forall limit s f o, minv_f s f -> op_ok o ->
  trig_at (m_ends s) (m_meta s) o = None -> minv_f (fst (m_step limit s o)) (pstep f o).
Proof.
  intros limit s f o I Hok Htr. unfold minv_f in *. destruct o as [off data|n| |off len]; cbn [pstep]; [cbn [m_step fst]..|].
  - destruct Hok as [Hoff Hd]. destruct (pwrite_spec f off data Hoff) as [Hlen _].
    apply (binv_ext (override (pget f) off data)); [intros; symmetry; apply pget_override; auto|].
    rewrite Hlen, (bi_attr I), Z.max_comm. apply m_add_page_inv; auto; try lia.
    apply (binv_grow m_H_len); auto. lia.
  - apply (binv_trunc m_H_len); auto.
  - apply m_flush_inv; auto.
  - rewrite m_step_read. cbn [fst m_iv m_meta]. rewrite handle_read_only_pins. apply binv_pin; auto.
Qed.

Lemma minv0 : minv_f mstate0 [].
Proof. constructor; cbn; auto; try lia. split; simpl; auto. Qed.

(* after a flush the stored chunks resolve to the POSIX file *)
Theorem m_flush_is_posix : forall limit pre post,
  Forall op_ok (pre ++ Flush :: post) ->
  m_trigger limit (pre ++ Flush :: post) = None ->
  content_of (m_meta (exec mstate (m_step limit) mstate0 (pre ++ [Flush]))) = pfile (pre ++ [Flush]).
Proof.
  intros limit pre post Hok Htr.
  destruct (hist_before (m_step_inv limit) pre mstate0 [] _ post minv0 Hok Htr) as [I _].
  rewrite exec_app, pfile_app. cbn [exec m_step fst fold_left pstep].
  destruct (m_flush_inv _ _ _ I) as [J Hnil]. unfold minv in J. rewrite Hnil in J. apply (binv_content J).
Qed.

Theorem m_read_is_posix_history : forall limit pre off len post,
  Forall op_ok (pre ++ Read off len :: post) -> 0 <= off -> 0 < len ->
  m_trigger limit (pre ++ Read off len :: post) = None ->
  exists d ms, snd (m_step limit (exec mstate (m_step limit) mstate0 pre) (Read off len))
               = ORead d ms (pread (pfile pre) off len).
Proof.
  intros limit pre off len post Hok Hoff Hlen Htr.
  destruct (hist_before (m_step_inv limit) pre mstate0 [] _ post minv0 Hok Htr) as [I E].
  set (s := exec mstate (m_step limit) mstate0 pre) in *.
  assert (Hr : fst (handle_read (m_meta s) (m_dirty_read s) off len) = pread (pfile pre) off len)
    by exact (handle_read_posix m_H_len m_H_fetch off len I Hoff Hlen E).
  rewrite m_step_read. cbn [snd]. rewrite Hr. eauto.
Qed.

(* minv is not available off trigger-free histories: the wf half of m_save_largest_inv on its own *)
Lemma m_save_largest_wf : forall s, m_wf (m_iv s) -> m_wf (m_iv (fst (m_save_largest s))).
Proof.
  intros s W. unfold m_save_largest.
  pose proof (remove_largest_spec (list N) m_fetch m_valid m_H_len (m_iv s) W) as R.
  destruct (remove_largest (list N) (m_iv s)) as [[l rest]|]; auto.
  destruct (wf_perm R W) as [Wl [_ Wp]]. inversion Wl; subst.
  destruct (_ =? 0); split; auto.
Qed.

Lemma m_save_all_wf : forall fuel s, m_wf (m_iv s) -> m_wf (m_iv (m_save_all fuel s)).
Proof.
  induction fuel as [|fuel IH]; intros s W; simpl; auto.
  pose proof (m_save_largest_wf s W) as W'. destruct (m_save_largest s) as [s' more]. cbn [fst] in W'.
  destruct more; auto.
Qed.

Lemma m_step_wf : forall limit s o, m_wf (m_iv s) -> op_ok o -> m_wf (m_iv (fst (m_step limit s o))).
Proof.
  intros limit s o W Hok. destruct o as [off data|n| |off len]; [cbn [m_step fst m_iv]..|]; auto.
  - destruct Hok as [_ Hd]. unfold m_add_page. cbn [m_iv m_meta].
    set (s1 := if zlen data >? limit then _ else _).
    assert (W1 : m_wf (m_iv s1)).
    { unfold s1. destruct (zlen data >? limit); cbn [m_iv]; auto. apply m_save_all_wf; auto. }
    destruct (m_add_spec (m_iv s1) off data W1 Hd) as [W2 _].
    destruct (total_size (list N) (m_add (m_iv s1) (m_node off data)) >=? limit); auto.
    apply m_save_largest_wf. auto.
  - apply m_save_all_wf; auto.
  - rewrite m_step_read. auto.
Qed.

(* the interval lists stay well formed along EVERY history *)
Theorem m_lists_wellformed : forall limit ops, Forall op_ok ops ->
  m_wf (m_iv (exec mstate (m_step limit) mstate0 ops)).
Proof.
  intros limit ops. apply (exec_preserves _ (fun s => m_wf (m_iv s)) (m_step_wf limit)). split; simpl; auto.
Qed.

(* AddInterval of every write of ws, in order *)
Definition m_adds (ws : list (Z * list N)) (c : list (ilist (list N))) : list (ilist (list N)) :=
  fold_left (fun c w => m_add c (m_node (fst w) (snd w))) ws c.

(* the byte of the last write covering p, if any *)
Definition latest_from (acc : option N) (ws : list (Z * list N)) (p : Z) : option N :=
  fold_left (fun a w => if covers w p then zget (snd w) (p - fst w) else a) ws acc.
Definition latest (ws : list (Z * list N)) (p : Z) : option N := latest_from None ws p.

Lemma m_adds_spec : forall ws c, m_wf c -> Forall (fun w => snd w <> []) ws ->
  m_wf (m_adds ws c) /\ forall p, m_cat (m_adds ws c) p = latest_from (m_cat c p) ws p.
Proof.
  induction ws as [|w ws IH]; intros c W Hne; simpl; auto.
  inversion Hne as [|? ? Hw Hws]; subst.
  destruct (m_add_spec c (fst w) (snd w) W Hw) as [W1 C1].
  destruct (IH _ W1 Hws) as [W2 C2]. split; auto.
  intros p. rewrite C2, C1. reflexivity.
Qed.

Theorem m_read_data_at : forall c buf so, m_wf c ->
  zlen (fst (read_data_at (list N) m_fetch c buf so)) = zlen buf /\
  (forall i, 0 <= i < zlen buf ->
     zget (fst (read_data_at (list N) m_fetch c buf so)) i =
     match m_cat c (so + i) with Some b => Some b | None => zget buf i end) /\
  (forall p b, so <= p < so + zlen buf -> m_cat c p = Some b -> p < snd (read_data_at (list N) m_fetch c buf so)).
Proof.
  intros c buf so W.
  destruct (read_data_at_spec (list N) m_fetch m_valid m_H_len m_H_fetch c buf so W) as [R1 [R2 [R3 [R4 R5]]]].
  split; auto. split.
  - intros i Hi. rewrite R2. replace ((0 <=? i) && (i <? zlen buf)) with true by lia. reflexivity.
  - intros p b Hp Hc. apply cat_some in Hc. destruct Hc as [l [Hl Hb]].
    destruct W as [Wl _]. rewrite Forall_forall in Wl.
    apply (lat_range m_H_len (wfl_seg l (Wl l Hl))) in Hb.
    specialize (R4 l Hl). lia.
Qed.

(* ReadDataAt returns the latest write *)
Theorem m_read_is_posix : forall ws buf so i, Forall (fun w => snd w <> []) ws -> 0 <= i < zlen buf ->
  zget (fst (read_data_at (list N) m_fetch (m_adds ws []) buf so)) i =
  match latest ws (so + i) with Some b => Some b | None => zget buf i end.
Proof.
  intros ws buf so i Hne Hi. destruct (m_adds_spec ws [] (conj (Forall_nil _) I) Hne) as [W C].
  destruct (m_read_data_at (m_adds ws []) buf so W) as [_ [R _]]. rewrite R by auto. rewrite C. reflexivity.
Qed.
