(* C11, single-layout model: what a sweep of the full-volume collector enforces about the
   sizes the servers last REPORTED (model/TopoMulti.v: srstep / rsize).  The registered
   and the reported state are tied by [RelV]; finding 3 (a short "new" message overwrites
   the registered size with 0) is what the relation has to leave room for. *)
From Coq Require Import List NArith Bool Lia.
From SW Require Import model.TopoLayout model.TopoMulti proof.TopoLayoutProofs.
Import ListNotations.
Local Open Scope N_scope.

(* the "new" loop of an incremental message: a vid not yet reported gets size 0 *)
Lemma srstep_news_get : forall (ns : list N) (m : list (N * N)) v,
  aget v (fold_left (fun m a => match aget a m with Some _ => m | None => aset a 0 m end) ns m) =
  if mem v ns then match aget v m with Some x => Some x | None => Some 0 end else aget v m.
Proof.
  induction ns as [|a ns IH]; intros m v; simpl; [reflexivity|].
  rewrite IH. unfold mem; simpl. fold (mem v ns). destruct (v =? a) eqn:E; simpl.
  - apply N.eqb_eq in E; subst. destruct (aget a m) eqn:Ea; [rewrite Ea|rewrite aget_aset_eq];
      now destruct (mem a ns).
  - replace (aget v (match aget a m with Some _ => m | None => aset a 0 m end)) with (aget v m); [reflexivity|].
    destruct (aget a m); [reflexivity|]. symmetry. apply aget_aset_neq. intros H; subst. now rewrite N.eqb_refl in E.
Qed.

Lemma rsize_aset : forall r n m x v, rsize (aset n x r) m v = if n =? m then aget v x else rsize r m v.
Proof.
  intros; unfold rsize, srep_of. rewrite aget_aset. now destruct (n =? m).
Qed.

(* the reported sizes after an event *)
Lemma srstep_rsize : forall r e m v, wf_event e = true ->
  rsize (srstep r e) m v =
  match e with
  | EFull n vs => if n =? m then option_map vi_size (find_id v vs) else rsize r m v
  | EIncr n news dels =>
      if n =? m then
        let old := if mem v dels then None else rsize r n v in
        if mem v news then Some (match old with Some x => x | None => 0 end) else old
      else rsize r m v
  | ECollect => rsize r m v
  | EDisconnect n => if n =? m then None else rsize r m v
  end.
Proof.
  intros r [n vs|n news dels| |n] m v Hwf; simpl in *.
  - rewrite rsize_aset, fold_aset_get by now apply nodupb_spec. now destruct (find_id v vs).
  - rewrite rsize_aset, srstep_news_get, (fold_adel_get (fun d => d)), map_id. fold (rsize r n v).
    destruct (mem v news); [|reflexivity]. now destruct (if mem v dels then None else rsize r n v).
  - reflexivity.
  - unfold rsize, srep_of. rewrite aget_adel. now destruct (n =? m).
Qed.

Lemma In_filter_neq : forall (cl : list N) n m, In m (filter (fun x => negb (x =? n)) cl) <-> In m cl /\ m <> n.
Proof. intros; rewrite filter_In, negb_true_iff, N.eqb_neq. tauto. Qed.

(* registered vs reported state of vid v: node n holds v iff it reported v, and unless n is
   in cl (clobbered), a reported size at or over the limit is the registered size.  Sizes
   under the limit may differ: a short "new" message registers 0. *)
Definition RelV (c : cfg) (v : N) (s : state) (r : srep) (cl : list N) : Prop :=
  forall n,
    (ginfo (s_nodes s) n v = None <-> rsize r n v = None) /\
    (~ In n cl -> forall i sz, ginfo (s_nodes s) n v = Some i -> rsize r n v = Some sz ->
                  c_limit c <= sz -> vi_size i = sz).

Section Collect.
  Variable c : cfg.
  Hypothesis Hc : 1 <= c_copy c.

  Lemma rel_step : forall s r cl e v, Inv c s -> wf_event e = true ->
    RelV c v s r cl -> RelV c v (step c s e) (srstep r e) (cl_step c v r cl e).
  Proof.
    intros s r cl e v HI Hwf HR m.
    rewrite (proj2 (step_ginfo c s e (inv_nodes _ _ HI) Hwf)), srstep_rsize by assumption.
    destruct (HR m) as [A B].
    (* another node keeps its entries; it stays outside cl' if it was outside cl *)
    assert (Other : forall cl', (In m cl -> In m cl') ->
              (ginfo (s_nodes s) m v = None <-> rsize r m v = None) /\
              (~ In m cl' -> forall i sz, ginfo (s_nodes s) m v = Some i -> rsize r m v = Some sz ->
                             c_limit c <= sz -> vi_size i = sz)).
    { intros cl' Hsub. split; [exact A|]. intros Hcl. apply B. intros H. apply Hcl, Hsub, H. }
    destruct e as [n vs|n news dels| |n]; simpl.
    - (* full heartbeat of n: registered and reported size agree *)
      destruct (N.eqb_spec n m) as [<-|Hne];
        [|apply Other; intros H; apply In_filter_neq; split; [assumption|congruence]].
      destruct (find_id v vs) as [a|]; simpl; [|split; [tauto|intros _ i sz Hi; discriminate]].
      split; [split; discriminate|]. intros _ i sz Hi Hsz _. now inversion Hi; inversion Hsz; subst.
    - (* incremental heartbeat of n *)
      destruct (N.eqb_spec n m) as [<-|Hne];
        [|apply Other; intros H; destruct (mem v news && _); [now right|assumption]].
      simpl in Hwf. apply wf_incr in Hwf. destruct Hwf as (_ & H3).
      destruct (mem v news) eqn:Emn.
      + (* v is named as new: registered with size 0 *)
        assert (Hnd : mem v dels = false) by (apply mem_false, H3; now apply mem_In).
        rewrite Hnd. split; [split; discriminate|].
        intros Hcl i sz Hi Hsz Hlim. inversion Hi; subst i; simpl.
        destruct (rsize r n v) as [sz0|]; inversion Hsz; subst; [|reflexivity].
        exfalso. apply Hcl. apply N.leb_le in Hlim. rewrite Hlim. now left.
      + destruct (mem v dels); [split; [tauto|intros _ i sz Hi; discriminate]|]. now split.
    - exact (HR m).
    - (* disconnect of n *)
      destruct (N.eqb_spec n m) as [<-|Hne]; [split; [tauto|intros _ i sz Hi; discriminate]|].
      apply Other. intros H. apply In_filter_neq; split; [assumption|congruence].
  Qed.

  Lemma rel_run : forall es s r cl v, Inv c s -> forallb wf_event es = true ->
    RelV c v s r cl -> RelV c v (run c s es) (fold_left srstep es r) (clobbered_size c v r cl es).
  Proof.
    induction es as [|e es IH]; intros s r cl v HI Hwf HR; simpl in *; [assumption|].
    apply andb_true_iff in Hwf. destruct Hwf as [W1 W2].
    apply IH; auto; [now apply step_inv|now apply rel_step].
  Qed.

  Lemma rel_init : forall v, RelV c v init [] [].
  Proof. intros v n; split; [split; reflexivity|intros _ i sz H; discriminate]. Qed.

  (* right after a sweep every size last REPORTED for a writable vid is below the limit,
     outside the per-(node, vid) trigger *)
  Lemma collect_enforces_reported_partial : forall es, wf_history es -> forall v,
    trigger_clobber_size_v c es v = false ->
    writable (run c init (es ++ [ECollect])) v = true ->
    forall n sz, rsize (sreported es) n v = Some sz -> sz < c_limit c.
  Proof.
    intros es Hwf v Ht Hw n sz Hsz.
    pose proof (rel_run es init [] [] v (init_inv c) Hwf (rel_init v)) as HR.
    unfold trigger_clobber_size_v in Ht. destruct (clobbered_size c v [] [] es) eqn:Ecl; [|discriminate].
    destruct (HR n) as [A B]. fold (sreported es) in A, B.
    destruct (ginfo (s_nodes (run c init es)) n v) as [i|] eqn:Ei.
    - pose proof (after_collect_registered_small c Hc es Hwf v Hw n i Ei) as Hsmall.
      destruct (N.lt_ge_cases sz (c_limit c)) as [Hlt|Hge]; [exact Hlt|].
      rewrite <- (B (fun H => H) i sz eq_refl Hsz Hge). exact Hsmall.
    - destruct A as [A _]. rewrite (A eq_refl) in Hsz. discriminate.
  Qed.
End Collect.

(* the statement at full strength: after a sweep no vid whose last reported size
   (on any server) is at or over the limit is writable *)
Definition collect_enforces_reported (c : cfg) : Prop :=
  forall es, wf_history es -> forall v,
    writable (run c init (es ++ [ECollect])) v = true ->
    forall n sz, rsize (sreported es) n v = Some sz -> sz < c_limit c.

(* it fails: the short "new" message overwrites the registered size with 0 *)
Definition clobber_size_history : list event :=
  [EFull 1 [vi 1 10 false]; EFull 1 [vi 1 100 false]; EIncr 1 [1] []].

Lemma collect_enforces_reported_refuted : ~ collect_enforces_reported cfg000.
Proof.
  intros H. specialize (H clobber_size_history eq_refl 1). vm_compute in H.
  specialize (H eq_refl 1 100 eq_refl). discriminate.
Qed.

Lemma clobber_size_witness :
  writable (run cfg000 init (clobber_size_history ++ [ECollect])) 1 = true /\
  rsize (sreported clobber_size_history) 1 1 = Some 100 /\
  trigger_clobber_size_v cfg000 clobber_size_history 1 = true /\
  (* the trigger ends with the server's next full heartbeat *)
  trigger_clobber_size_v cfg000 (clobber_size_history ++ [EFull 1 [vi 1 100 false]]) 1 = false.
Proof. vm_compute; repeat split; reflexivity. Qed.

(* the edge of the sweep's test in the model: limit-1 stays, limit and limit+1 go
   (v.Size >= volumeSizeLimit); non-vacuity of the partial theorem's hypotheses *)
Definition boundary_history : list event :=
  [EFull 1 [vi 1 10 false; vi 2 10 false; vi 3 10 false]; EFull 1 [vi 1 99 false; vi 2 100 false; vi 3 101 false]].

Lemma collect_boundary :
  wf_history boundary_history /\
  forallb (fun v => negb (trigger_clobber_size_v cfg000 boundary_history v)) [1; 2; 3] = true /\
  (let s := run cfg000 init boundary_history in
   writable s 1 = true /\ writable s 2 = true /\ writable s 3 = true) /\
  (let s := run cfg000 init (boundary_history ++ [ECollect]) in
   writable s 1 = true /\ writable s 2 = false /\ writable s 3 = false) /\
  map (rsize (sreported boundary_history) 1) [1; 2; 3] = [Some 99; Some 100; Some 101].
Proof. vm_compute; repeat split; reflexivity. Qed.
