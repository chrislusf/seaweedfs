(* C27, pagination without delimiter over a bucket directory whose sub directories
   hold files only (one level of nesting): the marker may point into a sub directory
   ("d/x"), which exercises the marker branch of doListFilerEntries. *)
From Coq Require Import List NArith ZArith Bool String Ascii Arith Lia.
From SW Require Import proof.ListFacts model.S3List proof.S3ListProofs proof.S3ListSound proof.S3ListExact proof.S3ListPaging.
Import ListNotations.
Local Open Scope string_scope.
Local Open Scope list_scope.
Local Notation length := List.length.

Definition is_file (t : tree) : bool := match t with File _ => true | Dir _ _ => false end.

(* a file, or a directory (not ".uploads") that holds at least one file and only files *)
Definition flat1 (t : tree) : bool :=
  match t with
  | File _ => true
  | Dir n fs => negb (n =? uploads) && match fs with [] => false | _ :: _ => true end && forallb is_file fs
  end.

Lemma files_productive : forall ae fs, forallb is_file fs = true -> forallb (productive ae false) fs = true.
Proof.
  intros ae fs H. apply forallb_forall. intros t Ht. rewrite forallb_forall in H. specialize (H t Ht).
  destruct t; [reflexivity | discriminate].
Qed.

Lemma flat1_productive : forall ae t, flat1 t = true -> productive ae false t = true.
Proof.
  intros ae t H. destruct t as [n|n fs]; [reflexivity|]. simpl in *.
  apply andb_true_iff in H. destruct H as [H H3]. apply andb_true_iff in H. destruct H as [H1 H2].
  rewrite H1, H2. simpl. apply files_productive. exact H3.
Qed.

Lemma R_files : forall ae D fs, forallb is_file fs = true ->
  R ae false D fs = map (fun f => IKey (D ++ [tname f])) fs.
Proof.
  intros ae D. induction fs as [|f fs IH]; intros H; [reflexivity|]. simpl in H. apply andb_true_iff in H.
  destruct H as [H1 H2]. unfold R, ref_forest in *. simpl. rewrite (IH H2). destruct f; [reflexivity | discriminate].
Qed.

Lemma R_app : forall ae delim D A B, R ae delim D (A ++ B) = R ae delim D A ++ R ae delim D B.
Proof. intros. unfold R, ref_forest. apply flat_map_app. Qed.

Lemma R_cons : forall ae delim D e B, R ae delim D (e :: B) = ref_tree ae delim D e ++ R ae delim D B.
Proof. reflexivity. Qed.

Lemma ref_tree_flat_dir : forall ae D n fs, flat1 (Dir n fs) = true ->
  ref_tree ae false D (Dir n fs) = R ae false (D ++ [n]) fs.
Proof.
  intros ae D n fs H. simpl in H. apply andb_true_iff in H. destruct H as [H _]. apply andb_true_iff in H.
  destruct H as [H _]. apply negb_true_iff in H. simpl. rewrite H. reflexivity.
Qed.

Lemma rel_marker_two : forall D n g, rel_marker D (IKey ((D ++ [n]) ++ [g])) = (n ++ "/" ++ g)%string.
Proof.
  intros D n g. unfold rel_marker. simpl item_path. rewrite <- app_assoc. rewrite skipn_app_length. reflexivity.
Qed.

Lemma files_cut : forall ae D fs k, forallb is_file fs = true -> 1 <= k -> k <= length fs ->
  exists F1 g F2, fs = F1 ++ File g :: F2 /\ forallb is_file F2 = true /\
    firstn k (R ae false D fs) = R ae false D F1 ++ [IKey (D ++ [g])] /\
    skipn k (R ae false D fs) = R ae false D F2.
Proof.
  intros ae D fs k H H1 H2. destruct (split_at _ fs k H1 H2) as [F1 [f [F2 [E [EF ES]]]]].
  pose proof H as H0. rewrite E, forallb_app in H0. apply andb_true_iff in H0. destruct H0 as [HF1 H0].
  simpl in H0. apply andb_true_iff in H0. destruct H0 as [Hf HF2].
  destruct f as [g|]; [|discriminate]. exists F1, g, F2. split; [exact E|]. split; [exact HF2|].
  rewrite (R_files ae D fs H), (R_files ae D F1 HF1), (R_files ae D F2 HF2), firstn_map, skipn_map, EF, ES, map_app.
  split; reflexivity.
Qed.

Lemma len_files : forall ae D fs, forallb is_file fs = true -> length (R ae false D fs) = length fs.
Proof. intros ae D fs H. rewrite (R_files ae D fs H). apply map_length. Qed.

Lemma firstn_nonempty : forall A k (l : list A), 1 <= k -> 1 <= length l -> firstn k l <> [].
Proof. intros A k l Hk Hl. destruct k; [lia|]. destruct l; [simpl in Hl; lia | discriminate]. Qed.

Lemma count_slash_app : forall n g, no_slash n = true -> count_slash (n ++ String slash g)%string = S (count_slash g).
Proof.
  induction n as [|c n IH]; intros g H; [reflexivity|]. simpl in H. apply andb_true_iff in H. destruct H as [H1 H2].
  apply negb_true_iff in H1. simpl. rewrite H1. exact (IH g H2).
Qed.

Lemma forallb_app_r : forall A (f : A -> bool) a b, forallb f (a ++ b) = true -> forallb f b = true.
Proof. intros A f a b H. rewrite forallb_app in H. apply andb_true_iff in H. exact (proj2 H). Qed.

Lemma forallb_app_l : forall A (f : A -> bool) a b, forallb f (a ++ b) = true -> forallb f a = true.
Proof. intros A f a b H. rewrite forallb_app in H. apply andb_true_iff in H. exact (proj1 H). Qed.

Section Flat.
  Variable ae : bool.
  Variable rootk : list tree.
  Hypothesis Hwf : wf rootk = true.
  Variable prefix : string.
  Hypothesis Hbp : bad_prefix prefix = false.
  Variable K : list tree.
  Hypothesis HW : walk rootk (req_dir prefix) = Some K.
  Variable M : Z.
  Hypothesis HM : (1 <= M)%Z.

  Let D := req_dir prefix.
  Let pfx := snd (split_prefix prefix).
  Let E0 := filter (fun t => String.prefix pfx (tname t)) K.
  Let Mn := Z.to_nat M.

  (* every entry with the name prefix is a file or a directory of files *)
  Hypothesis Hflat : forallb flat1 E0 = true.

  Let HP : plain D := plain_of_bad_prefix prefix Hbp.
  Let HK : wf K = true := walk_wf D rootk K Hwf HW.

  Definition ref_all_f : list item := ref_list ae rootk prefix false.

  Lemma ref_all_f_eq : ref_all_f = R ae false D E0.
  Proof. unfold ref_all_f, ref_list. fold D. fold pfx. rewrite (resolve_plain rootk D K HP HW). reflexivity. Qed.

  Definition page_f (m : string) : res := list_items ae rootk prefix M m false.

  (* Which markers stand for which position p of the flat listing.  v_between: a slash-free
     marker m, and the entries B of E0 above m are what is still to come.  v_inside: a marker
     "n/g" inside the directory n, and the files F2 of n behind g and then the entries B behind
     n are still to come. *)
  Inductive validF : string -> nat -> Prop :=
  | v_between : forall m p P B, count_slash m = 0 -> E0 = P ++ B ->
      filter (fun t => String.ltb m (tname t)) E0 = B -> skipn p ref_all_f = R ae false D B -> validF m p
  | v_inside : forall p P n fs B F1 g F2, E0 = P ++ Dir n fs :: B -> fs = F1 ++ File g :: F2 ->
      skipn p ref_all_f = R ae false (D ++ [n]) F2 ++ R ae false D B -> validF (n ++ "/" ++ g)%string p.

  Lemma E0_in_K : forall t, In t E0 -> In t K.
  Proof. intros t H. unfold E0 in H. apply filter_In in H. exact (proj1 H). Qed.

  Lemma flat_suffix : forall P B, E0 = P ++ B -> forallb flat1 B = true.
  Proof. intros P B H. apply (forallb_app_r _ _ P). rewrite <- H. exact Hflat. Qed.

  Lemma prod_suffix : forall P B, E0 = P ++ B -> forallb (productive ae false) B = true.
  Proof.
    intros P B H. apply forallb_forall. intros t Ht. apply flat1_productive.
    pose proof (flat_suffix P B H) as F. rewrite forallb_forall in F. exact (F t Ht).
  Qed.

  (* The marker behind the k-th of the items that remain, when the listing stands in the
     directory n with the files F2 left and the entries B behind it (F2 = []: between two
     entries): it is valid for the position k further on. *)
  Lemma next_valid_inside : forall B P n F2 q k, E0 = P ++ B -> forallb is_file F2 = true ->
    (F2 <> [] -> exists P' fs F1, P = P' ++ [Dir n fs] /\ fs = F1 ++ F2) ->
    skipn q ref_all_f = R ae false (D ++ [n]) F2 ++ R ae false D B -> 1 <= k -> k <= length F2 ->
    validF (last_marker D "" (firstn k (R ae false (D ++ [n]) F2 ++ R ae false D B))) (q + k).
  Proof.
    intros B P n F2 q k HE HF2 Hctx HS H1 H2.
    destruct Hctx as [P' [fs [F1 [EP EF1]]]]; [destruct F2; [simpl in H2; lia | discriminate]|].
    destruct (files_cut ae (D ++ [n]) F2 k HF2 H1 H2) as [G1 [g [G2 [EF [_ [EFi ES]]]]]].
    pose proof (len_files ae (D ++ [n]) F2 HF2) as HL.
    rewrite firstn_app, EFi. replace (k - length (R ae false (D ++ [n]) F2)) with 0 by lia.
    rewrite firstn_O, app_nil_r, last_marker_last, rel_marker_two.
    apply (v_inside (q + k) P' n fs B (F1 ++ G1) g G2).
    - rewrite HE, EP, <- app_assoc. reflexivity.
    - rewrite EF1, EF, app_assoc. reflexivity.
    - rewrite skipn_add, HS, skipn_app, ES. replace (k - length (R ae false (D ++ [n]) F2)) with 0 by lia. reflexivity.
  Qed.

  Lemma next_valid : forall B P n F2 q k, E0 = P ++ B -> forallb is_file F2 = true ->
    (F2 <> [] -> exists P' fs F1, P = P' ++ [Dir n fs] /\ fs = F1 ++ F2) ->
    skipn q ref_all_f = R ae false (D ++ [n]) F2 ++ R ae false D B ->
    1 <= k -> k <= length (R ae false (D ++ [n]) F2 ++ R ae false D B) ->
    validF (last_marker D "" (firstn k (R ae false (D ++ [n]) F2 ++ R ae false D B))) (q + k).
  Proof.
    induction B as [|e B IH]; intros P n F2 q k HE HF2 Hctx HS H1 H2;
      pose proof (len_files ae (D ++ [n]) F2 HF2) as HL; rewrite app_length, HL in H2.
    - apply (next_valid_inside [] P n F2 q k HE HF2 Hctx HS H1). simpl in H2. lia.
    - destruct (Nat.le_gt_cases k (length F2)) as [Hin|Hout];
        [exact (next_valid_inside _ P n F2 q k HE HF2 Hctx HS H1 Hin)|].
      (* the k-th item lies behind the directory n: go on with e *)
      set (A1 := R ae false (D ++ [n]) F2) in *. set (k' := k - length A1).
      assert (HEe : E0 = (P ++ [e]) ++ B) by (rewrite HE, <- app_assoc; reflexivity).
      pose proof (flat_suffix P (e :: B) HE) as Hfl. simpl in Hfl. apply andb_true_iff in Hfl. destruct Hfl as [He _].
      rewrite R_cons in *.
      assert (HSe : skipn (q + length A1) ref_all_f = ref_tree ae false D e ++ R ae false D B).
      { rewrite skipn_add, HS, skipn_app, skipn_all2, Nat.sub_diag by lia. reflexivity. }
      rewrite firstn_app, (firstn_all2 A1), last_marker_app by lia. fold k'.
      replace (q + k) with (q + length A1 + k') by (unfold k'; lia).
      rewrite (last_marker_dflt D _ "") by (apply firstn_nonempty; unfold k'; lia).
      destruct e as [x|n' fs'].
      + (* a file: the k-th item itself, or on behind it *)
        simpl ref_tree in *. rewrite app_length in H2. simpl in H2.
        destruct (Nat.eq_dec k' 1) as [E1|N1].
        * rewrite E1. simpl firstn. unfold last_marker. simpl. rewrite (rel_marker_leaf D x (IKey (D ++ [x])) eq_refl).
          apply (v_between x _ (P ++ [File x]) B).
          -- apply no_slash_count, (wf_no_slash K (File x) HK), E0_in_K. rewrite HE. apply in_or_app. right. left. reflexivity.
          -- exact HEe.
          -- pose proof (tsorted_wf_filter _ K HK : tsorted E0) as TS. rewrite HE in *. exact (filter_gt_split P (File x) B TS).
          -- rewrite skipn_add, HSe. reflexivity.
        * replace k' with (S (k' - 1)) by lia. simpl firstn.
          change (IKey (D ++ [x]) :: firstn (k' - 1) (R ae false D B)) with ([IKey (D ++ [x])] ++ firstn (k' - 1) (R ae false D B)).
          rewrite last_marker_app, (last_marker_dflt D _ "") by (apply firstn_nonempty; unfold k' in *; lia).
          replace (q + length A1 + S (k' - 1)) with (q + length A1 + 1 + (k' - 1)) by lia.
          apply (IH (P ++ [File x]) n [] (q + length A1 + 1) (k' - 1) HEe eq_refl (fun NE => False_ind _ (NE eq_refl))).
          -- rewrite skipn_add, HSe. reflexivity.
          -- lia.
          -- simpl. unfold k' in *. lia.
      + (* a directory of files *)
        pose proof He as He'. simpl in He'. apply andb_true_iff in He'. destruct He' as [_ Hfs].
        rewrite (ref_tree_flat_dir ae D n' fs' He) in *.
        apply (IH (P ++ [Dir n' fs']) n' fs' (q + length A1) k' HEe Hfs); [|exact HSe| |].
        * intros _. exists P, fs', []. split; reflexivity.
        * unfold k'. lia.
        * unfold k'. lia.
  Qed.

  (* the page behind a marker m that stands for position p of the listing: the next Mn items,
     truncated when more remain, and then the next marker stands for position p + Mn *)
  Definition page_at (m : string) (p : nat) : Prop :=
    r_items (page_f m) = firstn Mn (skipn p ref_all_f) /\
    r_trunc (page_f m) = Nat.ltb Mn (length (skipn p ref_all_f)) /\
    (r_trunc (page_f m) = true -> validF (r_next (page_f m)) (p + Mn) /\ r_next (page_f m) = last_marker D "" (r_items (page_f m))).

  Lemma page_at_between : forall m p P B, count_slash m = 0 -> E0 = P ++ B ->
    filter (fun t => String.ltb m (tname t)) E0 = B -> skipn p ref_all_f = R ae false D B -> page_at m p.
  Proof.
    intros m p P B Hm HE Hf HS. unfold page_at.
    assert (EE : filter (fun t => String.prefix pfx (tname t) && String.ltb m (tname t)) K = B).
    { rewrite filter_filter_and. exact Hf. }
    destruct (list_items_exact ae rootk prefix K M m false Hwf Hbp HW HM Hm (andb_false_r _)
                ltac:(fold pfx; rewrite EE; exact (prod_suffix P B HE))) as [G1 [G3 G4]].
    fold pfx D (page_f m) Mn in G1, G3, G4. rewrite EE in G1, G3. rewrite HS.
    split; [exact G1|]. split; [exact G3|].
    intros HT. rewrite G3 in HT. apply Nat.ltb_lt in HT.
    split; [|exact G4]. rewrite G4, G1.
    exact (next_valid B P "" [] p Mn HE eq_refl (fun NE => False_ind _ (NE eq_refl)) HS ltac:(unfold Mn; lia) ltac:(simpl; lia)).
  Qed.

  Lemma page_at_inside : forall p P n fs B F1 g F2, E0 = P ++ Dir n fs :: B -> fs = F1 ++ File g :: F2 ->
    skipn p ref_all_f = R ae false (D ++ [n]) F2 ++ R ae false D B -> page_at (n ++ "/" ++ g) p.
  Proof.
    intros p P n fs B F1 g F2 HE HF HS. unfold page_at.
    assert (HeE : In (Dir n fs) E0) by (rewrite HE; apply in_or_app; right; left; reflexivity).
    pose proof (E0_in_K _ HeE) as HeK.
    pose proof (wf_kids n fs K HK HeK) as Wfs.
    assert (Hfiles : forallb is_file fs = true).
    { rewrite forallb_forall in Hflat. pose proof (Hflat _ HeE) as F. simpl in F. apply andb_true_iff in F. exact (proj2 F). }
    assert (HF2 : forallb is_file F2 = true).
    { rewrite HF in Hfiles. apply forallb_app_r in Hfiles. simpl in Hfiles. exact Hfiles. }
    assert (Cg : count_slash g = 0).
    { apply no_slash_count. apply (wf_no_slash fs (File g) Wfs). rewrite HF. apply in_or_app. right. left. reflexivity. }
    (* what is left of the sub directory behind g, and of the parent behind n *)
    assert (Esub : filter (fun t => String.prefix "" (tname t) && String.ltb g (tname t)) fs = F2).
    { rewrite (filter_ext _ (fun t => String.ltb (tname (File g)) (tname t))) by (intros t; destruct (tname t); reflexivity).
      pose proof (tsorted_of_wf fs Wfs) as TS. rewrite HF in *. exact (filter_gt_split F1 (File g) F2 TS). }
    assert (EB : filter (fun t => String.prefix pfx (tname t) && String.ltb n (tname t)) K = B).
    { rewrite filter_filter_and. fold E0. pose proof (tsorted_wf_filter _ K HK : tsorted E0) as TS. rewrite HE in *.
      exact (filter_gt_split P (Dir n fs) B TS). }
    assert (HEB : E0 = (P ++ [Dir n fs]) ++ B) by (rewrite HE, <- app_assoc; reflexivity).
    pose proof (walk_height D rootk K HW) as HH.
    assert (Epage : page_f (n ++ "/" ++ g) = do_list ae rootk false (S (S (forest_height rootk + 1))) D pfx M (n ++ "/" ++ g)).
    { unfold page_f, list_items, list_fuel. change (n ++ "/" ++ g)%string with (n ++ String slash g)%string.
      rewrite (count_slash_app n g (wf_no_slash K _ HK HeK)), Cg. reflexivity. }
    rewrite Epage.
    destruct (page_exact_sub ae rootk false (forest_height rootk + 1) D K pfx M n fs g HP HW HK HeK Cg
                (andb_false_r _) HM ltac:(lia)
                ltac:(rewrite Esub; exact (files_productive ae F2 HF2))
                ltac:(rewrite EB; exact (prod_suffix _ _ HEB))) as [G1 [G3 G4]].
    rewrite Esub, EB in G1, G3. fold Mn in G1. rewrite HS.
    set (A1 := R ae false (D ++ [n]) F2) in *. set (A2 := R ae false D B) in *.
    split; [exact G1|]. split; [rewrite G3; apply gtb_ltb_nat; exact HM|].
    intros HT. rewrite G3, (gtb_ltb_nat _ M HM) in HT. apply Nat.ltb_lt in HT. fold Mn in HT. rewrite app_length in HT.
    assert (NE : firstn Mn (A1 ++ A2) <> []) by (apply firstn_nonempty; [unfold Mn; lia | rewrite app_length; lia]).
    rewrite <- G1 in NE. split; [|exact (G4 NE)]. rewrite (G4 NE), G1.
    apply (next_valid B (P ++ [Dir n fs]) n F2 p Mn HEB HF2).
    - intros _. exists P, fs, (F1 ++ [File g]). split; [reflexivity | rewrite HF, <- app_assoc; reflexivity].
    - exact HS.
    - unfold Mn. lia.
    - rewrite app_length. fold A1 A2. lia.
  Qed.

  Lemma page_at_valid : forall m p, validF m p -> page_at m p.
  Proof.
    intros m p H. destruct H as [m p P B Hm HE Hf HS | p P n fs B F1 g F2 HE HF HS].
    - exact (page_at_between m p P B Hm HE Hf HS).
    - exact (page_at_inside p P n fs B F1 g F2 HE HF HS).
  Qed.

  Lemma validF_start : validF "" 0.
  Proof.
    exact (v_between "" 0 [] E0 eq_refl eq_refl (filter_after_empty _ K HK) ref_all_f_eq).
  Qed.

  Theorem pages_complete_flat : forall n, length ref_all_f < n ->
    flat_map r_items (pag page_f n "") = ref_all_f /\
    exists l r, pag page_f n "" = l ++ [r] /\ r_trunc r = false.
  Proof.
    intros n Hn.
    refine (pag_complete page_f ref_all_f Mn ltac:(unfold Mn; lia) validF _ n "" 0 validF_start Hn).
    intros m p Hv. destruct (page_at_valid m p Hv) as [H1 [H2 H3]]. split; [exact H1|]. split; [exact H2|].
    intros HT. exact (proj1 (H3 HT)).
  Qed.


  Lemma items_keys : forall (X : list item), (forall it, In it X -> exists q, it = IKey q) ->
    flat_map cp_of X = [] /\ flat_map key_of X = map (fun it => join_slash (item_path it)) X.
  Proof.
    induction X as [|x X IH]; intros H; [split; reflexivity|].
    destruct (IH (fun it Hit => H it (or_intror Hit))) as [I1 I2].
    destruct (H x (or_introl eq_refl)) as [q Eq]. subst x. simpl. rewrite I1, I2. split; reflexivity.
  Qed.

  Lemma page_items_in_ref : forall m p, validF m p -> forall it, In it (r_items (page_f m)) -> In it ref_all_f.
  Proof.
    intros m p Hv it Hit. destruct (page_at_valid m p Hv) as [H1 _]. rewrite H1 in Hit.
    apply firstn_in in Hit. rewrite <- (firstn_skipn p ref_all_f). apply in_or_app. right. exact Hit.
  Qed.

  Hypothesis HD0 : D = [].   (* the prefix has no directory part *)

  Lemma last_key_is_next : forall m p, validF m p -> r_trunc (page_f m) = true ->
    last_key (render (page_f m)) = Some (r_next (page_f m)).
  Proof.
    intros m p Hv HT. destruct (page_at_valid m p Hv) as [H1 [H2 H3]]. destruct (H3 HT) as [_ HN].
    assert (HK' : forall it, In it (r_items (page_f m)) -> exists q, it = IKey q).
    { intros it Hit. pose proof (page_items_in_ref m p Hv it Hit) as G. unfold ref_all_f, ref_list in G.
      exact (ref_nodelim_keys ae _ _ it G). }
    destruct (items_keys _ HK') as [E1 E2].
    assert (NE : r_items (page_f m) <> []).
    { rewrite H1. rewrite H2 in HT. apply Nat.ltb_lt in HT. destruct (skipn p ref_all_f) as [|x xs]; [simpl in HT; lia|].
      unfold Mn in *. destruct (Z.to_nat M) eqn:EM; [lia | discriminate]. }
    unfold last_key, render. simpl pg_keys. simpl pg_cps. rewrite E1, E2. simpl rev at 2.
    rewrite HN. unfold last_marker. rewrite <- map_rev.
    destruct (rev (r_items (page_f m))) as [|it rx] eqn:ER.
    - apply (f_equal (@rev item)) in ER. rewrite rev_involutive in ER. contradiction.
    - simpl. unfold rel_marker. rewrite HD0. reflexivity.
  Qed.

  Lemma paginate_lastkey : forall st, (st = V1LastKey \/ st = V2StartAfter) ->
    forall n m p, validF m p ->
      paginate n ae rootk prefix M false st m = map render (pag page_f n m).
  Proof.
    intros st Hst n m p Hv.
    apply (paginate_pag ae rootk prefix M false st (fun m => exists p, validF m p)); [|exists p; exact Hv].
    intros m0 [p0 Hv0] ET. split.
    - destruct Hst; subst st; simpl next_marker; exact (last_key_is_next m0 p0 Hv0 ET).
    - destruct (page_at_valid m0 p0 Hv0) as [_ [_ H3]]. exists (p0 + Mn). exact (proj1 (H3 ET)).
  Qed.
End Flat.

Theorem paginate_complete_flat : forall ae rootk prefix K M n st,
  wf rootk = true -> bad_prefix prefix = false -> walk rootk (req_dir prefix) = Some K -> (1 <= M)%Z ->
  forallb flat1 (filter (fun t => String.prefix (snd (split_prefix prefix)) (tname t)) K) = true ->
  (st = V2Token \/ st = V1NextMarker \/ (req_dir prefix = [] /\ (st = V1LastKey \/ st = V2StartAfter))) ->
  length (ref_list ae rootk prefix false) < n ->
  let pages := paginate n ae rootk prefix M false st "" in
  flat_map pg_keys pages = flat_map key_of (ref_list ae rootk prefix false) /\
  flat_map pg_cps pages = flat_map cp_of (ref_list ae rootk prefix false) /\
  exists l p, pages = l ++ [p] /\ pg_trunc p = false.
Proof.
  intros ae rootk prefix K M n st Hwf Hbp HW HM Hflat Hst Hn pages. unfold pages.
  assert (EP : paginate n ae rootk prefix M false st "" = map render (pag (page_f ae rootk prefix M) n "")).
  { destruct Hst as [Hst|[Hst|[HD Hst]]].
    - exact (paginate_token ae rootk prefix M false st (or_introl Hst) n "").
    - exact (paginate_token ae rootk prefix M false st (or_intror Hst) n "").
    - exact (paginate_lastkey ae rootk Hwf prefix Hbp K HW M HM Hflat HD st Hst n "" 0
               (validF_start ae rootk Hwf prefix Hbp K HW)). }
  rewrite EP.
  exact (rendered_complete _ _ (pages_complete_flat ae rootk Hwf prefix Hbp K HW M HM Hflat n Hn)).
Qed.

(* non-vacuity of paginate_complete_flat's hypotheses: a bucket with files and a
   directory of files; three pages of two keys enumerate it *)
Lemma flat_example :
  let t := [File "a"; Dir "d" [File "a"; File "b"; File "c"]; File "da"] in
  wf t = true /\ bad_prefix "" = false /\ walk t (req_dir "") = Some t /\
  forallb flat1 (filter (fun x => String.prefix (snd (split_prefix "")) (tname x)) t) = true /\
  map pg_keys (paginate 6 false t "" 2 false V2Token "") = [["a"; "d/a"]; ["d/b"; "d/c"]; ["da"]] /\
  map pg_next (paginate 6 false t "" 2 false V2Token "") = ["d/a"; "d/c"; ""].
Proof. vm_compute. repeat split; reflexivity. Qed.
