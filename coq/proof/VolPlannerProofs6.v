(* Proofs about model/VolPlanner.v (C15): the snapshot as initial state, and the whole
   volume.balance run.  The phases must select disjoint sets of volumes ([phases_ok]): a volume
   selected twice would not be where the later phase's books put it. *)
From Coq Require Import List NArith ZArith Bool Arith Lia Permutation.
From SW Require Import proof.ListFacts model.VolPlanner proof.VolPlannerProofs proof.VolPlannerProofs2
  proof.VolPlannerProofs3 proof.VolPlannerProofs4 proof.VolPlannerProofs5.
Import ListNotations.

Lemma reps_of_in : forall s vid r, In r (reps_of s vid) <->
  exists n, In n s /\ r_loc r = n_loc n /\ In (r_info r) (all_vols n) /\ v_id (r_info r) = vid.
Proof.
  intros s vid r. unfold reps_of. rewrite in_flat_map. split.
  - intros [n [Hn Hr]]. apply in_map_iff in Hr. destruct Hr as [v [Er Hv]]. subst r.
    apply filter_In in Hv. destruct Hv as [Hv E]. apply N.eqb_eq in E. exists n. cbn. auto.
  - intros [n [Hn [El [Hv E]]]]. exists n. split; auto. apply in_map_iff. exists (r_info r).
    split; [destruct r as [rl ri]; cbn [r_loc r_info] in *; subst; reflexivity|].
    apply filter_In. split; auto. apply N.eqb_eq; auto.
Qed.

Lemma filter_vid_le1 : forall vid l, NoDup (map v_id l) ->
  length (filter (fun v => (v_id v =? vid)%N) l) <= 1.
Proof.
  induction l as [|a l IH]; intros Hnd; cbn [filter length]; auto.
  cbn [map] in Hnd. inversion Hnd as [|? ? Hn Hd]; subst.
  destruct (N.eqb_spec (v_id a) vid) as [E|E]; [|auto].
  assert (filter (fun v => (v_id v =? vid)%N) l = []) as ->; [|cbn [length]; lia].
  destruct (filter (fun v => (v_id v =? vid)%N) l) as [|x r] eqn:Ef; auto.
  exfalso. assert (In x (filter (fun v => (v_id v =? vid)%N) l)) as Hx by (rewrite Ef; left; auto).
  apply filter_In in Hx. destruct Hx as [Hx Ex]. apply N.eqb_eq in Ex.
  apply Hn. rewrite E, <- Ex. apply in_map; auto.
Qed.

Lemma init_NodesOk : forall s, wf_snap s -> NodesOk (init_world s).
Proof.
  intros s [Hnd Hv] vid. cbn [init_world w_reps].
  induction s as [|n s IH]; [constructor|].
  cbn [map] in Hnd. inversion Hnd as [|? ? Hn Hd]; subst.
  unfold reps_of. cbn [flat_map]. fold (reps_of s vid).
  unfold locs. rewrite !map_app, !map_map. cbn [r_loc].
  assert (forall x, In x (map (fun r => l_node (r_loc r)) (reps_of s vid)) -> In x (map n_id s)) as Hsub.
  { intros x Hx. apply in_map_iff in Hx. destruct Hx as [r [<- Hr]]. apply reps_of_in in Hr.
    destruct Hr as [m [Hm [El _]]]. rewrite El. apply in_map_iff. exists m; auto. }
  assert (NoDup (map (fun r => l_node (r_loc r)) (reps_of s vid))) as Hrest.
  { assert (NoDup (map l_node (locs (reps_of s vid)))) as H0
      by (apply IH; [exact Hd|intros; apply Hv; right; auto]).
    unfold locs in H0. rewrite map_map in H0. exact H0. }
  pose proof (filter_vid_le1 vid (all_vols n) (Hv n (or_introl eq_refl))) as Hle.
  destruct (filter (fun v => (v_id v =? vid)%N) (all_vols n)) as [|x [|y r]].
  - cbn [map app]. exact Hrest.
  - cbn [map app]. constructor; [|exact Hrest]. intro Hi. apply Hn. apply Hsub. exact Hi.
  - exfalso. cbn [length] in Hle. lia.
Qed.

Lemma init_WInv : forall s, WInv s (init_world s).
Proof.
  intros s vid r Hr. cbn [init_world w_reps] in Hr. apply reps_of_in in Hr.
  destruct Hr as [n [Hn [El [Hv _]]]]. rewrite El. split; [apply in_map; auto|exists n; auto].
Qed.

Lemma in_all_vids : forall s n v, In n s -> In v (all_vols n) -> In (v_id v) (all_vids s).
Proof.
  intros s n v Hn Hv. unfold all_vids. apply nodup_In. apply in_flat_map. exists n. split; auto.
  apply in_map; auto.
Qed.

Lemma init_rest : forall s n v, In n s -> In v (all_vols n) ->
  In {| r_loc := n_loc n; r_info := v |} (w_reps (init_world s) (v_id v)).
Proof.
  intros s n v Hn Hv. cbn [init_world w_reps]. apply reps_of_in. exists n. cbn [r_loc r_info]. auto.
Qed.

(* between two phases.  [done]: the volumes selected by an earlier phase *)
Record GInv (s : snapshot) (done : vol -> bool) (w : world) : Prop := {
  g_w : WInv s w; g_n : NodesOk w;
  g_rest : forall n v, In n s -> In v (all_vols n) -> done v = false ->
           In {| r_loc := n_loc n; r_info := v |} (w_reps w (v_id v)) }.

Lemma init_GInv : forall s, wf_snap s ->
  GInv s (fun _ => false) (init_world s).
Proof.
  intros s Hwf. constructor.
  - apply init_WInv. - apply init_NodesOk; auto.
  - intros. apply init_rest; auto.
Qed.

Lemma phase_start_BInv : forall limit s done ph w, wf_snap s -> GInv s done w ->
  (forall v, selects limit ph v = true -> done v = false) ->
  BInv s (fun v => done v || selects limit ph v) {| b_sel := init_sel limit s ph; b_w := w |}.
Proof.
  intros limit s done ph w [Hnd Hvids] [HW HN Hrest] Hdis.
  constructor; cbn [b_sel b_w]; auto.
  - intros n v Hv. apply init_sel_in in Hv. destruct Hv as (nd & E & Hv & Hs).
    unfold loc_of. rewrite E. apply find_node_some in E. apply Hrest; auto. apply E.
  - intros n. unfold init_sel. destruct (find_node s n) as [nd|] eqn:E; [|constructor].
    apply find_node_some in E. apply NoDup_map_filter. apply Hvids. apply E.
  - intros n v Hv. apply init_sel_in in Hv. destruct Hv as (_ & _ & _ & Hs). rewrite Hs. apply orb_true_r.
  - intros n v Hn Hv HP. apply orb_false_iff in HP. apply Hrest; tauto.
Qed.

Lemma mk_bctx_ctxok : forall limit s ph, CtxOk s (mk_bctx limit s ph).
Proof.
  intros limit s ph nc H. apply mk_bctx_nodes in H. destruct H as [n [Hn [-> _]]]. cbn [fst].
  unfold cluster_locs. apply in_map; auto.
Qed.

Fixpoint PhasesDisjoint (limit : N) (done : vol -> bool) (phs : list phase) : Prop :=
  match phs with
  | [] => True
  | ph :: r => (forall v, selects limit ph v = true -> done v = false) /\
               PhasesDisjoint limit (fun v => done v || selects limit ph v) r
  end.

Theorem balance_run_steps : forall limit s phs done w tr w',
  wf_snap s -> GInv s done w -> PhasesDisjoint limit done phs ->
  balance_phases limit s phs w tr = Some w' -> Steps (MoveOk s) s w tr.
Proof.
  intros limit s phs. induction phs as [|ph phs IH]; intros done w tr w' Hwf HG Hdis H.
  - cbn [balance_phases] in H. destruct tr; [exact I|discriminate].
  - cbn [balance_phases] in H. destruct Hdis as [Hd1 Hd2].
    destruct (balance_phase s _ _ tr) as [[st tr']|] eqn:E; [|discriminate].
    destruct (balance_phase_run _ _ _ _ _ _ E) as (used & -> & Hr & _).
    apply (PhaseRun_inv s _ (BInv s (fun v => done v || selects limit ph v)) (MoveOk s)) in Hr.
    + destruct Hr as (HB' & Hst & Hw). cbn [b_w] in Hst, Hw. apply Steps_app; [exact Hst|].
      rewrite <- Hw. apply (IH (fun v => done v || selects limit ph v) _ _ w'); auto.
      destruct HB'. constructor; auto.
    + intros st1 vid dt from to. apply balance_step_safe; [apply Hwf|apply mk_bctx_ctxok].
    + apply phase_start_BInv; auto.
Qed.

(* a decidable sufficient condition for PhasesDisjoint: no two phases can select the same
   volume.  It holds of the phases of a real run: the disk types are the keys of a map
   (collectVolumeDiskTypes), the collections come from ListCollectionNames, and ALL_COLLECTIONS
   is a single call of balanceVolumeServers *)
Definition compatible (a b : phase) : bool :=
  (match ph_coll a, ph_coll b with Some x, Some y => (x =? y)%N | _, _ => true end) &&
  (ph_dt a =? ph_dt b)%N && Bool.eqb (ph_ro a) (ph_ro b).

Fixpoint phases_ok (phs : list phase) : bool :=
  match phs with
  | [] => true
  | ph :: r => forallb (fun q => negb (compatible ph q)) r && phases_ok r
  end.

Lemma selects_compatible : forall limit a b v,
  selects limit a v = true -> selects limit b v = true -> compatible a b = true.
Proof.
  intros limit a b v Ha Hb. unfold selects, compatible in *.
  rewrite !andb_true_iff in *. destruct Ha as [[Ha1 Ha2] Ha3], Hb as [[Hb1 Hb2] Hb3].
  apply N.eqb_eq in Ha2. apply N.eqb_eq in Hb2. split; [split|].
  - destruct (ph_coll a), (ph_coll b); auto. apply N.eqb_eq in Ha1. apply N.eqb_eq in Hb1.
    apply N.eqb_eq. congruence.
  - apply N.eqb_eq. congruence.
  - (* a writable pass and a read-only pass select different volumes *)
    destruct (ph_ro a), (ph_ro b); auto; cbn [Bool.eqb].
    + apply andb_true_iff in Hb3. destruct Hb3 as [Hr Hs]. apply negb_true_iff in Hr. rewrite Hr in Ha3.
      cbn [orb] in Ha3. apply N.leb_le in Ha3. apply N.ltb_lt in Hs. lia.
    + apply andb_true_iff in Ha3. destruct Ha3 as [Hr Hs]. apply negb_true_iff in Hr. rewrite Hr in Hb3.
      cbn [orb] in Hb3. apply N.leb_le in Hb3. apply N.ltb_lt in Hs. lia.
Qed.

Lemma phases_ok_disjoint : forall limit phs (D : list phase) done,
  (forall v, done v = true -> exists q, In q D /\ selects limit q v = true) ->
  (forall q ph, In q D -> In ph phs -> compatible q ph = false) ->
  phases_ok phs = true -> PhasesDisjoint limit done phs.
Proof.
  intros limit phs. induction phs as [|ph r IH]; intros D done Hdone Hinc Hok; cbn [PhasesDisjoint]; auto.
  cbn [phases_ok] in Hok. apply andb_true_iff in Hok. destruct Hok as [Hf Hok]. rewrite forallb_forall in Hf.
  split.
  - intros v Hs. destruct (done v) eqn:Ed; auto. exfalso.
    destruct (Hdone v Ed) as [q [Hq Hqs]].
    pose proof (selects_compatible limit q ph v Hqs Hs) as Hc.
    rewrite (Hinc q ph Hq (or_introl eq_refl)) in Hc. discriminate.
  - apply (IH (ph :: D)); auto.
    + intros v Hv. apply orb_true_iff in Hv. destruct Hv as [Hv|Hv].
      * destruct (Hdone v Hv) as [q [Hq Hqs]]. exists q. split; [right; auto|auto].
      * exists ph. split; [left; auto|auto].
    + intros q p [<-|Hq] Hp.
      * apply negb_true_iff. apply Hf; auto.
      * apply Hinc; auto. right; auto.
Qed.

Theorem balance_accepts_safe : forall limit s colls dts tr w',
  wf_snap s -> phases_ok (phases_of colls dts) = true ->
  balance_accepts limit s colls dts tr = Some w' ->
  ok_coloc (prop_trace s (init_world s) tr) = true /\
  excused ok_pres step_rp_trig s (init_world s) tr = true /\
  (trig_rp_xy s = false -> ok_pres (prop_trace s (init_world s) tr) = true).
Proof.
  intros limit s colls dts tr w' Hwf Hok H. apply MoveOk_trace.
  eapply balance_run_steps; eauto.
  - apply init_GInv; auto.
  - apply (phases_ok_disjoint limit _ []); auto.
    + intros v Hv. discriminate.
    + intros q ph [].
Qed.
