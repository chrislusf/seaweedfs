(* C30: FileHandle.Read (chunk layer from the view cache + dirty overlay) returns the POSIX bytes
   when the buffer invariant holds and the view cache passes the trigger test. *)
From Coq Require Import List ZArith NArith Bool Lia.
From SW Require Import model.DirtyPages proof.DirtyPagesBase proof.DirtyPagesIntervals proof.DirtyPagesState.
Import ListNotations.
Local Open Scope Z_scope.

(* chunks_eqb is sound and reflexive: the view cache, when it passes the trigger test, is the current chunk list *)
Lemma bytes_eq_of_forallb : forall (a b : list N), length a = length b ->
  forallb (fun p => N.eqb (fst p) (snd p)) (combine a b) = true -> a = b.
Proof.
  induction a as [|x a IH]; intros b Hl H; destruct b as [|y b]; simpl in *; try discriminate; auto.
  apply andb_true_iff in H. destruct H as [H1 H2]. apply N.eqb_eq in H1. subst. f_equal. apply IH; auto.
Qed.

Lemma chunk_eqb_eq : forall a b, chunk_eqb a b = true -> a = b.
Proof.
  intros [o1 b1] [o2 b2] H. unfold chunk_eqb in H. cbn [fst snd] in H.
  apply andb_true_iff in H. destruct H as [H H3]. apply andb_true_iff in H. destruct H as [H1 H2].
  apply Z.eqb_eq in H1. apply Z.eqb_eq in H2. subst. f_equal. apply bytes_eq_of_forallb; auto.
  unfold zlen in H2. lia.
Qed.

Lemma chunks_eqb_eq : forall a b, chunks_eqb a b = true -> a = b.
Proof.
  induction a as [|x a IH]; intros b H; destruct b as [|y b]; simpl in *; try discriminate; auto.
  apply andb_true_iff in H. destruct H as [H1 H2]. apply chunk_eqb_eq in H1. subst. f_equal. auto.
Qed.

Lemma bytes_eqb_refl : forall l : list N, forallb (fun p => N.eqb (fst p) (snd p)) (combine l l) = true.
Proof. induction l as [|x l IH]; cbn; auto. rewrite N.eqb_refl. auto. Qed.

Lemma chunks_eqb_refl : forall cs, chunks_eqb cs cs = true.
Proof.
  induction cs as [|c cs IH]; cbn; auto. rewrite IH. unfold chunk_eqb.
  rewrite !Z.eqb_refl, bytes_eqb_refl. reflexivity.
Qed.

Lemma cget_live : forall cs p, cget (live_chunks cs) p = cget cs p.
Proof.
  induction cs as [|c cs IH]; intros p; auto. unfold live_chunks in *. cbn [filter cget].
  destruct (Z.ltb_spec 0 (zlen (snd c))); cbn [cget]; rewrite IH; [reflexivity|].
  rewrite (proj2 (zget_none (snd c) (p - fst c))) by lia. destruct (cget cs p); reflexivity.
Qed.

Lemma live_in : forall cs c, In c (live_chunks cs) -> In c cs.
Proof. intros cs c H. unfold live_chunks in H. apply filter_In in H. tauto. Qed.

Section Read.
  Variable P : Type.
  Variable fetch : P -> Z -> Z -> list N.
  Variable valid : node P -> Prop.
  Hypothesis H_len : forall t, valid t -> 0 < n_size t /\ zlen (nbytes P fetch t) = n_size t.
  Hypothesis H_fetch : forall t a b, valid t -> 0 <= a -> a <= b -> b <= n_size t ->
    fetch (n_pay t) a b = slice (nbytes P fetch t) a b.

  (* the chunk layer: a buffer of the requested length whose first n bytes, n = the part of the window
     inside the file, are those of the stored chunks (0 in holes) *)
  Lemma read_chunks_spec : forall iv m f off len, binv P fetch valid iv m (pget f) (zlen f) ->
    0 <= off -> 0 < len -> trig_at (map (tail_end P) iv) m (Read off len) = None ->
    let n := Z.max 0 (Z.min len (zlen f - off)) in
    zlen (fst (fst (read_chunks m off len))) = len /\ snd (fst (read_chunks m off len)) = n /\
    forall i, 0 <= i < n -> zget (fst (fst (read_chunks m off len))) i =
                            Some (match cget (f_chunks m) (off + i) with Some b => b | None => 0%N end).
  Proof.
    intros iv m f off len I Hoff Hlen Htr n. pose proof (zlen_nonneg f) as HA.
    pose proof (binv_file_size I) as Hfs. destruct I as [H1 H2 H3 H4 H5 H6].
    unfold read_chunks. rewrite Hfs.
    set (zero := repeat 0%N (Z.to_nat len)).
    assert (Hz : zlen zero = len) by (unfold zero, zlen; rewrite repeat_length; lia).
    destruct (Z.eqb_spec (zlen f) 0) as [E0|E0]; [cbn [fst snd]; repeat split; auto; unfold n; lia|].
    (* whichever way the views were obtained, they are the current chunks and size *)
    set (sel := match f_pin m with
                | Some (cs, fsz) => (cs, fsz, f_pin m)
                | None => match live_chunks (f_chunks m) with
                          | [] => ([], zlen f, None)
                          | c :: l => (c :: l, zlen f, Some (c :: l, zlen f))
                          end
                end).
    assert (Hsel : fst (fst sel) = live_chunks (f_chunks m) /\ snd (fst sel) = zlen f).
    { unfold sel. cbn [trig_at] in Htr. rewrite Hfs in Htr. destruct (f_pin m) as [[cs fsz]|].
      - destruct (chunks_eqb cs (live_chunks (f_chunks m))) eqn:E1; [|discriminate].
        destruct (Z.eqb_spec fsz (zlen f)); [|discriminate]. apply chunks_eqb_eq in E1. auto.
      - destruct (live_chunks (f_chunks m)); auto. }
    destruct sel as [[cs fsz] pin]. cbn [fst snd] in *. destruct Hsel as [Hcs Hfsz]. subst cs fsz. fold n.
    destruct (resolve_spec (zlen f) (live_chunks (f_chunks m)) HA) as [R1 R2].
    { intros c Hc. apply H5, live_in, Hc. }
    split; [rewrite zlen_blit; auto|]. split; [reflexivity|].
    intros i Hi. change 0%nat with (Z.to_nat 0). rewrite zget_blit, zget_slice by (unfold n in *; lia).
    replace ((0 <=? i - 0) && (i - 0 <? off + n - off)) with true by lia.
    rewrite R2 by (unfold n in *; lia). rewrite cget_live. replace (off + (i - 0)) with (off + i) by lia.
    reflexivity.
  Qed.

  Lemma handle_read_posix : forall iv m f off len, binv P fetch valid iv m (pget f) (zlen f) ->
    0 <= off -> 0 < len -> trig_at (map (tail_end P) iv) m (Read off len) = None ->
    fst (handle_read m (read_data_at P fetch iv) off len) = pread f off len.
  Proof.
    intros iv m f off len I Hoff Hlen Htr. pose proof (zlen_nonneg f) as HA.
    destruct (read_chunks_spec iv m f off len I Hoff Hlen Htr) as [Hbl [Ht Hbuf]].
    unfold handle_read. destruct (read_chunks m off len) as [[buf total] pin]. cbn [fst snd] in *. subst total.
    set (n := Z.max 0 (Z.min len (zlen f - off))) in *.
    destruct I as [H1 H2 H3 H4 H5 H6].
    (* the overlay: length kept, buffered bytes win, maxStop is 0 or inside the window and the file *)
    destruct (read_data_at_spec P fetch valid H_len H_fetch iv buf off H1) as [Dl [Dg [_ [_ Ds]]]].
    destruct (read_data_at P fetch iv buf off) as [buf' ms]. cbn [fst snd] in *. rewrite Hbl in *.
    replace (Z.min len (Z.max (ms - off) n)) with n.
    2:{ destruct Ds as [Ds|[l [Hl [Hi Hs]]]]; [unfold n; lia|]. destruct (H4 l Hl). unfold n. lia. }
    unfold pread. apply zget_ext. intros i. rewrite zget_firstn, zget_slice by lia.
    replace (off + len - off) with len by lia.
    destruct (range_spec 0 n i).
    - destruct (Z.ltb_spec i (Z.of_nat (Z.to_nat n))); [|lia].
      replace ((0 <=? i) && (i <? len)) with true by (unfold n in *; lia).
      rewrite Dg, Hbuf, (pget_zget f (off + i)), H6 by (unfold n in *; lia).
      replace ((0 <=? i) && (i <? len)) with true by (unfold n in *; lia).
      destruct (cat P fetch iv (off + i)); reflexivity.
    - destruct (Z.ltb_spec i (Z.of_nat (Z.to_nat n))).
      + replace ((0 <=? i) && (i <? len)) with false by lia. apply zget_none. lia.
      + destruct (range_spec 0 len i); [|reflexivity]. symmetry. apply zget_none. unfold n in *. lia.
  Qed.
End Read.

Arguments handle_read_posix {P fetch valid} H_len H_fetch {iv m f} off len _ _ _ _.
