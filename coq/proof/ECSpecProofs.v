(* C06: the byte-function statements restated on plain lists (dslice_whole, dslice_sublist), the
   closed forms of a data shard (byte o of shard i, shard length), and the example of props/C06.v. *)
From Coq Require Import List ZArith NArith Bool Lia ZifyBool.
From SW Require Import model.EC proof.ECProofs proof.ECReadProofs proof.ECDecodeProofs proof.ECRebuildProofs.
Import ListNotations.
Local Open Scope Z_scope.

Lemma dslice_whole (l : list byte) : dslice (dat_of_list l) 0 (zlen l) = l.
Proof. unfold dslice, dat_of_list. apply list_eq_map_znth. Qed.

Lemma dslice_sublist (l : list byte) a n : 0 <= a -> 0 <= n -> a + n <= zlen l ->
  dslice (dat_of_list l) a n = firstn (Z.to_nat n) (skipn (Z.to_nat a) l).
Proof.
  intros Ha Hn Hle. transitivity (slice l a n).
  - rewrite slice_seg, Z.min_l, Z.max_r by lia. reflexivity.
  - unfold slice. rewrite Z.min_l by lia. reflexivity.
Qed.

Lemma shard_len_multiple_of_small rs_col dat L S buf D : sizes_ok L S buf -> 0 <= D ->
  zlen (znth (all_shards rs_col dat L S buf D) 0 []) mod S = 0.
Proof.
  intros Hok HD. destruct (shards_facts dat L S buf D Hok HD) as (R & s & _ & HS & _ & _ & EF).
  unfold all_shards. rewrite znth_app_l.
  2:{ unfold data_shards. rewrite zlen_map, zlen_zrange; lia. }
  rewrite (ef_len EF 0) by lia.
  destruct Hok as [_ [_ [m [Hm HL]]]]. subst L.
  replace (R * (m * S) + s * S) with ((R * m + s) * S) by lia.
  apply Z.mod_mul. lia.
Qed.

Lemma region_byte {dat D sh b proc bs n i o} : region dat D sh b proc bs n -> 0 < bs ->
  0 <= i < 10 -> b <= o < b + n * bs ->
  znth (znth sh i []) o 0%N =
  datz dat D (proc + Z.quot (o - b) bs * (bs * 10) + i * bs + Z.rem (o - b) bs).
Proof.
  intros Hreg Hbs Hi Ho.
  destruct (quot_rem_pos (o - b) bs ltac:(lia) Hbs) as (q & r & -> & -> & Hqr & Hr & Hq).
  replace o with (b + q * bs + r) by lia. apply Hreg; [lia|nia|lia].
Qed.

Lemma shard_byte_correct dat L S buf D i o : sizes_ok L S buf -> 0 <= D -> 0 <= i < 10 ->
  0 <= o < zlen (data_shard dat L S buf D i) ->
  znth (data_shard dat L S buf D i) o 0%N = shard_byte dat L S D i o.
Proof.
  intros Hok HD Hi Ho.
  destruct (shards_facts dat L S buf D Hok HD) as (R & s & HL & HS & Hlay & HR & EF).
  rewrite <- znth_data_shards in * by lia. rewrite (ef_len EF i Hi) in Ho.
  unfold shard_byte. rewrite HR. cbv zeta.
  destruct (o <? R * L) eqn:E.
  - rewrite (region_byte (ef_large EF)) by lia.
    rewrite Z.sub_0_r, Z.add_0_l. reflexivity.
  - rewrite (region_byte (ef_small EF)) by lia. reflexivity.
Qed.

Lemma shard_len_correct dat L S buf D i : sizes_ok L S buf -> 0 <= D -> 0 <= i < 10 ->
  zlen (data_shard dat L S buf D i) = shard_len L S D.
Proof.
  intros Hok HD Hi.
  destruct (shards_facts dat L S buf D Hok HD) as (R & s & HL & HS & Hlay & HR & EF).
  pose proof (ef_len EF i Hi) as Hlen.
  rewrite znth_data_shards in Hlen by lia. rewrite Hlen.
  unfold shard_len. rewrite HR. destruct Hlay as [H1 [H2 [H3 H4]]].
  destruct (D <=? 0) eqn:E.
  - destruct (H3 ltac:(lia)) as [-> ->]. lia.
  - specialize (H4 ltac:(lia)). f_equal. f_equal.
    apply Z.div_unique with (r := D - R * (L * 10) + S * 10 - 1 - s * (S * 10)); lia.
Qed.

Lemma data_shard_closed_form dat L S buf D i : sizes_ok L S buf -> 0 <= D -> 0 <= i < 10 ->
  data_shard dat L S buf D i = map (shard_byte dat L S D i) (zrange 0 (shard_len L S D)).
Proof.
  intros Hok HD Hi. rewrite <- (shard_len_correct dat L S buf D i Hok HD Hi).
  rewrite <- (list_eq_map_znth 0%N (data_shard dat L S buf D i)) at 1.
  apply map_zrange_ext. intros t Ht. apply shard_byte_correct; auto; lia.
Qed.

Lemma zlen_lcg_bytes : forall n x, zlen (lcg_bytes n x) = Z.of_nat n.
Proof.
  induction n as [|n IH]; intros x; [reflexivity|].
  cbn [lcg_bytes]. rewrite zlen_cons, IH. lia.
Qed.

(* The non-vacuity example of props/C06.v.  The read, the decoding and the closed forms are
   instances of read_exact_prod, decode_exact and data_shard_closed_form: evaluating the
   1000-byte decoding instead is slow to check. *)
Lemma c06_example_holds :
  sizes_ok 100 10 10 /\
  (let l := lcg_bytes 995 7 in
   read_needle_prod 100 10 (data_shards (dat_of_list l) 100 10 10 995) 0 8 = Some (firstn 8 l) /\
   map i_large (locate_data 100 10 (10 * 100) 0 8) = [false]) /\
  (let l := lcg_bytes 1000 9 in
   write_dat 100 10 (data_shards (dat_of_list l) 100 10 10 1000) 1000 = Some l) /\
  (let present := [true; false; true; true; false; true; true; true; true; true; false; true; true; false] in
   length present = 14%nat /\ count_lost present <= 4 /\
   let len := zlen (znth (all_shards (fun _ => [0; 0; 0; 0]%N) (dat_of_list (lcg_bytes 437 3)) 40 10 10 437) 0 []) in
   len = 50 /\ len < 1048576) /\
  (* the closed forms on a .dat with one large row and three small rows *)
  (let l := lcg_bytes 650 5 in
   shard_len 40 10 650 = 70 /\
   map (shard_byte (dat_of_list l) 40 10 650 3) (zrange 0 70) = data_shard (dat_of_list l) 40 10 10 650 3).
Proof.
  assert (Hok : forall m, 0 < m -> sizes_ok (m * 10) 10 10).
  { intros m Hm. split; [reflexivity|]. split; [exists 1|exists m]; split; auto; reflexivity. }
  split; [apply (Hok 10); reflexivity|]. split; [|split; [|split]].
  - intros l. assert (Hl : zlen l = 995) by apply zlen_lcg_bytes.
    split; [|reflexivity].
    rewrite (read_exact_prod _ 100 10 10 995 0 8 (Hok 10 eq_refl)), dslice_sublist by lia. reflexivity.
  - intros l. assert (Hl : zlen l = 1000) by apply zlen_lcg_bytes.
    etransitivity; [apply decode_exact; [apply (Hok 10)|]; lia|].
    rewrite <- Hl, dslice_whole. reflexivity.
  - vm_compute. repeat split; reflexivity || discriminate.
  - intros l. split; [reflexivity|]. symmetry.
    etransitivity; [apply data_shard_closed_form; [apply (Hok 4)|..]; lia|]. reflexivity.
Qed.
