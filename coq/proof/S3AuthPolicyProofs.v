(* Proofs about the IAM policy part of model/S3Auth.v (C26): GetActions grants at
   most what the document's Allow statements name. *)
From Coq Require Import List NArith Bool String Ascii.
From SW Require Import model.S3Auth proof.S3AuthProofs.
Import ListNotations.
Local Open Scope string_scope.
Local Open Scope list_scope.

(* the possible results of MapToStatementAction *)
Definition statement_action_results : list string := [ACTION_ADMIN; ACTION_WRITE; ACTION_READ; ACTION_LIST; ACTION_TAGGING; ""].

Lemma map_action_in_results : forall a1, In (map_to_statement_action a1) statement_action_results.
Proof.
  intros a1. unfold map_to_statement_action, statement_action_results.
  destruct (String.eqb a1 "*"); [simpl; auto|].
  destruct (String.eqb a1 "Put*"); [simpl; auto|].
  destruct (String.eqb a1 "Get*"); [simpl; auto|].
  destruct (String.eqb a1 "List*"); [simpl; auto 6|].
  destruct (String.eqb a1 "Tagging*"); simpl; auto 7.
Qed.

Lemma is_s3_action_in : forall a, is_s3_action a = true -> In a s3_actions.
Proof.
  intros a H. unfold is_s3_action in H. apply existsb_exists in H.
  destruct H as [x [Hin He]]. apply String.eqb_eq in He. subst. auto.
Qed.

Ltac split_sa H :=
  unfold statement_action_results in H; simpl in H;
  destruct H as [H|[H|[H|[H|[H|[H|[]]]]]]]; subst.
Ltac split_a5 H :=
  unfold s3_actions in H; simpl in H;
  destruct H as [H|[H|[H|[H|[H|[]]]]]]; subst.

(* comparing "<action>:<rest>" strings built from the finitely many action names: none of the names
   contains ':' and none is a proper prefix of another, so the head decides (all pairs are evaluated) *)
Lemma head_cmp_prefix : forall sa a d b, In sa statement_action_results -> In a s3_actions ->
  sprefix (sa ++ ":" ++ d)%string (a ++ ":" ++ b)%string = String.eqb sa a && sprefix d b.
Proof. intros sa a d b Hs Ha. split_sa Hs; split_a5 Ha; vm_compute; reflexivity. Qed.

Lemma head_cmp_eqb : forall sa a d b, In sa statement_action_results -> In a s3_actions ->
  String.eqb (sa ++ ":" ++ d)%string (a ++ ":" ++ b)%string = String.eqb sa a && String.eqb d b.
Proof. intros sa a d b Hs Ha. split_sa Hs; split_a5 Ha; vm_compute; reflexivity. Qed.

Lemma colon_not_action : forall sa a d, In sa statement_action_results -> In a s3_actions ->
  String.eqb (sa ++ ":" ++ d)%string a = false.
Proof. intros sa a d Hs Ha. split_sa Hs; split_a5 Ha; vm_compute; reflexivity. Qed.

Lemma admin_in_s3_actions : In ACTION_ADMIN s3_actions.
Proof. simpl. auto. Qed.

(* a bare statement action (resource "*") grants only itself, or everything if it is Admin *)
Lemma grants_bare : forall sa a b, In sa statement_action_results -> In a s3_actions ->
  grants sa a b = true -> sa = a \/ sa = ACTION_ADMIN.
Proof.
  intros sa a b Hs Ha H. unfold grants in H.
  destruct (String.eqb b ""); simpl negb in H;
  split_sa Hs; split_a5 Ha;
  try (left; reflexivity); try (right; reflexivity);
  vm_compute in H; discriminate.
Qed.

Lemma grants_limited : forall sa a p0 b, In sa statement_action_results -> In a s3_actions ->
  grants (sa ++ ":" ++ p0)%string a b = true ->
  (sa = a \/ sa = ACTION_ADMIN) /\ wild_match p0 b = true.
Proof.
  intros sa a p0 b Hs Ha H. unfold grants in H.
  rewrite (colon_not_action sa ACTION_ADMIN p0 Hs admin_in_s3_actions) in H.
  rewrite (colon_not_action sa a p0 Hs Ha) in H.
  cbn [orb] in H. apply andb_true_iff in H. destruct H as [_ H].
  rewrite last_is_star_colon in H. unfold wild_match.
  destruct (last_is_star p0) eqn:El.
  1: rewrite (drop_last_colon sa p0 (last_is_star_nonempty p0 El)),
       (head_cmp_prefix sa a _ b Hs Ha), (head_cmp_prefix sa ACTION_ADMIN _ b Hs admin_in_s3_actions) in H.
  2: rewrite (head_cmp_eqb sa a p0 b Hs Ha), (head_cmp_eqb sa ACTION_ADMIN p0 b Hs admin_in_s3_actions) in H.
  all: apply orb_true_iff in H; destruct H as [H|H]; apply andb_true_iff in H; destruct H as [He Hp];
    apply String.eqb_eq in He; auto.
Qed.

(* the statement action that produced sa names the action *)
Lemma map_action_names : forall a1 a, In a s3_actions ->
  (map_to_statement_action a1 = a \/ map_to_statement_action a1 = ACTION_ADMIN) ->
  (String.eqb a1 "*" ||
   (sprefix "Get" a1 && String.eqb a ACTION_READ) ||
   (sprefix "Put" a1 && String.eqb a ACTION_WRITE) ||
   (sprefix "List" a1 && String.eqb a ACTION_LIST) ||
   (sprefix "Tagging" a1 && String.eqb a ACTION_TAGGING)) = true.
Proof.
  intros a1 a Ha H. unfold map_to_statement_action in H.
  destruct (String.eqb a1 "*") eqn:E0; [reflexivity|].
  (* one of the four wildcards: the action it maps to is the one named *)
  destruct (String.eqb_spec a1 "Put*"); [|destruct (String.eqb_spec a1 "Get*");
    [|destruct (String.eqb_spec a1 "List*"); [|destruct (String.eqb_spec a1 "Tagging*")]]].
  1-4: subst a1; destruct H as [H|H]; [subst a; reflexivity|discriminate].
  destruct H as [H|H]; [|discriminate].
  subst a. split_a5 Ha; discriminate.
Qed.

Lemma action_grant_in : forall r5 act x, In x (action_grant r5 act) ->
  exists a0 a1, split_on ":" act = [a0; a1] /\ String.eqb a0 "s3" = true /\
    ((r5 = "*" /\ x = map_to_statement_action a1) \/
     (exists p0, split_on "/" r5 = [p0; "*"] /\ x = (map_to_statement_action a1 ++ ":" ++ p0)%string)).
Proof.
  intros r5 act x H. unfold action_grant in H.
  destruct (split_on ":" act) as [|a0 [|a1 [|a2 l]]]; try (simpl in H; tauto).
  destruct (String.eqb a0 "s3") eqn:E0; [|simpl in H; tauto].
  exists a0, a1. repeat split; auto.
  destruct (String.eqb_spec r5 "*").
  - left. simpl in H. destruct H as [H|[]]. auto.
  - right. destruct (split_on "/" r5) as [|p0 [|p1 [|p2 l]]]; try (simpl in H; tauto).
    destruct (String.eqb_spec p1 "*"); [|simpl in H; tauto].
    subst p1. simpl in H. destruct H as [H|[]]. exists p0. auto.
Qed.

Lemma resource_grants_in : forall acts res x, In x (resource_grants acts res) ->
  exists r3 r4 r5 act, split_on ":" res = ["arn"; "aws"; "s3"; r3; r4; r5] /\
                       In act acts /\ In x (action_grant r5 act).
Proof.
  intros acts res x H. unfold resource_grants in H.
  destruct (split_on ":" res) as [|r0 [|r1 [|r2 [|r3 [|r4 [|r5 [|r6 l]]]]]]]; try (simpl in H; tauto).
  destruct (String.eqb_spec r0 "arn"); [|simpl in H; tauto].
  destruct (String.eqb_spec r1 "aws"); [|simpl in H; tauto].
  destruct (String.eqb_spec r2 "s3"); [|simpl in H; tauto].
  simpl in H. subst. apply in_flat_map in H. destruct H as [act [Hin Hx]].
  exists r3, r4, r5, act. auto.
Qed.

Theorem get_actions_sound : forall doc action bucket,
  is_s3_action action = true ->
  allows (get_actions doc) action bucket = true -> named doc action bucket = true.
Proof.
  intros doc action bucket Hact H.
  pose proof (is_s3_action_in action Hact) as Ha.
  unfold allows in H. apply existsb_exists in H. destruct H as [x [Hx Hg]].
  unfold get_actions in Hx. apply in_flat_map in Hx. destruct Hx as [st [Hst Hx]].
  destruct (String.eqb (st_effect st) "Allow") eqn:Eeff; [|simpl in Hx; tauto].
  apply in_flat_map in Hx. destruct Hx as [res [Hres Hx]].
  apply resource_grants_in in Hx. destruct Hx as [r3 [r4 [r5 [act [Hsplit [Hact_in Hx]]]]]].
  apply action_grant_in in Hx. destruct Hx as [a0 [a1 [Hasplit [Ha0 Hx]]]].
  unfold named. apply existsb_exists. exists st. split; auto.
  unfold stmt_names. rewrite Eeff. simpl.
  assert (Hnames : forall sa, sa = map_to_statement_action a1 -> (sa = action \/ sa = ACTION_ADMIN) ->
            existsb (fun a => act_names a action) (st_actions st) = true).
  { intros sa Hsa Hor. apply existsb_exists. exists act. split; auto.
    unfold act_names. rewrite Hasplit, Ha0. simpl andb.
    apply map_action_names; auto. subst sa. auto. }
  destruct Hx as [[Hr5 Hxeq]|[p0 [Hp Hxeq]]].
  - subst x r5.
    apply grants_bare in Hg; auto using map_action_in_results.
    rewrite (Hnames _ eq_refl Hg). simpl.
    apply existsb_exists. exists res. split; auto.
    unfold res_covers. rewrite Hsplit. reflexivity.
  - subst x.
    apply grants_limited in Hg; auto using map_action_in_results. destruct Hg as [Hor Hw].
    rewrite (Hnames _ eq_refl Hor). simpl.
    apply existsb_exists. exists res. split; auto.
    unfold res_covers. rewrite Hsplit, Hp. simpl. exact Hw.
Qed.

Theorem policy_sound : forall doc action bucket,
  is_s3_action action = true ->
  can_do (get_actions doc) action bucket = true -> named doc action bucket = true.
Proof. intros doc action bucket Ha H. rewrite can_do_allows in H. apply get_actions_sound; auto. Qed.

(* PutUserPolicy only adds what the document names to what the user already had *)
Theorem put_user_policy_sound : forall prior doc action bucket,
  is_s3_action action = true ->
  can_do (put_user_policy prior doc) action bucket = true ->
  can_do prior action bucket = true \/ named doc action bucket = true.
Proof.
  intros prior doc action bucket Ha H. unfold put_user_policy in H.
  rewrite can_do_app in H. apply orb_true_iff in H. destruct H as [H|H]; auto.
  right. apply policy_sound; auto.
Qed.

(* statements whose Effect is not exactly "Allow" grant nothing *)
Theorem non_allow_grants_nothing : forall doc,
  Forall (fun st => String.eqb (st_effect st) "Allow" = false) doc -> get_actions doc = [].
Proof.
  intros doc H. induction H as [|st doc Hst _ IH]; simpl; auto.
  unfold get_actions in *. simpl. rewrite Hst. simpl. exact IH.
Qed.

Theorem named_iff : forall doc action bucket,
  named doc action bucket = true <->
  exists st, In st doc /\ st_effect st = "Allow" /\
             (exists a, In a (st_actions st) /\ act_names a action = true) /\
             (exists r, In r (st_resources st) /\ res_covers r bucket = true).
Proof.
  intros doc action bucket. unfold named, stmt_names. rewrite existsb_exists. split.
  - intros [st [Hin H]]. apply andb_true_iff in H. destruct H as [H Hr].
    apply andb_true_iff in H. destruct H as [He Ha].
    apply existsb_exists in Ha. apply existsb_exists in Hr. apply String.eqb_eq in He.
    exists st. auto.
  - intros [st [Hin [He [Ha Hr]]]]. exists st. split; auto.
    apply existsb_exists in Ha. apply existsb_exists in Hr. rewrite Ha, Hr.
    rewrite He. reflexivity.
Qed.

(* histories of PutUserPolicy: the code only ever appends *)
Definition put_history (prior : list string) (docs : list (list statement)) : list string :=
  fold_left put_user_policy docs prior.

Theorem put_history_sound : forall docs prior action bucket,
  is_s3_action action = true ->
  can_do (put_history prior docs) action bucket = true ->
  can_do prior action bucket = true \/ exists doc, In doc docs /\ named doc action bucket = true.
Proof.
  induction docs as [|d docs IH]; intros prior action bucket Ha H; simpl in *; auto.
  apply IH in H; auto. destruct H as [H|[doc [Hin Hn]]].
  - apply put_user_policy_sound in H; auto. destruct H as [H|H]; auto.
    right. exists d. auto.
  - right. exists doc. auto.
Qed.

(* nothing is ever revoked: re-putting a narrower document keeps every earlier grant (PutUserPolicy
   ignores PolicyName, which the model therefore does not carry) *)
Theorem put_history_never_revokes : forall docs prior action bucket,
  can_do prior action bucket = true -> can_do (put_history prior docs) action bucket = true.
Proof.
  induction docs as [|d docs IH]; intros prior action bucket H; simpl; auto.
  apply IH. unfold put_user_policy. rewrite can_do_app, H. reflexivity.
Qed.

(* "the user's grants are those of the policy document put last" FAILS *)
Definition doc_wide : list statement :=
  [ {| st_effect := "Allow"; st_actions := ["s3:*"]; st_resources := ["arn:aws:s3:::*"] |} ].
Definition doc_narrow : list statement :=
  [ {| st_effect := "Allow"; st_actions := ["s3:Get*"]; st_resources := ["arn:aws:s3:::b1/*"] |} ].

Lemma last_document_bound_refuted :
  can_do (put_history [] [doc_wide; doc_narrow]) ACTION_WRITE "b2" = true /\
  named doc_narrow ACTION_WRITE "b2" = false /\ named doc_wide ACTION_WRITE "b2" = true.
Proof. vm_compute. auto. Qed.

Lemma policy_example :
  let doc := [ {| st_effect := "Allow"; st_actions := ["s3:Get*"; "s3:List*"]; st_resources := ["arn:aws:s3:::b1/*"] |};
               {| st_effect := "Deny"; st_actions := ["s3:*"]; st_resources := ["arn:aws:s3:::*"] |} ] in
  get_actions doc = ["Read:b1"; "List:b1"] /\
  can_do (get_actions doc) ACTION_READ "b1" = true /\ named doc ACTION_READ "b1" = true /\
  can_do (get_actions doc) ACTION_READ "b2" = false /\
  can_do (get_actions doc) ACTION_WRITE "b1" = false /\ named doc ACTION_WRITE "b1" = false.
Proof. vm_compute. repeat split; reflexivity. Qed.
