(* C03: what Volume.load does to the files a crash left: it only shrinks them (load_loaded), serves only
   written blobs (no_foreign_data), and on [p_dat st ++ T] with the index of st gives back the needle map
   of st (load_core) and accepts a fresh write (write_core). *)
From Coq Require Import List NArith ZArith Bool Lia ZifyBool ZifyN ZifyNat.
From SW Require Import model.Needle proof.NeedleProofs model.VolumeCrash proof.VolumeCrashProofs.
Import ListNotations.
Local Open Scope N_scope.

Definition pref (P X : list N) : Prop := exists m, P = takeN m X.

Lemma pref_refl : forall X, pref X X.
Proof. intros. exists (len X). symmetry. apply takeN_ge. lia. Qed.

Lemma pref_takeN : forall X m, pref (takeN m X) X.
Proof. intros. exists m. reflexivity. Qed.

Lemma pref_trans : forall A B C, pref A B -> pref B C -> pref A C.
Proof. intros A B C [m ->] [m' ->]. rewrite takeN_takeN. eexists; reflexivity. Qed.

Lemma snoc_case : forall A (l : list A), l = [] \/ exists l' a, l = l' ++ [a].
Proof. intros A l. induction l using rev_ind; [left; reflexivity|right; eauto]. Qed.

Lemma empty_payload_of : forall n, data n <> [] -> empty_payload n = false.
Proof.
  intros n H. unfold empty_payload. destruct (len (data n) =? 0) eqn:E; [|reflexivity].
  exfalso. apply H. apply len_zero_nil. lia.
Qed.

Section WithCrc.
  Variable crc : list N -> N.

  Lemma verify_needle_pref : forall d off key size r d',
    verify_needle crc d off key size = (r, d') -> pref (d_bytes d') (d_bytes d).
  Proof.
    intros d off key size r d' H. unfold verify_needle in H.
    destruct (len (dropN off (d_bytes d)) <? NeedleHeaderSize); [inversion H; apply pref_refl|].
    destruct (parse_header (dropN off (d_bytes d))) as [[c i] hs].
    destruct (negb (Z.of_N hs =? size)%Z); [inversion H; apply pref_refl|].
    destruct (len (dropN (NeedleHeaderSize + Z.to_N size + NeedleChecksumSize) (dropN off (d_bytes d))) <? TimestampSize);
      [inversion H; apply pref_refl|].
    destruct (d_fsize d =? off + actual_size (Z.to_N size) Ver); [inversion H; apply pref_refl|].
    destruct (off + actual_size (Z.to_N size) Ver <? d_fsize d); [inversion H; apply pref_takeN|].
    destruct (read_data crc (d_bytes d) off (Z.to_N size) Ver) as [dn st].
    destruct st; try (inversion H; apply pref_refl).
    destruct (id (d_n dn) =? key); inversion H; apply pref_refl.
  Qed.

  Lemma check_entry_pref : forall d e r d', check_entry crc d e = (r, d') -> pref (d_bytes d') (d_bytes d).
  Proof.
    intros d e r d' H. unfold check_entry in H.
    destruct (e_off e =? 0); [inversion H; apply pref_refl|].
    eapply verify_needle_pref; eauto.
  Qed.

  Lemma check_loop_pref : forall n es cnt d healthy last r d' h',
    check_loop crc n es cnt d healthy last = (r, d', h') -> pref (d_bytes d') (d_bytes d).
  Proof.
    induction n as [|n IH]; intros es cnt d healthy last r d' h' H.
    - cbn [check_loop] in H. inversion H. apply pref_refl.
    - destruct es as [|e es]; [cbn [check_loop] in H; inversion H; apply pref_refl|].
      cbn [check_loop] in H. destruct (check_entry crc d e) as [r0 d0] eqn:E.
      pose proof (check_entry_pref _ _ _ _ E) as Hp.
      destruct r0; try (inversion H; subst; assumption);
        (eapply pref_trans; [eapply IH; eauto|assumption]).
  Qed.

  Lemma check_and_fix_shrinks : forall d es err d' es',
    check_and_fix crc d es = (err, d', es') -> pref (d_bytes d') (d_bytes d) /\ incl es' es.
  Proof.
    intros d es err d' es' H. unfold check_and_fix in H. destruct es as [|e0 es0].
    - inversion H. split; [apply pref_refl|apply incl_refl].
    - remember (e0 :: es0) as es. destruct (check_loop crc 10 (rev es) (len es) d (len es) CNil) as [[r d1] healthy] eqn:E.
      pose proof (check_loop_pref _ _ _ _ _ _ _ _ _ E) as Hp.
      destruct (healthy <? len es); inversion H; subst; (split; [assumption|]).
      + intros x Hx. eapply In_takeN; eauto.
      + apply incl_refl.
  Qed.

  Lemma load_loaded : forall f L, load crc f = Loaded L ->
    pref (d_bytes (l_dat L)) (f_dat f) /\ incl (l_idx L) (f_idx f) /\ map_from (l_idx L) (l_map L).
  Proof.
    intros f L H. unfold load in H.
    destruct (len (f_dat f) <? SuperBlockSize); [discriminate|].
    destruct (check_and_fix crc (open_dat (f_dat f)) (f_idx f)) as [[err d] es] eqn:E.
    destruct (check_and_fix_shrinks _ _ _ _ _ E) as [Hp Hi].
    inversion H; subst L; clear H. cbn [l_dat l_idx l_map].
    split; [exact Hp|]. split; [exact Hi|].
    destruct err; [apply load_sorted_from|apply load_compact_from].
  Qed.

  Lemma read_data_window : forall X P pre post o n,
    X = pre ++ encode Ver n ++ post -> len pre = o -> pref P X ->
    rec_ok n -> data n <> [] -> checksum n = crc (data n) ->
    read_data crc P o (body_size n) Ver = (dview Ver n, SOk) \/
    read_data crc P o (body_size n) Ver = (empty_dneedle, SShort).
  Proof.
    intros X P pre post o n HX Hpre [m HP] [Hok Hr] Hne Hck. unfold read_data.
    set (a := actual_size (body_size n) Ver).
    destruct (len (takeN a (dropN o P)) <? a) eqn:E; [right; reflexivity|left].
    assert (Hw : takeN a (dropN o P) = encode Ver n).
    { subst P. rewrite window_of_prefix by lia. subst X.
      rewrite dropN_app by assumption. apply takeN_app. apply len_encode. assumption. }
    rewrite Hw. apply roundtrip_partial; auto using empty_payload_of.
  Qed.

  (* readNeedle on a live binding whose record is (or is not) fully there *)
  Lemma l_read_live : forall L k nv n,
    nm_get (l_map L) k = Some nv -> nv_off nv <> 0 -> nv_size nv = Z.of_N (body_size n) -> 0 < body_size n ->
    (read_data crc (d_bytes (l_dat L)) (nv_off nv * 8) (body_size n) Ver = (dview Ver n, SOk) ->
       l_read crc L k = ROk (dview Ver n)) /\
    (read_data crc (d_bytes (l_dat L)) (nv_off nv * 8) (body_size n) Ver = (empty_dneedle, SShort) ->
       l_read crc L k = RErr 4).
  Proof.
    intros L k nv n Hg Hnz Hs Hpos. unfold l_read. rewrite Hg.
    destruct (nv_off nv =? 0) eqn:E0; [lia|].
    assert (Hd : size_deleted (nv_size nv) = false) by (unfold size_deleted, TombstoneFileSize; lia).
    rewrite Hd. destruct (nv_size nv =? 0)%Z eqn:Ez; [lia|].
    rewrite Hs, N2Z.id. split; intros ->; reflexivity.
  Qed.

  Theorem no_foreign_data : forall h dcut icut L k d, Forall (wf_op crc) h ->
    load crc (crash (p_run h) dcut icut) = Loaded L -> l_read crc L k = ROk d ->
    exists n, In (Write n) h /\ id n = k /\ d = dview Ver n.
  Proof.
    intros h dcut icut L k d Hwf Hload Hread.
    pose proof (inv_run crc h Hwf) as HI. set (st := p_run h) in *.
    destruct (load_loaded _ _ Hload) as [Hp [Hi Hm]]. cbn [crash f_dat f_idx] in Hp, Hi.
    assert (Hp' : pref (d_bytes (l_dat L)) (p_dat st)) by (eapply pref_trans; [exact Hp|apply pref_takeN]).
    assert (Hi' : incl (l_idx L) (p_idx st)) by (intros x Hx; eapply In_takeN; apply Hi; exact Hx).
    pose proof Hread as Hread0. unfold l_read in Hread.
    destruct (nm_get (l_map L) k) as [nv|] eqn:Eg; [|discriminate].
    destruct (nv_off nv =? 0) eqn:E0; [discriminate|].
    destruct (size_deleted (nv_size nv)) eqn:Ed; [discriminate|].
    destruct (nv_size nv =? 0)%Z eqn:Ez; [discriminate|]. clear Hread.
    apply size_deleted_neg in Ed.
    destruct (binding_record crc st (l_idx L) k nv HI Hi' (Hm k nv Eg)) as [r [Hin [Hnz [Hid [Ht [Hs|Hs]]]]]]; [|lia].
    destruct (rec_in_dat crc st _ r HI Hin) as [pre [post [HX [Hlen [_ [_ [Hrok Hpay]]]]]]].
    rewrite Ht in Hpay. destruct Hpay as [Hne Hck].
    destruct (l_read_live L k nv (a_n r) Eg Hnz Hs ltac:(lia)) as [Hok Hshort].
    destruct (read_data_window (p_dat st) (d_bytes (l_dat L)) pre post _ (a_n r) HX Hlen Hp' Hrok Hne Hck) as [H1|H1].
    - exists (a_n r). split; [|split; [assumption|]].
      + destruct (recs_from_ops crc h Hwf _ r Hin) as [[n|? ? ?] [Hx ->]]; [exact Hx|discriminate Ht].
      + rewrite (Hok H1) in Hread0. inversion Hread0. reflexivity.
    - rewrite (Hshort H1) in Hread0. discriminate.
  Qed.

  (* the data file of the reopened volume still starts with everything the index knows about *)
  Definition good_dat (st : pstate) (D : dfile) : Prop :=
    (exists T, d_bytes D = p_dat st ++ T) /\ d_fsize D mod 8 = 0 /\ len (d_bytes D) <= d_fsize D.

  Lemma good_open : forall st T, good_dat st (open_dat (p_dat st ++ T)).
  Proof.
    intros. unfold good_dat, open_dat. cbn [d_bytes d_fsize].
    destruct (round_up8_spec (len (p_dat st ++ T))) as [H1 [H2 _]]. split; [eauto|]. split; assumption.
  Qed.

  (* verifyNeedleIntegrity at a whole record followed by anything: header, size and timestamp
     are there, so the check passes; what it cuts off lies behind the record *)
  Lemma verify_record : forall pre n T key, rec_ok n -> len pre mod 8 = 0 ->
    exists D, verify_needle crc (open_dat (pre ++ encode Ver n ++ T)) (len pre) key (Z.of_N (body_size n)) = (CNil, D) /\
      (exists T', d_bytes D = (pre ++ encode Ver n) ++ T') /\ d_fsize D mod 8 = 0 /\ len (d_bytes D) <= d_fsize D.
  Proof.
    intros pre n T key [Henc Hrng] Hal. unfold verify_needle, open_dat. cbn [d_bytes d_fsize].
    rewrite dropN_app, parse_header_encode, Z.eqb_refl, N2Z.id, len_dropN by auto. cbn [negb].
    pose proof (len_encode Ver n Henc) as Hlen. pose proof (actual_size_aligned (body_size n) Ver) as HA8.
    assert (Hact : 16 + body_size n + 4 + 8 < actual_size (body_size n) Ver).
    { pose proof (padding_range (body_size n) Ver). unfold actual_size, body_length, ts_size, Ver in *.
      change (3 =? 3) with true. cbv iota. unfold NeedleHeaderSize, NeedleChecksumSize, TimestampSize. lia. }
    rewrite app_assoc.
    destruct (round_up8_spec (len ((pre ++ encode Ver n) ++ T))) as [Hr1 [Hr2 _]]. revert Hr1 Hr2.
    generalize (round_up8 (len ((pre ++ encode Ver n) ++ T))) as F.
    unfold NeedleHeaderSize, NeedleChecksumSize, TimestampSize. rewrite !len_app, Hlen.
    generalize (actual_size (body_size n) Ver) Hlen Hact HA8. clear Hlen Hact HA8 Henc Hrng. revert Hal.
    intros Hal A Hlen Hact.
    destruct (A + len T <? 16) eqn:E1; [lia|].
    destruct (A + len T - (16 + body_size n + 4) <? 8) eqn:E2; [lia|].
    intros HA8 F Hr1 Hr2.
    destruct (F =? len pre + A) eqn:E3; [|destruct (len pre + A <? F) eqn:E4; [|lia]]; eexists; (split; [reflexivity|]).
    - cbn [d_bytes d_fsize]. rewrite !len_app, Hlen. split; [eauto|]. split; [assumption|lia].
    - unfold d_truncate. cbn [d_bytes d_fsize]. rewrite takeN_app by (rewrite len_app; lia).
      rewrite len_app, Hlen. split; [exists []; symmetry; apply app_nil_r|].
      split; [rewrite N.add_mod, Hal, HA8 by discriminate; reflexivity|apply N.le_refl].
  Qed.
  (* the check of the last index entry of the running volume [st] against [p_dat st ++ T] *)
  Lemma check_last_entry : forall st l' o r T, Inv crc st -> p_recs st = l' ++ [(o, r)] ->
    exists D, check_entry crc (open_dat (p_dat st ++ T)) (entry_of o r) = (CNil, D) /\ good_dat st D.
  Proof.
    intros st l' o r T HI Hrecs.
    pose proof (inv_ok crc st HI) as Hok. pose proof (inv_lay crc st HI) as Hl. rewrite Hrecs in Hok, Hl.
    apply Forall_app in Hok. destruct Hok as [Hok' Hr]. inversion Hr as [|? ? [Hrok Hpay] _]; subst. cbn [snd] in Hrok, Hpay.
    apply lay_app in Hl. destruct Hl as [_ [Ho _]]. pose proof (cat_aligned crc l' Hok') as Hal.
    (* the last record ends the file *)
    assert (HX : p_dat st = (super_block ++ cat l') ++ encode Ver (a_n r)).
    { rewrite (inv_dat crc st HI), Hrecs. unfold dat_of. rewrite cat_app. cbn [cat map concat snd].
      rewrite app_nil_r, app_assoc. reflexivity. }
    assert (Hpre : len (super_block ++ cat l') = o) by (rewrite len_app, len_super_block; lia).
    unfold check_entry, entry_of, good_dat. cbn [e_off e_size e_key].
    destruct (o / 8 =? 0) eqn:E0; [lia|]. replace (o / 8 * 8) with o by lia.
    (* a tombstone is looked for with Size 0, which is the size its record has *)
    assert (Hsz : (if (entry_size r <? 0)%Z then 0%Z else entry_size r) = Z.of_N (body_size (a_n r))).
    { unfold entry_size. destruct (a_tomb r) eqn:Et.
      - destruct (body_empty (a_n r) Hpay) as [Hb _]. rewrite Hb. reflexivity.
      - replace (Z.of_N (body_size (a_n r)) <? 0)%Z with false by lia. reflexivity. }
    rewrite Hsz, HX, <- app_assoc, <- Hpre. apply verify_record; [assumption|lia].
  Qed.

  (* when the newest entry checks out, the loop stops there *)
  Lemma check_loop_head : forall n e es cnt d healthy last D, check_entry crc d e = (CNil, D) ->
    check_loop crc (S n) (e :: es) cnt d healthy last = (CNil, D, healthy).
  Proof. intros n e es cnt d healthy last D H. cbn [check_loop]. rewrite H. reflexivity. Qed.

  Lemma check_and_fix_last : forall d es e D, check_entry crc d e = (CNil, D) ->
    check_and_fix crc d (es ++ [e]) = (false, D, es ++ [e]).
  Proof.
    intros d es e D H. unfold check_and_fix. destruct (es ++ [e]) as [|e0 es0] eqn:E.
    - exfalso. eapply app_cons_not_nil. symmetry. exact E.
    - rewrite <- E, rev_app_distr. cbn [rev app]. rewrite (check_loop_head _ _ _ _ _ _ _ D H), N.ltb_irrefl.
      reflexivity.
  Qed.

  (* reopening [p_dat st ++ T] with the index of [st] gives back the needle map of [st] *)
  Lemma load_core : forall st T torn, Inv crc st ->
    exists D, load crc {| f_dat := p_dat st ++ T; f_idx := p_idx st; f_torn := torn |}
              = Loaded {| l_dat := D; l_idx := p_idx st; l_map := p_map st; l_nwod := false |}
              /\ good_dat st D.
  Proof.
    intros st T torn HI. unfold load. cbn [f_dat f_idx f_torn].
    destruct (len_dat_ge8 crc st HI) as [H8 _].
    destruct (len (p_dat st ++ T) <? SuperBlockSize) eqn:E1; [rewrite len_app in E1; unfold SuperBlockSize in E1; lia|].
    destruct (snoc_case _ (p_recs st)) as [Hnil|[l' [[o r] Hsnoc]]].
    - (* empty index: nothing is checked *)
      assert (Hidx : p_idx st = []) by (rewrite (inv_idx crc st HI), Hnil; reflexivity).
      rewrite Hidx. cbn [check_and_fix]. eexists. split; [|apply good_open].
      rewrite (inv_map crc st HI), Hidx. reflexivity.
    - destruct (check_last_entry st l' o r T HI Hsnoc) as [D [Hc HD]].
      assert (Hidx : p_idx st = idx_of l' ++ [entry_of o r]).
      { rewrite (inv_idx crc st HI), Hsnoc. apply map_app. }
      exists D. split; [|assumption].
      assert (Hcf : check_and_fix crc (open_dat (p_dat st ++ T)) (p_idx st) = (false, D, p_idx st)).
      { rewrite Hidx. apply check_and_fix_last. assumption. }
      rewrite Hcf. rewrite (inv_map crc st HI). reflexivity.
  Qed.

  (* on such a volume a fresh key can be written and read back *)
  Lemma write_core : forall st D es n, Inv crc st -> good_dat st D ->
    nm_get (p_map st) (id n) = None -> rec_ok n -> data n <> [] -> checksum n = crc (data n) ->
    exists L2, l_write crc {| l_dat := D; l_idx := es; l_map := p_map st; l_nwod := false |} n = (L2, WOk) /\
               l_read crc L2 (id n) = ROk (dview Ver n).
  Proof.
    intros st D es n HI [[T HT] [Hal Hle]] Hg [Henc Hrng] Hne Hck.
    unfold l_write, l_unchanged. cbn [l_nwod l_map l_dat l_idx]. rewrite Hg.
    eexists. split; [reflexivity|].
    destruct (len_dat_ge8 crc st HI) as [H8 _].
    assert (Hf8 : 8 <= d_fsize D) by (rewrite HT, len_app in Hle; lia).
    set (L2 := {| l_dat := d_append D (encode Ver n); l_idx := _; l_map := _; l_nwod := false |}).
    set (nv := {| nv_off := d_fsize D / 8; nv_size := Z.of_N (body_size n) |}).
    assert (Eg : nm_get (l_map L2) (id n) = Some nv).
    { unfold L2. cbn [l_map nm_set nm_get]. rewrite N.eqb_refl. reflexivity. }
    pose proof (body_size_pos n Hne) as Hpos.
    destruct (l_read_live L2 (id n) nv n Eg) as [Hok _]; [unfold nv; cbn [nv_off]; lia|reflexivity|assumption|].
    apply Hok. unfold nv, L2, d_append. cbn [nv_off l_dat d_bytes].
    replace (d_fsize D / 8 * 8) with (d_fsize D) by lia.
    set (Z0 := zeros (d_fsize D - len (d_bytes D))).
    assert (HZ : len (d_bytes D ++ Z0) = d_fsize D) by (unfold Z0; rewrite len_app, len_zeros; lia).
    pose proof (roundtrip_in_file crc Ver n (d_bytes D ++ Z0) [] (empty_payload_of n Hne) Henc Hrng Hck) as R.
    rewrite HZ, app_nil_r, <- app_assoc in R. exact R.
  Qed.
End WithCrc.
