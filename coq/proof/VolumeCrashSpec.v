(* Proofs about model/VolumeCrash.v (C03): the running volume answers reads exactly as
   the operation-level specification [s_run] says (a small-scale version of C01's refinement,
   for the write / delete operations C03's histories are made of). *)
From Coq Require Import List NArith ZArith Bool Lia ZifyBool ZifyN ZifyNat.
From SW Require Import proof.ListFacts model.Needle proof.NeedleProofs model.VolumeCrash proof.VolumeCrashProofs.
Import ListNotations.
Local Open Scope N_scope.

(* [bytes_eqb] is model/Needle.v's comparison of byte strings (isFileUnchanged compares the data) *)
Lemma bytes_eqb_true : forall a b, bytes_eqb a b = true -> a = b.
Proof. exact (fun a b => proj1 (eqb_list_eq N.eqb N.eqb_eq a b)). Qed.

Lemma bytes_eqb_refl : forall a, bytes_eqb a a = true.
Proof. exact (eqb_list_refl N.eqb N.eqb_eq). Qed.

Lemma find_rec_app_old : forall l x o r, find_rec l o = Some r -> find_rec (l ++ x) o = Some r.
Proof.
  induction l as [|[o0 r0] l IH]; intros x o r H; [discriminate|].
  cbn [app find_rec] in *. destruct (o0 =? o); [assumption|apply IH; assumption].
Qed.

Lemma find_rec_app_new : forall l o r, (forall o' r', In (o', r') l -> o' <> o) ->
  find_rec (l ++ [(o, r)]) o = Some r.
Proof.
  induction l as [|[o0 r0] l IH]; intros o r H.
  - cbn [app find_rec]. rewrite N.eqb_refl. reflexivity.
  - cbn [app find_rec]. destruct (o0 =? o) eqn:E.
    + exfalso. apply (H o0 r0); [left; reflexivity|lia].
    + apply IH. intros o' r' Hin. apply (H o' r'). right. assumption.
Qed.

Section WithCrc.
  Variable crc : list N -> N.

  (* the running volume and the specification describe the same keys *)
  Definition spec_sim_key (st : pstate) (m : smap) (k : N) : Prop :=
    match s_get m k with
    | None => nm_get (p_map st) k = None
    | Some v =>
        exists nv r, nm_get (p_map st) k = Some nv /\ nv_off nv <> 0 /\
          find_rec (p_recs st) (nv_off nv * 8) = Some r /\ cookie (a_n r) = s_cookie v /\
          match s_live v with
          | Some n => a_n r = n /\ nv_size nv = Z.of_N (body_size n) /\ 0 < body_size n
          | None => (nv_size nv < 0)%Z
          end
    end.

  Definition spec_sim (st : pstate) (s : smap * N) : Prop :=
    snd s = len (p_idx st) /\ forall k, spec_sim_key st (fst s) k.

  Lemma spec_sim_init : spec_sim p_init ([], 0).
  Proof. split; [reflexivity|]. intros k. reflexivity. Qed.

  (* appending record [r] of key kk with needle map [mp] that differs from the old one at kk
     only: the other keys keep their relation, the relation of kk is the caller's to show *)
  Lemma spec_sim_after_append : forall st m nrec r v' mp, spec_sim st (m, nrec) ->
    (forall k, k <> id (a_n r) -> nm_get mp k = nm_get (p_map st) k) ->
    spec_sim_key (p_append st r mp true) ((id (a_n r), v') :: m) (id (a_n r)) ->
    spec_sim (p_append st r mp true) ((id (a_n r), v') :: m, nrec + 1).
  Proof.
    intros st m nrec r v' mp [Hn Hs] Hmp Hown. split.
    - cbn [snd p_append p_idx] in *. rewrite len_app, Hn. reflexivity.
    - intros k. cbn [fst]. destruct (N.eq_dec k (id (a_n r))) as [->|Hne]; [exact Hown|].
      specialize (Hs k). unfold spec_sim_key in *. cbn [fst s_get p_append p_map p_recs] in *.
      replace (id (a_n r) =? k) with false by lia. rewrite (Hmp k Hne).
      destruct (s_get m k) as [v|]; [|assumption].
      destruct Hs as [nv [r0 [Hg [Hnz [Hf Hrest]]]]]. exists nv, r0. auto using find_rec_app_old.
  Qed.

  Lemma spec_sim_write : forall st s n, Inv crc st -> spec_sim st s -> wf_op crc (Write n) ->
    spec_sim (p_write st n) (s_step s (Write n)).
  Proof.
    intros st [m nrec] n HI Hsim [Hok [Hne Hck]].
    pose proof Hsim as [Hn Hs]. specialize (Hs (id n)). unfold spec_sim_key in Hs. cbn [fst] in Hs.
    pose proof (body_size_pos n Hne) as Hpos.
    destruct (len_dat_ge8 crc st HI) as [H8 Hal].
    (* an accepted write binds the key to the new record at the end of the file *)
    assert (Hput : p_unchanged st n = false -> p_cookie_ok st n = true ->
                   spec_sim (p_write st n) (s_put (m, nrec) n)).
    { intros Hu Hc. unfold p_write. rewrite Hu, Hc. cbn [negb]. rewrite (newer_true crc st (id n) HI).
      unfold s_put. cbn [fst snd].
      apply (spec_sim_after_append st m nrec {| a_n := n; a_tomb := false |}); [assumption| |].
      - intros k Hk. apply nm_get_set_other. cbn [a_n] in Hk. congruence.
      - unfold spec_sim_key. cbn [a_n s_get p_append p_map p_recs]. rewrite N.eqb_refl, nm_get_set_same.
        eexists _, {| a_n := n; a_tomb := false |}. split; [reflexivity|].
        cbn [nv_off nv_size s_cookie s_live a_n]. split; [lia|]. split; [|auto].
        replace (len (p_dat st) / 8 * 8) with (len (p_dat st)) by lia.
        apply find_rec_app_new. intros o' r' Hin. pose proof (rec_offset_lt crc st o' r' HI Hin). lia. }
    unfold s_step. cbn [fst].
    destruct (s_get m (id n)) as [v|] eqn:Esg.
    - destruct Hs as [nv [r [Hg [Hnz [Hf [Hcook Hlive]]]]]].
      assert (Hcok : p_cookie_ok st n = (s_cookie v =? cookie n)).
      { unfold p_cookie_ok. rewrite Hg, Hf, Hcook. reflexivity. }
      destruct (s_cookie v =? cookie n) eqn:Ec; cbn [negb].
      + destruct (s_live v) as [n0|] eqn:El.
        * destruct Hlive as [Hr [Hsz Hp0]].
          assert (Hu : p_unchanged st n = bytes_eqb (data n0) (data n)).
          { unfold p_unchanged. rewrite Hg, Hf, Hsz, (size_valid_of_N _ Hp0), Hr.
            replace (negb (nv_off nv =? 0)) with true by lia. cbn [andb].
            destruct (bytes_eqb (data n0) (data n)) eqn:Eb; [|rewrite andb_false_r; reflexivity].
            apply bytes_eqb_true in Eb.
            (* same bytes, same checksum: both are the CRC of the data *)
            destruct (bound_record crc st _ nv r HI Hg (find_rec_in _ _ _ Hf)) as [_ [[_ Hpay] [_ [_ [Ht _]]]]].
            rewrite Ht, Hr in Hpay. destruct Hpay as [_ Hck0].
            rewrite Hck0, Hck, Eb, N.eqb_refl. replace (cookie n0 =? cookie n) with true; [reflexivity|].
            rewrite <- Hr, Hcook. lia. }
          destruct (bytes_eqb (data n0) (data n)) eqn:Eb.
          { unfold p_write. rewrite Hu. assumption. }
          { apply Hput; [assumption|rewrite Hcok; reflexivity]. }
        * apply Hput; [|rewrite Hcok; reflexivity].
          unfold p_unchanged. rewrite Hg.
          replace (size_valid (nv_size nv)) with false by (unfold size_valid, TombstoneFileSize; lia).
          rewrite andb_false_r. reflexivity.
      + (* another cookie: refused *)
        unfold p_write. rewrite Hcok. cbn [negb].
        destruct (p_unchanged st n) eqn:Eu; [assumption|assumption].
    - apply Hput; [unfold p_unchanged; rewrite Hs; reflexivity|unfold p_cookie_ok; rewrite Hs; reflexivity].
  Qed.

  Lemma spec_sim_delete : forall st s k c ts, Inv crc st -> spec_sim st s -> wf_op crc (Delete k c ts) ->
    spec_sim (p_delete st k c ts) (s_step s (Delete k c ts)).
  Proof.
    intros st [m nrec] k c ts HI Hsim Hwf.
    pose proof Hsim as [Hn Hs]. specialize (Hs k). unfold spec_sim_key in Hs. cbn [fst] in Hs.
    unfold s_step, p_delete. cbn [fst snd].
    destruct (s_get m k) as [v|] eqn:Esg; [|rewrite Hs; assumption].
    destruct Hs as [nv [r [Hg [Hnz [Hf [Hcook Hlive]]]]]]. rewrite Hg.
    destruct (s_live v) as [n0|] eqn:El.
    - (* the key stays bound to its old record, with the size negated *)
      destruct Hlive as [Hr [Hsz Hp0]]. rewrite Hsz, (size_valid_of_N _ Hp0).
      apply (spec_sim_after_append st m nrec {| a_n := tombstone k c ts; a_tomb := true |}); [assumption| |].
      + intros k' Hk'. apply nm_get_delete_other. cbn [a_n tombstone id] in Hk'. congruence.
      + unfold spec_sim_key. cbn [a_n tombstone id s_get p_append p_map p_recs].
        rewrite N.eqb_refl, nm_get_delete_same, Hg, Hsz, (size_valid_of_N _ Hp0).
        eexists _, r. split; [reflexivity|]. cbn [nv_off nv_size s_cookie s_live].
        split; [assumption|]. split; [apply find_rec_app_old; assumption|]. split; [assumption|lia].
    - replace (size_valid (nv_size nv)) with false by (unfold size_valid, TombstoneFileSize; lia).
      assumption.
  Qed.

  Lemma spec_sim_fold : forall h st s, Inv crc st -> spec_sim st s -> Forall (wf_op crc) h ->
    spec_sim (fold_left p_step h st) (fold_left s_step h s).
  Proof.
    induction h as [|o h IH]; intros st s HI Hsim Hwf; [assumption|].
    inversion Hwf; subst. cbn [fold_left]. apply IH; [apply inv_step; assumption| |assumption].
    destruct o as [n|k c ts]; [apply spec_sim_write|apply spec_sim_delete]; assumption.
  Qed.

  (* the running volume reads per specification, and the specification counts its records *)
  Theorem running_reads_spec : forall h, Forall (wf_op crc) h ->
    snd (s_run h) = len (p_idx (p_run h)) /\ forall k, p_read (p_run h) k = s_read (fst (s_run h)) k.
  Proof.
    intros h Hwf. destruct (spec_sim_fold h p_init ([], 0) (inv_init crc) spec_sim_init Hwf) as [Hn Hs].
    split; [exact Hn|]. intros k. specialize (Hs k). unfold spec_sim_key in Hs. fold (p_run h) in Hs. fold (s_run h) in Hs.
    unfold p_read, s_read. destruct (s_get (fst (s_run h)) k) as [v|]; [|rewrite Hs; reflexivity].
    destruct Hs as [nv [r [Hg [Hnz [Hf [_ Hlive]]]]]]. rewrite Hg.
    replace (nv_off nv =? 0) with false by lia.
    destruct (s_live v) as [n0|].
    - destruct Hlive as [Hr [Hsz Hp0]].
      replace (size_deleted (nv_size nv)) with false by (unfold size_deleted, TombstoneFileSize; lia).
      replace (nv_size nv =? 0)%Z with false by lia. rewrite Hf, Hr. reflexivity.
    - replace (size_deleted (nv_size nv)) with true by (unfold size_deleted, TombstoneFileSize; lia). reflexivity.
  Qed.
End WithCrc.
