(* C36: LocalSink on whole histories -- the file set of the backup tree is the
   reference file set (every file event applied at the mapped path).  The tree is used
   through [lookup_tree] only; [Rel] ties it to the reference file set and is kept by
   every event that meets no clash. *)
From Coq Require Import List NArith ZArith Bool String Ascii Arith Lia.
From SW Require Import model.Repl proof.ReplProofs proof.ReplEmit.
Import ListNotations.
Local Open Scope list_scope.

Local Arguments is_multipart : simpl never.
Local Arguments ancestors : simpl never.

(* every entry of the list is the one [lookup_tree] finds for its path *)
Definition Inv (t : tree) : Prop := forall p b, In (p, b) t -> lookup_tree t p = Some b.

Definition fkey (p : string) (x : string * bool) : bool := String.eqb (fst x) p.

Lemma lookup_unfold : forall t p,
  lookup_tree t p = if String.eqb p "/" then Some true else
                    match find (fkey p) t with Some x => Some (snd x) | None => None end.
Proof. reflexivity. Qed.

Lemma find_app1 : forall (f : string * bool -> bool) l x,
  find f (l ++ [x]) = match find f l with Some y => Some y | None => if f x then Some x else None end.
Proof.
  intros f l x. induction l as [|a l IH]; simpl; [reflexivity|].
  destruct (f a); [reflexivity|exact IH].
Qed.

Lemma lookup_add : forall t p d q, p <> "/"%string ->
  lookup_tree (add_entry t p d) q =
  if String.eqb q p then (match lookup_tree t p with Some x => Some x | None => Some d end)
  else lookup_tree t q.
Proof.
  intros t p d q Hp. unfold add_entry. destruct (lookup_tree t p) as [x|] eqn:L.
  - destruct (String.eqb q p) eqn:E; [apply String.eqb_eq in E; subst; exact L|reflexivity].
  - rewrite !lookup_unfold. rewrite lookup_unfold in L.
    apply String.eqb_neq in Hp. rewrite Hp in L.
    destruct (String.eqb q "/") eqn:Q.
    + apply String.eqb_eq in Q. subst q. rewrite String.eqb_sym, Hp. reflexivity.
    + rewrite find_app1. destruct (String.eqb q p) eqn:E.
      * apply String.eqb_eq in E. subst q. destruct (find (fkey p) t); [discriminate|].
        unfold fkey. simpl. rewrite String.eqb_refl. reflexivity.
      * destruct (find (fkey q) t); [reflexivity|]. unfold fkey. simpl. rewrite String.eqb_sym, E. reflexivity.
Qed.

Lemma inv_add : forall t p d, Inv t -> p <> "/"%string -> Inv (add_entry t p d).
Proof.
  intros t p d Ht Hp q b Hin. rewrite lookup_add by exact Hp. unfold add_entry in Hin.
  destruct (String.eqb q p) eqn:E; [apply String.eqb_eq in E; subst q|].
  - destruct (lookup_tree t p) eqn:L; [rewrite <- L; auto|].
    apply in_app_or in Hin. destruct Hin as [Hin|[Hin|[]]]; [|congruence].
    rewrite (Ht _ _ Hin) in L. discriminate.
  - apply Ht. destruct (lookup_tree t p); [exact Hin|].
    apply in_app_or in Hin. destruct Hin as [Hin|[Hin|[]]]; [exact Hin|].
    injection Hin as <- _. rewrite String.eqb_refl in E. discriminate.
Qed.

Definition rmk (k : string) (t : tree) : tree := filter (fun x => negb (String.eqb (fst x) k)) t.

Lemma lookup_rmk : forall t k q,
  lookup_tree (rmk k t) q =
  if String.eqb q "/" then Some true else if String.eqb q k then None else lookup_tree t q.
Proof.
  intros t k q. rewrite !lookup_unfold. destruct (String.eqb q "/"); [reflexivity|].
  induction t as [|a t IH]; simpl.
  - destruct (String.eqb q k); reflexivity.
  - destruct (String.eqb (fst a) k) eqn:A; simpl.
    + rewrite IH. destruct (String.eqb q k) eqn:Q; [reflexivity|].
      unfold fkey at 2. apply String.eqb_eq in A. rewrite A, String.eqb_sym, Q. reflexivity.
    + unfold fkey at 1 3. destruct (String.eqb (fst a) q) eqn:B.
      * apply String.eqb_eq in B. subst q. rewrite A. reflexivity.
      * exact IH.
Qed.

Lemma inv_rmk : forall t k, Inv t -> Inv (rmk k t).
Proof.
  intros t k Ht q b Hin. apply filter_In in Hin. destruct Hin as [Hin Hk].
  simpl in Hk. apply negb_true_iff in Hk. specialize (Ht _ _ Hin).
  rewrite lookup_rmk, Hk. destruct (String.eqb q "/") eqn:Q; [|exact Ht].
  rewrite lookup_unfold, Q in Ht. exact Ht.
Qed.

Lemma delete_cases : forall t k, local_delete t k = t \/ local_delete t k = rmk k t.
Proof.
  intros t k. unfold local_delete, rmk. destruct (is_multipart k); [auto|].
  destruct (lookup_tree t k) as [[|]|]; auto. destruct (has_child t k || String.eqb k "/"); auto.
Qed.

Lemma inv_delete : forall t k, Inv t -> Inv (local_delete t k).
Proof. intros t k H. destruct (delete_cases t k) as [E|E]; rewrite E; auto using inv_rmk. Qed.

Lemma delete_lookup : forall t k q,
  lookup_tree (local_delete t k) q = lookup_tree t q \/ lookup_tree (local_delete t k) q = None.
Proof.
  intros t k q. destruct (delete_cases t k) as [E|E]; rewrite E; [auto|].
  rewrite lookup_rmk, lookup_unfold. destruct (String.eqb q "/"); [auto|].
  destruct (String.eqb q k); auto.
Qed.

(* MkdirAll: the directories l, nearest the root first *)
Definition mkdirs (l : list string) (t : tree) : tree := fold_left (fun acc a => add_entry acc a true) l t.

Lemma lookup_mkdirs : forall l t q, (forall a, In a l -> a <> "/"%string) ->
  lookup_tree (mkdirs l t) q =
  match lookup_tree t q with Some x => Some x | None => if existsb (String.eqb q) l then Some true else None end.
Proof.
  induction l as [|a l IH]; intros t q Hl; simpl.
  - destruct (lookup_tree t q); reflexivity.
  - unfold mkdirs in *. simpl. rewrite IH by (intros; apply Hl; right; auto).
    rewrite lookup_add by (apply Hl; left; reflexivity).
    destruct (String.eqb q a) eqn:E; simpl.
    + apply String.eqb_eq in E. subst q. destruct (lookup_tree t a); reflexivity.
    + reflexivity.
Qed.

Lemma inv_mkdirs : forall l t, (forall a, In a l -> a <> "/"%string) -> Inv t -> Inv (mkdirs l t).
Proof.
  induction l as [|a l IH]; intros t Hl Ht; [exact Ht|].
  unfold mkdirs in *. simpl. apply IH; [intros; apply Hl; right; auto|].
  apply inv_add; [exact Ht|apply Hl; left; reflexivity].
Qed.

Lemma ancestors_from_spec : forall l pre a, In a (ancestors_from pre l) ->
  exists l1 l2, l = l1 ++ l2 /\ l1 <> [] /\ l2 <> [] /\ a = abs (pre ++ l1).
Proof.
  induction l as [|x l IH]; intros pre a H; simpl in H; [contradiction|].
  destruct l as [|y l]; [contradiction|].
  destruct H as [H|H].
  - exists [x], (y :: l). repeat split; try discriminate. auto.
  - apply IH in H. destruct H as [l1 [l2 [E [N1 [N2 Ea]]]]].
    exists (x :: l1), l2. rewrite <- app_assoc in Ea. simpl in Ea. repeat split; auto; try discriminate.
    simpl. rewrite E. reflexivity.
Qed.

Lemma abs_not_root : forall l, l <> [] -> forallb plain l = true -> abs l <> "/"%string.
Proof.
  intros l Hl Hp. destruct l as [|x l]; [contradiction|]. intro E.
  simpl in Hp. apply andb_true_iff in Hp. destruct Hp as [Hx _].
  destruct (plain_facts x Hx) as [Hn _].
  unfold abs in E. simpl in E. destruct x; [discriminate|]. simpl in E. discriminate.
Qed.

Lemma ancestors_abs : forall l a, forallb plain l = true -> In a (ancestors (abs l)) ->
  a <> "/"%string /\ a <> abs l.
Proof.
  intros l a Hp H. unfold ancestors in H. destruct (segs_abs l Hp) as [S _]. rewrite S in H.
  apply ancestors_from_spec in H. destruct H as [l1 [l2 [E [N1 [N2 Ea]]]]]. simpl in Ea. subst a.
  rewrite E in Hp. rewrite forallb_app in Hp. apply andb_true_iff in Hp. destruct Hp as [P1 P2].
  split; [apply abs_not_root; auto|].
  intro H. apply abs_inj in H; [|auto|rewrite E, forallb_app, P1, P2; reflexivity].
  rewrite E in H. rewrite <- (app_nil_r l1) in H at 1. apply app_inv_head in H. subst l2. contradiction.
Qed.

(* CreateEntry of a file at k cannot fail: no file among its ancestors (ENOTDIR), no
   directory at k (EISDIR) *)
Definition can_create (t : tree) (k : string) : Prop :=
  ancestor_is_file t k = false /\ lookup_tree t k <> Some true.

Lemma ancestor_is_file_false : forall t k,
  ancestor_is_file t k = false <-> (forall a, In a (ancestors k) -> lookup_tree t a <> Some false).
Proof.
  intros t k. unfold ancestor_is_file. split.
  - intros H a Ha E. assert (X : existsb (fun a => match lookup_tree t a with Some false => true | _ => false end) (ancestors k) = true).
    { apply existsb_exists. exists a. split; auto. rewrite E. reflexivity. }
    congruence.
  - intro H. apply not_true_is_false. intro X. apply existsb_exists in X. destruct X as [a [Ha E]].
    specialize (H a Ha). destruct (lookup_tree t a) as [[|]|]; try discriminate. apply H. reflexivity.
Qed.

Lemma can_create_delete : forall t k k', can_create t k' -> can_create (local_delete t k) k'.
Proof.
  intros t k k' [A L]. split.
  - apply ancestor_is_file_false. intros a Ha. rewrite ancestor_is_file_false in A. specialize (A a Ha).
    destruct (delete_lookup t k a) as [E|E]; rewrite E; [auto|discriminate].
  - destruct (delete_lookup t k k') as [E|E]; rewrite E; [auto|discriminate].
Qed.

(* the files of the backup tree t are exactly the reference file set fs *)
Definition Rel (t : tree) (fs : list string) : Prop :=
  Inv t /\ forall p, lookup_tree t p = Some false <-> In p fs.

Lemma in_remove_str : forall k fs p, In p (remove_str k fs) <-> In p fs /\ p <> k.
Proof.
  intros k fs p. unfold remove_str. rewrite filter_In. split; intros [H1 H2]; split; auto.
  - apply negb_true_iff in H2. apply String.eqb_neq in H2. exact H2.
  - apply negb_true_iff. apply String.eqb_neq. exact H2.
Qed.

(* os.Remove at a key: the file set loses the key (a directory at the key is no file) *)
Lemma rel_delete : forall t fs k, Rel t fs -> is_multipart k = false ->
  Rel (local_delete t k) (remove_str k fs).
Proof.
  intros t fs k [Hi Hf] Hm. split; [apply inv_delete; exact Hi|]. intro p. rewrite in_remove_str, <- Hf.
  assert (T : lookup_tree t k <> Some false ->
              (lookup_tree t p = Some false <-> lookup_tree t p = Some false /\ p <> k)).
  { intros Hk. split; [intro H; split; [exact H|intros ->; contradiction]|tauto]. }
  assert (R : lookup_tree (rmk k t) p = Some false <-> lookup_tree t p = Some false /\ p <> k).
  { rewrite lookup_rmk, (lookup_unfold t p).
    destruct (String.eqb p "/"); [split; [discriminate|intros [H _]; discriminate]|].
    destruct (String.eqb_spec p k); [split; [discriminate|intros [_ H]; contradiction]|tauto]. }
  unfold local_delete. rewrite Hm. fold (rmk k t).
  destruct (lookup_tree t k) as [[|]|] eqn:L; [|exact R|apply T; discriminate].
  destruct (has_child t k || String.eqb k "/"); [apply T; discriminate|exact R].
Qed.

Definition add_str (k : string) (fs : list string) : list string :=
  if existsb (String.eqb k) fs then fs else fs ++ [k].

Lemma in_add_str : forall k fs p, In p (add_str k fs) <-> In p fs \/ p = k.
Proof.
  intros k fs p. unfold add_str. destruct (existsb (String.eqb k) fs) eqn:E.
  - apply existsb_exists in E. destruct E as [x [Hx E]]. apply String.eqb_eq in E. subst x.
    split; [auto|]. intros [H|H]; [auto|subst; auto].
  - rewrite in_app_iff. simpl. split; intros [H|H]; auto. destruct H as [H|[]]; auto.
Qed.

(* creating a file (MkdirAll of its directory first): the file set gains the path, and
   the path can be created again *)
Lemma rel_create_file : forall t fs l e, Rel t fs -> forallb plain l = true -> l <> [] ->
  is_multipart (abs l) = false -> e_isdir e = false -> can_create t (abs l) ->
  Rel (fst (local_create t (abs l) e)) (add_str (abs l) fs) /\
  can_create (fst (local_create t (abs l) e)) (abs l).
Proof.
  intros t fs l e [Ht Hf] Hp Hl Hm Hd [HA HL]. set (r := local_create t (abs l) e).
  assert (Hanc : forall a, In a (ancestors (abs l)) -> a <> "/"%string) by (intros a Ha; apply (ancestors_abs l a Hp Ha)).
  assert (Hroot : abs l <> "/"%string) by (apply abs_not_root; auto).
  assert (Main : Inv (fst r) /\
    (forall q, lookup_tree (fst r) q = Some false <-> (lookup_tree t q = Some false \/ q = abs l))).
  { unfold r, local_create. rewrite Hd, Hm, HA. simpl.
    destruct (lookup_tree t (abs l)) as [[|]|] eqn:L; simpl.
    - contradiction HL; reflexivity.
    - split; [exact Ht|]. intro q. split; [auto|]. intros [H|H]; [auto|subst; auto].
    - fold (mkdirs (ancestors (abs l)) t). split.
      + apply inv_add; [apply inv_mkdirs; auto|auto].
      + intro q. rewrite lookup_add by auto. rewrite !lookup_mkdirs by auto. rewrite L.
        assert (NI : existsb (String.eqb (abs l)) (ancestors (abs l)) = false).
        { apply not_true_is_false. intro X. apply existsb_exists in X. destruct X as [a [Ha E]].
          apply String.eqb_eq in E. subst a. apply (ancestors_abs l _ Hp Ha). reflexivity. }
        rewrite NI. destruct (String.eqb q (abs l)) eqn:E.
        * apply String.eqb_eq in E. split; auto.
        * apply String.eqb_neq in E. destruct (lookup_tree t q) as [[|]|].
          -- split; [discriminate|]. intros [H|H]; [discriminate|contradiction].
          -- split; auto.
          -- destruct (existsb (String.eqb q) (ancestors (abs l))); split; try discriminate;
             intros [H|H]; try discriminate; contradiction. }
  destruct Main as [M2 M3]. split; [split; [exact M2 | intro p; rewrite M3, in_add_str, Hf; tauto]|]. split.
  - apply ancestor_is_file_false. intros a Ha E. apply M3 in E. destruct E as [E|E].
    + rewrite ancestor_is_file_false in HA. exact (HA a Ha E).
    + apply (ancestors_abs l a Hp Ha). exact E.
  - assert (X : lookup_tree (fst r) (abs l) = Some false) by (apply M3; auto). rewrite X. discriminate.
Qed.

Lemma rel_ext : forall t fs fs', Rel t fs -> (forall p, In p fs <-> In p fs') -> Rel t fs'.
Proof. intros t fs fs' [Hi Hf] H. split; [exact Hi|]. intro p. rewrite Hf. apply H. Qed.

Lemma create_dir : forall t k e, e_isdir e = true -> local_create t k e = (t, false).
Proof. intros t k e H. unfold local_create. rewrite H. reflexivity. Qed.

Lemma mapped_key : forall c k, wf_config c = true -> forallb plain k = true -> inside c k = true ->
  exists l, map_path c k = abs l /\ forallb plain l = true /\ l <> [].
Proof.
  intros c k Hc Pk Hi. destruct (wf_config_inv c Hc) as [s [t Hcs]]. pose proof Hcs as [_ Pt Es _ _ _ _].
  unfold inside in Hi. rewrite Es in Hi. apply andb_true_iff in Hi. destruct Hi as [L Hl].
  destruct (lprefix_plain_inv _ _ L Pk) as [r [Hr Pr]]. subst k.
  exists (t ++ r). rewrite (map_path_app c s t r Hcs), forallb_app, Pt, Pr. repeat split.
  apply Nat.ltb_lt in Hl. rewrite app_length in Hl. destruct r; [simpl in Hl; lia|].
  intro E. apply app_eq_nil in E. destruct E; discriminate.
Qed.

Lemma kind_clash_file : forall t k, kind_clash t k false = false -> lookup_tree t k <> Some true.
Proof. intros t k H E. unfold kind_clash in H. rewrite E in H. discriminate. Qed.

Lemma spec_step_unfold : forall c fs ev,
  spec_files_step c fs ev =
  let fs1 := match ev_old ev with
             | Some o => if negb (e_isdir o) && inside c (segs (ev_dir ev) ++ [e_name o])
                         then remove_str (map_path c (segs (ev_dir ev) ++ [e_name o])) fs else fs
             | None => fs
             end in
  match ev_new ev with
  | Some n => if negb (e_isdir n) && inside c (segs (ev_new_parent ev) ++ [e_name n])
              then add_str (map_path c (segs (ev_new_parent ev) ++ [e_name n])) fs1 else fs1
  | None => fs1
  end.
Proof. reflexivity. Qed.

Lemma exec_do_delete : forall t k a b,
  fst (exec_plan _ local_do t (Do (Delete k a b))) = local_delete t k.
Proof. reflexivity. Qed.

Lemma exec_do_create : forall t k e,
  fst (exec_plan _ local_do t (Do (Create k e))) = fst (local_create t k e).
Proof. intros t k e. unfold exec_plan, local_do. destruct (local_create t k e). reflexivity. Qed.

Lemma exec_update_delete_create : forall t key np n dc isdir k' e',
  fst (exec_plan _ local_do t (UpdateOr (Update key np n dc) (Delete key isdir false) (Create k' e'))) =
  if fst (snd (local_do t (Update key np n dc))) then fst (local_do t (Update key np n dc))
  else fst (local_create (local_delete (fst (local_do t (Update key np n dc))) key) k' e').
Proof.
  intros t key np n dc isdir k' e'. unfold exec_plan.
  destruct (local_do t (Update key np n dc)) as [t1 [f e]]. simpl.
  destruct f; [reflexivity|].
  destruct (local_create (local_delete t1 key) k' e'). reflexivity.
Qed.

(* DeleteEntry for an entry of kind [isdir] when the tree has no entry of the other kind at k:
   the file set loses k iff the event is about a file *)
Lemma rel_delete_kind : forall t fs k isdir, Rel t fs -> is_multipart k = false -> kind_clash t k isdir = false ->
  Rel (local_delete t k) (if negb isdir then remove_str k fs else fs).
Proof.
  intros t fs k isdir HR Hm Hk. pose proof (rel_delete t fs k HR Hm) as R. destruct isdir; simpl; [|exact R].
  apply (rel_ext _ _ _ R). intro p. rewrite in_remove_str. split; [tauto|]. intro H. split; [exact H|].
  intros ->. apply HR in H. unfold kind_clash in Hk. rewrite H in Hk. discriminate.
Qed.

(* the clause of [local_step_clash] about a new entry, in the shape [simpl] leaves it
   (d is e_isdir of the entry) *)
Lemma clash_can_create : forall t k (d : bool),
  negb d && (is_multipart k || ancestor_is_file t k || kind_clash t k false) = false ->
  d = false -> is_multipart k = false /\ can_create t k.
Proof.
  intros t k d H ->. simpl in H. apply orb_false_iff in H. destruct H as [H K].
  apply orb_false_iff in H. destruct H as [M A]. repeat split; auto using kind_clash_file.
Qed.

Lemma rel_create_kind : forall c t fs k e, wf_config c = true -> forallb plain k = true -> inside c k = true ->
  Rel t fs -> (e_isdir e = false -> is_multipart (map_path c k) = false /\ can_create t (map_path c k)) ->
  Rel (fst (local_create t (map_path c k) e)) (if negb (e_isdir e) then add_str (map_path c k) fs else fs).
Proof.
  intros c t fs k e Hc Pk Hi HR Hcl. destruct (e_isdir e) eqn:D; simpl.
  - rewrite create_dir by auto. exact HR.
  - destruct (Hcl eq_refl) as [M CC]. destruct (mapped_key c k Hc Pk Hi) as [l [El [Pl Nl]]]. rewrite El in *.
    apply (rel_create_file t fs l e HR Pl Nl M D CC).
Qed.

Theorem local_step : forall c t fs ev,
  wf_config c = true -> wf_event ev = true -> incremental c = false -> root_move c ev = false ->
  local_step_clash c t ev = false -> Rel t fs ->
  Rel (fst (exec_plan _ local_do t (sync_process c ev))) (spec_files_step c fs ev).
Proof.
  intros c t fs ev Hc He Hi Hroot Hcl HR.
  rewrite (sync_mirror_all c ev Hc He Hi Hroot), spec_step_unfold. clear Hroot.
  unfold mirror_spec, local_step_clash in *.
  destruct (ev_old ev) as [o|] eqn:Eo; destruct (ev_new ev) as [n|] eqn:En; cbv zeta.
  - (* both entries *)
    pose proof (wf_old_key ev o He Eo) as Pok. pose proof (wf_new_key ev n He En) as Pnk.
    apply orb_false_iff in Hcl. destruct Hcl as [Hcl Hkind]. apply orb_false_iff in Hcl. destruct Hcl as [Co Cn].
    apply negb_false_iff in Hkind. apply eqb_prop in Hkind.
    set (ok := segs (ev_dir ev) ++ [e_name o]) in *. set (nk := segs (ev_new_parent ev) ++ [e_name n]) in *.
    destruct (inside c ok) eqn:Iok; destruct (inside c nk) eqn:Ink; simpl in Co, Cn; rewrite ?andb_true_r, ?andb_false_r.
    + (* inside -> inside *)
      apply orb_false_iff in Co. destruct Co as [Mo Ko]. pose proof (clash_can_create _ _ _ Cn) as CCn.
      assert (J : join [map_path c (segs (ev_new_parent ev)); e_name n] = map_path c nk)
        by (apply join_mapped; assumption).
      rewrite exec_update_delete_create.
      destruct (String.eqb (map_path c nk) (map_path c ok)) eqn:E.
      * (* the entry stays where it is *)
        apply String.eqb_eq in E.
        rewrite (local_update_in_place t (map_path c ok) _ n _ Mo) by congruence. simpl.
        rewrite E in *.
        destruct (e_isdir n) eqn:Dn; simpl.
        -- rewrite Hkind in *. simpl. rewrite create_dir by auto. simpl.
           destruct (local_exists t (map_path c ok)); [exact HR|].
           rewrite create_dir by auto. simpl. exact (rel_delete_kind t fs _ true HR Mo Ko).
        -- rewrite Hkind in *. simpl. destruct (CCn eq_refl) as [_ CC].
           destruct (mapped_key c ok Hc Pok Iok) as [l [El [Pl Nl]]]. rewrite El in *.
           destruct (rel_create_file t fs l n HR Pl Nl Mo Dn CC) as [R1' C1'].
           assert (Ext : forall q, In q (add_str (abs l) fs) <-> In q (add_str (abs l) (remove_str (abs l) fs))).
           { intro q. rewrite !in_add_str, in_remove_str. destruct (string_dec q (abs l)); tauto. }
           destruct (local_exists t (abs l)).
           ++ apply (rel_ext _ _ _ R1' Ext).
           ++ assert (R2' : Rel (local_delete (fst (local_create t (abs l) n)) (abs l)) (remove_str (abs l) (add_str (abs l) fs))).
              { apply rel_delete; auto. }
              destruct (rel_create_file _ _ l n R2' Pl Nl Mo Dn (can_create_delete _ _ _ C1')) as [R3' _].
              apply (rel_ext _ _ _ R3'). intro q. rewrite !in_add_str, !in_remove_str, in_add_str.
              destruct (string_dec q (abs l)); tauto.
      * (* the entry moves *)
        assert (U : local_do t (Update (map_path c ok) (map_path c (segs (ev_new_parent ev))) n (ev_delete_chunks ev))
                    = (t, (false, false))).
        { unfold local_do. rewrite Mo, J, E. reflexivity. }
        rewrite U. simpl.
        apply (rel_create_kind c _ _ nk n Hc Pnk Ink (rel_delete_kind t fs _ (e_isdir o) HR Mo Ko)).
        intros Dn. destruct (CCn Dn) as [Mn CC]. split; [exact Mn | apply can_create_delete; exact CC].
    + (* inside -> outside *)
      apply orb_false_iff in Co. destruct Co as [Mo Ko]. rewrite exec_do_delete.
      apply (rel_delete_kind t fs (map_path c ok) (e_isdir o) HR Mo Ko).
    + (* outside -> inside *)
      rewrite exec_do_create. apply (rel_create_kind c t fs nk n Hc Pnk Ink HR (clash_can_create _ _ _ Cn)).
    + exact HR.
  - (* delete *)
    rewrite !orb_false_r in Hcl.
    destruct (inside c (segs (ev_dir ev) ++ [e_name o])) eqn:Iok; simpl in Hcl; rewrite ?andb_true_r, ?andb_false_r.
    + apply orb_false_iff in Hcl. destruct Hcl as [Mo Ko]. rewrite exec_do_delete.
      apply (rel_delete_kind t fs _ (e_isdir o) HR Mo Ko).
    + exact HR.
  - (* create *)
    rewrite orb_false_r in Hcl. simpl in Hcl.
    destruct (inside c (segs (ev_new_parent ev) ++ [e_name n])) eqn:Ink; simpl in Hcl; rewrite ?andb_true_r, ?andb_false_r.
    + rewrite exec_do_create.
      apply (rel_create_kind c t fs _ n Hc (wf_new_key ev n He En) Ink HR (clash_can_create _ _ _ Hcl)).
    + exact HR.
  - exact HR.
Qed.

(* a rename inside the watched subtree, on any tree: the mapped old path is removed and the
   mapped new path created *)
Theorem local_sync_move : forall c ev o n t,
  wf_config c = true -> wf_event ev = true -> incremental c = false ->
  touches_root c ev = false ->
  ev_old ev = Some o -> ev_new ev = Some n ->
  let ok := segs (ev_dir ev) ++ [e_name o] in
  let nk := segs (ev_new_parent ev) ++ [e_name n] in
  inside c ok = true -> inside c nk = true -> ok <> nk ->
  is_multipart (map_path c ok) = false ->
  fst (exec_plan _ local_do t (sync_process c ev)) =
  fst (local_create (local_delete t (map_path c ok)) (map_path c nk) n).
Proof.
  intros c ev o n t Hc He Hi Hroot Ho Hn ok nk Iok Ink Hne Hm.
  rewrite (sync_mirror c ev Hc He Hi Hroot). unfold mirror_spec. rewrite Ho, Hn.
  fold ok. fold nk. rewrite Iok, Ink.
  assert (J : join [map_path c (segs (ev_new_parent ev)); e_name n] = map_path c nk)
    by (apply join_mapped; [exact Hc | exact (wf_new_key ev n He Hn) | exact Ink]).
  rewrite local_move; [|exact Hm|].
  - unfold local_do. destruct (local_create _ _ n). reflexivity.
  - rewrite J. intro E. apply Hne. symmetry.
    apply (map_path_inj c); auto; [exact (wf_new_key ev n He Hn) | exact (wf_old_key ev o He Ho)].
Qed.

Lemma files_lookup : forall t p, Inv t -> (In p (files_of t) <-> lookup_tree t p = Some false).
Proof.
  intros t p Ht. unfold files_of. rewrite in_map_iff. split.
  - intros [[q b] [E Hin]]. apply filter_In in Hin. destruct Hin as [Hin Hb]. simpl in E, Hb. subst q.
    destruct b; [discriminate|]. apply Ht. exact Hin.
  - intro H. rewrite lookup_unfold in H. destruct (String.eqb p "/"); [discriminate|].
    destruct (find (fkey p) t) as [[q b]|] eqn:F; [|discriminate].
    apply find_some in F. destruct F as [Hin E]. apply String.eqb_eq in E. simpl in E, H. subst q.
    injection H as ->. exists (p, false). split; [reflexivity|]. apply filter_In. auto.
Qed.

Lemma rel_nil : Rel [] [].
Proof.
  split; [intros p b []|].
  intro p. rewrite lookup_unfold. simpl. destruct (String.eqb p "/"); split; try discriminate; contradiction.
Qed.

Lemma run_local_cons : forall c t ev evs,
  fst (run_local c t (ev :: evs)) = fst (run_local c (fst (exec_plan _ local_do t (sync_process c ev))) evs).
Proof.
  intros c t ev evs. simpl. destruct (exec_plan _ local_do t (sync_process c ev)) as [t1 err]. simpl.
  destruct (run_local c t1 evs). reflexivity.
Qed.

Theorem local_mirror_gen : forall c evs t fs,
  wf_config c = true -> forallb wf_event evs = true -> incremental c = false ->
  forallb (fun ev => negb (root_move c ev)) evs = true ->
  local_clash c t evs = false -> Rel t fs ->
  Rel (fst (run_local c t evs)) (fold_left (spec_files_step c) evs fs).
Proof.
  intros c evs. induction evs as [|ev evs IH]; intros t fs Hc He Hi Hr Hcl HR; [exact HR|].
  simpl in He, Hr, Hcl. apply andb_true_iff in He. destruct He as [He1 He2].
  apply andb_true_iff in Hr. destruct Hr as [Hr1 Hr2]. apply negb_true_iff in Hr1.
  apply orb_false_iff in Hcl. destruct Hcl as [Hc1 Hc2].
  rewrite run_local_cons. simpl fold_left. apply IH; auto.
  apply local_step; auto.
Qed.

(* PARTIAL: for histories without a clash the files of the backup directory are exactly
   the reference file set *)
Theorem local_mirror : forall c evs,
  wf_config c = true -> forallb wf_event evs = true -> incremental c = false ->
  forallb (fun ev => negb (root_move c ev)) evs = true ->
  local_clash c [] evs = false ->
  forall p, In p (files_of (fst (run_local c [] evs))) <-> In p (spec_files c evs).
Proof.
  intros c evs Hc He Hi Hr Hcl p.
  destruct (local_mirror_gen c evs [] [] Hc He Hi Hr Hcl rel_nil) as [I F].
  rewrite files_lookup by exact I. apply F.
Qed.

Local Open Scope string_scope.
Local Open Scope list_scope.
Definition w_clash_cfg : config :=
  {| src := "/data"; tgt := "/t"; incremental := false; sink_is_filer := false; target_sig := 0 |}.
Definition w_file (n : string) : entry := {| e_name := n; e_isdir := false; e_date := "2021-03-04"; e_data := [] |}.
Definition w_clash_evs : list event :=
  [ {| ev_dir := "/data"; ev_old := None; ev_new := Some (w_file "a"); ev_new_parent := "/data";
       ev_delete_chunks := false; ev_from_other := false; ev_sigs := [] |};
    {| ev_dir := "/data/a"; ev_old := None; ev_new := Some (w_file "f"); ev_new_parent := "/data/a";
       ev_delete_chunks := false; ev_from_other := false; ev_sigs := [] |} ].

(* the statement without the clash hypothesis fails: a file created below a file (ENOTDIR) is
   in the reference set but not in the backup *)
Definition local_mirror_full : Prop := forall c evs,
  wf_config c = true -> forallb wf_event evs = true -> incremental c = false ->
  forallb (fun ev => negb (root_move c ev)) evs = true ->
  forall p, In p (files_of (fst (run_local c [] evs))) <-> In p (spec_files c evs).

Theorem local_mirror_refuted : ~ local_mirror_full.
Proof.
  intro H. specialize (H w_clash_cfg w_clash_evs eq_refl eq_refl eq_refl eq_refl "/t/a/f"%string).
  vm_compute in H. destruct H as [_ H]. specialize (H (or_intror (or_introl eq_refl))).
  destruct H as [H|[]]. discriminate.
Qed.

(* non-vacuity: a history with creates below new directories, an in-place
   update, a rename, a directory delete after its file -- no clash, and the
   backup ends with exactly the reference files *)
Definition w_hist : list event :=
  let dirent n := {| e_name := n; e_isdir := true; e_date := "2021-03-04"; e_data := [] |} in
  let mk d o n p := {| ev_dir := d; ev_old := o; ev_new := n; ev_new_parent := p;
                       ev_delete_chunks := true; ev_from_other := false; ev_sigs := [] |} in
  [ mk "/" None (Some (dirent "data")) "/";
    mk "/data" None (Some (dirent "a")) "/data";
    mk "/data/a" None (Some (w_file "f")) "/data/a";
    mk "/data/a" (Some (w_file "f")) (Some (w_file "f")) "/data/a";
    mk "/data/a" (Some (w_file "f")) (Some (w_file "g")) "/data";
    mk "/data/a" None (Some (w_file "h")) "/data/a";
    mk "/data/a" (Some (w_file "h")) None "";
    mk "/data" (Some (dirent "a")) None "";
    mk "/data2" None (Some (w_file "x")) "/data2" ].

Example local_mirror_example :
  wf_config w_clash_cfg = true /\ forallb wf_event w_hist = true /\
  forallb (fun ev => negb (root_move w_clash_cfg ev)) w_hist = true /\
  local_clash w_clash_cfg [] w_hist = false /\
  fst (run_local w_clash_cfg [] w_hist) = [("/t"%string, true); ("/t/g"%string, false)] /\
  spec_files w_clash_cfg w_hist = ["/t/g"%string].
Proof. vm_compute. repeat split; reflexivity. Qed.

(* the statement of props/C36.v's c36_example (it needs all three Repl files) *)
Lemma c36_example_holds :
  let c := {| src := "/data/"; tgt := "/backup"; incremental := false; sink_is_filer := true; target_sig := 7%Z |} in
  let e := fun n => {| e_name := n; e_isdir := false; e_date := "2021-03-04"; e_data := [] |} in
  let mv := {| ev_dir := "/data/a"; ev_old := Some (e "x"); ev_new := Some (e "y"); ev_new_parent := "/data/b";
               ev_delete_chunks := true; ev_from_other := false; ev_sigs := [3%Z] |} in
  let sib := {| ev_dir := "/data2"; ev_old := None; ev_new := Some (e "x"); ev_new_parent := "/data2";
                ev_delete_chunks := false; ev_from_other := false; ev_sigs := [] |} in
  wf_config c = true /\ wf_event mv = true /\ touches_root c mv = false /\
  sync_process c mv = UpdateOr (Update "/backup/a/x" "/backup/b" (e "y") true)
                               (Delete "/backup/a/x" false false) (Create "/backup/b/y" (e "y")) /\
  wf_event w_rename_in = true /\ touches_root w_cfg w_rename_in = false /\
  sync_process w_cfg w_rename_in = Do (Create "/backup/x" (w_entry "x")) /\
  wf_event sib = true /\ all_outside c sib = true /\ sync_process c sib = Nothing /\
  replicate c (event_key sib) sib = Nothing /\
  files_of (fst (run_local w_lcfg [] [w_lcreate; w_lrename])) = ["/t/b"] /\
  spec_files w_lcfg [w_lcreate; w_lrename] = ["/t/b"].
Proof. vm_compute. repeat split; reflexivity. Qed.
