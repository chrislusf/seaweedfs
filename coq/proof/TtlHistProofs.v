(* Proofs about model/TtlHist.v (C09): over histories of uploads of one key, the
   lifetime counts from the LAST acknowledged upload. *)
From Coq Require Import List NArith ZArith Bool String Lia.
From Coq Require Import ZifyBool ZifyN.
From SW Require Import model.Ttl model.TtlHist proof.TtlProofs.
Import ListNotations.
Local Open Scope N_scope.

Arguments N.mul : simpl never.
Arguments N.add : simpl never.
Arguments read_ttl : simpl never.
Arguments ttl_string : simpl never.
Arguments write_needle : simpl never.
Arguments create_needle : simpl never.
Arguments read_visible : simpl never.
Arguments volume_expired : simpl never.

Lemma hrun_cons : forall vttl st o r,
  fst (hrun vttl st (o :: r)) = fst (hrun vttl (fst (hstep vttl st o)) r).
Proof.
  intros vttl st o r. simpl. destruct (hstep vttl st o) as [st1 res]. simpl.
  destruct (hrun vttl st1 r) as [st2 out]. reflexivity.
Qed.

(* isFileUnchanged answers false whenever the volume has a TTL: no upload is deduplicated there *)
Lemma ttl_volume_unchanged_false : forall vttl st cookie data,
  ttl_volume vttl = true -> is_file_unchanged vttl st cookie data = false.
Proof.
  intros vttl st cookie data H. unfold is_file_unchanged. unfold ttl_volume in H. rewrite H. reflexivity.
Qed.

Lemma ttl_volume_no_dedup : forall vttl l st, ttl_volume vttl = true -> dedup_trigger vttl st l = false.
Proof.
  intros vttl l. induction l as [|o r IH]; intros st H; simpl; [reflexivity|].
  rewrite IH by exact H. rewrite orb_false_r.
  destruct o; simpl; try reflexivity. apply ttl_volume_unchanged_false; exact H.
Qed.

Lemma hwant_step_rec : forall vttl st o, dedup_step vttl st o = false ->
  hwant_step vttl st (h_rec st) o = h_rec (fst (hstep vttl st o)).
Proof.
  intros vttl st o Hd. destruct o as [req ts cookie data parse_s append_ns|a s|now|now_s size limit];
    unfold hwant_step; simpl in *.
  - rewrite Hd. destruct (h_rec st) as [r|] eqn:Hr; simpl.
    + destruct (negb (hr_cookie r =? cookie)); simpl; [exact (eq_sym Hr)|reflexivity].
    + reflexivity.
  - reflexivity.
  - reflexivity.
  - reflexivity.
Qed.

Lemma hist_want_partial : forall vttl l st, dedup_trigger vttl st l = false ->
  hwant vttl st (h_rec st) l = h_rec (fst (hrun vttl st l)).
Proof.
  intros vttl l. induction l as [|o r IH]; intros st H; [reflexivity|].
  simpl in H. apply orb_false_iff in H. destruct H as [H1 H2].
  rewrite hrun_cons. cbn [hwant]. rewrite (hwant_step_rec vttl st o H1). apply IH; exact H2.
Qed.

(* the window over histories: a read after any history returns what the last
   acknowledged upload promised *)
Lemma hist_window_partial : forall vttl l st now, dedup_trigger vttl st l = false ->
  hread now (fst (hrun vttl st l)) = hpromise now (hwant vttl st (h_rec st) l).
Proof. intros vttl l st now H. unfold hread. rewrite (hist_want_partial vttl l st H). reflexivity. Qed.

Lemma hist_window_ttl_volume : forall vttl l st now, ttl_volume vttl = true ->
  hread now (fst (hrun vttl st l)) = hpromise now (hwant vttl st (h_rec st) l).
Proof. intros vttl l st now H. apply hist_window_partial. apply ttl_volume_no_dedup; exact H. Qed.

(* refutation for volumes without TTL: a blob uploaded with ttl=1m, uploaded again with
   the same bytes two minutes later (acknowledged, unchanged): not readable 30 s later *)
Definition refute_hist : list hop :=
  [HUpload "1m" 0 7 1 0 0; HUpload "1m" 0 7 1 120 120000000000].
Lemma hist_window_refuted :
  exists vttl l st now, hread now (fst (hrun vttl st l)) <> hpromise now (hwant vttl st (h_rec st) l).
Proof.
  exists EmptyString, refute_hist, {| h_rec := None; h_stamp := 0 |}, 150000000000.
  vm_compute. discriminate.
Qed.
Lemma hist_window_refuted_in_trigger :
  dedup_trigger EmptyString {| h_rec := None; h_stamp := 0 |} refute_hist = true.
Proof. vm_compute. reflexivity. Qed.

Definition hquery (o : hop) : bool :=
  match o with HRead _ | HExpired _ _ _ => true | _ => false end.

Lemma hquery_keeps : forall vttl st o, hquery o = true -> fst (hstep vttl st o) = st.
Proof. intros vttl st o H. destruct o; simpl in *; try discriminate; reflexivity. Qed.

Lemma hrun_queries : forall vttl l st, forallb hquery l = true -> fst (hrun vttl st l) = st.
Proof.
  intros vttl l. induction l as [|o r IH]; intros st H; [reflexivity|].
  simpl in H. apply andb_true_iff in H. destruct H as [H1 H2].
  rewrite hrun_cons, (hquery_keeps vttl st o H1). apply IH; exact H2.
Qed.

Lemma hrun_app : forall vttl a b st, fst (hrun vttl st (a ++ b)) = fst (hrun vttl (fst (hrun vttl st a)) b).
Proof.
  intros vttl a. induction a as [|o r IH]; intros b st; [reflexivity|].
  rewrite <- app_comm_cons, !hrun_cons. apply IH.
Qed.

(* an upload into a TTL volume is either refused (cookie mismatch, nothing changes) or
   acknowledged with a NEW record carrying this upload's append clock, and the volume's
   stamp is raised to this upload's LastModified *)
Lemma ttl_volume_upload : forall vttl st req ts cookie data parse_s append_ns,
  ttl_volume vttl = true ->
  let o := HUpload req ts cookie data parse_s append_ns in
  (hstep vttl st o = (st, HRefused)) \/
  (snd (hstep vttl st o) = HAck false /\
   h_rec (fst (hstep vttl st o)) = Some (hstored vttl req ts cookie data parse_s append_ns) /\
   h_stamp (fst (hstep vttl st o)) = vol_stamp_after_write (h_stamp st) (last_modified (create_needle req ts parse_s))).
Proof.
  intros vttl st req ts cookie data parse_s append_ns H o. unfold o. simpl.
  rewrite (ttl_volume_unchanged_false vttl st cookie data H).
  destruct (h_rec st) as [r|].
  - destruct (negb (hr_cookie r =? cookie)); [left; reflexivity|right; simpl; auto].
  - right; simpl; auto.
Qed.

Lemma last_upload_state : forall vttl post st req ts cookie data parse_s append_ns u,
  ttl_volume vttl = true -> forallb hquery post = true ->
  let o := HUpload req ts cookie data parse_s append_ns in
  snd (hstep vttl st o) = HAck u ->
  let fin := fst (hrun vttl st (o :: post)) in
  h_rec fin = Some (hstored vttl req ts cookie data parse_s append_ns) /\
  h_stamp fin = vol_stamp_after_write (h_stamp st) (last_modified (create_needle req ts parse_s)).
Proof.
  intros vttl post st req ts cookie data parse_s append_ns u Hv Hq o Hack fin.
  unfold fin. rewrite hrun_cons, (hrun_queries vttl post _ Hq).
  destruct (ttl_volume_upload vttl st req ts cookie data parse_s append_ns Hv) as [Hr|[_ H]]; [|exact H].
  fold o in Hr. rewrite Hr in Hack. discriminate.
Qed.

(* The window counts from the last acknowledged upload: after any history [pre], an
   acknowledged upload into a TTL volume whose record has a TTL of m > 0 minutes, and
   any number of reads and expiry questions [post]: a read returns this upload's
   content exactly while now < this upload's append clock + m minutes, whatever was
   uploaded (same bytes, other bytes, other TTL) before *)
Lemma hist_last_upload_window : forall vttl pre post st req ts cookie data parse_s append_ns u now,
  ttl_volume vttl = true -> forallb hquery post = true ->
  let o := HUpload req ts cookie data parse_s append_ns in
  let n := write_needle vttl (create_needle req ts parse_s) append_ns in
  snd (hstep vttl (fst (hrun vttl st pre)) o) = HAck u ->
  expiring n = true ->
  (hread now (fst (hrun vttl st (pre ++ o :: post))) = Some data <->
   now < append_ns + minutes (n_ttl n) * 60000000000) /\
  (hread now (fst (hrun vttl st (pre ++ o :: post))) = None <->
   append_ns + minutes (n_ttl n) * 60000000000 <= now).
Proof.
  intros vttl pre post st req ts cookie data parse_s append_ns u now Hv Hq o n Hack He.
  rewrite hrun_app.
  destruct (last_upload_state vttl post _ req ts cookie data parse_s append_ns u Hv Hq Hack) as [Hrec _].
  unfold hread. fold o in Hrec. rewrite Hrec. unfold hpromise, hstored. cbn [hr_needle hr_data]. fold n.
  rewrite read_visible_spec, He.
  change (read_deadline n) with (append_ns + minutes (n_ttl n) * 60000000000).
  destruct (N.ltb_spec now (append_ns + minutes (n_ttl n) * 60000000000)); cbn [negb orb];
    split; split; intro; (discriminate || reflexivity || lia).
Qed.

(* The volume is not called expired before the volume's TTL (+1 minute) has passed since
   the last acknowledged upload's LastModified *)
Lemma hist_last_upload_volume_alive : forall vttl pre post st req ts cookie data parse_s append_ns u now_s size limit,
  ttl_volume vttl = true -> forallb hquery post = true ->
  let o := HUpload req ts cookie data parse_s append_ns in
  snd (hstep vttl (fst (hrun vttl st pre)) o) = HAck u ->
  volume_expired now_s (hvolume vttl (fst (hrun vttl st (pre ++ o :: post))) size limit) = true ->
  last_modified (create_needle req ts parse_s) + (minutes (read_ttl vttl) + 1) * 60 <= now_s.
Proof.
  intros vttl pre post st req ts cookie data parse_s append_ns u now_s size limit Hv Hq o Hack He.
  rewrite hrun_app in He.
  destruct (last_upload_state vttl post _ req ts cookie data parse_s append_ns u Hv Hq Hack) as [_ Hst].
  rewrite volume_expired_spec in He. apply andb_true_iff in He. destruct He as [_ He].
  unfold hvolume in He. cbn [v_last_mod v_ttl] in He. fold o in Hst. rewrite Hst in He.
  unfold vol_stamp_after_write in He.
  destruct (h_stamp (fst (hrun vttl st pre)) <? last_modified (create_needle req ts parse_s)) eqn:Hlt; lia.
Qed.

(* non-vacuity: upload, age by two hours, upload the same bytes again, read *)
Definition example_hist : list hop :=
  [HUpload "" 0 7 1 1000 1000000000000; HAge 1000000000000 1000; HRead 8300000000000].
Lemma hist_example :
  ttl_volume "1h" = true /\
  snd (hstep "1h" (fst (hrun "1h" {| h_rec := None; h_stamp := 0 |} example_hist))
         (HUpload "" 0 7 1 8200 8200000000000)) = HAck false /\
  expiring (write_needle "1h" (create_needle "" 0 8200) 8200000000000) = true /\
  hread 8300000000000 (fst (hrun "1h" {| h_rec := None; h_stamp := 0 |} example_hist)) = None /\
  hread 8300000000000 (fst (hrun "1h" {| h_rec := None; h_stamp := 0 |}
                              (example_hist ++ [HUpload "" 0 7 1 8200 8200000000000]))) = Some 1.
Proof. vm_compute. repeat split; reflexivity. Qed.
