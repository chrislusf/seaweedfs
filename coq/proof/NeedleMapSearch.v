(* C05 proofs: sort.Search, and the index-based array operations of CompactSection
   expressed as plain recursive list operations on sorted lists. *)
From Coq Require Import List NArith ZArith Bool Lia Sorted Arith.
From Coq Require Import ZifyBool ZifyN ZifyNat.
From SW Require Import proof.ListFacts model.NeedleMap proof.EcIndexProofs.
Import ListNotations.
Local Open Scope N_scope.

Definition monotone (f : nat -> bool) (n : nat) : Prop :=
  forall i j, (i <= j < n)%nat -> f i = true -> f j = true.

Lemma bsearch_spec : forall f n, monotone f n ->
  forall fuel i j, (i <= j <= n)%nat -> (j - i < fuel)%nat ->
  (forall k, (k < i)%nat -> f k = false) -> (forall k, (j <= k < n)%nat -> f k = true) ->
  (i <= bsearch fuel f i j <= j)%nat /\
  (forall k, (k < bsearch fuel f i j)%nat -> f k = false) /\
  (forall k, (bsearch fuel f i j <= k < n)%nat -> f k = true).
Proof.
  intros f n Hm. induction fuel as [|fuel IH]; intros i j Hij Hf Hlo Hhi; [lia|].
  cbn [bsearch]. destruct (Nat.ltb_spec i j) as [Hlt|Hge].
  - set (h := ((i + j) / 2)%nat).
    assert (Hh : (i <= h < j)%nat) by (unfold h; lia).
    destruct (f h) eqn:Fh; cbn [negb].
    + destruct (IH i h) as [A [B C]]; try lia; auto.
      { intros k Hk. destruct (Nat.eq_dec k h) as [->|Hne]; [assumption|].
        apply (Hm h k); [lia|assumption]. }
      repeat split; auto; lia.
    + destruct (IH (h + 1)%nat j) as [A [B C]]; try lia; auto.
      { intros k Hk. destruct (f k) eqn:Fk; [|reflexivity].
        assert (f h = true) by (apply (Hm k h); [lia|assumption]). congruence. }
      repeat split; auto; lia.
  - assert (i = j) by lia. subst. repeat split; auto; lia.
Qed.

Lemma sort_search_spec : forall f n, monotone f n ->
  (sort_search n f <= n)%nat /\
  (forall k, (k < sort_search n f)%nat -> f k = false) /\
  (forall k, (sort_search n f <= k < n)%nat -> f k = true).
Proof.
  intros f n Hm. unfold sort_search.
  assert (H1 : forall k, (k < 0)%nat -> f k = false) by (intros k Hk; lia).
  assert (H2 : forall k, (n <= k < n)%nat -> f k = true) by (intros k Hk; lia).
  destruct (bsearch_spec f n Hm (S n) 0%nat n ltac:(lia) ltac:(lia) H1 H2) as [A [B C]].
  repeat split; auto; lia.
Qed.

Definition sorted (l : list sval) : Prop := StronglySorted (fun a b => sk a < sk b) l.

Lemma sorted_nth_le : forall l i j, sorted l -> (i <= j < length l)%nat -> key_at l i <= key_at l j.
Proof.
  induction l as [|x l IH]; intros i j Hs Hij; simpl in Hij; [lia|].
  inversion Hs as [|? ? Hs' Hall]; subst. unfold key_at in *.
  destruct j; destruct i; simpl; try lia.
  - rewrite Forall_forall in Hall. apply N.lt_le_incl. apply Hall. apply nth_In. lia.
  - apply IH; auto. lia.
Qed.

(* number of leading elements with Key < k *)
Fixpoint lb_rec (l : list sval) (k : N) : nat :=
  match l with
  | [] => O
  | v :: r => if sk v <? k then S (lb_rec r k) else O
  end.

Lemma lb_rec_le : forall l k, (lb_rec l k <= length l)%nat.
Proof. induction l as [|v r IH]; intros k; simpl; [lia|]. destruct (sk v <? k); simpl; [specialize (IH k)|]; lia. Qed.
Lemma lb_rec_below : forall l k i, (i < lb_rec l k)%nat -> key_at l i < k.
Proof.
  induction l as [|v r IH]; intros k i H; simpl in H; [lia|].
  destruct (N.ltb_spec (sk v) k); [|lia]. unfold key_at in *. destruct i; simpl; [assumption|].
  apply IH. lia.
Qed.
Lemma lb_rec_at : forall l k, (lb_rec l k < length l)%nat -> k <= key_at l (lb_rec l k).
Proof.
  induction l as [|v r IH]; intros k H; simpl in H; [lia|]. simpl.
  destruct (N.ltb_spec (sk v) k); unfold key_at in *; simpl; [|assumption].
  apply IH. lia.
Qed.

Lemma lower_bound_rec : forall l k, sorted l -> lower_bound l k = lb_rec l k.
Proof.
  intros l k Hs. unfold lower_bound.
  assert (Hm : monotone (fun i => k <=? key_at l i) (length l)).
  { intros i j Hij Hi. apply N.leb_le in Hi. apply N.leb_le.
    eapply N.le_trans; [exact Hi|]. apply sorted_nth_le; assumption. }
  destruct (sort_search_spec _ _ Hm) as [A [B C]].
  set (c := sort_search (length l) (fun i => k <=? key_at l i)) in *.
  pose proof (lb_rec_le l k) as L.
  destruct (Nat.lt_trichotomy c (lb_rec l k)) as [H|[H|H]]; [|assumption|].
  - pose proof (lb_rec_below l k c H) as H1.
    assert (H2 : (k <=? key_at l c) = true) by (apply C; lia).
    apply N.leb_le in H2. lia.
  - assert (H1 : (k <=? key_at l (lb_rec l k)) = false) by (apply B; lia).
    apply N.leb_gt in H1. pose proof (lb_rec_at l k). lia.
Qed.

Fixpoint l_find (l : list sval) (k : N) : option sval :=
  match l with
  | [] => None
  | v :: r => if sk v =? k then Some v else l_find r k
  end.
(* replace the element whose Key is [sk v] *)
Fixpoint l_replace (l : list sval) (v : sval) : list sval :=
  match l with
  | [] => []
  | x :: r => if sk x =? sk v then v :: r else x :: l_replace r v
  end.
(* insert before the first element whose Key is >= [sk v] *)
Fixpoint l_insert (l : list sval) (v : sval) : list sval :=
  match l with
  | [] => [v]
  | x :: r => if sk x <? sk v then x :: l_insert r v else v :: l
  end.

(* store [v] under its key: over the element that has the key, or in order *)
Definition l_upd (l : list sval) (v : sval) : list sval :=
  match l_find l (sk v) with Some _ => l_replace l v | None => l_insert l v end.

Lemma l_find_some : forall l k v, l_find l k = Some v -> In v l /\ sk v = k.
Proof.
  induction l as [|x r IH]; intros k v H; simpl in H; [discriminate|].
  destruct (N.eqb_spec (sk x) k).
  - injection H as ->. split; [left; reflexivity|assumption].
  - destruct (IH k v H). split; [right|]; assumption.
Qed.
Lemma l_find_none : forall l k, l_find l k = None <-> (forall v, In v l -> sk v <> k).
Proof.
  induction l as [|x r IH]; intros k; simpl.
  - split; [intros _ v []|reflexivity].
  - destruct (N.eqb_spec (sk x) k) as [E|E].
    + split; [discriminate|]. intros H. exfalso. apply (H x); auto.
    + rewrite IH. split.
      * intros H v [<-|Hv]; auto.
      * intros H v Hv. apply H. right. assumption.
Qed.
Lemma l_find_in_sorted : forall l v, sorted l -> In v l -> l_find l (sk v) = Some v.
Proof.
  induction l as [|x r IH]; intros v Hs Hin; [destruct Hin|].
  inversion Hs as [|? ? Hs' Hall]; subst. simpl. destruct Hin as [->|Hin].
  - rewrite N.eqb_refl. reflexivity.
  - rewrite Forall_forall in Hall. specialize (Hall v Hin).
    destruct (N.eqb_spec (sk x) (sk v)); [lia|]. apply IH; assumption.
Qed.

Lemma sorted_tail_gt : forall x r k, sorted (x :: r) -> k <= sk x -> forall v, In v r -> k < sk v.
Proof.
  intros x r k Hs Hk v Hv. inversion Hs as [|? ? _ Hall]; subst.
  rewrite Forall_forall in Hall. specialize (Hall v Hv). lia.
Qed.

(* in a sorted list the key, if it is there at all, is at its lower bound *)
Definition at_lb (l : list sval) (k : N) : bool :=
  (lb_rec l k <? length l)%nat && (key_at l (lb_rec l k) =? k).

Lemma lb_rec_find : forall l k, sorted l ->
  l_find l k = (if at_lb l k then Some (nth (lb_rec l k) l dummy) else None) /\
  (forall v, sk v = k -> at_lb l k = true -> set_nth (lb_rec l k) v l = l_replace l v).
Proof.
  induction l as [|x r IH]; intros k Hs; [split; [reflexivity|discriminate]|].
  inversion Hs as [|? ? Hs' Hall]; subst. destruct (IH k Hs') as [IH1 IH2].
  unfold at_lb, key_at in *. cbn [lb_rec l_find length].
  destruct (N.ltb_spec (sk x) k) as [Hlt|Hge].
  - cbn [nth]. destruct (N.eqb_spec (sk x) k); [lia|].
    change (S (lb_rec r k) <? S (length r))%nat with (lb_rec r k <? length r)%nat.
    split; [exact IH1|]. intros v Hv Hat. unfold set_nth. cbn [firstn skipn app l_replace].
    destruct (N.eqb_spec (sk x) (sk v)); [lia|]. f_equal. apply (IH2 v Hv Hat).
  - cbn [nth Nat.ltb Nat.leb andb]. destruct (N.eqb_spec (sk x) k) as [E|E].
    + split; [reflexivity|]. intros v Hv _. unfold set_nth. cbn [firstn skipn app l_replace].
      rewrite E, Hv, N.eqb_refl. reflexivity.
    + split; [|discriminate]. apply l_find_none. intros y Hy.
      rewrite Forall_forall in Hall. specialize (Hall y Hy). lia.
Qed.

(* the test findOverflowEntry, setOverflowEntry and deleteOverflowEntry make *)
Lemma at_lb_alt : forall l k,
  negb (lb_rec l k =? length l)%nat && (key_at l (lb_rec l k) =? k) = at_lb l k.
Proof.
  intros l k. unfold at_lb. pose proof (lb_rec_le l k).
  destruct (Nat.eqb_spec (lb_rec l k) (length l)); destruct (Nat.ltb_spec (lb_rec l k) (length l)); try lia; reflexivity.
Qed.

(* binarySearchValues in list terms *)
Lemma bsv_at_lb : forall l k, sorted l -> bsv l k = if at_lb l k then Some (lb_rec l k) else None.
Proof.
  intros l k Hs. unfold bsv, at_lb. rewrite lower_bound_rec by assumption.
  pose proof (lb_rec_le l k). pose proof (lb_rec_at l k) as Hat.
  destruct (Nat.eqb_spec (lb_rec l k) (length l)); destruct (Nat.ltb_spec (lb_rec l k) (length l)); try lia;
    [reflexivity|]. specialize (Hat ltac:(assumption)). cbn [andb].
  destruct (N.ltb_spec k (key_at l (lb_rec l k))); destruct (N.eqb_spec (key_at l (lb_rec l k)) k);
    try reflexivity; lia.
Qed.

Lemma bsv_some : forall l k i, sorted l -> bsv l k = Some i ->
  (i < length l)%nat /\ sk (nth i l dummy) = k /\ l_find l k = Some (nth i l dummy) /\
  (forall v, sk v = k -> set_nth i v l = l_replace l v).
Proof.
  intros l k i Hs H. rewrite bsv_at_lb in H by assumption. destruct (lb_rec_find l k Hs) as [F R].
  destruct (at_lb l k) eqn:E; [|discriminate]. injection H as <-.
  pose proof E as E'. unfold at_lb in E'. apply andb_true_iff in E'. destruct E' as [E1 E2].
  apply Nat.ltb_lt in E1. apply N.eqb_eq in E2. auto.
Qed.

Lemma bsv_none : forall l k, sorted l -> bsv l k = None -> l_find l k = None.
Proof.
  intros l k Hs H. rewrite bsv_at_lb in H by assumption. destruct (lb_rec_find l k Hs) as [F _].
  destruct (at_lb l k); [discriminate|exact F].
Qed.

(* findOverflowEntry agrees with binarySearchValues on sorted lists *)
Lemma find_overflow_bsv : forall l k, sorted l ->
  find_overflow l k = match bsv l k with Some i => Some (i, nth i l dummy) | None => None end.
Proof.
  intros l k Hs. unfold find_overflow. rewrite bsv_at_lb, lower_bound_rec, at_lb_alt by assumption.
  destruct (at_lb l k); reflexivity.
Qed.

Lemma find_overflow_some : forall l k c o, sorted l -> find_overflow l k = Some (c, o) ->
  l_find l k = Some o /\ sk o = k /\ In o l /\ (forall v, sk v = k -> set_nth c v l = l_replace l v).
Proof.
  intros l k c o Hs H. rewrite find_overflow_bsv in H by assumption.
  destruct (bsv l k) as [i|] eqn:E; [|discriminate]. injection H as <- <-.
  destruct (bsv_some l k i Hs E) as [A [B [C D]]]. repeat split; auto. apply nth_In. assumption.
Qed.
Lemma find_overflow_none : forall l k, sorted l -> find_overflow l k = None -> l_find l k = None.
Proof.
  intros l k Hs H. rewrite find_overflow_bsv in H by assumption.
  destruct (bsv l k) as [i|] eqn:E; [discriminate|]. apply bsv_none; assumption.
Qed.

Lemma insert_at_rec : forall l v, insert_at (lb_rec l (sk v)) v l = l_insert l v.
Proof.
  induction l as [|x r IH]; intros v; [reflexivity|]. simpl.
  destruct (sk x <? sk v); [|reflexivity]. unfold insert_at in *. simpl. f_equal. apply IH.
Qed.

Lemma set_overflow_rec : forall l k off size, sorted l ->
  set_overflow l k off size = l_upd l (mk_sval k off size).
Proof.
  intros l k off size Hs. unfold set_overflow, l_upd. cbn [mk_sval sk].
  rewrite lower_bound_rec, at_lb_alt by assumption. destruct (lb_rec_find l k Hs) as [F R]. rewrite F.
  destruct (at_lb l k); [apply R; reflexivity|].
  change k with (sk (mk_sval k off size)) at 1. apply insert_at_rec.
Qed.

Lemma set_nth_same : forall {A} (l : list A) i d, (i < length l)%nat -> set_nth i (nth i l d) l = l.
Proof.
  intros A l. induction l as [|x r IH]; intros i d H; simpl in H; [lia|].
  unfold set_nth in *. destruct i; simpl; [reflexivity|]. f_equal. apply IH. lia.
Qed.

(* what Delete does to an entry: negate a live size *)
Definition neg_if_live (v : sval) : sval := if (0 <? ssz v)%Z then sv_set_size v (- ssz v)%Z else v.

Lemma delete_overflow_rec : forall l k, sorted l ->
  delete_overflow l k = match l_find l k with Some o => l_replace l (neg_if_live o) | None => l end.
Proof.
  intros l k Hs. unfold delete_overflow. rewrite lower_bound_rec, at_lb_alt by assumption.
  destruct (lb_rec_find l k Hs) as [F R]. rewrite F. destruct (at_lb l k) eqn:E; [|reflexivity].
  pose proof E as E'. unfold at_lb in E'. apply andb_true_iff in E'. destruct E' as [E1 E2].
  apply Nat.ltb_lt in E1. apply N.eqb_eq in E2. unfold key_at in E2.
  unfold neg_if_live. rewrite size_is_valid_pos. destruct (0 <? ssz (nth (lb_rec l k) l dummy))%Z.
  - apply R; [exact E2|reflexivity].
  - rewrite <- (R _ E2 eq_refl). symmetry. apply set_nth_same. assumption.
Qed.

Lemma l_find_replace : forall l v k, l_find l (sk v) <> None ->
  l_find (l_replace l v) k = if k =? sk v then Some v else l_find l k.
Proof.
  induction l as [|x r IH]; intros v k H; simpl in *; [congruence|].
  destruct (N.eqb_spec (sk x) (sk v)) as [E|E].
  - simpl. destruct (N.eqb_spec (sk v) k) as [E1|E1]; destruct (N.eqb_spec k (sk v)) as [E2|E2]; try congruence.
    destruct (N.eqb_spec (sk x) k); congruence.
  - simpl. destruct (N.eqb_spec (sk x) k) as [E1|E1].
    + destruct (N.eqb_spec k (sk v)); [congruence|reflexivity].
    + apply IH. assumption.
Qed.

Lemma l_find_insert : forall l v k, l_find l (sk v) = None ->
  l_find (l_insert l v) k = if k =? sk v then Some v else l_find l k.
Proof.
  induction l as [|x r IH]; intros v k H; simpl in *.
  - destruct (N.eqb_spec (sk v) k); destruct (N.eqb_spec k (sk v)); congruence.
  - destruct (N.eqb_spec (sk x) (sk v)) as [E|E]; [discriminate|].
    destruct (sk x <? sk v); simpl.
    + destruct (N.eqb_spec (sk x) k) as [E1|E1].
      * destruct (N.eqb_spec k (sk v)); [congruence|reflexivity].
      * apply IH. assumption.
    + destruct (N.eqb_spec (sk v) k) as [E1|E1]; destruct (N.eqb_spec k (sk v)) as [E2|E2]; congruence.
Qed.

Lemma l_replace_keys : forall l v, map sk (l_replace l v) = map sk l.
Proof.
  induction l as [|x r IH]; intros v; [reflexivity|]. simpl.
  destruct (N.eqb_spec (sk x) (sk v)); simpl; [congruence|]. f_equal. apply IH.
Qed.

Lemma sorted_of_keys : forall l l', map sk l' = map sk l -> sorted l -> sorted l'.
Proof. exact (sorted_by_keys sk sk). Qed.

Lemma l_replace_sorted : forall l v, sorted l -> sorted (l_replace l v).
Proof. intros. eapply sorted_of_keys; [apply l_replace_keys|assumption]. Qed.

Lemma l_replace_in : forall l v x, In x (l_replace l v) -> x = v \/ In x l.
Proof.
  induction l as [|y r IH]; intros v x H; simpl in H; [destruct H|].
  destruct (sk y =? sk v); simpl in H.
  - destruct H as [<-|H]; [left; reflexivity|right; right; assumption].
  - destruct H as [<-|H]; [right; left; reflexivity|]. destruct (IH v x H); [left|right; right]; assumption.
Qed.

Lemma l_insert_in : forall l v x, In x (l_insert l v) <-> x = v \/ In x l.
Proof.
  induction l as [|y r IH]; intros v x; simpl.
  - split; [intros [<-|[]]; left; reflexivity | intros [->|[]]; left; reflexivity].
  - destruct (sk y <? sk v); simpl.
    + rewrite IH. split; [intros [H|[H|H]]|intros [H|[H|H]]]; auto.
    + split; [intros [<-|H]|intros [->|H]]; auto.
Qed.

Lemma l_insert_sorted : forall l v, sorted l -> l_find l (sk v) = None -> sorted (l_insert l v).
Proof.
  induction l as [|x r IH]; intros v Hs Hn; simpl.
  - constructor; constructor.
  - simpl in Hn. destruct (N.eqb_spec (sk x) (sk v)) as [E|E]; [discriminate|].
    inversion Hs as [|? ? Hs' Hall]; subst.
    destruct (N.ltb_spec (sk x) (sk v)) as [Hlt|Hge].
    + constructor; [apply IH; assumption|].
      rewrite Forall_forall in *. intros y Hy. apply l_insert_in in Hy.
      destruct Hy as [->|Hy]; [assumption|apply Hall; assumption].
    + constructor; [assumption|].
      constructor; [lia|]. rewrite Forall_forall in *. intros y Hy. specialize (Hall y Hy). lia.
Qed.

Lemma l_insert_length : forall l v, length (l_insert l v) = S (length l).
Proof. induction l as [|x r IH]; intros v; simpl; [reflexivity|]. destruct (sk x <? sk v); simpl; [rewrite IH|]; reflexivity. Qed.
Lemma l_replace_length : forall l v, length (l_replace l v) = length l.
Proof. induction l as [|x r IH]; intros v; simpl; [reflexivity|]. destruct (sk x =? sk v); simpl; [|rewrite IH]; reflexivity. Qed.

Lemma l_find_upd : forall l v k, l_find (l_upd l v) k = if k =? sk v then Some v else l_find l k.
Proof.
  intros l v k. unfold l_upd. destruct (l_find l (sk v)) eqn:F.
  - apply l_find_replace. congruence.
  - apply l_find_insert. assumption.
Qed.
Lemma l_upd_in : forall l v x, In x (l_upd l v) -> x = v \/ In x l.
Proof. intros l v x. unfold l_upd. destruct (l_find l (sk v)); [apply l_replace_in|apply l_insert_in]. Qed.
Lemma l_upd_length : forall l v, (length l <= length (l_upd l v))%nat.
Proof. intros l v. unfold l_upd. destruct (l_find l (sk v)); rewrite ?l_replace_length, ?l_insert_length; lia. Qed.

(* the two ways Set grows [values] are both l_insert *)
Lemma l_insert_all_lt : forall l v, Forall (fun x => sk x < sk v) l -> l_insert l v = l ++ [v].
Proof.
  induction l as [|x r IH]; intros v H; [reflexivity|]. inversion H as [|? ? H1 H2]; subst. simpl.
  destruct (N.ltb_spec (sk x) (sk v)); [|lia]. f_equal. apply IH. assumption.
Qed.

Lemma l_insert_app_lt : forall a w v, Forall (fun x => sk x < sk v) a -> l_insert (a ++ w) v = a ++ l_insert w v.
Proof.
  induction a as [|x r IH]; intros w v H; [reflexivity|]. inversion H as [|? ? H1 H2]; subst. simpl.
  destruct (N.ltb_spec (sk x) (sk v)); [|lia]. f_equal. apply IH. assumption.
Qed.

Lemma l_insert_snoc_gt : forall a x v, sk v < sk x -> l_insert (a ++ [x]) v = l_insert a v ++ [x].
Proof.
  induction a as [|y r IH]; intros x v H; simpl.
  - destruct (N.ltb_spec (sk x) (sk v)); [lia|reflexivity].
  - destruct (sk y <? sk v); simpl; [f_equal; apply IH; assumption|reflexivity].
Qed.

Lemma sorted_app_l : forall a b, sorted (a ++ b) -> sorted a.
Proof.
  induction a as [|x a IH]; intros b H; [constructor|]. simpl in H.
  inversion H as [|? ? Hs Hall]; subst. constructor; [eapply IH; eauto|].
  rewrite Forall_forall in *. intros y Hy. apply Hall. apply in_or_app. left. assumption.
Qed.

Lemma sorted_snoc_lt : forall a x, sorted (a ++ [x]) -> Forall (fun y => sk y < sk x) a.
Proof.
  induction a as [|y a IH]; intros x H; [constructor|]. simpl in H.
  inversion H as [|? ? Hs Hall]; subst. constructor; [|apply IH; assumption].
  rewrite Forall_forall in Hall. apply Hall. apply in_or_app. right. left. reflexivity.
Qed.

Lemma ins_back_rev : forall w v, sorted w -> (forall x, In x w -> sk x <> sk v) ->
  rev (ins_back (rev w) v) = l_insert w v.
Proof.
  intros w v. induction w as [|x w IH] using rev_ind; intros Hs Hne; [reflexivity|].
  rewrite rev_app_distr. cbn [rev app ins_back].
  assert (Hx : sk x <> sk v) by (apply Hne; apply in_or_app; right; left; reflexivity).
  destruct (N.ltb_spec (sk v) (sk x)) as [Hlt|Hge].
  - cbn [rev]. rewrite IH.
    + symmetry. apply l_insert_snoc_gt. assumption.
    + eapply sorted_app_l; eauto.
    + intros y Hy. apply Hne. apply in_or_app. left. assumption.
  - cbn [rev]. rewrite rev_involutive.
    rewrite l_insert_all_lt.
    + rewrite <- app_assoc. reflexivity.
    + pose proof (sorted_snoc_lt w x Hs) as Hw. apply Forall_app. split.
      * rewrite Forall_forall in *. intros y Hy. specialize (Hw y Hy). lia.
      * constructor; [lia|constructor].
Qed.

Lemma sorted_firstn_lt : forall l lb v, sorted l -> (lb < length l)%nat -> key_at l lb < sk v ->
  Forall (fun x => sk x < sk v) (firstn lb l).
Proof.
  intros l lb v Hs Hlb Hk. rewrite Forall_forall. intros x Hx.
  apply (In_nth _ _ dummy) in Hx. destruct Hx as [i [Hi Hn]].
  rewrite firstn_length in Hi.
  rewrite nth_firstn_lt in Hn by lia.
  pose proof (sorted_nth_le l i lb Hs) as H. unfold key_at in *. rewrite Hn in H. lia.
Qed.

Lemma sorted_skipn : forall l c, sorted l -> sorted (skipn c l).
Proof.
  induction l as [|x l IH]; intros c Hs; destruct c; simpl; auto.
  inversion Hs; subst. apply IH. assumption.
Qed.

Lemma lookback_insert : forall l lb v, sorted l -> (lb < length l)%nat -> key_at l lb < sk v ->
  l_find l (sk v) = None ->
  firstn lb l ++ rev (ins_back (rev (skipn lb l)) v) = l_insert l v.
Proof.
  intros l lb v Hs Hlb Hk Hn.
  rewrite ins_back_rev.
  - rewrite <- (firstn_skipn lb l) at 3. symmetry. apply l_insert_app_lt.
    apply sorted_firstn_lt; assumption.
  - apply sorted_skipn. assumption.
  - intros x Hx. rewrite l_find_none in Hn. apply Hn.
    rewrite <- (firstn_skipn lb l). apply in_or_app. right. assumption.
Qed.

Lemma sorted_last_lt : forall l k, sorted l -> (0 < length l)%nat -> key_at l (length l - 1) < k ->
  Forall (fun x => sk x < k) l.
Proof.
  intros l k Hs Hl Hk. rewrite Forall_forall. intros x Hx.
  apply (In_nth _ _ dummy) in Hx. destruct Hx as [i [Hi Hn]].
  pose proof (sorted_nth_le l i (length l - 1) Hs) as H. unfold key_at in *. rewrite Hn in H. lia.
Qed.

(* counting the elements above a key (the look-back window argument) *)
Definition count_gt (l : list sval) (k : N) : nat := length (filter (fun v => k <? sk v) l).

Lemma count_gt_le : forall l k, (count_gt l k <= length l)%nat.
Proof. intros. unfold count_gt. apply filter_length_le. Qed.

Lemma count_gt_full : forall l k, count_gt l k = length l -> forall x, In x l -> k < sk x.
Proof.
  induction l as [|y r IH]; intros k H x Hx; [destruct Hx|].
  unfold count_gt in *. simpl in H. destruct (N.ltb_spec k (sk y)) as [Hy|Hy].
  - simpl in H. destruct Hx as [<-|Hx]; [assumption|]. apply IH; [lia|assumption].
  - pose proof (filter_length_le (fun v => k <? sk v) r). simpl in H. lia.
Qed.

Lemma count_gt_all : forall l k, (forall x, In x l -> k < sk x) -> count_gt l k = length l.
Proof.
  induction l as [|y r IH]; intros k H; [reflexivity|]. unfold count_gt in *. simpl.
  destruct (N.ltb_spec k (sk y)) as [Hy|Hy].
  - simpl. f_equal. apply IH. intros x Hx. apply H. right. assumption.
  - specialize (H y (or_introl eq_refl)). lia.
Qed.

Lemma count_gt_none : forall l k, Forall (fun x => sk x < k) l -> count_gt l k = 0%nat.
Proof.
  induction l as [|y r IH]; intros k H; [reflexivity|]. inversion H; subst. unfold count_gt in *. simpl.
  destruct (N.ltb_spec k (sk y)); [lia|]. apply IH. assumption.
Qed.

Lemma count_gt_keys : forall l l' k, map sk l = map sk l' -> count_gt l k = count_gt l' k.
Proof.
  induction l as [|y r IH]; intros l' k H; destruct l' as [|y' r']; simpl in H; try discriminate; [reflexivity|].
  injection H as H1 H2. unfold count_gt in *. simpl. rewrite H1.
  destruct (k <? sk y'); simpl; [f_equal|]; apply IH; assumption.
Qed.

Lemma count_gt_insert : forall l v k,
  count_gt (l_insert l v) k = (count_gt l k + (if (k <? sk v)%N then 1 else 0))%nat.
Proof.
  induction l as [|y r IH]; intros v k; unfold count_gt in *; simpl.
  - destruct (k <? sk v); reflexivity.
  - destruct (sk y <? sk v); simpl.
    + destruct (k <? sk y); simpl; rewrite IH; lia.
    + destruct (k <? sk v); destruct (k <? sk y); simpl; lia.
Qed.

(* in a sorted list the elements above k are a suffix: index i is above k exactly when the
   whole suffix from i on is counted *)
Lemma count_gt_iff : forall l i k, sorted l -> (i < length l)%nat ->
  (k < key_at l i <-> (length l - i <= count_gt l k)%nat).
Proof.
  induction l as [|x r IH]; intros i k Hs Hi; simpl in Hi; [lia|].
  inversion Hs as [|? ? Hs' Hall]; subst. rewrite Forall_forall in Hall.
  pose proof (count_gt_le r k) as Hle.
  assert (Ec : count_gt (x :: r) k = ((if (k <? sk x)%N then 1 else 0) + count_gt r k)%nat).
  { unfold count_gt. simpl. now destruct (k <? sk x). }
  rewrite Ec. cbn [length]. destruct (N.ltb_spec k (sk x)) as [Hx|Hx].
  - (* x is above k, so is everything after it *)
    rewrite (count_gt_all r k) by (intros y Hy; specialize (Hall y Hy); lia).
    split; [lia|intros _]. destruct i; [exact Hx|].
    assert (Hn : In (nth i r dummy) r) by (apply nth_In; lia).
    unfold key_at. simpl. specialize (Hall _ Hn). lia.
  - destruct i; [unfold key_at; simpl; lia|].
    change (key_at (x :: r) (S i)) with (key_at r i). rewrite (IH i k Hs' ltac:(lia)). lia.
Qed.
