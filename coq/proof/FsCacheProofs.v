(* C39: lookup laws of set/delete/move on the tree (get_set, get_delete, get_move_found) and on the flat
   map (the r_get lemmas); [agree t m] (all lookups equal) is kept by every step that is not a ghost move
   (step_agree); the 4-operation witness. *)
From Coq Require Import String List NArith Bool Arith Lia.
From SW Require Import proof.ListFacts model.FsCache.
Import ListNotations.
Local Open Scope string_scope.
Local Open Scope list_scope.

Lemma path_eqb_eq : forall a b, path_eqb a b = true <-> a = b.
Proof. exact (eqb_list_eq String.eqb String.eqb_eq). Qed.

Lemma path_eqb_refl : forall a, path_eqb a a = true.
Proof. intro a. apply path_eqb_eq. reflexivity. Qed.

Lemma path_eqb_neq : forall a b, path_eqb a b = false <-> a <> b.
Proof. exact (eqb_list_neq String.eqb String.eqb_eq). Qed.

Lemma is_prefix_iff : forall a b, is_prefix a b = true <-> exists r, b = a ++ r.
Proof.
  induction a as [|x a IH]; intros b; simpl.
  - split; [intros _; exists b; reflexivity | reflexivity].
  - destruct b as [|y b].
    + split; [discriminate | intros [r Hr]; discriminate].
    + rewrite andb_true_iff, String.eqb_eq, IH. split.
      * intros [E [r Hr]]. exists r. subst. reflexivity.
      * intros [r Hr]. inversion Hr; subst. split; [reflexivity | exists r; reflexivity].
Qed.

Lemma is_prefix_app : forall a r, is_prefix a (a ++ r) = true.
Proof. intros. apply is_prefix_iff. exists r. reflexivity. Qed.

Lemma is_prefix_split : forall a b, is_prefix a b = true -> b = a ++ skipn (length a) b.
Proof.
  intros a b H. apply is_prefix_iff in H. destruct H as [r Hr]. subst.
  rewrite skipn_app_length. reflexivity.
Qed.

Lemma find_remove_same : forall n k, find_child n (remove_child n k) = None.
Proof.
  intros n k. induction k as [|[m c] k IH]; simpl; auto.
  destruct (String.eqb n m) eqn:E; simpl; auto. rewrite E. auto.
Qed.

Lemma find_remove_other : forall n m k, String.eqb m n = false ->
  find_child m (remove_child n k) = find_child m k.
Proof.
  intros n m k Hne. induction k as [|[x c] k IH]; simpl; auto.
  destruct (String.eqb n x) eqn:E; simpl.
  - apply String.eqb_eq in E. subst x. rewrite Hne. auto.
  - destruct (String.eqb m x); auto.
Qed.

Lemma find_put_same : forall n c k, find_child n (put_child n c k) = Some c.
Proof. intros. unfold put_child. simpl. rewrite String.eqb_refl. reflexivity. Qed.

Lemma find_put_other : forall n m c k, String.eqb m n = false ->
  find_child m (put_child n c k) = find_child m k.
Proof. intros. unfold put_child. simpl. rewrite H. apply find_remove_other; auto. Qed.

(* get and has read the FsNode at a path through a function of its value, so that laws proved once for
   [look] hold for both (look_cons, look_remove_at) *)
Definition look {A} (g : option N -> A) (d : A) (t : tree) (p : path) : A :=
  match node_at t p with Some c => g (value c) | None => d end.

Lemma look_cons : forall {A} (g : option N -> A) d t n q,
  look g d t (n :: q) = match find_child n (children t) with Some c => look g d c q | None => d end.
Proof. intros. unfold look. simpl. destruct (find_child n (children t)); reflexivity. Qed.

Lemma get_nil : forall t, get t [] = value t.
Proof. reflexivity. Qed.

Lemma get_cons : forall t n q,
  get t (n :: q) = match find_child n (children t) with Some c => get c q | None => None end.
Proof. exact (look_cons (fun v => v) None). Qed.

Lemma get_empty : forall q, get empty_node q = None.
Proof. intros [|n q]; reflexivity. Qed.

Lemma get_child_or_empty : forall t n q, get (child_or_empty n t) q = get t (n :: q).
Proof.
  intros. rewrite get_cons. unfold child_or_empty.
  destruct (find_child n (children t)); auto using get_empty.
Qed.

Lemma node_at_app : forall p t r,
  node_at t (p ++ r) = match node_at t p with Some s => node_at s r | None => None end.
Proof.
  induction p as [|n p IH]; intros t r; simpl; auto.
  destruct (find_child n (children t)); auto.
Qed.

Lemma get_node_at : forall t p s r, node_at t p = Some s -> get s r = get t (p ++ r).
Proof. intros t p s r H. unfold get. rewrite node_at_app, H. reflexivity. Qed.

Lemma node_at_none_get : forall t p q, node_at t p = None -> is_prefix p q = true -> get t q = None.
Proof.
  intros t p q H Hp. rewrite (is_prefix_split _ _ Hp). unfold get. rewrite node_at_app, H. reflexivity.
Qed.

Lemma get_some_has : forall t p q v, get t q = Some v -> is_prefix p q = true -> has t p = true.
Proof.
  intros t p q v Hg Hp. unfold has. destruct (node_at t p) eqn:E; auto.
  rewrite (node_at_none_get _ _ _ E Hp) in Hg. discriminate.
Qed.

Lemma get_set : forall p t v q, get (set t p v) q = if path_eqb q p then Some v else get t q.
Proof.
  induction p as [|n p IH]; intros t v q; simpl.
  - destruct q as [|m q]; simpl; auto.
  - destruct q as [|m q]; [reflexivity|].
    rewrite !get_cons. cbn [children path_eqb].
    destruct (String.eqb m n) eqn:E; cbn [andb].
    + apply String.eqb_eq in E. subst m. rewrite find_put_same, IH.
      rewrite get_child_or_empty, get_cons. reflexivity.
    + rewrite find_put_other by auto. reflexivity.
Qed.

(* disconnecting the FsNode at p hides everything below p and nothing else *)
Lemma look_remove_at : forall {A} (g : option N -> A) d p t q, p <> [] ->
  look g d (remove_at t p) q = if is_prefix p q then d else look g d t q.
Proof.
  intros A g d. induction p as [|n p IH]; intros t q Hne; [contradiction|]. simpl.
  destruct (find_child n (children t)) as [c|] eqn:F.
  - destruct p as [|x p'].
    + destruct q as [|m q]; [reflexivity|].
      rewrite !look_cons. cbn [children is_prefix].
      destruct (String.eqb n m) eqn:E; cbn [andb].
      * apply String.eqb_eq in E. subst m. rewrite find_remove_same. reflexivity.
      * rewrite find_remove_other by (rewrite String.eqb_sym; auto). reflexivity.
    + destruct q as [|m q]; [reflexivity|].
      rewrite !look_cons. cbn [children is_prefix].
      destruct (String.eqb n m) eqn:E; cbn [andb].
      * apply String.eqb_eq in E. subst m. rewrite find_put_same, F.
        apply IH. discriminate.
      * rewrite find_put_other by (rewrite String.eqb_sym; auto). reflexivity.
  - destruct q as [|m q]; [reflexivity|]. cbn [is_prefix].
    destruct (String.eqb n m) eqn:E; cbn [andb]; auto.
    apply String.eqb_eq in E. subst m. rewrite look_cons, F.
    destruct (is_prefix p q); reflexivity.
Qed.

Lemma get_remove_at : forall p t q, p <> [] ->
  get (remove_at t p) q = if is_prefix p q then None else get t q.
Proof. exact (look_remove_at (fun v => v) None). Qed.

Lemma get_delete : forall p t q, get (delete t p) q = if is_prefix p q then None else get t q.
Proof.
  intros [|n p] t q.
  - simpl. apply (get_empty q).
  - apply get_remove_at. discriminate.
Qed.

Lemma get_graft : forall p t s q, p <> [] ->
  get (graft t p s) q = if is_prefix p q then get s (skipn (length p) q) else get t q.
Proof.
  induction p as [|n p IH]; intros t s q Hne; [contradiction|].
  destruct p as [|x p'].
  - cbn [graft]. destruct q as [|m q]; [reflexivity|].
    rewrite !get_cons. cbn [children is_prefix length skipn].
    destruct (String.eqb n m) eqn:E; cbn [andb].
    + apply String.eqb_eq in E. subst m. rewrite find_put_same. reflexivity.
    + rewrite find_put_other by (rewrite String.eqb_sym; auto). reflexivity.
  - change (graft t (n :: x :: p') s) with
      (Node (value t) (put_child n (graft (child_or_empty n t) (x :: p') s) (children t))).
    destruct q as [|m q]; [reflexivity|].
    rewrite !get_cons. cbn [children]. cbn [is_prefix length skipn].
    destruct (String.eqb n m) eqn:E; cbn [andb].
    + apply String.eqb_eq in E. subst m. rewrite find_put_same.
      rewrite IH by discriminate. rewrite get_child_or_empty, get_cons. reflexivity.
    + rewrite find_put_other by (rewrite String.eqb_sym; auto). reflexivity.
Qed.

Lemma get_move_found : forall t old new src q, old <> [] -> new <> [] ->
  node_at t old = Some src ->
  get (fst (move t old new)) q =
    if is_prefix new q then get t (old ++ skipn (length new) q)
    else if is_prefix old q then None else get t q.
Proof.
  intros t old new src q Ho Hn Hs. unfold move. rewrite Hs. simpl.
  rewrite get_graft by auto. rewrite get_remove_at by auto.
  rewrite (get_node_at _ _ _ _ Hs). reflexivity.
Qed.

Lemma move_missing : forall t old new, node_at t old = None -> move t old new = (t, false).
Proof. intros. unfold move. rewrite H. reflexivity. Qed.

Lemma r_get_set : forall m p v q, r_get (r_set m p v) q = if path_eqb q p then Some v else r_get m q.
Proof. reflexivity. Qed.

Lemma r_get_delete : forall m p q,
  r_get (r_delete m p) q = if is_prefix p q then None else r_get m q.
Proof.
  intros m p q. induction m as [|[k v] m IH]; simpl.
  - destruct (is_prefix p q); reflexivity.
  - destruct (is_prefix p k) eqn:Pk; simpl.
    + rewrite IH. destruct (path_eqb q k) eqn:E; auto.
      apply path_eqb_eq in E. subst k. rewrite Pk. reflexivity.
    + rewrite IH. destruct (path_eqb q k) eqn:E; auto.
      apply path_eqb_eq in E. subst k. rewrite Pk. reflexivity.
Qed.

Lemma r_get_app : forall a b q,
  r_get (a ++ b) q = match r_get a q with Some v => Some v | None => r_get b q end.
Proof.
  induction a as [|[k v] a IH]; intros b q; simpl; auto.
  destruct (path_eqb q k); auto.
Qed.

Lemma r_get_rekeyed : forall m old new q,
  r_get (map (rekey old new) (filter (fun e => is_prefix old (fst e)) m)) q =
    if is_prefix new q then r_get m (old ++ skipn (length new) q) else None.
Proof.
  intros m old new q.
  assert (Hc : forall k v m q, r_get ((k, v) :: m) q = if path_eqb q k then Some v else r_get m q)
    by reflexivity.
  assert (Hk : forall k v, rekey old new (k, v) = (new ++ skipn (length old) k, v)) by reflexivity.
  induction m as [|[k v] m IH].
  - simpl. destruct (is_prefix new q); reflexivity.
  - cbn [filter fst]. rewrite Hc. destruct (is_prefix old k) eqn:Pk.
    + cbn [map]. rewrite Hk, Hc, IH.
      destruct (path_eqb q (new ++ skipn (length old) k)) eqn:E.
      * apply path_eqb_eq in E. subst q. rewrite is_prefix_app, skipn_app_length.
        rewrite <- (is_prefix_split _ _ Pk). rewrite path_eqb_refl. reflexivity.
      * destruct (is_prefix new q) eqn:Pq; auto.
        destruct (path_eqb (old ++ skipn (length new) q) k) eqn:E2; auto.
        apply path_eqb_eq in E2. subst k. rewrite skipn_app_length in E.
        rewrite <- (is_prefix_split _ _ Pq) in E. rewrite path_eqb_refl in E. discriminate.
    + rewrite IH. destruct (is_prefix new q) eqn:Pq; auto.
      destruct (path_eqb (old ++ skipn (length new) q) k) eqn:E2; auto.
      apply path_eqb_eq in E2. subst k. rewrite is_prefix_app in Pk. discriminate.
Qed.

(* the flat value map under the move body, whether or not the source exists *)
Lemma r_get_move_body : forall m old new q,
  r_get (map (rekey old new) (filter (fun e => is_prefix old (fst e)) m)
           ++ r_delete (r_delete m old) new) q =
    if is_prefix new q then r_get m (old ++ skipn (length new) q)
    else if is_prefix old q then None else r_get m q.
Proof.
  intros m old new q.
  rewrite r_get_app, r_get_rekeyed, !r_get_delete.
  destruct (is_prefix new q); auto.
  destruct (r_get m (old ++ skipn (length new) q)); auto.
Qed.

Lemma r_get_move_found : forall m old new q, r_has m old = true ->
  r_get (fst (r_move m old new)) q =
    if is_prefix new q then r_get m (old ++ skipn (length new) q)
    else if is_prefix old q then None else r_get m q.
Proof. intros m old new q H. unfold r_move. rewrite H. apply r_get_move_body. Qed.

Lemma r_move_missing : forall m old new, r_has m old = false -> r_move m old new = (m, false).
Proof. intros. unfold r_move. rewrite H. reflexivity. Qed.

Lemma r_has_false_get : forall m p q, r_has m p = false -> is_prefix p q = true -> r_get m q = None.
Proof.
  intros m p q H Hp. induction m as [|[k v] m IH]; simpl in *; auto.
  apply orb_false_iff in H. destruct H as [H1 H2].
  destruct (path_eqb q k) eqn:E; auto.
  apply path_eqb_eq in E. subst k. congruence.
Qed.

Lemma r_in_get : forall m k v, In (k, v) m -> exists v', r_get m k = Some v'.
Proof.
  induction m as [|[k' v'] m IH]; intros k v H; simpl in *; [contradiction|].
  destruct (path_eqb k k') eqn:E; eauto.
  destruct H as [H|H]; eauto. inversion H; subst. rewrite path_eqb_refl in E. discriminate.
Qed.

Lemma r_has_true_get : forall m p, r_has m p = true ->
  exists q v, is_prefix p q = true /\ r_get m q = Some v.
Proof.
  intros m p H. unfold r_has in H. apply existsb_exists in H.
  destruct H as [[k v] [Hin Hp]]. simpl in Hp.
  destruct (r_in_get _ _ _ Hin) as [v' Hv]. eauto.
Qed.

Definition agree (t : tree) (m : rmap) : Prop := forall q, get t q = r_get m q.

Lemma init_agree : forall root, agree (init root) (r_init root).
Proof.
  intros [v|] q; unfold init, r_init.
  - destruct q as [|n q]; reflexivity.
  - destruct q as [|n q]; reflexivity.
Qed.

Lemma agree_has : forall t m p, agree t m -> r_has m p = true -> has t p = true.
Proof.
  intros t m p A H. destruct (r_has_true_get _ _ H) as [q [v [Hp Hv]]].
  rewrite <- A in Hv. eapply get_some_has; eauto.
Qed.

Lemma fst_let_move : forall (A : Type) (x : A * bool),
  fst (let '(t', moved) := x in (t', {| r_node := None; r_flag := moved |})) = fst x.
Proof. intros A [? ?]. reflexivity. Qed.

Lemma step_agree : forall t m o, agree t m -> valid_op o = true -> ghost_move t m o = false ->
  agree (fst (step t o)) (fst (r_step m o)).
Proof.
  intros t m o A V G. destruct o as [p v|p fresh|p|p|old new]; cbn [step r_step].
  - cbn [fst]. intro q. rewrite get_set, r_get_set, A. reflexivity.
  - unfold ensure, r_ensure. rewrite <- (A p).
    destruct (get t p); cbn [fst]; auto.
    intro q. rewrite get_set, r_get_set, A. reflexivity.
  - exact A.
  - cbn [fst]. intro q. rewrite get_delete, r_get_delete, A. reflexivity.
  - assert (Ho : old <> []) by (intro; subst; discriminate).
    assert (Hn : new <> []) by (intro; subst; destruct old; discriminate).
    clear V. cbn [ghost_move] in G. unfold has in G.
    rewrite !fst_let_move.
    destruct (node_at t old) as [src|] eqn:Hs.
    + destruct (r_has m old) eqn:Hr.
      * intro q. rewrite (get_move_found t old new src) by auto.
        rewrite r_get_move_found by auto. rewrite !A. reflexivity.
      * cbn [negb andb] in G.
        rewrite r_move_missing by auto. cbn [fst].
        intro q. rewrite (get_move_found t old new src) by auto.
        destruct (is_prefix new q) eqn:Pn.
        -- rewrite (r_has_false_get _ _ _ G Pn). rewrite A.
           apply (r_has_false_get _ _ _ Hr). apply is_prefix_app.
        -- destruct (is_prefix old q) eqn:Po; auto.
           rewrite (r_has_false_get _ _ _ Hr Po). reflexivity.
    + rewrite move_missing by auto. cbn [fst].
      destruct (r_has m old) eqn:Hr.
      * apply (agree_has t) in Hr; auto. unfold has in Hr. rewrite Hs in Hr. discriminate.
      * rewrite r_move_missing by auto. exact A.
Qed.

Lemma run_agree : forall ops t m, agree t m -> forallb valid_op ops = true ->
  trigger_from t m ops = false -> agree (run t ops) (r_run m ops).
Proof.
  induction ops as [|o ops IH]; intros t m A V T; simpl in *; auto.
  apply andb_true_iff in V. destruct V as [V1 V2].
  apply orb_false_iff in T. destruct T as [T1 T2].
  apply IH; auto. apply step_agree; auto.
Qed.

(* away from the ghost-move trigger every lookup equals the flat map's *)
Theorem refines_reference_partial : forall root ops, forallb valid_op ops = true ->
  trigger root ops = false ->
  forall q, get (run (init root) ops) q = r_get (r_run (r_init root) ops) q.
Proof. intros root ops V T. apply run_agree; auto using init_agree. Qed.

(* what the caller gets back also agrees (Get and Ensure results, generator calls);
   the *FsNode a Move returns agrees as soon as the source is not a placeholder *)
Lemma step_ret_agree : forall t m o, agree t m ->
  match o with
  | Move old _ => has t old = r_has m old -> snd (step t o) = snd (r_step m o)
  | _ => snd (step t o) = snd (r_step m o)
  end.
Proof.
  intros t m o A. destruct o as [p v|p fresh|p|p|old new]; simpl; auto.
  - unfold ensure, r_ensure. rewrite <- (A p). destruct (get t p); reflexivity.
  - rewrite A. reflexivity.
  - intro H. unfold move, r_move, has in *.
    destruct (node_at t old); rewrite <- H; reflexivity.
Qed.

Theorem returns_agree : forall root ops o, forallb valid_op ops = true ->
  trigger root ops = false ->
  let t := run (init root) ops in let m := r_run (r_init root) ops in
  match o with
  | Move old _ => has t old = r_has m old -> snd (step t o) = snd (r_step m o)
  | _ => snd (step t o) = snd (r_step m o)
  end.
Proof. intros root ops o V T t m. apply step_ret_agree. apply run_agree; auto using init_agree. Qed.

(* the full statement fails: a leftover placeholder is a movable source *)
Definition witness_ops : list op :=
  [Set_ ["a"; "x"] 1%N; Delete ["a"; "x"]; Set_ ["b"] 2%N; Move ["a"] ["b"]].

Theorem refines_reference_refuted : exists root ops q,
  forallb valid_op ops = true /\
  get (run (init root) ops) q <> r_get (r_run (r_init root) ops) q.
Proof.
  exists None, witness_ops, ["b"]. split; [reflexivity|]. vm_compute. discriminate.
Qed.

(* the witness is inside the trigger (a 3-operation witness: proof/FsCacheRef.v, witness3) *)
Lemma witness_trigger : trigger None witness_ops = true.
Proof. reflexivity. Qed.

(* moved subtrees appear under the new path and nowhere else *)
Theorem move_relocates : forall t old new src q, old <> [] -> new <> [] ->
  node_at t old = Some src ->
  get (fst (move t old new)) q =
    if is_prefix new q then get t (old ++ skipn (length new) q)
    else if is_prefix old q then None else get t q.
Proof. exact get_move_found. Qed.

Theorem delete_removes_subtree : forall p t q,
  get (delete t p) q = if is_prefix p q then None else get t q.
Proof. exact get_delete. Qed.

(* the generator of EnsureFsNode runs exactly when the lookup is nil *)
Theorem ensure_calls_generator_iff_absent : forall t p fresh,
  snd (ensure t p fresh) = match get t p with Some _ => false | None => true end.
Proof. intros. unfold ensure. destruct (get t p); reflexivity. Qed.
