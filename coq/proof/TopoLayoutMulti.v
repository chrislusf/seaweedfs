(* Proofs for C11: the per-vid form of the size clause, the oversized-set
   guard of RegisterVolume, and the witnesses of the findings of the
   multi-layout / object-identity model (model/TopoMulti.v). *)
From Coq Require Import List NArith Bool Lia Permutation.
From SW Require Import proof.ListFacts model.TopoLayout model.TopoMulti proof.TopoLayoutProofs.
Import ListNotations.
Local Open Scope N_scope.

(* the whole criterion for every vid whose OWN full reports stay under the limit *)
Lemma writable_sound_partial_v : forall c, 1 <= c_copy c -> 0 < c_limit c ->
  forall es, wf_history es -> forall v, trigger_size_v c es v = false ->
    let s := run c init es in writable s v = true -> crit c (s_nodes s) v = true.
Proof.
  intros c Hc Hl es Hwf v Ht. apply crit_when_small; auto. intros n vs a He Ha Hv.
  pose proof (existsb_false_in _ _ _ (existsb_false_in (reports_full_v c v) es _ Ht He) Ha) as K.
  simpl in K. rewrite Hv, N.eqb_refl in K. now apply N.leb_gt.
Qed.

(* the history-wide trigger implies nothing about other vids: a history inside it
   (trigger_size = true) whose vid 2 is covered by the per-vid theorem *)
Lemma per_vid_trigger_narrower :
  let h := [EFull 1 [vi 1 150 false]; EFull 1 [vi 2 10 false; vi 1 150 false]] in
  trigger_size cfg000 h = true /\ trigger_size_v cfg000 h 2 = false /\ writable (run cfg000 init h) 2 = true.
Proof. vm_compute; repeat split; reflexivity. Qed.

(* the replica loop of RegisterVolume only removes from writables *)
Lemma reg_loop_writ : forall ns v locs l x,
  mem x (l_writ (reg_loop ns v locs l)) = true -> mem x (l_writ l) = true.
Proof.
  intros ns v locs l x H. destruct (reg_loop_spec ns v locs l) as (_ & _ & [E|E] & _); rewrite E in H; [exact H|].
  apply mem_In in H. apply mem_In. eapply In_lremove_sub; eauto.
Qed.

(* RegisterVolume puts a replica whose size is at or over the limit into the oversized set *)
Lemma register_volume_os : forall c ns vi n l,
  c_limit c <= vi_size vi -> bs_true (vi_id vi) (l_os (register_volume c ns vi n l)) = true.
Proof.
  intros c ns vi n l Hsz. unfold register_volume, remember_oversized. apply N.leb_le in Hsz. rewrite Hsz. simpl.
  unfold bs_true. now rewrite bs_add_eq.
Qed.

(* registering a replica whose size is at or over the limit never ADDS the vid
   to writables (it can only stay or be removed) *)
Lemma oversized_registration_adds_nothing : forall c ns vi n l,
  c_limit c <= vi_size vi ->
  mem (vi_id vi) (l_writ (register_layout c ns vi n l)) = true -> mem (vi_id vi) (l_writ l) = true.
Proof.
  intros c ns vi n l Hsz H. unfold register_layout, ensure in H.
  rewrite (register_volume_os c ns vi n l Hsz) in H. simpl in H.
  assert (Hw1 : mem (vi_id vi) (l_writ (register_volume c ns vi n l)) = true -> mem (vi_id vi) (l_writ l) = true).
  { unfold register_volume, remember_oversized.
    destruct (c_limit c <=? vi_size vi); simpl; intros Hx; apply reg_loop_writ in Hx; exact Hx. }
  destruct (_ && _); [now apply Hw1|].
  apply Hw1. unfold remove_writable in H. simpl in H. apply mem_In in H. apply mem_In. eapply In_lremove_sub; eauto.
Qed.

(* after registering a replica at or over the limit the vid is in the oversized set
   (rememberOversizedVolume; EnsureCorrectWritables does not touch the set) *)
Lemma oversized_registration_recorded : forall c ns vi n l,
  c_limit c <= vi_size vi -> bs_true (vi_id vi) (l_os (register_layout c ns vi n l)) = true.
Proof.
  intros c ns vi n l Hsz. unfold register_layout. rewrite (proj2 (ensure_keeps c ns _ _)).
  now apply register_volume_os.
Qed.

(* a heartbeat entry: vid, size, read-only, layout key; configurations: copy counts per
   layout key (mc1 has one key, so findings 1 and 4 need mc12 / mc33) *)
Definition mi (v sz : N) (ro : bool) (k : N) : minfo := {| mi_vi := vi v sz ro; mi_key := k |}.
Definition mc1 : mcfg := {| mc_copies := [1]; mc_asmin := false; mc_limit := 100 |}.
Definition mc12 : mcfg := {| mc_copies := [1; 2]; mc_asmin := false; mc_limit := 100 |}.
Definition mc33 : mcfg := {| mc_copies := [3; 3]; mc_asmin := false; mc_limit := 100 |}.

(* the statements at full strength over the multi model, against the cluster
   state as the servers reported it *)
Definition m_lookup_exact (mc : mcfg) : Prop :=
  forall es v, exists x, mlookup (mrun mc minit es) v = Some x /\
                         nsort x = nsort (t_holders (fold_left tstep es tinit) v).
Definition m_writable_sound (mc : mcfg) : Prop :=
  forall es k v, mwritable (mrun mc minit es) k v = true -> t_crit mc (fold_left tstep es tinit) k v = true.

(* finding 1: server 1 reports vid 1 under key 0, then under key 1, then not at all *)
Definition relayout_history : list mevent :=
  [MConnect 1 1 1; MFull 1 [mi 1 10 false 0]; MFull 1 [mi 1 10 false 1]; MFull 1 []].
Lemma relayout_witness :
  let s := mrun mc12 minit relayout_history in let t := fold_left tstep relayout_history tinit in
  t_holders t 1 = [] /\ mlookup s 1 = Some [1] /\ mwritable s 0 1 = true /\
  trig_relayout_v relayout_history 1 = true.
Proof. vm_compute; repeat split; reflexivity. Qed.
Lemma m_lookup_exact_refuted_relayout : ~ m_lookup_exact mc12.
Proof. intros H. destruct (H relayout_history 1) as (x & A & B). vm_compute in A. inversion A; subst x. vm_compute in B. discriminate. Qed.
Lemma m_writable_sound_refuted_relayout : ~ m_writable_sound mc12.
Proof. intros H. specialize (H relayout_history 0 1 eq_refl). vm_compute in H. discriminate. Qed.

(* finding 2 (a): heartbeat on an object that the old stream's end unlinked *)
Definition stale_object_history : list mevent :=
  [MConnect 1 1 1; MFull 1 [mi 1 10 false 0]; MConnect 11 1 1; MClose 1; MFull 11 [mi 1 10 false 0; mi 2 10 false 0]].
Lemma stale_object_witness :
  let s := mrun mc1 minit stale_object_history in let t := fold_left tstep stale_object_history tinit in
  t_holders t 1 = [1] /\ mlookup s 1 = Some [] /\ mlookup s 2 = Some [1] /\ mwritable s 0 2 = true /\
  pick_panics s 0 = true /\ trig_object_v stale_object_history 1 = true.
Proof. vm_compute; repeat split; reflexivity. Qed.
(* finding 2 (b): the late end of the first stream removes the second object's registrations *)
Definition late_close_history : list mevent :=
  [MConnect 1 1 1; MFull 1 [mi 1 10 false 0]; MConnect 11 1 0; MFull 11 [mi 1 10 false 0]; MClose 1; MFull 11 [mi 1 10 false 0]].
Lemma late_close_witness :
  let s := mrun mc1 minit late_close_history in let t := fold_left tstep late_close_history tinit in
  t_holders t 1 = [1] /\ mlookup s 1 = Some [] /\ trig_object_v late_close_history 1 = true.
Proof. vm_compute; repeat split; reflexivity. Qed.
Lemma m_lookup_exact_refuted_object : ~ m_lookup_exact mc1.
Proof. intros H. destruct (H stale_object_history 1) as (x & A & B). vm_compute in A. inversion A; subst x. vm_compute in B. discriminate. Qed.

(* finding 3: a short "new" message resets the registered read-only flag *)
Definition clobber_history : list mevent :=
  [MConnect 1 1 1; MFull 1 [mi 1 10 true 0]; MIncr 1 [(1, 0)] []].
Lemma clobber_witness :
  let s := mrun mc1 minit clobber_history in let t := fold_left tstep clobber_history tinit in
  mwritable s 0 1 = true /\ t_rw_ok t 1 = false /\ trig_clobber_v mc1 clobber_history 1 = true /\
  trig_size_v mc1 clobber_history 1 = false.
Proof. vm_compute; repeat split; reflexivity. Qed.
Lemma m_writable_sound_refuted_clobber : ~ m_writable_sound mc1.
Proof. intros H. specialize (H clobber_history 0 1 eq_refl). vm_compute in H. discriminate. Qed.
(* the same in the single-layout model: registered read-only flag false after a read-only report *)
Lemma clobber_single_witness :
  let s := run cfg000 init [EFull 1 [vi 1 10 true]; EIncr 1 [1] []] in
  writable s 1 = true /\ ginfo (s_nodes s) 1 1 = Some (vi 1 0 false).
Proof. vm_compute; split; reflexivity. Qed.

(* finding 4: replicas of one vid under two layouts: no determined lookup answer,
   and each candidate misses a holder *)
Definition split_history : list mevent :=
  [MConnect 2 2 0; MConnect 3 3 1; MFull 2 [mi 3 10 false 0]; MFull 3 [mi 3 10 false 1]].
Lemma split_witness :
  let s := mrun mc33 minit split_history in let t := fold_left tstep split_history tinit in
  t_holders t 3 = [2; 3] /\ lookup_candidates s 3 = [[2]; [3]] /\ mlookup s 3 = None /\
  trig_split_v split_history 3 = true /\ trig_relayout_v split_history 3 = false.
Proof. vm_compute; repeat split; reflexivity. Qed.
Lemma m_lookup_exact_refuted_split : ~ m_lookup_exact mc33.
Proof. intros H. destruct (H split_history 3) as (x & A & _). vm_compute in A. discriminate. Qed.

(* non-vacuity of the multi model outside every trigger: two layouts, two
   servers, a reconnect; lookups exact and the offered volume meets the criterion *)
Definition multi_sample : list mevent :=
  [MConnect 1 1 1; MConnect 2 2 0; MFull 1 [mi 1 10 false 0; mi 2 20 false 1]; MFull 2 [mi 2 20 false 1];
   MClose 1; MConnect 1 1 1; MFull 1 [mi 1 10 false 0; mi 2 20 false 1]].
Lemma multi_sample_ok :
  let s := mrun mc12 minit multi_sample in let t := fold_left tstep multi_sample tinit in
  mlookup s 1 = Some [1] /\ mlookup s 2 = Some [2; 1] /\ t_holders t 2 = [2; 1] /\
  mwritable s 0 1 = true /\ mwritable s 1 2 = true /\ t_crit mc12 t 1 2 = true /\
  forallb (fun v => negb (trig_relayout_v multi_sample v || trig_split_v multi_sample v ||
                          trig_object_v multi_sample v || trig_clobber_v mc12 multi_sample v || trig_size_v mc12 multi_sample v)) [1; 2] = true.
Proof. vm_compute; repeat split; reflexivity. Qed.

(* the collector's two tests in the multi model, at their edges (limit 100, growThreshold 0.9):
   sizes 90 / 91 around the crowded edge, 99 / 100 around the limit *)
Definition crowded_history : list mevent :=
  [MConnect 1 1 1; MFull 1 [mi 1 10 false 0; mi 2 10 false 0; mi 3 10 false 0; mi 4 10 false 0];
   MFull 1 [mi 1 90 false 0; mi 2 91 false 0; mi 3 99 false 0; mi 4 100 false 0]; MCollect].
Lemma crowded_boundary :
  let s := mrun mc1 minit crowded_history in
  l_writ (lay (ms_lays s) 0) = [1; 2; 3] /\ mcrowded s 0 = [2; 3] /\
  (* a crowded vid that leaves writables leaves crowded *)
  mcrowded (mrun mc1 minit (crowded_history ++ [MFull 1 [mi 1 90 false 0; mi 2 91 true 0; mi 3 100 false 0; mi 4 100 false 0]; MCollect])) 0 = [].
Proof. vm_compute; repeat split; reflexivity. Qed.
