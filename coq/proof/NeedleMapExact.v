(* C05 proofs: the counters newNeedleMapMetricFromIndexFile recomputes, exactly.
   - [index_metric_exact]: for EVERY index file (exact set of seen keys): FileCounter = number
     of distinct keys, DeletionCounter = entries - distinct keys, FileByteCounter = the valid
     sizes of all entries, DeletionByteCounter = the valid sizes of all entries that are not
     the last one of their key, MaximumFileKey = the largest key;
   - [reload_counters_exact]: for every disciplined history without an empty Put (keys may be
     written any number of times) that is [reload_metric] of the running counters: byte totals
     and maximum key are the running ones, FileCounter = keys ever put, DeletionCounter =
     puts + deletes - keys ever put;
   - hence the reloaded counters equal the running ones IF AND ONLY IF no key was put twice
     ([ldb_reload_counters_partial], [sorted_file_counters_partial], [reload_counters_iff]): the
     trigger of known finding 1 is exact. *)
From Coq Require Import List NArith ZArith Bool Lia.
From Coq Require Import ZifyBool ZifyN ZifyNat.
From SW Require Import proof.ListFacts model.NeedleMap proof.EcIndexProofs proof.NeedleMapSearch proof.NeedleMapRefine
  proof.NeedleMapProofs proof.NeedleMapKinds proof.NeedleMapCounters
  proof.NeedleMapRunning.
Import ListNotations.
Local Open Scope N_scope.

Fixpoint n_last (E : list entry) : N :=        (* entries that are the last one of their key = distinct keys *)
  match E with [] => 0 | e :: E1 => b2n (negb (hask (e_key e) E1)) + n_last E1 end.
Fixpoint n_dup (E : list entry) : N :=         (* entries followed by a later entry of the same key *)
  match E with [] => 0 | e :: E1 => b2n (hask (e_key e) E1) + n_dup E1 end.
Fixpoint delb_sum (E : list entry) : N :=
  match E with [] => 0 | e :: E1 => (if hask (e_key e) E1 then vsize e else 0) + delb_sum E1 end.
Fixpoint fileb_sum (E : list entry) : N :=
  match E with [] => 0 | e :: E1 => vsize e + fileb_sum E1 end.
Fixpoint max_key (E : list entry) : N :=
  match E with [] => 0 | e :: E1 => N.max (e_key e) (max_key E1) end.

Definition exact_metric (E : list entry) : metric :=
  {| m_del := n_dup E mod two32; m_file := n_last E mod two32; m_delb := delb_sum E mod two64;
     m_fileb := fileb_sum E mod two64; m_max := max_key E |}.

Lemma n_dup_last : forall E, n_dup E + n_last E = N.of_nat (length E).
Proof.
  induction E as [|e E IH]; [reflexivity|]. cbn [n_dup n_last length].
  destruct (hask (e_key e) E); cbn [negb b2n]; lia.
Qed.

(* a wrapped counter that holds [x mod n] is bumped by [d]; the summands end up in the order
   the closed form has them *)
Lemma wrap_cons : forall n x d, n <> 0 -> (x mod n + d) mod n = (d + x) mod n.
Proof. intros. rewrite N.add_mod_idemp_l by assumption. f_equal. apply N.add_comm. Qed.

(* the walk visits the last entry first, so it sees an entry's key iff a later entry has it;
   the four cases (seen or not, valid size or not) each bump some counters and leave the rest *)
Lemma walk_back_exact : forall E, fst (walk_back E) = exact_metric E.
Proof.
  induction E as [|e E IH]; [reflexivity|].
  rewrite walk_back_fst_cons, IH. unfold exact_metric, mfi_metric_step. rewrite maybe_max_eq.
  cbn [n_dup n_last delb_sum fileb_sum max_key]. rewrite (N.max_comm (e_key e)). unfold vsize.
  (* cbv: each record update is normalised before the next one copies it five times *)
  destruct (hask (e_key e) E), (size_is_valid (e_size e));
    cbv beta iota zeta delta [negb b2n incr_file incr_del add_fileb add_delb add64
                              m_del m_file m_delb m_fileb m_max];
    rewrite ?(wrap_cons two32), ?(wrap_cons two64) by discriminate; reflexivity.
Qed.

Theorem index_metric_exact : forall osz es, ok_osz osz -> Forall (wf_entry osz) es ->
  metric_from_index osz (encode osz es) = exact_metric es.
Proof.
  intros osz es Ho Hw. unfold metric_from_index. rewrite walk_encode by assumption.
  rewrite mfi_rev. apply walk_back_exact.
Qed.

Lemma n_last_snoc : forall E e, n_last (E ++ [e]) = n_last E + b2n (negb (hask (e_key e) E)).
Proof.
  intros E e. induction E as [|a E IH].
  - cbn. lia.
  - cbn [app n_last]. rewrite IH, hask_app, hask_cons.
    destruct (N.eqb_spec (e_key e) (e_key a)) as [Hk|Hk].
    + rewrite Hk, N.eqb_refl, orb_true_r. cbn [orb negb b2n]. destruct (hask (e_key a) E); cbn [negb b2n]; lia.
    + destruct (N.eqb_spec (e_key a) (e_key e)); [congruence|]. rewrite orb_false_r. cbn [orb]. lia.
Qed.

Lemma delb_sum_snoc : forall E e, delb_sum (E ++ [e]) = delb_sum E + last_valid (e_key e) E.
Proof.
  intros E e. induction E as [|a E IH].
  - cbn. lia.
  - cbn [app delb_sum last_valid]. rewrite IH, hask_app.
    destruct (N.eqb_spec (e_key e) (e_key a)) as [Hk|Hk].
    + rewrite Hk, N.eqb_refl, orb_true_r. cbn [andb].
      destruct (hask (e_key a) E) eqn:Hh; cbn [negb]; [lia|].
      rewrite (last_valid_absent _ _ Hh). lia.
    + destruct (N.eqb_spec (e_key a) (e_key e)); [congruence|]. rewrite orb_false_r. cbn [andb]. lia.
Qed.

Lemma fileb_sum_snoc : forall E e, fileb_sum (E ++ [e]) = fileb_sum E + vsize e.
Proof. intros E e. induction E as [|a E IH]; cbn [app fileb_sum]; [lia|]. rewrite IH. lia. Qed.

Lemma max_key_snoc : forall E e, max_key (E ++ [e]) = N.max (max_key E) (e_key e).
Proof. intros E e. induction E as [|a E IH]; cbn [app max_key]; [lia|]. rewrite IH. lia. Qed.

Lemma hask_le_max : forall E k, hask k E = true -> k <= max_key E.
Proof.
  induction E as [|a E IH]; intros k H; [discriminate|]. rewrite hask_cons in H. cbn [max_key].
  apply orb_true_iff in H. destruct H as [H|H]; [apply N.eqb_eq in H; lia|]. apply IH in H. lia.
Qed.

Lemma n_first_puts_from_app : forall ops seen o,
  n_first_puts_from seen (ops ++ [o]) =
  n_first_puts_from seen ops +
  match o with Put k _ _ => b2n (negb (mem k seen || ever_put k ops)) | _ => 0 end.
Proof.
  induction ops as [|a ops IH]; intros seen o.
  - cbn [app n_first_puts_from ever_put existsb]. destruct o as [k off sz|k off|k]; try reflexivity.
    rewrite orb_false_r. unfold mem. destruct (existsb (N.eqb k) seen); cbn [negb b2n]; lia.
  - cbn [app]. destruct a as [k' off' sz'|k' off'|k']; cbn [n_first_puts_from]; rewrite IH.
    + destruct o as [k off sz|k off|k]; try lia.
      cbn [ever_put existsb]. fold (ever_put k ops). rewrite mem_cons. rewrite (N.eqb_sym k k').
      destruct (k' =? k); destruct (mem k seen); destruct (ever_put k ops); cbn [orb negb b2n]; lia.
    + destruct o; reflexivity.
    + destruct o; reflexivity.
Qed.

Lemma n_first_puts_app : forall ops o,
  n_first_puts (ops ++ [o]) =
  n_first_puts ops + match o with Put k _ _ => b2n (negb (ever_put k ops)) | _ => 0 end.
Proof. intros. apply n_first_puts_from_app. Qed.

Lemma n_puts_app : forall ops o,
  n_puts (ops ++ [o]) = n_puts ops + match o with Put _ _ _ => 1 | _ => 0 end.
Proof.
  intros. unfold n_puts. rewrite filter_app, app_length. destruct o; cbn [filter length]; lia.
Qed.
Lemma n_dels_app : forall ops o,
  n_dels (ops ++ [o]) = n_dels ops + match o with Del _ _ => 1 | _ => 0 end.
Proof.
  intros. unfold n_dels. rewrite filter_app, app_length. destruct o; cbn [filter length]; lia.
Qed.

Lemma n_puts_cons : forall o ops,
  n_puts (o :: ops) = match o with Put _ _ _ => 1 | _ => 0 end + n_puts ops.
Proof. intros. unfold n_puts. destruct o; cbn [filter length]; lia. Qed.

Lemma n_first_le_puts : forall ops seen, n_first_puts_from seen ops <= n_puts ops.
Proof.
  induction ops as [|o ops IH]; intros seen; [cbn; lia|].
  rewrite n_puts_cons. destruct o as [k off sz|k off|k]; cbn [n_first_puts_from].
  - specialize (IH (k :: seen)). destruct (existsb (N.eqb k) seen); lia.
  - apply IH.
  - apply IH.
Qed.

Lemma rewrite_iff_first : forall ops seen,
  trig_rewrite_from seen ops = false <-> n_first_puts_from seen ops = n_puts ops.
Proof.
  induction ops as [|o ops IH]; intros seen; [cbn; tauto|].
  rewrite n_puts_cons. destruct o as [k off sz|k off|k]; cbn [trig_rewrite_from n_first_puts_from].
  - pose proof (n_first_le_puts ops (k :: seen)) as Hle. specialize (IH (k :: seen)).
    destruct (existsb (N.eqb k) seen); cbn [orb].
    + split; [discriminate|lia].
    + rewrite IH. lia.
  - apply IH.
  - apply IH.
Qed.

Lemma entries_of_length : forall ops, N.of_nat (length (entries_of ops)) = n_puts ops + n_dels ops.
Proof.
  induction ops as [|o ops IH] using rev_ind; [reflexivity|].
  rewrite entries_of_app, app_length, n_puts_app, n_dels_app. destruct o; cbn [entry_of_op length]; lia.
Qed.

(* what a later entry of the key adds to DeletionByteCounter: the live size the reference holds *)
Definition lv_of (v : option (N * Z)) : N :=
  match v with Some (_, s) => if (0 <? s)%Z then u64_of_size s else 0 | None => 0 end.

Lemma log_hit_delb : forall m v c, m_delb m = c mod two64 ->
  m_delb (log_hit m v) = (c + lv_of v) mod two64.
Proof.
  intros m [[o s]|] c H; cbn [log_hit lv_of]; [destruct (0 <? s)%Z|]; rewrite ?N.add_0_r; try assumption.
  cbn [add_del m_delb]. unfold add64. rewrite H. apply N.add_mod_idemp_l, two64_nz.
Qed.

Lemma put_metric_eq : forall m k sz, add_file (maybe_max m k) sz =
  {| m_del := m_del m; m_file := (m_file m + 1) mod two32; m_delb := m_delb m;
     m_fileb := add64 (m_fileb m) (u64_of_size sz); m_max := N.max (m_max m) k |}.
Proof. intros. unfold add_file. rewrite maybe_max_eq. reflexivity. Qed.

(* what holds after every disciplined history without an empty Put: the reference counters are the
   closed form on the entries written, and the last entry of every key mirrors the reference map *)
Record exact_inv (ops : list op) : Prop := {
  xj_fileb : m_fileb (ref_metric ops) = fileb_sum (entries_of ops) mod two64;
  xj_delb : m_delb (ref_metric ops) = delb_sum (entries_of ops) mod two64;
  xj_max : m_max (ref_metric ops) = max_key (entries_of ops);
  xj_nlast : n_last (entries_of ops) = n_first_puts ops;
  xj_lv : forall k, last_valid k (entries_of ops) = lv_of (ref_get (snd (ref_run [] ops)) k);
  xj_has : forall k, hask k (entries_of ops) = ever_put k ops;
  xj_ref : forall k, ever_put k ops = false -> ref_get (snd (ref_run [] ops)) k = None;
  (* a write-once history deletes only by Delete *)
  xj_once : n_first_puts ops = n_puts ops -> m_del (ref_metric ops) = n_dels ops mod two32 }.

Lemma exact_inv_nil : exact_inv [].
Proof. constructor; reflexivity. Qed.

Lemma vsize_put : forall k off sz, (0 < sz)%Z -> vsize (mk_entry k off sz) = u64_of_size sz.
Proof.
  intros k off sz H. unfold vsize. cbn [mk_entry e_size]. rewrite size_is_valid_pos.
  rewrite (proj2 (Z.ltb_lt 0 sz) H). reflexivity.
Qed.

Lemma exact_inv_step : forall ops o, exact_inv ops ->
  disc_cond (snd (ref_run [] ops)) o = true ->
  match o with Put _ _ sz => (sz =? 0)%Z = false | _ => True end ->
  exact_inv (ops ++ [o]).
Proof.
  intros ops o J Hdc Hne. destruct o as [k off sz|k off|k].
  - (* Put: a new last entry of key k with a valid size; an earlier live entry of k is hit *)
    cbn [disc_cond] in Hdc. assert (Hpos : (0 < sz)%Z) by lia.
    pose proof (vsize_put k off sz Hpos) as Hv. apply Z.ltb_lt in Hpos.
    destruct J as [Jfb Jdb Jmx Jnl Jlv Jhas Jref Jonce].
    constructor; rewrite ?ref_metric_app, ?entries_of_app, ?ref_run_snoc, ?ref_step_put_fst;
      cbv zeta; cbn [entry_of_op]; rewrite ?put_metric_eq.
    + rewrite (proj1 (proj2 (log_hit_other _ _))), fileb_sum_snoc, Hv. cbn [m_fileb]. rewrite Jfb.
      apply N.add_mod_idemp_l, two64_nz.
    + rewrite delb_sum_snoc, Jlv. apply log_hit_delb, Jdb.
    + rewrite (proj2 (proj2 (log_hit_other _ _))), max_key_snoc. cbn [m_max]. rewrite Jmx. reflexivity.
    + rewrite n_last_snoc, n_first_puts_app, Jnl, Jhas. reflexivity.
    + intros k'. rewrite last_valid_snoc, ref_get_put, Hv, (N.eqb_sym k' k). cbn [mk_entry e_key].
      destruct (k =? k'); [|apply Jlv]. cbn [lv_of]. rewrite Hpos. reflexivity.
    + intros k'. rewrite hask_app, ever_put_app, Jhas. reflexivity.
    + intros k' H. rewrite ever_put_app in H. apply orb_false_iff in H. destruct H as [H1 H2].
      rewrite ref_get_put, (N.eqb_sym k' k), H2. apply Jref, H1.
    + intros H. rewrite n_first_puts_app, n_puts_app in H.
      pose proof (n_first_le_puts ops []) as Hle. fold (n_first_puts ops) in Hle.
      destruct (ever_put k ops) eqn:Hep; cbn [negb b2n] in H; [clear - H Hle; lia|].
      rewrite (Jref k Hep), n_dels_app, N.add_0_r. apply Jonce, (N.add_cancel_r _ _ 1), H.
  - (* Delete of a live key: a tombstone becomes the last entry of k *)
    cbn [disc_cond] in Hdc.
    destruct (ref_get (snd (ref_run [] ops)) k) as [[ro rs]|] eqn:G; [|discriminate].
    assert (Hlive : (0 < rs)%Z) by (apply Z.ltb_lt, Hdc).
    assert (Hneg : (0 <? - rs)%Z = false) by lia.
    destruct J as [Jfb Jdb Jmx Jnl Jlv Jhas Jref Jonce].
    assert (Hep : ever_put k ops = true).
    { destruct (ever_put k ops) eqn:Hx; [reflexivity|]. rewrite (Jref k Hx) in G. discriminate. }
    constructor; rewrite ?ref_metric_app, ?entries_of_app, ?ref_run_snoc, ?(ref_step_del_live _ k off ro rs G Hlive);
      cbv zeta; cbn [entry_of_op fst].
    + rewrite (proj1 (proj2 (log_hit_other _ _))), fileb_sum_snoc. cbn [vsize mk_entry e_size size_is_valid].
      rewrite N.add_0_r. exact Jfb.
    + rewrite delb_sum_snoc, Jlv. apply log_hit_delb, Jdb.
    + rewrite (proj2 (proj2 (log_hit_other _ _))), max_key_snoc, Jmx. symmetry. apply N.max_l.
      apply hask_le_max. rewrite Jhas. exact Hep.
    + rewrite n_last_snoc, n_first_puts_app, Jhas. cbn [mk_entry e_key]. rewrite Hep, !N.add_0_r. exact Jnl.
    + intros k'. rewrite last_valid_snoc, ref_get_put, (N.eqb_sym k' k). cbn [mk_entry e_key].
      destruct (k =? k'); [|apply Jlv]. cbn [lv_of]. rewrite Hneg. reflexivity.
    + intros k'. rewrite hask_app, ever_put_app, orb_false_r, Jhas. cbn [mk_entry e_key].
      destruct (N.eqb_spec k k') as [<-|]; [rewrite Hep; reflexivity|apply orb_false_r].
    + intros k' H. rewrite ever_put_app, orb_false_r in H. rewrite ref_get_put.
      destruct (N.eqb_spec k' k) as [->|]; [congruence|]. apply Jref, H.
    + intros H. rewrite n_first_puts_app, n_puts_app, !N.add_0_r in H.
      rewrite G, n_dels_app. cbn [log_hit]. rewrite Hdc. cbn [add_del m_del].
      rewrite (Jonce H). apply N.add_mod_idemp_l, two32_nz.
  - destruct J as [Jfb Jdb Jmx Jnl Jlv Jhas Jref Jonce].
    constructor;
      rewrite ?ref_metric_app, ?entries_of_app, ?ref_run_snoc, ?n_first_puts_app, ?n_puts_app, ?n_dels_app;
      cbn [entry_of_op ref_step fst]; rewrite ?app_nil_r, ?N.add_0_r; try assumption.
    + intros k'. rewrite ever_put_app, orb_false_r. apply Jhas.
    + intros k'. rewrite ever_put_app, orb_false_r. apply Jref.
Qed.

Lemma exact_inv_all : forall ops, disciplined ops = true -> trig_empty_put ops = false -> exact_inv ops.
Proof.
  induction ops as [|o ops IH] using rev_ind; intros Hd He; [apply exact_inv_nil|].
  unfold disciplined in Hd. rewrite disciplined_from_app in Hd. apply andb_true_iff in Hd. destruct Hd as [Hd1 Hd2].
  unfold trig_empty_put in He. rewrite existsb_app in He. apply orb_false_iff in He. destruct He as [He1 He2].
  apply exact_inv_step; auto.
  destruct o; auto; simpl in He2; rewrite orb_false_r in He2; assumption.
Qed.

Theorem history_index_counters : forall osz ops, ok_osz osz ->
  forallb (op_in_range osz) ops = true -> disciplined ops = true -> trig_empty_put ops = false ->
  metric_from_index osz (encode osz (entries_of ops)) = reload_metric ops (ref_metric ops).
Proof.
  intros osz ops Hosz Hr Hd He.
  rewrite index_metric_exact by (try assumption; apply entries_wf; assumption).
  destruct (exact_inv_all ops Hd He) as [Jfb Jdb Jmx Jnl _ _ _ _].
  unfold exact_metric, reload_metric. apply metric_ext; cbn [m_file m_del m_delb m_fileb m_max].
  - rewrite <- (N.add_sub_eq_r _ _ _ (n_dup_last (entries_of ops))), entries_of_length, Jnl. reflexivity.
  - rewrite Jnl. reflexivity.
  - symmetry. assumption.
  - symmetry. assumption.
  - symmetry. assumption.
Qed.

Theorem reload_counters_exact : forall osz ops, ok_osz osz ->
  forallb (op_in_range osz) ops = true -> disciplined ops = true -> trig_empty_put ops = false ->
  let s := snd (ldb_run osz ldb0 ops) in
  l_met (ldb_load osz (l_idx s)) = reload_metric ops (l_met s) /\
  l_met (ldb_reopen_fresh osz s) = reload_metric ops (l_met s).
Proof.
  intros osz ops Hosz Hr Hd He s. unfold s. rewrite ldb_counters_running.
  pose proof (ldb_run_idx osz ops ldb0 [] ldb_rel0 Hd) as Hidx. cbn [ldb0 l_idx app] in Hidx. fold ldb0 in Hidx.
  unfold ldb_load, ldb_reopen_fresh. cbn [l_met]. rewrite Hidx.
  split; apply history_index_counters; assumption.
Qed.

Theorem sorted_file_counters_exact : forall osz batch ops, ok_osz osz ->
  forallb (op_in_range osz) ops = true -> disciplined ops = true -> trig_empty_put ops = false ->
  let s := snd (nm_run osz batch nm0 ops) in
  metric_from_index osz (nm_idx s) = reload_metric ops (nm_met s).
Proof.
  intros osz batch ops Hosz Hr Hd He s. unfold s.
  rewrite nm_counters_running by (apply (keys_ok_of_range osz); assumption).
  pose proof (nm_run_idx osz batch ops nm0) as Hidx. cbn [nm0 nm_idx app] in Hidx. fold nm0 in Hidx.
  rewrite Hidx. apply history_index_counters; assumption.
Qed.

Lemma ref_metric_file : forall ops, m_file (ref_metric ops) = n_puts ops mod two32.
Proof.
  induction ops as [|o ops IH] using rev_ind; [reflexivity|].
  rewrite ref_metric_app, n_puts_app.
  destruct o; cbv zeta; rewrite ?(proj1 (log_hit_other _ _)), ?put_metric_eq, ?N.add_0_r; try exact IH.
  cbn [m_file]. rewrite IH. apply N.add_mod_idemp_l, two32_nz.
Qed.

Lemma reload_metric_once : forall ops, disciplined ops = true -> trig_empty_put ops = false ->
  trig_rewrite ops = false -> reload_metric ops (ref_metric ops) = ref_metric ops.
Proof.
  intros ops Hd He Hw. pose proof (proj1 (rewrite_iff_first ops []) Hw) as Hf. fold (n_first_puts ops) in Hf.
  unfold reload_metric. rewrite Hf, N.add_comm, N.add_sub.
  rewrite <- ref_metric_file, <- (xj_once ops (exact_inv_all ops Hd He) Hf). destruct (ref_metric ops); reflexivity.
Qed.

Theorem ldb_reload_counters_partial : forall osz ops, ok_osz osz ->
  forallb (op_in_range osz) ops = true ->
  disciplined ops = true -> trig_empty_put ops = false -> trig_rewrite ops = false ->
  let s := snd (ldb_run osz ldb0 ops) in
  l_met (ldb_load osz (l_idx s)) = l_met s.
Proof.
  intros osz ops Hosz Hr Hd He Hw s. unfold s.
  rewrite (proj1 (reload_counters_exact osz ops Hosz Hr Hd He)), ldb_counters_running. apply reload_metric_once; assumption.
Qed.

Theorem sorted_file_counters_partial : forall osz batch ops, ok_osz osz ->
  forallb (op_in_range osz) ops = true ->
  disciplined ops = true -> trig_empty_put ops = false -> trig_rewrite ops = false ->
  let s := snd (nm_run osz batch nm0 ops) in
  metric_from_index osz (nm_idx s) = nm_met s.
Proof.
  intros osz batch ops Hosz Hr Hd He Hw s. unfold s.
  rewrite (sorted_file_counters_exact osz batch ops Hosz Hr Hd He).
  rewrite nm_counters_running by (apply (keys_ok_of_range osz); assumption).
  apply reload_metric_once; assumption.
Qed.

(* the trigger of known finding 1 is exact: for histories shorter than 2^32 operations the
   reloaded counters equal the running ones iff no key was put twice *)
Theorem reload_counters_iff : forall osz ops, ok_osz osz ->
  forallb (op_in_range osz) ops = true -> disciplined ops = true -> trig_empty_put ops = false ->
  N.of_nat (length ops) < two32 ->
  let s := snd (ldb_run osz ldb0 ops) in
  (l_met (ldb_load osz (l_idx s)) = l_met s <-> trig_rewrite ops = false).
Proof.
  intros osz ops Hosz Hr Hd He Hlen s.
  split.
  - intros Heq. destruct (reload_counters_exact osz ops Hosz Hr Hd He) as [Hx _]. fold s in Hx.
    rewrite Hx in Heq. unfold s in Heq. rewrite ldb_counters_running in Heq.
    apply (f_equal m_file) in Heq. unfold reload_metric in Heq. cbn [m_file] in Heq.
    rewrite ref_metric_file in Heq.
    assert (Hp : n_puts ops < two32).
    { clear - Hlen. unfold n_puts.
      pose proof (filter_length_le (fun o => match o with Put _ _ _ => true | _ => false end) ops). lia. }
    pose proof (N.le_lt_trans _ _ _ (n_first_le_puts ops []) Hp) as Hf.
    rewrite !N.mod_small in Heq by assumption.
    unfold trig_rewrite. apply rewrite_iff_first. assumption.
  - intros Hw. apply ldb_reload_counters_partial; assumption.
Qed.
