(* Proofs about the ground truth of property C10 (model/TopoPlaceTruth.v): when the counters
   equal the truth, everything the placement rule reads is the same on both. *)
From Coq Require Import String List ZArith NArith Bool Arith Lia.
From SW Require Import model.TopoPlace model.TopoCount model.TopoPlaceTruth proof.TopoPlaceProofs proof.TopoPlaceGrow.
Import ListNotations.
Local Open Scope Z_scope.

Lemma counts_eqb4_refl : forall c, counts_eqb4 c c = true.
Proof. intro c. unfold counts_eqb4. rewrite !Z.eqb_refl. reflexivity. Qed.

Lemma usages_eqb4_all : forall a b, usages_eqb4 a b = true ->
  forall k, counts_eqb4 (TopoPlace.uget a k) (TopoPlace.uget b k) = true.
Proof.
  intros a b H k. unfold usages_eqb4 in H. rewrite forallb_forall in H.
  destruct (in_dec string_dec k (map fst a ++ map fst b)) as [Hin|Hn].
  - apply H. exact Hin.
  - rewrite (uget_absent a k), (uget_absent b k).
    + apply counts_eqb4_refl.
    + intro Hb. apply Hn. apply in_or_app. right. exact Hb.
    + intro Ha. apply Hn. apply in_or_app. left. exact Ha.
Qed.

(* AvailableSpaceFor reads exactly the four counters compared by counts_eqb4 *)
Lemma counts_eqb4_free : forall a b, counts_eqb4 a b = true -> free_space a = free_space b.
Proof.
  intros a b H. unfold counts_eqb4 in H.
  apply andb_prop in H. destruct H as [H Hm]. apply andb_prop in H. destruct H as [H He].
  apply andb_prop in H. destruct H as [Hv Hr].
  apply Z.eqb_eq in Hv, Hr, He, Hm. unfold free_space. rewrite Hv, Hr, He, Hm. reflexivity.
Qed.

Lemma usages_eqb4_free : forall a b k, usages_eqb4 a b = true ->
  free_space (TopoPlace.uget a k) = free_space (TopoPlace.uget b k).
Proof. intros a b k H. apply counts_eqb4_free. apply usages_eqb4_all. exact H. Qed.

Section ListEqb.
  Context {A : Type} (eqb : A -> A -> bool).

  (* list_eqb as Forall2 *)
  Lemma list_eqb_Forall2 : forall l l', list_eqb eqb l l' = true -> Forall2 (fun a b => eqb a b = true) l l'.
  Proof.
    induction l as [|a l IH]; intros [|b l'] H; cbn [list_eqb] in H; try discriminate; [constructor|].
    apply andb_prop in H as [Hab H]. constructor; auto.
  Qed.

  Lemma list_eqb_length : forall l l', list_eqb eqb l l' = true -> length l = length l'.
  Proof. intros l l' H. apply list_eqb_Forall2 in H. induction H; cbn [length]; congruence. Qed.

  Lemma list_eqb_filter_len : forall (p p' : A -> bool), (forall a b, eqb a b = true -> p a = p' b) ->
    forall l l', list_eqb eqb l l' = true -> length (filter p l) = length (filter p' l').
  Proof.
    intros p p' Hp l l' H. apply list_eqb_Forall2 in H.
    induction H as [|a b l l' Hab _ IH]; cbn [filter]; [reflexivity|].
    rewrite (Hp a b Hab). destruct (p' b); cbn [length]; rewrite IH; reflexivity.
  Qed.

  Lemma list_eqb_existsb_filter : forall (p p' q q' : A -> bool),
    (forall a b, eqb a b = true -> p a = p' b) -> (forall a b, eqb a b = true -> q a = q' b) ->
    forall l l', list_eqb eqb l l' = true -> existsb q (filter p l) = existsb q' (filter p' l').
  Proof.
    intros p p' q q' Hp Hq l l' H. apply list_eqb_Forall2 in H.
    induction H as [|a b l l' Hab _ IH]; cbn [filter]; [reflexivity|].
    rewrite (Hp a b Hab). destruct (p' b); cbn [existsb]; rewrite IH; [rewrite (Hq a b Hab)|]; reflexivity.
  Qed.

  Lemma list_eqb_existsb : forall (f g : A -> bool), (forall a b, eqb a b = true -> f a = g b) ->
    forall l l', list_eqb eqb l l' = true -> existsb f l = existsb g l'.
  Proof.
    intros f g Hf l l' H. apply list_eqb_Forall2 in H.
    induction H as [|a b l l' Hab _ IH]; cbn [existsb]; [reflexivity|]. rewrite (Hf a b Hab), IH. reflexivity.
  Qed.

  Lemma list_eqb_forallb : forall (f g : A -> bool), (forall a b, eqb a b = true -> f a = g b) ->
    forall l l', list_eqb eqb l l' = true -> forallb f l = forallb g l'.
  Proof.
    intros f g Hf l l' H. apply list_eqb_Forall2 in H.
    induction H as [|a b l l' Hab _ IH]; cbn [forallb]; [reflexivity|]. rewrite (Hf a b Hab), IH. reflexivity.
  Qed.

  Lemma list_eqb_sum_pos : forall (av av' : A -> Z), (forall a b, eqb a b = true -> av a = av' b) ->
    forall l l', list_eqb eqb l l' = true -> sum_pos av l = sum_pos av' l'.
  Proof.
    intros av av' Hav l l' H. apply list_eqb_Forall2 in H. unfold sum_pos.
    induction H as [|a b l l' Hab _ IH]; cbn [fold_right]; [reflexivity|]. rewrite (Hav a b Hab), IH. reflexivity.
  Qed.

  Lemma list_eqb_pick_fails : forall (av av' : A -> Z) (q q' : A -> bool) number,
    (forall a b, eqb a b = true -> av a = av' b) -> (forall a b, eqb a b = true -> q a = q' b) ->
    forall l l', list_eqb eqb l l' = true -> pick_fails av number q l = pick_fails av' number q' l'.
  Proof.
    intros av av' q q' number Hav Hq l l' H. unfold pick_fails.
    assert (Hp : forall a b, eqb a b = true -> (0 <? av a) = (0 <? av' b)).
    { intros a b Hab. rewrite (Hav a b Hab). reflexivity. }
    rewrite (list_eqb_filter_len _ _ Hp l l' H), (list_eqb_existsb_filter _ _ q q' Hp Hq l l' H). reflexivity.
  Qed.
End ListEqb.

Lemma node_eqb4_inv : forall o a b, node_eqb4 a b = true -> n_id a = n_id b /\ avail_node o a = avail_node o b.
Proof.
  intros o a b H. unfold node_eqb4 in H. apply andb_prop in H. destruct H as [Hid Hu].
  apply String.eqb_eq in Hid. split; [exact Hid|]. unfold avail_node. apply usages_eqb4_free. exact Hu.
Qed.

Lemma rack_eqb4_inv : forall o a b, rack_eqb4 a b = true ->
  r_id a = r_id b /\ avail_rack o a = avail_rack o b /\ list_eqb node_eqb4 (r_nodes a) (r_nodes b) = true.
Proof.
  intros o a b H. unfold rack_eqb4 in H. apply andb_prop in H. destruct H as [H Hn].
  apply andb_prop in H. destruct H as [Hid Hu]. apply String.eqb_eq in Hid.
  split; [exact Hid|]. split; [|exact Hn]. unfold avail_rack. apply usages_eqb4_free. exact Hu.
Qed.

Lemma dc_eqb4_inv : forall o a b, dc_eqb4 a b = true ->
  d_id a = d_id b /\ avail_dc o a = avail_dc o b /\ list_eqb rack_eqb4 (d_racks a) (d_racks b) = true.
Proof.
  intros o a b H. unfold dc_eqb4 in H. apply andb_prop in H. destruct H as [H Hn].
  apply andb_prop in H. destruct H as [Hid Hu]. apply String.eqb_eq in Hid.
  split; [exact Hid|]. split; [|exact Hn]. unfold avail_dc. apply usages_eqb4_free. exact Hu.
Qed.

Lemma has_free_slot_counters_true : forall t T o s, counters_true t T = true ->
  has_free_slot t o s = has_free_slot T o s.
Proof.
  intros t T o s H. unfold counters_true in H. apply andb_prop in H as [_ H]. unfold has_free_slot.
  apply (list_eqb_existsb dc_eqb4); [|exact H]. intros d d' Hd.
  destruct (dc_eqb4_inv o d d' Hd) as (-> & _ & Hr). apply f_equal.
  apply (list_eqb_existsb rack_eqb4); [|exact Hr]. intros r r' Hr'.
  destruct (rack_eqb4_inv o r r' Hr') as (-> & _ & Hn). apply f_equal.
  apply (list_eqb_existsb node_eqb4); [|exact Hn]. intros n n' Hn'.
  destruct (node_eqb4_inv o n n' Hn') as (-> & ->). reflexivity.
Qed.

Lemma forallb_ext : forall {A} (f g : A -> bool) l, (forall x, f x = g x) -> forallb f l = forallb g l.
Proof. intros A f g l H. induction l as [|x l IH]; cbn [forallb]; [reflexivity|]. rewrite H, IH. reflexivity. Qed.

(* counters_true is the invariant of property C12 *)
Theorem placement_ok_true_iff_thm : forall t T o ss, counters_true t T = true ->
  placement_ok t o ss = placement_ok T o ss.
Proof.
  intros t T o ss H. unfold placement_ok. f_equal. f_equal.
  apply forallb_ext. intro s. apply has_free_slot_counters_true. exact H.
Qed.

(* c10_placement_thm carried over by placement_ok_true_iff_thm, at T := truth_topology t (truth_of ops);
   no property of truth_of is used *)
Theorem placement_on_truth_thm : forall ops orc t o ss,
  wf_topology t = true ->
  counters_true t (truth_topology t (truth_of ops)) = true ->
  find_empty_slots orc t o = (ss, false) ->
  placement_ok (truth_topology t (truth_of ops)) o ss = true.
Proof.
  intros ops orc t o ss Hwf Hc Hf.
  rewrite <- (placement_ok_true_iff_thm t _ o ss Hc).
  exact (proj1 (c10_placement_thm orc t o ss Hwf Hf)).
Qed.

(* the has_free_slot conjunct of placement_on_truth_thm, per server *)
Theorem no_full_server_chosen_thm : forall ops orc t o ss s,
  wf_topology t = true ->
  counters_true t (truth_topology t (truth_of ops)) = true ->
  find_empty_slots orc t o = (ss, false) -> In s ss ->
  has_free_slot (truth_topology t (truth_of ops)) o s = true.
Proof.
  intros ops orc t o ss s Hwf Hc Hf Hin.
  pose proof (placement_on_truth_thm ops orc t o ss Hwf Hc Hf) as Hp.
  unfold placement_ok in Hp. apply andb_prop in Hp as [Hp _]. apply andb_prop in Hp as [_ Hfree].
  rewrite forallb_forall in Hfree. apply Hfree, Hin.
Qed.

(* The hypothesis cannot be dropped: a drifted EC shard counter puts a volume on a full server.
   History: n1 and n2 join rack dc1/r1 with room for 2 volumes each; n2 reports volume 1 and
   shards {0,1,2} of EC volume 10 (really free: 2 - 1 - 3/10 - 1 = 0); then an incremental EC
   heartbeat says shards {3,4,5,6} of volume 10 are gone -- n2 never held them, the truth does
   not move.  A master whose ecShardCount for n2 dropped by the four NAMED shards (to -1) sees
   one free slot on n2 and places replication 001 on n1 and n2.  [w_drifted] is written by hand:
   no model of the master computes it from [w_hist]. *)
Definition w_hist : list op :=
  [ Join "dc1" "r1" "n1" [(""%string, 2)]; Join "dc1" "r1" "n2" [(""%string, 2)];
    FullVol ["dc1"; "r1"; "n2"]%string [mkV 1 "" false false];
    FullEc ["dc1"; "r1"; "n2"]%string [mkE 10 "" 7];
    IncEc ["dc1"; "r1"; "n2"]%string [] [mkE 10 "" 120] ].
Definition w_drifted : topology :=
  {| t_usage := [(""%string, mkCounts 1 0 1 (-1) 4)];
     t_dcs := [ {| d_id := "dc1"; d_usage := [(""%string, mkCounts 1 0 1 (-1) 4)];
                   d_racks := [ {| r_id := "r1"; r_usage := [(""%string, mkCounts 1 0 1 (-1) 4)];
                                   r_nodes := [ {| n_id := "n1"; n_usage := [(""%string, mkCounts 0 0 0 0 2)] |};
                                                {| n_id := "n2"; n_usage := [(""%string, mkCounts 1 0 1 (-1) 2)] |} ] |} ] |} ] |}.
Definition w_opt : grow_option :=
  {| go_disk := ""; go_dc := ""; go_rack := ""; go_node := ""; rp_dc := 0; rp_rack := 0; rp_same := 1 |}.
Definition w_oracle : oracle :=
  {| o_dc_order := []; o_dc_rs := []; o_rack_order := []; o_rack_rs := []; o_node_order := []; o_node_rs := [];
     o_other_racks := []; o_other_dcs := [] |}.

Theorem placement_needs_true_counters_thm :
  wf_topology w_drifted = true /\
  true_free (truth_of w_hist) ["dc1"; "r1"; "n2"]%string "" = 0 /\
  counters_true w_drifted (truth_topology w_drifted (truth_of w_hist)) = false /\
  exists ss, find_empty_slots w_oracle w_drifted w_opt = (ss, false) /\
             placement_ok w_drifted w_opt ss = true /\
             placement_ok (truth_topology w_drifted (truth_of w_hist)) w_opt ss = false.
Proof.
  split; [vm_compute; reflexivity|]. split; [vm_compute; reflexivity|]. split; [vm_compute; reflexivity|].
  eexists. split; [vm_compute; reflexivity|]. split; vm_compute; reflexivity.
Qed.

(* non-vacuity: with the counters the unchanged code keeps for the same history (ecShardCount 3
   on n2) the hypothesis holds and the search reports an error *)
Definition w_exact : topology :=
  {| t_usage := [(""%string, mkCounts 1 0 1 3 4)];
     t_dcs := [ {| d_id := "dc1"; d_usage := [(""%string, mkCounts 1 0 1 3 4)];
                   d_racks := [ {| r_id := "r1"; r_usage := [(""%string, mkCounts 1 0 1 3 4)];
                                   r_nodes := [ {| n_id := "n1"; n_usage := [(""%string, mkCounts 0 0 0 0 2)] |};
                                                {| n_id := "n2"; n_usage := [(""%string, mkCounts 1 0 1 3 2)] |} ] |} ] |} ] |}.
Lemma placement_on_truth_example :
  wf_topology w_exact = true /\ hist_wf w_hist = true /\ same_nodes w_exact (truth_of w_hist) = true /\
  counters_true w_exact (truth_topology w_exact (truth_of w_hist)) = true /\
  snd (find_empty_slots w_oracle w_exact w_opt) = true /\
  (let o0 := {| go_disk := ""; go_dc := ""; go_rack := ""; go_node := ""; rp_dc := 0; rp_rack := 0; rp_same := 0 |} in
   find_empty_slots w_oracle w_exact o0 = ([("dc1", "r1", "n1")%string], false)).
Proof. repeat split; vm_compute; reflexivity. Qed.

(* the success condition all_paths_ok also reads nothing but ids and AvailableSpaceFor *)
Lemma node_filter_same : forall o a b, node_eqb4 a b = true -> node_filter o a = node_filter o b.
Proof. intros o a b H. destruct (node_eqb4_inv o a b H) as [Hid Hav]. unfold node_filter. rewrite Hid, Hav. reflexivity. Qed.

Lemma possible_nodes_same : forall o a b, rack_eqb4 a b = true -> possible_nodes o a = possible_nodes o b.
Proof.
  intros o a b H. destruct (rack_eqb4_inv o a b H) as (_ & _ & Hn). unfold possible_nodes.
  apply (list_eqb_filter_len node_eqb4); [|exact Hn].
  intros x y Hxy. rewrite (proj2 (node_eqb4_inv o x y Hxy)). reflexivity.
Qed.

Lemma rack_filter_same : forall o a b, rack_eqb4 a b = true -> rack_filter o a = rack_filter o b.
Proof.
  intros o a b H. destruct (rack_eqb4_inv o a b H) as (Hid & Hav & Hn). unfold rack_filter.
  rewrite Hid, Hav, (list_eqb_length node_eqb4 _ _ Hn), (possible_nodes_same o a b H). reflexivity.
Qed.

Lemma dc_filter_same : forall o a b, dc_eqb4 a b = true -> dc_filter o a = dc_filter o b.
Proof.
  intros o a b H. destruct (dc_eqb4_inv o a b H) as (Hid & Hav & Hr). unfold dc_filter.
  rewrite Hid, Hav, (list_eqb_length rack_eqb4 _ _ Hr).
  rewrite (list_eqb_filter_len rack_eqb4 _ (fun rk => Nat.leb (rp_same o + 1) (possible_nodes o rk))
             (fun x y Hxy => f_equal (Nat.leb (rp_same o + 1)) (possible_nodes_same o x y Hxy)) _ _ Hr).
  reflexivity.
Qed.

(* the three tests all_paths_ok makes of a rack and of a data center *)
Definition rack_path_ok (o : grow_option) (rk : rack) : bool :=
  if (0 <? avail_rack o rk) && rack_filter o rk
  then negb (pick_fails (avail_node o) (rp_same o + 1) (node_filter o) (r_nodes rk)) else true.
Definition dc_path_ok (o : grow_option) (dc : dcenter) : bool :=
  if (0 <? avail_dc o dc) && dc_filter o dc
  then negb (pick_fails (avail_rack o) (rp_rack o + 1) (rack_filter o) (d_racks dc)) &&
       forallb (rack_path_ok o) (d_racks dc)
  else true.
Definition dc_soundb (o : grow_option) (dc : dcenter) : bool :=
  (avail_dc o dc <=? sum_pos (avail_rack o) (d_racks dc)) &&
  forallb (fun rk => avail_rack o rk <=? sum_pos (avail_node o) (r_nodes rk)) (d_racks dc).

Lemma all_paths_ok_unfold : forall t o, all_paths_ok t o =
  forallb (dc_soundb o) (t_dcs t) && negb (pick_fails (avail_dc o) (rp_dc o + 1) (dc_filter o) (t_dcs t)) &&
  forallb (dc_path_ok o) (t_dcs t).
Proof. reflexivity. Qed.

Lemma rack_path_ok_same : forall o a b, rack_eqb4 a b = true -> rack_path_ok o a = rack_path_ok o b.
Proof.
  intros o a b H. destruct (rack_eqb4_inv o a b H) as (_ & Hav & Hn). unfold rack_path_ok.
  rewrite Hav, (rack_filter_same o a b H).
  rewrite (list_eqb_pick_fails node_eqb4 (avail_node o) (avail_node o) (node_filter o) (node_filter o) (rp_same o + 1)
             (fun x y Hxy => proj2 (node_eqb4_inv o x y Hxy)) (node_filter_same o) _ _ Hn).
  reflexivity.
Qed.

Lemma dc_path_ok_same : forall o a b, dc_eqb4 a b = true -> dc_path_ok o a = dc_path_ok o b.
Proof.
  intros o a b H. destruct (dc_eqb4_inv o a b H) as (_ & Hav & Hr). unfold dc_path_ok.
  rewrite Hav, (dc_filter_same o a b H).
  rewrite (list_eqb_pick_fails rack_eqb4 (avail_rack o) (avail_rack o) (rack_filter o) (rack_filter o) (rp_rack o + 1)
             (fun x y Hxy => proj1 (proj2 (rack_eqb4_inv o x y Hxy))) (rack_filter_same o) _ _ Hr).
  rewrite (list_eqb_forallb rack_eqb4 _ _ (rack_path_ok_same o) _ _ Hr).
  reflexivity.
Qed.

Lemma dc_soundb_same : forall o a b, dc_eqb4 a b = true -> dc_soundb o a = dc_soundb o b.
Proof.
  intros o a b H. destruct (dc_eqb4_inv o a b H) as (_ & Hav & Hr). unfold dc_soundb.
  rewrite Hav.
  rewrite (list_eqb_sum_pos rack_eqb4 (avail_rack o) (avail_rack o)
             (fun x y Hxy => proj1 (proj2 (rack_eqb4_inv o x y Hxy))) _ _ Hr).
  f_equal. apply (list_eqb_forallb rack_eqb4); [|exact Hr].
  intros x y Hxy. destruct (rack_eqb4_inv o x y Hxy) as (_ & Hax & Hn).
  rewrite Hax, (list_eqb_sum_pos node_eqb4 (avail_node o) (avail_node o)
                  (fun u v Huv => proj2 (node_eqb4_inv o u v Huv)) _ _ Hn).
  reflexivity.
Qed.

Theorem all_paths_ok_true_iff_thm : forall t T o, counters_true t T = true ->
  all_paths_ok t o = all_paths_ok T o.
Proof.
  intros t T o H. unfold counters_true in H. apply andb_prop in H as [_ H].
  rewrite !all_paths_ok_unfold.
  rewrite (list_eqb_forallb dc_eqb4 _ _ (dc_soundb_same o) _ _ H).
  rewrite (list_eqb_pick_fails dc_eqb4 (avail_dc o) (avail_dc o) (dc_filter o) (dc_filter o) (rp_dc o + 1)
             (fun x y Hxy => proj1 (proj2 (dc_eqb4_inv o x y Hxy))) (dc_filter_same o) _ _ H).
  rewrite (list_eqb_forallb dc_eqb4 _ _ (dc_path_ok_same o) _ _ H).
  reflexivity.
Qed.

(* all_paths_ok_success_thm carried over by all_paths_ok_true_iff_thm, at the same T *)
Theorem success_on_truth_thm : forall ops orc t o,
  wf_topology t = true ->
  counters_true t (truth_topology t (truth_of ops)) = true ->
  all_paths_ok (truth_topology t (truth_of ops)) o = true ->
  snd (find_empty_slots orc t o) = false.
Proof.
  intros ops orc t o Hwf Hc Hp. apply all_paths_ok_success_thm; [exact Hwf|].
  rewrite (all_paths_ok_true_iff_thm t _ o Hc). exact Hp.
Qed.
