(* Proofs about model/EcIndex.v: entry codec, index walk, sorted-index search, tombstone
   marking (shared by C05 and C07), then the EC-volume delete / rebuild theorems (C07). *)
From Coq Require Import List NArith ZArith Bool Lia Sorted.
From Coq Require Import ZifyBool ZifyN ZifyNat.
From SW Require Import proof.ListFacts model.EcIndex.
Import ListNotations.
Local Open Scope N_scope.

Definition ok_osz (osz : N) : Prop := osz = 4%N \/ osz = 5%N.
Definition wf_entry (osz : N) (e : entry) : Prop :=
  (e_key e < two64)%N /\ (e_off e < 256 ^ osz)%N /\ (-2147483648 <= e_size e < 2147483648)%Z.
Definition sorted_keys (es : list entry) : Prop :=
  StronglySorted (fun a b => (e_key a < e_key b)%N) es.

(* Size.IsValid: the tombstone is negative, so the second test never decides *)
Lemma size_is_valid_pos : forall s, size_is_valid s = (0 <? s)%Z.
Proof.
  intros s. unfold size_is_valid, tombstone. destruct (Z.ltb_spec 0 s); [|reflexivity].
  destruct (Z.eqb_spec s (-1)); [lia|reflexivity].
Qed.

Lemma be_bytes_length : forall n v, length (be_bytes n v) = n.
Proof. induction n; intros; simpl; auto. Qed.

Lemma be_fold : forall n v a,
  fold_left (fun a b => a * 256 + b) (be_bytes n v) a = a * 256 ^ N.of_nat n + v mod 256 ^ N.of_nat n.
Proof.
  induction n as [|n IH]; intros v a.
  - simpl. rewrite N.mod_1_r. lia.
  - cbn [be_bytes fold_left]. rewrite IH.
    rewrite Nat2N.inj_succ, N.pow_succ_r'.
    assert (Hp : 256 ^ N.of_nat n <> 0) by (apply N.pow_nonzero; lia).
    replace (256 * 256 ^ N.of_nat n) with (256 ^ N.of_nat n * 256) by lia.
    rewrite (N.mod_mul_r v (256 ^ N.of_nat n) 256) by lia.
    lia.
Qed.

Lemma be_val_bytes : forall n v, v < 256 ^ N.of_nat n -> be_val (be_bytes n v) = v.
Proof.
  intros n v H. unfold be_val. rewrite be_fold. rewrite N.mod_small by assumption. lia.
Qed.

Lemma be_bytes_lt : forall n v b, In b (be_bytes n v) -> b < 256.
Proof.
  induction n as [|n IH]; intros v b H; simpl in H; [tauto|].
  destruct H as [H|H]; [subst b; apply N.mod_lt; lia | eauto].
Qed.

Lemma enc_off_length : forall osz off, ok_osz osz -> length (enc_off osz off) = N.to_nat osz.
Proof.
  intros osz off [H|H]; subst; unfold enc_off; rewrite app_length, be_bytes_length; reflexivity.
Qed.

Lemma enc_entry_length : forall osz e, ok_osz osz -> length (enc_entry osz e) = N.to_nat (entry_size osz).
Proof.
  intros osz e H. unfold enc_entry, enc_key.
  rewrite !app_length, !be_bytes_length, enc_off_length by assumption.
  destruct H; subst; reflexivity.
Qed.

Lemma dec_enc_off : forall osz off, ok_osz osz -> off < 256 ^ osz -> dec_off osz (enc_off osz off) = off.
Proof.
  intros osz off [H|H] Hlt; subst; unfold dec_off, enc_off.
  - change (4 =? 5) with false. rewrite app_nil_r.
    rewrite firstn_all2 by (rewrite be_bytes_length; lia).
    rewrite be_val_bytes.
    + change (256 ^ 4) with two32 in Hlt. rewrite N.mod_small by assumption. lia.
    + apply N.mod_lt. discriminate.
  - change (5 =? 5) with true.
    rewrite firstn_app_exact by apply be_bytes_length.
    rewrite app_nth2 by (rewrite be_bytes_length; lia).
    rewrite be_bytes_length. change (4 - 4)%nat with 0%nat. cbn [nth].
    rewrite be_val_bytes by (apply N.mod_lt; discriminate).
    change (256 ^ 5) with (two32 * 256) in Hlt.
    assert (off / two32 < 256) by (apply N.div_lt_upper_bound; [discriminate|lia]).
    rewrite (N.mod_small (off / two32)) by assumption.
    pose proof (N.div_mod off two32). unfold two32 in *. lia.
Qed.

Lemma size_u32_roundtrip : forall s, (-2147483648 <= s < 2147483648)%Z ->
  size_of_u32 (be_val (be_bytes 4 (u32_of_size s))) = s.
Proof.
  intros s Hs.
  assert (Hlt : u32_of_size s < 256 ^ N.of_nat 4).
  { unfold u32_of_size. change (256 ^ N.of_nat 4) with 4294967296.
    pose proof (Z.mod_pos_bound s 4294967296). lia. }
  rewrite be_val_bytes by assumption.
  unfold size_of_u32, u32_of_size, two31.
  destruct (Z.ltb_spec s 0).
  - assert (E : (s mod 4294967296 = s + 4294967296)%Z).
    { symmetry. apply (Z.mod_unique _ _ (-1)); lia. }
    rewrite E. destruct (N.ltb_spec (Z.to_N (s + 4294967296)) 2147483648); lia.
  - rewrite Z.mod_small by lia.
    destruct (N.ltb_spec (Z.to_N s) 2147483648); lia.
Qed.

Lemma dec_enc_entry : forall osz e, ok_osz osz -> wf_entry osz e -> dec_entry osz (enc_entry osz e) = e.
Proof.
  intros osz e Hosz [Hk [Ho Hs]]. destruct e as [k o s]. cbn [e_key e_off e_size] in *.
  unfold dec_entry, enc_entry, enc_key. cbn [e_key e_off e_size].
  rewrite firstn_app_exact by apply be_bytes_length.
  rewrite skipn_app_exact by apply be_bytes_length.
  rewrite firstn_app_exact by (apply enc_off_length; assumption).
  replace (8 + N.to_nat osz)%nat with (length (be_bytes 8 k ++ enc_off osz o)).
  2:{ rewrite app_length, be_bytes_length, enc_off_length by assumption. reflexivity. }
  rewrite app_assoc. rewrite skipn_app_exact by reflexivity.
  rewrite firstn_all2 by (rewrite be_bytes_length; lia).
  rewrite be_val_bytes by (change (256 ^ N.of_nat 8) with two64; assumption).
  rewrite dec_enc_off by assumption.
  rewrite size_u32_roundtrip by assumption. reflexivity.
Qed.

Lemma encode_app : forall osz a b, encode osz (a ++ b) = encode osz a ++ encode osz b.
Proof. intros. unfold encode. rewrite map_app, concat_app. reflexivity. Qed.

Lemma encode_cons : forall osz e es, encode osz (e :: es) = enc_entry osz e ++ encode osz es.
Proof. reflexivity. Qed.

Lemma encode_length : forall osz es, ok_osz osz ->
  length (encode osz es) = (length es * N.to_nat (entry_size osz))%nat.
Proof.
  intros osz es H. induction es as [|e es IH]; [reflexivity|].
  rewrite encode_cons, app_length, IH, enc_entry_length by assumption. simpl. lia.
Qed.

Lemma walk_fuel_encode : forall osz es fuel rest, ok_osz osz -> Forall (wf_entry osz) es ->
  (length es <= fuel)%nat -> (length rest < N.to_nat (entry_size osz))%nat ->
  walk_fuel fuel osz (encode osz es ++ rest) = es.
Proof.
  intros osz es. induction es as [|e es IH]; intros fuel rest Hosz Hwf Hf Hr.
  - simpl. destruct fuel; [reflexivity|]. simpl.
    destruct (Nat.ltb_spec (length rest) (N.to_nat (entry_size osz))); [reflexivity|lia].
  - destruct fuel; [simpl in Hf; lia|].
    inversion Hwf as [|? ? He Hes]; subst.
    rewrite encode_cons, <- app_assoc. cbn [walk_fuel].
    destruct (Nat.ltb_spec (length (enc_entry osz e ++ encode osz es ++ rest)) (N.to_nat (entry_size osz))) as [Hl|Hl].
    { rewrite app_length, enc_entry_length in Hl by assumption. lia. }
    rewrite firstn_app_exact by (apply enc_entry_length; assumption).
    rewrite skipn_app_exact by (apply enc_entry_length; assumption).
    rewrite dec_enc_entry by assumption. f_equal.
    apply IH; auto. simpl in Hf. lia.
Qed.

Lemma walk_encode : forall osz es, ok_osz osz -> Forall (wf_entry osz) es -> walk osz (encode osz es) = es.
Proof.
  intros osz es Hosz Hwf. unfold walk.
  rewrite <- (app_nil_r (encode osz es)) at 2.
  apply walk_fuel_encode; auto.
  - rewrite encode_length by assumption. destruct Hosz; subst; simpl; lia.
  - destruct Hosz; subst; simpl; lia.
Qed.

Lemma read_at_encode : forall osz a e b, ok_osz osz ->
  read_at (encode osz (a ++ e :: b)) (N.of_nat (length a) * entry_size osz) (entry_size osz)
  = Some (enc_entry osz e).
Proof.
  intros osz a e b Hosz. unfold read_at.
  rewrite encode_app, encode_cons.
  assert (La : length (encode osz a) = N.to_nat (N.of_nat (length a) * entry_size osz)).
  { rewrite encode_length by assumption. destruct Hosz; subst; lia. }
  destruct (N.leb_spec (N.of_nat (length a) * entry_size osz + entry_size osz)
             (N.of_nat (length (encode osz a ++ enc_entry osz e ++ encode osz b)))) as [Hle|Hgt].
  - rewrite skipn_app_exact by assumption.
    rewrite firstn_app_exact by (apply enc_entry_length; assumption). reflexivity.
  - rewrite !app_length, enc_entry_length in Hgt by assumption. lia.
Qed.

Lemma sorted_app_inv : forall a e b, sorted_keys (a ++ e :: b) ->
  Forall (fun x => e_key x < e_key e) a /\ Forall (fun x => e_key e < e_key x) b.
Proof.
  induction a as [|x a IH]; intros e b Hs; simpl in Hs; inversion Hs as [|? ? Hs' Hall]; subst.
  - split; [constructor|assumption].
  - destruct (IH e b Hs') as [Ha Hb]. split; [|assumption].
    constructor; [|assumption]. rewrite Forall_forall in Hall. apply Hall. apply in_or_app. right. left. reflexivity.
Qed.

(* the invariant of the loop: if the key occurs at all, it occurs at an index between l and h *)
Lemma search_loop_spec : forall osz es key, ok_osz osz -> Forall (wf_entry osz) es -> sorted_keys es ->
  forall fuel l h,
  l <= h -> h <= N.of_nat (length es) ->
  (N.to_nat (h - l) < fuel)%nat ->
  (forall i e, nth_error es i = Some e -> e_key e = key -> (N.to_nat l <= i < N.to_nat h)%nat) ->
  match search_loop fuel osz (encode osz es) key l h with
  | SFound m off size => nth_error es (N.to_nat m) = Some {| e_key := key; e_off := off; e_size := size |}
  | SNotFound => ~ In key (map e_key es)
  | SReadErr => False
  end.
Proof.
  intros osz es key Hosz Hwf Hs. induction fuel as [|fuel IH]; intros l h Hlh Hh Hf Hin; [lia|].
  cbn [search_loop]. destruct (N.ltb_spec l h) as [Hlt|Hge].
  - set (m := (l + h) / 2).
    assert (Hm : l <= m < h).
    { unfold m. split; [apply N.div_le_lower_bound | apply N.div_lt_upper_bound]; lia. }
    destruct (nth_error es (N.to_nat m)) as [e|] eqn:En; [|apply nth_error_None in En; lia].
    destruct (nth_error_split es _ En) as (a & b & E & La).
    assert (R : read_at (encode osz es) (m * entry_size osz) (entry_size osz) = Some (enc_entry osz e)).
    { rewrite E. replace m with (N.of_nat (length a)) by lia. apply read_at_encode. assumption. }
    rewrite R, dec_enc_entry by (auto; exact (proj1 (Forall_forall _ _) Hwf e (nth_error_In _ _ En))).
    destruct (sorted_app_inv a e b) as [Ha Hb]; [rewrite <- E; assumption|]. rewrite Forall_forall in Ha, Hb.
    destruct (N.eqb_spec (e_key e) key) as [He|Hne].
    + destruct e as [k o z]. simpl in He. subst k. exact En.
    + (* an entry with the key lies on the side of the middle entry that the comparison says *)
      assert (Side : forall i e', nth_error es i = Some e' -> e_key e' = key ->
                (e_key e < key -> (N.to_nat m < i)%nat) /\ (key < e_key e -> (i < N.to_nat m)%nat)).
      { intros i e' Hi Hk. rewrite E in Hi. destruct (Nat.lt_trichotomy i (length a)) as [C|[C|C]].
        - rewrite nth_error_app1 in Hi by assumption. apply nth_error_In, Ha in Hi. lia.
        - subst i. rewrite nth_error_app2, Nat.sub_diag in Hi by lia. injection Hi as <-. lia.
        - rewrite nth_error_app2 in Hi by lia. destruct (i - length a)%nat as [|i'] eqn:Ei; [lia|].
          cbn [nth_error] in Hi. apply nth_error_In, Hb in Hi. lia. }
      destruct (N.ltb_spec (e_key e) key) as [Hk|Hk]; apply IH; try lia;
        intros i e' Hi Hk'; specialize (Hin i e' Hi Hk'); destruct (Side i e' Hi Hk') as [S1 S2];
        [specialize (S1 Hk) | specialize (S2 ltac:(lia))]; lia.
  - intro Hk. apply in_map_iff in Hk. destruct Hk as [e [Hk Hi]]. apply In_nth_error in Hi. destruct Hi as [i Hi].
    specialize (Hin i e Hi Hk). lia.
Qed.

Lemma encode_count : forall osz es, ok_osz osz ->
  N.of_nat (length (encode osz es)) / entry_size osz = N.of_nat (length es).
Proof.
  intros osz es Hosz. rewrite encode_length by assumption.
  rewrite Nat2N.inj_mul, N2Nat.id. apply N.div_mul. destruct Hosz; subst; discriminate.
Qed.

Lemma search_sorted_spec : forall osz es key, ok_osz osz -> Forall (wf_entry osz) es -> sorted_keys es ->
  match search_sorted osz (encode osz es) (N.of_nat (length (encode osz es))) key with
  | SFound m off size => nth_error es (N.to_nat m) = Some {| e_key := key; e_off := off; e_size := size |}
  | SNotFound => ~ In key (map e_key es)
  | SReadErr => False
  end.
Proof.
  intros osz es key Hosz Hwf Hs. unfold search_sorted.
  rewrite encode_count by assumption.
  apply (search_loop_spec osz es key); auto; try lia.
  intros i e Hi _. assert (i < length es)%nat by (apply nth_error_Some; congruence). lia.
Qed.

Lemma write_at_mid : forall (P O S w : list N) pos,
  length P = N.to_nat pos -> length O = length w ->
  write_at (P ++ O ++ S) pos w = P ++ w ++ S.
Proof.
  intros P O S w pos HP HO. unfold write_at.
  rewrite firstn_app_exact by assumption.
  replace (N.to_nat pos + length w)%nat with (length (P ++ O)) by (rewrite app_length; lia).
  replace (P ++ O ++ S) with ((P ++ O) ++ S) by (symmetry; apply app_assoc).
  rewrite skipn_app_exact by reflexivity. reflexivity.
Qed.

Definition set_size (e : entry) (s : Z) : entry := {| e_key := e_key e; e_off := e_off e; e_size := s |}.

Lemma write_size_encode : forall osz a e b s, ok_osz osz ->
  write_at (encode osz (a ++ e :: b)) (N.of_nat (length a) * entry_size osz + 8 + osz)
           (be_bytes 4 (u32_of_size s))
  = encode osz (a ++ set_size e s :: b).
Proof.
  intros osz a e b s Hosz.
  rewrite !encode_app, !encode_cons.
  set (P := encode osz a ++ enc_key (e_key e) ++ enc_off osz (e_off e)).
  assert (E1 : encode osz a ++ enc_entry osz e ++ encode osz b
               = P ++ be_bytes 4 (u32_of_size (e_size e)) ++ encode osz b).
  { unfold P, enc_entry. rewrite <- !app_assoc. reflexivity. }
  assert (E2 : encode osz a ++ enc_entry osz (set_size e s) ++ encode osz b
               = P ++ be_bytes 4 (u32_of_size s) ++ encode osz b).
  { unfold P, enc_entry, set_size. cbn [e_key e_off e_size]. rewrite <- !app_assoc. reflexivity. }
  rewrite E1, E2. apply write_at_mid; [|rewrite !be_bytes_length; reflexivity].
  unfold P. rewrite !app_length, encode_length, enc_off_length by assumption.
  unfold enc_key. rewrite be_bytes_length. destruct Hosz; subst; lia.
Qed.

(* C07, the specification side: deletes, reads and the live set on the entry list *)
Definition tomb (e : entry) : entry := set_size e tombstone.
(* the specification of a delete on the entry list: exactly the entry with that key is tombstoned *)
Definition set_deleted (key : N) (es : list entry) : list entry :=
  map (fun e => if e_key e =? key then tomb e else e) es.
(* reference read: first (= only) entry with the key *)
Definition lookup (k : N) (es : list entry) : option (N * Z) :=
  option_map (fun e => (e_off e, e_size e)) (find (fun e => e_key e =? k) es).
Definition sres_val (r : sres) : option (N * Z) :=
  match r with SFound _ o s => Some (o, s) | _ => None end.
Definition has_key (k : N) (es : list entry) : bool := existsb (fun e => e_key e =? k) es.
Definition live (e : entry) : bool := negb (size_is_deleted (e_size e)).
Definition in_keys (js : list N) (k : N) : bool := existsb (N.eqb k) js.

Lemma set_deleted_keys : forall key es, map e_key (set_deleted key es) = map e_key es.
Proof.
  intros key es. unfold set_deleted. rewrite map_map. apply map_ext.
  intros e. destruct (e_key e =? key); reflexivity.
Qed.
(* strict sortedness by a key depends on the list of keys only *)
Lemma sorted_by_keys : forall {A B} (f : A -> N) (g : B -> N) l l', map g l' = map f l ->
  StronglySorted (fun a b => f a < f b) l -> StronglySorted (fun a b => g a < g b) l'.
Proof.
  intros A B f g. induction l as [|e es IH]; intros es' Hm Hs; destruct es' as [|e' es']; simpl in Hm; try discriminate.
  - constructor.
  - injection Hm as Hk Hm. inversion Hs as [|? ? Hs' Hall]; subst.
    constructor; [apply IH; auto|].
    rewrite Forall_forall in *. intros x Hx.
    assert (Hin : In (g x) (map f es)) by (rewrite <- Hm; apply in_map; exact Hx).
    apply in_map_iff in Hin. destruct Hin as [y [Hy Hin]]. rewrite Hk, <- Hy. apply Hall. exact Hin.
Qed.

Lemma sorted_keys_map : forall es es', map e_key es' = map e_key es -> sorted_keys es -> sorted_keys es'.
Proof. exact (sorted_by_keys e_key e_key). Qed.

Lemma set_deleted_sorted : forall key es, sorted_keys es -> sorted_keys (set_deleted key es).
Proof. intros. eapply sorted_keys_map; [apply set_deleted_keys|assumption]. Qed.

Lemma tomb_wf : forall osz e, wf_entry osz e -> wf_entry osz (tomb e).
Proof. intros osz e [A [B C]]. unfold wf_entry, tomb, set_size, tombstone; simpl. repeat split; auto; lia. Qed.

Lemma set_deleted_wf : forall osz key es, Forall (wf_entry osz) es -> Forall (wf_entry osz) (set_deleted key es).
Proof.
  intros osz key es H. unfold set_deleted. rewrite Forall_forall in *. intros x Hx.
  apply in_map_iff in Hx. destruct Hx as [e [He Hin]]. subst x.
  destruct (e_key e =? key); [apply tomb_wf|]; auto.
Qed.

Lemma map_fix : forall {A} (f : A -> A) l, (forall x, In x l -> f x = x) -> map f l = l.
Proof. intros A f l H. rewrite <- (map_id l) at 2. apply map_ext_in. exact H. Qed.

Lemma set_deleted_split : forall key a e b, sorted_keys (a ++ e :: b) -> e_key e = key ->
  set_deleted key (a ++ e :: b) = a ++ tomb e :: b.
Proof.
  intros key a e b Hs He. destruct (sorted_app_inv a e b Hs) as [Ha Hb].
  unfold set_deleted. rewrite map_app. simpl. rewrite He, N.eqb_refl. f_equal; [|f_equal].
  - apply map_fix. intros x Hx. rewrite Forall_forall in Ha. specialize (Ha x Hx).
    destruct (N.eqb_spec (e_key x) key); [lia|reflexivity].
  - apply map_fix. intros x Hx. rewrite Forall_forall in Hb. specialize (Hb x Hx).
    destruct (N.eqb_spec (e_key x) key); [lia|reflexivity].
Qed.

Lemma set_deleted_absent : forall key es, has_key key es = false -> set_deleted key es = es.
Proof.
  intros key es H. unfold set_deleted. apply map_fix.
  intros e He. unfold has_key in H.
  destruct (e_key e =? key) eqn:E; [|reflexivity].
  assert (existsb (fun e => e_key e =? key) es = true) by (apply existsb_exists; eauto). congruence.
Qed.

Lemma has_key_in : forall key es, has_key key es = true <-> In key (map e_key es).
Proof.
  intros key es. unfold has_key. rewrite existsb_exists, in_map_iff. split.
  - intros [e [Hin He]]. exists e. split; [apply N.eqb_eq|]; assumption.
  - intros [e [He Hin]]. exists e. split; [|apply N.eqb_eq]; assumption.
Qed.

Lemma find_sorted_unique : forall es m e, sorted_keys es -> nth_error es m = Some e ->
  find (fun x => e_key x =? e_key e) es = Some e.
Proof.
  induction es as [|x es IH]; intros m e Hs Hn; [destruct m; discriminate|].
  inversion Hs as [|? ? Hs' Hall]; subst. destruct m; simpl in Hn.
  - injection Hn as ->. simpl. rewrite N.eqb_refl. reflexivity.
  - simpl. assert (Hin : In e es) by (eapply nth_error_In; eauto).
    rewrite Forall_forall in Hall. specialize (Hall e Hin).
    destruct (N.eqb_spec (e_key x) (e_key e)); [lia|]. eapply IH; eauto.
Qed.

Lemma find_none_keys : forall k es, ~ In k (map e_key es) -> find (fun x => e_key x =? k) es = None.
Proof.
  intros k es H. destruct (find (fun x => e_key x =? k) es) as [e|] eqn:E; [|reflexivity].
  apply find_some in E. destruct E as [Hin He]. apply N.eqb_eq in He. exfalso. apply H.
  apply in_map_iff. eauto.
Qed.

(* FindNeedleFromEcx / SortedFileNeedleMap.Get read exactly the entry list *)
Lemma search_lookup : forall osz es key, ok_osz osz -> Forall (wf_entry osz) es -> sorted_keys es ->
  sres_val (search_sorted osz (encode osz es) (N.of_nat (length (encode osz es))) key) = lookup key es.
Proof.
  intros osz es key Hosz Hwf Hs. pose proof (search_sorted_spec osz es key Hosz Hwf Hs) as H.
  unfold lookup.
  destruct (search_sorted osz (encode osz es) (N.of_nat (length (encode osz es))) key) as [m o s| |].
  - pose proof (find_sorted_unique es (N.to_nat m) _ Hs H) as F. simpl in F. rewrite F. reflexivity.
  - rewrite find_none_keys by assumption. reflexivity.
  - contradiction.
Qed.

Lemma sorted_get_lookup : forall osz es key, ok_osz osz -> Forall (wf_entry osz) es -> sorted_keys es ->
  sorted_get osz (encode osz es) key = lookup key es.
Proof. exact search_lookup. Qed.

Lemma search_mark_true : forall osz es key, ok_osz osz -> Forall (wf_entry osz) es -> sorted_keys es ->
  search_mark true osz (encode osz es) (N.of_nat (length (encode osz es))) key =
  if has_key key es then (ENone, encode osz (set_deleted key es)) else (ENotFound, encode osz es).
Proof.
  intros osz es key Hosz Hwf Hs. unfold search_mark.
  pose proof (search_sorted_spec osz es key Hosz Hwf Hs) as H.
  destruct (search_sorted osz (encode osz es) (N.of_nat (length (encode osz es))) key) as [m o s| |].
  - destruct (nth_error_split es (N.to_nat m) H) as [a [b [E L]]].
    assert (Hk : has_key key es = true).
    { apply has_key_in. rewrite E, map_app. apply in_or_app. right. left. reflexivity. }
    rewrite Hk. unfold mark_deleted, callback_offset. f_equal. f_equal.
    rewrite E. replace m with (N.of_nat (length a)) by lia.
    rewrite write_size_encode by assumption.
    rewrite set_deleted_split; [reflexivity| rewrite <- E; assumption | reflexivity].
  - assert (Hk : has_key key es = false).
    { destruct (has_key key es) eqn:E; [|reflexivity]. apply has_key_in in E. contradiction. }
    rewrite Hk. reflexivity.
  - contradiction.
Qed.

Lemma lookup_set_deleted : forall key k es,
  lookup k (set_deleted key es) =
  if k =? key then option_map (fun v => (fst v, tombstone)) (lookup k es) else lookup k es.
Proof.
  intros key k es. unfold lookup, set_deleted. induction es as [|e es IH]; simpl.
  - destruct (k =? key); reflexivity.
  - destruct (N.eqb_spec (e_key e) key) as [Ek|Ek].
    + simpl. destruct (N.eqb_spec (e_key e) k) as [Ek'|Ek'].
      * subst. rewrite N.eqb_refl. reflexivity.
      * exact IH.
    + destruct (N.eqb_spec (e_key e) k) as [Ek'|Ek'].
      * simpl. destruct (N.eqb_spec k key); [congruence|reflexivity].
      * exact IH.
Qed.

Theorem delete_exact : forall osz es ecj key,
  ok_osz osz -> Forall (wf_entry osz) es -> sorted_keys es ->
  delete_from_ecx osz (encode osz es) ecj key =
    (ENone, encode osz (set_deleted key es), if has_key key es then ecj ++ enc_key key else ecj)
  /\ (has_key key es = false -> set_deleted key es = es)
  /\ (forall k, sres_val (find_from_ecx osz (encode osz (set_deleted key es)) k) =
        if k =? key then option_map (fun v => (fst v, tombstone)) (lookup k es) else lookup k es)
  /\ (forall k, sres_val (find_from_ecx osz (encode osz es) k) = lookup k es).
Proof.
  intros osz es ecj key Hosz Hwf Hs. repeat split.
  - unfold delete_from_ecx, file_size. rewrite search_mark_true by assumption.
    destruct (has_key key es) eqn:E; [reflexivity|].
    rewrite set_deleted_absent by assumption. reflexivity.
  - apply set_deleted_absent.
  - intros k. unfold find_from_ecx, file_size.
    rewrite search_lookup; auto using set_deleted_wf, set_deleted_sorted.
    apply lookup_set_deleted.
  - intros k. unfold find_from_ecx, file_size. apply search_lookup; auto.
Qed.

Lemma ecj_keys_fuel_concat : forall js fuel rest, Forall (fun k => k < two64) js ->
  (length js <= fuel)%nat -> (length rest < 8)%nat ->
  ecj_keys_fuel fuel (concat (map enc_key js) ++ rest) = js.
Proof.
  induction js as [|j js IH]; intros fuel rest Hj Hf Hr.
  - simpl. destruct fuel; [reflexivity|]. simpl.
    destruct (Nat.ltb_spec (length rest) 8); [reflexivity|lia].
  - destruct fuel; [simpl in Hf; lia|]. inversion Hj as [|? ? Hj1 Hj2]; subst.
    cbn [map concat ecj_keys_fuel]. rewrite <- app_assoc.
    destruct (Nat.ltb_spec (length (enc_key j ++ concat (map enc_key js) ++ rest)) 8) as [Hl|Hl].
    { rewrite app_length in Hl. unfold enc_key in Hl. rewrite be_bytes_length in Hl. lia. }
    unfold enc_key at 1 2.
    rewrite firstn_app_exact by apply be_bytes_length.
    rewrite skipn_app_exact by apply be_bytes_length.
    rewrite be_val_bytes by (change (256 ^ N.of_nat 8) with two64; assumption).
    f_equal. apply IH; auto. simpl in Hf. lia.
Qed.

Lemma ecj_keys_concat : forall js, Forall (fun k => k < two64) js ->
  ecj_keys (concat (map enc_key js)) = js.
Proof.
  intros js H. unfold ecj_keys. rewrite <- (app_nil_r (concat (map enc_key js))) at 2.
  apply ecj_keys_fuel_concat; auto; [|simpl; lia].
  clear H. induction js as [|j js IH]; [simpl; lia|]. cbn [map concat length].
  rewrite app_length. unfold enc_key at 1. rewrite be_bytes_length. lia.
Qed.

Definition mark_all (js : list N) (es : list entry) : list entry :=
  map (fun e => if in_keys js (e_key e) then tomb e else e) es.

Lemma fold_set_deleted : forall js es,
  fold_left (fun es k => set_deleted k es) js es = mark_all js es.
Proof.
  induction js as [|j js IH]; intros es.
  - simpl. unfold mark_all. simpl. symmetry. apply map_id.
  - simpl. rewrite IH. unfold mark_all, set_deleted. rewrite map_map. apply map_ext.
    intros e. unfold in_keys. simpl.
    destruct (N.eqb_spec (e_key e) j) as [E|E].
    + simpl. destruct (existsb (N.eqb (e_key e)) js); reflexivity.
    + reflexivity.
Qed.

Lemma mark_all_keys : forall js es, map e_key (mark_all js es) = map e_key es.
Proof.
  intros. unfold mark_all. rewrite map_map. apply map_ext. intros e.
  destruct (in_keys js (e_key e)); reflexivity.
Qed.
Lemma mark_all_wf : forall osz js es, Forall (wf_entry osz) es -> Forall (wf_entry osz) (mark_all js es).
Proof.
  intros osz js es H. unfold mark_all. rewrite Forall_forall in *. intros x Hx.
  apply in_map_iff in Hx. destruct Hx as [e [He Hin]]. subst x.
  destruct (in_keys js (e_key e)); [apply tomb_wf|]; auto.
Qed.
Lemma mark_all_sorted : forall js es, sorted_keys es -> sorted_keys (mark_all js es).
Proof. intros. eapply sorted_keys_map; [apply mark_all_keys|assumption]. Qed.

Lemma rebuild_keys_spec : forall osz js es, ok_osz osz -> Forall (wf_entry osz) es -> sorted_keys es ->
  rebuild_keys osz (encode osz es) (N.of_nat (length (encode osz es))) js =
  (ENone, encode osz (fold_left (fun es k => set_deleted k es) js es)).
Proof.
  intros osz js. induction js as [|j js IH]; intros es Hosz Hwf Hs; [reflexivity|].
  cbn [rebuild_keys fold_left]. rewrite search_mark_true by assumption.
  destruct (has_key j es) eqn:E.
  - replace (length (encode osz es)) with (length (encode osz (set_deleted j es)))
      by (rewrite !encode_length by assumption; unfold set_deleted; rewrite map_length; reflexivity).
    apply IH; auto using set_deleted_wf, set_deleted_sorted.
  - rewrite (set_deleted_absent j es E). apply IH; auto.
Qed.

Lemma live_tomb : forall e, live (tomb e) = false.
Proof. reflexivity. Qed.

Lemma filter_live_mark_all : forall js es,
  filter live (mark_all js es) = filter (fun e => live e && negb (in_keys js (e_key e))) es.
Proof.
  intros js es. unfold mark_all. induction es as [|e es IH]; [reflexivity|].
  simpl. destruct (in_keys js (e_key e)) eqn:E.
  - rewrite live_tomb. rewrite andb_false_r. exact IH.
  - simpl. rewrite andb_true_r. destruct (live e); [f_equal|]; exact IH.
Qed.

(* MemDb as a key-sorted association list *)
Definition kv_sorted (m : omap) : Prop := StronglySorted (fun a b => fst a < fst b) m.

Lemma om_put_append : forall m k v, Forall (fun kv => fst kv < k) m -> om_put m k v = m ++ [(k, v)].
Proof.
  induction m as [|[k' v'] m IH]; intros k v H; [reflexivity|].
  inversion H as [|? ? H1 H2]; subst. simpl in *.
  destruct (N.ltb_spec k k'); [lia|]. destruct (N.eqb_spec k k'); [lia|]. f_equal. auto.
Qed.
Lemma om_del_above : forall m k, Forall (fun kv => fst kv < k) m -> om_del m k = m.
Proof.
  induction m as [|[k' v'] m IH]; intros k H; [reflexivity|].
  inversion H as [|? ? H1 H2]; subst. simpl in *.
  destruct (N.ltb_spec k k'); [lia|]. destruct (N.eqb_spec k k'); [lia|]. f_equal. auto.
Qed.

Lemma om_del_filter : forall m k, kv_sorted m -> om_del m k = filter (fun kv => negb (fst kv =? k)) m.
Proof.
  induction m as [|[k' v'] m IH]; intros k Hs; [reflexivity|].
  inversion Hs as [|? ? Hs' Hall]; subst. rewrite Forall_forall in Hall. cbn [om_del filter fst].
  destruct (N.ltb_spec k k') as [Hlt|Hge].
  - destruct (N.eqb_spec k' k); [lia|]. simpl. f_equal. symmetry. apply filter_all_true.
    intros x Hx. specialize (Hall x Hx). simpl in Hall. destruct (N.eqb_spec (fst x) k); [lia|reflexivity].
  - destruct (N.eqb_spec k k') as [E|E].
    + subst. rewrite N.eqb_refl. simpl. symmetry. apply filter_all_true.
      intros x Hx. specialize (Hall x Hx). simpl in Hall. destruct (N.eqb_spec (fst x) k'); [lia|reflexivity].
    + destruct (N.eqb_spec k' k); [congruence|]. simpl. f_equal. apply IH. assumption.
Qed.

Lemma kv_sorted_filter : forall f m, kv_sorted m -> kv_sorted (filter f m).
Proof.
  intros f m H. induction H as [|x m Hs IH Hall]; simpl; [constructor|].
  destruct (f x); [|assumption]. constructor; [assumption|].
  rewrite Forall_forall in *. intros y Hy. apply filter_In in Hy. apply Hall. tauto.
Qed.

Lemma fold_tombs : forall js m, kv_sorted m ->
  fold_left memdb_step (map tomb_entry js) m = filter (fun kv => negb (in_keys js (fst kv))) m.
Proof.
  intros js. induction js as [|j js IH]; intros m Hs.
  - simpl. symmetry. apply filter_all_true. reflexivity.
  - cbn [map fold_left]. unfold memdb_step at 2. cbn [tomb_entry e_off e_key e_size].
    change (0 =? 0) with true. cbn [orb].
    rewrite om_del_filter by assumption. rewrite IH by (apply kv_sorted_filter; assumption).
    rewrite filter_filter. apply filter_ext. intros kv. unfold in_keys. simpl.
    rewrite negb_orb. reflexivity.
Qed.

Lemma fold_memdb_sorted : forall es acc, sorted_keys es -> Forall (fun e => e_off e <> 0) es ->
  (forall kv e, In kv acc -> In e es -> fst kv < e_key e) ->
  fold_left memdb_step es acc = acc ++ map kv_of_entry (filter live es).
Proof.
  induction es as [|e es IH]; intros acc Hs Hnz Hlt.
  - simpl. symmetry. apply app_nil_r.
  - inversion Hs as [|? ? Hs' Hall]; subst. inversion Hnz as [|? ? Hz Hnz']; subst.
    rewrite Forall_forall in Hall.
    assert (Hacc : Forall (fun kv => fst kv < e_key e) acc).
    { rewrite Forall_forall. intros kv Hkv. apply Hlt; [assumption|left; reflexivity]. }
    cbn [fold_left filter]. unfold memdb_step at 2, live at 1.
    destruct (N.eqb_spec (e_off e) 0) as [Z0|_]; [contradiction|]. cbn [orb].
    destruct (size_is_deleted (e_size e)); cbn [negb].
    + rewrite om_del_above by assumption. apply IH; auto.
      intros kv x Hkv Hx. apply Hlt; [assumption|right; assumption].
    + rewrite om_put_append by assumption. rewrite IH; auto.
      * cbn [map]. rewrite <- app_assoc. reflexivity.
      * intros kv x Hkv Hx. apply in_app_or in Hkv. destruct Hkv as [Hkv|[Hkv|[]]].
        -- apply Hlt; [assumption|right; assumption].
        -- subst kv. simpl. apply Hall. assumption.
Qed.

Lemma kv_sorted_live : forall es, sorted_keys es -> kv_sorted (map kv_of_entry (filter live es)).
Proof.
  intros es H. induction H as [|e es Hs IH Hall]; simpl; [constructor|].
  destruct (live e); [|assumption]. simpl. constructor; [assumption|].
  rewrite Forall_forall in *. intros kv Hkv. apply in_map_iff in Hkv.
  destruct Hkv as [x [Hx Hin]]. subst kv. simpl. apply filter_In in Hin. apply Hall. tauto.
Qed.

Definition live_spec (js : list N) (es : list entry) : omap :=
  map kv_of_entry (filter (fun e => live e && negb (in_keys js (e_key e))) es).

Lemma filter_map_kv : forall js es,
  filter (fun kv => negb (in_keys js (fst kv))) (map kv_of_entry (filter live es)) = live_spec js es.
Proof.
  intros js es. unfold live_spec. induction es as [|e es IH]; [reflexivity|]. simpl.
  destruct (live e); simpl; [|exact IH].
  destruct (in_keys js (e_key e)); simpl; [|f_equal]; exact IH.
Qed.

Lemma tomb_entries_wf : forall osz js, ok_osz osz -> Forall (fun k => k < two64) js ->
  Forall (wf_entry osz) (map tomb_entry js).
Proof.
  intros osz js Hosz H. rewrite Forall_forall in *. intros x Hx. apply in_map_iff in Hx.
  destruct Hx as [k [Hk Hin]]. subst x. unfold wf_entry, tomb_entry, tombstone. simpl.
  repeat split; auto; try lia; try (destruct Hosz; subst; reflexivity).
Qed.

Lemma live_of_sorted_mark_all : forall osz js es, ok_osz osz -> Forall (wf_entry osz) es ->
  live_of_sorted osz (encode osz (mark_all js es)) = live_spec js es.
Proof.
  intros osz js es Hosz Hwf. unfold live_of_sorted. rewrite walk_encode by auto using mark_all_wf.
  fold live. rewrite filter_live_mark_all. reflexivity.
Qed.

Theorem rebuild_same_live_set : forall osz es js,
  ok_osz osz -> Forall (wf_entry osz) es -> sorted_keys es -> Forall (fun e => e_off e <> 0) es ->
  Forall (fun k => k < two64) js ->
  let ecx := encode osz es in
  let ecj := concat (map enc_key js) in
  memdb_load osz (write_idx_from_ec osz ecx ecj) = live_spec js es /\
  exists ecx', rebuild_ecx osz ecx ecj = (ENone, ecx') /\
               ecx' = encode osz (mark_all js es) /\
               live_of_sorted osz ecx' = live_spec js es.
Proof.
  intros osz es js Hosz Hwf Hs Hnz Hjs ecx ecj. subst ecx ecj. split.
  - unfold memdb_load, write_idx_from_ec. rewrite ecj_keys_concat by assumption.
    rewrite <- encode_app. rewrite walk_encode by (try assumption; apply Forall_app; auto using tomb_entries_wf).
    rewrite fold_left_app.
    rewrite (fold_memdb_sorted es []) by (try assumption; intros kv e []).
    cbn [app]. rewrite fold_tombs by (apply kv_sorted_live; assumption).
    apply filter_map_kv.
  - exists (encode osz (mark_all js es)). split; [|split; [reflexivity|]].
    + unfold rebuild_ecx, file_size. rewrite ecj_keys_concat by assumption.
      rewrite rebuild_keys_spec by assumption. rewrite fold_set_deleted. reflexivity.
    + apply live_of_sorted_mark_all; assumption.
Qed.

(* a run of deletions, then the index rebuilt from .ecx + .ecj *)
Fixpoint delete_many (osz : N) (ecx ecj : list N) (ks : list N) : list N * list N :=
  match ks with
  | [] => (ecx, ecj)
  | k :: ks' => let '(_, ecx', ecj') := delete_from_ecx osz ecx ecj k in delete_many osz ecx' ecj' ks'
  end.

Lemma has_key_set_deleted : forall k j es, has_key k (set_deleted j es) = has_key k es.
Proof.
  intros k j es. unfold has_key, set_deleted. induction es as [|e es IH]; [reflexivity|].
  cbn [map existsb]. rewrite IH. destruct (e_key e =? j); reflexivity.
Qed.

Lemma delete_many_spec : forall osz ks es ecj, ok_osz osz -> Forall (wf_entry osz) es -> sorted_keys es ->
  delete_many osz (encode osz es) ecj ks =
  (encode osz (mark_all ks es), ecj ++ concat (map enc_key (filter (fun k => has_key k es) ks))).
Proof.
  intros osz ks. induction ks as [|k ks IH]; intros es ecj Hosz Hwf Hs.
  - simpl. rewrite app_nil_r. unfold mark_all. simpl. rewrite map_id. reflexivity.
  - cbn [delete_many]. destruct (delete_exact osz es ecj k Hosz Hwf Hs) as [E _]. rewrite E.
    rewrite IH by auto using set_deleted_wf, set_deleted_sorted.
    rewrite <- !fold_set_deleted. cbn [fold_left]. f_equal.
    cbn [filter]. rewrite (filter_ext _ (fun k0 => has_key k0 es)) by (intros; apply has_key_set_deleted).
    destruct (has_key k es); [|reflexivity].
    cbn [map concat]. rewrite <- app_assoc. reflexivity.
Qed.

Lemma mark_all_offsets : forall js es, Forall (fun e => e_off e <> 0) es ->
  Forall (fun e => e_off e <> 0) (mark_all js es).
Proof.
  intros js es H. unfold mark_all. rewrite Forall_forall in *. intros x Hx.
  apply in_map_iff in Hx. destruct Hx as [e [He Hin]]. subst x.
  destruct (in_keys js (e_key e)); simpl; auto.
Qed.

Theorem deletes_then_decode : forall osz es ks,
  ok_osz osz -> Forall (wf_entry osz) es -> sorted_keys es -> Forall (fun e => e_off e <> 0) es ->
  Forall (fun k => k < two64) ks ->
  let '(ecx', ecj') := delete_many osz (encode osz es) [] ks in
  memdb_load osz (write_idx_from_ec osz ecx' ecj') = live_of_sorted osz ecx' /\
  live_of_sorted osz ecx' = live_spec ks es.
Proof.
  intros osz es ks Hosz Hwf Hs Hnz Hks.
  rewrite delete_many_spec by assumption. cbn [app].
  set (js := filter (fun k => has_key k es) ks).
  assert (Hjs : Forall (fun k => k < two64) js).
  { unfold js. rewrite Forall_forall in *. intros k Hk. apply filter_In in Hk. apply Hks. tauto. }
  destruct (rebuild_same_live_set osz (mark_all ks es) js Hosz (mark_all_wf osz ks es Hwf)
              (mark_all_sorted ks es Hs) (mark_all_offsets ks es Hnz) Hjs) as [A _].
  cbv zeta in A. rewrite A.
  rewrite live_of_sorted_mark_all by assumption. split; [|reflexivity].
  unfold live_spec. f_equal. rewrite <- (filter_live_mark_all ks es).
  apply filter_ext_in. intros x Hx. unfold mark_all in Hx. apply in_map_iff in Hx.
  destruct Hx as [e [Hx Hin]]. subst x.
  destruct (in_keys ks (e_key e)) eqn:E.
  - rewrite live_tomb. reflexivity.
  - assert (Hn : in_keys js (e_key e) = false).
    { unfold in_keys, js in *.
      destruct (existsb (N.eqb (e_key e)) (filter (fun k => has_key k es) ks)) eqn:X; [|reflexivity].
      apply existsb_exists in X. destruct X as [k [Hk1 Hk2]]. apply filter_In in Hk1.
      assert (existsb (N.eqb (e_key e)) ks = true) by (apply existsb_exists; exists k; tauto).
      congruence. }
    rewrite Hn. apply andb_true_r.
Qed.

(* SortedFileNeedleMap.Delete (repaired: .sdx writable, tombstone appended to the .idx) *)
Definition is_live (k : N) (es : list entry) : bool :=
  match lookup k es with Some (_, s) => negb (size_is_deleted s) | None => false end.

Lemma write_at_end : forall (f b : list N), write_at f (file_size f) b = f ++ b.
Proof.
  intros f b. unfold write_at, file_size. rewrite Nat2N.id.
  rewrite firstn_all. rewrite skipn_all2 by lia. rewrite app_nil_r. reflexivity.
Qed.

(* a Delete on a freshly opened sorted-file map returns no error; when the key is live the
   .sdx becomes the index with exactly that entry tombstoned and the .idx grows by exactly one
   tombstone record; otherwise nothing changes *)
Theorem sorted_delete_full : forall osz es key idx off,
  ok_osz osz -> Forall (wf_entry osz) es -> sorted_keys es ->
  sorted_delete osz idx (file_size idx) (encode osz es) key off =
    if is_live key es
    then (ENone, idx ++ enc_entry osz {| e_key := key; e_off := off; e_size := tombstone |},
          file_size idx + entry_size osz, encode osz (set_deleted key es))
    else (ENone, idx, file_size idx, encode osz es).
Proof.
  intros osz es key idx off Hosz Hwf Hs. unfold sorted_delete, is_live, file_size.
  pose proof (search_sorted_spec osz es key Hosz Hwf Hs) as Hsp.
  pose proof (search_lookup osz es key Hosz Hwf Hs) as Hl.
  destruct (search_sorted osz (encode osz es) (N.of_nat (length (encode osz es))) key) as [m o s| |];
    simpl in Hl; rewrite <- Hl.
  - destruct (size_is_deleted s); [reflexivity|]. cbn [negb].
    rewrite search_mark_true by assumption.
    assert (Hk : has_key key es = true).
    { apply has_key_in. apply nth_error_In in Hsp. change key with (e_key {| e_key := key; e_off := o; e_size := s |}).
      apply in_map. exact Hsp. }
    rewrite Hk. fold (file_size idx). rewrite write_at_end. reflexivity.
  - reflexivity.
  - contradiction.
Qed.

(* after it the deleted key reads as deleted, every other key as before *)
Theorem sorted_delete_reads : forall osz es key idx off k,
  ok_osz osz -> Forall (wf_entry osz) es -> sorted_keys es ->
  let '(err, _, _, sdx') := sorted_delete osz idx (file_size idx) (encode osz es) key off in
  err = ENone /\ sorted_get osz sdx' k =
    (if (k =? key) && is_live key es then option_map (fun v => (fst v, tombstone)) (lookup k es)
     else lookup k es).
Proof.
  intros osz es key idx off k Hosz Hwf Hs. rewrite sorted_delete_full by assumption.
  destruct (is_live key es) eqn:L; split; try reflexivity.
  - rewrite sorted_get_lookup by auto using set_deleted_wf, set_deleted_sorted. rewrite lookup_set_deleted.
    rewrite andb_true_r. reflexivity.
  - rewrite andb_false_r. apply sorted_get_lookup; assumption.
Qed.

Definition witness_es : list entry := [ {| e_key := 1; e_off := 2; e_size := 20%Z |} ].
(* the witness of c07_sorted_delete_witness: key 1 live, the .idx holds its one record *)
Lemma sorted_delete_witness :
  sorted_delete 4 (encode 4 witness_es) (file_size (encode 4 witness_es)) (encode 4 witness_es) 1 3 =
    (ENone, encode 4 witness_es ++ enc_entry 4 {| e_key := 1; e_off := 3; e_size := tombstone |}, 32,
     encode 4 [ {| e_key := 1; e_off := 2; e_size := tombstone |} ]).
Proof. vm_compute. reflexivity. Qed.
