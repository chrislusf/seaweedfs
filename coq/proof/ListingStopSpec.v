(* C19: what the callers of the listing get.  The plain functions are the stop-aware ones under
   a callback that never refuses, so their properties are read off ListingStop.v; then
   ListDirectoryEntries' page and hasMore, and the loops that follow the last returned name
   (HTTP: paginate; gRPC: paginate_stream without, grpc_list with an overall limit). *)
From Coq Require Import List NArith Bool String Ascii Arith Lia.
From SW Require Import proof.ListFacts model.Listing proof.ListingBase proof.ListingStore proof.ListingScan proof.ListingPattern
                       proof.ListingProofs proof.ListingWitness proof.ListingHand proof.ListingStop.
Import ListNotations.
Local Open Scope string_scope.
Local Open Scope list_scope.
Local Notation length := List.length.

Lemma stream_loop_done : forall fuel s p rest excl r0 r, stream_loop fuel s p rest excl r0 = Some r -> r_count r = 0.
Proof.
  induction fuel as [|f IH]; intros s p rest excl r0 r El; cbn [stream_loop] in El;
    (destruct (r_count r0) eqn:Ec; [inversion El; subst; auto|]); [discriminate|].
  destruct (pattern_list s (r_dir r0) (r_last r0) false (S n) p rest excl); [|discriminate].
  eapply IH; eauto.
Qed.

(* with a callback that never refuses the stop-aware listing is the plain one (ListingHand's
   [stream_list_s_same]), in the terms of both results; s_miss = 0 because a finished stream_loop
   has r_count = 0 (stream_loop_done) *)
Theorem stream_list_s_true : forall s d start incl limit prefix pat excl ans,
  all_true ans ->
  match stream_list s d start incl limit prefix pat excl with
  | Some r => exists rs, stream_list_s s d start incl limit prefix pat excl ans = Some rs /\
                         s_names rs = r_names r /\ s_last rs = r_last r /\ s_dir rs = r_dir r /\ s_miss rs = 0
  | None => stream_list_s s d start incl limit prefix pat excl ans = None
  end.
Proof.
  intros s d start incl limit prefix pat excl ans Ht.
  pose proof (stream_list_s_same s d start incl limit prefix pat excl ans Ht) as I. unfold same in I.
  destruct (stream_list s d start incl limit prefix pat excl) as [r|] eqn:El; [|exact I].
  destruct I as [rs [E [<- [Es _]]]]. exists rs. split; [exact E|]. repeat split.
  unfold stream_list in El.
  destruct (pattern_list s d start incl limit (eff_prefix prefix pat) (snd (split_pattern pat)) excl); [|discriminate].
  apply stream_loop_done in El. cbn [outer_view r_count] in El. rewrite Es in El. exact El.
Qed.

Lemma stream_list_full : forall s d start incl L prefix pat excl, wf d ->
  exists r, stream_list s d start incl L prefix pat excl = Some r /\
    r_names r = map ename (firstn L (impl_sel start incl prefix pat excl d)) /\
    wf (r_dir r) /\ filter elive (r_dir r) = filter elive d /\
    (r_last r <> "" ->
     impl_sel (r_last r) false prefix pat excl (r_dir r) = skipn L (impl_sel start incl prefix pat excl d)) /\
    (r_last r = "" -> r_names r = []).
Proof.
  intros s d start incl L prefix pat excl Hwf.
  destruct (stream_list_s_full s d start incl L prefix pat excl [] Hwf) as [rs [E [H1 [H2 [H3 [H4 [H5 _]]]]]]].
  pose proof (stream_list_s_true s d start incl L prefix pat excl [] eq_refl) as T.
  destruct (stream_list s d start incl L prefix pat excl) as [r|]; [|congruence].
  destruct T as [rs' [E' [T1 [T2 [T3 _]]]]]. rewrite E in E'. injection E' as <-.
  exists r. rewrite <- T1, <- T2, <- T3. auto 6.
Qed.

Lemma stream_list_spec : forall s d start incl L prefix pat excl, wf d ->
  exists r, stream_list s d start incl L prefix pat excl = Some r /\
    r_names r = map ename (firstn L (impl_sel start incl prefix pat excl d)) /\
    wf (r_dir r) /\ filter elive (r_dir r) = filter elive d.
Proof.
  intros s d start incl L prefix pat excl Hwf.
  destruct (stream_list_full s d start incl L prefix pat excl Hwf) as [r [E [H1 [H2 [H3 _]]]]]. eauto.
Qed.

(* continuing from the returned lastFileName (exclusive) yields the selection behind the page,
   for every prefix / pattern / exclusion *)
Theorem stream_last_cont : forall s d start incl L prefix pat excl, wf d ->
  exists r, stream_list s d start incl L prefix pat excl = Some r /\
    (r_last r <> "" ->
     impl_sel (r_last r) false prefix pat excl (r_dir r) = skipn L (impl_sel start incl prefix pat excl d)) /\
    (r_last r = "" -> r_names r = []).
Proof.
  intros s d start incl L prefix pat excl Hwf.
  destruct (stream_list_full s d start incl L prefix pat excl Hwf) as [r [E [_ [_ [_ H]]]]]. eauto.
Qed.

(* expired entries never shorten the valid page *)
Theorem list_valid_refill : forall s d start incl L p, wf d ->
  exists r, list_valid s d start incl L p = Some r /\
    r_names r = firstn L (map ename (filter elive (cand start incl p d))) /\
    filter elive (r_dir r) = filter elive d /\
    (forall e, In e d -> In e (r_dir r) \/ eexp e = true) /\
    (forall e, In e (r_dir r) -> In e d).
Proof.
  intros s d start incl L p Hwf.
  destruct (pattern_list_s_sinv1 s (fun _ => false) d start incl L p [] Hwf) as [rs [m [E [[[HL _ _ _] _] H0]]]].
  pose proof (pattern_list_s_list_valid s (fun _ => false) d start incl L p [] eq_refl) as T. unfold same in T.
  destruct (list_valid s d start incl L p) as [r|]; [|congruence].
  destruct T as [rs' [E' [<- [_ [Es _]]]]]. rewrite E in E'. injection E' as <-.
  exists (inner_view rs). split; [reflexivity|]. rewrite Es in HL.
  destruct (linv_done _ _ _ _ _ _ _ HL H0) as [D1 _].
  destruct (lpos_dir _ _ _ _ _ _ _ Hwf (proj1 HL)) as [_ Hlive].
  split; [rewrite D1, firstn_map; reflexivity|]. split; [exact Hlive|].
  destruct HL as [[_ [Idir _]] _]. rewrite Idir.
  assert (Hinc : forall e, In e (firstn m (cand start incl p d)) -> In e d)
    by (intros e He; eapply cand_in; eapply firstn_in; exact He).
  split.
  - intros e He. destruct (eexp e) eqn:Ee; [right; reflexivity|left].
    apply del_expired_subset_live; auto. unfold elive. unfold eexp in Ee. rewrite Ee. reflexivity.
  - intros e. apply del_expired_in.
Qed.

Lemma page_cut : forall {A} (M : list A) L,
  (if Nat.leb (S L) (length (firstn (S L) M)) then firstn L (firstn (S L) M) else firstn (S L) M) = firstn L M /\
  Nat.leb (S L) (length (firstn (S L) M)) = Nat.ltb L (length M).
Proof.
  intros A M L. rewrite firstn_length. split.
  - destruct (Nat.leb (S L) (Nat.min (S L) (length M))) eqn:El.
    + rewrite firstn_firstn. f_equal. lia.
    + apply Nat.leb_gt in El. rewrite (firstn_all2 M) by lia. rewrite (firstn_all2 M) by lia. reflexivity.
  - destruct (Nat.ltb L (length M)) eqn:El.
    + apply Nat.ltb_lt in El. apply Nat.leb_le. lia.
    + apply Nat.ltb_ge in El. apply Nat.leb_gt. lia.
Qed.

Theorem list_entries_exact : forall s d start incl L prefix pat excl,
  wf d -> trig_narrow prefix pat = false -> exact_at s d start incl L prefix pat excl.
Proof.
  intros s d start incl L prefix pat excl Hwf Ht. unfold exact_at, list_entries.
  destruct (stream_list_spec s d start incl (S L) prefix pat excl Hwf) as [r [E [S1 [S2 S3]]]].
  rewrite E. rewrite impl_sel_spec in S1 by auto. rewrite <- firstn_map in S1.
  fold (spec_names d start incl prefix pat excl) in S1.
  set (M := spec_names d start incl prefix pat excl) in *.
  destruct (page_cut M L) as [P1 P2].
  eexists _, _, r. split; [reflexivity|]. rewrite S1.
  split; [exact P1|]. split; [exact P2|]. split; assumption.
Qed.

Lemma skipn_shorter : forall {A} n (l : list A), firstn n l <> [] -> length (skipn n l) < length l.
Proof.
  intros A n l H. rewrite skipn_length. destruct n; [exfalso; apply H; reflexivity|].
  destruct l; [exfalso; apply H; reflexivity|]. simpl. lia.
Qed.

Theorem paginate_exact : forall fuel s d start incl L prefix pat excl,
  wf d -> trig_narrow prefix pat = false -> 0 < L ->
  length (spec_names d start incl prefix pat excl) < fuel ->
  exists pages, paginate fuel s d start incl L prefix pat excl = Some pages /\
                List.concat pages = spec_names d start incl prefix pat excl /\
                Forall (fun pg => length pg <= L) pages.
Proof.
  induction fuel as [|f IH]; intros s d start incl L prefix pat excl Hwf Ht HL Hf; [lia|].
  cbn [paginate].
  destruct (list_entries_exact s d start incl L prefix pat excl Hwf Ht) as [names [more [r [E [Hn [Hm [Hwf' Hlive]]]]]]].
  rewrite E. set (M := spec_names d start incl prefix pat excl) in *.
  assert (HnL : length names <= L) by (rewrite Hn, firstn_length; lia).
  destruct (more && negb (is_nil names)) eqn:Ec.
  - apply andb_true_iff in Ec. destruct Ec as [_ Hnn]. apply negb_true_iff in Hnn. apply is_nil_false in Hnn.
    rewrite Hn in Hnn.
    assert (Hrest : spec_names (r_dir r) (last_str names) false prefix pat excl = skipn L M).
    { rewrite (spec_names_live d (r_dir r)) by exact Hlive. rewrite Hn. apply spec_names_cont; auto. }
    destruct (IH s (r_dir r) (last_str names) false L prefix pat excl Hwf' Ht HL) as [pages [E2 [Hc Hall]]].
    { rewrite Hrest. pose proof (skipn_shorter L M Hnn). lia. }
    rewrite E2. exists (names :: pages). split; [reflexivity|]. split; [|constructor; auto].
    cbn [List.concat]. rewrite Hc, Hrest, Hn. apply firstn_skipn.
  - exists [names]. split; [reflexivity|]. split; [|constructor; auto].
    cbn [List.concat]. rewrite app_nil_r. rewrite Hn.
    apply andb_false_iff in Ec. destruct Ec as [Ec|Ec].
    + rewrite Hm in Ec. apply Nat.ltb_ge in Ec. apply firstn_all2. auto.
    + apply negb_false_iff in Ec. apply is_nil_true in Ec. rewrite Hn in Ec.
      apply firstn_nil_inv in Ec; [|auto]. rewrite Ec. destruct L; reflexivity.
Qed.

(* a page of the prefix listing and the request that continues it, in terms of the requested names *)
Lemma prefix_page : forall d start incl prefix q names last dir,
  names = map ename (firstn q (impl_sel start incl prefix "" "" d)) ->
  (last <> "" -> impl_sel last false prefix "" "" dir = skipn q (impl_sel start incl prefix "" "" d)) ->
  (last = "" -> names = []) ->
  names = firstn q (spec_names d start incl prefix "" "") /\
  (names <> [] -> spec_names dir last false prefix "" "" = skipn q (spec_names d start incl prefix "" "")).
Proof.
  intros d start incl prefix q names last dir Hn Hlast Hempty.
  rewrite !spec_names_impl, firstn_map, skipn_map. split; [exact Hn|].
  intros Hne. rewrite Hlast; [reflexivity|]. intro El. exact (Hne (Hempty El)).
Qed.

(* the gRPC style: follow StreamListDirectoryEntries' lastFileName *)
Theorem paginate_stream_exact : forall fuel s d start incl L prefix,
  wf d -> 0 < L -> length (spec_names d start incl prefix "" "") < fuel ->
  exists pages, paginate_stream fuel s d start incl L prefix = Some pages /\
                List.concat pages = spec_names d start incl prefix "" "" /\
                Forall (fun pg => length pg <= L) pages.
Proof.
  induction fuel as [|f IH]; intros s d start incl L prefix Hwf HL Hf; [lia|].
  cbn [paginate_stream].
  destruct (stream_list_full s d start incl L prefix "" "" Hwf) as [r [E [H1 [Hwf' [_ [H2 H3]]]]]]. rewrite E.
  destruct (prefix_page _ _ _ _ _ _ _ _ H1 H2 H3) as [Hn Hrest].
  set (M := spec_names d start incl prefix "" "") in *.
  destruct (is_nil (r_names r)) eqn:En.
  - exists []. split; [reflexivity|]. split; [|constructor]. apply is_nil_true in En.
    rewrite Hn in En. apply firstn_nil_inv in En; [|auto]. rewrite En. reflexivity.
  - apply is_nil_false in En. specialize (Hrest En). rewrite Hn in En.
    destruct (IH s (r_dir r) (r_last r) false L prefix Hwf' HL) as [pages [E2 [Hc Hall]]].
    { rewrite Hrest. pose proof (skipn_shorter L M En). lia. }
    rewrite E2. exists (r_names r :: pages). split; [reflexivity|]. split.
    + cbn [List.concat]. rewrite Hc, Hrest, Hn. apply firstn_skipn.
    + constructor; auto. rewrite Hn, firstn_length. lia.
Qed.

Lemma first_false_grpc : forall limit, first_false (grpc_answers limit) = Some (limit - 1).
Proof.
  intros. unfold grpc_answers. generalize (limit - 1) as n.
  induction n as [|n IH]; cbn [repeat app first_false]; [reflexivity|rewrite IH; reflexivity].
Qed.

Lemma page_join : forall {A} q limit (M : list A), q <= limit ->
  firstn q M ++ firstn (limit - length (firstn q M)) (skipn q M) = firstn limit M.
Proof.
  intros A q limit M Hq. destruct (Nat.le_gt_cases q (length M)) as [H|H].
  - rewrite firstn_length_le by exact H. replace limit with (q + (limit - q)) at 2 by lia.
    symmetry. apply firstn_add.
  - rewrite (firstn_all2 (n := q) M) by lia. rewrite (skipn_all2 (n := q) M) by lia.
    rewrite firstn_nil, app_nil_r. symmetry. apply firstn_all2. lia.
Qed.

(* c19_grpc_limit: the gRPC loop terminates and sends exactly the first [limit] matches of the prefix
   listing, in pages of at most [pag] entries *)
Theorem grpc_list_exact : forall fuel s d start incl limit pag prefix,
  wf d -> 0 < pag -> length (spec_names d start incl prefix "" "") < fuel ->
  exists pages, grpc_list fuel s d start incl limit pag prefix = Some pages /\
                List.concat pages = firstn limit (spec_names d start incl prefix "" "") /\
                Forall (fun pg => length pg <= pag) pages.
Proof.
  induction fuel as [|f IH]; intros s d start incl limit pag prefix Hwf Hpag Hf; [lia|].
  destruct limit as [|l']; [exists []; cbn; auto|].
  cbn [grpc_list]. set (limit := S l') in *.
  destruct (stream_list_s_full s d start incl pag prefix "" "" (grpc_answers limit) Hwf)
    as [rs [E [H1 [Hwf' [_ [H2 [H3 _]]]]]]].
  rewrite E.
  assert (Hq : stop_want pag (grpc_answers limit) = Nat.min pag limit).
  { unfold stop_want. rewrite first_false_grpc. f_equal. unfold limit. lia. }
  rewrite Hq in H1, H2. set (q := Nat.min pag limit) in *.
  destruct (prefix_page _ _ _ _ _ _ _ _ H1 H2 H3) as [Hn Hrest].
  set (M := spec_names d start incl prefix "" "") in *.
  destruct (is_nil (s_names rs)) eqn:En.
  - exists []. split; [reflexivity|]. split; [|constructor]. apply is_nil_true in En.
    rewrite Hn in En. apply firstn_nil_inv in En; [|unfold q, limit; lia]. rewrite En, firstn_nil. reflexivity.
  - apply is_nil_false in En. specialize (Hrest En). rewrite Hn in En.
    destruct (IH s (s_dir rs) (s_last rs) false (limit - length (s_names rs)) pag prefix Hwf' Hpag) as [pages [E2 [Hc Hall]]].
    { rewrite Hrest. pose proof (skipn_shorter q M En). lia. }
    rewrite E2. exists (s_names rs :: pages). split; [reflexivity|]. split.
    + cbn [List.concat]. rewrite Hc, Hrest, Hn. apply page_join. unfold q. lia.
    + constructor; auto. rewrite Hn, firstn_length. unfold q. lia.
Qed.

Definition stop_dir : dirst := [("a", true); ("b", false); ("c", false); ("d", false)].
Definition stop_dir_live : dirst := [("a", false); ("b", false); ("c", false); ("d", false)].
Definition grpc_dir : dirst := [("a", false); ("b", false); ("c", true); ("d", false); ("e", false); ("f", false)].

Definition s_proj (o : option sres) : option (list string * string) := option_map (fun r => (s_names r, s_last r)) o.

(* the callback answers false on its first call (entry b): neither the expired-entries refill
   (doListValidEntries) nor the missed-entries refill (StreamListDirectoryEntries) calls it with c;
   the gRPC loop with limit 3 and page size 2 sends a,b,d *)
Lemma stop_repaired :
  wf stop_dir /\ wf stop_dir_live /\ wf grpc_dir /\
  s_proj (stream_list_s Lvl stop_dir "" false 3 "" "" "" [false]) = Some (["b"], "b") /\
  s_proj (stream_list_s Gen stop_dir "" false 3 "" "" "" [false]) = Some (["b"], "b") /\
  s_proj (stream_list_s Lvl stop_dir_live "" false 2 "" "" "a" [false]) = Some (["b"], "b") /\
  s_proj (stream_list_s Gen stop_dir_live "" false 2 "" "" "a" [false]) = Some (["b"], "b") /\
  stop_respected [false] ["b"] = true /\
  grpc_list 10 Lvl grpc_dir "" false 3 2 "" = Some [["a"; "b"]; ["d"]] /\
  grpc_list 10 Gen grpc_dir "" false 3 2 "" = Some [["a"; "b"]; ["d"]] /\
  firstn 3 (spec_names grpc_dir "" false "" "" "") = ["a"; "b"; "d"].
Proof.
  split; [wf_by_compute|]. split; [wf_by_compute|]. split; [wf_by_compute|]. conj_compute.
Qed.

(* non-vacuity: callbacks that never refuse, refuse late, refuse while entries are still owed *)
Example stop_example :
  stop_want 2 [true; true] = 2 /\ stop_want 3 [true; false] = 2 /\ stop_want 4 [true; false; false] = 2 /\
  s_proj (stream_list_s Lvl stop_dir "" false 2 "" "" "" [true; true]) = Some (["b"; "c"], "c") /\
  s_proj (stream_list_s Gen stop_dir "" false 2 "" "*" "d" [true; true]) = Some (["b"; "c"], "c") /\
  s_proj (stream_list_s Lvl stop_dir_live "" false 3 "" "" "" [true; false]) = Some (["a"; "b"], "b") /\
  s_proj (stream_list_s Gen stop_dir "" false 4 "" "" "b" [true; false; false]) = Some (["c"; "d"], "d").
Proof. conj_compute. Qed.
