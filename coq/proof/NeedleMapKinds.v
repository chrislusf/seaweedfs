(* C05 proofs: the LevelDB-backed map and the sorted-file map against the reference;
   replay of the .idx by generateLevelDbFile / readNeedleMap. *)
From Coq Require Import List NArith ZArith Bool Lia Sorted Arith.
From Coq Require Import ZifyBool ZifyN ZifyNat.
From SW Require Import model.NeedleMap proof.EcIndexProofs proof.NeedleMapRefine proof.NeedleMapProofs.
Import ListNotations.
Local Open Scope N_scope.

Lemma om_put_in : forall m k v x, In x (om_put m k v) -> x = (k, v) \/ In x m.
Proof.
  induction m as [|[k' v'] r IH]; intros k v x H; simpl in H.
  - destruct H as [<-|[]]. left. reflexivity.
  - destruct (k <? k'); [destruct H as [<-|H]; [left; reflexivity|right; assumption]|].
    destruct (k =? k').
    + destruct H as [<-|H]; [left; reflexivity|right; right; assumption].
    + destruct H as [<-|H]; [right; left; reflexivity|]. destruct (IH k v x H); [left|right; right]; assumption.
Qed.

Lemma om_put_sorted : forall m k v, kv_sorted m -> kv_sorted (om_put m k v).
Proof.
  induction m as [|[k' v'] r IH]; intros k v Hs; simpl.
  - constructor; constructor.
  - inversion Hs as [|? ? Hs' Hall]; subst. rewrite Forall_forall in Hall.
    destruct (N.ltb_spec k k') as [Hlt|Hge].
    + constructor; [assumption|]. constructor; [simpl; lia|].
      rewrite Forall_forall. intros x Hx. specialize (Hall x Hx). simpl in *. lia.
    + destruct (N.eqb_spec k k') as [->|Hne].
      * constructor; [assumption|]. rewrite Forall_forall. intros x Hx. apply (Hall x Hx).
      * constructor; [apply IH; assumption|]. rewrite Forall_forall. intros x Hx.
        apply om_put_in in Hx. destruct Hx as [->|Hx]; [simpl; lia|apply (Hall x Hx)].
Qed.

Lemma om_del_sorted : forall m k, kv_sorted m -> kv_sorted (om_del m k).
Proof. intros m k H. rewrite om_del_filter by assumption. apply kv_sorted_filter. assumption. Qed.

Lemma om_get_put : forall m k v k', kv_sorted m ->
  om_get (om_put m k v) k' = if k' =? k then Some v else om_get m k'.
Proof.
  induction m as [|[a va] r IH]; intros k v k' Hs; simpl.
  - destruct (N.eqb_spec k' k); reflexivity.
  - inversion Hs as [|? ? Hs' Hall]; subst.
    destruct (N.ltb_spec k a) as [Hlt|Hge].
    + simpl. destruct (N.eqb_spec k' k); reflexivity.
    + destruct (N.eqb_spec k a) as [->|Hne].
      * simpl. destruct (N.eqb_spec k' a); reflexivity.
      * simpl. destruct (N.eqb_spec k' a) as [->|Hne'].
        -- destruct (N.eqb_spec a k); [congruence|reflexivity].
        -- apply IH. assumption.
Qed.

(* on a sorted map om_del is the filter that [ref_remove] is, and [om_get] is [ref_get] *)
Lemma om_get_del : forall m k k', kv_sorted m ->
  om_get (om_del m k) k' = if k' =? k then None else om_get m k'.
Proof. intros m k k' Hs. rewrite om_del_filter by assumption. apply (ref_get_remove m k k'). Qed.

Definition ldb_rel (s : ldb) (r : rmap) : Prop :=
  kv_sorted (l_db s) /\ forall k, om_get (l_db s) k = ref_get r k.

Lemma ldb_step_rel : forall osz s r o, ldb_rel s r ->
  ldb_rel (fst (ldb_step osz s o)) (fst (ref_step r o)) /\
  snd (ldb_step osz s o) = match snd (ref_step r o) with RGet v => Some v | _ => None end.
Proof.
  intros osz s r o [Hs Hrel]. destruct o as [k off sz|k off|k].
  - cbn [ldb_step fst snd]. rewrite ref_step_put_fst, ref_step_put_snd.
    split; [|destruct (ref_get r k) as [[]|]; reflexivity].
    unfold ldb_rel, ldb_put. cbn [l_db]. split; [apply om_put_sorted; assumption|].
    intros k'. rewrite om_get_put by assumption. rewrite ref_get_put. rewrite Hrel. reflexivity.
  - cbn [ldb_step ref_step fst snd].
    unfold ldb_delete. rewrite (Hrel k). destruct (ref_get r k) as [[ro rs]|] eqn:G.
    + unfold size_is_deleted, tombstone.
      destruct (Z.ltb_spec 0 rs) as [Hp|Hp]; cbn [fst snd].
      * destruct (Z.ltb_spec rs 0); [lia|]. destruct (Z.eqb_spec rs (-1)); [lia|]. cbn [orb].
        split; [|reflexivity]. unfold ldb_rel. cbn [l_db]. split; [apply om_put_sorted; assumption|].
        intros k'. rewrite om_get_put by assumption. rewrite ref_get_put, Hrel. reflexivity.
      * destruct (Z.ltb_spec rs 0) as [Hn|Hn]; cbn [orb].
        -- split; [split; assumption|reflexivity].
        -- assert (rs = 0%Z) by lia. subst rs. change (0 =? -1)%Z with false.
           split; [|reflexivity]. unfold ldb_rel. cbn [l_db]. split; [apply om_put_sorted; assumption|].
           intros k'. rewrite om_get_put by assumption. rewrite Hrel.
           destruct (N.eqb_spec k' k) as [->|]; [rewrite G|]; reflexivity.
    + cbn [fst snd]. split; [split; assumption|reflexivity].
  - cbn [ldb_step ref_step fst snd]. split; [split; assumption|]. unfold ldb_get. rewrite Hrel.
    destruct (ref_get r k) as [[ro rs]|]; reflexivity.
Qed.

Lemma ldb_run_rel : forall osz ops s r, ldb_rel s r ->
  ldb_rel (snd (ldb_run osz s ops)) (snd (ref_run r ops)).
Proof.
  intros osz ops. induction ops as [|o ops IH]; intros s r H; [exact H|].
  cbn [ldb_run ref_run]. destruct (ldb_step_rel osz s r o H) as [Hn _].
  destruct (ldb_step osz s o) as [s' x]. destruct (ref_step r o) as [r' y]. cbn [fst] in Hn.
  specialize (IH s' r' Hn). destruct (ldb_run osz s' ops). destruct (ref_run r' ops). exact IH.
Qed.

Lemma ldb_rel0 : ldb_rel ldb0 [].
Proof. split; [constructor|reflexivity]. Qed.

Theorem ldb_refines : forall osz ops k,
  ldb_get (snd (ldb_run osz ldb0 ops)) k =
  match ref_get (snd (ref_run [] ops)) k with Some (off, sz) => Some (k, off, sz) | None => None end.
Proof.
  intros osz ops k. destruct (ldb_run_rel osz ops ldb0 [] ldb_rel0) as [_ H].
  unfold ldb_get. rewrite H. reflexivity.
Qed.

Definition live_part (v : option (N * Z)) : option (N * Z) :=
  match v with Some (off, sz) => if (sz <? 0)%Z then None else Some (off, sz) | None => None end.

Section Replay.
  Variable stp : omap -> entry -> omap.
  Hypothesis stp_put : forall m k off sz, off <> 0 -> (0 < sz)%Z ->
    stp m (mk_entry k off sz) = om_put m k (off, sz).
  Hypothesis stp_tomb : forall m k off, stp m (mk_entry k off tombstone) = om_del m k.

  Lemma replay_live : forall ops m r,
    kv_sorted m -> (forall k, om_get m k = live_part (ref_get r k)) ->
    disciplined_from r ops = true -> trig_empty_put ops = false ->
    let m' := fold_left stp (entries_of ops) m in
    kv_sorted m' /\ (forall k, om_get m' k = live_part (ref_get (snd (ref_run r ops)) k)) /\
    (forall x, In x m' -> In x m \/ exists k off sz, In (Put k off sz) ops /\ x = (k, (off, sz))).
  Proof.
    induction ops as [|o ops IH]; intros m r Hs Hrel Hd He; [simpl; auto|].
    cbn [disciplined_from] in Hd. apply andb_true_iff in Hd. destruct Hd as [Hd1 Hd2].
    cbn [trig_empty_put existsb] in He. apply orb_false_iff in He. destruct He as [He1 He2].
    cbn [entries_of flat_map]. fold (entries_of ops). rewrite fold_left_app.
    cbn [ref_run]. destruct (ref_step r o) as [r' y] eqn:Er. cbn [fst] in Hd2.
    assert (Hsnd : snd (let '(rs, fin) := ref_run r' ops in (y :: rs, fin)) = snd (ref_run r' ops))
      by (destruct (ref_run r' ops); reflexivity).
    rewrite Hsnd. clear Hsnd.
    destruct o as [k off sz|k off|k].
    - apply andb_true_iff in Hd1. destruct Hd1 as [Hoff Hsz].
      cbn [entry_of_op fold_left]. rewrite stp_put by lia.
      assert (Er' : r' = ref_put r k (off, sz)) by (rewrite <- (ref_step_put_fst r k off sz), Er; reflexivity).
      subst r'.
      destruct (IH (om_put m k (off, sz)) (ref_put r k (off, sz))) as [A [B C]]; auto.
      + apply om_put_sorted. assumption.
      + intros k'. rewrite om_get_put by assumption. rewrite ref_get_put.
        destruct (N.eqb_spec k' k); [|apply Hrel]. simpl. destruct (Z.ltb_spec sz 0); [lia|reflexivity].
      + split; [exact A|]. split; [exact B|]. intros x Hx. destruct (C x Hx) as [Hin|[k0 [o0 [s0 [Hin E]]]]].
        * apply om_put_in in Hin. destruct Hin as [->|Hin]; [|left; assumption].
          right. exists k, off, sz. split; [left; reflexivity|reflexivity].
        * right. exists k0, o0, s0. split; [right; assumption|assumption].
    - destruct (ref_get r k) as [[ro rs]|] eqn:G; [|discriminate].
      assert (Hlive : (0 < rs)%Z) by lia.
      rewrite (ref_step_del_live r k off ro rs G Hlive) in Er. injection Er as <- <-.
      cbn [entry_of_op fold_left]. rewrite stp_tomb.
      destruct (IH (om_del m k) (ref_put r k (ro, (- rs)%Z))) as [A [B C]]; auto.
      + apply om_del_sorted. assumption.
      + intros k'. rewrite om_get_del by assumption. rewrite ref_get_put.
        destruct (N.eqb_spec k' k); [|apply Hrel]. simpl. destruct (Z.ltb_spec (- rs) 0); [reflexivity|lia].
      + split; [exact A|]. split; [exact B|]. intros x Hx. destruct (C x Hx) as [Hin|[k0 [o0 [s0 [Hin E]]]]].
        * left. rewrite om_del_filter in Hin by assumption. apply filter_In in Hin. tauto.
        * right. exists k0, o0, s0. split; [right; assumption|assumption].
    - cbn [ref_step] in Er. injection Er as <- <-. cbn [entry_of_op fold_left].
      destruct (IH m r) as [A [B C]]; auto.
      split; [exact A|]. split; [exact B|]. intros x Hx. destruct (C x Hx) as [Hin|[k0 [o0 [s0 [Hin E]]]]].
      + left. assumption.
      + right. exists k0, o0, s0. split; [right; assumption|assumption].
  Qed.
End Replay.

Lemma gen_step_put : forall m k off sz, off <> 0 -> (0 < sz)%Z ->
  gen_step m (mk_entry k off sz) = om_put m k (off, sz).
Proof.
  intros. unfold gen_step. cbn [mk_entry e_key e_off e_size]. rewrite size_is_valid_pos.
  destruct (N.eqb_spec off 0); [contradiction|]. destruct (Z.ltb_spec 0 sz); [reflexivity|lia].
Qed.
Lemma gen_step_tomb : forall m k off, gen_step m (mk_entry k off tombstone) = om_del m k.
Proof. intros. unfold gen_step. cbn [mk_entry e_key e_off e_size]. rewrite andb_false_r. reflexivity. Qed.
Lemma rnm_step_put : forall m k off sz, off <> 0 -> (0 < sz)%Z ->
  rnm_step m (mk_entry k off sz) = om_put m k (off, sz).
Proof.
  intros. unfold rnm_step, tombstone. cbn [mk_entry e_key e_off e_size].
  destruct (N.eqb_spec off 0); [contradiction|]. destruct (Z.eqb_spec sz (-1)); [lia|]. reflexivity.
Qed.
Lemma rnm_step_tomb : forall m k off, rnm_step m (mk_entry k off tombstone) = om_del m k.
Proof.
  intros. unfold rnm_step, tombstone. cbn [mk_entry e_key e_off e_size].
  change ((-1 =? -1)%Z) with true. rewrite andb_false_r. reflexivity.
Qed.

Lemma ldb_run_idx : forall osz ops s r, ldb_rel s r -> disciplined_from r ops = true ->
  l_idx (snd (ldb_run osz s ops)) = l_idx s ++ encode osz (entries_of ops).
Proof.
  intros osz ops. induction ops as [|o ops IH]; intros s r Hrel Hd; [simpl; symmetry; apply app_nil_r|].
  cbn [disciplined_from] in Hd. apply andb_true_iff in Hd. destruct Hd as [Hd1 Hd2].
  destruct (ldb_step_rel osz s r o Hrel) as [Hn _].
  cbn [ldb_run]. destruct (ldb_step osz s o) as [s' x] eqn:E. cbn [fst] in Hn.
  specialize (IH s' _ Hn Hd2). destruct (ldb_run osz s' ops) as [rs fin]. cbn [snd] in *.
  rewrite IH. cbn [entries_of flat_map]. fold (entries_of ops). rewrite encode_app, app_assoc. f_equal.
  destruct Hrel as [_ Hrel].
  destruct o as [k off sz|k off|k]; cbn [ldb_step] in E; injection E as <- _.
  - unfold ldb_put. cbn [l_idx entry_of_op]. unfold encode. simpl. rewrite app_nil_r. reflexivity.
  - unfold ldb_delete. rewrite Hrel. destruct (ref_get r k) as [[ro rs']|]; [|discriminate].
    assert ((0 < rs')%Z) by lia. unfold size_is_deleted, tombstone.
    destruct (Z.ltb_spec rs' 0); [lia|]. destruct (Z.eqb_spec rs' (-1)); [lia|]. cbn [orb l_idx entry_of_op].
    unfold encode. simpl. rewrite app_nil_r. reflexivity.
  - simpl. symmetry. apply app_nil_r.
Qed.

Theorem ldb_reload_lookups : forall osz ops k, ok_osz osz ->
  forallb (op_in_range osz) ops = true -> disciplined ops = true -> trig_empty_put ops = false ->
  let s := snd (ldb_run osz ldb0 ops) in
  live_view (ldb_get (ldb_load osz (l_idx s)) k) = live_view (ldb_get s k).
Proof.
  intros osz ops k Hosz Hr Hd He s.
  pose proof (ldb_run_idx osz ops ldb0 [] ldb_rel0 Hd) as Hidx. cbn [ldb0 l_idx app] in Hidx. fold ldb0 in Hidx.
  unfold s. rewrite ldb_refines. unfold ldb_get, ldb_load. cbn [l_db]. rewrite Hidx.
  rewrite walk_encode by (try assumption; apply entries_wf; assumption).
  destruct (replay_live gen_step gen_step_put gen_step_tomb ops [] [] ltac:(constructor) ltac:(reflexivity) Hd He) as [_ [B _]].
  cbv zeta in B. rewrite B. unfold live_part, live_view.
  destruct (ref_get (snd (ref_run [] ops)) k) as [[off sz]|]; [|reflexivity].
  destruct (sz <? 0)%Z eqn:E; simpl; rewrite ?E; reflexivity.
Qed.

Lemma lookup_om_get : forall m k, lookup k (map entry_of_kv m) = om_get m k.
Proof.
  induction m as [|[a [o s]] r IH]; intros k; [reflexivity|]. unfold lookup in *. simpl.
  destruct (N.eqb_spec a k) as [->|Hne].
  - rewrite N.eqb_refl. reflexivity.
  - destruct (N.eqb_spec k a); [congruence|]. apply IH.
Qed.

Lemma sorted_keys_of_kv : forall m, kv_sorted m -> sorted_keys (map entry_of_kv m).
Proof. intros m. apply (sorted_by_keys fst e_key). rewrite map_map. reflexivity. Qed.

Theorem sorted_file_get : forall osz batch ops k, ok_osz osz -> k < two64 ->
  forallb (op_in_range osz) ops = true -> disciplined ops = true -> trig_empty_put ops = false ->
  let s := snd (nm_run osz batch nm0 ops) in
  sf_get osz (write_sorted_from_idx osz (nm_idx s)) k = live_view (nm_get batch s k).
Proof.
  intros osz batch ops k Hosz Hk Hr Hd He s.
  pose proof (nm_run_idx osz batch ops nm0) as Hidx. cbn [nm0 nm_idx app] in Hidx. fold nm0 in Hidx.
  unfold s. unfold write_sorted_from_idx, read_needle_map. rewrite Hidx.
  rewrite walk_encode by (try assumption; apply entries_wf; assumption).
  destruct (replay_live rnm_step rnm_step_put rnm_step_tomb ops [] [] ltac:(constructor) ltac:(reflexivity) Hd He) as [A [B C]].
  cbv zeta in A, B, C. set (M := fold_left rnm_step (entries_of ops) []) in *.
  assert (Hwf : Forall (wf_entry osz) (map entry_of_kv M)).
  { rewrite Forall_forall. intros e Hin. apply in_map_iff in Hin. destruct Hin as [x [<- Hx]].
    destruct (C x Hx) as [[]|[k0 [o0 [s0 [Hin ->]]]]].
    rewrite forallb_forall in Hr. specialize (Hr _ Hin). cbn [op_in_range] in Hr.
    unfold wf_entry, entry_of_kv. simpl. lia. }
  unfold sf_get, nm_get.
  rewrite (sorted_get_lookup osz _ k Hosz Hwf (sorted_keys_of_kv M A)), lookup_om_get, B, nm_run_map.
  (* the memory map's answer is the reference's *)
  rewrite lookup_refines by (try assumption; apply (keys_ok_of_range osz); assumption).
  unfold live_part, live_view.
  destruct (ref_get (snd (ref_run [] ops)) k) as [[off rs]|]; [destruct (rs <? 0)%Z|]; reflexivity.
Qed.

(* known finding 1, concretely: the counters recomputed from the .idx of a key written twice *)
Definition rewrite_witness : list op := [Put 1 1 10%Z; Put 1 2 20%Z].

Theorem ldb_reload_counters_refuted : exists osz ops, ok_osz osz /\
  forallb (op_in_range osz) ops = true /\ disciplined ops = true /\ trig_empty_put ops = false /\
  l_met (ldb_load osz (l_idx (snd (ldb_run osz ldb0 ops)))) <> l_met (snd (ldb_run osz ldb0 ops)).
Proof.
  exists 4, rewrite_witness. split; [left; reflexivity|]. repeat split; try reflexivity.
  vm_compute. intros H. discriminate.
Qed.
