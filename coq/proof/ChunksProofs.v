(* C17: [iok lo hi l] (Section Intervals): l is sorted, its intervals [lo a, hi a) are non-empty and
   pairwise disjoint.  It is the invariant of the visible intervals (vis_ok, kept by
   MergeIntoVisibles: merge_ok, merge_src) and of the chunk views (views_ok, ChunksRead.v). *)
From Coq Require Import List NArith Bool Arith Lia Permutation Sorted.
From Coq Require Import ZifyBool ZifyN ZifyNat.
From SW Require Import model.Chunks.
Import ListNotations.
Local Open Scope N_scope.

Lemma ss_app : forall {A} (R : A -> A -> Prop) l1 l2,
  StronglySorted R l1 -> StronglySorted R l2 -> (forall a b, In a l1 -> In b l2 -> R a b) ->
  StronglySorted R (l1 ++ l2).
Proof.
  intros A R l1 l2 H1 H2 H3. induction H1 as [|x l1 Hs IH Hf]; simpl; auto.
  constructor.
  - apply IH. intros a b Ha. apply H3. right. exact Ha.
  - apply Forall_app. split; auto. apply Forall_forall. intros y Hy. apply H3; [left|]; auto.
Qed.

Lemma ss_rev : forall {A} (R : A -> A -> Prop) l,
  StronglySorted R l -> StronglySorted (fun a b => R b a) (rev l).
Proof.
  intros A R l H. induction H as [|x l Hs IH Hf]; simpl; [constructor|].
  apply ss_app; auto.
  - constructor; [constructor|constructor].
  - intros a b Ha [Hb|[]]; subst. rewrite Forall_forall in Hf. apply Hf. apply in_rev. auto.
Qed.

Lemma ss_in_cons : forall {A} (R : A -> A -> Prop) x l y,
  StronglySorted R (x :: l) -> In y l -> R x y.
Proof.
  intros A R x l y H Hy. inversion H as [|? ? _ Hf]; subst. rewrite Forall_forall in Hf. auto.
Qed.

Lemma filter_perm_partition : forall {A} (f : A -> bool) l,
  Permutation (filter f l ++ filter (fun x => negb (f x)) l) l.
Proof.
  intros A f l. induction l as [|x l IH]; simpl; auto.
  destruct (f x); simpl.
  - constructor. auto.
  - eapply perm_trans; [apply Permutation_sym, Permutation_middle|]. constructor. auto.
Qed.

Section Intervals.
  Context {A : Type} (lo hi : A -> N).
  (* position p lies in the interval of a *)
  Definition icov (a : A) (p : N) : bool := (lo a <=? p) && (p <? hi a).
  Definition iok (l : list A) : Prop :=
    StronglySorted (fun a b => hi a <= lo b) l /\ Forall (fun a => lo a < hi a) l.

  Lemma iok_nil : iok [].
  Proof. split; constructor. Qed.

  Lemma iok_tail : forall x l, iok (x :: l) -> iok l.
  Proof. intros x l [H1 H2]. inversion H1; inversion H2; subst. split; auto. Qed.

  Lemma ifind_unique : forall l a p, iok l -> In a l -> icov a p = true ->
    find (fun x => icov x p) l = Some a.
  Proof.
    induction l as [|x l IH]; intros a p Hok Hin Hc; simpl in *; [tauto|].
    destruct (icov x p) eqn:Ex.
    - destruct Hin as [Hin|Hin]; subst; auto. exfalso.
      destruct Hok as [Hs _]. pose proof (ss_in_cons _ _ _ _ Hs Hin) as Hle. simpl in Hle.
      unfold icov in *. lia.
    - destruct Hin as [Hin|Hin]; subst; [congruence|]. apply IH; auto. eapply iok_tail; eauto.
  Qed.

  Lemma ifind_none : forall l p, (forall a, In a l -> icov a p = false) ->
    find (fun x => icov x p) l = None.
  Proof.
    induction l as [|x l IH]; intros p H; simpl; auto.
    rewrite (H x) by (left; auto). apply IH. intros a Ha. apply H. right. auto.
  Qed.

  Lemma ifind_some : forall l p a, find (fun x => icov x p) l = Some a -> In a l /\ icov a p = true.
  Proof. intros l p a H. apply find_some in H. auto. Qed.
End Intervals.

(* cutting every interval into a well-formed list of pieces inside it keeps the list well-formed
   (used for split_visible and for view_of) *)
Lemma iok_flat_map : forall {A B} (lo hi : A -> N) (lo' hi' : B -> N) (f : A -> list B) l,
  iok lo hi l ->
  (forall a, lo a < hi a -> iok lo' hi' (f a) /\ forall b, In b (f a) -> lo a <= lo' b /\ hi' b <= hi a) ->
  iok lo' hi' (flat_map f l).
Proof.
  intros A B lo hi lo' hi' f l Hok Hf. induction l as [|a l IH]; simpl; [apply iok_nil|].
  pose proof Hok as [Hs Hne]. inversion Hne as [|? ? Ha Hne']; subst.
  destruct (Hf a Ha) as [[Fs Fne] Fin]. destruct (IH (iok_tail _ _ _ _ Hok)) as [Is Ine].
  split; [|apply Forall_app; auto].
  apply ss_app; auto.
  intros b b' Hb Hb'. apply in_flat_map in Hb'. destruct Hb' as [a' [Ha' Hb']].
  rewrite Forall_forall in Hne'. destruct (Hf a' (Hne' a' Ha')) as [_ Fin'].
  pose proof (ss_in_cons _ _ _ _ Hs Ha') as Hle. simpl in Hle.
  specialize (Fin b Hb). specialize (Fin' b' Hb'). lia.
Qed.

Definition vis_ok (vs : list visible_interval) : Prop := iok v_start v_stop vs.

Lemma vcovers_icov : forall v p, vcovers v p = icov v_start v_stop v p.
Proof. reflexivity. Qed.

Lemma last_visible_none : forall vs, last_visible vs = None -> vs = [].
Proof.
  induction vs as [|x vs IH]; simpl; auto. destruct vs as [|y vs]; [discriminate|].
  intro H. apply IH in H. discriminate.
Qed.

Lemma last_visible_max : forall vs l v, vis_ok vs -> last_visible vs = Some l -> In v vs ->
  v_stop v <= v_stop l.
Proof.
  induction vs as [|x vs IH]; intros l v Hok El Hv; [destruct Hv|].
  destruct vs as [|y vs].
  - inversion El; subst. destruct Hv as [Hv|[]]. subst. lia.
  - pose proof (IH l y (iok_tail _ _ _ _ Hok) El (or_introl eq_refl)) as Hy.
    destruct Hv as [Hv|Hv]; [subst v|apply (IH l v (iok_tail _ _ _ _ Hok) El Hv)].
    destruct Hok as [Hs Hne]. pose proof (ss_in_cons _ _ _ _ Hs (or_introl eq_refl)) as Hxy.
    inversion Hne as [|? ? _ Hne']; subst. inversion Hne' as [|? ? Hy' _]; subst. simpl in *. lia.
Qed.

Lemma split_in : forall off stop v w, v_start v < v_stop v -> off <= stop ->
  In w (split_visible off stop v) ->
  v_fid w = v_fid v /\ v_mtime w = v_mtime v /\ v_csize w = v_csize v /\
  v_start v <= v_start w /\ v_stop w <= v_stop v /\ v_start w < v_stop w /\
  (v_stop w <= off \/ stop <= v_start w) /\
  v_coff w + v_start v = v_coff v + v_start w.
Proof.
  intros off stop v w Hne Hos Hin. unfold split_visible in Hin.
  apply in_app_or in Hin. destruct Hin as [Hin|Hin].
  - destruct ((v_start v <? off) && (off <? v_stop v)) eqn:E; [|destruct Hin].
    destruct Hin as [Hin|[]]. subst w. simpl. repeat split; lia.
  - apply in_app_or in Hin. destruct Hin as [Hin|Hin].
    + destruct ((v_start v <? stop) && (stop <? v_stop v)) eqn:E; [|destruct Hin].
      destruct Hin as [Hin|[]]. subst w. simpl. repeat split; lia.
    + destruct ((stop <=? v_start v) || (v_stop v <=? off)) eqn:E; [|destruct Hin].
      destruct Hin as [Hin|[]]. subst w. repeat split; lia.
Qed.

Lemma split_cover : forall off stop v p, v_start v < v_stop v ->
  vcovers v p = true -> (off <=? p) && (p <? stop) = false ->
  exists w, In w (split_visible off stop v) /\ vcovers w p = true.
Proof.
  intros off stop v p Hne Hc Hn. unfold vcovers in Hc. unfold split_visible.
  destruct (N.lt_ge_cases p off) as [Ep|Ep].
  - destruct (N.le_gt_cases (v_stop v) off) as [E1|E1].
    + exists v. split.
      * apply in_or_app. right. apply in_or_app. right.
        replace ((stop <=? v_start v) || (v_stop v <=? off)) with true by lia. simpl. left. auto.
      * unfold vcovers. lia.
    + eexists. split.
      * apply in_or_app. left.
        replace ((v_start v <? off) && (off <? v_stop v)) with true by lia. simpl. left. reflexivity.
      * unfold vcovers. simpl. lia.
  - destruct (N.le_gt_cases stop (v_start v)) as [E1|E1].
    + exists v. split.
      * apply in_or_app. right. apply in_or_app. right.
        replace ((stop <=? v_start v) || (v_stop v <=? off)) with true by lia. simpl. left. auto.
      * unfold vcovers. lia.
    + eexists. split.
      * apply in_or_app. right. apply in_or_app. left.
        replace ((v_start v <? stop) && (stop <? v_stop v)) with true by lia. simpl. left. reflexivity.
      * unfold vcovers. simpl. lia.
Qed.

Lemma split_id : forall off stop v, v_stop v <= off -> off <= stop -> split_visible off stop v = [v].
Proof.
  intros off stop v H1 H2. unfold split_visible.
  replace ((v_start v <? off) && (off <? v_stop v)) with false by lia.
  replace ((v_start v <? stop) && (stop <? v_stop v)) with false by lia.
  replace ((stop <=? v_start v) || (v_stop v <=? off)) with true by lia. reflexivity.
Qed.

Lemma split_sorted : forall off stop v, v_start v < v_stop v -> off <= stop ->
  StronglySorted (fun a b => v_stop a <= v_start b) (split_visible off stop v).
Proof.
  (* the left piece ends at off <= stop, where the right piece starts; v itself is kept only when
     there is neither *)
  intros off stop v Hne Hos. unfold split_visible.
  destruct ((v_start v <? off) && (off <? v_stop v)) eqn:E1;
  destruct ((v_start v <? stop) && (stop <? v_stop v)) eqn:E2;
  destruct ((stop <=? v_start v) || (v_stop v <=? off)) eqn:E3; simpl;
  try (exfalso; lia);
  repeat (constructor; simpl; try lia).
Qed.

Lemma flat_split_ok : forall off stop vs, vis_ok vs -> off <= stop ->
  vis_ok (flat_map (split_visible off stop) vs).
Proof.
  intros off stop vs Hok Hos. apply (iok_flat_map v_start v_stop); auto.
  intros v Hv. split; [split; [apply split_sorted; auto|apply Forall_forall]|];
    intros w Hw; pose proof (split_in _ _ _ _ Hv Hos Hw); tauto.
Qed.

Lemma flat_split_id : forall off stop vs, (forall v, In v vs -> v_stop v <= off) -> off <= stop ->
  flat_map (split_visible off stop) vs = vs.
Proof.
  intros off stop vs H Hos. induction vs as [|v vs IH]; simpl; [reflexivity|].
  rewrite split_id, IH; auto; [intros; apply H; right; auto|apply H; left; auto].
Qed.

Lemma ins_rev_in : forall nv rb w, In w (ins_rev nv rb) <-> w = nv \/ In w rb.
Proof.
  intros nv rb w. induction rb as [|x r IH]; simpl.
  - intuition.
  - destruct (v_start nv <? v_start x); simpl; rewrite ?IH; intuition.
Qed.

Lemma insert_from_back_in : forall nv body w, In w (insert_from_back nv body) <-> w = nv \/ In w body.
Proof.
  intros. unfold insert_from_back. rewrite <- in_rev. rewrite ins_rev_in. rewrite <- in_rev. tauto.
Qed.

Lemma ins_back_last : forall nv body, (forall x, In x body -> v_start x <= v_start nv) ->
  insert_from_back nv body = body ++ [nv].
Proof.
  intros nv body H. unfold insert_from_back.
  assert (E : ins_rev nv (rev body) = nv :: rev body).
  { destruct (rev body) as [|x r] eqn:Er; [reflexivity|]. simpl.
    assert (Hx : In x body) by (apply in_rev; rewrite Er; left; auto).
    specialize (H x Hx). replace (v_start nv <? v_start x) with false by lia. reflexivity. }
  rewrite E. simpl. rewrite rev_involutive. reflexivity.
Qed.

Lemma ins_rev_sorted : forall nv rb,
  StronglySorted (fun a b => v_stop b <= v_start a) rb ->
  Forall (fun x => v_start x < v_stop x) rb -> v_start nv < v_stop nv ->
  (forall x, In x rb -> v_stop x <= v_start nv \/ v_stop nv <= v_start x) ->
  StronglySorted (fun a b => v_stop b <= v_start a) (ins_rev nv rb).
Proof.
  intros nv rb Hs. induction Hs as [|x r Hs IH Hf]; intros Hne Hnv Hd; simpl.
  - repeat constructor.
  - inversion Hne as [|? ? Hx Hne']; subst.
    rewrite Forall_forall in Hf, Hne'.
    destruct (v_start nv <? v_start x) eqn:E.
    + constructor.
      * apply IH; auto. { apply Forall_forall; auto. } intros y Hy. apply Hd. right. auto.
      * apply Forall_forall. intros y Hy. apply ins_rev_in in Hy. destruct Hy as [Hy|Hy]; subst; auto.
        destruct (Hd x (or_introl eq_refl)); lia.
    + constructor; [constructor; auto; apply Forall_forall; auto|].
      apply Forall_forall. intros y [Hy|Hy]; subst.
      * destruct (Hd y (or_introl eq_refl)); lia.
      * specialize (Hf y Hy). specialize (Hne' y Hy). simpl in Hf.
        destruct (Hd x (or_introl eq_refl)); lia.
Qed.

(* the fast path (the chunk starts after everything visible) is the general path taken early *)
Lemma merge_eq : forall vs c, vis_ok vs -> 0 < c_size c ->
  merge_into_visibles vs c =
  insert_from_back (new_visible c) (flat_map (split_visible (c_off c) (c_stop c)) vs).
Proof.
  intros vs c Hok Hsz. unfold merge_into_visibles.
  destruct (last_visible vs) as [l|] eqn:El; [|apply last_visible_none in El; subst vs; reflexivity].
  destruct (v_stop l <=? c_off c) eqn:E; [|reflexivity].
  assert (Hall : forall v, In v vs -> v_stop v <= c_off c).
  { intros v Hv. pose proof (last_visible_max vs l v Hok El Hv). lia. }
  rewrite flat_split_id by (auto; unfold c_stop; lia). symmetry. apply ins_back_last.
  intros x Hx. destruct Hok as [_ Hne]. rewrite Forall_forall in Hne.
  specialize (Hne x Hx). specialize (Hall x Hx). simpl. lia.
Qed.

Lemma merge_in : forall vs c w, vis_ok vs -> 0 < c_size c ->
  (In w (merge_into_visibles vs c) <->
   w = new_visible c \/ exists v, In v vs /\ In w (split_visible (c_off c) (c_stop c) v)).
Proof. intros vs c w Hok Hsz. rewrite merge_eq, insert_from_back_in, in_flat_map; tauto. Qed.

(* [v] is a piece of chunk [c]: its bytes are the chunk's, at the chunk's own offsets *)
Definition visible_in (c : chunk) (v : visible_interval) : Prop :=
  v_fid v = c_fid c /\ v_csize v = c_size c /\ c_off c + v_coff v = v_start v /\ v_stop v <= c_stop c.

(* [P] says where the chunks come from (membership in the unsorted list, while the fold runs over
   the sorted one) *)
Lemma merge_from : forall (P : chunk -> Prop) vs c, vis_ok vs -> 0 < c_size c -> P c ->
  Forall (fun v => exists c', P c' /\ visible_in c' v) vs ->
  Forall (fun v => exists c', P c' /\ visible_in c' v) (merge_into_visibles vs c).
Proof.
  intros P vs c Hok Hsz Pc Hvs. rewrite Forall_forall in *. intros w Hw.
  apply merge_in in Hw; auto. destruct Hw as [Hw|[v [Hv Hw]]].
  - subst w. exists c. unfold visible_in. simpl. repeat split; auto; lia.
  - destruct (Hvs v Hv) as [c' [Pc' F]]. exists c'. split; auto.
    destruct Hok as [_ Hne]. rewrite Forall_forall in Hne.
    assert (Hos : c_off c <= c_stop c) by (unfold c_stop; lia).
    pose proof (split_in _ _ _ _ (Hne v Hv) Hos Hw). unfold visible_in in *. lia.
Qed.

Lemma merge_ok : forall vs c, vis_ok vs -> 0 < c_size c -> vis_ok (merge_into_visibles vs c).
Proof.
  intros vs c Hok Hsz.
  assert (Hos : c_off c <= c_stop c) by (unfold c_stop; lia).
  assert (Hnv : v_start (new_visible c) < v_stop (new_visible c)) by (simpl; unfold c_stop; lia).
  destruct (flat_split_ok _ _ vs Hok Hos) as [Hfs Hfne]. rewrite merge_eq by auto.
  split.
  - unfold insert_from_back. apply (ss_rev (fun a b => v_stop b <= v_start a)).
    apply ins_rev_sorted; auto.
    + apply ss_rev in Hfs. exact Hfs.
    + apply Forall_rev. exact Hfne.
    + (* the pieces lie outside the new chunk *)
      intros x Hx. apply in_rev in Hx. apply in_flat_map in Hx. destruct Hx as [v [Hv Hx]].
      destruct Hok as [_ Hne]. rewrite Forall_forall in Hne.
      pose proof (split_in _ _ _ _ (Hne v Hv) Hos Hx). simpl. tauto.
  - apply Forall_forall. intros w Hw. apply insert_from_back_in in Hw.
    destruct Hw as [Hw|Hw]; [subst; auto|]. rewrite Forall_forall in Hfne. auto.
Qed.

Lemma visible_at_unique : forall vs v p, vis_ok vs -> In v vs -> vcovers v p = true ->
  visible_at vs p = Some v.
Proof. intros vs v p. exact (ifind_unique v_start v_stop vs v p). Qed.

Lemma visible_at_none : forall vs p, (forall v, In v vs -> vcovers v p = false) -> visible_at vs p = None.
Proof. intros vs p. exact (ifind_none v_start v_stop vs p). Qed.

Lemma visible_at_some : forall vs p v, visible_at vs p = Some v -> In v vs /\ vcovers v p = true.
Proof. intros vs p v. exact (ifind_some v_start v_stop vs p v). Qed.

Lemma merge_src : forall vs c p, vis_ok vs -> 0 < c_size c ->
  src_of_visibles (merge_into_visibles vs c) p =
  if covers c p then Some (c_fid c, p - c_off c) else src_of_visibles vs p.
Proof.
  intros vs c p Hok Hsz.
  assert (Hos : c_off c <= c_stop c) by (unfold c_stop; lia).
  pose proof (merge_ok vs c Hok Hsz) as Hok'.
  pose proof Hok as [Hs Hf]. rewrite Forall_forall in Hf.
  unfold src_of_visibles.
  destruct (covers c p) eqn:Ec.
  - rewrite (visible_at_unique _ (new_visible c) p Hok').
    + simpl. reflexivity.
    + apply merge_in; auto.
    + unfold vcovers. simpl. exact Ec.
  - destruct (visible_at vs p) as [v|] eqn:Ev.
    + apply visible_at_some in Ev. destruct Ev as [Hv Hc].
      destruct (split_cover (c_off c) (c_stop c) v p (Hf v Hv) Hc Ec) as [w [Hw Hwc]].
      rewrite (visible_at_unique _ w p Hok').
      * pose proof (split_in _ _ _ _ (Hf v Hv) Hos Hw) as P.
        unfold vcovers in Hc, Hwc. destruct P as [P1 [_ [_ [P4 [P5 [P6 [P7 P8]]]]]]].
        rewrite P1. f_equal. f_equal. lia.
      * apply merge_in; auto. right. exists v. auto.
      * exact Hwc.
    + rewrite visible_at_none; auto.
      intros w Hw. apply merge_in in Hw; auto. destruct Hw as [Hw|[v [Hv Hw]]].
      * subst w. unfold vcovers. simpl. exact Ec.
      * pose proof (find_none _ _ Ev v Hv) as Hn. simpl in Hn.
        pose proof (split_in _ _ _ _ (Hf v Hv) Hos Hw) as P.
        unfold vcovers in *. unfold covers in Ec. lia.
Qed.
