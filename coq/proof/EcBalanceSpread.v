(* Rack spread of the ec.balance model (C16): a move to another rack never leaves
   more than ceil(14/#racks) shards of the volume on the destination rack, and every recorded
   move has a free slot at its destination.  The count of pending picks [pend] and the
   invariant [SI] are used again by EcBalanceRack.v. *)
From Coq Require Import List NArith ZArith Bool Lia Arith.
From SW Require Import model.EcBalance proof.EcBalanceBase proof.EcBalanceInv.
Import ListNotations.
Local Open Scope N_scope.
Local Open Scope Z_scope.

(* shards of volume v on rack r *)
Fixpoint rsum (ns : list node) (r v : N) : Z :=
  match ns with
  | [] => 0
  | n :: ns' => (if N.eqb (n_rack n) r then count (find n v) else 0) + rsum ns' r v
  end.

Lemma rack_vid_count_rsum : forall ns r v, rack_vid_count ns r v = rsum ns r v.
Proof.
  intros ns r v. unfold rack_vid_count.
  assert (G : forall l a, fold_left (fun acc n => if N.eqb (n_rack n) r then acc + count (find n v) else acc) l a = a + rsum l r v).
  { induction l as [|n l IH]; intros a; simpl; [lia|]. rewrite IH. destruct (N.eqb (n_rack n) r); lia. }
  rewrite G. lia.
Qed.

Lemma rsum_nonneg : forall ns r v, 0 <= rsum ns r v.
Proof.
  induction ns as [|n ns IH]; intros r v; simpl; [lia|].
  specialize (IH r v). pose proof (count_nonneg (find n v)). destruct (N.eqb (n_rack n) r); lia.
Qed.

Lemma rsum_upd : forall ns id f n r v, keeps_id_rack f -> wf_ids ns -> get_node ns id = Some n ->
  rsum (upd_node ns id f) r v =
  rsum ns r v + (if N.eqb (n_rack n) r then count (find (f n) v) - count (find n v) else 0).
Proof.
  induction ns as [|x ns IH]; intros id f n r v Hk Hwf G; simpl in *; [discriminate|].
  inv Hwf. destruct (N.eqb_spec (n_id x) id) as [E|E].
  - inv G. rewrite notin_upd by auto. destruct (Hk n) as [_ Hr]. rewrite Hr.
    destruct (N.eqb (n_rack n) r); lia.
  - rewrite (IH id f n r v Hk H2 G). lia.
Qed.

(* [b2n] in Z *)
Definition ind (b : bool) : Z := if b then 1 else 0.

Lemma rsum_del : forall ns id v s r, wf_ids ns ->
  rsum (upd_node ns id (del_shard v s)) r v <= rsum ns r v.
Proof.
  intros ns id v s r Hwf. destruct (get_node ns id) as [n|] eqn:G.
  - rewrite (rsum_upd ns id _ n r v (keeps_del v s) Hwf G). rewrite find_del_shard, N.eqb_refl.
    pose proof (count_remove_le (find n v) s). destruct (N.eqb (n_rack n) r); lia.
  - rewrite get_node_none_upd by auto. lia.
Qed.

Lemma rsum_del_held : forall ns id v s r, wf_ids ns -> hb ns id v s = true -> In s bit_range ->
  rsum (upd_node ns id (del_shard v s)) r v = rsum ns r v - ind (N.eqb (node_rack ns id) r).
Proof.
  intros ns id v s r Hwf Hb Hin. unfold hb in Hb. destruct (get_node ns id) as [n|] eqn:G.
  - rewrite (rsum_upd ns id _ n r v (keeps_del v s) Hwf G). rewrite find_del_shard, N.eqb_refl.
    rewrite (node_rack_get _ _ _ G). rewrite (node_bits_get _ _ _ _ G) in Hb.
    rewrite (count_remove_exact _ _ Hb Hin). unfold ind. destruct (N.eqb (n_rack n) r); lia.
  - unfold node_bits in Hb. rewrite G, has_zero in Hb. discriminate.
Qed.

Lemma rsum_add : forall ns id v c s r, wf_ids ns ->
  rsum (upd_node ns id (add_shard v c s)) r v <= rsum ns r v + ind (N.eqb (node_rack ns id) r).
Proof.
  intros ns id v c s r Hwf. destruct (get_node ns id) as [n|] eqn:G.
  - rewrite (rsum_upd ns id _ n r v (keeps_add v c s) Hwf G). rewrite find_add_shard, N.eqb_refl.
    rewrite (node_rack_get _ _ _ G). pose proof (count_add_le (find n v) s).
    unfold ind. destruct (N.eqb (n_rack n) r); lia.
  - rewrite get_node_none_upd by auto. unfold ind. destruct (N.eqb (node_rack ns id) r); lia.
Qed.

Lemma rsum_move : forall ns src v c s dst r, wf_ids ns ->
  rsum (move_shard ns src v c s dst) r v <= rsum ns r v + ind (N.eqb (node_rack ns dst) r).
Proof.
  intros ns src v c s dst r Hwf. unfold move_shard.
  pose proof (rsum_add ns dst v c s r Hwf) as A.
  assert (Hwf1 : wf_ids (upd_node ns dst (add_shard v c s))) by (apply upd_wf; auto with c16).
  pose proof (rsum_del (upd_node ns dst (add_shard v c s)) src v s r Hwf1) as D. lia.
Qed.

Lemma filter_vid_cases : forall es v, NoDup (map e_vid es) ->
  (filter (fun e => N.eqb (e_vid e) v) es = [] /\ find_bits es v = 0%N) \/
  (exists e, filter (fun e => N.eqb (e_vid e) v) es = [e]).
Proof.
  induction es as [|e es IH]; intros v Hnd; simpl.
  - left. auto.
  - inv Hnd. destruct (N.eqb_spec (e_vid e) v) as [E|E].
    + right. exists e. f_equal.
      assert (X : forall l, ~ In v (map e_vid l) -> filter (fun e0 => N.eqb (e_vid e0) v) l = []).
      { induction l as [|y l IHl]; intros Hn; simpl in *; auto.
        destruct (N.eqb_spec (e_vid y) v); [exfalso; apply Hn; auto|]. apply IHl. tauto. }
      apply X. rewrite <- E. exact H1.
    + apply IH. exact H2.
Qed.

(* rackToShardCount is the real per-rack count: every node is listed once per entry of the volume,
   and a node of well-formed books has at most one *)
Lemma group_count_rsum : forall ns v r, wf ns ->
  alookup (group_count ns (locations ns v) v) r = rsum ns r v.
Proof.
  intros ns v r [Hi He]. unfold group_count, locations.
  set (step := fun acc id => aadd acc (node_rack ns id) (count (node_bits ns id v))).
  assert (G : forall l acc, (forall n, In n l -> In n ns) ->
    alookup (fold_left step (flat_map (fun n => map (fun _ => n_id n) (filter (fun e => N.eqb (e_vid e) v) (entries n))) l) acc) r =
    alookup acc r + rsum l r v).
  { induction l as [|n l IH]; intros acc Hsub; simpl; [lia|].
    rewrite fold_left_app, IH by (intros; apply Hsub; right; auto).
    assert (Hn : In n ns) by (apply Hsub; left; reflexivity).
    unfold wf_entries in He. rewrite Forall_forall in He.
    pose proof (get_node_self ns n Hi Hn) as Gn.
    destruct (filter_vid_cases (entries n) v (He n Hn)) as [[F Z0]|[e F]]; rewrite F; simpl.
    - unfold find. rewrite Z0. destruct (N.eqb (n_rack n) r); reflexivity.
    - unfold step. rewrite alookup_aadd, (node_rack_get _ _ _ Gn), (node_bits_get _ _ _ _ Gn). lia. }
  rewrite G by auto. simpl. lia.
Qed.

(* picked shards waiting for a destination, per source rack *)
Fixpoint pend (p : list (N * N)) (ns : list node) (r : N) : Z :=
  match p with
  | [] => 0
  | (_, src) :: p' => ind (N.eqb (node_rack ns src) r) + pend p' ns r
  end.
Lemma pend_nonneg : forall p ns r, 0 <= pend p ns r.
Proof. induction p as [|[k x] p IH]; intros; simpl; [lia|]. specialize (IH ns r). unfold ind. destruct (N.eqb _ _); lia. Qed.
Lemma pend_pset_le : forall p k x ns r, pend (pset p k x) ns r <= pend p ns r + ind (N.eqb (node_rack ns x) r).
Proof.
  induction p as [|[k' y] p IH]; intros k x ns r; simpl.
  - lia.
  - destruct (N.eqb k' k); simpl.
    + unfold ind. destruct (N.eqb (node_rack ns y) r), (N.eqb (node_rack ns x) r); lia.
    + specialize (IH k x ns r). lia.
Qed.
Lemma pend_ptake : forall p k x p' ns r, ptake p k = Some (x, p') ->
  pend p' ns r = pend p ns r - ind (N.eqb (node_rack ns x) r).
Proof.
  induction p as [|[k' y] p IH]; intros k x p' ns r H; simpl in H; [discriminate|].
  destruct (N.eqb k' k).
  - inv H. simpl. lia.
  - destruct (ptake p k) as [[x0 q]|] eqn:T; [|discriminate]. inv H. simpl.
    rewrite (IH _ _ _ ns r T). lia.
Qed.
Lemma pend_ext : forall p ns ns' r, (forall x, node_rack ns' x = node_rack ns x) -> pend p ns' r = pend p ns r.
Proof. induction p as [|[k x] p IH]; intros ns ns' r H; simpl; auto. rewrite H. f_equal. apply IH. auto. Qed.

(* the invariant of doBalanceEcShardsAcrossRacks: what is on the rack and what is still to
   leave it never exceeds the rack's entry in rackToShardCount *)
Definition SI (ns : list node) (rsc : list (N * Z)) (picked : list (N * N)) (v : N) : Prop :=
  forall r, rsum ns r v + pend picked ns r <= alookup rsc r.
Definition same_racks (ns ns' : list node) : Prop := forall x, node_rack ns' x = node_rack ns x.

Definition guard_item (i : item) : Prop :=
  match i with
  | IMove _ m => (m_kind m = KAcross -> m_dst_rack_count m <= m_limit m) /\
                 (m_kind m <> KAcross -> m_src_rack m = m_dst_rack m) /\
                 (* every guard tests freeEcSlot of the destination on the books of that moment;
                    needs neither uniqueness nor absence of drops *)
                 0 < m_dst_free m
  | _ => True
  end.
Definition guards_ok (its : list item) : Prop := Forall guard_item its.

Lemma same_racks_refl : forall ns, same_racks ns ns.
Proof. intros ns x. reflexivity. Qed.
Lemma same_racks_trans : forall a b c, same_racks a b -> same_racks b c -> same_racks a c.
Proof. intros a b c H1 H2 x. rewrite H2, H1. reflexivity. Qed.
Lemma same_racks_move : forall ns src v c s dst, same_racks ns (move_shard ns src v c s dst).
Proof. intros ns src v c s dst x. apply node_rack_move. Qed.
Lemma same_racks_del : forall ns id v s, same_racks ns (upd_node ns id (del_shard v s)).
Proof. intros ns id v s x. apply node_rack_upd. auto with c16. Qed.

(* [SI] through one step of doBalanceEcShardsAcrossRacks: a pick, an abandoned pick, a move across
   racks ([avg] is there to fit [across_rel]) *)
Definition spread_step (v : N) (avg : Z) (x y : across_st) (its : list item) : Prop :=
  SI (x_ns x) (x_rsc x) (x_picked x) v ->
  SI (x_ns y) (x_rsc y) (x_picked y) v /\ guards_ok its /\ same_racks (x_ns x) (x_ns y).

Lemma spread_step_refl : forall v avg x, spread_step v avg x x [].
Proof. intros v avg x H. split; [exact H|]. split; [constructor|apply same_racks_refl]. Qed.
Lemma spread_step_trans : forall v avg a b c i1 i2, spread_step v avg a b i1 -> spread_step v avg b c i2 -> spread_step v avg a c (i1 ++ i2).
Proof.
  intros v avg a b c i1 i2 H1 H2 S. destruct (H1 S) as [S1 [O1 R1]]. destruct (H2 S1) as [S2 [O2 R2]].
  split; [exact S2|]. split; [apply Forall_app; auto|eapply same_racks_trans; eauto].
Qed.

Lemma spread_step_pick : across_pick spread_step.
Proof.
  intros v avg ns rk rsc picked id s Hwf Hb Hs Hsi. simpl in *.
  split; [|split; [constructor|apply same_racks_del]].
  intros r. rewrite (pend_ext _ ns _ r (same_racks_del ns id v s)).
  pose proof (pend_pset_le picked s id ns r) as P.
  rewrite (rsum_del_held ns id v s r (proj1 Hwf) Hb (shard_in_bit_range _ Hs)).
  specialize (Hsi r). lia.
Qed.

Lemma spread_step_norack : across_norack spread_step.
Proof.
  intros v avg ns rk rsc picked s src picked' _ P Hsi. simpl in *.
  split; [|split; [constructor; [exact I|constructor]|apply same_racks_refl]].
  intros r. rewrite (pend_ptake _ _ _ _ ns r P). specialize (Hsi r). unfold ind. destruct (N.eqb _ r); lia.
Qed.

Lemma spread_step_move : across_move spread_step.
Proof.
  intros c v avg ns rk rsc picked s src picked' r dst Hwf P RO _ Hr _ Hfree Hsi. simpl in *.
  assert (Hsi1 : SI (move_shard ns src v c s dst) (aadd (aadd rsc r 1) (node_rack ns src) (-1)) picked' v).
  { intros r0. rewrite (pend_ext _ ns _ r0 (same_racks_move _ _ _ _ _ _)), (pend_ptake _ _ _ _ ns r0 P).
    pose proof (rsum_move ns src v c s dst r0 (proj1 Hwf)) as M. rewrite Hr in M.
    rewrite !alookup_aadd. specialize (Hsi r0). unfold ind in *.
    destruct (N.eqb r r0), (N.eqb (node_rack ns src) r0); lia. }
  split; [exact Hsi1|]. split; [|apply same_racks_move].
  constructor; [|constructor]. simpl. split; [|split; [intros X; congruence|exact Hfree]].
  (* the rack was below the limit and nothing else is on its way out of it *)
  intros _. rewrite Hr, rack_vid_count_rsum.
  specialize (Hsi1 r). rewrite !alookup_aadd in Hsi1. rewrite N.eqb_refl in Hsi1.
  pose proof (pend_nonneg picked' (move_shard ns src v c s dst) r).
  destruct (N.eqb (node_rack ns src) r); lia.
Qed.

Lemma spread_step_none : across_none spread_step.
Proof.
  intros v avg ns rk rsc picked s src picked' r _ P _ _ _ Hsi. simpl in *.
  split; [|split; [constructor; [exact I|constructor]|apply same_racks_refl]].
  intros r0. rewrite (pend_ptake _ _ _ _ ns r0 P), !alookup_aadd. specialize (Hsi r0). unfold ind.
  destruct (N.eqb r r0), (N.eqb (node_rack ns src) r0); lia.
Qed.

Lemma pick_racks_spread : forall ro ns v avg rsc locs picked ns' picked',
  pick_racks ns v avg rsc locs ro picked = Some (ns', picked') -> wf ns -> SI ns rsc picked v ->
  wf ns' /\ SI ns' rsc picked' v /\ same_racks ns ns'.
Proof.
  intros ro ns v avg rsc locs picked ns' picked' H Hwf Hsi.
  destruct (pick_racks_A spread_step spread_step_refl spread_step_trans spread_step_pick _ _ _ _ [] _ _ _ _ _ H Hwf) as [W Q].
  destruct (Q Hsi) as [A [_ B]]. auto.
Qed.

Lemma across_vid_spread : forall c st o st' its,
  across_vid c st o = Some (st', its) -> wf (nodes st) -> guards_ok its /\ same_racks (nodes st) (nodes st').
Proof.
  intros c st o st' its H Hwf.
  destruct (across_vid_A spread_step spread_step_refl spread_step_trans spread_step_pick spread_step_norack spread_step_move spread_step_none _ _ _ _ _ H Hwf) as [_ [rsc' Q]].
  apply Q. intros r. simpl. rewrite group_count_rsum by auto. lia.
Qed.

(* what every phase guarantees about the racks, whatever the books hold *)
Definition spread_run (ns ns' : list node) (its : list item) : Prop := guards_ok its /\ same_racks ns ns'.

Lemma spread_run_refl : forall ns, spread_run ns ns [].
Proof. intros. split; [constructor|apply same_racks_refl]. Qed.
Lemma spread_run_trans : forall a b c i1 i2, spread_run a b i1 -> spread_run b c i2 -> spread_run a c (i1 ++ i2).
Proof.
  intros a b c i1 i2 [B1 C1] [B2 C2]. split.
  - apply Forall_app. auto.
  - eapply same_racks_trans; eauto.
Qed.
Lemma spread_run_print : forall ns e, spread_run ns ns [IEvent e].
Proof. intros. split; [constructor; [exact I|constructor]|apply same_racks_refl]. Qed.

Lemma spread_run_local_move : forall k line, k <> KAcross -> local_move spread_run k line.
Proof.
  intros k line Hk ns src v c s dst lim Hwf Pd Hne Hr Hs Hin Hfree. split; [|apply same_racks_move].
  constructor; [|constructor]. simpl. split; [intros X; contradiction|]. split; [intros _; congruence|exact Hfree].
Qed.

Theorem run_plan_spread : forall st o st' its,
  run_plan false st o = Some (st', its) -> wf (nodes st) -> wf (nodes st') /\ spread_run (nodes st) (nodes st') its.
Proof.
  apply (run_plan_T (fun a b => spread_run (nodes a) (nodes b))).
  - intros. apply spread_run_refl.
  - intros a b c. apply spread_run_trans.
  - intros. apply spread_run_print.
  - intros. apply spread_run_print.
  - intros c st o st' its H Hwf. apply (across_vid_spread _ _ _ _ _ H Hwf).
  - intros c nracks rk os ns ns' its. apply (within_vids_L spread_run).
    + intros. apply spread_run_refl.
    + apply spread_run_trans.
    + intros. apply spread_run_print.
    + apply spread_run_local_move. discriminate.
  - intros nracks rk os ns ns' its. apply (balance_racks_list_L spread_run).
    + intros. apply spread_run_refl.
    + apply spread_run_trans.
    + apply spread_run_local_move. discriminate.
Qed.
