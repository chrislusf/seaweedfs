(* Proofs about model/FilerNS.v (C18): paths, the flat store, well-formedness. *)
From Coq Require Import List NArith Bool String Arith Lia Permutation.
From SW Require Import proof.ListFacts model.FilerNS.
Import ListNotations.
Local Open Scope list_scope.

(* the stores hold the same map: what every theorem of C18 concludes (model/FilerNS.v store_equiv_b is its
   executable twin, used by check/C18.v) *)
Definition equiv (a b : store) : Prop := forall q, find a q = find b q.

(* every stored entry below the top level has a stored parent that is a directory *)
Definition tree_ok (s : store) : Prop :=
  forall d n e, find s (d ++ [n]) = Some e -> d = [] \/ exists de, find s d = Some de /\ e_dir de = true.

Definition wf (s : store) : Prop := NoDup (keys s) /\ tree_ok s.

Lemma path_eqb_spec : forall p q, reflect (p = q) (path_eqb p q).
Proof. exact (eqb_list_spec String.eqb String.eqb_eq). Qed.

Lemma path_eqb_refl : forall p, path_eqb p p = true.
Proof. intro p. destruct (path_eqb_spec p p); congruence. Qed.

Lemma path_eqb_sym : forall p q, path_eqb p q = path_eqb q p.
Proof. intros. destruct (path_eqb_spec p q), (path_eqb_spec q p); congruence. Qed.

Lemma strip_prefix_spec : forall p q r, strip_prefix p q = Some r <-> q = p ++ r.
Proof.
  induction p as [|a p IH]; intros q r; simpl.
  - split; congruence.
  - destruct q as [|b q]; [split; congruence|].
    destruct (String.eqb_spec a b).
    + subst. rewrite IH. split; congruence.
    + split; congruence.
Qed.

Lemma strip_prefix_app : forall p r, strip_prefix p (p ++ r) = Some r.
Proof. intros. apply strip_prefix_spec. reflexivity. Qed.

Lemma strip_prefix_refl : forall p, strip_prefix p p = Some [].
Proof. intros. apply strip_prefix_spec. now rewrite app_nil_r. Qed.

Lemma strip_prefix_none : forall p q, strip_prefix p q = None <-> forall r, q <> p ++ r.
Proof.
  intros p q. destruct (strip_prefix p q) as [r|] eqn:E.
  - apply strip_prefix_spec in E. split; [discriminate|]. intro H. exfalso. eapply H; eauto.
  - split; auto. intros _ r Hr. apply strip_prefix_spec in Hr. congruence.
Qed.

Lemma is_prefix_true : forall p q, is_prefix p q = true <-> exists r, q = p ++ r.
Proof.
  intros p q. unfold is_prefix. destruct (strip_prefix p q) as [r|] eqn:E.
  - apply strip_prefix_spec in E. split; eauto.
  - split; [discriminate|]. intros [r Hr]. apply strip_prefix_spec in Hr. congruence.
Qed.

Lemma is_prefix_false : forall p q, is_prefix p q = false <-> forall r, q <> p ++ r.
Proof.
  intros p q. unfold is_prefix. rewrite <- strip_prefix_none.
  destruct (strip_prefix p q); split; congruence.
Qed.

Lemma is_prefix_app : forall p r, is_prefix p (p ++ r) = true.
Proof. intros. apply is_prefix_true. eauto. Qed.

Lemma is_prefix_refl : forall p, is_prefix p p = true.
Proof. intros. apply is_prefix_true. exists []. now rewrite app_nil_r. Qed.

Lemma strip_prefix_child : forall p n q,
  strip_prefix (p ++ [n]) q =
  match strip_prefix p q with
  | Some (m :: r) => if String.eqb n m then Some r else None
  | _ => None
  end.
Proof.
  induction p as [|a p IH]; intros n q; simpl.
  - destruct q as [|b q]; auto.
  - destruct q as [|b q]; auto.
    destruct (String.eqb a b); auto.
Qed.

Lemma prefix_comparable : forall a b r1 r2 : path,
  a ++ r1 = b ++ r2 -> (exists t, b = a ++ t) \/ (exists t, a = b ++ t).
Proof.
  induction a as [|x a IH]; intros b r1 r2 H.
  - left. exists b. reflexivity.
  - destruct b as [|y b].
    + right. exists (x :: a). reflexivity.
    + simpl in H. injection H as Hxy H. subst y.
      destruct (IH _ _ _ H) as [[t Ht]|[t Ht]]; [left|right]; exists t; simpl; congruence.
Qed.

Lemma app_eq_self_nil : forall (p r : path), p = p ++ r -> r = [].
Proof. intros p r H. apply (app_inv_head p). now rewrite app_nil_r. Qed.

Lemma app_cons_assoc : forall (p : path) n r, p ++ n :: r = (p ++ [n]) ++ r.
Proof. intros. rewrite <- app_assoc. reflexivity. Qed.

Lemma snoc_nonnil : forall (d : path) n, d ++ [n] <> [].
Proof. intros d n E. apply app_eq_nil in E. destruct E; discriminate. Qed.

Lemma split_last_app : forall d n, split_last (d ++ [n]) = Some (d, n).
Proof.
  induction d as [|a d IH]; intro n; simpl; auto.
  rewrite IH. reflexivity.
Qed.

Lemma split_last_nil : forall p, split_last p = None -> p = [].
Proof.
  destruct p as [|a p]; auto. simpl. destruct (split_last p) as [[d n]|]; discriminate.
Qed.

Lemma split_last_some : forall p d n, split_last p = Some (d, n) -> p = d ++ [n].
Proof.
  intros p d n H. destruct p as [|a p]; [discriminate|].
  destruct (exists_last (l := a :: p)) as [d' [n' E]]; [discriminate|].
  rewrite E in H. rewrite split_last_app in H. congruence.
Qed.

Lemma path_cases : forall p : path, p = [] \/ exists d n, p = d ++ [n].
Proof.
  intro p. destruct p as [|a p]; auto. right.
  destruct (exists_last (l := a :: p)) as [d [n E]]; [discriminate|]. eauto.
Qed.

Lemma parent_child : forall d n, parent (d ++ [n]) = d.
Proof. intros. unfold parent. now rewrite split_last_app. Qed.

Lemma is_child_of_spec : forall d q, is_child_of d q = true <-> exists n, q = d ++ [n].
Proof.
  intros d q. unfold is_child_of. destruct (strip_prefix d q) as [r|] eqn:E.
  - apply strip_prefix_spec in E. subst q. destruct r as [|m [|m' r]].
    + split; [discriminate|]. intros [n H]. apply app_inv_head in H. discriminate.
    + split; eauto.
    + split; [discriminate|]. intros [n H]. apply app_inv_head in H. discriminate.
  - split; [discriminate|]. intros [n H]. apply strip_prefix_spec in H. congruence.
Qed.

Lemma equiv_refl : forall a, equiv a a. Proof. intros a q. reflexivity. Qed.
Lemma equiv_sym : forall a b, equiv a b -> equiv b a. Proof. intros a b H q. symmetry. apply H. Qed.
Lemma equiv_trans : forall a b c, equiv a b -> equiv b c -> equiv a c.
Proof. intros a b c H1 H2 q. rewrite H1. apply H2. Qed.

Lemma find_filter_key : forall (f : path -> bool) s q,
  find (filter (fun kv => f (fst kv)) s) q = if f q then find s q else None.
Proof.
  intros f s q. induction s as [|[k e] s IH]; simpl.
  - destruct (f q); reflexivity.
  - destruct (f k) eqn:Fk; simpl; destruct (path_eqb_spec k q) as [Heq|Hne];
      try subst q; rewrite ?IH, ?Fk; auto.
Qed.

Lemma find_remove : forall s p q, find (remove s p) q = if path_eqb p q then None else find s q.
Proof.
  intros. unfold remove. rewrite (find_filter_key (fun k => negb (path_eqb k p))).
  rewrite (path_eqb_sym q p). destruct (path_eqb p q); reflexivity.
Qed.

Lemma find_insert : forall s p e q, find (insert s p e) q = if path_eqb p q then Some e else find s q.
Proof.
  intros. unfold insert. simpl. destruct (path_eqb p q) eqn:E; auto.
  rewrite find_remove, E. reflexivity.
Qed.

Lemma find_insert_same : forall s p e, find (insert s p e) p = Some e.
Proof. intros. rewrite find_insert, path_eqb_refl. reflexivity. Qed.

Lemma find_insert_other : forall s p e q, p <> q -> find (insert s p e) q = find s q.
Proof. intros. rewrite find_insert. destruct (path_eqb_spec p q); congruence. Qed.

Lemma find_app : forall a b q, find (a ++ b) q = match find a q with Some e => Some e | None => find b q end.
Proof.
  induction a as [|[k e] a IH]; intros; simpl; auto.
  destruct (path_eqb k q); auto.
Qed.

Lemma find_Some_In : forall s p e, find s p = Some e -> In (p, e) s.
Proof.
  induction s as [|[k e'] s IH]; simpl; intros p e H; [discriminate|].
  destruct (path_eqb_spec k p); [left; congruence | right; auto].
Qed.

Lemma find_None_notin : forall s p, find s p = None <-> ~ In p (keys s).
Proof.
  induction s as [|[k e'] s IH]; simpl; intros p.
  - tauto.
  - destruct (path_eqb_spec k p).
    + split; [discriminate|]. intro H. exfalso. apply H. auto.
    + rewrite IH. split; [intros H [H1|H1]; auto | intros H H1; apply H; auto].
Qed.

Lemma In_find : forall s p e, NoDup (keys s) -> In (p, e) s -> find s p = Some e.
Proof.
  induction s as [|[k e'] s IH]; simpl; intros p e Hnd Hin; [tauto|].
  inversion Hnd as [|? ? Hk Hnd']; subst.
  destruct Hin as [Hin|Hin].
  - inversion Hin; subst. now rewrite path_eqb_refl.
  - destruct (path_eqb_spec k p).
    + subst. exfalso. apply Hk. apply in_map_iff. exists (p, e). auto.
    + auto.
Qed.

Lemma keys_filter_NoDup : forall (f : path * entry -> bool) s, NoDup (keys s) -> NoDup (keys (filter f s)).
Proof. intros f s. apply NoDup_map_filter. Qed.

Lemma remove_notin : forall s p, ~ In p (keys (remove s p)).
Proof.
  intros s p. apply find_None_notin. rewrite find_remove, path_eqb_refl. reflexivity.
Qed.

Lemma insert_NoDup : forall s p e, NoDup (keys s) -> NoDup (keys (insert s p e)).
Proof.
  intros. unfold insert. simpl. constructor.
  - apply remove_notin.
  - apply keys_filter_NoDup. assumption.
Qed.

Lemma max_len_find : forall s q e, find s q = Some e -> List.length q <= max_len s.
Proof.
  induction s as [|[k e'] s IH]; simpl; intros q e H; [discriminate|].
  destruct (path_eqb_spec k q).
  - subst. lia.
  - apply IH in H. lia.
Qed.

Lemma insert_by_name_perm : forall x l, Permutation (x :: l) (insert_by_name x l).
Proof.
  intros x l. induction l as [|y l IH]; simpl; auto.
  destruct (String.leb (fst x) (fst y)); auto.
  eapply perm_trans; [apply perm_swap|]. constructor. auto.
Qed.

Lemma sort_by_name_perm : forall l, Permutation l (sort_by_name l).
Proof.
  induction l as [|x l IH]; simpl; auto.
  eapply perm_trans; [|apply insert_by_name_perm]. constructor. auto.
Qed.

Lemma children_raw_In : forall s d n e,
  In (n, e) (children_raw s d) <-> In (d ++ [n], e) s.
Proof.
  intros s d n e. unfold children_raw. rewrite in_flat_map. split.
  - intros [[k e'] [Hin H]]. simpl in H.
    destruct (strip_prefix d k) as [[|m [|m' r]]|] eqn:E; simpl in H; try tauto.
    destruct H as [H|[]]. inversion H; subst. apply strip_prefix_spec in E. subst. assumption.
  - intro Hin. exists (d ++ [n], e). split; auto. simpl. rewrite strip_prefix_app. left. reflexivity.
Qed.

Lemma children_raw_NoDup : forall s d, NoDup (keys s) -> NoDup (map fst (children_raw s d)).
Proof.
  intros s d. induction s as [|[k e] s IH]; simpl; intro H; [constructor|].
  inversion H as [|? ? Hk Hnd]; subst.
  destruct (strip_prefix d k) as [[|m [|m' r]]|] eqn:E; simpl; auto.
  constructor; auto. intro Hin. apply in_map_iff in Hin. destruct Hin as [[n e'] [Hn Hin]].
  simpl in Hn. subst n. apply children_raw_In in Hin.
  apply strip_prefix_spec in E. subst k. apply Hk. apply in_map_iff. exists (d ++ [m], e'). auto.
Qed.

Lemma list_children_spec : forall s d n e, NoDup (keys s) ->
  (In (n, e) (list_children s d) <-> find s (d ++ [n]) = Some e).
Proof.
  intros s d n e Hnd. unfold list_children. split.
  - intro H. apply In_find; auto. apply children_raw_In.
    eapply Permutation_in; [apply Permutation_sym, sort_by_name_perm | exact H].
  - intro H. eapply Permutation_in; [apply sort_by_name_perm|].
    apply children_raw_In. apply find_Some_In. assumption.
Qed.

Lemma list_children_NoDup : forall s d, NoDup (keys s) -> NoDup (map fst (list_children s d)).
Proof.
  intros s d H. unfold list_children.
  eapply Permutation_NoDup; [apply Permutation_map, sort_by_name_perm|].
  apply children_raw_NoDup. assumption.
Qed.

Lemma has_children_spec : forall s d, has_children s d = true <-> exists n e, find s (d ++ [n]) = Some e.
Proof.
  intros s d. unfold has_children. rewrite existsb_exists. split.
  - intros [[k e] [Hin H]]. simpl in H. apply is_child_of_spec in H. destruct H as [n Hn]. subst k.
    destruct (find s (d ++ [n])) as [e'|] eqn:E; eauto.
    exfalso. apply find_None_notin in E. apply E. apply in_map_iff. exists (d ++ [n], e). auto.
  - intros [n [e H]]. exists (d ++ [n], e). split; [apply find_Some_In; auto|].
    simpl. apply is_child_of_spec. eauto.
Qed.

Lemma has_children_false : forall s d, has_children s d = false <-> forall n, find s (d ++ [n]) = None.
Proof.
  intros s d. split.
  - intros H n. destruct (find s (d ++ [n])) as [e|] eqn:E; auto.
    assert (has_children s d = true) by (apply has_children_spec; eauto). congruence.
  - intro H. destruct (has_children s d) eqn:E; auto.
    apply has_children_spec in E. destruct E as [n [e E]]. rewrite H in E. discriminate.
Qed.

Lemma list_children_nil : forall s d, NoDup (keys s) ->
  (list_children s d = [] <-> forall n, find s (d ++ [n]) = None).
Proof.
  intros s d Hnd. split.
  - intros H n. destruct (find s (d ++ [n])) as [e|] eqn:E; auto.
    apply list_children_spec in E; auto. rewrite H in E. destruct E.
  - intro H. destruct (list_children s d) as [|[n e] l] eqn:E; auto.
    assert (Hin : In (n, e) (list_children s d)) by (rewrite E; left; auto).
    apply list_children_spec in Hin; auto. rewrite H in Hin. discriminate.
Qed.

Lemma find_delete_folder_children : forall s d q,
  find (delete_folder_children s d) q = if is_child_of d q then None else find s q.
Proof.
  intros. unfold delete_folder_children.
  rewrite (find_filter_key (fun k => negb (is_child_of d k))). destruct (is_child_of d q); reflexivity.
Qed.

Lemma wf_nil : wf [].
Proof. split; [constructor | intros d n e H; discriminate]. Qed.

Lemma tree_ok_equiv : forall a b, equiv a b -> tree_ok a -> tree_ok b.
Proof.
  intros a b H Ha d n e Hf. rewrite <- H in Hf. destruct (Ha _ _ _ Hf) as [|[de [H1 H2]]]; auto.
  right. exists de. rewrite <- H. auto.
Qed.

Lemma tree_ok_ancestors : forall s, tree_ok s -> forall r a e,
  find s (a ++ r) = Some e -> a <> [] -> r <> [] ->
  exists de, find s a = Some de /\ e_dir de = true.
Proof.
  intros s Hs r. induction r as [|n r IH] using rev_ind; intros a e Hf Ha Hr; [congruence|].
  rewrite app_assoc in Hf. destruct (Hs _ _ _ Hf) as [Hnil|[de [H1 H2]]].
  - destruct a; [congruence | discriminate].
  - destruct r as [|m r'].
    + rewrite app_nil_r in H1. eauto.
    + eapply IH; eauto. discriminate.
Qed.

Lemma tree_ok_absent_below : forall s, tree_ok s -> forall a r,
  a <> [] -> find s a = None -> find s (a ++ r) = None.
Proof.
  intros s Hs a r Ha Hn. destruct r as [|n r]; [now rewrite app_nil_r|].
  destruct (find s (a ++ n :: r)) as [e|] eqn:E; auto.
  destruct (tree_ok_ancestors s Hs (n :: r) a e E Ha) as [de [H1 _]]; [discriminate|congruence].
Qed.

Lemma tree_ok_file_below : forall s, tree_ok s -> forall a r e,
  a <> [] -> find s a = Some e -> e_dir e = false -> r <> [] -> find s (a ++ r) = None.
Proof.
  intros s Hs a r e Ha Hf Hd Hr. destruct (find s (a ++ r)) as [e'|] eqn:E; auto.
  destruct (tree_ok_ancestors s Hs r a e' E Ha Hr) as [de [H1 H2]]. congruence.
Qed.

Lemma prefix_of_existing : forall s d x a, tree_ok s -> find s d = Some x -> a <> [] -> is_prefix a d = true ->
  exists f, find s a = Some f /\ (a = d \/ e_dir f = true).
Proof.
  intros s d x a Hs Hd Ha Hp. apply is_prefix_true in Hp. destruct Hp as [t ->].
  destruct t as [|m t].
  - rewrite app_nil_r in *. eauto.
  - destruct (tree_ok_ancestors s Hs (m :: t) a x Hd Ha) as [de [H1 H2]]; [discriminate|eauto].
Qed.

Lemma nodup_paths_spec : forall l, nodup_paths l = true <-> NoDup l.
Proof.
  induction l as [|p l IH]; simpl.
  - split; [constructor|auto].
  - rewrite andb_true_iff, negb_true_iff, IH. split.
    + intros [H1 H2]. constructor; auto. intro Hin.
      assert (existsb (path_eqb p) l = true) by (apply existsb_exists; exists p; split; auto; apply path_eqb_refl).
      congruence.
    + intro H. inversion H as [|? ? Hn Hd]; subst. split; auto.
      destruct (existsb (path_eqb p) l) eqn:E; auto.
      apply existsb_exists in E. destruct E as [x [Hx Hpx]].
      destruct (path_eqb_spec p x); [subst; tauto | discriminate].
Qed.

(* wf_b is what check/C18.v evaluates *)
Lemma wf_b_spec : forall s, wf_b s = true <-> wf s.
Proof.
  intro s. unfold wf_b, wf. rewrite andb_true_iff, nodup_paths_spec, forallb_forall. split.
  - intros [Hnd H]. split; auto. intros d n e Hf.
    specialize (H _ (find_Some_In _ _ _ Hf)). unfold parent_ok in H. simpl in H.
    rewrite split_last_app in H. destruct d as [|a d]; auto. right.
    destruct (find s (a :: d)) as [de|]; [eauto | discriminate].
  - intros [Hnd H]. split; auto. intros [k e] Hin. unfold parent_ok. simpl.
    destruct (split_last k) as [[d n]|] eqn:E; auto.
    apply split_last_some in E. subst k. destruct d as [|a d]; auto.
    destruct (H (a :: d) n e (In_find _ _ _ Hnd Hin)) as [|[de [H1 H2]]]; [discriminate|].
    now rewrite H1.
Qed.

