(* Proofs about model/Codecs.v (C08): the known findings (key 0, TTL integers), what the
   decoders accept (ParseFileIdFromString, ParsePath, ReadSuperBlock as exact characterisations),
   the guarded SuperBlock.Bytes, and offsets / index entries for both offset widths. *)
From Coq Require Import List NArith ZArith Bool Lia ZifyBool ZifyN ZifyNat.
From SW Require Import model.Needle model.Codecs proof.NeedleProofs proof.CodecsProofs.
Import ListNotations.
Local Open Scope N_scope.

(* formatNeedleIdCookie keeps at least one key byte: key 0 prints as "00" followed by the cookie *)
Lemma format_key0 : forall cookie, format_key_cookie 0 cookie = [48; 48] ++ hex_of_bytes (be_encode 4 cookie).
Proof. intros. rewrite format_key_cookie_split. reflexivity. Qed.

Lemma len_format_key0 : forall cookie, len (format_key_cookie 0 cookie) = 10.
Proof. intros. rewrite format_key0, len_app, len_hex_of_bytes, len_be_encode. reflexivity. Qed.

Lemma file_id_key0 : forall vid cookie, vid < 2 ^ 32 -> cookie < 2 ^ 32 ->
  parse_file_id (fid_string vid 0 cookie) = Some (vid, 0, cookie).
Proof. intros vid cookie Hv Hc. apply file_id_roundtrip; try assumption. reflexivity. Qed.

Lemma parse_path_key0 : forall cookie, cookie < 2 ^ 32 -> parse_path (format_key_cookie 0 cookie) = Some (0, cookie).
Proof. intros cookie Hc. apply parse_path_plain; [reflexivity|assumption]. Qed.

(* an accepted file id is  <decimal volume id < 2^32, non-empty> , <accepted key/cookie string>
   split at the FIRST comma *)
Lemma parse_file_id_sound : forall s vid key cookie, parse_file_id s = Some (vid, key, cookie) ->
  exists vs ks, s = vs ++ 44 :: ks /\ ~ In 44 vs /\ vs <> [] /\ dec_val vs 0 = Some vid /\ vid < 2 ^ 32 /\
                parse_key_cookie ks = Some (key, cookie).
Proof.
  intros s vid key cookie H. unfold parse_file_id in H.
  destruct (index_of 44 s 0) as [ci|] eqn:Ei; [|discriminate].
  destruct (ci =? 0) eqn:E0; [discriminate|].
  destruct (new_volume_id (takeN ci s)) as [v|] eqn:Ev; [|discriminate].
  destruct (parse_key_cookie (dropN (ci + 1) s)) as [[k ck]|] eqn:Ek; [|discriminate].
  inversion H; subst v k ck. clear H.
  destruct (in_dec N.eq_dec 44 s) as [Hin|Hn]; [|rewrite index_of_not_in in Ei by assumption; discriminate].
  destruct (split_first 44 s Hin) as [a [b [-> Hn]]]. rewrite index_of_app in Ei by assumption.
  assert (Hl : len a = ci) by (inversion Ei; lia).
  rewrite takeN_app in Ev by assumption.
  rewrite dropN_sep in Ek by assumption.
  apply volume_id_reject in Ev. destruct Ev as [Hne [Hd Hlt]].
  exists a, b. split; [reflexivity|]. split; [assumption|]. split; [assumption|].
  split; [assumption|]. split; assumption.
Qed.

(* an accepted path is an accepted key/cookie string, or  <accepted key/cookie string> _ <delta>
   split at the LAST underscore, where the delta is empty (then ignored) or a decimal number
   below 2^64 which is added to the key modulo 2^64 *)
Lemma parse_path_sound : forall s k ck, parse_path s = Some (k, ck) ->
  8 < len s /\
  (parse_key_cookie s = Some (k, ck) \/
   exists f d k0, s = f ++ 95 :: d /\ f <> [] /\ ~ In 95 d /\ parse_key_cookie f = Some (k0, ck) /\
     ((d = [] /\ k = k0) \/
      (d <> [] /\ exists dv, dec_val d 0 = Some dv /\ dv < 2 ^ 64 /\ k = (k0 + dv) mod 18446744073709551616))).
Proof.
  intros s k ck H. unfold parse_path in H.
  destruct (len s <=? 8) eqn:E; [discriminate|]. split; [lia|].
  destruct (in_dec N.eq_dec 95 s) as [Hin|Hn].
  - destruct (split_last 95 s Hin) as [a [b [Hs Hn]]]. subst s.
    rewrite last_index_app in H by assumption. rewrite N.add_0_l in H.
    destruct (0 <? len a) eqn:Ed.
    + rewrite takeN_app, dropN_sep in H by reflexivity.
      destruct (parse_key_cookie a) as [[k0 c0]|] eqn:Ek; [|discriminate].
      assert (Ha : a <> []) by (intro Ea; subst a; rewrite len_nil in Ed; lia).
      destruct b as [|y b'].
      * inversion H; subst k0 c0. right. exists a, [], k. split; [reflexivity|].
        split; [assumption|]. split; [assumption|]. split; [assumption|]. left. split; reflexivity.
      * destruct (parse_uint_dec 64 (y :: b')) as [dv|] eqn:Edv; [|discriminate].
        inversion H; subst k c0. apply parse_uint_dec_sound in Edv. destruct Edv as [_ [Hd Hlt]].
        right. exists a, (y :: b'), k0. split; [reflexivity|].
        split; [assumption|]. split; [assumption|]. split; [assumption|]. right.
        split; [discriminate|]. exists dv. split; [assumption|]. split; [assumption|reflexivity].
    + destruct (parse_key_cookie (a ++ 95 :: b)) as [[k0 c0]|] eqn:Ek; [|discriminate].
      inversion H; subst. left. reflexivity.
  - rewrite last_index_not_in in H by assumption.
    destruct (parse_key_cookie s) as [[k0 c0]|] eqn:Ek; [|discriminate].
    inversion H; subst. left. reflexivity.
Qed.

(* the integers LoadTTLFromUint32 decodes to a TTL whose ToUint32 is that integer again are
   exactly those outside the trigger set: below 2^16 and, when the count byte is 0, equal to 0 *)
Lemma ttl_u32_accept_iff : forall x, ttl_to_u32 (load_ttl_u32 x) = x <-> trig_ttl_u32 x = false.
Proof.
  intros x. unfold trig_ttl_u32, ttl_to_u32, load_ttl_u32.
  destruct ((x / 256) mod 256 =? 0) eqn:E; split; intro H; lia.
Qed.

Lemma ttl_u32_refuted : exists x, x < 2 ^ 32 /\ ttl_to_u32 (load_ttl_u32 x) <> x /\ load_ttl_u32 x = (5, 1).
Proof. exists 66817. repeat split; try reflexivity. vm_compute. discriminate. Qed.

(* every pair of bytes is the encoding of exactly one (count, unit): nothing to reject,
   unknown units (7..255) included *)
Lemma ttl_bytes_accept_all : forall a b, ttl_to_bytes (load_ttl_bytes [a; b]) = [a; b].
Proof. reflexivity. Qed.

Lemma sb_read_iff : forall pb file s, sb_read pb file = Some s <->
  (8 <= len file /\ rp_from_byte (nth 1 file 0) = Some (sb_rp s) /\
   sb_version s = nth 0 file 0 /\ sb_ttl s = (nth 2 file 0, nth 3 file 0) /\
   sb_compaction s = be_decode (takeN 2 (dropN 4 file)) /\
   let extra_size := be_decode (takeN 2 (dropN 6 file)) in
   (if 0 <? extra_size
    then len (takeN extra_size (dropN 8 file)) = extra_size /\ pb (takeN extra_size (dropN 8 file)) = Some (sb_extra s)
    else sb_extra s = [])).
Proof.
  intros pb file s. split; [apply sb_read_sound|].
  intros (H8 & Hrp & Hv & Ht & Hc & Hx). unfold sb_read.
  destruct (len file <? 8) eqn:E; [lia|]. rewrite Hrp. cbv zeta. cbv zeta in Hx.
  destruct (0 <? be_decode (takeN 2 (dropN 6 file))) eqn:Ex.
  - destruct Hx as [Hl Hp]. rewrite Hl, N.ltb_irrefl, Hp.
    destruct s as [v r t c e]. cbn [sb_version sb_rp sb_ttl sb_compaction sb_extra] in *. subst. reflexivity.
  - destruct s as [v r t c e]. cbn [sb_version sb_rp sb_ttl sb_compaction sb_extra] in *. subst. reflexivity.
Qed.

(* no constraint on the version byte nor on the two TTL bytes *)
Lemma sb_read_any_version : forall pb v c u,
  sb_read pb [v; 0; c; u; 0; 0; 0; 0] =
    Some {| sb_version := v; sb_rp := (0, 0, 0); sb_ttl := (c, u); sb_compaction := 0; sb_extra := [] |}.
Proof. reflexivity. Qed.

Lemma sb_bytes_checked_none : forall s, sb_bytes_checked s = None <-> 65534 < len (sb_extra s).
Proof.
  intros s. unfold sb_bytes_checked, sb_extra_max.
  destruct (65534 <? len (sb_extra s)) eqn:E; split; intro H; try reflexivity; try discriminate; lia.
Qed.

Lemma sb_roundtrip_checked : forall pb s b tail, sb_ok s -> sb_bytes_checked s = Some b ->
  (sb_has_extra s = true -> pb (sb_extra s) = Some (sb_extra s)) ->
  sb_read pb (b ++ tail) = Some s.
Proof.
  intros pb s b tail Hok Hb Hpb. unfold sb_bytes_checked, sb_extra_max in Hb.
  destruct (65534 <? len (sb_extra s)) eqn:E; [discriminate|]. inversion Hb; subst b.
  apply sb_roundtrip; try assumption. lia.
Qed.

Lemma nth4_be_encode4 : forall v h, nth 4 (be_encode 4 v ++ [h]) 0 = h.
Proof.
  intros v h. assert (Hlen : length (be_encode 4 v) = 4%nat).
  { pose proof (len_be_encode 4 v) as H. unfold len in H. lia. }
  pose proof (nth_middle (be_encode 4 v) [] h 0) as Hn. rewrite Hlen in Hn. exact Hn.
Qed.

Lemma off_roundtrip : forall osz off, osz = 4 \/ osz = 5 -> off < off_limit osz ->
  off_parse osz (off_bytes osz off) = off /\ len (off_bytes osz off) = osz.
Proof.
  intros osz off [-> | ->] H; unfold off_parse, off_bytes, off_limit in *.
  - change (4 =? 5) with false in *. cbv iota in *. rewrite app_nil_r.
    rewrite takeN_all by apply len_be_encode. rewrite be_decode_encode_mod, len_be_encode.
    change (256 ^ N.of_nat 4) with 4294967296. split; [lia|reflexivity].
  - change (5 =? 5) with true in *. cbv iota in *.
    rewrite takeN_app by apply len_be_encode. rewrite nth4_be_encode4, be_decode_encode_mod.
    rewrite len_app, len_be_encode. change (256 ^ N.of_nat 4) with 4294967296. split; [lia|reflexivity].
Qed.

Lemma idx_roundtrip_w : forall osz key off size, osz = 4 \/ osz = 5 -> key < 2 ^ 64 -> off < off_limit osz ->
  (- 2147483648 <= size < 2147483648)%Z ->
  idx_parse_w osz (idx_bytes_w osz key off size) = (key, off, size) /\
  len (idx_bytes_w osz key off size) = 12 + osz.
Proof.
  intros osz key off size Hosz Hk Ho Hs. destruct (off_roundtrip osz off Hosz Ho) as [Hp Hl].
  unfold idx_parse_w, idx_bytes_w. split.
  - rewrite takeN_app by apply len_be_encode.
    rewrite dropN_app by apply len_be_encode.
    rewrite takeN_app by exact Hl. rewrite Hp.
    rewrite (app_assoc (be_encode 8 key)).
    rewrite dropN_app by (rewrite len_app, len_be_encode, Hl; reflexivity).
    rewrite takeN_all by apply len_be_encode.
    rewrite !be_decode_encode by (assumption || apply of_int32_lt).
    rewrite int32_roundtrip by assumption. reflexivity.
  - rewrite !len_app, !len_be_encode, Hl. change (N.of_nat 8) with 8. change (N.of_nat 4) with 4. lia.
Qed.

(* with 4 bytes the width-indexed definitions are the unsuffixed ones, which the other models import *)
Lemma idx_bytes_w4 : forall key off size, off < 2 ^ 32 -> idx_bytes_w 4 key off size = idx_bytes key off size.
Proof.
  intros key off size H. unfold idx_bytes_w, idx_bytes, off_bytes. change (4 =? 5) with false. cbv iota.
  rewrite app_nil_r, N.mod_small by exact H. reflexivity.
Qed.

Lemma idx_parse_w4 : forall b, idx_parse_w 4 b = idx_parse b.
Proof.
  intros b. unfold idx_parse_w, idx_parse, off_parse. change (4 =? 5) with false. cbv iota.
  rewrite takeN_takeN, N.add_0_r. reflexivity.
Qed.

Lemma idx_roundtrip : forall key off size, key < 2 ^ 64 -> off < 2 ^ 32 ->
  (- 2147483648 <= size < 2147483648)%Z ->
  idx_parse (idx_bytes key off size) = (key, off, size) /\ len (idx_bytes key off size) = 16.
Proof.
  intros key off size Hk Ho Hs. rewrite <- idx_bytes_w4, <- idx_parse_w4 by assumption.
  apply (idx_roundtrip_w 4); auto.
Qed.

Lemma to_offset_w4 : forall a, to_offset_w 4 a = to_offset a.
Proof. reflexivity. Qed.

(* ToActualOffset(ToOffset(a)) = a exactly for the multiples of 8 below MaxPossibleVolumeSize *)
Lemma offset_roundtrip_iff : forall osz a, osz = 4 \/ osz = 5 ->
  (to_actual_offset (to_offset_w osz a) = a <-> a mod 8 = 0 /\ a < max_volume_size osz).
Proof.
  intros osz a [-> | ->]; unfold to_actual_offset, to_offset_w, max_volume_size, off_limit.
  - change (4 =? 5) with false. cbv iota. split; intro H; lia.
  - change (5 =? 5) with true. cbv iota. split; intro H; lia.
Qed.

Lemma example_ok :
  fid_string 3 1 1668298710 = [51; 44; 48; 49; 54; 51; 55; 48; 51; 55; 100; 54]   (* "3,01637037d6" *)
  /\ parse_file_id [51; 44; 48; 49; 54; 51; 55; 48; 51; 55; 100; 54] = Some (3, 1, 1668298710)
  /\ read_ttl [49; 53; 100] = Some (15, 3) /\ ttl_string (15, 3) = [49; 53; 100]     (* "15d" *)
  /\ sb_read (fun b => Some b)
       (sb_bytes {| sb_version := 3; sb_rp := (0, 1, 2); sb_ttl := (15, 3); sb_compaction := 7; sb_extra := [10; 9; 8] |} ++ [1; 2])
     = Some {| sb_version := 3; sb_rp := (0, 1, 2); sb_ttl := (15, 3); sb_compaction := 7; sb_extra := [10; 9; 8] |}
  /\ sb_read (fun b => Some b) [3; 12; 15; 3; 0; 7; 0; 3; 10; 9] = None      (* truncated extra *)
  /\ idx_parse (idx_bytes 5 9 (-1)) = (5, 9, (-1)%Z).
Proof. vm_compute. repeat split; reflexivity. Qed.

Lemma example_more :
  fid_string 3 0 1668298710 = [51; 44; 48; 48; 54; 51; 55; 48; 51; 55; 100; 54]   (* "3,00637037d6": key 0 keeps one key byte *)
  /\ parse_file_id [51; 44; 48; 48; 54; 51; 55; 48; 51; 55; 100; 54] = Some (3, 0, 1668298710)
  /\ parse_file_id [51; 44; 54; 51; 55; 48; 51; 55; 100; 54] = None                   (* "3,637037d6": a key part is required *)
  /\ format_key_cookie 0 0 = [48; 48; 48; 48; 48; 48; 48; 48; 48; 48]
  /\ parse_path [48; 48; 48; 48; 48; 48; 48; 48; 48; 48] = Some (0, 0)
  /\ parse_path [48; 49; 54; 51; 55; 48; 51; 55; 100; 54; 95; 50] = Some (3, 1668298710)       (* "01637037d6_2" *)
  /\ parse_path [48; 49; 54; 51; 55; 48; 51; 55; 100; 54; 95] = Some (1, 1668298710)           (* "01637037d6_" *)
  /\ parse_path [48; 49; 54; 51; 55; 48; 51; 55; 100; 54; 95; 43; 49] = None                   (* "01637037d6_+1" *)
  /\ parse_file_id [51; 44; 44; 48; 49; 54; 51; 55; 48; 51; 55; 100; 54] = None                (* "3,,01637037d6" *)
  /\ load_ttl_u32 66817 = (5, 1) /\ ttl_to_u32 (5, 1) = 1281 /\ trig_ttl_u32 66817 = true      (* 0x10501 *)
  /\ load_ttl_u32 5 = (0, 5) /\ ttl_to_u32 (0, 5) = 0 /\ trig_ttl_u32 5 = true
  /\ trig_ttl_u32 1281 = false /\ trig_ttl_u32 0 = false
  /\ load_ttl_bytes [5; 9] = (5, 9) /\ ttl_string (5, 9) = []                                 (* unknown unit: prints as "" *)
  /\ sb_bytes_checked {| sb_version := 3; sb_rp := (0, 1, 2); sb_ttl := (15, 3); sb_compaction := 7; sb_extra := [10; 9; 8] |}
     = Some [3; 12; 15; 3; 0; 7; 0; 3; 10; 9; 8]
  /\ idx_parse_w 5 (idx_bytes_w 5 5 1099511627775 (-1)) = (5, 1099511627775, (-1)%Z)
  /\ idx_bytes_w 5 5 4294967297 7 = [0; 0; 0; 0; 0; 0; 0; 5; 0; 0; 0; 1; 1; 0; 0; 0; 7]
  /\ to_actual_offset (to_offset_w 5 34359738368) = 34359738368                              (* 32 GiB fits in 5 bytes *)
  /\ to_actual_offset (to_offset_w 4 34359738368) = 0                                        (* and wraps in 4 *)
  /\ to_actual_offset (to_offset_w 5 8796093022208) = 0.                                     (* 8 TiB wraps in 5 *)
Proof. vm_compute. repeat split; reflexivity. Qed.
