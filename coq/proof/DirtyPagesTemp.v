(* C30, the temp-file dirty pages (WrittenContinuousIntervals / TempFileDirtyPages; payload = offset into the
   temp file): validity and the buffered bytes are monotone in the growing temp file, the page-wise upload of
   FlushData (t_pieces) holds exactly the buffered bytes; then as DirtyPagesMem. *)
From Coq Require Import List ZArith NArith Bool Lia.
From SW Require Import model.DirtyPages proof.DirtyPagesBase proof.DirtyPagesIntervals proof.DirtyPagesState
                       proof.DirtyPagesRead proof.DirtyPagesMem.
Import ListNotations.
Local Open Scope Z_scope.

Definition t_valid (tf : list N) (t : tnode) : Prop :=
  0 < n_size t /\ 0 <= n_pay t /\ n_pay t + n_size t <= zlen tf.

Lemma t_nbytes : forall tf t, nbytes Z (t_fetch tf) t = slice tf (n_pay t) (n_pay t + n_size t).
Proof. intros. unfold nbytes, t_fetch. rewrite Z.add_0_r. reflexivity. Qed.

Lemma t_H_len : forall tf t, t_valid tf t -> 0 < n_size t /\ zlen (nbytes Z (t_fetch tf) t) = n_size t.
Proof.
  intros tf t [H1 [H2 H3]]. split; auto. rewrite t_nbytes. rewrite zlen_slice; lia.
Qed.

Lemma t_H_fetch : forall tf t a b, t_valid tf t -> 0 <= a -> a <= b -> b <= n_size t ->
  t_fetch tf (n_pay t) a b = slice (nbytes Z (t_fetch tf) t) a b.
Proof.
  intros tf t a b [H1 [H2 H3]] Ha Hab Hb. rewrite t_nbytes. unfold t_fetch.
  rewrite slice_slice by lia. reflexivity.
Qed.

Lemma t_H_sub : forall tf t a b, t_valid tf t -> n_off t <= a -> a < b -> b <= n_off t + n_size t ->
  let t' := {| n_off := a; n_size := b - a; n_pay := t_psub (n_pay t) (a - n_off t) (b - n_off t) |} in
  t_valid tf t' /\ nbytes Z (t_fetch tf) t' = slice (nbytes Z (t_fetch tf) t) (a - n_off t) (b - n_off t).
Proof.
  intros tf t a b [H1 [H2 H3]] Ha Hab Hb t'. subst t'. split.
  - unfold t_valid, t_psub. cbn [n_size n_pay]. lia.
  - rewrite !t_nbytes. unfold t_psub. cbn [n_size n_pay]. rewrite slice_slice by lia. f_equal; lia.
Qed.

Lemma t_H_merge : forall tf (t u w : tnode), t_valid tf t -> t_valid tf u -> n_off u = n_off t + n_size t ->
  t_merge t u = Some w ->
  t_valid tf w /\ n_off w = n_off t /\ n_size w = n_size t + n_size u /\
  nbytes Z (t_fetch tf) w = nbytes Z (t_fetch tf) t ++ nbytes Z (t_fetch tf) u.
Proof.
  intros tf t u w [H1 [H2 H3]] [U1 [U2 U3]] Ho Hm. unfold t_merge in Hm.
  destruct (Z.eqb_spec (n_pay t + n_size t) (n_pay u)) as [E|E]; [|discriminate].
  inversion Hm; subst w. cbn [n_off n_size n_pay].
  split; [unfold t_valid; cbn [n_size n_pay]; lia|]. split; auto. split; auto.
  rewrite !t_nbytes. cbn [n_size n_pay].
  rewrite (slice_split tf (n_pay t) (n_pay t + n_size t) (n_pay t + (n_size t + n_size u))) by lia.
  f_equal. f_equal; lia.
Qed.

Notation t_wf tf := (wf Z (t_valid tf)).
Notation t_cat tf := (cat Z (t_fetch tf)).
Notation t_lat tf := (lat Z (t_fetch tf)).

(* the temp file only grows: earlier nodes keep their bytes *)
Lemma t_valid_mono : forall tf d t, t_valid tf t -> t_valid (tf ++ d) t.
Proof.
  intros tf d t [H1 [H2 H3]]. unfold t_valid. rewrite zlen_app. pose proof (zlen_nonneg d). lia.
Qed.

Lemma t_chain_mono : forall tf d l, chain Z (t_valid tf) l -> chain Z (t_valid (tf ++ d)) l.
Proof.
  induction l as [|t l IH]; simpl; auto. intros [H1 [H2 H3]]. split; [apply t_valid_mono; auto|]. split; auto.
Qed.

Lemma t_wf_mono : forall tf d c, t_wf tf c -> t_wf (tf ++ d) c.
Proof.
  intros tf d c [H1 H2]. split; auto. rewrite Forall_forall in *. intros l Hl.
  destruct (H1 l Hl) as [A B]. split; auto. apply t_chain_mono; auto.
Qed.

Lemma t_lat_mono : forall tf d l a b p, seg Z (t_valid tf) a l b -> t_lat (tf ++ d) l p = t_lat tf l p.
Proof.
  induction l as [|t l IH]; intros a b p H; simpl; auto. destruct H as [[H1 [H2 H3]] [_ H]].
  rewrite (IH _ _ _ H). unfold nat_. rewrite !t_nbytes, slice_app_l by lia. reflexivity.
Qed.

Lemma t_cat_mono : forall tf d c p, t_wf tf c -> t_cat (tf ++ d) c p = t_cat tf c p.
Proof.
  induction c as [|l c IH]; intros p [H1 H2]; simpl; auto.
  inversion H1 as [|? ? Hl Hc]; subst. destruct H2 as [_ H2].
  rewrite (t_lat_mono tf d l _ _ p (wfl_seg l Hl)), IH by (split; auto). reflexivity.
Qed.

Definition t_node (off : Z) (data : list N) (tf : list N) : tnode :=
  {| n_off := off; n_size := zlen data; n_pay := zlen tf |}.

Theorem t_add_spec : forall tf c off data, t_wf tf c -> data <> [] ->
  t_wf (tf ++ data) (t_add c (t_node off data tf)) /\
  forall p, t_cat (tf ++ data) (t_add c (t_node off data tf)) p =
            if (off <=? p) && (p <? off + zlen data) then zget data (p - off) else t_cat tf c p.
Proof.
  intros tf c off data Hwf Hd. pose proof (zlen_pos data Hd) as Hlen.
  assert (Hv : t_valid (tf ++ data) (t_node off data tf)).
  { unfold t_valid, t_node. cbn [n_size n_pay]. rewrite zlen_app. pose proof (zlen_nonneg tf). lia. }
  destruct (add_interval_spec Z t_psub t_merge (t_fetch (tf ++ data)) (t_valid (tf ++ data))
              (t_H_len _) (t_H_sub _) (t_H_merge _) c (t_node off data tf) (t_wf_mono tf data c Hwf) Hv) as [H1 H2].
  split; auto. intros p. unfold t_add. rewrite H2, t_cat_mono by auto.
  unfold nat_. rewrite t_nbytes. cbn [t_node n_off n_size n_pay]. rewrite slice_app_r.
  destruct (range_spec off (off + zlen data) p); auto.
  destruct (zget_in_range data (p - off)) as [b Hb]; [lia|]. rewrite Hb. auto.
Qed.

Lemma fold_add_chunk : forall saved m,
  f_attr (fold_left add_chunk saved m) = f_attr m /\
  f_chunks (fold_left add_chunk saved m) = f_chunks m ++ saved /\
  f_pin (fold_left add_chunk saved m) = f_pin m.
Proof.
  induction saved as [|c saved IH]; intros m; simpl.
  - rewrite app_nil_r. auto.
  - destruct (IH (add_chunk m c)) as [A [B C]]. rewrite A, B, C. cbn [add_chunk f_attr f_chunks f_pin].
    rewrite <- app_assoc. auto.
Qed.

(* the pages from u on, fuel of them, hold the bytes of the list between u and u + fuel * limit *)
Lemma t_pieces_spec : forall tf limit l, wfl Z (t_valid tf) l -> 0 < limit ->
  forall fuel u, 0 <= u ->
  (forall c, In c (t_pieces fuel tf l limit u (tail_end Z l)) ->
     Z.max (head_off Z l) u <= fst c /\ fst c + zlen (snd c) <= tail_end Z l) /\
  (forall p, cget (t_pieces fuel tf l limit u (tail_end Z l)) p =
             if (u <=? p) && (p <? Z.min (tail_end Z l) (u + Z.of_nat fuel * limit)) then t_lat tf l p else None).
Proof.
  intros tf limit l Hw Hlim. pose proof (wfl_seg l Hw) as Sg.
  pose proof (wfl_hd_lt_te (t_H_len tf) l Hw) as Hlt.
  induction fuel as [|fuel IH]; intros u Hu.
  - simpl. split; [intros c []|]. intros p.
    replace ((u <=? p) && (p <? Z.min (tail_end Z l) (u + 0))) with false by lia. reflexivity.
  - cbn [t_pieces]. destruct (Z.ltb_spec u (tail_end Z l)).
    + destruct (IH (u + limit)) as [I1 I2]; [lia|].
      replace (u + Z.of_nat (S fuel) * limit) with (u + limit + Z.of_nat fuel * limit) by lia.
      assert (Hk : 0 <= Z.of_nat fuel * limit) by (apply Z.mul_nonneg_nonneg; lia).
      remember (Z.of_nat fuel * limit) as k eqn:Ek. clear Ek.
      destruct (Z.ltb_spec (Z.max (head_off Z l) u) (Z.min (tail_end Z l) (u + limit))) as [Hss|Hss]; cbn [app].
      * destruct (list_bytes_spec Z t_psub (t_fetch tf) (t_valid tf) (t_H_len tf) (t_H_fetch tf) (t_H_sub tf)
                    l _ _ (Z.max (head_off Z l) u) (Z.min (tail_end Z l) (u + limit)) Sg) as [B1 B2]; try lia.
        unfold limit_bytes. rewrite <- B1, firstn_zlen. split.
        { intros c [Hc|Hc]; [subst c; cbn [fst snd]; lia|destruct (I1 c Hc); lia]. }
        intros p. cbn [cget fst snd]. rewrite I2, B2. destruct (t_lat tf l p) eqn:E.
        { apply (lat_range (t_H_len tf) Sg) in E.
          destruct (range_spec (u + limit) (Z.min (tail_end Z l) (u + limit + k)) p).
          - replace ((u <=? p) && (p <? Z.min (tail_end Z l) (u + limit + k))) with true by lia. reflexivity.
          - replace ((Z.max (head_off Z l) u <=? p) && (p <? Z.min (tail_end Z l) (u + limit)))
              with ((u <=? p) && (p <? Z.min (tail_end Z l) (u + limit + k))) by lia.
            destruct (_ && _); reflexivity. }
        { destruct (_ && _), (_ && _), (_ && _); reflexivity. }
      * (* the page lies wholly before the list: `continue` *)
        split; [intros c Hc; destruct (I1 c Hc); lia|]. intros p. rewrite I2.
        destruct (t_lat tf l p) eqn:E; [|destruct (_ && _), (_ && _); reflexivity].
        apply (lat_range (t_H_len tf) Sg) in E.
        replace ((u + limit <=? p) && (p <? Z.min (tail_end Z l) (u + limit + k)))
          with ((u <=? p) && (p <? Z.min (tail_end Z l) (u + limit + k))) by lia. reflexivity.
    + split; [intros c []|]. intros p. cbn [cget].
      replace ((u <=? p) && (p <? Z.min (tail_end Z l) (u + Z.of_nat (S fuel) * limit))) with false by lia.
      reflexivity.
Qed.

Lemma t_list_chunks_spec : forall tf limit l, wfl Z (t_valid tf) l -> 0 < limit -> 0 <= head_off Z l ->
  (forall c, In c (t_list_chunks tf limit l) ->
     head_off Z l <= fst c /\ fst c + zlen (snd c) <= tail_end Z l) /\
  (forall p, cget (t_list_chunks tf limit l) p = t_lat tf l p).
Proof.
  intros tf limit l Hw Hlim Hhd. unfold t_list_chunks.
  pose proof (wfl_hd_lt_te (t_H_len tf) l Hw) as Hlt.
  replace (head_off Z l + l_size Z l) with (tail_end Z l) by (unfold l_size; lia).
  replace (Z.max 1 limit) with limit by lia.
  set (fuel := S (Z.to_nat (tail_end Z l / limit))).
  destruct (t_pieces_spec tf limit l Hw Hlim fuel 0) as [P1 P2]; [lia|].
  split.
  - intros c Hc. destruct (P1 c Hc). lia.
  - intros p. rewrite P2.
    assert (Hf : tail_end Z l <= 0 + Z.of_nat fuel * limit).
    { unfold fuel. rewrite Nat2Z.inj_succ, Z2Nat.id by (apply Z.div_pos; lia).
      pose proof (Z.div_mod (tail_end Z l) limit). pose proof (Z.mod_pos_bound (tail_end Z l) limit). nia. }
    destruct (t_lat tf l p) eqn:E; [|destruct (_ && _); reflexivity].
    apply (lat_range (t_H_len tf) (wfl_seg l Hw)) in E.
    replace ((0 <=? p) && (p <? Z.min (tail_end Z l) (0 + Z.of_nat fuel * limit))) with true by lia.
    reflexivity.
Qed.

Lemma t_all_chunks_spec : forall tf limit c, t_wf tf c -> 0 < limit ->
  (forall l, In l c -> 0 <= head_off Z l) ->
  (forall k, In k (flat_map (t_list_chunks tf limit) c) ->
     exists l, In l c /\ head_off Z l <= fst k /\ fst k + zlen (snd k) <= tail_end Z l) /\
  (forall p, cget (flat_map (t_list_chunks tf limit) c) p = t_cat tf c p).
Proof.
  intros tf limit. induction c as [|l c IH]; intros Hwf Hlim Hpos.
  - simpl. split; [intros k []|auto].
  - pose proof Hwf as [Hw [_ Hp]]. inversion Hw as [|? ? Hwl Hwc]; subst.
    destruct (IH (conj Hwc Hp) Hlim) as [I1 I2]; [intros; apply Hpos; right; auto|].
    destruct (t_list_chunks_spec tf limit l Hwl Hlim) as [L1 L2]; [apply Hpos; left; auto|].
    cbn [flat_map]. split.
    + intros k Hk. apply in_app_or in Hk. destruct Hk as [Hk|Hk].
      * exists l. split; [left; auto|]. apply L1; auto.
      * destruct (I1 k Hk) as [m [Hm Hr]]. exists m. split; [right; auto|auto].
    + intros p. rewrite cget_app, I2, L2. cbn [cat].
      destruct (t_lat tf l p) eqn:E1; [|destruct (t_cat tf c p); reflexivity].
      rewrite (lat_cat_disjoint (t_H_len tf) Hwf E1). reflexivity.
Qed.

Definition tinv (s : tstate) (g : Z -> N) (A : Z) : Prop :=
  binv Z (t_fetch (t_file s)) (t_valid (t_file s)) (t_iv s) (t_meta s) g A /\ (t_tf s = None -> t_iv s = []).
Definition tinv_f (s : tstate) (f : list N) : Prop := tinv s (pget f) (zlen f).
Definition t_ends (s : tstate) : list Z := map (tail_end Z) (t_iv s).

Lemma t_add_page_inv : forall s g A off data, tinv s g A ->
  0 <= off -> data <> [] -> off + zlen data <= A ->
  tinv (t_add_page s off data) (override g off data) A.
Proof.
  intros s g A off data [I _] Hoff Hd Hend. unfold t_add_page. fold (t_node off data (t_file s)).
  destruct (t_add_spec (t_file s) (t_iv s) off data (bi_wf I) Hd) as [W C].
  split; [|intros; discriminate]. cbn [t_iv t_tf t_meta t_file].
  apply (binv_add (t_H_len _) (t_H_len _) (binv_to_except _ _ I) W C); auto.
Qed.

Lemma t_flush_inv : forall limit s g A, tinv s g A -> 0 < limit ->
  tinv (t_flush limit s) g A /\ t_iv (t_flush limit s) = [].
Proof.
  intros limit s g A [[H1 H2 H3 H4 H5 H6] H0] Hlim. unfold t_flush.
  destruct (fold_add_chunk (flat_map (t_list_chunks (t_file s) limit) (t_iv s)) (t_meta s)) as [F1 [F2 F3]].
  destruct (t_all_chunks_spec (t_file s) limit (t_iv s) H1 Hlim) as [S1 S2].
  { intros l Hl. apply H4; auto. }
  assert (Hiv : match t_tf s with Some _ => [] | None => t_iv s end = []).
  { destruct (t_tf s) eqn:E; auto. }
  split; [|cbn [t_iv]; auto].
  split; [|cbn [t_iv]; auto]. constructor; cbn [t_iv t_tf t_meta t_file]; rewrite ?Hiv, ?F1, ?F2; auto.
  - split; simpl; auto.
  - intros l [].
  - intros c Hc. apply in_app_or in Hc. destruct Hc as [Hc|Hc]; auto.
    destruct (S1 c Hc) as [l [Hl [A1 A2]]]. destruct (H4 l Hl). lia.
  - intros p Hp Ho. rewrite cget_app, S2. cbn [cat]. rewrite (H6 p Hp Ho).
    destruct (t_cat (t_file s) (t_iv s) p); auto.
Qed.

(* a Read changes nothing but the view cache *)
Lemma t_step_read : forall limit s off len,
  t_step limit s (Read off len) =
  ({| t_iv := t_iv s; t_tf := t_tf s; t_meta := snd (handle_read (t_meta s) (t_dirty_read s) off len) |},
   ORead (fst (t_dirty_read s (repeat 0%N (Z.to_nat len)) off)) (snd (t_dirty_read s (repeat 0%N (Z.to_nat len)) off))
         (fst (handle_read (t_meta s) (t_dirty_read s) off len))).
Proof.
  intros. cbn [t_step]. destruct (t_dirty_read s _ off). destruct (handle_read _ _ off len). reflexivity.
Qed.

Lemma t_step_inv : forall limit, 0 < limit -> forall s f o, tinv_f s f -> op_ok o ->
  trig_at (t_ends s) (t_meta s) o = None -> tinv_f (fst (t_step limit s o)) (pstep f o).
Proof.
  intros limit Hlim s f o I Hok Htr. unfold tinv_f in *.
  destruct o as [off data|n| |off len]; cbn [pstep]; [cbn [t_step fst]..|].
  - destruct Hok as [Hoff Hd]. destruct (pwrite_spec f off data Hoff) as [Hlen _]. destruct I as [I I0].
    assert (E : forall s' g, tinv s' (override (pget f) off data) g -> tinv s' (pget (pwrite f off data)) g).
    { intros s' g [J J0]. split; auto.
      apply (binv_ext (override (pget f) off data)); auto. intros; symmetry; apply pget_override; auto. }
    apply E. rewrite Hlen, (bi_attr I), Z.max_comm. apply t_add_page_inv; auto; try lia.
    split; auto. apply (binv_grow (t_H_len _)); auto. lia.
  - destruct I as [I I0]. split; auto. apply (binv_trunc (t_H_len _)); auto.
  - apply t_flush_inv; auto.
  - rewrite t_step_read. destruct I as [I I0]. split; auto.
    cbn [fst t_iv t_tf t_meta t_file]. rewrite handle_read_only_pins. apply binv_pin; auto.
Qed.

Lemma tinv0 : tinv_f tstate0 [].
Proof. split; auto. constructor; cbn; auto; try lia. split; simpl; auto. Qed.

Theorem t_flush_is_posix : forall limit pre post, 0 < limit ->
  Forall op_ok (pre ++ Flush :: post) ->
  t_trigger limit (pre ++ Flush :: post) = None ->
  content_of (t_meta (exec tstate (t_step limit) tstate0 (pre ++ [Flush]))) = pfile (pre ++ [Flush]).
Proof.
  intros limit pre post Hlim Hok Htr.
  destruct (hist_before (t_step_inv limit Hlim) pre tstate0 [] _ post tinv0 Hok Htr) as [I _].
  rewrite exec_app, pfile_app. cbn [exec fst fold_left pstep].
  destruct (t_flush_inv limit _ _ _ I Hlim) as [[J _] Hnil]. cbn [t_step fst]. rewrite Hnil in J.
  apply (binv_content J).
Qed.

Theorem t_read_is_posix_history : forall limit pre off len post, 0 < limit ->
  Forall op_ok (pre ++ Read off len :: post) -> 0 <= off -> 0 < len ->
  t_trigger limit (pre ++ Read off len :: post) = None ->
  exists d ms, snd (t_step limit (exec tstate (t_step limit) tstate0 pre) (Read off len))
               = ORead d ms (pread (pfile pre) off len).
Proof.
  intros limit pre off len post Hlim Hok Hoff Hlen Htr.
  destruct (hist_before (t_step_inv limit Hlim) pre tstate0 [] _ post tinv0 Hok Htr) as [[I _] E].
  set (s := exec tstate (t_step limit) tstate0 pre) in *.
  assert (Hr : fst (handle_read (t_meta s) (t_dirty_read s) off len) = pread (pfile pre) off len)
    by exact (handle_read_posix (t_H_len _) (t_H_fetch _) off len I Hoff Hlen E).
  rewrite t_step_read. cbn [snd]. rewrite Hr. eauto.
Qed.

Definition t_ok (s : tstate) : Prop := t_wf (t_file s) (t_iv s) /\ (t_tf s = None -> t_iv s = []).

Lemma t_step_ok : forall limit s o, t_ok s -> op_ok o -> t_ok (fst (t_step limit s o)).
Proof.
  intros limit s o [W Hn] Hok. destruct o as [off data|n| |off len]; [cbn [t_step fst]..|].
  - destruct Hok as [_ Hd]. unfold t_add_page. cbn [t_iv t_tf t_meta].
    fold (t_node off data (t_file s)).
    destruct (t_add_spec (t_file s) (t_iv s) off data W Hd) as [W' _].
    split; cbn [t_iv t_tf t_file]; auto. intros; discriminate.
  - split; auto.
  - unfold t_flush. split; cbn [t_iv t_tf t_file].
    + destruct (t_tf s) eqn:E; [split; simpl; auto|]. rewrite (Hn eq_refl). split; simpl; auto.
    + intros _. destruct (t_tf s) eqn:E; auto.
  - rewrite t_step_read. split; auto.
Qed.

(* the interval lists stay well formed along EVERY history *)
Theorem t_lists_wellformed : forall limit ops, Forall op_ok ops ->
  t_ok (exec tstate (t_step limit) tstate0 ops).
Proof.
  intros limit ops. apply (exec_preserves _ t_ok (t_step_ok limit)). split; [split; simpl; auto|auto].
Qed.

(* AddPage of every write of ws, in order *)
Definition t_adds (ws : list (Z * list N)) (s : tstate) : tstate :=
  fold_left (fun s w => t_add_page s (fst w) (snd w)) ws s.

Lemma t_adds_spec : forall ws s, t_wf (t_file s) (t_iv s) -> Forall (fun w => snd w <> []) ws ->
  t_wf (t_file (t_adds ws s)) (t_iv (t_adds ws s)) /\
  forall p, t_cat (t_file (t_adds ws s)) (t_iv (t_adds ws s)) p = latest_from (t_cat (t_file s) (t_iv s) p) ws p.
Proof.
  induction ws as [|w ws IH]; intros s W Hne; simpl; auto.
  inversion Hne as [|? ? Hw Hws]; subst.
  destruct (t_add_spec (t_file s) (t_iv s) (fst w) (snd w) W Hw) as [W1 C1].
  destruct (IH (t_add_page s (fst w) (snd w)) W1 Hws) as [W2 C2]. split; auto.
  intros p. rewrite C2. unfold t_add_page at 1 2. cbn [t_iv t_tf t_file].
  fold (t_node (fst w) (snd w) (t_file s)). rewrite C1. reflexivity.
Qed.

(* ReadDataAt returns the latest write *)
Theorem t_read_is_posix : forall ws buf so i, Forall (fun w => snd w <> []) ws -> 0 <= i < zlen buf ->
  zget (fst (t_dirty_read (t_adds ws tstate0) buf so)) i =
  match latest ws (so + i) with Some b => Some b | None => zget buf i end.
Proof.
  intros ws buf so i Hne Hi. destruct (t_adds_spec ws tstate0 (conj (Forall_nil _) I) Hne) as [W C].
  unfold t_dirty_read.
  destruct (read_data_at_spec Z _ _ (t_H_len _) (t_H_fetch _) (t_iv (t_adds ws tstate0)) buf so W) as [_ [R _]].
  rewrite R. replace ((0 <=? i) && (i <? zlen buf)) with true by lia. rewrite C. reflexivity.
Qed.
