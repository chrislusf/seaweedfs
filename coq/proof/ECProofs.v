(* C06, model/EC.v: lists indexed by Z, the rows encodeDatFile writes, and what
   every data shard file then contains. *)
From Coq Require Import List ZArith NArith Bool Lia ZifyBool.
From SW Require Import model.EC.
Import ListNotations.
Local Open Scope Z_scope.

Lemma zlen_nonneg {A} (l : list A) : 0 <= zlen l.
Proof. unfold zlen. lia. Qed.
Lemma zlen_nil {A} : zlen (@nil A) = 0.
Proof. reflexivity. Qed.
Lemma zlen_cons {A} (x : A) l : zlen (x :: l) = zlen l + 1.
Proof. unfold zlen. simpl length. lia. Qed.
Lemma zlen_app {A} (l1 l2 : list A) : zlen (l1 ++ l2) = zlen l1 + zlen l2.
Proof. unfold zlen. rewrite app_length. lia. Qed.
Lemma zlen_map {A B} (f : A -> B) l : zlen (map f l) = zlen l.
Proof. unfold zlen. rewrite map_length. reflexivity. Qed.

Lemma zcount_length : forall n a, length (zcount a n) = n.
Proof. induction n as [|n IH]; intros a; simpl; auto. Qed.

Lemma zlen_zrange a n : 0 <= n -> zlen (zrange a n) = n.
Proof. intros H. unfold zlen, zrange. rewrite zcount_length. lia. Qed.

Lemma zrange_nonpos a n : n <= 0 -> zrange a n = [].
Proof. intros H. unfold zrange. replace (Z.to_nat n) with O by lia. reflexivity. Qed.

Lemma zcount_app : forall n m a, zcount a (n + m) = zcount a n ++ zcount (a + Z.of_nat n) m.
Proof.
  induction n as [|n IH]; intros m a.
  - simpl. f_equal. lia.
  - cbn [Nat.add zcount app]. f_equal. rewrite IH. f_equal. f_equal. lia.
Qed.

Lemma zrange_app a n m : 0 <= n -> 0 <= m -> zrange a (n + m) = zrange a n ++ zrange (a + n) m.
Proof.
  intros Hn Hm. unfold zrange. rewrite Z2Nat.inj_add by lia. rewrite zcount_app.
  f_equal. f_equal. lia.
Qed.

Lemma zrange_cons a n : 0 <= n -> zrange a (n + 1) = a :: zrange (a + 1) n.
Proof.
  intros Hn. unfold zrange. replace (Z.to_nat (n + 1)) with (S (Z.to_nat n)) by lia. reflexivity.
Qed.

Lemma zcount_nth : forall n a k d, (k < n)%nat -> nth k (zcount a n) d = a + Z.of_nat k.
Proof.
  induction n as [|n IH]; intros a k d Hk; [lia|].
  destruct k as [|k]; simpl zcount; cbn [nth].
  - lia.
  - rewrite IH by lia. lia.
Qed.

Lemma znth_zrange a n k d : 0 <= k < n -> znth (zrange a n) k d = a + k.
Proof. intros H. unfold znth, zrange. rewrite zcount_nth by lia. lia. Qed.

Lemma zcount_in : forall n a x, In x (zcount a n) <-> a <= x < a + Z.of_nat n.
Proof.
  induction n as [|n IH]; intros a x; simpl.
  - lia.
  - rewrite IH. lia.
Qed.

Lemma in_zrange a n x : In x (zrange a n) <-> a <= x < a + n /\ 0 < n.
Proof. unfold zrange. rewrite zcount_in. lia. Qed.

Lemma zcount_shift : forall n a c, zcount (a + c) n = map (fun x => x + c) (zcount a n).
Proof.
  induction n as [|n IH]; intros a c; simpl; auto.
  f_equal. replace (a + c + 1) with (a + 1 + c) by lia. apply IH.
Qed.

Lemma map_zrange_ext {B} (f g : Z -> B) a b n :
  (forall t, 0 <= t < n -> f (a + t) = g (b + t)) -> map f (zrange a n) = map g (zrange b n).
Proof.
  intros H. unfold zrange.
  replace a with (0 + a) at 1 by lia. replace b with (0 + b) at 1 by lia.
  rewrite !zcount_shift, !map_map. apply map_ext_in.
  intros x Hx. apply zcount_in in Hx.
  replace (x + a) with (a + x) by lia. replace (x + b) with (b + x) by lia. apply H. lia.
Qed.

Lemma znth_app_l {A} (l1 l2 : list A) p d : 0 <= p < zlen l1 -> znth (l1 ++ l2) p d = znth l1 p d.
Proof. intros H. unfold znth, zlen in *. apply app_nth1. lia. Qed.

Lemma znth_app_r {A} (l1 l2 : list A) p d : zlen l1 <= p -> znth (l1 ++ l2) p d = znth l2 (p - zlen l1) d.
Proof.
  intros H. unfold znth, zlen in *. rewrite app_nth2 by lia. f_equal. lia.
Qed.

Lemma znth_map {A B} (f : A -> B) l p d d' : 0 <= p < zlen l -> znth (map f l) p d = f (znth l p d').
Proof.
  intros H. unfold znth, zlen in *.
  rewrite nth_indep with (d' := f d') by (rewrite map_length; lia). apply map_nth.
Qed.

Lemma znth_map_zrange {B} (f : Z -> B) a n k d : 0 <= k < n -> znth (map f (zrange a n)) k d = f (a + k).
Proof.
  intros H. rewrite znth_map with (d' := 0) by (rewrite zlen_zrange; lia).
  rewrite znth_zrange by lia. reflexivity.
Qed.

Lemma znth_cons_0 {A} (x : A) l d : znth (x :: l) 0 d = x.
Proof. reflexivity. Qed.
Lemma znth_cons_pos {A} (x : A) l p d : 0 < p -> znth (x :: l) p d = znth l (p - 1) d.
Proof.
  intros H. unfold znth. replace (Z.to_nat p) with (S (Z.to_nat (p - 1))) by lia. reflexivity.
Qed.

Definition datz (dat : Z -> byte) (D p : Z) : byte := if p <? D then dat p else 0%N.
Definition dslice (dat : Z -> byte) (a n : Z) : list byte := map dat (zrange a n).

Lemma read_zfill_eq dat D pos len : read_zfill dat D pos len = map (datz dat D) (zrange pos len).
Proof. reflexivity. Qed.

Lemma dslice_app dat a n m : 0 <= n -> 0 <= m -> dslice dat a n ++ dslice dat (a + n) m = dslice dat a (n + m).
Proof. intros. unfold dslice. rewrite zrange_app by lia. rewrite map_app. reflexivity. Qed.

Lemma dslice_0 dat a : dslice dat a 0 = [].
Proof. reflexivity. Qed.

Lemma zlen_dslice dat a n : 0 <= n -> zlen (dslice dat a n) = n.
Proof. intros. unfold dslice. rewrite zlen_map. apply zlen_zrange. lia. Qed.

Lemma concat_chunks {B} (g : Z -> B) A buf : 0 <= buf ->
  forall n a0,
  concat (map (fun b => map g (zrange (A + b * buf) buf)) (zcount a0 n)) =
  map g (zrange (A + a0 * buf) (Z.of_nat n * buf)).
Proof.
  intros Hbuf. induction n as [|n IH]; intros a0.
  - reflexivity.
  - cbn [zcount map concat]. rewrite IH.
    replace (Z.of_nat (S n) * buf) with (buf + Z.of_nat n * buf) by lia.
    rewrite zrange_app by lia. rewrite map_app. f_equal. f_equal. f_equal. lia.
Qed.

Lemma concat_map_flat_map {A B C} (f : B -> list C) (g : A -> list B) (l : list A) :
  concat (map f (flat_map g l)) = concat (map (fun r => concat (map f (g r))) l).
Proof.
  induction l as [|x l IH]; simpl; auto.
  rewrite map_app, concat_app, IH. reflexivity.
Qed.

Lemma concat_uniform {A B} (f : A -> list B) c (d : B) (a0 : A) :
  0 <= c -> (forall x, zlen (f x) = c) ->
  forall bs, zlen (concat (map f bs)) = zlen bs * c /\
  forall q r, 0 <= q < zlen bs -> 0 <= r < c ->
    znth (concat (map f bs)) (q * c + r) d = znth (f (znth bs q a0)) r d.
Proof.
  intros Hc Hf. induction bs as [|b bs [IHl IHn]].
  - split; [reflexivity|]. intros q r Hq. unfold zlen in Hq. cbn in Hq. lia.
  - cbn [map concat]. rewrite zlen_cons. split.
    + rewrite zlen_app, IHl, Hf. lia.
    + intros q r Hq Hr. destruct (Z.eq_dec q 0) as [->|Hq0].
      * rewrite znth_cons_0. apply znth_app_l. rewrite Hf. lia.
      * assert (c <= q * c + r) by nia. rewrite znth_app_r by (rewrite Hf; lia). rewrite Hf.
        replace (q * c + r - c) with ((q - 1) * c + r) by lia. rewrite IHn by lia.
        rewrite znth_cons_pos by lia. reflexivity.
Qed.

Definition lrows (L proc R : Z) : list row := map (fun k => (proc + k * (L * 10), L)) (zrange 0 R).
Definition srows (S proc s : Z) : list row := map (fun k => (proc + k * (S * 10), S)) (zrange 0 s).

Lemma rows_cons (c bs proc n : Z) : 0 <= n ->
  map (fun k => (proc + k * c, bs)) (zrange 0 (n + 1)) =
  (proc, bs) :: map (fun k => (proc + c + k * c, bs)) (zrange 0 n).
Proof.
  intros Hn. rewrite zrange_cons by lia. cbn [map]. f_equal.
  - f_equal. lia.
  - apply map_zrange_ext. intros t Ht. f_equal. lia.
Qed.

(* R large rows then s small rows cover D exactly as the encoder's two loops do *)
Definition layout (L S D R s : Z) : Prop :=
  0 <= R /\ 0 <= s /\
  (D <= 0 -> R = 0 /\ s = 0) /\
  (0 < D -> R * (L * 10) < D <= R * (L * 10) + L * 10 /\
            (s - 1) * (S * 10) < D - R * (L * 10) <= s * (S * 10)).

Lemma encode_rows_small_spec S : 0 < S ->
  forall fuel rem proc, (Z.to_nat rem <= fuel)%nat ->
  exists s, 0 <= s /\ (rem <= 0 -> s = 0) /\ (0 < rem -> (s - 1) * (S * 10) < rem <= s * (S * 10)) /\
            encode_rows_small fuel S rem proc = srows S proc s.
Proof.
  intros HS. induction fuel as [|f IH]; intros rem proc Hf.
  - exists 0. repeat split; lia.
  - cbn [encode_rows_small]. destruct (rem >? 0) eqn:E.
    + destruct (IH (rem - S * 10) (proc + S * 10)) as (s' & Hs0 & Hz & Hp & ->); [lia|].
      exists (s' + 1). unfold srows. rewrite rows_cons by lia.
      repeat split; nia.
    + exists 0. repeat split; lia.
Qed.

Lemma encode_rows_large_spec L S : 0 < L -> 0 < S ->
  forall fuel rem proc, (Z.to_nat rem < fuel)%nat ->
  exists R s, layout L S rem R s /\
    encode_rows_large fuel L S rem proc = lrows L proc R ++ srows S (proc + R * (L * 10)) s.
Proof.
  intros HL HS. induction fuel as [|f IH]; intros rem proc Hf; [lia|].
  cbn [encode_rows_large]. destruct (rem >? L * 10) eqn:E.
  - destruct (IH (rem - L * 10) (proc + L * 10)) as (R' & s & Hlay & ->); [lia|].
    exists (R' + 1), s. unfold layout in *. split; [lia|].
    unfold lrows. rewrite rows_cons by lia. cbn [app]. do 3 f_equal. lia.
  - destruct (encode_rows_small_spec S HS (Z.to_nat rem) rem proc (le_n _)) as (s & Hs0 & Hz & Hp & ->).
    exists 0, s. unfold layout. split; [lia|].
    unfold lrows. cbn [zrange zcount Z.to_nat map app]. f_equal. lia.
Qed.

Lemma encode_layout_spec L S D : 0 < L -> 0 < S ->
  exists R s, layout L S D R s /\ encode_layout L S D = lrows L 0 R ++ srows S (R * (L * 10)) s.
Proof.
  intros HL HS. unfold encode_layout.
  destruct (encode_rows_large_spec L S HL HS (Datatypes.S (Z.to_nat D)) D 0 ltac:(lia)) as [R [s [H1 H2]]].
  exists R, s. split; auto.
Qed.

(* the layout is a function of D *)
Lemma layout_unique L S D R s R' s' : 0 < L -> 0 < S ->
  layout L S D R s -> layout L S D R' s' -> R = R' /\ s = s'.
Proof.
  intros HL HS [H1 [H2 [H3 H4]]] [H1' [H2' [H3' H4']]].
  destruct (Z_le_gt_dec D 0) as [Hle|Hgt].
  - destruct (H3 Hle), (H3' Hle). lia.
  - specialize (H4 ltac:(lia)). specialize (H4' ltac:(lia)).
    assert (R = R') by nia. subst R'. split; auto. nia.
Qed.

(* with small | large the small rows never exceed one large block per shard *)
Lemma layout_small_rows L S D R s m : 0 < S -> 0 < L -> L = m * S -> 0 < D ->
  layout L S D R s -> 1 <= s * S <= L.
Proof.
  intros HS HL -> HD (_ & _ & _ & H4). specialize (H4 HD).
  assert (0 < s) by nia. assert (s - 1 < m) by nia. nia.
Qed.

Lemma layout_bounds L S D R s : 0 < L -> layout L S D R s ->
  0 <= R /\ 0 <= s /\ D <= R * (L * 10) + s * (S * 10) /\
  (0 < R -> R * (L * 10) < D) /\ D - R * (L * 10) <= L * 10.
Proof.
  intros HL (HR & Hs & H0 & Hp). destruct (Z_le_gt_dec D 0) as [Hle|Hgt].
  - destruct (H0 Hle). subst. lia.
  - specialize (Hp ltac:(lia)). lia.
Qed.

(* the block of shard i in a row *)
Definition blk (dat : Z -> byte) (D i : Z) (r : row) : list byte :=
  map (datz dat D) (zrange (fst r + snd r * i) (snd r)).

Lemma row_shard dat D buf i start bs m : 0 < buf -> 0 <= m -> bs = m * buf ->
  concat (map (data_buf dat D buf i) (row_batches buf (start, bs))) = blk dat D i (start, bs).
Proof.
  intros Hbuf Hm Hbs. unfold row_batches, blk. cbn [fst snd].
  replace (Z.quot bs buf) with m by (subst bs; rewrite Z.quot_mul; lia).
  rewrite map_map.
  transitivity (concat (map (fun b => map (datz dat D) (zrange ((start + bs * i) + b * buf) buf))
                            (zcount 0 (Z.to_nat m)))).
  - f_equal. apply map_ext. intros b. unfold data_buf. rewrite read_zfill_eq. f_equal. f_equal. lia.
  - rewrite concat_chunks by lia. f_equal. f_equal; lia.
Qed.

Lemma data_shard_rows dat buf D i rows : 0 < buf ->
  (forall r, In r rows -> exists m, 0 <= m /\ snd r = m * buf) ->
  concat (map (data_buf dat D buf i) (all_batches buf rows)) = concat (map (blk dat D i) rows).
Proof.
  intros Hbuf Hrows. unfold all_batches. rewrite concat_map_flat_map. f_equal.
  apply map_ext_in. intros [start bs] Hin. destruct (Hrows _ Hin) as [m [Hm Hbs]].
  eapply row_shard; eauto.
Qed.

Lemma region_shard dat D i c bs proc n d : 0 <= bs -> 0 <= n ->
  let reg := concat (map (blk dat D i) (map (fun k => (proc + k * c, bs)) (zrange 0 n))) in
  zlen reg = n * bs /\
  forall k r, 0 <= k < n -> 0 <= r < bs -> znth reg (k * bs + r) d = datz dat D (proc + k * c + bs * i + r).
Proof.
  intros Hbs Hn reg. subst reg. rewrite map_map. unfold blk. cbn [fst snd].
  destruct (concat_uniform (fun k => map (datz dat D) (zrange (proc + k * c + bs * i) bs)) bs d 0 Hbs
              ltac:(intros; cbv beta; rewrite zlen_map; apply zlen_zrange; lia) (zrange 0 n)) as [Hl Hn'].
  rewrite zlen_zrange in Hl, Hn' by lia. split; [exact Hl|].
  intros k r Hk Hr. rewrite Hn', znth_zrange, znth_map_zrange by lia. reflexivity.
Qed.

(* n rows of block size bs, the first at byte proc of the .dat: in every data shard file
   their blocks follow one another from byte b on *)
Definition region (dat : Z -> byte) (D : Z) (sh : list (list byte)) (b proc bs n : Z) : Prop :=
  forall i, 0 <= i < 10 ->
    b + n * bs <= zlen (znth sh i []) /\
    forall k r, 0 <= k < n -> 0 <= r < bs ->
      znth (znth sh i []) (b + k * bs + r) 0%N = datz dat D (proc + k * (bs * 10) + i * bs + r).

(* the facts about the shard files that the readers rely on *)
Record enc_facts (dat : Z -> byte) (L S D R s : Z) (sh : list (list byte)) : Prop := {
  ef_len : forall i, 0 <= i < 10 -> zlen (znth sh i []) = R * L + s * S;
  ef_large : region dat D sh 0 0 L R;
  ef_small : region dat D sh (R * L) (R * (L * 10)) S s
}.
Arguments ef_len {dat L S D R s sh}.
Arguments ef_large {dat L S D R s sh}.
Arguments ef_small {dat L S D R s sh}.

Lemma znth_data_shards dat L S buf D i : 0 <= i < 10 ->
  znth (data_shards dat L S buf D) i [] = data_shard dat L S buf D i.
Proof. intros Hi. unfold data_shards. rewrite znth_map_zrange by lia. reflexivity. Qed.

Lemma data_shard_facts dat L S buf D R s ml ms : 0 < L -> 0 < S -> 0 < buf ->
  L = ml * buf -> S = ms * buf ->
  layout L S D R s -> encode_layout L S D = lrows L 0 R ++ srows S (R * (L * 10)) s ->
  enc_facts dat L S D R s (data_shards dat L S buf D).
Proof.
  intros HL HS Hbuf HLb HSb (HR & Hs & _) Hrows.
  assert (Hml : 0 <= ml) by nia. assert (Hms : 0 <= ms) by nia.
  assert (Hsh : forall i, 0 <= i < 10 -> exists l1 l2,
     znth (data_shards dat L S buf D) i [] = l1 ++ l2 /\ zlen l1 = R * L /\ zlen l2 = s * S /\
     (forall k r, 0 <= k < R -> 0 <= r < L ->
        znth l1 (k * L + r) 0%N = datz dat D (0 + k * (L * 10) + L * i + r)) /\
     (forall k r, 0 <= k < s -> 0 <= r < S ->
        znth l2 (k * S + r) 0%N = datz dat D (R * (L * 10) + k * (S * 10) + S * i + r))).
  { intros i Hi. rewrite znth_data_shards by lia. unfold data_shard. rewrite Hrows, data_shard_rows; auto.
    - rewrite map_app, concat_app.
      destruct (region_shard dat D i (L * 10) L 0 R 0%N ltac:(lia) HR) as [H1 H1n].
      destruct (region_shard dat D i (S * 10) S (R * (L * 10)) s 0%N ltac:(lia) Hs) as [H2 H2n].
      do 2 eexists. split; [reflexivity|]. auto.
    - intros r Hin. apply in_app_or in Hin. destruct Hin as [Hin|Hin]; apply in_map_iff in Hin;
        destruct Hin as [k [Hk _]]; subst r; cbn [snd]; eauto. }
  split; intros i Hi; destruct (Hsh i Hi) as (l1 & l2 & -> & H1 & H2 & H1n & H2n); rewrite ?zlen_app.
  - lia.
  - split; [nia|]. intros k r Hk Hr.
    rewrite Z.add_0_l, znth_app_l, H1n by nia. f_equal. lia.
  - split; [lia|]. intros k r Hk Hr.
    rewrite znth_app_r, H1 by nia. replace (R * L + k * S + r - R * L) with (k * S + r) by lia.
    rewrite H2n by lia. f_equal. lia.
Qed.
