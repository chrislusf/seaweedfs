(* C28: chunking of bodies, the upload directory as a function of the
   history of part uploads, and completeMultipartUpload = concatenation of the parts
   in listing order. *)
From Coq Require Import List NArith ZArith Bool Arith Lia ZifyBool.
From SW Require Import proof.ListFacts model.S3Multipart proof.S3MultipartNames.
Import ListNotations.
Local Open Scope N_scope.

Definition nlen {A} (l : list A) : N := N.of_nat (length l).

(* takeN / dropN are firstn / skipn: their laws are the library's *)
Lemma takeN_firstn : forall {A} (l : list A) n, takeN n l = firstn (N.to_nat n) l.
Proof.
  induction l as [|x l IH]; intros n; simpl; [rewrite firstn_nil; reflexivity|].
  destruct (N.eqb_spec n 0) as [->|E]; [reflexivity|].
  rewrite IH. replace (N.to_nat n) with (S (N.to_nat (n - 1))) by lia. reflexivity.
Qed.

Lemma dropN_skipn : forall {A} (l : list A) n, dropN n l = skipn (N.to_nat n) l.
Proof.
  induction l as [|x l IH]; intros n; simpl; [rewrite skipn_nil; reflexivity|].
  destruct (N.eqb_spec n 0) as [->|E]; [reflexivity|].
  rewrite IH. replace (N.to_nat n) with (S (N.to_nat (n - 1))) by lia. reflexivity.
Qed.

Lemma takeN_dropN : forall {A} (l : list A) n, takeN n l ++ dropN n l = l.
Proof. intros. rewrite takeN_firstn, dropN_skipn. apply firstn_skipn. Qed.

Lemma takeN_all : forall {A} (l : list A) n, nlen l <= n -> takeN n l = l.
Proof. unfold nlen. intros. rewrite takeN_firstn. apply firstn_all2. lia. Qed.

Lemma dropN_all : forall {A} (l : list A) n, nlen l <= n -> dropN n l = [].
Proof. unfold nlen. intros. rewrite dropN_skipn. apply skipn_all2. lia. Qed.

Lemma takeN_0 : forall {A} (l : list A), takeN 0 l = [].
Proof. destruct l; reflexivity. Qed.
Lemma dropN_0 : forall {A} (l : list A), dropN 0 l = l.
Proof. destruct l; reflexivity. Qed.

Lemma takeN_nlen : forall {A} (l : list A) n, nlen (takeN n l) = N.min n (nlen l).
Proof. unfold nlen. intros. rewrite takeN_firstn, firstn_length. lia. Qed.

Lemma dropN_nlen : forall {A} (l : list A) n, nlen (dropN n l) = nlen l - n.
Proof. unfold nlen. intros. rewrite dropN_skipn, skipn_length. lia. Qed.

Lemma blen_app : forall a b, blen (a ++ b) = blen a + blen b.
Proof. intros. unfold blen. rewrite app_length. lia. Qed.

Lemma blen_nil_inv : forall b, blen b = 0 -> b = [].
Proof. unfold blen. destruct b; simpl; intros; auto. lia. Qed.

Lemma dropN_dropN : forall {A} (l : list A) a b, dropN a (dropN b l) = dropN (a + b) l.
Proof.
  intros A l a b. rewrite !dropN_skipn, N2Nat.inj_add, Nat.add_comm. symmetry. apply skipn_add.
Qed.

Lemma takeN_takeN : forall {A} (l : list A) a b, a <= b -> takeN a (takeN b l) = takeN a l.
Proof. intros. rewrite !takeN_firstn, firstn_firstn. f_equal. lia. Qed.

Lemma dropN_takeN : forall {A} (l : list A) a b, dropN a (takeN b l) = takeN (b - a) (dropN a l).
Proof. intros. rewrite !takeN_firstn, !dropN_skipn, skipn_firstn_comm. f_equal. lia. Qed.

Lemma slice_of_prefix : forall d size off len, off + len <= size ->
  slice (takeN size d) off len = slice d off len.
Proof.
  intros d size off len H. unfold slice. rewrite dropN_takeN. apply takeN_takeN. lia.
Qed.

Definition chunk_bytes (cs : list chunk) : bytes := concat (map k_data cs).

Fixpoint seq_from (off : N) (cs : list chunk) : Prop :=
  match cs with
  | [] => True
  | c :: r => k_off c = off /\ seq_from (off + blen (k_data c)) r
  end.

Lemma chunk_bytes_app : forall a b, chunk_bytes (a ++ b) = chunk_bytes a ++ chunk_bytes b.
Proof. intros. unfold chunk_bytes. rewrite map_app, concat_app. reflexivity. Qed.

Lemma seq_from_app : forall a b off,
  seq_from off (a ++ b) <-> seq_from off a /\ seq_from (off + blen (chunk_bytes a)) b.
Proof.
  induction a as [|c a IH]; intros b off; simpl.
  - unfold chunk_bytes. simpl. change (blen []) with 0. rewrite N.add_0_r. tauto.
  - rewrite IH. unfold chunk_bytes. simpl. rewrite blen_app. rewrite N.add_assoc. tauto.
Qed.

Lemma layout_seq : forall cs off, seq_from off cs -> layout off cs = chunk_bytes cs.
Proof.
  induction cs as [|[o d] r IH]; intros off H; [reflexivity|].
  cbn [seq_from k_off k_data] in H. destruct H as [H1 H2]. subst o.
  cbn [layout k_off k_data]. rewrite N.sub_diag. change (N.to_nat 0) with 0%nat. cbn [repeat app].
  unfold chunk_bytes. cbn [map concat k_data]. f_equal. apply IH. exact H2.
Qed.

Lemma chunks_size_seq_gen : forall cs off, seq_from off cs ->
  fold_left (fun acc c => N.max acc (k_off c + blen (k_data c))) cs off = off + blen (chunk_bytes cs).
Proof.
  induction cs as [|[o d] r IH]; intros off H.
  - unfold chunk_bytes. cbn [fold_left map concat]. change (blen []) with 0. lia.
  - cbn [seq_from k_off k_data] in H. destruct H as [H1 H2]. subst o.
    cbn [fold_left k_off k_data]. rewrite N.max_r by lia. rewrite IH by exact H2.
    unfold chunk_bytes. cbn [map concat k_data]. rewrite blen_app. lia.
Qed.

Lemma chunks_size_seq : forall cs, seq_from 0 cs -> chunks_size cs = blen (chunk_bytes cs).
Proof. intros cs H. unfold chunks_size. rewrite chunks_size_seq_gen by exact H. lia. Qed.

Lemma read_file_seq : forall cs off len, seq_from 0 cs ->
  read_file {| f_inline := []; f_chunks := cs |} off len = slice (chunk_bytes cs) off len.
Proof.
  intros cs off len H. unfold read_file. cbn [f_inline f_chunks]. rewrite layout_seq by exact H.
  change (blen []) with 0. destruct (N.leb_spec (off + len) 0) as [E|_]; [|reflexivity].
  assert (len = 0) by lia. subst len. unfold slice. rewrite !takeN_0. reflexivity.
Qed.

Lemma file_size_seq : forall cs, seq_from 0 cs ->
  file_size {| f_inline := []; f_chunks := cs |} = blen (chunk_bytes cs).
Proof. intros cs H. unfold file_size. cbn [f_inline f_chunks]. rewrite chunks_size_seq by exact H. apply N.max_r, N.le_0_l. Qed.

Lemma file_bytes_seq : forall cs, seq_from 0 cs ->
  file_bytes {| f_inline := []; f_chunks := cs |} = chunk_bytes cs.
Proof.
  intros cs H. unfold file_bytes. rewrite read_file_seq, file_size_seq by exact H.
  unfold slice. rewrite dropN_0. apply takeN_all, N.le_refl.
Qed.

Lemma file_bytes_inline : forall b, file_bytes {| f_inline := b; f_chunks := [] |} = b.
Proof.
  intros b. unfold file_bytes, file_size, read_file, chunks_size. cbn [f_inline f_chunks fold_left].
  rewrite N.max_0_r, N.add_0_l, N.leb_refl. unfold slice. rewrite dropN_0. apply takeN_all, N.le_refl.
Qed.

Lemma split_chunks_spec : forall fuel cs off b, 0 < cs -> (length b <= fuel)%nat ->
  seq_from off (split_chunks fuel cs off b) /\ chunk_bytes (split_chunks fuel cs off b) = b.
Proof.
  induction fuel as [|fuel IH]; intros cs off b Hcs Hf.
  - destruct b; simpl in *; [split; auto|lia].
  - destruct b as [|x b]; [simpl; split; auto|].
    cbn [split_chunks].
    assert (Hd : (length (dropN cs (x :: b)) <= fuel)%nat).
    { rewrite dropN_skipn, skipn_length. cbn [length] in *. lia. }
    destruct (IH cs (off + blen (takeN cs (x :: b))) (dropN cs (x :: b)) Hcs Hd) as [I1 I2].
    split.
    + cbn [seq_from k_off k_data]. split; auto.
    + unfold chunk_bytes in *. cbn [map concat k_data]. rewrite I2. apply takeN_dropN.
Qed.

Lemma store_body_inline : forall c b,
  is_inline (store_body c b) = negb (blen b =? 0) && (blen b <? c_chunk c) && (blen b <? c_inline c).
Proof.
  intros c b. unfold store_body, is_inline.
  destruct (blen b =? 0) eqn:E0; simpl; [reflexivity|].
  destruct ((blen b <? c_chunk c) && (blen b <? c_inline c)); simpl; [rewrite E0|]; reflexivity.
Qed.

Lemma store_body_small : forall c b, is_inline (store_body c b) = true ->
  store_body c b = {| f_inline := b; f_chunks := [] |}.
Proof.
  intros c b Hi. rewrite store_body_inline in Hi. unfold store_body.
  destruct (blen b =? 0); [discriminate|]. cbn [negb andb] in Hi. rewrite Hi. reflexivity.
Qed.

Lemma store_body_chunks : forall c b, 0 < c_chunk c -> is_inline (store_body c b) = false ->
  f_inline (store_body c b) = [] /\ seq_from 0 (f_chunks (store_body c b)) /\
  chunk_bytes (f_chunks (store_body c b)) = b.
Proof.
  intros c b Hc Hi. rewrite store_body_inline in Hi. unfold store_body.
  destruct (blen b =? 0) eqn:E0.
  - apply N.eqb_eq in E0. rewrite (blen_nil_inv _ E0). simpl. auto.
  - simpl in Hi. rewrite Hi. simpl.
    destruct (split_chunks_spec (length b) (c_chunk c) 0 b Hc (le_n _)) as [S1 S2]. auto.
Qed.

Lemma store_body_bytes : forall c b, 0 < c_chunk c -> file_bytes (store_body c b) = b.
Proof.
  intros c b Hc. destruct (is_inline (store_body c b)) eqn:Hi.
  - rewrite (store_body_small c b Hi). apply file_bytes_inline.
  - destruct (store_body_chunks c b Hc Hi) as [S0 [S1 S2]].
    destruct (store_body c b) as [inl cs]. simpl in *. subst inl.
    rewrite file_bytes_seq by exact S1. exact S2.
Qed.

Lemma shift_chunks_spec : forall cs off,
  seq_from off (fst (shift_chunks off cs)) /\
  chunk_bytes (fst (shift_chunks off cs)) = chunk_bytes cs /\
  snd (shift_chunks off cs) = off + blen (chunk_bytes cs).
Proof.
  induction cs as [|c r IH]; intros off; simpl.
  - unfold chunk_bytes. simpl. change (blen []) with 0. repeat split; lia.
  - destruct (IH (off + blen (k_data c))) as [I1 [I2 I3]].
    destruct (shift_chunks (off + blen (k_data c)) r) as [r' o'] eqn:E. simpl in *.
    split; [split; auto|]. unfold chunk_bytes in *. simpl. rewrite I2. split; auto.
    rewrite blen_app. lia.
Qed.

Definition entry_bytes (e : list N * file) : bytes := chunk_bytes (f_chunks (snd e)).

Lemma assemble_spec : forall es off, (forall e, In e es -> has_part_suffix (fst e) = true) ->
  seq_from off (assemble off es) /\ chunk_bytes (assemble off es) = concat (map entry_bytes es).
Proof.
  induction es as [|[nm f] es IH]; intros off H.
  - cbn [assemble map concat]. split; [exact I|reflexivity].
  - cbn [assemble].
    pose proof (H (nm, f) (or_introl eq_refl)) as Hs. cbn [fst] in Hs. rewrite Hs.
    destruct (shift_chunks_spec (f_chunks f) off) as [S1 [S2 S3]].
    destruct (shift_chunks off (f_chunks f)) as [cs o'] eqn:E. cbn [fst snd] in S1, S2, S3.
    destruct (IH o' (fun e He => H e (or_intror He))) as [I1 I2].
    split.
    + apply seq_from_app. split; auto. rewrite S2, <- S3. exact I1.
    + rewrite chunk_bytes_app, S2, I2. reflexivity.
Qed.

(* Lists in which every element is [lt]-below everything after it.  Such a list is determined by
   its elements: the upload directory (sorted by name), the ascending part list and the output of
   the numeric sort are compared through this. *)
Section Strict.
Context {E : Type} (lt : E -> E -> Prop).

Fixpoint strict_by (l : list E) : Prop :=
  match l with
  | [] => True
  | a :: r => (forall x, In x r -> lt a x) /\ strict_by r
  end.

Lemma strict_by_unique : (forall a b, lt a b -> lt b a -> False) ->
  forall l1 l2, strict_by l1 -> strict_by l2 -> (forall e, In e l1 <-> In e l2) -> l1 = l2.
Proof.
  intros Hasym. induction l1 as [|a r1 IH]; intros l2 H1 H2 Hm.
  - destruct l2 as [|b r2]; auto. exfalso. apply (Hm b). left. reflexivity.
  - destruct l2 as [|b r2]. { exfalso. apply (Hm a). left. reflexivity. }
    destruct H1 as [A1 A2]. destruct H2 as [B1 B2].
    assert (Eab : a = b).
    { destruct (proj1 (Hm a) (or_introl eq_refl)) as [E0|Ha]; auto.
      destruct (proj2 (Hm b) (or_introl eq_refl)) as [E0|Hb]; auto.
      destruct (Hasym a b (A1 b Hb) (B1 a Ha)). }
    subst b. f_equal. apply IH; auto.
    intros e. split; intros He.
    + destruct (proj1 (Hm e) (or_intror He)) as [E0|H]; auto. subst e. destruct (Hasym a a (A1 a He) (A1 a He)).
    + destruct (proj2 (Hm e) (or_intror He)) as [E0|H]; auto. subst e. destruct (Hasym a a (B1 a He) (B1 a He)).
Qed.
End Strict.

Lemma strict_by_map : forall {A B} (lt : A -> A -> Prop) (lt' : B -> B -> Prop) (f : A -> B) l,
  (forall a b, In a l -> In b l -> lt a b -> lt' (f a) (f b)) -> strict_by lt l -> strict_by lt' (map f l).
Proof.
  intros A B lt lt' f. induction l as [|a l IH]; intros Hf Hs; [exact I|]. destruct Hs as [H1 H2]. split.
  - intros y Hy. apply in_map_iff in Hy. destruct Hy as [x [<- Hx]].
    apply Hf; [left; reflexivity|right; exact Hx|apply H1, Hx].
  - apply IH; [|exact H2]. intros x y Hx Hy. apply Hf; right; assumption.
Qed.

(* Insertion into an association list kept strictly sorted by key, replacing the entry of an equal key:
   the shape of both dir_put (names in byte order) and parts_put (part numbers). *)
Section SortedPut.
Context {K V : Type} (cmp : K -> K -> comparison).
Hypothesis cmp_eq : forall a b, cmp a b = Eq -> a = b.
Hypothesis cmp_refl : forall a, cmp a a = Eq.
Hypothesis cmp_antisym : forall a b, cmp b a = CompOpp (cmp a b).
Hypothesis cmp_trans : forall a b c, cmp a b = Lt -> cmp b c = Lt -> cmp a c = Lt.

Fixpoint put (k : K) (v : V) (l : list (K * V)) : list (K * V) :=
  match l with
  | [] => [(k, v)]
  | (m, g) :: r => match cmp k m with
                   | Eq => (k, v) :: r
                   | Lt => (k, v) :: l
                   | Gt => (m, g) :: put k v r
                   end
  end.

Definition strict : list (K * V) -> Prop := strict_by (fun a b => cmp (fst a) (fst b) = Lt).

Lemma put_keys : forall k v l x, In x (map fst (put k v l)) <-> x = k \/ In x (map fst l).
Proof.
  intros k v. induction l as [|[m g] l IH]; intros x; simpl; [intuition|].
  destruct (cmp k m) eqn:E; simpl.
  - apply cmp_eq in E. subst. intuition congruence.
  - intuition congruence.
  - rewrite IH. intuition congruence.
Qed.

Lemma put_in : forall k v l e, In e (put k v l) -> e = (k, v) \/ In e l.
Proof.
  intros k v. induction l as [|[m g] l IH]; intros e H; simpl in *; [intuition|].
  destruct (cmp k m); simpl in H; [intuition..|]. destruct H as [H|H]; auto. destruct (IH e H); auto.
Qed.

Lemma put_strict : forall k v l, strict l -> strict (put k v l).
Proof.
  intros k v. induction l as [|[m g] l IH]; intros H; simpl; [split; [intros x []|exact I]|].
  destruct H as [H1 H2]. destruct (cmp k m) eqn:E.
  - apply cmp_eq in E. subst. split; auto.
  - split; [|split; auto]. intros x [<-|Hx]; [exact E|]. apply (cmp_trans _ m); [exact E|apply (H1 x Hx)].
  - split; [|apply IH; exact H2].
    intros x Hx. destruct (put_in _ _ _ _ Hx) as [->|Hx']; [|apply (H1 x Hx')].
    simpl. rewrite cmp_antisym, E. reflexivity.
Qed.

Lemma put_mem : forall k v l e, strict l ->
  (In e (put k v l) <-> e = (k, v) \/ (In e l /\ fst e <> k)).
Proof.
  assert (Neq : forall a b, cmp a b = Lt -> b <> a).
  { intros a b H E. subst. rewrite cmp_refl in H. discriminate. }
  intros k v. induction l as [|[m g] l IH]; intros e H; simpl; [intuition|].
  destruct H as [H1 H2]. destruct (cmp k m) eqn:E.
  - apply cmp_eq in E. subst m. simpl. split.
    + intros [<-|He]; auto.
    + intros [->|[[<-|He] Hn]]; auto. simpl in Hn. congruence.
  - simpl. split.
    + intros [<-|[<-|He]]; auto.
      right. split; auto. apply Neq, (cmp_trans _ m); [exact E|apply (H1 e He)].
    + intros [->|[He _]]; auto.
  - simpl. rewrite (IH e H2). split.
    + intros [<-|[->|[He Hn]]]; auto. right. split; auto. simpl. intros Em. subst m.
      rewrite cmp_refl in E. discriminate.
    + intros [->|[[<-|He] Hn]]; auto.
Qed.
End SortedPut.

Lemma dir_put_put : forall nm f d, dir_put nm f d = put lex_cmp nm f d.
Proof. intros nm f. induction d as [|[m g] d IH]; simpl; [|rewrite IH]; reflexivity. Qed.

Lemma parts_put_put : forall n b l, parts_put n b l = put N.compare n b l.
Proof.
  intros n b. induction l as [|[m x] l IH]; simpl; [reflexivity|]. rewrite IH.
  destruct (N.compare_spec n m) as [E|E|E].
  - subst. rewrite N.eqb_refl. reflexivity.
  - replace (n =? m) with false by lia. replace (n <? m) with true by lia. reflexivity.
  - replace (n =? m) with false by lia. replace (n <? m) with false by lia. reflexivity.
Qed.

(* the upload directory as a function of the history of part uploads *)
Definition enc (c : cfg) (p : N * bytes) : list N * file := (part_name (fst p), store_body c (snd p)).
Definition dir_step (c : cfg) (d : updir) (p : N * bytes) : updir :=
  dir_put (part_name (fst p)) (store_body c (snd p)) d.
Definition parts_step (l : list (N * bytes)) (p : N * bytes) : list (N * bytes) :=
  parts_put (fst p) (snd p) l.
(* h: the accepted part uploads (part number, body) in time order *)
Definition dir_of (c : cfg) (h : list (N * bytes)) : updir := fold_left (dir_step c) h [].
Definition parts_of (h : list (N * bytes)) : list (N * bytes) := fold_left parts_step h [].

Definition agree (n m : N) : Prop := lex_cmp (part_name n) (part_name m) = N.compare n m.

Lemma parts_put_numbers : forall n b l m, In m (map fst (parts_put n b l)) -> m = n \/ In m (map fst l).
Proof. intros n b l m. rewrite parts_put_put. apply (put_keys N.compare N.compare_eq). Qed.

(* what parts_of is: ascending numbers, the last body uploaded for each number *)
Fixpoint ascending (l : list (N * bytes)) : Prop :=
  match l with
  | [] => True
  | a :: r => match r with [] => True | b :: _ => fst a < fst b end /\ ascending r
  end.

Lemma ascending_head_lt : forall a r, ascending (a :: r) -> forall x, In x r -> fst a < fst x.
Proof.
  intros a r. revert a. induction r as [|b r IH]; intros a H x Hx; [contradiction|].
  cbn [ascending] in H. destruct H as [H1 H2]. destruct Hx as [<-|Hx]; auto.
  specialize (IH b H2 x Hx). lia.
Qed.

Lemma ascending_strict : forall l, ascending l <-> strict N.compare l.
Proof.
  induction l as [|a r IH]; [tauto|]. split.
  - intros H. split; [exact (ascending_head_lt a r H)|]. apply IH, H.
  - intros [H1 H2]. split; [|apply IH, H2]. destruct r as [|b r']; [exact I|]. apply H1. left. reflexivity.
Qed.

Lemma parts_put_ascending : forall n b l, ascending l -> ascending (parts_put n b l).
Proof.
  intros n b l H. rewrite parts_put_put.
  apply ascending_strict, (put_strict N.compare N.compare_eq N.compare_antisym N.lt_trans), ascending_strict, H.
Qed.

Theorem parts_of_ascending : forall h, ascending (parts_of h).
Proof.
  intros h. unfold parts_of.
  assert (G : forall h l, ascending l -> ascending (fold_left parts_step h l)).
  { induction h0 as [|p h0 IH]; intros l Hl; simpl; auto. apply IH. apply parts_put_ascending. exact Hl. }
  apply G. simpl. exact I.
Qed.

Fixpoint pfind (n : N) (l : list (N * bytes)) : option bytes :=
  match l with
  | [] => None
  | (m, x) :: r => if m =? n then Some x else pfind n r
  end.

Lemma pfind_put_same : forall n b l, ascending l -> pfind n (parts_put n b l) = Some b.
Proof.
  intros n b. induction l as [|[k x] l IH]; intros H; simpl.
  - rewrite N.eqb_refl. reflexivity.
  - destruct (n =? k) eqn:E1; simpl.
    + rewrite N.eqb_refl. reflexivity.
    + destruct (n <? k); simpl.
      * rewrite N.eqb_refl. reflexivity.
      * rewrite N.eqb_sym, E1. apply IH. destruct H; auto.
Qed.

Lemma pfind_put_other : forall n b l m, m <> n -> pfind m (parts_put n b l) = pfind m l.
Proof.
  intros n b. induction l as [|[k x] l IH]; intros m H; simpl.
  - destruct (n =? m) eqn:E; auto. apply N.eqb_eq in E. congruence.
  - destruct (n =? k) eqn:E1; simpl.
    + apply N.eqb_eq in E1. subst k.
      destruct (n =? m) eqn:E; auto. apply N.eqb_eq in E. congruence.
    + destruct (n <? k); simpl.
      * destruct (n =? m) eqn:E; auto. apply N.eqb_eq in E. congruence.
      * rewrite IH; auto.
Qed.

(* the body of the LAST upload of part n in the history *)
Definition last_body (n : N) (h : list (N * bytes)) : option bytes :=
  fold_left (fun acc p => if fst p =? n then Some (snd p) else acc) h None.

Theorem parts_of_last : forall h n, pfind n (parts_of h) = last_body n h.
Proof.
  intros h n. unfold parts_of, last_body.
  assert (G : forall h l acc, ascending l -> pfind n l = acc ->
            pfind n (fold_left parts_step h l) =
            fold_left (fun acc p => if fst p =? n then Some (snd p) else acc) h acc).
  { induction h0 as [|[k x] h0 IH]; intros l acc Hl Hacc; simpl; auto.
    apply IH. { apply parts_put_ascending. exact Hl. }
    unfold parts_step. simpl. destruct (k =? n) eqn:E.
    - apply N.eqb_eq in E. subst. apply pfind_put_same. exact Hl.
    - apply N.eqb_neq in E. rewrite pfind_put_other; auto. }
  apply G; simpl; auto.
Qed.

Lemma dir_put_names : forall nm f d x, In x (map fst (dir_put nm f d)) <-> x = nm \/ In x (map fst d).
Proof. intros nm f d x. rewrite dir_put_put. apply (put_keys lex_cmp lex_cmp_eq). Qed.

Lemma dir_of_names : forall c h x, In x (map fst (dir_of c h)) <-> In x (map (fun p => part_name (fst p)) h).
Proof.
  intros c h x. unfold dir_of.
  assert (G : forall h d, In x (map fst (fold_left (dir_step c) h d)) <->
                          In x (map (fun p => part_name (fst p)) h) \/ In x (map fst d)).
  { induction h0 as [|p h0 IH]; intros d; simpl. { tauto. }
    rewrite IH. unfold dir_step. rewrite dir_put_names. split; intros H; intuition. }
  rewrite G. simpl. tauto.
Qed.

Lemma dir_of_suffix : forall c h e, In e (dir_of c h) -> has_part_suffix (fst e) = true.
Proof.
  intros c h e He. apply (in_map fst), dir_of_names, in_map_iff in He. destruct He as [p [<- _]].
  apply part_name_suffix.
Qed.

Lemma existsb_in_ext : forall {A} (f : A -> bool) l1 l2, (forall x, In x l1 <-> In x l2) ->
  existsb f l1 = existsb f l2.
Proof.
  intros A f l1 l2 H. apply Bool.eq_iff_eq_true. rewrite !existsb_exists.
  split; intros [x [Hx Hf]]; exists x; (split; [apply H, Hx|exact Hf]).
Qed.

(* the trigger computed by the model (from the names in the directory) is the trigger on
   the uploaded part numbers *)
Lemma trig_order_dir : forall c h, (forall n, In n (map fst h) -> n <= 10000) ->
  trig_order (map (fun e => part_number_of (fst e)) (dir_of c h)) = trig_order (map fst h).
Proof.
  intros c h Hr. unfold trig_order.
  assert (M : forall x, In x (map (fun e => part_number_of (fst e)) (dir_of c h)) <-> In x (map fst h)).
  { intros x. rewrite <- (map_map fst part_number_of). rewrite in_map_iff. split.
    - intros [nm [Hx Hnm]]. apply dir_of_names in Hnm. apply in_map_iff in Hnm.
      destruct Hnm as [p [Hp Hin]]. subst.
      assert (Hn : In (fst p) (map fst h)) by (apply in_map; exact Hin).
      rewrite (part_number_of_name (fst p) (Hr _ Hn)). exact Hn.
    - intros Hx. apply in_map_iff in Hx. destruct Hx as [p [Hp Hin]]. subst.
      exists (part_name (fst p)). split.
      + apply part_number_of_name, Hr, in_map, Hin.
      + apply dir_of_names. apply in_map_iff. exists p. auto. }
  rewrite (existsb_in_ext _ _ _ M). rewrite (existsb_in_ext (in_range 1001 9999) _ _ M). reflexivity.
Qed.

Lemma trig_inline_enc : forall c l, trig_inline (map (enc c) l) = false ->
  forall p, In p l -> is_inline (store_body c (snd p)) = false.
Proof.
  intros c l H p Hp. apply (existsb_false_in _ _ (enc c p) H), in_map, Hp.
Qed.

(* the completed object is the concatenation of the listed entries' chunk bytes, laid
   out with running offsets: whatever the configuration and the part numbers *)
Theorem complete_is_listing_concat : forall d,
  (forall e, In e (sort_by_number (listed d)) -> has_part_suffix (fst e) = true) ->
  seq_from 0 (f_chunks (completed_file d)) /\
  file_bytes (completed_file d) = concat (map entry_bytes (sort_by_number (listed d))).
Proof.
  intros d H. unfold completed_file. simpl f_chunks.
  destruct (assemble_spec (sort_by_number (listed d)) 0 H) as [A1 A2]. split; auto.
  rewrite file_bytes_seq by exact A1. exact A2.
Qed.

Definition knum (e : list N * file) : N := part_number_of (fst e).

Lemma insert_by_number_in : forall e l x, In x (insert_by_number e l) <-> x = e \/ In x l.
Proof.
  intros e. induction l as [|y l IH]; intros x; simpl.
  - intuition.
  - destruct (part_number_of (fst y) <? part_number_of (fst e)); simpl; [rewrite IH|]; intuition.
Qed.

Lemma sort_by_number_in : forall l x, In x (sort_by_number l) <-> In x l.
Proof.
  induction l as [|a l IH]; intros x; simpl; [tauto|].
  rewrite insert_by_number_in, IH. intuition.
Qed.

Lemma insert_by_number_length : forall e l, length (insert_by_number e l) = S (length l).
Proof.
  intros e. induction l as [|y l IH]; simpl; auto.
  destruct (part_number_of (fst y) <? part_number_of (fst e)); simpl; auto.
Qed.

Lemma sort_by_number_length : forall l, length (sort_by_number l) = length l.
Proof. induction l as [|a l IH]; simpl; auto. rewrite insert_by_number_length, IH. reflexivity. Qed.

Definition ssorted : updir -> Prop := strict_by (fun a b => knum a < knum b).

Lemma insert_by_number_ssorted : forall e l, ssorted l -> (forall x, In x l -> knum x <> knum e) ->
  ssorted (insert_by_number e l).
Proof.
  intros e. induction l as [|y l IH]; intros Hs Hd; simpl.
  - split; [intros x []|exact I].
  - destruct Hs as [H1 H2]. fold (knum y). fold (knum e).
    destruct (knum y <? knum e) eqn:E.
    + apply N.ltb_lt in E. split.
      * intros x Hx. apply insert_by_number_in in Hx. destruct Hx as [->|Hx]; auto.
      * apply IH; auto. intros x Hx. apply Hd. right. exact Hx.
    + apply N.ltb_ge in E. pose proof (Hd y (or_introl eq_refl)) as Hy.
      split; [|split; auto].
      intros x [<-|Hx]; [lia|]. specialize (H1 x Hx). lia.
Qed.

Lemma sort_by_number_ssorted : forall l, NoDup (map knum l) -> ssorted (sort_by_number l).
Proof.
  induction l as [|a l IH]; intros Hn; simpl; [exact I|].
  inversion Hn as [|k ks Hnot Hnd]; subst.
  apply insert_by_number_ssorted; auto.
  intros x Hx Hk. rewrite sort_by_number_in in Hx. apply Hnot. rewrite <- Hk. apply in_map. exact Hx.
Qed.

Definition dsorted (d : updir) : Prop := strict lex_cmp d.

Lemma dir_of_dsorted : forall c h, dsorted (dir_of c h).
Proof.
  intros c h. unfold dir_of.
  assert (G : forall h d, dsorted d -> dsorted (fold_left (dir_step c) h d)).
  { induction h0 as [|p h0 IH]; intros d Hd; simpl; auto. apply IH. unfold dir_step. rewrite dir_put_put.
    apply (put_strict lex_cmp lex_cmp_eq lex_cmp_antisym lex_lt_trans), Hd. }
  apply G. exact I.
Qed.

Lemma dir_put_mem : forall nm f d e, dsorted d ->
  (In e (dir_put nm f d) <-> e = (nm, f) \/ (In e d /\ fst e <> nm)).
Proof. intros nm f d e. rewrite dir_put_put. apply (put_mem lex_cmp lex_cmp_eq lex_cmp_refl lex_lt_trans). Qed.

Lemma parts_put_mem : forall n b l q, ascending l ->
  (In q (parts_put n b l) <-> q = (n, b) \/ (In q l /\ fst q <> n)).
Proof.
  intros n b l q H. rewrite parts_put_put.
  apply (put_mem N.compare N.compare_eq N.compare_refl N.lt_trans), ascending_strict, H.
Qed.

Lemma dir_of_snoc : forall c h p, dir_of c (h ++ [p]) = dir_step c (dir_of c h) p.
Proof. intros. unfold dir_of. rewrite fold_left_app. reflexivity. Qed.

Lemma parts_of_snoc : forall h p, parts_of (h ++ [p]) = parts_step (parts_of h) p.
Proof. intros. unfold parts_of. rewrite fold_left_app. reflexivity. Qed.

Lemma parts_of_numbers : forall h x, In x (map fst (parts_of h)) -> In x (map fst h).
Proof.
  intros h x H. unfold parts_of in H.
  assert (G : forall h l, In x (map fst (fold_left parts_step h l)) -> In x (map fst h) \/ In x (map fst l)).
  { induction h0 as [|q h0 IH]; intros l Hx; simpl in *; auto.
    destruct (IH _ Hx) as [I|I]; auto. unfold parts_step in I.
    destruct (parts_put_numbers _ _ _ _ I) as [->|I']; auto. }
  destruct (G h [] H) as [I|[]]. exact I.
Qed.

Lemma part_name_inj : forall n m, n <= 10000 -> m <= 10000 -> part_name n = part_name m -> n = m.
Proof.
  intros n m Hn Hm E. rewrite <- (part_number_of_name n Hn), <- (part_number_of_name m Hm), E. reflexivity.
Qed.

Lemma dir_of_mem : forall c h, (forall n, In n (map fst h) -> n <= 10000) ->
  forall e, In e (dir_of c h) <-> In e (map (enc c) (parts_of h)).
Proof.
  intros c. induction h as [|p h IH] using rev_ind; intros Hr e.
  - simpl. tauto.
  - assert (Hr' : forall n, In n (map fst h) -> n <= 10000).
    { intros n Hn. apply Hr. rewrite map_app. apply in_or_app. auto. }
    assert (Hp : fst p <= 10000).
    { apply Hr. rewrite map_app. apply in_or_app. right. left. reflexivity. }
    rewrite dir_of_snoc, parts_of_snoc. unfold dir_step, parts_step.
    rewrite (dir_put_mem _ _ _ e (dir_of_dsorted c h)). rewrite (IH Hr' e).
    rewrite !in_map_iff. split.
    + intros [->|[[q [Eq Hq]] Hn]].
      * exists (fst p, snd p). split; [reflexivity|]. apply parts_put_mem; [apply parts_of_ascending|]. auto.
      * exists q. split; auto. apply parts_put_mem; [apply parts_of_ascending|]. right. split; auto.
        intros En. apply Hn. rewrite <- Eq. unfold enc. simpl. rewrite En. reflexivity.
    + intros [q [Eq Hq]]. apply parts_put_mem in Hq; [|apply parts_of_ascending].
      destruct Hq as [->|[Hq Hn]].
      * left. rewrite <- Eq. reflexivity.
      * right. split; [exists q; auto|]. rewrite <- Eq. unfold enc. simpl. intros En. apply Hn.
        apply part_name_inj; auto. apply Hr'. apply parts_of_numbers. apply in_map. exact Hq.
Qed.

Lemma knum_enc : forall c q, fst q <= 10000 -> knum (enc c q) = fst q.
Proof. intros c q H. apply part_number_of_name, H. Qed.

Lemma parts_ssorted : forall c l, ascending l -> (forall q, In q l -> fst q <= 10000) -> ssorted (map (enc c) l).
Proof.
  intros c l Ha Hr. apply (strict_by_map (fun a b => N.compare (fst a) (fst b) = Lt)); [|apply ascending_strict, Ha].
  intros a b Ha' Hb' H. rewrite !knum_enc by (apply Hr; assumption). apply N.compare_lt_iff, H.
Qed.

(* names are distinct in a name-sorted directory, hence so are the part numbers *)
Lemma dsorted_keys_nodup : forall d, dsorted d ->
  (forall e, In e d -> exists n, n <= 10000 /\ fst e = part_name n) -> NoDup (map knum d).
Proof.
  induction d as [|a d IH]; intros Hs Hn; simpl; constructor.
  - destruct Hs as [H1 _]. intros Hin. apply in_map_iff in Hin. destruct Hin as [x [Ek Hx]].
    destruct (Hn a (or_introl eq_refl)) as [n [Hn1 Hn2]]. destruct (Hn x (or_intror Hx)) as [m [Hm1 Hm2]].
    unfold knum in Ek. rewrite Hn2, Hm2 in Ek.
    rewrite (part_number_of_name n Hn1), (part_number_of_name m Hm1) in Ek. subst m.
    specialize (H1 x Hx). rewrite Hn2, Hm2, lex_cmp_refl in H1. discriminate.
  - destruct Hs as [_ H2]. apply IH; auto. intros e He. apply Hn. right. exact He.
Qed.

(* after the numeric sort the entries are the parts in ascending part-number order,
   for every set of part numbers up to 10000 — including 10000 next to 1001..9999 *)
Theorem sorted_dir_is_parts : forall c h, (forall n, In n (map fst h) -> n <= 10000) ->
  sort_by_number (dir_of c h) = map (enc c) (parts_of h).
Proof.
  intros c h Hr. apply (strict_by_unique (fun a b => knum a < knum b)); [intros a b; apply N.lt_asymm| | |].
  - apply sort_by_number_ssorted. apply dsorted_keys_nodup; [apply dir_of_dsorted|].
    intros e He. assert (Hn : In (fst e) (map fst (dir_of c h))) by (apply in_map; exact He).
    apply dir_of_names in Hn. apply in_map_iff in Hn. destruct Hn as [p [Ep Hp]].
    exists (fst p). split; auto. apply Hr. apply in_map. exact Hp.
  - apply parts_ssorted; [apply parts_of_ascending|].
    intros q Hq. apply Hr. apply parts_of_numbers. apply in_map. exact Hq.
  - intros e. rewrite sort_by_number_in. apply dir_of_mem. exact Hr.
Qed.

(* when the names of all uploaded numbers are ordered like the numbers, the directory itself
   lists the parts in ascending part-number order *)
Theorem dir_of_parts : forall c h, (forall n, In n (map fst h) -> n <= 10000) ->
  (forall n m, In n (map fst h) -> In m (map fst h) -> agree n m) ->
  dir_of c h = map (enc c) (parts_of h).
Proof.
  intros c h Hr Ha. apply (strict_by_unique (fun a b => lex_cmp (fst a) (fst b) = Lt)).
  - intros a b H1 H2. rewrite lex_cmp_antisym, H1 in H2. discriminate.
  - apply dir_of_dsorted.
  - apply (strict_by_map (fun a b => N.compare (fst a) (fst b) = Lt)); [|apply ascending_strict, parts_of_ascending].
    intros p q Hp Hq H. cbn [enc fst]. rewrite <- H. apply Ha; apply parts_of_numbers, in_map; assumption.
  - apply dir_of_mem, Hr.
Qed.

Lemma ascending_length : forall l lo hi, ascending l ->
  (forall x, In x l -> lo <= fst x /\ fst x <= hi) -> N.of_nat (length l) <= hi + 1 - lo.
Proof.
  induction l as [|a r IH]; intros lo hi H Hb; simpl length.
  - lia.
  - destruct (Hb a (or_introl eq_refl)) as [B1 B2].
    assert (Hr : forall x, In x r -> fst a + 1 <= fst x /\ fst x <= hi).
    { intros x Hx. pose proof (ascending_head_lt a r H x Hx). destruct (Hb x (or_intror Hx)). lia. }
    assert (Ha : ascending r) by (cbn [ascending] in H; destruct H; auto).
    specialize (IH (fst a + 1) hi Ha Hr). rewrite Nat2N.inj_succ. lia.
Qed.

(* the explicit listing limit never cuts an upload with part numbers up to 10000 *)
Lemma listed_all : forall c h, (forall n, In n (map fst h) -> n <= 10000) -> listed (dir_of c h) = dir_of c h.
Proof.
  intros c h Hr. unfold listed. apply takeN_all. unfold nlen.
  rewrite <- (sort_by_number_length (dir_of c h)). rewrite (sorted_dir_is_parts c h Hr). rewrite map_length.
  assert (Hb : forall x, In x (parts_of h) -> 0 <= fst x /\ fst x <= 10000).
  { intros x Hx. split; [lia|]. apply Hr. apply parts_of_numbers. apply in_map. exact Hx. }
  pose proof (ascending_length (parts_of h) 0 10000 (parts_of_ascending h) Hb). unfold max_part_id. lia.
Qed.

Lemma complete_entries : forall c h, (forall n, In n (map fst h) -> n <= 10000) ->
  sort_by_number (listed (dir_of c h)) = map (enc c) (parts_of h).
Proof. intros c h Hr. rewrite (listed_all c h Hr). apply sorted_dir_is_parts. exact Hr. Qed.

Lemma complete_suffix : forall c h, (forall n, In n (map fst h) -> n <= 10000) ->
  forall e, In e (sort_by_number (listed (dir_of c h))) -> has_part_suffix (fst e) = true.
Proof.
  intros c h Hr e He. rewrite (complete_entries c h Hr) in He.
  apply in_map_iff in He. destruct He as [p [<- Hp]]. simpl.
  apply part_name_suffix.
Qed.

(* the completed object is the concatenation of the uploaded parts in
   ASCENDING PART-NUMBER order (the last upload of a number wins), for every history of part
   uploads with numbers up to 10000 — unless a part is stored inline (-saveToFilerLimit) *)
Theorem complete_concat : forall c h,
  0 < c_chunk c ->
  (forall n, In n (map fst h) -> n <= 10000) ->
  trig_inline (dir_of c h) = false ->
  file_bytes (completed_file (dir_of c h)) = concat (map snd (parts_of h)).
Proof.
  intros c h Hc Hr T.
  destruct (complete_is_listing_concat _ (complete_suffix c h Hr)) as [_ E]. rewrite E.
  rewrite (complete_entries c h Hr). rewrite map_map. f_equal.
  apply map_ext_in. intros p Hp. unfold entry_bytes, enc. simpl.
  assert (Hi : is_inline (store_body c (snd p)) = false).
  { apply (existsb_false_in _ _ (enc c p) T), (dir_of_mem c h Hr), in_map, Hp. }
  destruct (store_body_chunks c (snd p) Hc Hi) as [_ [_ S]]. exact S.
Qed.
