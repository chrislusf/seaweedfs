(* C05 proofs: CompactMap — the section list invariant, binarySearchCompactSection,
   and Set / Delete / Get against the abstract lookup. *)
From Coq Require Import List NArith ZArith Bool Lia Sorted Arith.
From Coq Require Import ZifyBool ZifyN ZifyNat.
From SW Require Import proof.ListFacts model.NeedleMap proof.NeedleMapSearch proof.NeedleMapSec.
Import ListNotations.
Local Open Scope N_scope.

Definition ordered (cm : cmap) : Prop :=
  forall i j a b, (i < j)%nat -> nth_error cm i = Some a -> nth_error cm j = Some b -> s_end a < s_start b.

Definition sec_keys (s : section) : Prop :=
  forall v, In v (s_values s ++ s_overflow s) -> sk v <= sec_lim /\ s_start s + sk v <= s_end s.

(* [sec_inv] plus what placing the section in a map needs: keys within [start, end], the end
   within 2^32-1 of the start and below 2^64 *)
Record sec_wf (batch : N) (s : section) : Prop := {
  sw_inv : sec_inv batch s;
  sw_keys : sec_keys s;
  sw_se : s_start s <= s_end s;
  sw_span : s_end s <= s_start s + sec_lim;
  sw_64 : s_end s < two64 }.

Record cm_inv (batch : N) (cm : cmap) : Prop := {
  ci_ord : ordered cm;
  ci_wf : forall i s, nth_error cm i = Some s -> sec_wf batch s }.

Lemma cm_inv_nil : forall batch, cm_inv batch [].
Proof. intros. constructor; [intros i j a b _ H; destruct i; discriminate | intros i s H; destruct i; discriminate]. Qed.

Lemma sec_at_some : forall (cm : cmap) z, (0 <= z < Z.of_nat (length cm))%Z ->
  nth_error cm (Z.to_nat z) = Some (sec_at cm z).
Proof. intros cm z H. unfold sec_at. apply nth_error_nth'. lia. Qed.

Lemma nth_error_set_nth : forall {A} (l : list A) x y i, (x < length l)%nat ->
  nth_error (set_nth x y l) i = if (i =? x)%nat then Some y else nth_error l i.
Proof.
  intros A l. induction l as [|a l IH]; intros x y i H; simpl in H; [lia|].
  unfold set_nth in *. destruct x; simpl.
  - destruct i; reflexivity.
  - destruct i; simpl; [reflexivity|]. apply IH. lia.
Qed.

Lemma nth_error_insert_at : forall {A} (l : list A) p y i, (p <= length l)%nat ->
  nth_error (insert_at p y l) i =
  if (i <? p)%nat then nth_error l i else if (i =? p)%nat then Some y else nth_error l (i - 1).
Proof.
  intros A l. induction l as [|a l IH]; intros p y i H; simpl in H.
  - assert (p = 0%nat) by lia. subst. unfold insert_at. simpl.
    destruct i; simpl; [reflexivity|]. destruct i; reflexivity.
  - unfold insert_at in *. destruct p; simpl.
    + destruct i; simpl; [reflexivity|]. rewrite Nat.sub_0_r. reflexivity.
    + destruct i; simpl; [reflexivity|].
      rewrite IH by lia.
      destruct (Nat.ltb_spec i p); destruct (Nat.ltb_spec (S i) (S p)); try lia; [reflexivity|].
      destruct (Nat.eqb_spec i p); destruct (Nat.eqb_spec (S i) (S p)); try lia; [reflexivity|].
      destruct i; [lia|]. simpl. rewrite Nat.sub_0_r. reflexivity.
Qed.

Lemma set_nth_insert_at : forall {A} (l : list A) p x y, (p <= length l)%nat ->
  set_nth p y (insert_at p x l) = insert_at p y l.
Proof.
  intros A l. induction l as [|a l IH]; intros p x y H; simpl in H.
  - assert (p = 0%nat) by lia. subst. reflexivity.
  - unfold set_nth, insert_at in *. destruct p; simpl; [reflexivity|]. f_equal. apply IH. lia.
Qed.

Lemma set_nth_length : forall {A} (l : list A) x y, (x < length l)%nat -> length (set_nth x y l) = length l.
Proof.
  intros A l. induction l as [|a l IH]; intros x y H; simpl in H; [lia|].
  unfold set_nth in *. destruct x; simpl; [reflexivity|]. f_equal. apply IH. lia.
Qed.

Lemma starts_lt : forall batch cm i j a b, cm_inv batch cm -> (i < j)%nat ->
  nth_error cm i = Some a -> nth_error cm j = Some b -> s_start a < s_start b.
Proof.
  intros batch cm i j a b [O W] Hij Ha Hb.
  pose proof (O i j a b Hij Ha Hb). pose proof (sw_se _ _ (W i a Ha)). lia.
Qed.

(* The sections that start at or below [key] are a prefix of the map (starts increase): their
   number says where [key] belongs, and is what binarySearchCompactSection computes. *)
Definition below (cm : cmap) (key : N) : nat := length (filter (fun s => s_start s <=? key) cm).

Lemma below_le : forall cm key, (below cm key <= length cm)%nat.
Proof. intros. apply filter_length_le. Qed.

Definition starts_sorted (cm : cmap) : Prop :=
  forall i j a b, (i < j)%nat -> nth_error cm i = Some a -> nth_error cm j = Some b -> s_start a < s_start b.

Lemma below_sorted : forall cm key, starts_sorted cm ->
  forall i s, nth_error cm i = Some s -> (s_start s <= key <-> (i < below cm key)%nat).
Proof.
  induction cm as [|a cm IH]; intros key H i s Hi; [destruct i; discriminate|].
  assert (Ht : starts_sorted cm).
  { intros i0 j0 x y L X Y. apply (H (S i0) (S j0) x y); [lia|exact X|exact Y]. }
  unfold below in *. cbn [filter]. destruct (N.leb_spec (s_start a) key) as [Ha|Ha]; cbn [length].
  - destruct i; [injection Hi as <-; split; [lia|auto]|]. simpl in Hi. rewrite (IH key Ht i s Hi). lia.
  - (* every later section starts above a, hence above key *)
    assert (E : filter (fun s => s_start s <=? key) cm = []).
    { destruct (filter _ cm) as [|b l] eqn:F; [reflexivity|].
      assert (Hb : In b (filter (fun s => s_start s <=? key) cm)) by (rewrite F; now left).
      apply filter_In in Hb. destruct Hb as [Hin Hb]. apply In_nth_error in Hin. destruct Hin as [j Hj].
      pose proof (H 0%nat (S j) a b ltac:(lia) eq_refl Hj). lia. }
    rewrite E. simpl. destruct i; [injection Hi as <-; lia|]. simpl in Hi.
    pose proof (H 0%nat (S i) a s ltac:(lia) eq_refl Hi). lia.
Qed.

Lemma below_spec : forall batch cm key i s, cm_inv batch cm -> nth_error cm i = Some s ->
  (s_start s <= key <-> (i < below cm key)%nat).
Proof.
  intros batch cm key i s Hinv. apply below_sorted. intros i0 j a b. now apply (starts_lt batch cm).
Qed.

Lemma start_leb : forall batch cm key z, cm_inv batch cm -> (0 <= z < Z.of_nat (length cm))%Z ->
  (s_start (sec_at cm z) <=? key) = (z <? Z.of_nat (below cm key))%Z.
Proof.
  intros batch cm key z Hinv Hz. pose proof (below_spec batch cm key _ _ Hinv (sec_at_some cm z Hz)) as B.
  destruct (N.leb_spec (s_start (sec_at cm z)) key); destruct (Z.ltb_spec z (Z.of_nat (below cm key))); lia.
Qed.

(* the loop narrows [l, h] around below - 1 *)
Lemma bscs_loop_eq : forall batch cm key, cm_inv batch cm -> (below cm key < length cm)%nat ->
  forall fuel l h,
  (0 <= l)%Z -> (h <= Z.of_nat (length cm) - 1)%Z -> (h - l + 1 <= Z.of_nat fuel)%Z ->
  (l = 0 \/ l <= Z.of_nat (below cm key) - 1)%Z -> (Z.of_nat (below cm key) - 1 <= h)%Z ->
  bscs_loop fuel cm key l h = (if (below cm key =? 0)%nat then -3 else Z.of_nat (below cm key) - 1)%Z.
Proof.
  intros batch cm key Hinv Hc.
  induction fuel as [|fuel IH]; intros l h Hl Hh Hf Hlo Hhi; cbn [bscs_loop].
  - destruct (Nat.eqb_spec (below cm key) 0); [reflexivity|lia].
  - destruct (Z.leb_spec l h) as [Hle|Hgt]; [|destruct (Nat.eqb_spec (below cm key) 0); [reflexivity|lia]].
    set (m := ((l + h) / 2)%Z). assert (Hm : (l <= m <= h)%Z) by (unfold m; lia).
    rewrite N.ltb_antisym, (start_leb batch cm key m Hinv) by lia.
    destruct (Z.ltb_spec m (Z.of_nat (below cm key))) as [Hk|Hk]; cbn [negb]; [|apply IH; lia].
    rewrite (start_leb batch cm key (m + 1) Hinv) by lia.
    destruct (Z.ltb_spec (m + 1) (Z.of_nat (below cm key))); [apply IH; lia|].
    destruct (Nat.eqb_spec (below cm key) 0); lia.
Qed.

Lemma bscs_eq : forall batch cm key, cm_inv batch cm ->
  bscs batch cm key =
  (let n := Z.of_nat (length cm) in let c := Z.of_nat (below cm key) in
   if n =? 0 then -5
   else if c =? n then
     if (counter (sec_at cm (n - 1)) <? batch)%N || (key <=? s_end (sec_at cm (n - 1)))%N then n - 1 else -4
   else if c =? 0 then -3 else c - 1)%Z.
Proof.
  intros batch cm key Hinv. unfold bscs. cbv zeta. pose proof (below_le cm key) as Hle.
  destruct (Z.ltb_spec (Z.of_nat (length cm) - 1) 0); destruct (Z.eqb_spec (Z.of_nat (length cm)) 0);
    try lia.
  rewrite (start_leb batch cm key _ Hinv) by lia.
  destruct (Z.ltb_spec (Z.of_nat (length cm) - 1) (Z.of_nat (below cm key)));
    destruct (Z.eqb_spec (Z.of_nat (below cm key)) (Z.of_nat (length cm))); try lia; try reflexivity.
  rewrite (bscs_loop_eq batch cm key Hinv) by lia.
  destruct (Nat.eqb_spec (below cm key) 0); destruct (Z.eqb_spec (Z.of_nat (below cm key)) 0); lia || reflexivity.
Qed.

Lemma sub64_exact : forall a b, b <= a -> a < two64 -> sub64 a b = a - b.
Proof. intros a b H1 H2. unfold sub64, two64 in *. lia. Qed.
Lemma u32_small : forall x, x <= sec_lim -> u32 x = x.
Proof. intros x H. unfold u32, two32, sec_lim in *. lia. Qed.
Lemma add64_back : forall a b, b <= a -> a < two64 -> add64 (a - b) b = a.
Proof. intros a b H1 H2. unfold add64, two64 in *. lia. Qed.

Lemma sec_at_nth_error : forall (cm : cmap) i s, nth_error cm i = Some s -> sec_at cm (Z.of_nat i) = s.
Proof. intros cm i s H. unfold sec_at. rewrite Nat2Z.id. apply nth_error_nth. assumption. Qed.

Lemma nth_error_lt : forall {A} (l : list A) i x, nth_error l i = Some x -> (i < length l)%nat.
Proof. intros A l i x H. apply nth_error_Some. congruence. Qed.

Lemma bscs_nonneg : forall batch cm key, cm_inv batch cm -> (0 <= bscs batch cm key)%Z ->
  bscs batch cm key = (Z.of_nat (below cm key) - 1)%Z /\ (0 < below cm key)%nat.
Proof.
  intros batch cm key Hinv. rewrite (bscs_eq batch cm key Hinv). cbv zeta. pose proof (below_le cm key).
  destruct (Z.eqb_spec (Z.of_nat (length cm)) 0); [lia|].
  destruct (Z.eqb_spec (Z.of_nat (below cm key)) (Z.of_nat (length cm))).
  - destruct (_ || _); lia.
  - destruct (Z.eqb_spec (Z.of_nat (below cm key)) 0); lia.
Qed.

Lemma below_at : forall batch cm key i s, cm_inv batch cm ->
  nth_error cm i = Some s -> s_start s <= key -> key <= s_end s -> below cm key = S i.
Proof.
  intros batch cm key i s Hinv Hi H1 H2.
  pose proof (proj1 (below_spec batch cm key i s Hinv Hi) H1) as L. pose proof (below_le cm key).
  destruct (Nat.eq_dec (below cm key) (S i)) as [E|E]; [exact E|exfalso].
  destruct (nth_error cm (S i)) as [b|] eqn:Eb; [|apply nth_error_None in Eb; lia].
  pose proof (proj2 (below_spec batch cm key (S i) b Hinv Eb) ltac:(lia)).
  pose proof (ci_ord _ _ Hinv i (S i) s b ltac:(lia) Hi Eb). lia.
Qed.

Lemma locate_some : forall batch cm key x, cm_inv batch cm -> key < two64 ->
  locate batch cm key = Some x ->
  exists s, nth_error cm x = Some s /\ s_start s <= key /\ key - s_start s <= sec_lim /\
            (forall b, nth_error cm (S x) = Some b -> key < s_start b) /\
            sub64 key (s_start s) = key - s_start s.
Proof.
  intros batch cm key x Hinv Hk Hloc. unfold locate in Hloc. set (r := bscs batch cm key) in *.
  destruct (Z.ltb_spec r 0) as [|Hr]; [discriminate|]. cbn [orb] in Hloc.
  destruct (N.ltb_spec sec_lim (sub64 key (s_start (sec_at cm r)))) as [Hl|Hl]; [discriminate|].
  injection Hloc as <-.
  destruct (bscs_nonneg batch cm key Hinv Hr) as [Er Hc]. fold r in Er. pose proof (below_le cm key).
  pose proof (sec_at_some cm r ltac:(lia)) as Hn.
  pose proof (proj2 (below_spec batch cm key _ _ Hinv Hn) ltac:(lia)) as Hs.
  exists (sec_at cm r). rewrite sub64_exact in Hl by assumption. repeat split; auto.
  - intros b Hb. destruct (N.lt_ge_cases key (s_start b)) as [|Hge]; [assumption|].
    pose proof (proj1 (below_spec batch cm key _ _ Hinv Hb) Hge). lia.
  - apply sub64_exact; assumption.
Qed.

Lemma stored_locate : forall batch cm key i s, cm_inv batch cm -> key < two64 ->
  nth_error cm i = Some s -> s_start s <= key -> key <= s_end s ->
  locate batch cm key = Some i.
Proof.
  intros batch cm key i s Hinv Hk Hi H1 H2.
  pose proof (below_at batch cm key i s Hinv Hi H1 H2) as Eb. pose proof (nth_error_lt _ _ _ Hi).
  assert (Er : bscs batch cm key = Z.of_nat i).
  { rewrite (bscs_eq batch cm key Hinv). cbv zeta. rewrite Eb.
    destruct (Z.eqb_spec (Z.of_nat (length cm)) 0); [lia|].
    destruct (Z.eqb_spec (Z.of_nat (S i)) (Z.of_nat (length cm))).
    - replace (Z.of_nat (length cm) - 1)%Z with (Z.of_nat i) by lia. rewrite (sec_at_nth_error cm i s Hi).
      destruct (N.leb_spec key (s_end s)); [|lia]. rewrite orb_true_r. lia.
    - destruct (Z.eqb_spec (Z.of_nat (S i)) 0); lia. }
  unfold locate. rewrite Er, (sec_at_nth_error cm i s Hi), Nat2Z.id.
  destruct (Z.ltb_spec (Z.of_nat i) 0); [lia|]. cbn [orb]. rewrite sub64_exact by assumption.
  pose proof (sw_span _ _ (ci_wf _ _ Hinv _ _ Hi)).
  destruct (N.ltb_spec sec_lim (key - s_start s)); [lia|reflexivity].
Qed.

Lemma locate_none : forall batch cm key, cm_inv batch cm -> key < two64 ->
  locate batch cm key = None ->
  forall i s, nth_error cm i = Some s -> ~ (s_start s <= key /\ key <= s_end s).
Proof.
  intros batch cm key Hinv Hk Hloc i s Hi [H1 H2].
  rewrite (stored_locate batch cm key i s Hinv Hk Hi H1 H2) in Hloc. discriminate.
Qed.

Definition cm_lookup (batch : N) (cm : cmap) (key : N) : option sval :=
  match locate batch cm key with
  | Some x => let s := nth x cm empty_section in sec_lookup s (key - s_start s)
  | None => None
  end.

Definition stored (cm : cmap) (key : N) (v : sval) : Prop :=
  exists i s, nth_error cm i = Some s /\ s_start s <= key /\ sec_lookup s (key - s_start s) = Some v.

Lemma sec_lookup_in : forall s k v, sec_lookup s k = Some v -> In v (s_values s ++ s_overflow s) /\ sk v = k.
Proof.
  intros s k v H. unfold sec_lookup in H. destruct (l_find (s_overflow s) k) as [o|] eqn:F.
  - injection H as <-. destruct (l_find_some _ _ _ F). split; [apply in_or_app; right|]; assumption.
  - destruct (l_find_some _ _ _ H). split; [apply in_or_app; left|]; assumption.
Qed.

Lemma lookup_in_range : forall batch s key v, sec_wf batch s -> s_start s <= key ->
  sec_lookup s (key - s_start s) = Some v -> key <= s_end s /\ key - s_start s <= sec_lim.
Proof.
  intros batch s key v W Hs H. destruct (sec_lookup_in _ _ _ H) as [Hin Hk].
  destruct (sw_keys _ _ W v Hin) as [A B]. lia.
Qed.

Lemma lookup_iff : forall batch cm key v, cm_inv batch cm -> key < two64 ->
  (cm_lookup batch cm key = Some v <-> stored cm key v).
Proof.
  intros batch cm key v Hinv Hk. unfold cm_lookup. split.
  - destruct (locate batch cm key) as [x|] eqn:L; [|discriminate]. intros H.
    destruct (locate_some batch cm key x Hinv Hk L) as [s [Hx [Hs _]]].
    rewrite (nth_error_nth cm x empty_section Hx) in H. exists x, s. auto.
  - intros [i [s [Hi [Hs Hl]]]].
    destruct (lookup_in_range batch s key v (ci_wf _ _ Hinv _ _ Hi) Hs Hl) as [He _].
    rewrite (stored_locate batch cm key i s Hinv Hk Hi Hs He).
    rewrite (nth_error_nth cm i empty_section Hi). exact Hl.
Qed.

(* the lookup is determined by what is stored *)
Lemma lookup_char : forall batch cm key r, cm_inv batch cm -> key < two64 ->
  (forall v, stored cm key v <-> r = Some v) -> cm_lookup batch cm key = r.
Proof.
  intros batch cm key r H Hk E. destruct (cm_lookup batch cm key) as [v|] eqn:L.
  - symmetry. apply E, (lookup_iff batch cm key v H Hk), L.
  - destruct r as [v|]; [|reflexivity]. rewrite <- L. apply (lookup_iff batch cm key v H Hk), E. reflexivity.
Qed.

Lemma lookup_ext : forall batch cm cm' key, cm_inv batch cm -> cm_inv batch cm' -> key < two64 ->
  (forall v, stored cm' key v <-> stored cm key v) -> cm_lookup batch cm' key = cm_lookup batch cm key.
Proof.
  intros batch cm cm' key H H' Hk E. apply lookup_char; auto.
  intros v. rewrite (lookup_iff batch cm key v H Hk). apply E.
Qed.

Lemma cm_get_spec : forall batch cm key, cm_inv batch cm -> key < two64 ->
  cm_get batch cm key = match cm_lookup batch cm key with
                        | Some v => Some (key, sv_off v, ssz v)
                        | None => None
                        end.
Proof.
  intros batch cm key Hinv Hk. unfold cm_get, cm_lookup.
  destruct (locate batch cm key) as [x|] eqn:L; [|reflexivity].
  destruct (locate_some batch cm key x Hinv Hk L) as [s [Hx [Hs [Hl [_ Hsub]]]]].
  rewrite (nth_error_nth cm x empty_section Hx). cbv zeta.
  rewrite (sec_get_lookup batch s key (sw_inv _ _ (ci_wf _ _ Hinv _ _ Hx))).
  rewrite Hsub, u32_small by assumption.
  destruct (sec_lookup s (key - s_start s)) as [v|] eqn:E; [|reflexivity].
  destruct (sec_lookup_in _ _ _ E) as [_ Hv]. unfold to_nv. rewrite Hv, add64_back by assumption. reflexivity.
Qed.

(* the section [locate] picks for [key] is replaced by one with the same start, an end that is
   the old one or [key], and lookups that differ at [key] only *)
Lemma replace_section : forall batch cm key x s s' new,
  cm_inv batch cm -> key < two64 -> locate batch cm key = Some x -> nth_error cm x = Some s ->
  sec_wf batch s' -> s_start s' = s_start s -> s_end s' = s_end s \/ s_end s' = key ->
  (forall k', sec_lookup s' k' = if k' =? key - s_start s then new else sec_lookup s k') ->
  cm_inv batch (set_nth x s' cm) /\
  forall k', k' < two64 ->
    cm_lookup batch (set_nth x s' cm) k' = if k' =? key then new else cm_lookup batch cm k'.
Proof.
  intros batch cm key x s s' new Hinv Hk L Hx W' Hst Hen Hlk.
  destruct (locate_some batch cm key x Hinv Hk L) as [s0 [Hx0 [Hs [_ [Hnext _]]]]].
  rewrite Hx in Hx0. injection Hx0 as <-.
  pose proof (nth_error_lt _ _ _ Hx) as Hxl.
  assert (Hinv' : cm_inv batch (set_nth x s' cm)).
  { constructor.
    - intros i j a b Hij Ha Hb. rewrite nth_error_set_nth in Ha, Hb by assumption.
      destruct (Nat.eqb_spec i x) as [->|Hix]; destruct (Nat.eqb_spec j x) as [->|Hjx]; try lia.
      + injection Ha as <-. destruct Hen as [->| ->]; [apply (ci_ord _ _ Hinv x j s b Hij Hx Hb)|].
        destruct (Nat.eq_dec j (S x)) as [->|Hne]; [apply Hnext; assumption|].
        destruct (nth_error cm (S x)) as [c|] eqn:Ec.
        * specialize (Hnext c eq_refl). pose proof (starts_lt batch cm (S x) j c b Hinv ltac:(lia) Ec Hb). lia.
        * apply nth_error_None in Ec. pose proof (nth_error_lt _ _ _ Hb). lia.
      + injection Hb as <-. rewrite Hst. apply (ci_ord _ _ Hinv i x a s Hij Ha Hx).
      + apply (ci_ord _ _ Hinv i j a b Hij Ha Hb).
    - intros i a Ha. rewrite nth_error_set_nth in Ha by assumption.
      destruct (Nat.eqb_spec i x); [injection Ha as <-; exact W'|apply (ci_wf _ _ Hinv _ _ Ha)]. }
  assert (Hx' : nth_error (set_nth x s' cm) x = Some s').
  { rewrite nth_error_set_nth by assumption. rewrite Nat.eqb_refl. reflexivity. }
  split; [exact Hinv'|]. intros k' Hk'. apply lookup_char; auto. intros v.
  destruct (N.eqb_spec k' key) as [->|Hne].
  - split.
    + intros [i [a [Ha [Has Hal]]]]. rewrite nth_error_set_nth in Ha by assumption.
      destruct (Nat.eqb_spec i x) as [->|Hix].
      * injection Ha as <-. rewrite Hst, Hlk, N.eqb_refl in Hal. exact Hal.
      * (* another section cannot hold the key that section x holds the range of *)
        exfalso. destruct (lookup_in_range batch a key v (ci_wf _ _ Hinv _ _ Ha) Has Hal) as [He _].
        pose proof (stored_locate batch cm key i a Hinv Hk Ha Has He). congruence.
    + intros ->. exists x, s'. rewrite Hst, Hlk, N.eqb_refl. auto.
  - rewrite (lookup_iff batch cm k' v Hinv Hk'). split.
    + intros [i [a [Ha [Has Hal]]]]. rewrite nth_error_set_nth in Ha by assumption.
      destruct (Nat.eqb_spec i x) as [->|Hix]; [|exists i, a; auto].
      injection Ha as <-. rewrite Hst in *. rewrite Hlk in Hal.
      destruct (N.eqb_spec (k' - s_start s) (key - s_start s)); [lia|]. exists x, s. auto.
    + intros [i [a [Ha [Has Hal]]]]. destruct (Nat.eq_dec i x) as [->|Hix].
      * rewrite Hx in Ha. injection Ha as <-. exists x, s'. rewrite Hst, Hlk.
        destruct (N.eqb_spec (k' - s_start s) (key - s_start s)); [lia|auto].
      * exists i, a. rewrite nth_error_set_nth by assumption.
        destruct (Nat.eqb_spec i x); [contradiction|auto].
Qed.

(* a section that holds [key] alone is inserted at [x], between the sections that end below
   [key] and those that start above it *)
Lemma insert_section : forall batch cm key x s' v0,
  cm_inv batch cm -> key < two64 -> (x <= length cm)%nat ->
  (forall i a, (i < x)%nat -> nth_error cm i = Some a -> s_end a < key) ->
  (forall i b, (x <= i)%nat -> nth_error cm i = Some b -> key < s_start b) ->
  sec_wf batch s' -> s_start s' = key -> s_end s' = key ->
  (forall k', sec_lookup s' k' = if k' =? 0 then Some v0 else None) ->
  cm_inv batch (insert_at x s' cm) /\
  forall k', k' < two64 ->
    cm_lookup batch (insert_at x s' cm) k' = if k' =? key then Some v0 else cm_lookup batch cm k'.
Proof.
  intros batch cm key x s' v0 Hinv Hk Hxl Hbefore Habove W' Hst Hen' Hlk.
  assert (Hinv' : cm_inv batch (insert_at x s' cm)).
  { constructor.
    - intros i j a b Hij Ha Hb. rewrite nth_error_insert_at in Ha, Hb by assumption.
      destruct (Nat.ltb_spec i x) as [Hi|Hi]; destruct (Nat.ltb_spec j x) as [Hj|Hj]; try lia.
      + apply (ci_ord _ _ Hinv i j a b Hij Ha Hb).
      + destruct (Nat.eqb_spec j x) as [->|Hjx].
        * injection Hb as <-. rewrite Hst. apply (Hbefore i a Hi Ha).
        * apply (ci_ord _ _ Hinv i (j - 1)%nat a b ltac:(lia) Ha Hb).
      + destruct (Nat.eqb_spec i x) as [->|Hix]; destruct (Nat.eqb_spec j x) as [->|Hjx]; try lia.
        * injection Ha as <-. rewrite Hen'. apply (Habove (j - 1)%nat b); [lia|assumption].
        * apply (ci_ord _ _ Hinv (i - 1)%nat (j - 1)%nat a b ltac:(lia) Ha Hb).
    - intros i a Ha. rewrite nth_error_insert_at in Ha by assumption.
      destruct (Nat.ltb_spec i x); [apply (ci_wf _ _ Hinv _ _ Ha)|].
      destruct (Nat.eqb_spec i x); [injection Ha as <-; exact W'|apply (ci_wf _ _ Hinv _ _ Ha)]. }
  split; [exact Hinv'|].
  intros k' Hk'. destruct (N.eqb_spec k' key) as [->|Hne].
  - apply (proj2 (lookup_iff batch _ key v0 Hinv' Hk)). exists x, s'.
    split; [rewrite nth_error_insert_at by assumption; rewrite Nat.ltb_irrefl, Nat.eqb_refl; reflexivity|].
    rewrite Hst. split; [lia|]. rewrite N.sub_diag, Hlk. reflexivity.
  - apply lookup_ext; auto. intros v. split.
    + intros [i [a [Ha [Has Hal]]]]. rewrite nth_error_insert_at in Ha by assumption.
      destruct (Nat.ltb_spec i x); [exists i, a; auto|].
      destruct (Nat.eqb_spec i x) as [->|Hix]; [|exists (i - 1)%nat, a; auto].
      injection Ha as <-. rewrite Hst in *. rewrite Hlk in Hal.
      destruct (N.eqb_spec (k' - key) 0); [lia|discriminate].
    + intros [i [a [Ha [Has Hal]]]]. destruct (Nat.lt_ge_cases i x) as [Hi|Hi].
      * exists i, a. split; [|auto]. rewrite nth_error_insert_at by assumption.
        destruct (Nat.ltb_spec i x); [assumption|lia].
      * exists (S i), a. split; [|auto]. rewrite nth_error_insert_at by assumption.
        destruct (Nat.ltb_spec (S i) x); [lia|]. destruct (Nat.eqb_spec (S i) x); [lia|].
        replace (S i - 1)%nat with i by lia. assumption.
Qed.

(* "keep compact section sorted by start": the new section goes right after the sections that
   start at or below the key *)
Lemma shift_count_below : forall cm key, starts_sorted cm ->
  (length cm - shift_count (rev cm) key)%nat = below cm key.
Proof.
  intros cm key. induction cm as [|z cm IH] using rev_ind; intros H; [reflexivity|].
  assert (Ht : starts_sorted cm).
  { intros i j a b L A B. pose proof (nth_error_lt _ _ _ A). pose proof (nth_error_lt _ _ _ B).
    apply (H i j a b L); rewrite nth_error_app1; assumption. }
  assert (Eb : below (cm ++ [z]) key = (below cm key + (if (s_start z <=? key)%N then 1 else 0))%nat).
  { unfold below. rewrite filter_app, app_length. cbn [filter]. now destruct (s_start z <=? key). }
  rewrite rev_app_distr, app_length, Eb. cbn [rev app shift_count length]. rewrite N.ltb_antisym.
  destruct (N.leb_spec (s_start z) key) as [Hz|Hz]; cbn [negb]; [|rewrite <- (IH Ht); lia].
  (* z starts at or below the key: so does every section before it *)
  pose proof (below_le cm key).
  assert (Hn : nth_error (cm ++ [z]) (length cm) = Some z) by (rewrite nth_error_app2, Nat.sub_diag by lia; reflexivity).
  pose proof (proj1 (below_sorted _ key H _ _ Hn) Hz). lia.
Qed.

Lemma sec_keys_of_keys : forall s s',
  s_start s' = s_start s -> s_end s <= s_end s' ->
  (forall v, In v (s_values s' ++ s_overflow s') -> exists v0, In v0 (s_values s ++ s_overflow s) /\ sk v0 = sk v) ->
  sec_keys s -> sec_keys s'.
Proof.
  intros s s' Hs He Hk K v Hv. destruct (Hk v Hv) as [v0 [Hin E]].
  destruct (K v0 Hin) as [A B]. rewrite Hs, <- E. lia.
Qed.

(* CompactMap.Set: the invariant is kept, the key now holds (off, size), every other key is
   served as before, and the returned old value is what the lookup gave *)
Lemma cm_set_spec : forall batch cm key off size cm' oo os,
  cm_inv batch cm -> key < two64 ->
  cm_set batch cm key off size = (cm', oo, os) ->
  cm_inv batch cm' /\
  (exists v0, sv_off v0 = off /\ ssz v0 = size /\
     forall k', k' < two64 -> cm_lookup batch cm' k' = if k' =? key then Some v0 else cm_lookup batch cm k') /\
  (oo, os) = match cm_lookup batch cm key with Some o => (sv_off o, ssz o) | None => (0, 0%Z) end.
Proof.
  intros batch cm key off size cm' oo os Hinv Hk Hset. unfold cm_set in Hset.
  destruct (locate batch cm key) as [x|] eqn:L.
  - (* an existing section takes the key *)
    destruct (locate_some batch cm key x Hinv Hk L) as [s [Hx [Hs [Hl [Hnext Hsub]]]]].
    rewrite (nth_error_nth cm x empty_section Hx) in Hset.
    destruct (sec_set batch s key off size) as [[s' oo'] os'] eqn:Sset. injection Hset as <- <- <-.
    pose proof (ci_wf _ _ Hinv _ _ Hx) as W.
    destruct (sec_set_spec batch s key off size s' oo' os' (sw_inv _ _ W) Sset) as [I' [Hst [Hen [Hlk [Hold [_ Hin]]]]]].
    rewrite Hsub, u32_small in Hlk, Hold, Hin by assumption.
    set (v0 := mk_sval (key - s_start s) off size) in *.
    assert (Hend : s_end s <= s_end s' /\ key <= s_end s' /\ (s_end s' = s_end s \/ s_end s' = key)).
    { rewrite Hen. destruct (N.ltb_spec (s_end s) key); lia. }
    assert (W' : sec_wf batch s').
    { constructor; auto.
      - intros v Hv. destruct (Hin v Hv) as [->|Hv0].
        + unfold v0. simpl. rewrite Hst. lia.
        + destruct (sw_keys _ _ W v Hv0). rewrite Hst. lia.
      - rewrite Hst. pose proof (sw_se _ _ W). lia.
      - rewrite Hst. pose proof (sw_span _ _ W). lia.
      - pose proof (sw_64 _ _ W). lia. }
    destruct (replace_section batch cm key x s s' (Some v0) Hinv Hk L Hx W' Hst ltac:(lia) Hlk) as [Hinv' Hlk'].
    split; [exact Hinv'|]. split.
    + exists v0. split; [apply sv_off_mk|]. split; [reflexivity|exact Hlk'].
    + unfold cm_lookup. rewrite L. rewrite (nth_error_nth cm x empty_section Hx). exact Hold.
  - (* a new section starting at the key *)
    pose proof (locate_none batch cm key Hinv Hk L) as Hnone.
    rewrite (shift_count_below cm key (fun i j a b => starts_lt batch cm i j a b Hinv)) in Hset.
    set (x := below cm key) in *. pose proof (below_le cm key) as Hxl. fold x in Hxl.
    assert (Hnth : nth x (insert_at x (new_section key) cm) empty_section = new_section key).
    { apply nth_error_nth. rewrite nth_error_insert_at by assumption.
      rewrite Nat.ltb_irrefl, Nat.eqb_refl. reflexivity. }
    rewrite Hnth in Hset.
    destruct (sec_set batch (new_section key) key off size) as [[s' oo'] os'] eqn:Sset. injection Hset as <- <- <-.
    rewrite set_nth_insert_at by assumption.
    destruct (sec_set_spec batch (new_section key) key off size s' oo' os' (new_section_inv batch key) Sset)
      as [I' [Hst [Hen [Hlk [Hold [_ Hin]]]]]].
    cbn [new_section s_start s_end s_values s_overflow] in Hst, Hen, Hlk, Hold, Hin.
    rewrite sub64_exact in Hlk, Hold, Hin by (try lia; assumption).
    rewrite N.sub_diag in Hlk, Hold, Hin. change (u32 0) with 0 in Hlk, Hold, Hin.
    set (v0 := mk_sval 0 off size) in *.
    assert (Hen' : s_end s' = key) by (rewrite Hen; destruct (N.ltb_spec 0 key); lia).
    assert (Hbefore : forall i a, (i < x)%nat -> nth_error cm i = Some a -> s_end a < key).
    { intros i a Hi Ha. pose proof (proj2 (below_spec batch cm key i a Hinv Ha) Hi). pose proof (Hnone i a Ha). lia. }
    assert (Habove : forall i b, (x <= i)%nat -> nth_error cm i = Some b -> key < s_start b).
    { intros i b Hi Hb. destruct (N.lt_ge_cases key (s_start b)) as [|Hge]; [assumption|].
      pose proof (proj1 (below_spec batch cm key i b Hinv Hb) Hge). unfold x in Hi. lia. }
    assert (W' : sec_wf batch s').
    { constructor; auto.
      - intros v Hv. destruct (Hin v Hv) as [->|[]]. unfold v0, sec_lim. simpl. rewrite Hst, Hen'. lia.
      - rewrite Hst, Hen'. lia.
      - rewrite Hst, Hen'. lia.
      - rewrite Hen'. assumption. }
    destruct (insert_section batch cm key x s' v0 Hinv Hk Hxl Hbefore Habove W' Hst Hen' Hlk) as [Hinv' Hlk'].
    split; [exact Hinv'|]. split.
    + exists v0. split; [apply sv_off_mk|]. split; [reflexivity|exact Hlk'].
    + unfold cm_lookup. rewrite L. exact Hold.
Qed.

