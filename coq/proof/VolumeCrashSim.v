(* Proofs about model/VolumeCrash.v (C03): the reopened volume (files, byte level) keeps
   simulating the running volume (records) under every further write and delete (histories
   without empty payloads: [wf_op]). *)
From Coq Require Import List NArith ZArith Bool Lia ZifyBool ZifyN ZifyNat.
From SW Require Import model.Needle proof.NeedleProofs model.VolumeCrash proof.VolumeCrashProofs
  proof.VolumeCrashLoad.
Import ListNotations.
Local Open Scope N_scope.

Section WithCrc.
  Variable crc : list N -> N.

  Lemma body_pos_data : forall n, 0 < body_size n -> data n <> [].
  Proof. intros n H E. destruct (body_empty n E) as [Hb _]. lia. Qed.

  Definition rec_at (D : dfile) (off : N) (r : arec) : Prop :=
    exists pre post, d_bytes D = pre ++ encode Ver (a_n r) ++ post /\ len pre = off.

  Definition dfile_ok (D : dfile) : Prop :=
    d_fsize D mod 8 = 0 /\ len (d_bytes D) <= d_fsize D /\ 8 <= d_fsize D.

  Lemma rec_at_append : forall D b off r, rec_at D off r -> rec_at (d_append D b) off r.
  Proof.
    intros D b off r [pre [post [E H]]]. exists pre, (post ++ zeros (d_fsize D - len (d_bytes D)) ++ b).
    split; [|assumption]. unfold d_append. cbn [d_bytes]. rewrite E, <- !app_assoc. reflexivity.
  Qed.

  Lemma dfile_ok_append : forall D b, dfile_ok D -> len b mod 8 = 0 -> dfile_ok (d_append D b).
  Proof.
    intros D b [H1 [H2 H3]] Hb. unfold dfile_ok, d_append. cbn [d_bytes d_fsize].
    rewrite !len_app, len_zeros. repeat split; lia.
  Qed.

  Lemma rec_at_new : forall D r, dfile_ok D -> rec_at (d_append D (encode Ver (a_n r))) (d_fsize D) r.
  Proof.
    intros D r [H1 [H2 H3]]. exists (d_bytes D ++ zeros (d_fsize D - len (d_bytes D))), [].
    split; [unfold d_append; cbn [d_bytes]; rewrite app_nil_r, <- app_assoc; reflexivity|].
    rewrite len_app, len_zeros. lia.
  Qed.

  Lemma rec_at_lt : forall D off r, rec_at D off r -> dfile_ok D -> off + 16 <= d_fsize D.
  Proof.
    intros D off r [pre [post [E H]]] [_ [H2 _]]. pose proof (len_encode_ge Ver (a_n r)).
    rewrite E, !len_app in H2. lia.
  Qed.

  (* ReadData of a record with payload *)
  Lemma read_at : forall D off r, rec_at D off r -> arec_ok crc r -> a_tomb r = false -> 0 < body_size (a_n r) ->
    read_data crc (d_bytes D) off (body_size (a_n r)) Ver = (dview Ver (a_n r), SOk).
  Proof.
    intros D off r [pre [post [E H]]] [[Henc Hrng] Hpay] Ht Hpos. rewrite Ht in Hpay. destruct Hpay as [Hne Hck].
    rewrite E, <- H. apply roundtrip_in_file; auto using empty_payload_of.
  Qed.

  (* ReadNeedleHeader of any record *)
  Lemma header_at : forall D off r, rec_at D off r -> arec_ok crc r ->
    (len (dropN off (d_bytes D)) <? NeedleHeaderSize) = false /\
    parse_header (dropN off (d_bytes D)) = (cookie (a_n r), id (a_n r), body_size (a_n r)).
  Proof.
    intros D off r [pre [post [E H]]] [[Henc Hrng] _]. rewrite E, dropN_app by assumption.
    pose proof (len_encode_ge Ver (a_n r)) as H16. split.
    - rewrite len_app. unfold NeedleHeaderSize. lia.
    - pose proof Hrng as [Hc [Hi [Hb31 _]]].
      assert (Hb32 : body_size (a_n r) < 2 ^ 32)
        by (change (2 ^ 32) with 4294967296; change (2 ^ 31) with 2147483648 in Hb31; lia).
      rewrite encode_split. apply parse_header_bytes; assumption.
  Qed.

  (* key k: the same size in both needle maps and the same record behind both bindings *)
  Definition key_rel (L : lstate) (st : pstate) (k : N) : Prop :=
    match nm_get (p_map st) k with
    | None => nm_get (l_map L) k = None
    | Some pv =>
        exists lv r, nm_get (l_map L) k = Some lv /\ nv_size lv = nv_size pv /\ nv_off lv <> 0 /\
          In (nv_off pv * 8, r) (p_recs st) /\ rec_at (l_dat L) (nv_off lv * 8) r
    end.

  Record SimLP (dirty : N -> bool) (L : lstate) (st : pstate) : Prop := {
    sim_nwod : l_nwod L = false;
    sim_file : dfile_ok (l_dat L);
    sim_inv : Inv crc st;
    sim_keys : forall k, dirty k = false -> key_rel L st k
  }.

  Lemma sim_read : forall dirty L st k, SimLP dirty L st -> dirty k = false ->
    l_read crc L k = p_read st k.
  Proof.
    intros dirty L st k HS Hd. pose proof (sim_keys _ _ _ HS k Hd) as Hr. pose proof (sim_inv _ _ _ HS) as HI.
    unfold key_rel in Hr. unfold p_read.
    destruct (nm_get (p_map st) k) as [pv|] eqn:Eg.
    - destruct Hr as [lv [r [Hl [Hs [Hnz [Hin Hat]]]]]].
      destruct (bound_record crc st k pv r HI Eg Hin) as [Hf [Hok [Hpnz [Hid [Ht Hsz]]]]].
      replace (nv_off pv =? 0) with false by lia.
      destruct (size_deleted (nv_size pv)) eqn:Ed.
      { unfold l_read. rewrite Hl, Hs, Ed. replace (nv_off lv =? 0) with false by lia. reflexivity. }
      destruct (nv_size pv =? 0)%Z eqn:Ez.
      { unfold l_read. rewrite Hl, Hs, Ed, Ez. replace (nv_off lv =? 0) with false by lia. reflexivity. }
      apply size_deleted_neg in Ed. rewrite Hf.
      destruct Hsz as [Hsz|[Hsz Hp]]; [|lia].
      assert (Hpos : 0 < body_size (a_n r)) by lia.
      destruct (l_read_live crc L k lv (a_n r) Hl Hnz ltac:(congruence) Hpos) as [Hgo _].
      apply Hgo. apply read_at; assumption.
    - unfold l_read. rewrite Hr. reflexivity.
  Qed.

  Definition l_frame (L L' : lstate) (kk : N) : Prop :=
    l_nwod L' = false /\ dfile_ok (l_dat L') /\
    (forall k, k <> kk -> nm_get (l_map L') k = nm_get (l_map L) k) /\
    (forall off r, rec_at (l_dat L) off r -> rec_at (l_dat L') off r).

  Lemma l_frame_refl : forall L kk, l_nwod L = false -> dfile_ok (l_dat L) -> l_frame L L kk.
  Proof.
    intros L kk H1 H2. unfold l_frame. split; [assumption|]. split; [assumption|].
    split; [intros; reflexivity|intros; assumption].
  Qed.

  Lemma enc_len8 : forall n, rec_ok n -> len (encode Ver n) mod 8 = 0.
  Proof. intros n [H _]. apply (encode_aligned Ver n H). Qed.

  Lemma l_write_frame : forall L n, rec_ok n -> l_nwod L = false -> dfile_ok (l_dat L) ->
    l_frame L (fst (l_write crc L n)) (id n).
  Proof.
    intros L n Hok Hn Hd. unfold l_write. rewrite Hn.
    destruct (l_unchanged crc L n); [apply l_frame_refl; assumption|].
    match goal with |- context [if ?c then (L, WOther) else _] => destruct c end;
      [apply l_frame_refl; assumption|].
    match goal with |- context [if ?c then _ else _] => destruct c end; cbn [fst];
      (split; [reflexivity|]; cbn [l_dat l_map];
       split; [apply dfile_ok_append; [assumption|apply enc_len8; assumption]|];
       split; [|intros off r Hr; apply rec_at_append; assumption]).
    - intros k Hk. apply nm_get_set_other. congruence.
    - reflexivity.
  Qed.

  Lemma l_delete_frame : forall L k c ts, wf_op crc (Delete k c ts) -> l_nwod L = false -> dfile_ok (l_dat L) ->
    l_frame L (fst (l_delete L k c ts)) k.
  Proof.
    intros L k c ts [H1 [H2 H3]] Hn Hd. unfold l_delete. rewrite Hn.
    destruct (nm_get (l_map L) k) as [nv|]; [|apply l_frame_refl; assumption].
    destruct (size_valid (nv_size nv)); [|apply l_frame_refl; assumption].
    cbn [fst]. split; [reflexivity|]. cbn [l_dat l_map].
    split; [apply dfile_ok_append; [assumption|apply enc_len8, (tombstone_ok crc k c ts H1 H2 H3)]|].
    split; [|intros off r Hr; apply rec_at_append; assumption].
    intros k' Hk. apply nm_get_delete_other. congruence.
  Qed.

  Lemma l_step_frame : forall L o, wf_op crc o -> l_nwod L = false -> dfile_ok (l_dat L) ->
    l_frame L (fst (l_step crc L o)) (op_key o).
  Proof.
    intros L [n|k c ts] Hw Hn Hd; cbn [l_step op_key].
    - pose proof (l_write_frame L n (proj1 Hw) Hn Hd) as H. destruct (l_write crc L n) as [L' w]. exact H.
    - pose proof (l_delete_frame L k c ts Hw Hn Hd) as H. destruct (l_delete L k c ts) as [L' [ro sz]]. exact H.
  Qed.

  Lemma p_step_frame : forall st o, Inv crc st ->
    (forall k, k <> op_key o -> nm_get (p_map (p_step st o)) k = nm_get (p_map st) k) /\
    (forall x, In x (p_recs st) -> In x (p_recs (p_step st o))).
  Proof.
    intros st o HI. split.
    - intros k Hk. destruct o as [n|k0 c ts]; cbn [p_step op_key] in *.
      + unfold p_write. destruct (p_unchanged st n); [reflexivity|].
        destruct (negb (p_cookie_ok st n)); [reflexivity|].
        match goal with |- context [if ?c then _ else _] => destruct c end; unfold p_append; cbn [p_map];
          [apply nm_get_set_other; congruence|reflexivity].
      + unfold p_delete. destruct (nm_get (p_map st) k0) as [nv|]; [|reflexivity].
        destruct (size_valid (nv_size nv)); [|reflexivity].
        unfold p_append. cbn [p_map]. apply nm_get_delete_other. congruence.
    - intros x Hx. destruct (step_extends crc st o HI) as [X [Y [Z [_ [_ [EZ _]]]]]].
      rewrite EZ. apply in_or_app. left. assumption.
  Qed.

  Lemma key_rel_frame : forall L L' st o k, Inv crc st -> l_frame L L' (op_key o) -> k <> op_key o ->
    key_rel L st k -> key_rel L' (p_step st o) k.
  Proof.
    intros L L' st o k HI [_ [_ [Hm Hr]]] Hk Hrel. destruct (p_step_frame st o HI) as [Hpm Hpr].
    unfold key_rel in *. rewrite (Hpm k Hk), (Hm k Hk).
    destruct (nm_get (p_map st) k) as [pv|]; [|assumption].
    destruct Hrel as [lv [r [H1 [H2 [H3 [H4 H5]]]]]]. exists lv, r. auto 10.
  Qed.

  (* both files of the reopened volume are those of the running volume *)
  Definition files_eq (L : lstate) (st : pstate) : Prop :=
    d_bytes (l_dat L) = p_dat st /\ d_fsize (l_dat L) = len (p_dat st) /\ l_idx L = p_idx st.

  Lemma files_eq_append : forall L st r lm pm, files_eq L st ->
    files_eq {| l_dat := d_append (l_dat L) (encode Ver (a_n r));
                l_idx := l_idx L ++ [entry_of (d_fsize (l_dat L)) r]; l_map := lm; l_nwod := false |}
             (p_append st r pm true).
  Proof.
    intros L st r lm pm [H1 [H2 H3]]. unfold files_eq, p_append, d_append. cbn [l_dat l_idx d_bytes d_fsize p_dat p_idx].
    replace (d_fsize (l_dat L) - len (d_bytes (l_dat L))) with 0 by (rewrite H1, H2; lia).
    change (zeros 0) with (@nil N). cbn [app]. rewrite H1, H2, H3, len_app. auto.
  Qed.

  (* a write on both sides: the key stays related, the answers agree, and files that were those of the
     running volume remain so *)
  Lemma sim_write_key : forall L st n, Inv crc st -> dfile_ok (l_dat L) -> l_nwod L = false ->
    wf_op crc (Write n) -> key_rel L st (id n) ->
    key_rel (fst (l_write crc L n)) (p_write st n) (id n) /\
    RW (snd (l_write crc L n)) = p_res st (Write n) /\
    (files_eq L st -> files_eq (fst (l_write crc L n)) (p_write st n)).
  Proof.
    intros L st n HI Hd Hn [Hok Hck] Hrel.
    destruct (len_dat_ge8 crc st HI) as [H8 Hal]. pose proof Hd as [Hf1 [Hf2 Hf3]].
    (* both sides append and bind the key to the new record *)
    assert (Happ : forall m lm li,
      key_rel {| l_dat := d_append (l_dat L) (encode Ver n); l_idx := li;
                 l_map := nm_set lm (id n) {| nv_off := d_fsize (l_dat L) / 8; nv_size := Z.of_N (body_size n) |};
                 l_nwod := false |}
              (p_append st {| a_n := n; a_tomb := false |}
                 (nm_set m (id n) {| nv_off := len (p_dat st) / 8; nv_size := Z.of_N (body_size n) |}) true) (id n)).
    { intros m lm li. unfold key_rel, p_append. cbn [p_map p_recs l_map l_dat]. rewrite !nm_get_set_same.
      eexists _, {| a_n := n; a_tomb := false |}. split; [reflexivity|]. cbn [nv_size nv_off].
      split; [reflexivity|]. split; [lia|]. split.
      - replace (len (p_dat st) / 8 * 8) with (len (p_dat st)) by lia. apply in_or_app. right. left. reflexivity.
      - replace (d_fsize (l_dat L) / 8 * 8) with (d_fsize (l_dat L)) by lia.
        apply (rec_at_new (l_dat L) {| a_n := n; a_tomb := false |}). assumption. }
    pose proof Hrel as Hrel0. unfold key_rel in Hrel. unfold p_res, p_write, l_write. rewrite Hn.
    destruct (nm_get (p_map st) (id n)) as [pv|] eqn:Eg.
    - destruct Hrel as [lv [r [Hl [Hs [Hnz [Hin Hat]]]]]].
      destruct (bound_record crc st (id n) pv r HI Eg Hin) as [Hf [Hrok [Hpnz [Hid [Ht Hsz]]]]].
      destruct (header_at (l_dat L) _ r Hat Hrok) as [Hh1 Hh2].
      (* isFileUnchanged agrees *)
      assert (Hu : l_unchanged crc L n = p_unchanged st n).
      { unfold l_unchanged, p_unchanged. rewrite Hl, Eg, Hs.
        replace (negb (nv_off lv =? 0)) with true by lia. replace (negb (nv_off pv =? 0)) with true by lia.
        cbn [andb]. destruct (size_valid (nv_size pv)) eqn:Ev; [|reflexivity].
        apply size_valid_pos in Ev. destruct Hsz as [Hsz|[Hsz Hp]]; [|lia].
        rewrite Hf, Hsz, N2Z.id, (read_at (l_dat L) _ r Hat Hrok Ht ltac:(lia)). cbn [fst snd].
        reflexivity. }
      rewrite Hu. destruct (p_unchanged st n); [cbn [fst snd]; auto|].
      (* the cookie check agrees *)
      assert (Hc : p_cookie_ok st n = (cookie (a_n r) =? cookie n)).
      { unfold p_cookie_ok. rewrite Eg, Hf. reflexivity. }
      rewrite Hl, Hh1, Hh2, Hc.
      destruct (cookie (a_n r) =? cookie n); cbn [negb fst snd]; [|auto].
      + pose proof (rec_at_lt _ _ _ Hat Hd) as Hlt.
        replace (nv_off lv * 8 <? d_fsize (l_dat L)) with true by lia.
        pose proof (newer_true crc st (id n) HI) as Hnew. rewrite Eg in Hnew. rewrite Hnew.
        cbn [fst snd]. split; [apply Happ|]. split; [reflexivity|apply (files_eq_append L st {| a_n := n; a_tomb := false |})].
    - assert (Hu : l_unchanged crc L n = false) by (unfold l_unchanged; rewrite Hrel; reflexivity).
      assert (Hpu : p_unchanged st n = false) by (unfold p_unchanged; rewrite Eg; reflexivity).
      assert (Hpc : p_cookie_ok st n = true) by (unfold p_cookie_ok; rewrite Eg; reflexivity).
      rewrite Hu, Hpu, Hpc, Hrel. cbn [negb fst snd].
      split; [apply Happ|]. split; [reflexivity|apply (files_eq_append L st {| a_n := n; a_tomb := false |})].
  Qed.

  Lemma sim_delete_key : forall L st k c ts, Inv crc st -> dfile_ok (l_dat L) -> l_nwod L = false ->
    key_rel L st k ->
    key_rel (fst (l_delete L k c ts)) (p_delete st k c ts) k /\
    (let '(ro, sz) := snd (l_delete L k c ts) in RD ro sz) = p_res st (Delete k c ts) /\
    (files_eq L st -> files_eq (fst (l_delete L k c ts)) (p_delete st k c ts)).
  Proof.
    intros L st k c ts HI Hd Hn Hrel. pose proof Hrel as Hrel0.
    unfold key_rel in Hrel. unfold p_res, p_delete, l_delete. rewrite Hn.
    destruct (nm_get (p_map st) k) as [pv|] eqn:Eg.
    - destruct Hrel as [lv [r [Hl [Hs [Hnz [Hin Hat]]]]]]. rewrite Hl, Hs.
      destruct (size_valid (nv_size pv)) eqn:Ev; cbn [fst snd]; [|auto].
      split; [|split; [reflexivity|]].
      + unfold key_rel, p_append. cbn [p_map p_recs l_map l_dat].
        rewrite !nm_get_delete_same, Eg, Hl, Hs, Ev.
        exists {| nv_off := nv_off lv; nv_size := (- nv_size pv)%Z |}, r. cbn [nv_off nv_size].
        split; [reflexivity|]. split; [reflexivity|]. split; [assumption|].
        split; [apply in_or_app; left; assumption|apply rec_at_append; assumption].
      + intros H. apply (files_eq_append L st {| a_n := tombstone k c ts; a_tomb := true |} _ _ H).
    - rewrite Hrel. cbn [fst snd]. auto.
  Qed.

  Lemma sim_step : forall dirty L st o, SimLP dirty L st -> wf_op crc o ->
    SimLP dirty (fst (l_step crc L o)) (p_step st o) /\
    (dirty (op_key o) = false -> snd (l_step crc L o) = p_res st o).
  Proof.
    intros dirty L st o [Hn Hd HI Hk] Hw.
    pose proof (l_step_frame L o Hw Hn Hd) as Hfr.
    assert (Hkey : dirty (op_key o) = false ->
      key_rel (fst (l_step crc L o)) (p_step st o) (op_key o) /\ snd (l_step crc L o) = p_res st o).
    { intros Hcl. specialize (Hk _ Hcl). destruct o as [n|k c ts]; cbn [l_step p_step op_key] in *.
      - destruct (sim_write_key L st n HI Hd Hn Hw Hk) as [H1 [H2 _]].
        destruct (l_write crc L n) as [L' w]. cbn [fst snd] in *. auto.
      - destruct (sim_delete_key L st k c ts HI Hd Hn Hk) as [H1 [H2 _]].
        destruct (l_delete L k c ts) as [L' [ro sz]]. cbn [fst snd] in *. auto. }
    split; [|intros Hcl; apply Hkey; assumption].
    pose proof Hfr as [F1 [F2 _]].
    constructor; [assumption|assumption|apply inv_step; assumption|].
    intros k Hcl. destruct (N.eq_dec k (op_key o)) as [->|Hne].
    - apply Hkey. assumption.
    - eapply key_rel_frame; eauto.
  Qed.

  (* when no key is excluded, the files stay byte-identical to those of the running volume *)
  Lemma files_step : forall L st o, SimLP (fun _ => false) L st -> files_eq L st -> wf_op crc o ->
    files_eq (fst (l_step crc L o)) (p_step st o).
  Proof.
    intros L st o [Hn Hd HI Hk] Hfe Hw. specialize (Hk (op_key o) eq_refl).
    destruct o as [n|k c ts]; cbn [l_step p_step op_key] in *.
    - destruct (sim_write_key L st n HI Hd Hn Hw Hk) as [_ [_ H3]].
      destruct (l_write crc L n) as [L' w]. cbn [fst] in *. auto.
    - destruct (sim_delete_key L st k c ts HI Hd Hn Hk) as [_ [_ H3]].
      destruct (l_delete L k c ts) as [L' [ro sz]]. cbn [fst] in *. auto.
  Qed.

  Lemma files_after : forall h L st, SimLP (fun _ => false) L st -> files_eq L st -> Forall (wf_op crc) h ->
    files_eq (l_after crc L h) (fold_left p_step h st).
  Proof.
    induction h as [|o h IH]; intros L st HS Hfe Hw; [assumption|].
    inversion Hw; subst. unfold l_after. cbn [fold_left]. apply IH; [| |assumption].
    - apply sim_step; assumption.
    - apply files_step; assumption.
  Qed.

  Lemma l_after_snoc : forall L h o, l_after crc L (h ++ [o]) = fst (l_step crc (l_after crc L h) o).
  Proof. intros. unfold l_after. rewrite fold_left_app. reflexivity. Qed.

  Lemma sim_after : forall dirty h L st, SimLP dirty L st -> Forall (wf_op crc) h ->
    SimLP dirty (l_after crc L h) (fold_left p_step h st).
  Proof.
    intros dirty h. induction h as [|o h IH]; intros L st HS Hw; [assumption|].
    inversion Hw; subst. unfold l_after. cbn [fold_left]. apply IH; [|assumption].
    apply sim_step; assumption.
  Qed.

  Lemma sim_reopen : forall st D es, Inv crc st -> good_dat st D ->
    SimLP (fun _ => false) {| l_dat := D; l_idx := es; l_map := p_map st; l_nwod := false |} st.
  Proof.
    intros st D es HI [[T HT] [Hal Hle]]. destruct (len_dat_ge8 crc st HI) as [H8 _].
    constructor; [reflexivity| |assumption|].
    - cbn [l_dat]. repeat split; try assumption. rewrite HT, len_app in Hle. lia.
    - intros k _. unfold key_rel. cbn [l_map l_dat].
      destruct (nm_get (p_map st) k) as [pv|] eqn:Eg; [|reflexivity].
      destruct (inv_bind crc st k pv HI Eg) as [r [Hin [Hnz _]]].
      exists pv, r. split; [reflexivity|]. split; [reflexivity|]. split; [assumption|]. split; [assumption|].
      destruct (rec_in_dat crc st _ r HI Hin) as [pre [post [HX [Hlen _]]]].
      exists pre, (post ++ T). split; [rewrite HT, HX, <- !app_assoc; reflexivity|assumption].
  Qed.
End WithCrc.
