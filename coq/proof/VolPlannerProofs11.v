(* Proofs about model/VolPlanner.v (C15): the EC half of volumeServer.evacuate
   (evacuateEcVolumes): free EC slots, per step; its witness [w9_ec] and example [ex_ec]. *)
From Coq Require Import List NArith ZArith Bool Arith Lia.
From SW Require Import model.VolPlanner proof.VolPlannerProofs.
Import ListNotations.
Local Open Scope Z_scope.

(* every server outside the trigger set has room for [R] more shards *)
Definition EcInv (T : N -> bool) (o : list ecnode) (R : Z) : Prop :=
  forall n, In n o -> T (e_id n) = false -> R <= e_free n.

Lemma EcInv_le : forall T o R R', R' <= R -> EcInv T o R -> EcInv T o R'.
Proof. intros T o R R' H HI n Hn HT. specialize (HI n Hn HT). lia. Qed.

Lemma ec_add_id : forall n vid sh, e_id (ec_add n vid sh) = e_id n.
Proof. reflexivity. Qed.
Lemma ec_add_free : forall n vid sh, e_free n - 1 <= e_free (ec_add n vid sh).
Proof. intros. unfold ec_add. cbn [e_free]. destruct (ec_has n vid sh); lia. Qed.

Lemma ec_put_inv : forall T o R to vid sh, EcInv T o (1 + R) -> EcInv T (ec_put o to vid sh) R.
Proof.
  intros T o R to vid sh HI n' Hn' HT. unfold ec_put in Hn'. apply in_map_iff in Hn'.
  destruct Hn' as [n [E Hn]]. destruct (e_id n =? to)%N; subst n'.
  - rewrite ec_add_id in HT. pose proof (HI n Hn HT). pose proof (ec_add_free n vid sh). lia.
  - pose proof (HI n Hn HT). lia.
Qed.

Lemma ec_find_some : forall o id t, ec_find o id = Some t -> In t o /\ e_id t = id.
Proof. intros o id t. apply (find_key_some e_id). Qed.

Lemma ec_find_in : forall es n, NoDup (map e_id es) -> In n es -> ec_find es (e_id n) = Some n.
Proof. intros es n. apply (find_key_unique e_id). Qed.

(* the shards of one volume: if the capacity clause holds of the rest of the plan on the servers
   as the shards leave them, it holds from here *)
Lemma ec_shards_cap : forall T vid shs o evs o' evs' R,
  0 <= R -> EcInv T o (Z.of_nat (length shs) + R) ->
  ec_shards_run o vid shs evs = Some (o', evs') ->
  (EcInv T o' R -> ec_cap_steps T o' evs' = true) ->
  ec_cap_steps T o evs = true.
Proof.
  intros T vid shs. induction shs as [|sh shs IH]; intros o evs o' evs' R HR HI H Hrest.
  - cbn [ec_shards_run] in H. inversion H; subst. apply Hrest. exact HI.
  - cbn [ec_shards_run] in H. destruct evs as [|[v s to|v|v] evs0]; try discriminate.
    destruct ((v =? vid)%N && (s =? sh)%N && ec_target_ok o vid to) eqn:E; [|discriminate].
    apply andb_true_iff in E. destruct E as [E Htg]. apply andb_true_iff in E. destruct E as [Ev Es].
    apply N.eqb_eq in Ev. apply N.eqb_eq in Es. subst v s.
    unfold ec_target_ok in Htg. destruct (ec_find o to) as [t|] eqn:Et; [|discriminate].
    pose proof (ec_find_some _ _ _ Et) as [Hin Eid].
    cbn [length] in HI. rewrite Nat2Z.inj_succ in HI.
    cbn [ec_cap_steps]. rewrite Et. apply andb_true_iff. split.
    + destruct (T to) eqn:ET; [apply orb_true_r|]. rewrite orb_false_r. apply Z.ltb_lt.
      rewrite <- Eid in ET. pose proof (HI t Hin ET). lia.
    + apply (IH (ec_put o to vid sh) evs0 o' evs' R HR); [|exact H|exact Hrest].
      apply ec_put_inv. eapply EcInv_le; [|exact HI]. lia.
Qed.

Lemma ec_total_nonneg : forall vols, 0 <= ec_total vols.
Proof. induction vols as [|p vols IH]; cbn [ec_total fold_right]; [lia|]. unfold ec_total in IH. lia. Qed.

Lemma ec_evac_cap : forall T skip vols o evs,
  EcInv T o (ec_total vols) -> ec_evac_run o skip vols evs = true -> ec_cap_steps T o evs = true.
Proof.
  intros T skip vols. induction vols as [|[vid shs] vols IH]; intros o evs HI H.
  - cbn [ec_evac_run] in H. destruct evs; [reflexivity|discriminate].
  - assert (ec_total ((vid, shs) :: vols) = Z.of_nat (length shs) + ec_total vols) as Et by reflexivity.
    rewrite Et in HI. pose proof (ec_total_nonneg vols) as Hnn.
    assert (forall (b : bool), b = match evs with
              | EcStuck v :: evs' => skip && (v =? vid)%N && ec_evac_run o skip vols evs'
              | [EcFail v] => negb skip && (v =? vid)%N
              | _ => false end -> b = true -> ec_cap_steps T o evs = true) as Hstuck.
    { intros b Eb Hb. subst b. destruct evs as [|[v s to|v|v] evs0]; try discriminate.
      - apply andb_true_iff in Hb. destruct Hb as [_ Hrec]. cbn [ec_cap_steps].
        apply IH; auto. eapply EcInv_le; [|exact HI]. lia.
      - destruct evs0; [reflexivity|discriminate]. }
    cbn [ec_evac_run] in H. destruct o as [|o1 os]; [eapply Hstuck; [reflexivity|exact H]|].
    destruct shs as [|sh shs]; [eapply Hstuck; [reflexivity|exact H]|].
    destruct (ec_shards_run (o1 :: os) vid (sh :: shs) evs) as [[o' evs']|] eqn:Er; [|discriminate].
    apply (ec_shards_cap T vid (sh :: shs) (o1 :: os) evs o' evs' (ec_total vols) Hnn HI Er).
    intros HI'. apply IH; auto.
Qed.

(* finding 4 (moveAwayOneEcVolume never tests freeEcSlot), per step *)
Theorem ec_evac_accepts_cap_excused : forall es this skip evs,
  NoDup (map e_id es) -> ec_evac_accepts es this skip evs = true ->
  ec_cap_steps (ec_cap_trig es this) (ec_others es this) evs = true.
Proof.
  intros es this skip evs Hnd H. unfold ec_evac_accepts in H.
  destruct (ec_find es this) as [t|] eqn:Et; [|discriminate].
  apply (ec_evac_cap _ skip (e_vols t)); auto.
  intros n Hn HT. unfold ec_others in Hn. apply filter_In in Hn. destruct Hn as [Hn _].
  unfold ec_cap_trig in HT. rewrite Et, (ec_find_in es n Hnd Hn) in HT.
  apply Z.ltb_ge in HT. exact HT.
Qed.

(* the witness: n2 has no free EC slot (its only volume slot is taken) but holds no shard of
   volume 7, n3 has 18 free slots and two shards of volume 7 *)
Definition w9_ec : list ecnode :=
  [ {| e_id := 1; e_free := 7; e_vols := [(7, [0; 1; 2])] |};
    {| e_id := 2; e_free := 0; e_vols := [] |};
    {| e_id := 3; e_free := 18; e_vols := [(7, [3; 4])] |} ]%N.
Definition w9_events : list ecevent := [EcMove 7 0 2; EcMove 7 1 2; EcMove 7 2 2]%N.
Lemma w9_facts :
  NoDup (map e_id w9_ec) /\ ec_evac_accepts w9_ec 1 true w9_events = true /\
  ec_ok_cap (ec_others w9_ec 1) w9_events = false /\
  ec_cap_trig w9_ec 1 2 = true /\ ec_cap_trig w9_ec 1 3 = false /\
  (* sending the shards to n3 is not a plan of the planner *)
  ec_evac_accepts w9_ec 1 true [EcMove 7 0 3; EcMove 7 1 3; EcMove 7 2 3]%N = false.
Proof.
  split; [repeat constructor; cbn; intuition discriminate|]. vm_compute. repeat split; reflexivity.
Qed.

(* non-vacuity: an accepted plan whose every step has a free slot and no trigger *)
Definition ex_ec : list ecnode :=
  [ {| e_id := 1; e_free := 7; e_vols := [(7, [0; 1]); (8, [5])] |};
    {| e_id := 2; e_free := 10; e_vols := [(8, [0])] |};
    {| e_id := 3; e_free := 18; e_vols := [(7, [3; 4])] |} ]%N.
Lemma ex_ec_facts :
  NoDup (map e_id ex_ec) /\
  ec_evac_accepts ex_ec 1 true [EcMove 7 0 2; EcMove 7 1 2; EcMove 8 5 3]%N = true /\
  ec_ok_cap (ec_others ex_ec 1) [EcMove 7 0 2; EcMove 7 1 2; EcMove 8 5 3]%N = true /\
  ec_cap_trig ex_ec 1 2 = false /\ ec_cap_trig ex_ec 1 3 = false.
Proof.
  split; [repeat constructor; cbn; intuition discriminate|]. vm_compute. repeat split; reflexivity.
Qed.
