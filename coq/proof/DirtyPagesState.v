(* C30: chunks, the POSIX reference, and the invariant that ties a dirty-page buffer (interval lists
   over either payload) and the stored chunks to the POSIX file along trigger-free histories. *)
From Coq Require Import List ZArith NArith Bool Lia Permutation.
From SW Require Import model.DirtyPages proof.DirtyPagesBase proof.DirtyPagesIntervals.
Import ListNotations.
Local Open Scope Z_scope.

(* validity of an in-memory node (instance facts: DirtyPagesMem); the positions a write or a chunk covers *)
Definition m_valid (t : mnode) : Prop := 0 < n_size t /\ n_size t = zlen (n_pay t).
Definition covers (c : chunk) (p : Z) : bool := (fst c <=? p) && (p <? fst c + zlen (snd c)).

(* the byte the last-saved chunk covering p holds *)
Fixpoint cget (cs : list chunk) (p : Z) : option N :=
  match cs with
  | [] => None
  | c :: cs' => match cget cs' p with Some b => Some b | None => zget (snd c) (p - fst c) end
  end.

Lemma cget_app : forall a b p, cget (a ++ b) p = match cget b p with Some x => Some x | None => cget a p end.
Proof.
  induction a as [|c a IH]; intros b p; simpl.
  - destruct (cget b p); auto.
  - rewrite IH. destruct (cget b p); auto.
Qed.

Lemma cget_beyond : forall cs A p, (forall c, In c cs -> fst c + zlen (snd c) <= A) -> A <= p -> cget cs p = None.
Proof.
  induction cs as [|c cs IH]; intros A p H Hp; auto. simpl.
  rewrite (IH A) by (auto; intros; apply H; right; auto).
  apply zget_none. specialize (H c (or_introl eq_refl)). lia.
Qed.

Lemma fold_blit_spec : forall cs buf p, (forall c, In c cs -> 0 <= fst c) ->
  zlen (fold_left (fun b c => blit b (Z.to_nat (fst c)) (snd c)) cs buf) = zlen buf /\
  (p < zlen buf ->
   zget (fold_left (fun b c => blit b (Z.to_nat (fst c)) (snd c)) cs buf) p =
   match cget cs p with Some b => Some b | None => zget buf p end).
Proof.
  induction cs as [|c cs IH]; intros buf p Hpos; simpl.
  - split; auto.
  - destruct (IH (blit buf (Z.to_nat (fst c)) (snd c)) p) as [I1 I2]; [intros; apply Hpos; right; auto|].
    rewrite zlen_blit in *. split; auto. intros Hp. rewrite I2 by auto.
    destruct (cget cs p); auto. apply zget_blit; [apply Hpos; left|]; auto.
Qed.

Lemma resolve_spec : forall n cs, 0 <= n -> (forall c, In c cs -> 0 <= fst c) ->
  zlen (resolve n cs) = n /\
  forall p, 0 <= p < n -> zget (resolve n cs) p = Some (match cget cs p with Some b => b | None => 0%N end).
Proof.
  intros n cs Hn Hpos. unfold resolve.
  assert (Hz : zlen (repeat 0%N (Z.to_nat n)) = n) by (unfold zlen; rewrite repeat_length; lia).
  split.
  - destruct (fold_blit_spec cs (repeat 0%N (Z.to_nat n)) 0 Hpos) as [I1 _]. lia.
  - intros p Hp. destruct (fold_blit_spec cs (repeat 0%N (Z.to_nat n)) p Hpos) as [_ I2].
    rewrite I2 by lia. destruct (cget cs p); auto.
    rewrite zget_repeat0. destruct (range_spec 0 (Z.of_nat (Z.to_nat n)) p); [reflexivity|lia].
Qed.

Lemma chunks_total_bound : forall (cs : list chunk) acc A, acc <= A -> (forall c, In c cs -> fst c + zlen (snd c) <= A) ->
  fold_left (fun a c => Z.max a (fst c + zlen (snd c))) cs acc <= A.
Proof.
  induction cs as [|c cs IH]; intros acc A Ha H; simpl; [lia|].
  specialize (H c (or_introl eq_refl)) as Hc. apply IH; [lia|intros; apply H; right; auto].
Qed.

Lemma file_size_attr : forall A cs, 0 <= A -> (forall c, In c cs -> fst c + zlen (snd c) <= A) ->
  file_size A cs = A.
Proof.
  intros A cs HA H. unfold file_size, chunks_total. pose proof (chunks_total_bound cs 0 A HA H). lia.
Qed.

(* Setattr: below the new size the chunks resolve as before *)
Lemma cget_truncate : forall n cs p, p < n ->
  cget (truncate_chunks n cs) p = cget cs p.
Proof.
  intros n. induction cs as [|c cs IH]; intros p Hp; auto.
  change (truncate_chunks n (c :: cs)) with
    ((if fst c + zlen (snd c) >? n then
        (if n - fst c >? 0 then [(fst c, firstn (Z.to_nat (n - fst c)) (snd c))] else [])
      else [c]) ++ truncate_chunks n cs).
  rewrite cget_app, IH by auto. cbn [cget].
  destruct (cget cs p); auto.
  destruct (fst c + zlen (snd c) >? n); [|reflexivity].
  rewrite Z.gtb_ltb. destruct (Z.ltb_spec 0 (n - fst c)); cbn [cget fst snd].
  - rewrite zget_firstn. destruct (Z.ltb_spec (p - fst c) (Z.of_nat (Z.to_nat (n - fst c)))); [reflexivity|lia].
  - symmetry. apply zget_none. lia.
Qed.

Lemma truncate_chunks_in : forall n cs c, In c (truncate_chunks n cs) ->
  exists c0, In c0 cs /\ fst c = fst c0 /\ fst c + zlen (snd c) <= n.
Proof.
  intros n cs c H. unfold truncate_chunks in H. apply in_flat_map in H. destruct H as [c0 [H0 H]].
  exists c0. split; [exact H0|]. rewrite !Z.gtb_ltb in H.
  destruct (Z.ltb_spec n (fst c0 + zlen (snd c0))).
  - destruct (Z.ltb_spec 0 (n - fst c0)); [|destruct H]. destruct H as [H|[]]. subst c. cbn [fst snd].
    split; auto. unfold zlen in *. rewrite firstn_length. lia.
  - destruct H as [H|[]]. subst c. auto.
Qed.

Lemma handle_read_only_pins : forall m dirty off len,
  snd (handle_read m dirty off len) = with_pin m (f_pin (snd (handle_read m dirty off len))).
Proof.
  intros m dirty off len. unfold handle_read.
  destruct (read_chunks m off len) as [[buf total] pin].
  destruct (dirty buf off) as [buf' ms]. reflexivity.
Qed.

(* byte p of the POSIX file f, 0 outside *)
Definition pget (f : list N) (p : Z) : N := match zget f p with Some b => b | None => 0%N end.

Lemma pget_beyond : forall f p, zlen f <= p -> pget f p = 0%N.
Proof. intros f p H. unfold pget. rewrite (proj2 (zget_none f p)) by lia. reflexivity. Qed.

Lemma pget_zget : forall f p, 0 <= p < zlen f -> zget f p = Some (pget f p).
Proof. intros f p H. unfold pget. destruct (zget_in_range f p H) as [b Hb]. rewrite Hb. auto. Qed.

Lemma zlen_pad : forall f n, zlen (pad f n) = Z.max (zlen f) (Z.of_nat n).
Proof. intros. unfold pad, zlen. rewrite app_length, repeat_length. lia. Qed.

Lemma pget_pad : forall f n p, pget (pad f n) p = pget f p.
Proof.
  intros f n p. unfold pget, pad. destruct (Z_lt_dec p 0).
  - rewrite !(proj2 (zget_none _ p)) by lia. reflexivity.
  - rewrite zget_app by lia. destruct (Z.ltb_spec p (zlen f)); auto.
    rewrite zget_repeat0, (proj2 (zget_none f p)) by lia.
    destruct ((0 <=? p - zlen f) && (p - zlen f <? Z.of_nat (n - length f))); auto.
Qed.

Lemma pwrite_spec : forall f off data, 0 <= off ->
  zlen (pwrite f off data) = Z.max (zlen f) (off + zlen data) /\
  forall p, pget (pwrite f off data) p =
            if (off <=? p) && (p <? off + zlen data) then pget data (p - off) else pget f p.
Proof.
  intros f off data Hoff. unfold pwrite.
  set (o := Z.to_nat off). set (f' := pad f o).
  assert (Hf' : zlen f' = Z.max (zlen f) off) by (unfold f'; rewrite zlen_pad; unfold o; lia).
  assert (Hfn : zlen (firstn o f') = off).
  { unfold zlen in *. rewrite firstn_length. unfold o. lia. }
  assert (Hsk : zlen (skipn (o + length data) f') = Z.max 0 (zlen f' - off - zlen data)).
  { unfold zlen in *. rewrite skipn_length. unfold o. lia. }
  pose proof (zlen_nonneg data). pose proof (zlen_nonneg f). split.
  - rewrite !zlen_app, Hfn, Hsk, Hf'. lia.
  - intros p. unfold pget at 1. destruct (Z_lt_dec p 0).
    + replace ((off <=? p) && (p <? off + zlen data)) with false by lia.
      unfold pget. rewrite !(proj2 (zget_none _ p)) by lia. reflexivity.
    + rewrite zget_app, Hfn by lia. destruct (Z.ltb_spec p off).
      * replace ((off <=? p) && (p <? off + zlen data)) with false by lia.
        rewrite zget_firstn. destruct (Z.ltb_spec p (Z.of_nat o)); [|unfold o in *; lia].
        fold (pget f' p). apply pget_pad.
      * rewrite zget_app by lia. destruct (Z.ltb_spec (p - off) (zlen data)).
        { replace ((off <=? p) && (p <? off + zlen data)) with true by lia. reflexivity. }
        { replace ((off <=? p) && (p <? off + zlen data)) with false by lia.
          rewrite zget_skipn by lia.
          replace (Z.of_nat (o + length data) + (p - off - zlen data)) with p by (unfold zlen, o; lia).
          fold (pget f' p). apply pget_pad. }
Qed.

Lemma ptrunc_spec : forall f n, 0 <= n ->
  zlen (ptrunc f n) = n /\ forall p, pget (ptrunc f n) p = if p <? n then pget f p else 0%N.
Proof.
  intros f n Hn. unfold ptrunc. split.
  - pose proof (zlen_pad f (Z.to_nat n)). unfold zlen in *. rewrite firstn_length. lia.
  - intros p. unfold pget at 1. rewrite zget_firstn.
    destruct (Z.ltb_spec p (Z.of_nat (Z.to_nat n))); destruct (Z.ltb_spec p n); try lia; auto.
    fold (pget (pad f (Z.to_nat n)) p). apply pget_pad.
Qed.

(* histories inside the property's domain: writes are non-empty and at non-negative offsets *)
Definition op_ok (o : op) : Prop :=
  match o with
  | Write off data => 0 <= off /\ data <> []
  | Trunc n => 0 <= n
  | Flush => True
  | Read off len => True
  end.

(* g with data written at off *)
Definition override (g : Z -> N) (off : Z) (data : list N) (p : Z) : N :=
  if (off <=? p) && (p <? off + zlen data) then pget data (p - off) else g p.

Lemma pget_override : forall f off data, 0 <= off ->
  forall p, pget (pwrite f off data) p = override (pget f) off data p.
Proof. intros f off data Hoff p. destruct (pwrite_spec f off data Hoff) as [_ H]. rewrite H. reflexivity. Qed.

Section Buffer.
  Variable P : Type.
  Variable fetch : P -> Z -> Z -> list N.
  Variable valid : node P -> Prop.
  Hypothesis H_len : forall t, valid t -> 0 < n_size t /\ zlen (nbytes P fetch t) = n_size t.

  Notation hd := (head_off P).
  Notation te := (tail_end P).

  (* g = the POSIX content as a function (0 beyond the end), A = the POSIX size; the byte at p is the
     buffered one, else that of the last chunk covering p, else 0.  While a page is being added the
     positions off <= p < e it is written to are exempt. *)
  Record binv_except (iv : list (ilist P)) (m : fmeta) (g : Z -> N) (A off e : Z) : Prop := {
    bi_wf : wf P valid iv;
    bi_attr : f_attr m = A;
    bi_A : 0 <= A;
    bi_lists : forall l, In l iv -> 0 <= hd l /\ te l <= A;
    bi_chunks : forall c, In c (f_chunks m) -> 0 <= fst c /\ fst c + zlen (snd c) <= A;
    bi_bytes : forall p, 0 <= p < A -> ~ (off <= p < e) ->
       g p = match cat P fetch iv p with
             | Some b => b
             | None => match cget (f_chunks m) p with Some b => b | None => 0%N end
             end }.
  Definition binv iv m g A : Prop := binv_except iv m g A 0 0.

  Lemma binv_to_except : forall iv m g A off e, binv iv m g A -> binv_except iv m g A off e.
  Proof. intros iv m g A off e [H1 H2 H3 H4 H5 H6]. constructor; auto. intros p Hp _. apply H6; lia. Qed.

  Lemma binv_ext : forall iv m g g' A, (forall p, 0 <= p < A -> g p = g' p) -> binv iv m g A -> binv iv m g' A.
  Proof.
    intros iv m g g' A H [H1 H2 H3 H4 H5 H6]. constructor; auto. intros p Hp Ho. rewrite <- H by auto. auto.
  Qed.

  Lemma binv_pin : forall iv m g A pin, binv iv m g A -> binv iv (with_pin m pin) g A.
  Proof. intros iv m g A pin [H1 H2 H3 H4 H5 H6]. constructor; auto. Qed.

  Lemma binv_file_size : forall iv m g A, binv iv m g A -> file_size (f_attr m) (f_chunks m) = A.
  Proof.
    intros iv m g A [H1 H2 H3 H4 H5 H6]. rewrite H2. apply file_size_attr; auto. intros c Hc. apply H5; auto.
  Qed.

  (* the attribute size grows: the new positions hold 0 *)
  Lemma binv_grow : forall iv m f A', binv iv m (pget f) (zlen f) -> zlen f <= A' ->
    binv iv (set_attr m A') (pget f) A'.
  Proof.
    intros iv m f A' [H1 H2 H3 H4 H5 H6] HA.
    constructor; cbn [set_attr f_attr f_chunks]; auto; try lia.
    - intros l Hl. destruct (H4 l Hl). lia.
    - intros c Hc. destruct (H5 c Hc). lia.
    - intros p Hp Ho. destruct (Z_lt_dec p (zlen f)); [apply H6; lia|].
      rewrite pget_beyond, (cget_beyond _ (zlen f)) by (try lia; intros c Hc; apply H5; auto).
      destruct (cat P fetch iv p) eqn:E; [|reflexivity].
      apply (cat_range P fetch valid H_len iv 0 (zlen f)) in E; auto. lia.
  Qed.

  Lemma binv_trunc : forall iv m f n, binv iv m (pget f) (zlen f) -> 0 <= n ->
    trig_at (map te iv) m (Trunc n) = None ->
    binv iv (truncate m n) (pget (ptrunc f n)) (zlen (ptrunc f n)).
  Proof.
    intros iv m f n I Hn Htr. destruct (ptrunc_spec f n Hn) as [Hlen Hget]. rewrite Hlen.
    cbn [trig_at] in Htr. unfold truncate. rewrite (binv_file_size _ _ _ _ I) in *.
    destruct (Z.ltb_spec n (zlen f)).
    - (* shrinking, but no dirty list reaches beyond the new size *)
      destruct (existsb (fun e => n <? e) (map te iv)) eqn:E1; [discriminate|].
      assert (Hl : forall l, In l iv -> te l <= n).
      { intros l Hl. destruct (Z_le_dec (te l) n); auto. exfalso.
        rewrite (proj2 (existsb_exists _ _)) in E1; [discriminate|].
        exists (te l). split; [apply in_map; auto|lia]. }
      destruct I as [H1 H2 H3 H4 H5 H6]. constructor; cbn [f_attr f_chunks]; auto.
      + intros l Hl'. destruct (H4 l Hl'). auto.
      + intros c Hc'. destruct (truncate_chunks_in n _ c Hc') as [c0 [A1 [A2 A3]]].
        destruct (H5 c0 A1). lia.
      + intros p Hp Ho. rewrite Hget. replace (p <? n) with true by lia.
        rewrite cget_truncate by lia. apply H6; lia.
    - apply (binv_ext _ _ (pget f)); [|exact (binv_grow iv m f n I H)].
      intros p Hp. rewrite Hget. replace (p <? n) with true by lia. reflexivity.
  Qed.

  Lemma binv_except_add_chunk : forall iv m g A off data, binv_except iv m g A off (off + zlen data) ->
    0 <= off -> off + zlen data <= A ->
    binv_except iv (add_chunk m (off, data)) g A off (off + zlen data).
  Proof.
    intros iv m g A off data [H1 H2 H3 H4 H5 H6] Hoff Hend.
    constructor; cbn [add_chunk f_attr f_chunks]; auto.
    - intros c Hc. apply in_app_or in Hc. destruct Hc as [Hc|[Hc|[]]]; auto. subst c. cbn [fst snd]. lia.
    - intros p Hp Hout. rewrite (H6 p Hp Hout), cget_app. cbn [cget fst snd].
      rewrite (proj2 (zget_none data (p - off))) by lia. reflexivity.
  Qed.

  (* once the lists are flushed, the stored chunks resolve to the POSIX file *)
  Lemma binv_content : forall m f, binv [] m (pget f) (zlen f) -> content_of m = f.
  Proof.
    intros m f I. unfold content_of. rewrite (binv_file_size _ _ _ _ I).
    destruct I as [H1 H2 H3 H4 H5 H6].
    destruct (resolve_spec (zlen f) (f_chunks m) H3) as [R1 R2]; [intros c Hc; apply H5; auto|].
    apply zget_ext. intros p. destruct (range_spec 0 (zlen f) p).
    - rewrite R2, pget_zget by lia. f_equal. symmetry. apply H6; lia.
    - transitivity (@None N); [|symmetry]; apply zget_none; lia.
  Qed.
End Buffer.

Arguments bi_wf {P fetch valid iv m g A off e} _.
Arguments bi_attr {P fetch valid iv m g A off e} _.
Arguments binv_to_except {P fetch valid iv m g A} off e _.
Arguments binv_ext {P fetch valid iv m} g {g' A} _ _.
Arguments binv_file_size {P fetch valid iv m g A} _.
Arguments binv_grow {P fetch valid} H_len {iv m f A'} _ _.
Arguments binv_trunc {P fetch valid} H_len {iv m f n} _ _ _.
Arguments binv_content {P fetch valid m f} _.

(* AddInterval of a page, seen through the invariant; the payload and its validity may change with
   the step (the temp file grows) *)
Lemma binv_add : forall P fetch (valid : node P -> Prop) fetch' (valid' : node P -> Prop),
  (forall t, valid t -> 0 < n_size t /\ zlen (nbytes P fetch t) = n_size t) ->
  (forall t, valid' t -> 0 < n_size t /\ zlen (nbytes P fetch' t) = n_size t) ->
  forall iv iv' m g A off data, binv_except P fetch valid iv m g A off (off + zlen data) ->
  wf P valid' iv' ->
  (forall p, cat P fetch' iv' p =
             if (off <=? p) && (p <? off + zlen data) then zget data (p - off) else cat P fetch iv p) ->
  0 <= off -> off + zlen data <= A ->
  binv P fetch' valid' iv' m (override g off data) A.
Proof.
  intros P fetch valid fetch' valid' HL HL' iv iv' m g A off data [H1 H2 H3 H4 H5 H6] W C Hoff Hend.
  constructor; auto.
  - apply (cat_bounds P fetch' valid' HL'); auto. intros p b Hb. rewrite C in Hb.
    destruct (range_spec off (off + zlen data) p); [lia|].
    apply (cat_range P fetch valid HL iv 0 A p b); auto.
  - intros p Hp _. rewrite C. unfold override. destruct (range_spec off (off + zlen data) p).
    + rewrite pget_zget by lia. reflexivity.
    + apply H6; auto.
Qed.

Arguments binv_add {P fetch valid fetch' valid'} _ _ {iv iv' m g A off data} _ _ _ _ _.

Lemma exec_app : forall {S} (step : S -> op -> S * obs) a b s,
  exec S step s (a ++ b) = exec S step (exec S step s a) b.
Proof. intros S step a. induction a as [|o a IH]; intros b s; simpl; auto. Qed.

Lemma exec_preserves : forall {S} (step : S -> op -> S * obs) (Q : S -> Prop),
  (forall s o, Q s -> op_ok o -> Q (fst (step s o))) ->
  forall ops s, Q s -> Forall op_ok ops -> Q (exec S step s ops).
Proof.
  intros S step Q H. induction ops as [|o ops IH]; intros s Hs Hok; simpl; auto.
  inversion Hok; subst. apply IH; auto.
Qed.

Lemma pfile_app : forall a b, pfile (a ++ b) = fold_left pstep b (pfile a).
Proof. intros. unfold pfile. apply fold_left_app. Qed.

(* a step that keeps an invariant I between the state and the POSIX file as long as no trigger is met *)
Section History.
  Variable S : Type.
  Variable step : S -> op -> S * obs.
  Variable ends_of : S -> list Z.
  Variable meta_of : S -> fmeta.
  Variable I : S -> list N -> Prop.
  Hypothesis step_I : forall s f o, I s f -> op_ok o -> trig_at (ends_of s) (meta_of s) o = None ->
    I (fst (step s o)) (pstep f o).

  (* the state in which an op of a trigger-free history is run *)
  Lemma hist_before : forall pre s f o post, I s f -> Forall op_ok (pre ++ o :: post) ->
    trigger S step ends_of meta_of s (pre ++ o :: post) = None ->
    I (exec S step s pre) (fold_left pstep pre f) /\
    trig_at (ends_of (exec S step s pre)) (meta_of (exec S step s pre)) o = None.
  Proof.
    induction pre as [|o' pre IH]; intros s f o post Hi Hok Htr; simpl in *.
    - destruct (trig_at (ends_of s) (meta_of s) o); [discriminate|auto].
    - inversion Hok; subst. destruct (trig_at (ends_of s) (meta_of s) o') eqn:E; [discriminate|]. eauto.
  Qed.
End History.

Arguments hist_before {S step ends_of meta_of I} step_I pre s f o post _ _ _.
