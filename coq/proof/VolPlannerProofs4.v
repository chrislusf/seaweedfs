(* Proofs about model/VolPlanner.v (C15): volume.balance, one balanceSelectedVolume phase.
   An accepted phase is a sequence of accepted steps ([PhaseRun]); what every accepted step
   guarantees and keeps invariant is carried along it by [PhaseRun_inv]. *)
From Coq Require Import List NArith ZArith Bool Arith Lia Permutation.
From SW Require Import proof.ListFacts model.VolPlanner proof.VolPlannerProofs proof.VolPlannerProofs2 proof.VolPlannerProofs3.
Import ListNotations.

Lemma remove_vid_key : forall vid l, remove_vid vid l = remove_key v_id vid l.
Proof. induction l as [|a l IH]; cbn [remove_vid remove_key]; [|rewrite IH]; reflexivity. Qed.

Lemma find_cap_some : forall c id nc, find_cap c id = Some nc ->
  In nc (bc_nodes c) /\ l_node (fst nc) = id.
Proof. intros c id nc. apply (find_key_some (fun n => l_node (fst n))). Qed.

(* what an accepted step says about its source [f], its target [t] and the moved volume [v] *)
Record StepFacts (c : bctx) (st : bstate) (vid dt from to : N) (f t : loc * Z) (v : vol) : Prop := {
  sf_ne : from <> to;
  sf_src : In f (bc_nodes c);
  sf_src_id : l_node (fst f) = from;
  sf_cap : find_cap c to = Some t;
  sf_tgt : In t (bc_nodes c);
  sf_tgt_id : l_node (fst t) = to;
  sf_find : find (fun x => (v_id x =? vid)%N) (b_sel st from) = Some v;
  sf_vol : In v (b_sel st from);
  sf_vid : v_id v = vid;
  sf_dt : v_dt v = dt;
  sf_fits : next_fits c st t = true;
  sf_movable : bmovable st v (fst f) (fst t) = true }.

Lemma balance_step_ok_facts : forall c st vid dt from to, balance_step_ok c st vid dt from to = true ->
  exists f t v, StepFacts c st vid dt from to f t v.
Proof.
  intros c st vid dt from to Hok. unfold balance_step_ok in Hok.
  destruct (find_cap c from) as [f|] eqn:Ef; [|discriminate].
  destruct (find_cap c to) as [t|] eqn:Et; [|discriminate].
  destruct (find (fun x => (v_id x =? vid)%N) (b_sel st from)) as [v|] eqn:Ev; [|discriminate].
  apply find_cap_some in Ef. pose proof (find_cap_some _ _ _ Et) as Ht.
  pose proof (find_some _ _ Ev) as [Hv Hvid]. apply N.eqb_eq in Hvid.
  rewrite !andb_true_iff in Hok. destruct Hok as (((((((Hne & Hdt) & _) & _) & Hfit) & _) & Hmov) & _).
  apply negb_true_iff, N.eqb_neq in Hne. apply N.eqb_eq in Hdt.
  exists f, t, v. constructor; tauto.
Qed.

(* the selection after adjustAfterMove *)
Lemma advance_sel_in : forall (sel : N -> list vol) vid from to v n x,
  In x (upd1 (upd1 sel from (remove_vid vid (sel from))) to (v :: sel to) n) -> x = v \/ In x (sel n).
Proof.
  intros sel vid from to v n x Hx. destruct (N.eq_dec n to) as [->|Hnt].
  - rewrite upd1_eq in Hx. destruct Hx as [<-|Hx]; auto.
  - rewrite upd1_neq in Hx; auto. destruct (N.eq_dec n from) as [->|Hnf].
    + rewrite upd1_eq, remove_vid_key in Hx. right. eapply remove_key_incl; eauto.
    + rewrite upd1_neq in Hx; auto.
Qed.

Lemma balance_advance_w : forall s st vid dt from to,
  existsb (fun x => (v_id x =? vid)%N) (b_sel st from) = true ->
  b_w (balance_advance s st vid dt from to) = apply_step s (b_w st) (Move vid dt from to).
Proof.
  intros. unfold balance_advance.
  destruct (find (fun x => (v_id x =? vid)%N) (b_sel st from)) eqn:E; [reflexivity|].
  exfalso. apply existsb_exists in H. destruct H as [x [H1 H2]].
  pose proof (find_none _ _ E x H1) as Hn. cbn beta in Hn. congruence.
Qed.

Inductive PhaseRun (s : snapshot) (c : bctx) : bstate -> list step -> bstate -> Prop :=
| pr_stop : forall st, PhaseRun s c st [] st
| pr_move : forall st vid dt from to used st',
    existsb (fun x => (v_id x =? vid)%N) (b_sel st from) = true ->
    balance_step_ok c st vid dt from to = true ->
    PhaseRun s c (balance_advance s st vid dt from to) used st' ->
    PhaseRun s c st (Move vid dt from to :: used) st'.

(* the rest of the plan is not for this phase: it does not start with a move of a volume
   selected on its source *)
Definition stops (st : bstate) (tr : list step) : Prop :=
  match tr with
  | Move vid _ from _ :: _ => existsb (fun x => (v_id x =? vid)%N) (b_sel st from) = false
  | _ => True
  end.

Lemma phase_finish : forall c st tr (r : bstate * list step),
  match bc_nodes c with
  | [] => None
  | _ => if balance_terminal c st then Some (st, tr) else None
  end = Some r -> r = (st, tr).
Proof.
  intros c st tr r H. destruct (bc_nodes c); [discriminate|].
  destruct (balance_terminal c st); [|discriminate]. congruence.
Qed.

Lemma balance_phase_run : forall s c tr st st' tr',
  balance_phase s c st tr = Some (st', tr') ->
  exists used, tr = used ++ tr' /\ PhaseRun s c st used st' /\ stops st' tr'.
Proof.
  intros s c. induction tr as [|stp tr IH]; intros st st' tr' H; cbn [balance_phase] in H.
  - apply phase_finish in H. inversion H; subst. exists []. repeat split. constructor.
  - destruct stp as [vid dt from to| |];
      try (apply phase_finish in H; inversion H; subst; exists []; repeat split; constructor).
    destruct (existsb (fun x => (v_id x =? vid)%N) (b_sel st from)) eqn:Ein.
    + destruct (balance_step_ok c st vid dt from to) eqn:Eok; [|discriminate].
      destruct (IH _ _ _ H) as (used & -> & Hr & Hs).
      exists (Move vid dt from to :: used). split; [reflexivity|]. split; [constructor; assumption|exact Hs].
    + apply phase_finish in H. inversion H; subst. exists []. split; [reflexivity|]. split; [constructor|exact Ein].
Qed.

(* [I] is kept and [Q] is guaranteed by every accepted step: so along the run *)
Lemma PhaseRun_inv : forall s c (I : bstate -> Prop) (Q : world -> step -> Prop),
  (forall st vid dt from to, I st -> balance_step_ok c st vid dt from to = true ->
     Q (b_w st) (Move vid dt from to) /\ I (balance_advance s st vid dt from to)) ->
  forall st used st', PhaseRun s c st used st' -> I st ->
  I st' /\ Steps Q s (b_w st) used /\ b_w st' = run_trace s (b_w st) used.
Proof.
  intros s c I Q Hstep st used st' H.
  induction H as [st|st vid dt from to used st' Hin Hok _ IH]; intros HI.
  - repeat split. exact HI.
  - destruct (Hstep _ _ _ _ _ HI Hok) as [Hq HI']. destruct (IH HI') as (HI'' & Hs & Hw).
    rewrite balance_advance_w in Hs, Hw by exact Hin.
    split; [exact HI''|]. split; [split; assumption|exact Hw].
Qed.

Lemma phase_end_run : forall s c st used st' tr', PhaseRun s c st used st' -> stops st' tr' ->
  balance_phase_end s c st (used ++ tr') = (st', tr').
Proof.
  intros s c st used st' tr' H Hs. induction H as [st|st vid dt from to used st' Hin _ _ IH].
  - destruct tr' as [|[vid dt from to| |] tr']; cbn [app balance_phase_end]; try reflexivity.
    cbn [stops] in Hs. rewrite Hs. reflexivity.
  - cbn [app balance_phase_end]. rewrite Hin. apply IH. exact Hs.
Qed.

(* what the books of a phase and the cluster agree on: every selected volume is where the books
   say; a volume no phase has selected so far is where the snapshot says.  [P]: the volumes
   selected by this phase or an earlier one *)
Record BInv (s : snapshot) (P : vol -> bool) (st : bstate) : Prop := {
  bi_w : WInv s (b_w st);
  bi_n : NodesOk (b_w st);
  bi_sel : forall n v, In v (b_sel st n) ->
           In {| r_loc := loc_of s n; r_info := v |} (w_reps (b_w st) (v_id v));
  bi_nd : forall n, NoDup (map v_id (b_sel st n));
  bi_P : forall n v, In v (b_sel st n) -> P v = true;
  bi_rest : forall n v, In n s -> In v (all_vols n) -> P v = false ->
            In {| r_loc := n_loc n; r_info := v |} (w_reps (b_w st) (v_id v)) }.

Definition CtxOk (s : snapshot) (c : bctx) : Prop :=
  forall nc, In nc (bc_nodes c) -> In (fst nc) (cluster_locs s).

Lemma balance_step_safe : forall s P c st vid dt from to,
  NoDup (map n_id s) -> CtxOk s c -> BInv s P st ->
  balance_step_ok c st vid dt from to = true ->
  MoveOk s (b_w st) (Move vid dt from to) /\ BInv s P (balance_advance s st vid dt from to).
Proof.
  intros s P c st vid dt from to Hnd Hctx HI Hok.
  destruct (balance_step_ok_facts _ _ _ _ _ _ Hok) as (f & t & v & F).
  destruct F as [Hne Hf Hfid _ Ht Htid Ev Hv Hvid _ _ Hmov].
  assert (loc_of s from = fst f) as Efl by (rewrite <- Hfid; apply loc_of_cl; auto).
  assert (loc_of s to = fst t) as Etl by (rewrite <- Htid; apply loc_of_cl; auto).
  unfold bmovable, movable in Hmov. apply andb_true_iff in Hmov. destruct Hmov as [Hg Hnsel].
  destruct HI as [HW HN Hsel Hnds HP Hrest].
  pose proof (Hsel from v Hv) as Hin.
  destruct (move_step_safe s (b_w st) dt from to v Hnd HW HN)
    as [Hm [HW' [HN' [Hmoved HK]]]]; auto.
  { rewrite Etl. apply Hctx; auto. }
  { unfold move_guard. rewrite Efl, Etl. exact Hg. }
  rewrite Hvid in *.
  split; [exact Hm|].
  unfold balance_advance. rewrite Ev.
  set (w' := apply_step s (b_w st) (Move vid dt from to)) in *.
  assert (forall n, n <> from -> loc_of s n <> loc_of s from) as Hlocne.
  { intros n Hn E. apply Hn. rewrite <- (loc_of_node s n), E. apply loc_of_node. }
  constructor; cbn [b_sel b_w]; auto.
  - intros n x Hx. destruct (N.eq_dec n to) as [->|Hnt].
    + rewrite upd1_eq in Hx. destruct Hx as [<-|Hx]; [rewrite Hvid; exact Hmoved|].
      apply HK; [apply Hsel; auto|right; apply Hlocne; auto].
    + rewrite upd1_neq in Hx; auto. destruct (N.eq_dec n from) as [->|Hnf].
      * rewrite upd1_eq, remove_vid_key in Hx. apply HK; [apply Hsel; eapply remove_key_incl; eauto|left].
        intros E. apply (proj2 (remove_key_nodup v_id vid _ (Hnds from))). apply in_map_iff. exists x. auto.
      * rewrite upd1_neq in Hx; auto. apply HK; [apply Hsel; auto|right; apply Hlocne; auto].
  - intros n. destruct (N.eq_dec n to) as [->|Hnt].
    + rewrite upd1_eq. cbn [map]. constructor; auto.
      intro Hi. apply negb_true_iff in Hnsel. rewrite Htid in Hnsel.
      assert (existsb (fun x => (v_id x =? vid)%N) (b_sel st to) = true); [|congruence].
      apply in_map_iff in Hi. destruct Hi as [x [E Hx]]. apply existsb_exists. exists x. split; auto.
      apply N.eqb_eq. congruence.
    + rewrite upd1_neq; auto. destruct (N.eq_dec n from) as [->|Hnf].
      * rewrite upd1_eq, remove_vid_key. apply remove_key_nodup; auto.
      * rewrite upd1_neq; auto.
  - intros n x Hx. apply advance_sel_in in Hx. destruct Hx as [->|Hx]; eauto.
  - intros n x Hn Hx HPx. pose proof (Hrest n x Hn Hx HPx) as Hr.
    apply HK; auto. destruct (N.eq_dec (v_id x) vid) as [Exv|Exv]; [right|left; auto].
    cbn [r_loc]. intro El.
    assert ({| r_loc := n_loc n; r_info := x |} = {| r_loc := loc_of s from; r_info := v |}) as Eq.
    { apply (NoDup_map_inj (fun r => l_node (r_loc r)) (w_reps (b_w st) vid)); auto.
      - rewrite <- map_map. apply HN.
      - rewrite <- Exv. exact Hr.
      - cbn [r_loc]. rewrite El. reflexivity. }
    inversion Eq; subst x. rewrite (HP from v Hv) in HPx. discriminate.
Qed.
