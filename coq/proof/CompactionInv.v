(* C04: the .idx log and the MemDb as maps, the records of a .dat, the structural invariant
   [cinv] of a running volume with its .idx log, and what one step does to it. *)
From Coq Require Import List NArith ZArith Bool Lia.
From SW Require Import model.Volume model.Compaction.
From SW Require Export proof.VolumeFacts.
Import ListNotations.
Local Open Scope N_scope.

Lemma actual_size_mod8 : forall s, actual_size s mod 8 = 0.
Proof.
  intro s. unfold actual_size.
  set (raw := 16 + s + 4 + 8).
  assert (Hm : raw mod 8 < 8) by (apply N.mod_lt; lia).
  pose proof (N.div_mod raw 8 ltac:(lia)) as Hd.
  replace (raw + (8 - raw mod 8)) with ((raw / 8 + 1) * 8) by lia.
  apply N.mod_mul. lia.
Qed.

Lemma actual_size_0 : actual_size 0 = 32.
Proof. reflexivity. Qed.

Lemma size_valid_pos : forall z, size_valid z = true <-> (0 < z)%Z.
Proof. intro z. unfold size_valid. split; intro H; [apply andb_prop in H; lia | apply andb_true_intro; lia]. Qed.

Lemma size_deleted_neg : forall z, size_deleted z = true <-> (z < 0)%Z.
Proof. intro z. unfold size_deleted. split; intro H; [apply orb_prop in H; lia | apply orb_true_iff; lia]. Qed.

Lemma size_deleted_nonneg : forall z, size_deleted z = false <-> (0 <= z)%Z.
Proof. intro z. unfold size_deleted. rewrite orb_false_iff, Z.ltb_ge, Z.eqb_neq. lia. Qed.

Lemma size_invalid_neg : forall z, size_valid z = false -> z <> 0%Z -> (z < 0)%Z.
Proof.
  intros z V Hz. destruct (Z_lt_le_dec z 0) as [Hn|Hn]; [exact Hn|].
  rewrite (proj2 (size_valid_pos z)) in V by lia. discriminate.
Qed.

Lemma entry_dead_false : forall e, entry_dead e = false <-> ie_off e <> 0 /\ (0 <= ie_size e)%Z.
Proof. intro e. unfold entry_dead. rewrite orb_false_iff, N.eqb_neq, size_deleted_nonneg. reflexivity. Qed.

Lemma idx_get_key : forall l k e, idx_get l k = Some e -> ie_key e = k.
Proof.
  induction l as [|x l IH]; simpl; intros k e H; [discriminate|].
  destruct (ie_key x =? k) eqn:E; [inversion H; subst; apply N.eqb_eq; exact E | eauto].
Qed.

Lemma idx_get_In : forall l k e, idx_get l k = Some e -> In e l.
Proof.
  induction l as [|x l IH]; simpl; intros k e H; [discriminate|].
  destruct (ie_key x =? k); [inversion H; auto | right; eauto].
Qed.

Lemma idx_get_app : forall l1 l2 k,
  idx_get (l1 ++ l2) k = match idx_get l1 k with Some e => Some e | None => idx_get l2 k end.
Proof.
  induction l1 as [|x l1 IH]; simpl; intros l2 k; [reflexivity|].
  destruct (ie_key x =? k); [reflexivity | apply IH].
Qed.

Lemma idx_get_none_iff : forall l k, idx_get l k = None <-> ~ In k (map ie_key l).
Proof.
  induction l as [|x l IH]; simpl; intro k; [tauto|].
  destruct (ie_key x =? k) eqn:E.
  - apply N.eqb_eq in E. split; [discriminate | intro H; exfalso; apply H; auto].
  - apply N.eqb_neq in E. rewrite IH. tauto.
Qed.

Lemma idx_get_nodup : forall l e, NoDup (map ie_key l) -> In e l -> idx_get l (ie_key e) = Some e.
Proof.
  induction l as [|x l IH]; simpl; intros e Hnd Hin; [contradiction|].
  inversion Hnd as [|? ? Hx Hnd']; subst.
  destruct Hin as [->|Hin]; [rewrite N.eqb_refl; reflexivity|].
  destruct (ie_key x =? ie_key e) eqn:E.
  - apply N.eqb_eq in E. exfalso. apply Hx. rewrite E. apply in_map. exact Hin.
  - apply IH; assumption.
Qed.

Lemma idx_get_rev : forall l k, NoDup (map ie_key l) -> idx_get (rev l) k = idx_get l k.
Proof.
  intros l k Hnd.
  assert (Hnd' : NoDup (map ie_key (rev l))) by (rewrite map_rev; apply NoDup_rev; exact Hnd).
  destruct (idx_get l k) as [e|] eqn:E.
  - pose proof (idx_get_key _ _ _ E) as Hk. pose proof (idx_get_In _ _ _ E) as Hin.
    rewrite <- Hk. apply idx_get_nodup; [exact Hnd' | apply in_rev; rewrite rev_involutive; exact Hin].
  - apply idx_get_none_iff. apply idx_get_none_iff in E. rewrite map_rev. intro H. apply E. apply in_rev. exact H.
Qed.

Lemma idx_get_filter : forall f l k, NoDup (map ie_key l) ->
  idx_get (filter f l) k = match idx_get l k with Some e => if f e then Some e else None | None => None end.
Proof.
  induction l as [|x l IH]; simpl; intros k Hnd; [reflexivity|].
  inversion Hnd as [|? ? Hx Hnd']; subst.
  destruct (ie_key x =? k) eqn:E.
  - apply N.eqb_eq in E. destruct (f x) eqn:Fx; simpl; [rewrite (proj2 (N.eqb_eq _ _) E); reflexivity|].
    rewrite IH by exact Hnd'.
    assert (Hn : idx_get l k = None) by (apply idx_get_none_iff; rewrite <- E; exact Hx).
    rewrite Hn. reflexivity.
  - destruct (f x); simpl; [rewrite E|]; apply IH; exact Hnd'.
Qed.

Lemma db_get_set : forall db e k, idx_get (db_set db e) k = if ie_key e =? k then Some e else idx_get db k.
Proof.
  induction db as [|x db IH]; simpl; intros e k; [reflexivity|].
  destruct (ie_key e <? ie_key x); simpl; [reflexivity|].
  destruct (N.eqb_spec (ie_key e) (ie_key x)) as [E|E]; simpl; [rewrite <- E; destruct (ie_key e =? k); reflexivity|].
  rewrite IH. destruct (N.eqb_spec (ie_key x) k) as [<-|]; [|reflexivity].
  rewrite (proj2 (N.eqb_neq _ _) E). reflexivity.
Qed.

Lemma db_get_del : forall db k k', idx_get (db_del db k) k' = if k =? k' then None else idx_get db k'.
Proof.
  induction db as [|x db IH]; simpl; intros k k'; [destruct (k =? k'); reflexivity|].
  destruct (N.eqb_spec (ie_key x) k) as [<-|E]; simpl; rewrite IH; [destruct (ie_key x =? k'); reflexivity|].
  destruct (N.eqb_spec (ie_key x) k') as [<-|]; [|reflexivity].
  rewrite (proj2 (N.eqb_neq k (ie_key x))) by congruence. reflexivity.
Qed.

Inductive asc : memdb -> Prop :=
| asc_nil : asc []
| asc_one x : asc [x]
| asc_cons x y l : ie_key x < ie_key y -> asc (y :: l) -> asc (x :: y :: l).

Lemma asc_tail : forall x l, asc (x :: l) -> asc l.
Proof. intros x l H. inversion H; subst; [constructor | assumption]. Qed.

Lemma asc_head_lt : forall l x y, asc (x :: l) -> In y l -> ie_key x < ie_key y.
Proof.
  induction l as [|z l IH]; intros x y H Hin; [contradiction|].
  inversion H; subst. destruct Hin as [->|Hin]; [assumption|].
  assert (ie_key z < ie_key y) by (apply IH; assumption). lia.
Qed.

Lemma asc_nodup : forall l, asc l -> NoDup (map ie_key l).
Proof.
  induction l as [|x l IH]; intro H; simpl; [constructor|].
  constructor; [| apply IH; eapply asc_tail; eauto].
  intro Hin. apply in_map_iff in Hin. destruct Hin as [y [Hk Hy]].
  pose proof (asc_head_lt _ _ _ H Hy). lia.
Qed.

Lemma asc_cons_intro : forall x l, (forall y, In y l -> ie_key x < ie_key y) -> asc l -> asc (x :: l).
Proof. intros x [|y l] H A; constructor; [apply H; left; reflexivity | exact A]. Qed.

Lemma db_set_In : forall db e y, In y (db_set db e) -> y = e \/ In y db.
Proof.
  induction db as [|x db IH]; simpl; intros e y H; [destruct H as [<-|[]]; auto|].
  destruct (ie_key e <? ie_key x); [destruct H as [<-|H]; auto|].
  destruct (ie_key e =? ie_key x); (destruct H as [<-|H]; [auto|]); [auto|].
  destruct (IH _ _ H); auto.
Qed.

Lemma db_set_asc : forall db e, asc db -> asc (db_set db e).
Proof.
  induction db as [|x db IH]; simpl; intros e H; [constructor|].
  destruct (ie_key e <? ie_key x) eqn:L; [apply N.ltb_lt in L; constructor; assumption|]. apply N.ltb_ge in L.
  destruct (ie_key e =? ie_key x) eqn:E.
  - apply N.eqb_eq in E. apply asc_cons_intro; [|eapply asc_tail; eauto].
    intros y Hy. rewrite E. apply (asc_head_lt db x y H Hy).
  - apply N.eqb_neq in E. apply asc_cons_intro; [|apply IH; eapply asc_tail; eauto].
    intros y Hy. destruct (db_set_In _ _ _ Hy) as [->|Hy']; [lia | apply (asc_head_lt db x y H Hy')].
Qed.

Lemma asc_filter : forall f l, asc l -> asc (filter f l).
Proof.
  induction l as [|x l IH]; simpl; intro H; [constructor|].
  assert (Ht : asc (filter f l)) by (apply IH; eapply asc_tail; eauto).
  destruct (f x); [|exact Ht]. apply asc_cons_intro; [|exact Ht].
  intros y Hy. apply filter_In in Hy. apply (asc_head_lt l x y H). tauto.
Qed.

Lemma db_del_asc : forall db k, asc db -> asc (db_del db k).
Proof. intros db k. apply asc_filter. Qed.

(* MemDb.LoadFromIdx and WriteSortedFileFromIdx (model/ECVolume.v) replay the .idx in the same
   way and differ in what counts as a deletion ([db_load], and [ecx_of] in proof/ECVolumeProofs.v) *)
Definition replay (dead : ientry -> bool) (idx : idxlog) : memdb :=
  fold_right (fun e db => if dead e then db_del db (ie_key e) else db_set db e) [] idx.

Lemma replay_get : forall dead idx k,
  idx_get (replay dead idx) k = match idx_get idx k with
                                | Some e => if dead e then None else Some e
                                | None => None
                                end.
Proof.
  intro dead. induction idx as [|x idx IH]; simpl; intro k; [reflexivity|].
  destruct (dead x) eqn:Dx.
  - rewrite db_get_del. destruct (ie_key x =? k); [rewrite Dx; reflexivity | apply IH].
  - rewrite db_get_set. destruct (ie_key x =? k); [rewrite Dx; reflexivity | apply IH].
Qed.

Lemma replay_asc : forall dead idx, asc (replay dead idx).
Proof.
  intro dead. induction idx as [|x idx IH]; simpl; [constructor|].
  destruct (dead x); [apply db_del_asc | apply db_set_asc]; exact IH.
Qed.

Lemma replay_in : forall dead idx e, In e (replay dead idx) -> idx_get idx (ie_key e) = Some e /\ dead e = false.
Proof.
  intros dead idx e Hin. pose proof (idx_get_nodup _ _ (asc_nodup _ (replay_asc dead idx)) Hin) as G.
  rewrite replay_get in G. destruct (idx_get idx (ie_key e)) as [x|]; [|discriminate].
  destruct (dead x) eqn:D; [discriminate|]. inversion G; subst. auto.
Qed.

Lemma db_load_get : forall idx k,
  idx_get (db_load idx) k = match idx_get idx k with
                            | Some e => if entry_dead e then None else Some e
                            | None => None
                            end.
Proof. exact (replay_get entry_dead). Qed.

Lemma db_load_asc : forall idx, asc (db_load idx).
Proof. exact (replay_asc entry_dead). Qed.

Lemma db_set_append : forall db e, (forall x, In x db -> ie_key x < ie_key e) -> db_set db e = db ++ [e].
Proof.
  induction db as [|x db IH]; simpl; intros e H; [reflexivity|].
  assert (Hx : ie_key x < ie_key e) by (apply H; auto).
  destruct (ie_key e <? ie_key x) eqn:L; [apply N.ltb_lt in L; lia|].
  destruct (ie_key e =? ie_key x) eqn:E; [apply N.eqb_eq in E; lia|].
  f_equal. apply IH. intros y Hy. apply H. auto.
Qed.

Inductive sorted_recs : list rec -> N -> Prop :=
| sr_nil e : 8 <= e -> sorted_recs [] e
| sr_cons r l e : r_off r + actual_size (r_size r) <= e -> sorted_recs l (r_off r) -> sorted_recs (r :: l) e.

Lemma sorted_recs_weaken : forall l e e', sorted_recs l e -> e <= e' -> sorted_recs l e'.
Proof. intros l e e' H Hle. inversion H; subst; constructor; try assumption; lia. Qed.

Lemma sorted_recs_end : forall l e, sorted_recs l e -> 8 <= e.
Proof.
  induction l as [|r l IH]; intros e H; inversion H; subst; [assumption|].
  apply IH in H4. pose proof (actual_size_pos (r_size r)). lia.
Qed.

Lemma sorted_recs_bound : forall l e r, sorted_recs l e -> In r l ->
  8 <= r_off r /\ r_off r + actual_size (r_size r) <= e.
Proof.
  induction l as [|x l IH]; intros e r H Hin; [contradiction|].
  inversion H; subst. destruct Hin as [->|Hin].
  - split; [eapply sorted_recs_end; eauto | assumption].
  - destruct (IH _ _ H4 Hin) as [A B]. split; [exact A|].
    pose proof (actual_size_pos (r_size x)). lia.
Qed.

Lemma find_rec_off : forall l off r, find_rec l off = Some r -> r_off r = off.
Proof.
  induction l as [|x l IH]; simpl; intros off r H; [discriminate|].
  destruct (r_off x =? off) eqn:E; [inversion H; subst; apply N.eqb_eq; exact E | eauto].
Qed.

Lemma find_rec_In : forall l off r, find_rec l off = Some r -> In r l.
Proof.
  induction l as [|x l IH]; simpl; intros off r H; [discriminate|].
  destruct (r_off x =? off); [inversion H; auto | right; eauto].
Qed.

Lemma find_rec_sorted : forall l e r, sorted_recs l e -> In r l -> find_rec l (r_off r) = Some r.
Proof.
  induction l as [|x l IH]; intros e r H Hin; [contradiction|].
  inversion H; subst. simpl. destruct Hin as [->|Hin]; [rewrite N.eqb_refl; reflexivity|].
  destruct (r_off x =? r_off r) eqn:E.
  - apply N.eqb_eq in E. destruct (sorted_recs_bound _ _ _ H4 Hin) as [_ B].
    pose proof (actual_size_pos (r_size r)). lia.
  - eapply IH; eauto.
Qed.

Lemma find_rec_bound : forall l e off r, sorted_recs l e -> find_rec l off = Some r ->
  8 <= off /\ off + actual_size (r_size r) <= e.
Proof.
  intros l e off r H Hf. rewrite <- (find_rec_off _ _ _ Hf).
  apply (sorted_recs_bound _ _ _ H (find_rec_In _ _ _ Hf)).
Qed.

Lemma find_rec_none_ge : forall l e off, sorted_recs l e -> e <= off -> find_rec l off = None.
Proof.
  intros l e off H Hle. destruct (find_rec l off) as [r|] eqn:E; [|reflexivity].
  destruct (find_rec_bound _ _ _ _ H E) as [_ B]. pose proof (actual_size_pos (r_size r)). lia.
Qed.

Lemma find_rec_app_old : forall new old off r,
  find_rec old off = Some r -> (forall x, In x new -> r_off x <> off) -> find_rec (new ++ old) off = Some r.
Proof.
  induction new as [|x new IH]; simpl; intros old off r H Hn; [exact H|].
  destruct (r_off x =? off) eqn:E; [apply N.eqb_eq in E; exfalso; apply (Hn x); auto|].
  apply IH; [exact H | intros y Hy; apply Hn; auto].
Qed.

Lemma find_rec_keep : forall rs e new off r, sorted_recs rs e -> r_off new = e ->
  find_rec rs off = Some r -> find_rec (new :: rs) off = Some r.
Proof.
  intros rs e new off r Hs Hn Hf. simpl. destruct (r_off new =? off) eqn:E; [|exact Hf].
  apply N.eqb_eq in E. destruct (find_rec_bound _ _ _ _ Hs Hf) as [_ Hb]. pose proof (actual_size_pos (r_size r)). lia.
Qed.

(* the needle map and the .idx log agree on key k: the newest .idx entry of k is the map entry,
   a live one points at a record of that key and size; a deleted key has a tombstone entry *)
Definition ent_ok (s : cvol) (k : N) : Prop :=
  match nm_get (nm (cv s)) k with
  | None => idx_get (cidx s) k = None
  | Some nv =>
      nv_off nv < dat_end (cv s) /\
      if (0 <=? nv_size nv)%Z then
        idx_get (cidx s) k = Some {| ie_key := k; ie_off := nv_off nv; ie_size := nv_size nv |}
        /\ exists r, find_rec (recs (cv s)) (nv_off nv) = Some r /\ Z.of_N (r_size r) = nv_size nv /\ n_id (r_n r) = k
      else exists o, idx_get (cidx s) k = Some {| ie_key := k; ie_off := o; ie_size := (-1)%Z |}
  end.

Record cinv (s : cvol) : Prop := {
  ci_sorted : sorted_recs (recs (cv s)) (dat_end (cv s));
  ci_ent : forall k, ent_ok s k;
  ci_idx_off : forall e, In e (cidx s) -> ie_off e < dat_end (cv s)
}.

Lemma cinv_init : cinv cinit.
Proof.
  constructor; simpl.
  - constructor. lia.
  - intro k. unfold ent_ok. simpl. reflexivity.
  - intros e [].
Qed.

Lemma nm_get_set_eq : forall m k v, nm_get (nm_set m k v) k = Some v.
Proof. exact nm_get_same. Qed.
Lemma nm_get_set_neq : forall m k k' v, k <> k' -> nm_get (nm_set m k v) k' = nm_get m k'.
Proof. intros m k k' v. exact (nm_get_other m k' k v). Qed.
Lemma nm_get_delete_neq : forall m k k', k <> k' -> nm_get (nm_delete m k) k' = nm_get m k'.
Proof.
  intros m k k' H. unfold nm_delete. destruct (nm_get m k) as [v|]; [|reflexivity].
  destruct (size_valid (nv_size v)); [|reflexivity]. simpl. apply N.eqb_neq in H. rewrite H. reflexivity.
Qed.

(* a record appended at the end of the file leaves the entries of other keys alone *)
Lemma ent_ok_frame : forall s s' k,
  nm_get (nm (cv s')) k = nm_get (nm (cv s)) k ->
  idx_get (cidx s') k = idx_get (cidx s) k ->
  dat_end (cv s) <= dat_end (cv s') ->
  (forall off r, off < dat_end (cv s) -> find_rec (recs (cv s)) off = Some r -> find_rec (recs (cv s')) off = Some r) ->
  ent_ok s k -> ent_ok s' k.
Proof.
  intros s s' k Hnm Hidx Hend Hrec H. unfold ent_ok in *. rewrite Hnm, Hidx.
  destruct (nm_get (nm (cv s)) k) as [nv|]; [|exact H].
  destruct H as [Hoff H]. split; [lia|].
  destruct (0 <=? nv_size nv)%Z; [|exact H].
  destruct H as [Hi [r [Hf [Hs Hid]]]]. split; [exact Hi|]. exists r. repeat split; auto.
Qed.

Definition put_state (s : cvol) (n : needle) (t : N) : cvol :=
  {| cv := with_nm (fst (fst (append (cv s) n t)))
                   (nm_set (nm (fst (fst (append (cv s) n t)))) (n_id n)
                           {| nv_off := dat_end (cv s); nv_size := Z.of_N (needle_size n) |});
     cidx := {| ie_key := n_id n; ie_off := dat_end (cv s); ie_size := Z.of_N (needle_size n) |} :: cidx s |}.

Definition del_state (s : cvol) (id c t : N) : cvol :=
  {| cv := with_nm (fst (fst (append (cv s) (tombstone id c) t)))
                   (nm_delete (nm (fst (fst (append (cv s) (tombstone id c) t)))) id);
     cidx := {| ie_key := id; ie_off := dat_end (cv s); ie_size := (-1)%Z |} :: cidx s |}.

Definition pad_state (s : cvol) (off : N) : cvol :=
  {| cv := {| recs := recs (cv s); nm := nm (cv s); dat_end := round8 off;
              no_write_or_delete := no_write_or_delete (cv s); no_write_can_delete := no_write_can_delete (cv s) |};
     cidx := cidx s |}.

Inductive step_adds (vt : N * N) (s : cvol) (ev : cevent) : cvol -> Prop :=
| sa_same : step_adds vt s ev s
| sa_put n : snd ev = CWrite n -> step_adds vt s ev (put_state s (adjust vt n) (fst ev))
| sa_del id c nv : snd ev = CDelete id c -> nm_get (nm (cv s)) id = Some nv -> size_valid (nv_size nv) = true ->
    step_adds vt s ev (del_state s id c (fst ev))
| sa_pad off : snd ev = CPad off -> dat_end (cv s) < round8 off -> step_adds vt s ev (pad_state s off).

Lemma c_step_adds : forall vt s ev, cinv s -> step_adds vt s ev (fst (c_step vt s ev)).
Proof.
  intros vt s [t o] H. destruct o as [n|id c|off]; unfold c_step; cbn [fst snd].
  - unfold c_write. destruct (is_read_only (cv s)); [apply sa_same|].
    unfold c_do_write. set (n' := adjust vt n).
    destruct (ttl_str_empty vt && is_file_unchanged (cv s) n'); [apply sa_same|].
    destruct (match nm_get (nm (cv s)) (n_id n') with
              | Some nv => match find_rec (recs (cv s)) (nv_off nv) with
                           | Some r => if n_cookie (r_n r) =? n_cookie n' then ENone else ECookie
                           | None => EOther end
              | None => ENone end) eqn:Ck; try apply sa_same.
    (* the record goes to the end of the file, behind the one the map points at *)
    assert (Hnew : (match nm_get (nm (cv s)) (n_id n') with Some nv => nv_off nv <? dat_end (cv s) | None => true end) = true).
    { pose proof (ci_ent _ H (n_id n')) as He. unfold ent_ok in He.
      destruct (nm_get (nm (cv s)) (n_id n')) as [nv|]; [|reflexivity].
      destruct He as [Ho _]. apply N.ltb_lt. exact Ho. }
    change (snd (fst (append (cv s) n' t))) with (dat_end (cv s)).
    change (snd (append (cv s) n' t)) with (needle_size n').
    rewrite Hnew. exact (sa_put vt s (t, CWrite n) n eq_refl).
  - unfold c_delete. destruct (no_write_or_delete (cv s)); [apply sa_same|].
    destruct (nm_get (nm (cv s)) id) as [nv|] eqn:G; [|apply sa_same].
    destruct (size_valid (nv_size nv)) eqn:V; [|apply sa_same].
    exact (sa_del vt s (t, CDelete id c) id c nv eq_refl G V).
  - unfold c_pad. destruct (dat_end (cv s) <? round8 off) eqn:L; [|apply sa_same].
    apply (sa_pad vt s (t, CPad off) off eq_refl). apply N.ltb_lt. exact L.
Qed.

Lemma round8_ge : forall x, x <= round8 x.
Proof. intro x. unfold round8. apply N.le_add_r. Qed.

Lemma step_adds_inv : forall vt s ev s', cinv s -> step_adds vt s ev s' -> cinv s'.
Proof.
  intros vt s ev s' [Hs He Hi] A. destruct A as [|n _|id c nv _ G V|off _ L].
  - constructor; assumption.
  - set (n' := adjust vt n). pose proof (actual_size_pos (needle_size n')) as Hp. constructor; simpl.
    + constructor; simpl; [lia | exact Hs].
    + intro k. destruct (N.eq_dec (n_id n') k) as [<-|Hk].
      * unfold ent_ok. simpl. rewrite !N.eqb_refl. simpl. split; [lia|].
        rewrite (proj2 (Z.leb_le 0 (Z.of_N (needle_size n')))) by lia.
        split; [reflexivity|]. eexists. split; [reflexivity|]. simpl. auto.
      * apply N.eqb_neq in Hk. eapply ent_ok_frame; [| | | | apply (He k)]; simpl; try (rewrite Hk; reflexivity); [lia|].
        intros off r Hoff Hf. destruct (dat_end (cv s) =? off) eqn:E; [apply N.eqb_eq in E; lia | exact Hf].
    + intros e [<-|Hin]; simpl; [lia|]. specialize (Hi e Hin). lia.
  - pose proof (He id) as Hid. unfold ent_ok in Hid. rewrite G in Hid. destruct Hid as [Hoff _].
    pose proof (proj1 (size_valid_pos _) V) as Vp.
    pose proof (actual_size_pos (needle_size (tombstone id c))) as Hp. constructor; simpl.
    + constructor; simpl; [lia | exact Hs].
    + intro k. destruct (N.eq_dec id k) as [<-|Hk].
      * unfold ent_ok. simpl. unfold nm_delete. rewrite G, V. simpl. rewrite !N.eqb_refl. simpl. split; [lia|].
        rewrite (proj2 (Z.leb_gt 0 (- nv_size nv))) by lia. eexists. reflexivity.
      * eapply ent_ok_frame; [| | | | apply (He k)]; simpl.
        -- apply nm_get_delete_neq. exact Hk.
        -- apply N.eqb_neq in Hk. rewrite Hk. reflexivity.
        -- lia.
        -- intros off r Ho Hf. destruct (dat_end (cv s) =? off) eqn:E; [apply N.eqb_eq in E; lia | exact Hf].
    + intros e [<-|Hin]; simpl; [lia|]. specialize (Hi e Hin). lia.
  - constructor; simpl.
    + eapply sorted_recs_weaken; [exact Hs | lia].
    + intro k. eapply ent_ok_frame; [| | | | apply (He k)]; simpl; auto; lia.
    + intros e Hin. specialize (Hi e Hin). lia.
Qed.

Lemma c_step_inv : forall vt s ev, cinv s -> cinv (fst (c_step vt s ev)).
Proof. intros vt s ev H. exact (step_adds_inv vt s ev _ H (c_step_adds vt s ev H)). Qed.

Lemma exec_ind : forall vt (Q : cvol -> Prop) (P : cevent -> Prop),
  (forall s ev, cinv s -> Q s -> P ev -> Q (fst (c_step vt s ev))) ->
  forall h s, cinv s -> Q s -> (forall ev, In ev h -> P ev) -> Q (c_exec vt s h).
Proof.
  intros vt Q P Hstep. induction h as [|ev h IH]; intros s H Hq Hp; [exact Hq|].
  apply (IH (fst (c_step vt s ev))).
  - apply c_step_inv. exact H.
  - apply Hstep; [exact H | exact Hq | apply Hp; left; reflexivity].
  - intros e He. apply Hp. right. exact He.
Qed.

Lemma c_exec_inv : forall vt h s, cinv s -> cinv (c_exec vt s h).
Proof.
  intros vt h s H. apply (exec_ind vt cinv (fun _ => True)); auto. intros s0 ev H0 _ _. apply c_step_inv. exact H0.
Qed.

Lemma c_exec_app : forall vt h1 h2 s, c_exec vt s (h1 ++ h2) = c_exec vt (c_exec vt s h1) h2.
Proof. intros. unfold c_exec. apply fold_left_app. Qed.
