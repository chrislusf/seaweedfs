(* C25. On an EOF body without upload failure the loop cuts the body into back-to-back chunks
   ([tiles], loop_spec) or inlines it whole (upload_inline); painting tiles over zeros gives the body
   back (paint_tiles, read_append): stored_equals_body, append_at_end.  An upload failure is sticky,
   a reader error is met before the loop can end normally (loop_rerr): fail_no_commit. *)
From Coq Require Import List NArith ZArith Bool Lia Arith.
From Coq Require Import ZifyBool ZifyN ZifyNat.
From SW Require Import proof.ListFacts model.FilerWrite.
Import ListNotations.
(* the hook and the [simpl never] settings below also hold in the files that import this one *)
Ltac Zify.zify_post_hook ::= Z.div_mod_to_equations.

Arguments N.add : simpl never.
Arguments N.of_nat : simpl never.
Arguments Z.of_nat : simpl never.
Arguments Z.of_N : simpl never.
Arguments Z.to_nat : simpl never.
Arguments Z.mul : simpl never.
Arguments Z.div : simpl never.

Lemma firstn_plus : forall {A} a b (l : list A),
  firstn (a + b) l = firstn a l ++ firstn b (skipn a l).
Proof. exact (@firstn_add). Qed.

(* [tiles off cks data]: the chunks lie back to back from [off] and hold [data] *)
Inductive tiles : N -> list chunk -> list N -> Prop :=
| tiles_nil : forall off, tiles off [] []
| tiles_cons : forall off d cks rest,
    tiles (off + N.of_nat (length d)) cks rest ->
    tiles off (Ck off (N.of_nat (length d)) d :: cks) (d ++ rest).

Lemma tiles_length_wf : forall off cks data, tiles off cks data ->
  Forall (fun c => ck_size c = N.of_nat (length (ck_data c))) cks.
Proof. induction 1; constructor; auto. Qed.

Lemma tiles_shift : forall off cks data s, tiles off cks data ->
  tiles (off + s) (map (shift_chunk s) cks) data.
Proof.
  induction 1 as [|off d cks rest H IH]; simpl; [constructor|].
  unfold shift_chunk at 1; simpl. constructor.
  replace (off + s + N.of_nat (length d))%N with (off + N.of_nat (length d) + s)%N by lia.
  exact IH.
Qed.

Lemma fold_extent : forall cks m,
  fold_left (fun m c => N.max m (ck_off c + ck_size c)) cks m = N.max m (extent cks).
Proof.
  unfold extent. induction cks as [|c cks IH]; intros m; simpl; [lia|].
  rewrite IH. rewrite (IH (N.max 0 _)). lia.
Qed.

Lemma extent_cons : forall c cks, extent (c :: cks) = N.max (ck_off c + ck_size c) (extent cks).
Proof. intros. unfold extent at 1. simpl. rewrite fold_extent. lia. Qed.

Lemma extent_app : forall a b, extent (a ++ b) = N.max (extent a) (extent b).
Proof.
  induction a as [|c a IH]; intros b; simpl.
  - unfold extent at 2. simpl. lia.
  - rewrite !extent_cons, IH. lia.
Qed.

Lemma extent_in : forall c cks, In c cks -> (ck_off c + ck_size c <= extent cks)%N.
Proof.
  induction cks as [|x cks IH]; intros H; [contradiction|].
  rewrite extent_cons. destruct H as [->|H]; [lia|]. apply IH in H. lia.
Qed.

Lemma tiles_extent : forall off cks data, tiles off cks data ->
  (extent cks <= off + N.of_nat (length data))%N.
Proof.
  induction 1 as [|off d cks rest H IH].
  - unfold extent. simpl. lia.
  - rewrite extent_cons, app_length. simpl. lia.
Qed.

Lemma paint_length : forall buf c,
  (N.to_nat (ck_off c) + length (ck_data c) <= length buf)%nat ->
  length (paint buf c) = length buf.
Proof.
  intros buf c H. unfold paint. rewrite !app_length, firstn_length, skipn_length. lia.
Qed.

Lemma paint_app_tail : forall buf tail c,
  (N.to_nat (ck_off c) + length (ck_data c) <= length buf)%nat ->
  paint (buf ++ tail) c = paint buf c ++ tail.
Proof.
  intros buf tail c H. unfold paint.
  rewrite firstn_app, skipn_app.
  replace (N.to_nat (ck_off c) - length buf)%nat with 0%nat by lia.
  replace (N.to_nat (ck_off c) + length (ck_data c) - length buf)%nat with 0%nat by lia.
  simpl. rewrite app_nil_r, <- !app_assoc. reflexivity.
Qed.

Definition within (n : nat) (c : chunk) : Prop :=
  (N.to_nat (ck_off c) + length (ck_data c) <= n)%nat.

Lemma fold_paint_length : forall cks buf, Forall (within (length buf)) cks ->
  length (fold_left paint cks buf) = length buf.
Proof.
  induction cks as [|c cks IH]; intros buf H; simpl; [reflexivity|].
  inversion H as [|? ? Hc Hr]; subst.
  rewrite IH; rewrite paint_length; auto.
Qed.

Lemma fold_paint_app_tail : forall cks buf tail, Forall (within (length buf)) cks ->
  fold_left paint cks (buf ++ tail) = fold_left paint cks buf ++ tail.
Proof.
  induction cks as [|c cks IH]; intros buf tail H; simpl; [reflexivity|].
  inversion H as [|? ? Hc Hr]; subst.
  rewrite paint_app_tail by exact Hc. apply IH. rewrite paint_length; auto.
Qed.

Lemma paint_tiles : forall off cks data, tiles off cks data -> forall X, length X = N.to_nat off ->
  fold_left paint cks (X ++ repeat 0%N (length data)) = X ++ data.
Proof.
  induction 1 as [off|off d cks rest H IH]; intros X HX; [reflexivity|].
  rewrite app_length, repeat_app. simpl fold_left.
  assert (Hp : paint (X ++ repeat 0%N (length d) ++ repeat 0%N (length rest)) (Ck off (N.of_nat (length d)) d)
               = (X ++ d) ++ repeat 0%N (length rest)).
  { unfold paint. cbn [ck_off ck_data]. rewrite <- HX, firstn_app_exact by reflexivity.
    rewrite (app_assoc X (repeat 0%N (length d))), skipn_app_exact by (rewrite app_length, repeat_length; reflexivity).
    apply app_assoc. }
  rewrite Hp, IH, <- app_assoc; [reflexivity|]. rewrite app_length. lia.
Qed.

Definition no_upfail (l : list bool) : Prop := forallb negb l = true.

Lemma no_upfail_hd : forall l, no_upfail l -> hd false l = false.
Proof. destruct l as [|b l]; simpl; auto. unfold no_upfail. simpl. destruct b; simpl; auto; discriminate. Qed.

Lemma no_upfail_tl : forall l, no_upfail l -> no_upfail (tl l).
Proof. destruct l as [|b l]; simpl; auto. unfold no_upfail. simpl. intros H. apply andb_true_iff in H. tauto. Qed.

Lemma upload_loop_S : forall fuel cs limit inl etc bytes e upfail off acc uerr hashed,
  upload_loop (S fuel) cs limit inl etc bytes e upfail off acc uerr hashed =
    let '(d, rest, rerr) := read_chunk cs bytes e in
    let dsz := N.of_nat (length d) in
    let hashed' := (hashed + dsz)%N in
    if rerr || (dsz =? 0)%N then UR acc off uerr rerr [] hashed'
    else if (off =? 0)%N && inl && (Z.of_N dsz <? cs)%Z && ((Z.of_N dsz <? limit)%Z || etc)
    then UR acc (off + dsz)%N uerr false d hashed'
    else
      let failed := hd false upfail in
      let acc' := if failed then acc else acc ++ [Ck off dsz d] in
      let uerr' := uerr || failed in
      let off' := (off + dsz)%N in
      if (Z.of_N dsz <? cs)%Z then UR acc' off' uerr' false [] hashed'
      else upload_loop fuel cs limit inl etc rest e (tl upfail) off' acc' uerr' hashed'.
Proof. reflexivity. Qed.

Lemma read_chunk_pos : forall cs bytes e, (0 < cs)%Z ->
  read_chunk cs bytes e =
    (firstn (Z.to_nat cs) bytes, skipn (Z.to_nat cs) bytes,
     match e with
     | Eof => false
     | ReadErr => Nat.ltb (length bytes) (Z.to_nat cs)
     | ReadErrData => Nat.leb (length bytes) (Z.to_nat cs)
     end).
Proof. intros. unfold read_chunk. destruct (cs <=? 0)%Z eqn:E; [lia|reflexivity]. Qed.

(* the first read is inlined: it is shorter than a chunk and (below the limit or under /etc) *)
Definition inline_cond (cs limit : Z) (etc : bool) (len : nat) : bool :=
  let dsz := Z.of_nat (Nat.min (Z.to_nat cs) len) in
  (dsz <? cs)%Z && ((dsz <? limit)%Z || etc).

(* the next read is not inlined: not the first read, or inlining is off (append), or the read
   is a full chunk or at or above the limit outside /etc *)
Definition not_inlining (cs limit : Z) (inl etc : bool) (off : N) (len : nat) : Prop :=
  off <> 0%N \/ inl = false \/ inline_cond cs limit etc len = false.

Lemma not_inlined : forall cs limit inl etc off len dlen,
  dlen = Nat.min (Z.to_nat cs) len ->
  not_inlining cs limit inl etc off len ->
  (off =? 0)%N && inl && (Z.of_N (N.of_nat dlen) <? cs)%Z &&
    ((Z.of_N (N.of_nat dlen) <? limit)%Z || etc) = false.
Proof.
  intros cs limit inl etc off len dlen -> H. rewrite nat_N_Z, <- andb_assoc.
  destruct H as [H|[H|H]].
  - destruct (N.eqb_spec off 0); [contradiction|reflexivity].
  - subst inl. rewrite andb_false_r. reflexivity.
  - unfold inline_cond in H. rewrite H. apply andb_false_r.
Qed.

(* No inlining, no upload failure, EOF body: the loop stores the whole body as
   back-to-back chunks. *)
Lemma loop_spec : forall fuel cs limit inl etc bytes upfail off acc hashed,
  (0 < cs)%Z ->
  (Z.of_nat (length bytes) < cs * Z.of_nat fuel)%Z ->
  not_inlining cs limit inl etc off (length bytes) ->
  no_upfail upfail ->
  exists new,
    upload_loop fuel cs limit inl etc bytes Eof upfail off acc false hashed
      = UR (acc ++ new) (off + N.of_nat (length bytes)) false false []
           (hashed + N.of_nat (length bytes)) /\
    tiles off new bytes.
Proof.
  induction fuel as [|fuel IH]; intros cs limit inl etc bytes upfail off acc hashed Hcs Hfuel Hinl Hup.
  - exfalso. lia.
  - rewrite upload_loop_S, read_chunk_pos by exact Hcs.
    set (n0 := Z.to_nat cs) in *.
    set (d := firstn n0 bytes).
    assert (Hd : length d = Nat.min n0 (length bytes)) by apply firstn_length.
    cbv zeta. rewrite orb_false_l.
    destruct (N.of_nat (length d) =? 0)%N eqn:Hstop.
    { (* break: the body is exhausted *)
      assert (Hlen : length bytes = 0%nat) by lia.
      exists []. rewrite app_nil_r, Hlen. split; [f_equal; lia|].
      destruct bytes; [constructor|discriminate]. }
    rewrite (not_inlined _ _ _ _ _ _ _ Hd Hinl).
    rewrite (no_upfail_hd _ Hup). cbv iota. rewrite orb_false_r.
    destruct (Z.of_N (N.of_nat (length d)) <? cs)%Z eqn:Hshort.
    { (* last, short chunk *)
      assert (Hall : d = bytes) by (subst d; apply firstn_all2; lia).
      exists [Ck off (N.of_nat (length d)) d].
      split; [rewrite Hall; reflexivity|].
      pose proof (tiles_cons off d [] [] (tiles_nil _)) as Ht.
      rewrite app_nil_r in Ht. rewrite Hall in Ht at 3. exact Ht. }
    (* a full chunk, continue *)
    assert (Hfull : length d = n0) by lia.
    destruct (IH cs limit inl etc (skipn n0 bytes) (tl upfail)
                 (off + N.of_nat (length d))%N (acc ++ [Ck off (N.of_nat (length d)) d])
                 (hashed + N.of_nat (length d))%N Hcs) as (new & Heq & Ht).
    { rewrite skipn_length. lia. }
    { left. lia. }
    { apply no_upfail_tl, Hup. }
    rewrite skipn_length in Heq.
    exists (Ck off (N.of_nat (length d)) d :: new).
    split. { rewrite Heq. rewrite <- app_assoc. simpl. f_equal; lia. }
    rewrite <- (firstn_skipn n0 bytes). fold d. constructor. exact Ht.
Qed.

Lemma fuel_ok : forall cs len, (0 < cs)%Z ->
  (Z.of_nat len < cs * Z.of_nat (fuel_for cs (N.of_nat len)))%Z.
Proof.
  intros cs len Hcs. unfold fuel_for.
  rewrite Nat2Z.inj_succ, Z2Nat.id by (apply Z.div_pos; lia).
  rewrite nat_N_Z.
  pose proof (Z.div_mod (Z.of_nat len) cs ltac:(lia)) as H1.
  pose proof (Z.mod_pos_bound (Z.of_nat len) cs Hcs) as H2.
  nia.
Qed.

Lemma fuel_for_S : forall cs len, exists f, fuel_for cs len = S f.
Proof. intros. eexists. reflexivity. Qed.

Lemma loop_err_sticky : forall fuel cs limit inl etc bytes e upfail off acc hashed,
  ur_err (upload_loop fuel cs limit inl etc bytes e upfail off acc true hashed) = true.
Proof.
  induction fuel as [|fuel IH]; intros; [reflexivity|].
  rewrite upload_loop_S. destruct (read_chunk cs bytes e) as [[d rest] rerr]. cbv zeta.
  destruct (rerr || _); [reflexivity|].
  destruct (_ && _ && _ && _); [reflexivity|].
  simpl orb. destruct (Z.of_N (N.of_nat (length d)) <? cs)%Z; [reflexivity|]. apply IH.
Qed.

(* chunk j fails and chunk j is reached: the upload as a whole fails *)
Lemma loop_err_detected : forall fuel cs limit inl etc bytes upfail off acc uerr hashed j,
  (0 < cs)%Z ->
  (Z.of_nat (length bytes) < cs * Z.of_nat fuel)%Z ->
  not_inlining cs limit inl etc off (length bytes) ->
  nth j upfail false = true ->
  (Z.of_nat j * cs < Z.of_nat (length bytes))%Z ->
  ur_err (upload_loop fuel cs limit inl etc bytes Eof upfail off acc uerr hashed) = true.
Proof.
  induction fuel as [|fuel IH]; intros cs limit inl etc bytes upfail off acc uerr hashed j
    Hcs Hfuel Hinl Hj Hlen.
  - exfalso. lia.
  - rewrite upload_loop_S, read_chunk_pos by exact Hcs.
    set (n0 := Z.to_nat cs) in *.
    set (d := firstn n0 bytes).
    assert (Hd : length d = Nat.min n0 (length bytes)) by apply firstn_length.
    cbv zeta. rewrite orb_false_l.
    destruct (N.of_nat (length d) =? 0)%N eqn:Hz; [exfalso; lia|].
    rewrite (not_inlined _ _ _ _ _ _ _ Hd Hinl).
    destruct j as [|j].
    + destruct upfail as [|b upfail]; simpl in Hj; [discriminate|]. subst b. simpl hd.
      rewrite orb_true_r.
      destruct (Z.of_N (N.of_nat (length d)) <? cs)%Z; [reflexivity|]. apply loop_err_sticky.
    + destruct upfail as [|b upfail]; simpl in Hj; [discriminate|].
      destruct (Z.of_N (N.of_nat (length d)) <? cs)%Z eqn:Hshort; [exfalso; lia|].
      simpl tl. apply (IH _ _ _ _ _ _ _ _ _ _ j); auto.
      * rewrite skipn_length. lia.
      * left. lia.
      * rewrite skipn_length. lia.
Qed.

(* a failing body reader is always noticed (whatever the uploads do, inlining or not) *)
Lemma loop_rerr : forall fuel cs limit inl etc bytes e upfail off acc uerr hashed,
  (0 < cs)%Z ->
  (Z.of_nat (length bytes) < cs * Z.of_nat fuel)%Z ->
  is_err e = true ->
  ur_rerr (upload_loop fuel cs limit inl etc bytes e upfail off acc uerr hashed) = true.
Proof.
  induction fuel as [|fuel IH]; intros cs limit inl etc bytes e upfail off acc uerr hashed
    Hcs Hfuel He.
  - exfalso. lia.
  - rewrite upload_loop_S, read_chunk_pos by exact Hcs.
    set (n0 := Z.to_nat cs) in *.
    set (d := firstn n0 bytes).
    assert (Hd : length d = Nat.min n0 (length bytes)) by apply firstn_length.
    cbv zeta.
    set (rerr := match e with Eof => false | ReadErr => Nat.ltb (length bytes) n0
                            | ReadErrData => Nat.leb (length bytes) n0 end).
    destruct rerr eqn:Hr.
    { reflexivity. }
    (* no error in this read: a full chunk was read and more follows *)
    assert (Hge : (n0 <= length bytes)%nat).
    { subst rerr. destruct e; simpl in He; try discriminate.
      - apply Nat.ltb_ge in Hr. lia.
      - apply Nat.leb_gt in Hr. lia. }
    rewrite orb_false_l.
    destruct (N.of_nat (length d) =? 0)%N eqn:Hz; [exfalso; lia|].
    replace (Z.of_N (N.of_nat (length d)) <? cs)%Z with false by lia.
    rewrite andb_false_r. simpl andb. cbv iota.
    apply IH; auto. rewrite skipn_length. lia.
Qed.

Lemma finish_err : forall r, ur_err (finish r) = ur_err r.
Proof. intros r. unfold finish. destruct (ur_failed r); reflexivity. Qed.

Lemma finish_rerr : forall r, ur_rerr (finish r) = ur_rerr r.
Proof. intros r. unfold finish. destruct (ur_failed r); reflexivity. Qed.

Lemma finish_failed : forall r, ur_failed (finish r) = ur_failed r.
Proof. intros r. unfold ur_failed. rewrite finish_err, finish_rerr. reflexivity. Qed.

Lemma upload_no_inline : forall cs limit inl etc bytes upfail,
  (1 <= cs)%Z -> no_upfail upfail ->
  inl = false \/ inline_cond cs limit etc (length bytes) = false ->
  exists new,
    upload_reader_to_chunks cs limit inl etc bytes Eof upfail
      = UR new (N.of_nat (length bytes)) false false [] (N.of_nat (length bytes)) /\
    tiles 0 new bytes.
Proof.
  intros cs limit inl etc bytes upfail Hcs Hup Hinl.
  unfold upload_reader_to_chunks.
  assert (Hc0 : (0 < cs)%Z) by lia.
  pose proof (fuel_ok cs (length bytes) Hc0) as Hf.
  assert (Hi : not_inlining cs limit inl etc 0%N (length bytes)) by (unfold not_inlining; destruct Hinl; auto).
  destruct (loop_spec _ cs limit inl etc bytes upfail 0%N [] 0%N Hc0 Hf Hi Hup) as (new & Heq & Ht).
  exists new. rewrite Heq. unfold finish, ur_failed. simpl.
  split; [f_equal; lia|exact Ht].
Qed.

(* first read inlined: it is the whole body (an empty body ends the loop at once, with
   the same result) *)
Lemma upload_inline : forall cs limit etc bytes upfail,
  (1 <= cs)%Z ->
  inline_cond cs limit etc (length bytes) = true ->
  upload_reader_to_chunks cs limit true etc bytes Eof upfail
    = UR [] (N.of_nat (length bytes)) false false bytes (N.of_nat (length bytes)).
Proof.
  intros cs limit etc bytes upfail Hcs Hcond.
  unfold upload_reader_to_chunks.
  destruct (fuel_for_S cs (N.of_nat (length bytes))) as [f ->].
  rewrite upload_loop_S, read_chunk_pos by lia.
  unfold inline_cond in Hcond. cbv zeta in Hcond.
  apply andb_true_iff in Hcond. destruct Hcond as [Hlt Hlim].
  assert (Hlen : (length bytes < Z.to_nat cs)%nat) by lia.
  rewrite Nat.min_r in Hlim by lia.
  rewrite firstn_all2 by lia. cbv zeta. rewrite orb_false_l.
  destruct (N.of_nat (length bytes) =? 0)%N eqn:Hz.
  { destruct bytes; [reflexivity|]. simpl length in Hz. lia. }
  rewrite nat_N_Z, Hlim.
  replace (Z.of_nat (length bytes) <? cs)%Z with true by lia.
  simpl. unfold finish, ur_failed. simpl. f_equal; lia.
Qed.

Definition wf_entry (e : entry) : Prop :=
  Forall (fun c => ck_size c = N.of_nat (length (ck_data c))) (e_chunks e).

Lemma entry_size_chunked : forall e, e_content e = [] -> entry_size e = file_end e.
Proof. intros e H. unfold entry_size, file_end. rewrite H. simpl. lia. Qed.

Lemma read_append : forall e0 new data,
  e_content e0 = [] -> wf_entry e0 ->
  tiles (file_end e0) new data ->
  read_entry {| e_size := file_end e0 + N.of_nat (length data); e_content := [];
                e_chunks := e_chunks e0 ++ new; e_md5 := None |}
  = read_entry e0 ++ data.
Proof.
  intros e0 new data Hc Hwf Ht.
  unfold read_entry. rewrite Hc. simpl.
  pose proof (tiles_extent _ _ _ Ht) as He.
  assert (Hext : (extent (e_chunks e0) <= file_end e0)%N) by (unfold file_end; lia).
  unfold file_end at 1. simpl. rewrite extent_app.
  replace (N.max (file_end e0 + N.of_nat (length data)) (N.max (extent (e_chunks e0)) (extent new)))
    with (file_end e0 + N.of_nat (length data))%N by lia.
  replace (N.to_nat (file_end e0 + N.of_nat (length data)))
    with (N.to_nat (file_end e0) + length data)%nat by lia.
  rewrite repeat_app, fold_left_app.
  set (s := N.to_nat (file_end e0)).
  assert (Hin : Forall (within (length (repeat 0%N s))) (e_chunks e0)).
  { rewrite repeat_length. apply Forall_forall. intros c Hc0.
    unfold wf_entry in Hwf. rewrite Forall_forall in Hwf. specialize (Hwf c Hc0).
    pose proof (extent_in c _ Hc0). unfold within. subst s. lia. }
  rewrite fold_paint_app_tail by exact Hin.
  set (X := fold_left paint (e_chunks e0) (repeat 0%N s)).
  assert (HX : length X = s) by (subst X; rewrite fold_paint_length by exact Hin; apply repeat_length).
  apply (paint_tiles _ _ _ Ht). exact HX.
Qed.

(* a new entry is an append to the empty one *)
Lemma read_tiles : forall cks data m, tiles 0 cks data ->
  read_entry {| e_size := N.of_nat (length data); e_content := []; e_chunks := cks; e_md5 := m |} = data.
Proof.
  intros cks data m Ht.
  exact (read_append {| e_size := 0; e_content := []; e_chunks := []; e_md5 := None |} cks data
           eq_refl (Forall_nil _) Ht).
Qed.

Definition existing (rq : request) (pre : option entry) : option entry :=
  if rq_append rq then pre else None.

Definition request_fails (rq : request) : bool :=
  is_err (rq_end rq) || ur_err (upload_of rq).

Section WithMd5.
Variable md5 : list N -> N.

Definition write_core (rq : request) (pre : option entry) : status * option entry :=
  let ur := upload_of rq in
  if ur_failed ur then (Failed, pre)
  else
    let '(ok, post) := save_metadata md5 (rq_append rq) pre (rq_body rq) ur in
    ((if ok then Created else Failed), post).

Lemma handle_write_core : forall rq pre, rq_method rq <> PostRaw ->
  handle_write md5 rq pre = write_core rq pre.
Proof. intros rq pre H. unfold handle_write. destruct (rq_method rq); try reflexivity. congruence. Qed.

Lemma save_new : forall (is_append : bool) (pre : option entry) bytes ur,
  (if is_append then pre else None) = None ->
  save_metadata md5 is_append pre bytes ur =
    (true, Some {| e_size := ur_off ur; e_content := ur_small ur; e_chunks := ur_chunks ur;
                   e_md5 := Some (md5 (firstn (N.to_nat (ur_hashed ur)) bytes)) |}).
Proof. intros. unfold save_metadata. rewrite H. reflexivity. Qed.

(* the body goes into chunks (an append, or the first read is not inlined) *)
Lemma stored_chunked : forall rq pre,
  (1 <= rq_cs rq)%Z -> rq_end rq = Eof -> no_upfail (rq_upfail rq) -> existing rq pre = None ->
  rq_append rq = true \/
    inline_cond (rq_cs rq) (rq_limit rq) (rq_etc rq) (length (rq_body rq)) = false ->
  exists e, write_core rq pre = (Created, Some e) /\
            read_entry e = rq_body rq /\
            e_size e = N.of_nat (length (rq_body rq)) /\
            e_md5 e = Some (md5 (rq_body rq)).
Proof.
  intros rq pre Hcs Hend Hup Hex Hni. unfold write_core, upload_of. rewrite Hend.
  destruct (upload_no_inline (rq_cs rq) (rq_limit rq) (negb (rq_append rq)) (rq_etc rq)
              (rq_body rq) (rq_upfail rq) Hcs Hup) as (new & Heq & Ht).
  { destruct Hni as [->|H]; auto. }
  cbv zeta. rewrite Heq. unfold ur_failed. simpl orb. cbv iota.
  rewrite save_new by exact Hex. simpl.
  eexists. split; [reflexivity|]. simpl.
  rewrite Nat2N.id, firstn_all.
  split; [apply read_tiles; exact Ht|]. split; reflexivity.
Qed.

Theorem stored_equals_body : forall rq pre,
  rq_method rq <> PostRaw -> (1 <= rq_cs rq)%Z -> rq_end rq = Eof -> no_upfail (rq_upfail rq) ->
  existing rq pre = None ->
  exists e, handle_write md5 rq pre = (Created, Some e) /\
            read_entry e = rq_body rq /\
            e_size e = N.of_nat (length (rq_body rq)) /\
            e_md5 e = Some (md5 (rq_body rq)).
Proof.
  intros rq pre Hm Hcs Hend Hup Hex.
  rewrite handle_write_core by exact Hm.
  destruct (rq_append rq) eqn:Happ; [apply stored_chunked; auto|].
  destruct (inline_cond (rq_cs rq) (rq_limit rq) (rq_etc rq) (length (rq_body rq))) eqn:Hc;
    [|apply stored_chunked; auto].
  (* the whole body is inlined *)
  unfold write_core, upload_of. rewrite Hend, Happ. simpl negb.
  rewrite upload_inline by auto.
  unfold ur_failed. simpl orb. cbv iota. rewrite save_new by reflexivity. simpl.
  eexists. split; [reflexivity|]. simpl.
  rewrite Nat2N.id, firstn_all.
  split; [|split; reflexivity].
  unfold read_entry. simpl. destruct (rq_body rq); reflexivity.
Qed.

Theorem append_at_end : forall rq e0,
  rq_method rq <> PostRaw -> (1 <= rq_cs rq)%Z -> rq_end rq = Eof -> no_upfail (rq_upfail rq) ->
  rq_append rq = true -> e_content e0 = [] -> wf_entry e0 ->
  exists e1, handle_write md5 rq (Some e0) = (Created, Some e1) /\
             read_entry e1 = read_entry e0 ++ rq_body rq /\
             file_end e1 = (file_end e0 + N.of_nat (length (rq_body rq)))%N /\
             e_size e1 = file_end e1.
Proof.
  intros rq e0 Hm Hcs Hend Hup Happ Hc Hwf.
  rewrite handle_write_core by exact Hm. unfold write_core, upload_of. rewrite Hend, Happ.
  destruct (upload_no_inline (rq_cs rq) (rq_limit rq) (negb true) (rq_etc rq)
              (rq_body rq) (rq_upfail rq) Hcs Hup) as (new & Heq & Ht).
  { left. reflexivity. }
  cbv zeta. rewrite Heq. unfold ur_failed. simpl orb. cbv iota.
  unfold save_metadata. rewrite Hc. simpl.
  rewrite (entry_size_chunked e0 Hc).
  eexists. split; [reflexivity|].
  apply (tiles_shift _ _ _ (file_end e0)) in Ht. rewrite N.add_0_l in Ht.
  pose proof (tiles_extent _ _ _ Ht) as He.
  assert (Hext : (extent (e_chunks e0) <= file_end e0)%N) by (unfold file_end; lia).
  split; [apply read_append; auto|].
  match goal with |- file_end ?E = _ /\ _ =>
    assert (Hfe : file_end E = (file_end e0 + N.of_nat (length (rq_body rq)))%N) end.
  { unfold file_end at 1. cbn [e_size e_chunks]. rewrite extent_app. lia. }
  split; [exact Hfe|]. rewrite Hfe. reflexivity.
Qed.

Theorem append_inline_refused : forall rq e0 pre,
  rq_append rq = true -> pre = Some e0 -> e_content e0 <> [] ->
  handle_write md5 rq pre = (Failed, pre).
Proof.
  intros rq e0 pre Happ -> Hc. unfold handle_write.
  assert (Hs : forall ur, save_metadata md5 (rq_append rq) (Some e0) (rq_body rq) ur = (false, Some e0)).
  { intros ur. unfold save_metadata. rewrite Happ. destruct (e_content e0); [congruence|reflexivity]. }
  destruct (rq_method rq); try reflexivity;
    (destruct (ur_failed (upload_of rq)); [reflexivity|rewrite Hs; reflexivity]).
Qed.

Lemma upload_failure_aborts : forall rq pre,
  ur_failed (upload_of rq) = true -> handle_write md5 rq pre = (Failed, pre).
Proof.
  intros rq pre H. unfold handle_write. rewrite H. destruct (rq_method rq); reflexivity.
Qed.

Theorem fail_no_commit : forall rq pre,
  (1 <= rq_cs rq)%Z -> request_fails rq = true ->
  handle_write md5 rq pre = (Failed, pre).
Proof.
  intros rq pre Hcs Hf. apply upload_failure_aborts.
  unfold request_fails in Hf. unfold ur_failed.
  destruct (is_err (rq_end rq)) eqn:He.
  - apply orb_true_iff. right.
    unfold upload_of, upload_reader_to_chunks. rewrite finish_rerr.
    apply loop_rerr; auto; try lia. apply fuel_ok. lia.
  - simpl in Hf. rewrite Hf. reflexivity.
Qed.

Theorem nonsuccess_no_commit : forall rq pre st post,
  handle_write md5 rq pre = (st, post) -> st <> Created -> st = Failed /\ post = pre.
Proof.
  intros rq pre st post H Hst.
  assert (Hcore : write_core rq pre = (st, post) -> st = Failed /\ post = pre).
  { unfold write_core. destruct (ur_failed (upload_of rq)); [intros E; inversion E; auto|].
    unfold save_metadata.
    destruct (if rq_append rq then pre else None) as [e|].
    - destruct (negb (is_nil (e_content e))); intros E; inversion E; subst; auto; congruence.
    - intros E; inversion E; subst; congruence. }
  unfold handle_write in H. destruct (rq_method rq); auto. inversion H; auto.
Qed.

Theorem upload_failure_detected : forall rq pre j,
  (1 <= rq_cs rq)%Z -> rq_end rq = Eof ->
  rq_append rq = true \/
  inline_cond (rq_cs rq) (rq_limit rq) (rq_etc rq) (length (rq_body rq)) = false ->
  nth j (rq_upfail rq) false = true ->
  (Z.of_nat j * rq_cs rq < Z.of_nat (length (rq_body rq)))%Z ->
  handle_write md5 rq pre = (Failed, pre).
Proof.
  intros rq pre j Hcs Hend Hni Hj Hlen. apply upload_failure_aborts.
  unfold ur_failed. apply orb_true_iff. left.
  unfold upload_of, upload_reader_to_chunks. rewrite finish_err, Hend.
  apply (loop_err_detected _ _ _ _ _ _ _ _ _ _ _ j); auto; try lia.
  - apply fuel_ok. lia.
  - unfold not_inlining. destruct Hni as [->|H]; auto.
Qed.

End WithMd5.

(* whenever autoChunk lets the request through, the chunk size is m MiB for some m in 1..2047,
   not wrapped *)
Theorem auto_chunk_size_ok : forall q opt cs,
  auto_chunk_size q opt = Some cs ->
  (exists m, 1 <= m <= 2047 /\ cs = 1048576 * m /\ 1 <= cs)%Z.
Proof.
  intros q opt cs. unfold auto_chunk_size.
  set (m := if ((wrap32 q <=? 0) && (0 <? opt))%Z then wrap32 opt else wrap32 q).
  destruct ((m <=? 0) || (2047 <? m))%Z eqn:E; [discriminate|].
  intros H. inversion H; subst cs. exists m. unfold wrap32. lia.
Qed.

Theorem auto_chunk_size_accepts : forall q opt,
  ((1 <= q <= 2047 -> auto_chunk_size q opt = Some (1048576 * q)) /\
   (q = 0 -> 1 <= opt <= 2047 -> auto_chunk_size q opt = Some (1048576 * opt)))%Z.
Proof.
  intros q opt. unfold auto_chunk_size, wrap32. split.
  - intros H.
    replace ((q + 2147483648) mod 4294967296 - 2147483648)%Z with q by lia.
    replace ((q <=? 0)%Z) with false by lia. simpl andb. cbv iota.
    replace ((q <=? 0) || (2047 <? q))%Z with false by lia. f_equal. lia.
  - intros -> H.
    replace (((0 + 2147483648) mod 4294967296 - 2147483648 <=? 0)%Z && (0 <? opt)%Z) with true by lia.
    cbv iota.
    replace ((opt + 2147483648) mod 4294967296 - 2147483648)%Z with opt by lia.
    replace ((opt <=? 0) || (2047 <? opt))%Z with false by lia. f_equal. lia.
Qed.

Definition offsz (c : chunk) : N * N := (ck_off c, ck_size c).

Lemma read_chunk_len : forall cs bytes e,
  let '(d, rest, rerr) := read_chunk cs bytes e in
  read_len cs (N.of_nat (length bytes)) e = (N.of_nat (length d), N.of_nat (length rest), rerr).
Proof.
  intros cs bytes e. unfold read_chunk, read_len.
  destruct (cs <=? 0)%Z eqn:E; [reflexivity|].
  rewrite firstn_length, skipn_length.
  f_equal; [f_equal; lia|].
  destruct e; try reflexivity.
  - destruct (Nat.ltb_spec (length bytes) (Z.to_nat cs)); lia.
  - destruct (Nat.leb_spec (length bytes) (Z.to_nat cs)); lia.
Qed.

Lemma shape_loop : forall fuel cs limit inl etc bytes e upfail off acc uerr hashed,
  shape (upload_loop fuel cs limit inl etc bytes e upfail off acc uerr hashed) =
  plan_loop fuel cs limit inl etc (N.of_nat (length bytes)) e upfail off (map offsz acc) uerr hashed.
Proof.
  induction fuel as [|fuel IH]; intros; [reflexivity|].
  rewrite upload_loop_S. cbn [plan_loop].
  pose proof (read_chunk_len cs bytes e) as Hr.
  destruct (read_chunk cs bytes e) as [[d rest] rerr]. rewrite Hr. cbv zeta.
  destruct (rerr || (N.of_nat (length d) =? 0)%N); [reflexivity|].
  destruct ((off =? 0)%N && inl && (Z.of_N (N.of_nat (length d)) <? cs)%Z &&
            ((Z.of_N (N.of_nat (length d)) <? limit)%Z || etc)); [reflexivity|].
  destruct (Z.of_N (N.of_nat (length d)) <? cs)%Z.
  - destruct (hd false upfail); unfold shape; simpl; [reflexivity|].
    rewrite map_app. reflexivity.
  - rewrite IH. destruct (hd false upfail); [reflexivity|]. rewrite map_app. reflexivity.
Qed.

Theorem shape_upload : forall cs limit inl etc bytes e upfail,
  shape (upload_reader_to_chunks cs limit inl etc bytes e upfail) =
  plan_upload cs limit inl etc (N.of_nat (length bytes)) e upfail.
Proof.
  intros. unfold upload_reader_to_chunks, plan_upload.
  pose proof (shape_loop (fuel_for cs (N.of_nat (length bytes))) cs limit inl etc bytes e upfail
                0%N [] false 0%N) as H.
  simpl map in H. rewrite <- H.
  set (r := upload_loop _ _ _ _ _ _ _ _ _ _ _ _).
  unfold finish, plan_finish, ur_failed, shape. simpl pl_err. simpl pl_rerr.
  destruct (ur_err r || ur_rerr r) eqn:E; reflexivity.
Qed.

(* evaluated examples *)

Definition mk_rq m app etc cs limit body e upfail : request :=
  {| rq_method := m; rq_append := app; rq_etc := etc; rq_cs := cs; rq_limit := limit;
     rq_body := body; rq_end := e; rq_upfail := upfail |}.

Lemma example_chunked :
  let rq := mk_rq PostForm false false 3 2 [1;2;3;4;5;6;7]%N Eof [false;false;false] in
  rq_method rq <> PostRaw /\ (1 <= rq_cs rq)%Z /\ rq_end rq = Eof /\ no_upfail (rq_upfail rq) /\
  existing rq None = None /\
  handle_write (fun l => N.of_nat (length l)) rq None =
    (Created, Some {| e_size := 7; e_content := [];
                      e_chunks := [Ck 0 3 [1;2;3]; Ck 3 3 [4;5;6]; Ck 6 1 [7]]%N; e_md5 := Some 7%N |}).
Proof. repeat split; try discriminate; vm_compute; reflexivity. Qed.

Lemma example_inline :
  let rq := mk_rq Put false false 4 5 [8;9]%N Eof [] in
  handle_write (fun l => N.of_nat (length l)) rq None =
    (Created, Some {| e_size := 2; e_content := [8;9]%N; e_chunks := []; e_md5 := Some 2%N |}).
Proof. vm_compute; reflexivity. Qed.

(* limit 4 above the chunk size 2, body of 3 bytes: chunked, nothing dropped *)
Lemma example_limit_above_chunk :
  let rq := mk_rq Put false false 2 4 [1;2;3]%N Eof [] in
  exists e, handle_write (fun _ => 0%N) rq None = (Created, Some e) /\
            e_content e = [] /\ read_entry e = [1;2;3]%N.
Proof. eexists. repeat split; vm_compute; reflexivity. Qed.

(* same under /etc *)
Lemma example_etc :
  let rq := mk_rq Put false true 2 0 [1;2;3]%N Eof [] in
  exists e, handle_write (fun _ => 0%N) rq None = (Created, Some e) /\ read_entry e = [1;2;3]%N.
Proof. eexists. split; vm_compute; reflexivity. Qed.

(* append to an entry with chunk [0,3) and FileSize attribute 0: lands at offset 3 *)
Lemma example_append_filesize0 :
  let e0 := {| e_size := 0; e_content := []; e_chunks := [Ck 0 3 [97;98;99]%N]; e_md5 := None |} in
  let rq := mk_rq Put true false 4 0 [90]%N Eof [] in
  wf_entry e0 /\
  exists e1, handle_write (fun _ => 0%N) rq (Some e0) = (Created, Some e1) /\
             read_entry e1 = [97;98;99;90]%N /\ e_size e1 = 4%N.
Proof. split; [repeat constructor|]. eexists. repeat split; vm_compute; reflexivity. Qed.

(* the reader fails after 3 bytes: reported, nothing committed *)
Lemma example_read_error :
  let rq := mk_rq Put false false 2 0 [1;2;3]%N ReadErr [] in
  request_fails rq = true /\ handle_write (fun _ => 0%N) rq None = (Failed, None).
Proof. split; vm_compute; reflexivity. Qed.

(* the second upload fails: reported, nothing committed *)
Lemma example_upload_failure :
  let rq := mk_rq Put false false 2 0 [1;2;3]%N Eof [false;true] in
  request_fails rq = true /\ handle_write (fun _ => 0%N) rq None = (Failed, None).
Proof. split; vm_compute; reflexivity. Qed.

(* maxMB=2048 and maxMB=0 are rejected; 2047 is the largest accepted value *)
Lemma example_maxmb :
  auto_chunk_size 2048 4 = None /\ auto_chunk_size 0 0 = None /\
  auto_chunk_size 2047 4 = Some 2146435072%Z /\ auto_chunk_size 0 4 = Some 4194304%Z.
Proof. repeat split; vm_compute; reflexivity. Qed.
