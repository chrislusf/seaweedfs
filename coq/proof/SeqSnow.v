(* C13, snowflake sequencer: the per-pair form of the uniqueness theorem, without
   the hypothesis that the node ids are pairwise different (finding 5 is exactly
   the set of pairs left out). *)
From Coq Require Import List NArith Bool Sorted.
From SW Require Import model.Seq proof.SeqProofs.
Import ListNotations.
Local Open Scope N_scope.

(* two ids of the same node, or of two nodes with different 10-bit node ids, satisfy ev_ok; no
   claim for other pairs *)
Definition sf_pair_ok (nids : list N) (e1 e2 : ev) : Prop :=
  match e1, e2 with
  | Ret j _ _, Ret i _ _ => (j = i \/ nth j nids 0 <> nth i nids 0) -> ev_ok e1 e2
  | _, _ => True
  end.

Definition sf_ids_ok (nids : list N) : bool := forallb (fun x => x <? 1024) nids.

(* every run with 10-bit node ids, monotone clocks and counts <= 1: all pairs of
   ids except those of two different nodes with the same node id *)
Theorem sf_pairs_ok : forall nids calls,
  sf_ids_ok nids = true ->
  sf_clock_ok nids (sf_init nids) calls = true ->
  sf_count_trigger calls = false ->
  ForallOrdPairs (sf_pair_ok nids) (somes (snd (sf_run nids (sf_init nids) calls))).
Proof.
  intros nids calls Hn Hc Ht. eapply fop_impl; [|apply sf_rel_run; assumption].
  intros [j ? ?|] [i ? ?|]; try contradiction. intros [_ [_ H]]. exact H.
Qed.
