(* C30: the concrete counterexamples to the full-strength statements about model/DirtyPages.v (the findings)
   and the trigger-free witnesses; re-exports the other DirtyPages proof files. *)
From Coq Require Import List ZArith NArith Bool Lia.
From SW Require Export model.DirtyPages proof.DirtyPagesBase proof.DirtyPagesIntervals proof.DirtyPagesState
                       proof.DirtyPagesRead proof.DirtyPagesMem proof.DirtyPagesTemp.
Import ListNotations.
Local Open Scope Z_scope.

Ltac ops_ok := repeat constructor; cbn; try lia; try discriminate.

(* finding 0: a truncate below the file size while pages are dirty *)
Definition w0_mem : list op := [Write 0 [1;2;3;4]%N; Write 8 [5;6;7;8]%N; Trunc 8].
Definition w0_temp : list op := [Write 0 [1;2;3;4;5;6;7;8]%N; Trunc 4].

Lemma m_flush_refuted : exists limit pre, 0 < limit /\ Forall op_ok (pre ++ [Flush]) /\
  content_of (m_meta (exec mstate (m_step limit) mstate0 (pre ++ [Flush]))) <> pfile (pre ++ [Flush]).
Proof.
  exists 16, w0_mem. split; [lia|]. split; [unfold w0_mem; ops_ok|].
  intro H. vm_compute in H. discriminate.
Qed.

Lemma t_flush_refuted : exists limit pre, 0 < limit /\ Forall op_ok (pre ++ [Flush]) /\
  content_of (t_meta (exec tstate (t_step limit) tstate0 (pre ++ [Flush]))) <> pfile (pre ++ [Flush]).
Proof.
  exists 16, w0_temp. split; [lia|]. split; [unfold w0_temp; ops_ok|].
  intro H. vm_compute in H. discriminate.
Qed.

Lemma w0_mem_values :
  content_of (m_meta (exec mstate (m_step 16) mstate0 (w0_mem ++ [Flush]))) = [0;0;0;0;0;0;0;0]%N /\
  shape _ (m_iv (exec mstate (m_step 16) mstate0 (w0_mem ++ [Flush]))) = [[(0, 4)]] /\
  pfile (w0_mem ++ [Flush]) = [1;2;3;4;0;0;0;0]%N /\
  m_trigger 16 (w0_mem ++ [Flush]) = Some 0%N.
Proof. vm_compute. repeat split; reflexivity. Qed.

Lemma w0_temp_values :
  content_of (t_meta (exec tstate (t_step 16) tstate0 (w0_temp ++ [Flush]))) = [1;2;3;4;5;6;7;8]%N /\
  pfile (w0_temp ++ [Flush]) = [1;2;3;4]%N /\
  t_trigger 16 (w0_temp ++ [Flush]) = Some 0%N.
Proof. vm_compute. repeat split; reflexivity. Qed.

(* the dirty buffer itself returns stale bytes after shrink + extend *)
Definition w0_read : list op := [Write 0 [1;2;3;4;5;6;7;8]%N; Trunc 4; Trunc 8; Read 0 8].
Lemma w0_read_values :
  last (m_run 16 w0_read) (OTrunc [] 0) = ORead [1;2;3;4;5;6;7;8]%N 8 [1;2;3;4;5;6;7;8]%N /\
  pread (pfile w0_read) 0 8 = [1;2;3;4;0;0;0;0]%N.
Proof. vm_compute. split; reflexivity. Qed.

(* file.go Setattr keeps the chunks lying wholly inside the new size: w_kept is trigger-free and
   resolves to the POSIX file *)
Definition w_kept : list op := [Write 0 [1;2;3;4]%N; Flush; Write 4 [5;6;7;8]%N; Flush; Trunc 6].

Lemma w_kept_values :
  m_trigger 16 (w_kept ++ [Flush]) = None /\ t_trigger 16 (w_kept ++ [Flush]) = None /\
  content_of (m_meta (exec mstate (m_step 16) mstate0 (w_kept ++ [Flush]))) = [1;2;3;4;5;6]%N /\
  content_of (t_meta (exec tstate (t_step 16) tstate0 (w_kept ++ [Flush]))) = [1;2;3;4;5;6]%N /\
  pfile (w_kept ++ [Flush]) = [1;2;3;4;5;6]%N.
Proof. vm_compute. repeat split; reflexivity. Qed.

(* finding 1: FileHandle.Read keeps serving the visible intervals computed at the first read *)
Definition w2 : list op := [Write 0 [1;2;3;4]%N; Flush; Read 0 8; Write 0 [5;6;7;8]%N; Flush; Read 0 8].

Definition read_data (o : obs) : list N := match o with ORead _ _ d => d | _ => [] end.

Lemma handle_read_refuted : exists limit ops, 0 < limit /\ Forall op_ok ops /\
  m_trigger limit ops = Some 1%N /\ t_trigger limit ops = Some 1%N /\
  read_data (last (m_run limit ops) (OTrunc [] 0)) <> pread (pfile ops) 0 8 /\
  read_data (last (t_run limit ops) (OTrunc [] 0)) <> pread (pfile ops) 0 8.
Proof.
  exists 16, w2. split; [lia|]. split; [unfold w2; ops_ok|].
  split; [vm_compute; reflexivity|]. split; [vm_compute; reflexivity|].
  split; intro H; vm_compute in H; discriminate.
Qed.

Lemma w2_values :
  read_data (last (m_run 16 w2) (OTrunc [] 0)) = [1;2;3;4]%N /\ pread (pfile w2) 0 8 = [5;6;7;8]%N.
Proof. vm_compute. split; reflexivity. Qed.

(* non-vacuity: trigger-free histories with a page larger than the chunk limit, an automatic
   save, a hole, and a shrinking truncate; the partial theorems apply and give the POSIX content *)
Definition ex_ops : list op :=
  [Write 0 [1;2;3;4;5;6]%N; Write 9 [7;8]%N; Flush; Trunc 3; Write 5 [9]%N; Read 0 6; Trunc 10; Flush].

Lemma ex_trigger_free : m_trigger 4 ex_ops = None /\ t_trigger 4 ex_ops = None /\ Forall op_ok ex_ops.
Proof. split; [vm_compute; reflexivity|]. split; [vm_compute; reflexivity|]. unfold ex_ops. ops_ok. Qed.

Lemma ex_content :
  content_of (m_meta (exec mstate (m_step 4) mstate0 ex_ops)) = [1;2;3;0;0;9;0;0;0;0]%N /\
  content_of (t_meta (exec tstate (t_step 4) tstate0 ex_ops)) = [1;2;3;0;0;9;0;0;0;0]%N /\
  pfile ex_ops = [1;2;3;0;0;9;0;0;0;0]%N /\
  length (f_chunks (m_meta (exec mstate (m_step 4) mstate0 ex_ops))) = 3%nat.
Proof. vm_compute. repeat split; reflexivity. Qed.
