(* What the primitives of model/EcBalance.v (C16) do: ShardBits, the entries of one node,
   an update of one node in the list.  Also the tactic [inv] used by all EcBalance files. *)
From Coq Require Import List NArith ZArith Bool Lia Arith.
From SW Require Import proof.ListFacts model.EcBalance.
Import ListNotations.
Local Open Scope N_scope.

Ltac inv H := inversion H; subst; clear H.

Lemma shiftl_1_bit : forall i j, N.testbit (N.shiftl 1 i) j = (i =? j).
Proof. intros. rewrite N.shiftl_1_l. apply N.pow2_bits_eqb. Qed.

Lemma has_add_id : forall b i j, has (add_id b i) j = has b j || (i =? j).
Proof. intros. unfold has, add_id. rewrite N.lor_spec, shiftl_1_bit. reflexivity. Qed.

Lemma has_remove_id : forall b i j, has (remove_id b i) j = has b j && negb (i =? j).
Proof. intros. unfold has, remove_id. rewrite N.ldiff_spec, shiftl_1_bit. reflexivity. Qed.

Lemma has_zero : forall j, has 0 j = false.
Proof. intros. unfold has. apply N.bits_0. Qed.

Lemma shard_ids_has : forall b s, In s (shard_ids b) -> has b s = true.
Proof. intros b s. unfold shard_ids. generalize shard_range. intros l H. apply filter_In in H. apply H. Qed.

Lemma range_In : forall n s, In s (map N.of_nat (seq 0 n)) <-> s < N.of_nat n.
Proof.
  intros n s. rewrite in_map_iff. split.
  - intros [k [E H]]. apply in_seq in H. lia.
  - intros H. exists (N.to_nat s). rewrite N2Nat.id. split; [reflexivity|]. apply in_seq. lia.
Qed.
Lemma range_NoDup : forall n a, NoDup (map N.of_nat (seq a n)).
Proof.
  induction n as [|n IH]; intros a; simpl; constructor; [|apply IH].
  rewrite in_map_iff. intros [k [E H]]. apply in_seq in H. apply Nat2N.inj in E. lia.
Qed.

(* shard ids and bit positions are the initial segments below 14 and 32 *)
Lemma in_shard_range : forall s, In s shard_range <-> s < 14.
Proof. exact (range_In 14). Qed.
Lemma in_bit_range : forall s, In s bit_range <-> s < 32.
Proof. exact (range_In 32). Qed.
Lemma shard_in_bit_range : forall s, In s shard_range -> In s bit_range.
Proof. intros s H. apply in_bit_range. apply in_shard_range in H. lia. Qed.
Lemma shard_ids_range : forall b s, In s (shard_ids b) -> In s shard_range.
Proof. intros b s. unfold shard_ids. generalize shard_range. intros l H. apply filter_In in H. apply H. Qed.

Lemma shard_ids_NoDup : forall b, NoDup (shard_ids b).
Proof. intros. apply NoDup_filter. exact (range_NoDup 14 0). Qed.
Lemma bit_range_NoDup : NoDup bit_range.
Proof. exact (range_NoDup 32 0). Qed.

Definition b2n (b : bool) : nat := if b then 1%nat else 0%nat.

Lemma mem_In : forall x l, mem x l = true <-> In x l.
Proof. exact (existsb_eqb_In N.eqb N.eqb_eq). Qed.

(* two predicates that agree everywhere except at i select the same elements of a
   duplicate-free list, i apart: every fact about the popcount below is this one *)
Lemma filter_len_point : forall (f g : N -> bool) i l, NoDup l -> (forall j, j <> i -> g j = f j) ->
  (length (filter g l) + b2n (f i && mem i l) = length (filter f l) + b2n (g i && mem i l))%nat.
Proof.
  intros f g i l Hnd Hfg. induction l as [|x l IH]; simpl.
  - rewrite !andb_false_r. reflexivity.
  - inv Hnd. specialize (IH H2). destruct (N.eqb_spec i x) as [E|E]; simpl.
    + subst x. destruct (mem i l) eqn:M; [apply mem_In in M; contradiction|].
      rewrite !andb_false_r in IH. rewrite !andb_true_r. destruct (f i), (g i); simpl in *; lia.
    + rewrite (Hfg x) by congruence. destruct (f x); simpl; lia.
Qed.

Lemma count_point : forall b b' i, (forall j, j <> i -> has b' j = has b j) ->
  (count b' + Z.of_nat (b2n (has b i && mem i bit_range)) = count b + Z.of_nat (b2n (has b' i && mem i bit_range)))%Z.
Proof.
  intros b b' i H. unfold count.
  pose proof (filter_len_point (has b) (has b') i bit_range bit_range_NoDup H). lia.
Qed.

Lemma has_add_other : forall b i j, j <> i -> has (add_id b i) j = has b j.
Proof. intros b i j H. rewrite has_add_id. destruct (N.eqb_spec i j); [congruence|apply orb_false_r]. Qed.
Lemma has_remove_other : forall b i j, j <> i -> has (remove_id b i) j = has b j.
Proof. intros b i j H. rewrite has_remove_id. destruct (N.eqb_spec i j); [congruence|apply andb_true_r]. Qed.
Lemma has_add_same : forall b i, has (add_id b i) i = true.
Proof. intros. rewrite has_add_id, N.eqb_refl. apply orb_true_r. Qed.
Lemma has_remove_same : forall b i, has (remove_id b i) i = false.
Proof. intros. rewrite has_remove_id, N.eqb_refl. apply andb_false_r. Qed.

Lemma count_add_le : forall b i, (count (add_id b i) <= count b + 1)%Z.
Proof.
  intros. pose proof (count_point b (add_id b i) i (has_add_other b i)) as A. rewrite has_add_same in A.
  destruct (has b i), (mem i bit_range); simpl in A; lia.
Qed.
Lemma count_add_ge : forall b i, (count b <= count (add_id b i))%Z.
Proof.
  intros. pose proof (count_point b (add_id b i) i (has_add_other b i)) as A. rewrite has_add_same in A.
  destruct (has b i), (mem i bit_range); simpl in A; lia.
Qed.
Lemma count_add_exact : forall b s, has b s = false -> In s bit_range -> count (add_id b s) = (count b + 1)%Z.
Proof.
  intros b s Hh Hin. pose proof (count_point b (add_id b s) s (has_add_other b s)) as A.
  rewrite has_add_same, Hh, (proj2 (mem_In _ _) Hin) in A. simpl in A. lia.
Qed.
Lemma count_remove_le : forall b i, (count (remove_id b i) <= count b)%Z.
Proof.
  intros. pose proof (count_point b (remove_id b i) i (has_remove_other b i)) as A. rewrite has_remove_same in A.
  destruct (has b i), (mem i bit_range); simpl in A; lia.
Qed.
Lemma count_remove_exact : forall b s, has b s = true -> In s bit_range -> count (remove_id b s) = (count b - 1)%Z.
Proof.
  intros b s Hh Hin. pose proof (count_point b (remove_id b s) s (has_remove_other b s)) as A.
  rewrite has_remove_same, Hh, (proj2 (mem_In _ _) Hin) in A. simpl in A. lia.
Qed.
Lemma count_nonneg : forall b, (0 <= count b)%Z.
Proof. intros. unfold count. lia. Qed.

Lemma find_bits_notin : forall es v, ~ In v (map e_vid es) -> find_bits es v = 0.
Proof.
  induction es as [|e es IH]; intros v H; simpl in *; auto.
  destruct (N.eqb_spec (e_vid e) v); [exfalso; apply H; auto|]. apply IH. tauto.
Qed.

(* addEcVolumeShards on the entries of one node: the first entry of the volume gets the bit and the
   free slots pay for it; without such an entry a new one is appended *)
Lemma add_in_some : forall es v s es' d, add_in es v s = Some (es', d) ->
  map e_vid es' = map e_vid es /\
  (forall v', find_bits es' v' = if v' =? v then add_id (find_bits es v) s else find_bits es v') /\
  d = (count (add_id (find_bits es v) s) - count (find_bits es v))%Z.
Proof.
  induction es as [|e es IH]; intros v s es' d H; simpl in H; [discriminate|]. simpl.
  destruct (N.eqb_spec (e_vid e) v) as [E|E].
  - inv H. simpl. repeat split. intros v'.
    destruct (N.eqb_spec (e_vid e) v'), (N.eqb_spec v' (e_vid e)); congruence.
  - destruct (add_in es v s) as [[r d0]|] eqn:A; [|discriminate]. inv H.
    destruct (IH _ _ _ _ A) as (I1 & I2 & I3). simpl. split; [f_equal; exact I1|]. split; [|exact I3].
    intros v'. rewrite I2. destruct (N.eqb_spec (e_vid e) v'), (N.eqb_spec v' v); congruence.
Qed.

Lemma add_in_none : forall es v s, add_in es v s = None -> ~ In v (map e_vid es).
Proof.
  induction es as [|e es IH]; intros v s H; simpl in *; auto.
  destruct (N.eqb_spec (e_vid e) v); [discriminate|].
  destruct (add_in es v s) as [[r d]|] eqn:A; [discriminate|].
  intros [X|X]; [contradiction|]. eapply IH; eauto.
Qed.

Lemma find_bits_app_new : forall es v c s v', ~ In v (map e_vid es) ->
  find_bits (es ++ [new_entry v c s]) v' = if v' =? v then add_id 0 s else find_bits es v'.
Proof.
  induction es as [|e es IH]; intros v c s v' H; simpl in *.
  - rewrite (N.eqb_sym v v'). reflexivity.
  - rewrite IH by tauto. destruct (N.eqb_spec (e_vid e) v'), (N.eqb_spec v' v); try reflexivity.
    exfalso. apply H. left. congruence.
Qed.

(* deleteEcVolumeShards on the entries of one node: every entry of the volume loses the bit and the
   free slots gain what the entries lose; with one entry per volume that is what [find_bits] loses *)
Lemma del_in_spec : forall es v s,
  map e_vid (fst (del_in es v s)) = map e_vid es /\
  (forall v', find_bits (fst (del_in es v s)) v' = if v' =? v then remove_id (find_bits es v) s else find_bits es v') /\
  (snd (del_in es v s) <= 0)%Z /\
  (NoDup (map e_vid es) ->
   snd (del_in es v s) = (count (remove_id (find_bits es v) s) - count (find_bits es v))%Z).
Proof.
  induction es as [|e es IH]; intros v s; simpl.
  - repeat split; [intros v'; destruct (v' =? v); reflexivity|lia].
  - destruct (IH v s) as (I1 & I2 & I3 & I4). destruct (del_in es v s) as [r d]. simpl in *.
    pose proof (count_remove_le (e_bits e) s) as Le.
    destruct (N.eqb_spec (e_vid e) v) as [E|E]; simpl; (split; [f_equal; exact I1|]); (split; [|split; [lia|]]).
    + intros v'. rewrite I2. destruct (N.eqb_spec (e_vid e) v'), (N.eqb_spec v' v); congruence.
    + intros Hnd. inv Hnd. rewrite I4, (find_bits_notin es (e_vid e) H1) by assumption.
      change (count (remove_id 0 s)) with (count 0). lia.
    + intros v'. rewrite I2. destruct (N.eqb_spec (e_vid e) v'), (N.eqb_spec v' v); congruence.
    + intros Hnd. inv Hnd. auto.
Qed.

Lemma find_add_shard : forall n v c s v',
  find (add_shard v c s n) v' = if v' =? v then add_id (find n v) s else find n v'.
Proof.
  intros. unfold find, add_shard, entries. destruct (n_disk n) as [es|] eqn:D; simpl.
  - destruct (add_in es v s) as [[es' d]|] eqn:A; simpl.
    + apply (add_in_some _ _ _ _ _ A).
    + apply add_in_none in A. rewrite (find_bits_app_new es v c s v' A), (find_bits_notin _ _ A). reflexivity.
  - rewrite (N.eqb_sym v v'). destruct (v' =? v); reflexivity.
Qed.

Lemma find_del_shard : forall n v s v',
  find (del_shard v s n) v' = if v' =? v then remove_id (find n v) s else find n v'.
Proof.
  intros. unfold find, del_shard, entries. destruct (n_disk n) as [es|] eqn:D; simpl.
  - destruct (del_in_spec es v s) as (_ & H & _). specialize (H v'). destruct (del_in es v s) as [es' d]. exact H.
  - rewrite D. simpl. destruct (v' =? v); reflexivity.
Qed.

Definition wf_ids (ns : list node) : Prop := NoDup (map n_id ns).
Definition holds (v s : N) (n : node) : bool := has (find n v) s.

Lemma total_eq : forall ns v s, total ns v s = length (filter (holds v s) ns).
Proof. reflexivity. Qed.

Definition keeps_id_rack (f : node -> node) : Prop := forall n, n_id (f n) = n_id n /\ n_rack (f n) = n_rack n.

Lemma upd_ids : forall ns id f, keeps_id_rack f -> map n_id (upd_node ns id f) = map n_id ns.
Proof.
  intros ns id f Hf. unfold upd_node. rewrite map_map. apply map_ext. intros n.
  destruct (n_id n =? id); auto. apply Hf.
Qed.

Lemma upd_wf : forall ns id f, keeps_id_rack f -> wf_ids ns -> wf_ids (upd_node ns id f).
Proof. intros. unfold wf_ids. rewrite upd_ids; auto. Qed.

Lemma get_upd : forall ns id f id', keeps_id_rack f ->
  get_node (upd_node ns id f) id' =
  if id' =? id then option_map f (get_node ns id) else get_node ns id'.
Proof.
  induction ns as [|n ns IH]; intros id f id' Hf; simpl; [destruct (id' =? id); reflexivity|].
  destruct (N.eqb_spec (n_id n) id) as [E|E]; [rewrite (proj1 (Hf n))|]; rewrite (IH id f id' Hf);
    destruct (N.eqb_spec (n_id n) id'), (N.eqb_spec id' id); simpl; congruence.
Qed.

Lemma get_node_in : forall ns id n, get_node ns id = Some n -> In n ns /\ n_id n = id.
Proof.
  induction ns as [|x ns IH]; intros id n H; simpl in *; [discriminate|].
  destruct (N.eqb_spec (n_id x) id).
  - inv H. auto.
  - apply IH in H. tauto.
Qed.

Lemma get_node_none_upd : forall ns id f, get_node ns id = None -> upd_node ns id f = ns.
Proof.
  induction ns as [|x ns IH]; intros id f H; simpl in *; auto.
  destruct (n_id x =? id); [discriminate|]. f_equal. apply IH; auto.
Qed.

Lemma notin_upd : forall ns id f, ~ In id (map n_id ns) -> upd_node ns id f = ns.
Proof.
  intros ns id f H. apply get_node_none_upd. destruct (get_node ns id) as [n|] eqn:G; [|reflexivity].
  apply get_node_in in G. destruct G as [Hin <-]. exfalso. apply H. now apply in_map.
Qed.

Lemma filter_len_upd : forall (p : node -> bool) ns id f n, keeps_id_rack f -> wf_ids ns ->
  get_node ns id = Some n ->
  (length (filter p (upd_node ns id f)) + b2n (p n) = length (filter p ns) + b2n (p (f n)))%nat.
Proof.
  induction ns as [|x ns IH]; intros id f n Hf Hwf H; simpl in *; [discriminate|].
  inv Hwf. destruct (N.eqb_spec (n_id x) id) as [E|E].
  - inv H. rewrite notin_upd by auto. destruct (p (f n)), (p n); simpl; lia.
  - specialize (IH id f n Hf H3 H). destruct (p x); simpl; lia.
Qed.

Lemma total_upd : forall ns id f n v s, keeps_id_rack f -> wf_ids ns -> get_node ns id = Some n ->
  (total (upd_node ns id f) v s + b2n (holds v s n) = total ns v s + b2n (holds v s (f n)))%nat.
Proof. intros. rewrite !total_eq. apply filter_len_upd; auto. Qed.

Lemma keeps_add : forall v c s, keeps_id_rack (add_shard v c s).
Proof. intros v c s n. unfold add_shard. destruct (n_disk n); [destruct (add_in l v s) as [[? ?]|]|]; split; reflexivity. Qed.
Lemma keeps_del : forall v s, keeps_id_rack (del_shard v s).
Proof. intros v s n. unfold del_shard. destruct (n_disk n); [destruct (del_in l v s)|]; split; reflexivity. Qed.
#[export] Hint Resolve keeps_add keeps_del : c16.

Lemma holds_add : forall v c s n v' s',
  holds v' s' (add_shard v c s n) = holds v' s' n || ((v' =? v) && (s =? s')).
Proof.
  intros. unfold holds. rewrite find_add_shard. destruct (v' =? v) eqn:E; simpl.
  - apply N.eqb_eq in E. subst. apply has_add_id.
  - rewrite orb_false_r. reflexivity.
Qed.
Lemma holds_del : forall v s n v' s',
  holds v' s' (del_shard v s n) = holds v' s' n && negb ((v' =? v) && (s =? s')).
Proof.
  intros. unfold holds. rewrite find_del_shard. destruct (v' =? v) eqn:E; simpl.
  - apply N.eqb_eq in E. subst. apply has_remove_id.
  - rewrite andb_true_r. reflexivity.
Qed.

Lemma node_rack_upd : forall ns id f x, keeps_id_rack f -> node_rack (upd_node ns id f) x = node_rack ns x.
Proof.
  intros. unfold node_rack. rewrite get_upd by auto. destruct (N.eqb_spec x id); auto.
  subst. destruct (get_node ns id); simpl; auto. apply H.
Qed.

Lemma node_bits_upd_other : forall ns id f x v, keeps_id_rack f -> x <> id ->
  node_bits (upd_node ns id f) x v = node_bits ns x v.
Proof.
  intros. unfold node_bits. rewrite get_upd by auto. destruct (N.eqb_spec x id); [contradiction|reflexivity].
Qed.

Lemma node_rack_get : forall ns id n, get_node ns id = Some n -> node_rack ns id = n_rack n.
Proof. intros. unfold node_rack. rewrite H. reflexivity. Qed.
Lemma node_bits_get : forall ns id n v, get_node ns id = Some n -> node_bits ns id v = find n v.
Proof. intros. unfold node_bits. rewrite H. reflexivity. Qed.

Lemma node_rack_move : forall ns src v c s dst x, node_rack (move_shard ns src v c s dst) x = node_rack ns x.
Proof. intros. unfold move_shard. rewrite !node_rack_upd; auto with c16. Qed.

Lemma get_node_self : forall ns n, wf_ids ns -> In n ns -> get_node ns (n_id n) = Some n.
Proof.
  induction ns as [|x ns IH]; intros n Hwf Hin; simpl in *; [destruct Hin|].
  inv Hwf. destruct Hin as [E|Hin].
  - subst. rewrite N.eqb_refl. reflexivity.
  - destruct (N.eqb_spec (n_id x) (n_id n)) as [E|E].
    + exfalso. apply H1. rewrite E. apply in_map. exact Hin.
    + apply IH; auto.
Qed.

Lemma rack_node_ids_rack : forall ns r x, wf_ids ns -> In x (rack_node_ids ns r) -> node_rack ns x = r.
Proof.
  intros ns r x Hwf H. unfold rack_node_ids in H. apply in_map_iff in H. destruct H as [n [E Hin]].
  apply filter_In in Hin. destruct Hin as [Hin Hr]. apply N.eqb_eq in Hr. subst x.
  rewrite (node_rack_get _ _ _ (get_node_self ns n Hwf Hin)). exact Hr.
Qed.

Lemma alookup_aadd : forall l k d k', alookup (aadd l k d) k' = (alookup l k' + (if N.eqb k k' then d else 0))%Z.
Proof.
  induction l as [|[k0 x] l IH]; intros k d k'; simpl; [destruct (k =? k'); lia|].
  destruct (N.eqb_spec k0 k); simpl; [|rewrite IH];
    destruct (N.eqb_spec k0 k'), (N.eqb_spec k k'); subst; try congruence; lia.
Qed.

Lemma free_add_shard : forall v c s n, has (find n v) s = false -> In s bit_range ->
  n_free (add_shard v c s n) = (n_free n - 1)%Z.
Proof.
  intros v c s n Hh Hin. unfold add_shard, find, entries in *. destruct (n_disk n) as [es|]; simpl; auto.
  destruct (add_in es v s) as [[es' d]|] eqn:A; simpl; auto.
  destruct (add_in_some _ _ _ _ _ A) as (_ & _ & ->). rewrite (count_add_exact _ _ Hh Hin). lia.
Qed.

Lemma free_del_shard : forall v s n, NoDup (map e_vid (entries n)) -> has (find n v) s = true -> In s bit_range ->
  n_free (del_shard v s n) = (n_free n + 1)%Z.
Proof.
  intros v s n Hnd Hh Hin. unfold del_shard, find, entries in *. destruct (n_disk n) as [es|] eqn:D; simpl.
  - destruct (del_in_spec es v s) as (_ & _ & _ & X). specialize (X Hnd). destruct (del_in es v s) as [es' d]. simpl in *. subst d.
    rewrite (count_remove_exact _ _ Hh Hin). lia.
  - simpl in Hh. discriminate.
Qed.

Lemma dedup_In : forall l x, In x (dedup l) <-> In x l.
Proof.
  induction l as [|y l IH]; intros x; simpl; [tauto|].
  destruct (mem y l) eqn:M.
  - rewrite IH. split; auto. intros [E|H]; auto. subst. apply mem_In. exact M.
  - simpl. rewrite IH. tauto.
Qed.
