(* C01, refinement PER KEY for all entry points of model/Volume.v: a key that no finding has touched (a
   clean key) answers exactly as the specification says, in EVERY history, whatever happened to the others.
   Here: the invariant of the clean keys (bounded, flags_eq, K, RD) and what an operation leaves alone off
   its keys (vframe, sframe). *)
From Coq Require Import List NArith ZArith Bool Lia.
From SW Require Import model.Volume proof.VolumeProofs.
Import ListNotations.
Local Open Scope N_scope.

Lemma memN_true : forall k l, memN k l = true <-> In k l.
Proof.
  induction l as [|x l IH]; simpl; [split; [discriminate | tauto]|].
  rewrite orb_true_iff, N.eqb_eq, IH. tauto.
Qed.

Lemma memN_single : forall k id, memN k [id] = false <-> id <> k.
Proof. intros. simpl. rewrite orb_false_r. apply N.eqb_neq. Qed.

Lemma pairs_eqb_refl : forall l, pairs_eqb l l = true.
Proof.
  induction l as [|[a b] l IH]; [reflexivity|]. simpl. unfold pair_eqb. simpl.
  rewrite !N.eqb_refl. exact IH.
Qed.

Lemma err_eqb_refl : forall e, err_eqb e e = true.
Proof. destruct e; reflexivity. Qed.

Lemma let_pair : forall (A B C : Type) (p : A * B) (f : A -> B -> C),
  (let '(a, b) := p in f a b) = f (fst p) (snd p).
Proof. intros A B C [a b] f. reflexivity. Qed.

Lemma dirt_get_app_map : forall f ks D id,
  dirt_get (map (fun k => (k, f)) ks ++ D) id = if memN id ks then Some f else dirt_get D id.
Proof.
  induction ks as [|k ks IH]; intros D id; [reflexivity|].
  simpl. destruct (k =? id); [reflexivity | apply IH].
Qed.

Lemma dirt_of_keys_none : forall D ks,
  dirt_of_keys D ks = None <-> (forall id, memN id ks = true -> dirt_get D id = None).
Proof.
  induction ks as [|k ks IH]; simpl.
  - split; [intros _ id H; discriminate | reflexivity].
  - destruct (dirt_get D k) as [f|] eqn:E.
    + split; [discriminate|]. intro H. specialize (H k). rewrite N.eqb_refl in H. rewrite E in H.
      apply H. reflexivity.
    + rewrite IH. split.
      * intros H id Hm. apply orb_true_iff in Hm. destruct Hm as [Hm|Hm]; [apply N.eqb_eq in Hm; subst; exact E | auto].
      * intros H id Hm. apply H. rewrite Hm. apply orb_true_r.
Qed.

(* the record list: offsets below the end of the file, Size header as computed from the needle *)
Definition bounded (st : vol) : Prop :=
  0 < dat_end st /\
  forall off r, find_rec (recs st) off = Some r -> off < dat_end st /\ r_size r = needle_size (r_n r).

Definition flags_eq (st : vol) (sp : spec) : Prop :=
  no_write_or_delete st = s_nwod sp /\ no_write_can_delete st = s_nwcd sp.

(* one key of the volume against its specification entry *)
Definition K (st : vol) (sp : spec) (seen : list needle) (id : N) : Prop :=
  R_entry st seen id (s_get (s_map sp) id).

(* every clean key; VolumeKeyMain.v works with the same over any set of keys, RC (cleanD D) *)
Definition RD (D : dirt) (st : vol) (sp : spec) (seen : list needle) : Prop :=
  flags_eq st sp /\ bounded st /\ forall id, dirt_get D id = None -> K st sp seen id.

Lemma RD_init : RD [] init spec_init [].
Proof.
  split; [split; reflexivity|]. split.
  - split; [reflexivity|]. intros off r H. discriminate.
  - intros id _. reflexivity.
Qed.

(* what an operation on the keys [ks] leaves alone *)
Definition vframe (ks : list N) (st st' : vol) : Prop :=
  no_write_or_delete st' = no_write_or_delete st /\ no_write_can_delete st' = no_write_can_delete st /\
  (forall off r, find_rec (recs st) off = Some r -> find_rec (recs st') off = Some r) /\
  (forall id, memN id ks = false -> nm_get (nm st') id = nm_get (nm st) id).

Definition sframe (ks : list N) (sp sp' : spec) : Prop :=
  s_nwod sp' = s_nwod sp /\ s_nwcd sp' = s_nwcd sp /\
  forall id, memN id ks = false -> s_get (s_map sp') id = s_get (s_map sp) id.

Lemma vframe_refl : forall ks st, vframe ks st st.
Proof. intros. repeat split; auto. Qed.

Lemma sframe_refl : forall ks sp, sframe ks sp sp.
Proof. intros. repeat split; auto. Qed.

Lemma vframe_cons : forall k ks a b c, vframe [k] a b -> vframe ks b c -> vframe (k :: ks) a c.
Proof.
  intros k ks a b c (A1 & A2 & A3 & A4) (B1 & B2 & B3 & B4). repeat split; try congruence; auto.
  intros id H. cbn [memN] in *. apply orb_false_iff in H. destruct H as [H1 H2]. rewrite B4, A4; [reflexivity | rewrite H1; reflexivity | exact H2].
Qed.

Lemma sframe_cons : forall k ks a b c, sframe [k] a b -> sframe ks b c -> sframe (k :: ks) a c.
Proof.
  intros k ks a b c (A1 & A2 & A3) (B1 & B2 & B3). repeat split; try congruence.
  intros id H. cbn [memN] in *. apply orb_false_iff in H. destruct H as [H1 H2]. rewrite B3, A3; [reflexivity | rewrite H1; reflexivity | exact H2].
Qed.

Lemma K_frame : forall ks st st' sp sp' seen seen' id,
  K st sp seen id -> vframe ks st st' -> sframe ks sp sp' -> memN id ks = false -> incl seen seen' ->
  K st' sp' seen' id.
Proof.
  intros ks st st' sp sp' seen seen' id HK (_ & _ & V3 & V4) (_ & _ & S3) Hm Hi.
  unfold K in *. rewrite (S3 id Hm). eapply R_entry_frame; eauto.
Qed.

Lemma append_shape : forall st n t,
  fst (fst (append st n t)) =
  {| recs := {| r_off := dat_end st; r_size := needle_size n; r_at := t; r_n := n |} :: recs st;
     nm := nm st; dat_end := dat_end st + actual_size (needle_size n);
     no_write_or_delete := no_write_or_delete st; no_write_can_delete := no_write_can_delete st |}.
Proof. reflexivity. Qed.

Lemma append_bounded : forall st n t, bounded st -> bounded (fst (fst (append st n t))).
Proof.
  intros st n t [B1 B2]. rewrite append_shape. pose proof (actual_size_pos (needle_size n)) as Hp.
  split; cbn [dat_end recs]; [lia|].
  intros off r H. cbn [find_rec r_off] in H. destruct (dat_end st =? off) eqn:E.
  - apply N.eqb_eq in E. inversion H; subst. cbn [r_size r_n]. split; [lia | reflexivity].
  - destruct (B2 _ _ H) as [Hb Hs]. split; [lia | exact Hs].
Qed.

Lemma find_rec_append : forall st n t off r,
  bounded st -> find_rec (recs st) off = Some r -> find_rec (recs (fst (fst (append st n t)))) off = Some r.
Proof.
  intros st n t off r [_ B2] H. rewrite append_shape. cbn [recs find_rec r_off]. destruct (B2 _ _ H) as [Hb _].
  destruct (dat_end st =? off) eqn:E; [apply N.eqb_eq in E; lia | exact H].
Qed.

(* an append followed by a change of the needle map at [k] only *)
Lemma append_nm_frame : forall st n t m k,
  bounded st -> (forall id, id <> k -> nm_get m id = nm_get (nm st) id) ->
  bounded (with_nm (fst (fst (append st n t))) m) /\ vframe [k] st (with_nm (fst (fst (append st n t))) m).
Proof.
  intros st n t m k HB Hm. split; [exact (append_bounded st n t HB)|]. repeat split; auto.
  - intros off r H. exact (find_rec_append st n t off r HB H).
  - intros id H. apply memN_single in H. apply Hm. congruence.
Qed.

(* the volume after doWriteRequest has appended [n] and pointed the needle map at the new record *)
Definition written (st : vol) (n : needle) (t : N) : vol :=
  let st1 := fst (fst (append st n t)) in
  with_nm st1 (nm_set (nm st1) (n_id n) {| nv_off := dat_end st; nv_size := Z.of_N (needle_size n) |}).

(* what a write / delete can do to the volume, whatever the key has been through *)
Lemma do_write_cases : forall st n t,
  fst (do_write st n t) = st \/ fst (do_write st n t) = fst (fst (append st n t)) \/
  fst (do_write st n t) = written st n t.
Proof.
  intros st n t. unfold do_write. destruct (is_file_unchanged st n); [left; reflexivity|].
  destruct (nm_get (nm st) (n_id n)) as [nv|].
  - destruct (find_rec (recs st) (nv_off nv)) as [r|]; [|left; reflexivity].
    destruct (n_cookie (r_n r) =? n_cookie n); [|left; reflexivity].
    unfold append. cbn [fst snd]. destruct (nv_off nv <? dat_end st); right; [right|left]; reflexivity.
  - unfold append. cbn [fst snd]. right. right. reflexivity.
Qed.

Lemma store_write_frame : forall st n t,
  bounded st ->
  bounded (fst (store_write st n t)) /\ vframe [n_id n] st (fst (store_write st n t)).
Proof.
  intros st n t HB. unfold store_write. destruct (is_read_only st); [split; [exact HB | apply vframe_refl]|].
  destruct (do_write_cases st n t) as [E|[E|E]]; rewrite E.
  - split; [exact HB | apply vframe_refl].
  - exact (append_nm_frame st n t (nm st) (n_id n) HB (fun _ _ => eq_refl)).
  - apply append_nm_frame; [exact HB|]. intros id H. apply nm_get_other. congruence.
Qed.

Lemma store_delete_cases : forall st id c t,
  let st1 := fst (fst (append st (tombstone id c) t)) in
  fst (fst (store_delete st id c t)) = st \/
  fst (fst (store_delete st id c t)) = with_nm st1 (nm_delete (nm st1) id).
Proof.
  intros st id c t st1. unfold store_delete. destruct (no_write_or_delete st); [left; reflexivity|].
  destruct (nm_get (nm st) id) as [nv|]; [|left; reflexivity].
  destruct (size_valid (nv_size nv)); [|left; reflexivity].
  unfold append. cbn [fst snd]. right. reflexivity.
Qed.

Lemma store_delete_frame : forall st id c t,
  bounded st ->
  bounded (fst (fst (store_delete st id c t))) /\ vframe [id] st (fst (fst (store_delete st id c t))).
Proof.
  intros st id c t HB. destruct (store_delete_cases st id c t) as [E|E]; rewrite E.
  - split; [exact HB | apply vframe_refl].
  - apply append_nm_frame; [exact HB|]. intros id' H. cbn [append fst nm]. unfold nm_delete.
    destruct (nm_get (nm st) id) as [v|]; [|reflexivity].
    destruct (size_valid (nv_size v)); [apply nm_get_other; congruence | reflexivity].
Qed.

Lemma http_delete_cases : forall st id c t,
  fst (fst (http_delete st id c t)) = st \/
  exists c', fst (fst (http_delete st id c t)) = fst (fst (store_delete st id c' t)).
Proof.
  intros st id c t. unfold http_delete. destruct (store_read st id c false t) as [[e cnt] v].
  destruct (negb (err_eqb e ENone)); [left; reflexivity|].
  destruct (negb (v_cookie v =? c)); [left; reflexivity|].
  right. exists (v_cookie v). destruct (store_delete st id (v_cookie v) t) as [[st' e'] z].
  destruct e'; reflexivity.
Qed.

Lemma delete_or_same_frame : forall st st' id t,
  st' = st \/ (exists c, st' = fst (fst (store_delete st id c t))) ->
  bounded st -> bounded st' /\ vframe [id] st st'.
Proof.
  intros st st' id t [->|[c ->]] HB; [split; [exact HB | apply vframe_refl] | apply store_delete_frame; exact HB].
Qed.

Lemma spec_write_frame : forall sp n t, sframe [n_id n] sp (fst (spec_write sp n t)).
Proof.
  intros sp n t. unfold spec_write. destruct (negb (s_nwod sp || s_nwcd sp) && _); [|apply sframe_refl].
  repeat split. intros id H. apply memN_single in H. cbn [fst with_map s_map]. apply s_get_other. exact H.
Qed.

Lemma spec_kill_frame : forall sp id, sframe [id] sp (spec_kill sp id).
Proof.
  intros sp id. unfold spec_kill. destruct (s_get (s_map sp) id) as [e|]; [|apply sframe_refl].
  repeat split. intros id' H. apply memN_single in H. cbn [with_map s_map]. apply s_get_other. exact H.
Qed.
