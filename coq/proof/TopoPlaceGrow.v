(* Proofs about the second half of model/TopoPlace.v (C10): VolumeGrowth.grow / findAndGrow,
   the positivity of every rand.Int63n argument, the success condition [all_paths_ok], and the
   worked examples of props/C10.v. *)
From Coq Require Import String List ZArith Bool Arith Lia Permutation.
From SW Require Import model.TopoPlace proof.TopoPlaceProofs.
Import ListNotations.
Local Open Scope Z_scope.

Lemma grow_by_first_fail : forall ss fl,
  grow fl ss = match first_fail fl with
               | Some i => if Nat.ltb i (length ss) then (firstn i ss, true) else (ss, false)
               | None => (ss, false)
               end.
Proof.
  induction ss as [|s ss IH]; intro fl.
  - simpl. destruct (first_fail fl) as [i|]; reflexivity.
  - destruct fl as [|b fl].
    + simpl. rewrite (IH []). simpl. reflexivity.
    + destruct b.
      * reflexivity.
      * cbn [grow hd tl first_fail]. rewrite (IH fl).
        destruct (first_fail fl) as [i|]; cbn [option_map]; [|reflexivity].
        change (Nat.ltb (S i) (length (s :: ss))) with (Nat.ltb i (length ss)).
        destruct (Nat.ltb i (length ss)); reflexivity.
Qed.

Lemma grow_ok_all : forall fl ss a, grow fl ss = (a, false) -> a = ss.
Proof.
  intros fl ss a H. rewrite grow_by_first_fail in H.
  destruct (first_fail fl) as [i|]; [destruct (Nat.ltb i (length ss))|]; congruence.
Qed.

Lemma grow_allocated_prefix : forall fl ss a e, grow fl ss = (a, e) -> exists k, a = firstn k ss.
Proof.
  intros fl ss a e H. rewrite grow_by_first_fail in H.
  destruct (first_fail fl) as [i|]; [destruct (Nat.ltb i (length ss))|]; inversion H as [[Ha He]].
  - exists i. reflexivity.
  - eexists. symmetry. apply firstn_all.
  - eexists. symmetry. apply firstn_all.
Qed.

Theorem find_and_grow_success_thm : forall orc fl t o,
  wf_topology t = true -> gr_err (find_and_grow orc fl t o) = false ->
  gr_allocated (find_and_grow orc fl t o) = gr_found (find_and_grow orc fl t o) /\
  placement_ok t o (gr_allocated (find_and_grow orc fl t o)) = true /\
  gr_topo (find_and_grow orc fl t o) =
    fold_left (add_volume (go_disk o)) (gr_found (find_and_grow orc fl t o)) t.
Proof.
  intros orc fl t o Hwf. unfold find_and_grow.
  destruct (find_empty_slots orc t o) as [ss e] eqn:E. destruct e; [simpl; discriminate|].
  destruct (grow fl ss) as [a ge] eqn:G. simpl. intro He. subst ge.
  apply grow_ok_all in G. subst a. split; [reflexivity|]. split; [|reflexivity].
  eapply find_empty_slots_placement; eauto.
Qed.

(* "all or none" outside the trigger of known finding 0: an error leaves nothing behind *)
Theorem find_and_grow_partial_thm : forall orc fl t o,
  wf_topology t = true -> trigger_partial_grow fl o = false ->
  gr_err (find_and_grow orc fl t o) = true ->
  gr_allocated (find_and_grow orc fl t o) = [] /\ gr_topo (find_and_grow orc fl t o) = t.
Proof.
  intros orc fl t o Hwf Htr. unfold find_and_grow.
  destruct (find_empty_slots orc t o) as [ss e] eqn:E. destruct e; [simpl; auto|].
  pose proof (find_empty_slots_placement orc t o ss Hwf E) as P.
  unfold placement_ok in P. apply andb_prop in P as [P _]. apply andb_prop in P as [P _]. apply andb_prop in P as [P _].
  apply Nat.eqb_eq in P.
  rewrite grow_by_first_fail. unfold trigger_partial_grow, copy_count in Htr.
  destruct (first_fail fl) as [i|]; [|simpl; discriminate].
  rewrite P.
  destruct (Nat.ltb i (1 + rp_dc o + rp_rack o + rp_same o)) eqn:Ei; [|simpl; discriminate].
  rewrite andb_true_r in Htr. apply Nat.ltb_ge in Htr.
  assert (i = O) by lia. subst i. simpl. auto.
Qed.

(* one rack, two nodes with two slots each, replication 001; with the fail plan [false; true] the
   witness of known finding 0: the second of two AllocateVolume calls is refused *)
Definition gw_node (id : string) : dnode := {| n_id := id; n_usage := [(""%string, mkCounts 0 0 0 0 2)] |}.
Definition gw_topo : topology :=
  {| t_usage := [(""%string, mkCounts 0 0 0 0 4)];
     t_dcs := [ {| d_id := "dc1"; d_usage := [(""%string, mkCounts 0 0 0 0 4)];
                   d_racks := [ {| r_id := "r1"; r_usage := [(""%string, mkCounts 0 0 0 0 4)];
                                   r_nodes := [gw_node "n1"; gw_node "n2"] |} ] |} ] |}.
Definition gw_opt : grow_option :=
  {| go_disk := ""; go_dc := ""; go_rack := ""; go_node := ""; rp_dc := 0; rp_rack := 0; rp_same := 1 |}.
Definition gw_oracle : oracle :=
  {| o_dc_order := []; o_dc_rs := []; o_rack_order := []; o_rack_rs := []; o_node_order := [];
     o_node_rs := []; o_other_racks := []; o_other_dcs := [] |}.

Theorem find_and_grow_all_or_none_refuted_thm :
  exists orc fl t o,
    wf_topology t = true /\ trigger_partial_grow fl o = true /\
    gr_err (find_and_grow orc fl t o) = true /\
    gr_allocated (find_and_grow orc fl t o) = [("dc1", "r1", "n1")%string] /\
    length (gr_found (find_and_grow orc fl t o)) = 2%nat /\
    node_counts (gr_topo (find_and_grow orc fl t o)) "" ("dc1", "r1", "n1")%string = Some (mkCounts 1 0 1 0 2) /\
    node_counts (gr_topo (find_and_grow orc fl t o)) "" ("dc1", "r1", "n2")%string = Some (mkCounts 0 0 0 0 2).
Proof.
  exists gw_oracle, [false; true], gw_topo, gw_opt. vm_compute. repeat split; reflexivity.
Qed.

(* non-vacuity of the partial theorem: an error with the trigger off (first call refused) *)
Lemma find_and_grow_partial_example :
  wf_topology gw_topo = true /\ trigger_partial_grow [true] gw_opt = false /\
  gr_err (find_and_grow gw_oracle [true] gw_topo gw_opt) = true /\
  gr_err (find_and_grow gw_oracle [] gw_topo gw_opt) = false /\
  length (gr_allocated (find_and_grow gw_oracle [] gw_topo gw_opt)) = 2%nat.
Proof. vm_compute. repeat split; reflexivity. Qed.

Theorem int63n_args_positive_thm : forall orc t o, int63n_args_positive orc t o = true.
Proof.
  intros orc t o. unfold int63n_args_positive.
  destruct (pick_nodes (avail_dc o) _ _ _ _ (t_dcs t)) as [[mdc odcs]|] eqn:Pd; [|reflexivity].
  apply pick_nodes_members in Pd as [_ Md].
  apply andb_true_intro. split.
  - apply forallb_forall. intros dc Hdc. apply Z.ltb_lt, Md. right. exact Hdc.
  - destruct (pick_nodes (avail_rack o) _ _ _ _ (d_racks mdc)) as [[mrk orks]|] eqn:Pr; [|reflexivity].
    apply pick_nodes_members in Pr as [_ Mr].
    apply forallb_forall. intros rk Hrk. apply Z.ltb_lt, Mr. right. exact Hrk.
Qed.

Lemma pick_nodes_some : forall A (avail : A -> Z) order rs number filt children,
  pick_fails avail number filt children = false ->
  exists first rest, pick_nodes avail order rs number filt children = Some (first, rest).
Proof.
  intros A avail order rs number filt children H.
  unfold pick_fails in H. apply orb_false_elim in H as [H1 H2].
  apply negb_false_iff, existsb_exists in H2 as (x & Hx & Fx).
  assert (Hp : Permutation (candidates avail order children) (filter (fun c => 0 <? avail c) children))
    by apply Permutation_filter, permute_perm.
  unfold pick_nodes. rewrite (Permutation_length Hp), H1.
  pose proof (first_passing_spec filt (sorted_candidates avail order rs children) 0) as Hn.
  destruct (first_passing filt _ 0) as [[k y]|]; [eauto|].
  rewrite Hn in Fx; [discriminate|]. rewrite sorted_candidates_perm, Hp. exact Hx.
Qed.

Lemma sum_pos_perm : forall A (avail : A -> Z) l l', Permutation l l' -> sum_pos avail l = sum_pos avail l'.
Proof.
  intros A avail l l' H. unfold sum_pos. induction H; cbn [fold_right]; lia.
Qed.

Lemma reserve_in_rack_succeeds : forall o nodes r,
  0 <= r < sum_pos (avail_node o) nodes -> exists n, reserve_in_rack o r nodes = Some n.
Proof.
  induction nodes as [|n ns IH]; intros r Hr; unfold sum_pos in *; cbn [fold_right reserve_in_rack] in *; [lia|].
  destruct (Z.leb_spec (avail_node o n) 0); [apply IH; lia|].
  destruct (Z.leb_spec (avail_node o n) r); [apply IH; lia|eauto].
Qed.

(* a level's counter that promises no more than its children hold *)
Definition rack_sound (o : grow_option) (rk : rack) : Prop :=
  avail_rack o rk <= sum_pos (avail_node o) (r_nodes rk).
Definition dc_sound (o : grow_option) (dc : dcenter) : Prop :=
  avail_dc o dc <= sum_pos (avail_rack o) (d_racks dc) /\ forall rk, In rk (d_racks dc) -> rack_sound o rk.

Lemma reserve_in_dc_succeeds : forall o racks r orders,
  (forall rk, In rk racks -> rack_sound o rk) ->
  0 <= r < sum_pos (avail_rack o) racks -> exists p, reserve_in_dc o r racks orders = Some p.
Proof.
  induction racks as [|rk rs IH]; intros r orders Hs Hr; unfold sum_pos in Hr; cbn [fold_right reserve_in_dc] in *; [lia|].
  fold (sum_pos (avail_rack o) rs) in Hr.
  pose proof (Hs rk (or_introl eq_refl)) as Hrk. unfold rack_sound in Hrk.
  pose proof (fun k Hk => Hs k (or_intror Hk)) as Hs'.
  destruct (Z.leb_spec (avail_rack o rk) 0); [apply IH; [exact Hs'|lia]|].
  destruct (Z.leb_spec (avail_rack o rk) r); [apply IH; [exact Hs'|lia]|].
  destruct (reserve_in_rack_succeeds o (permute (hd [] orders) (r_nodes rk)) r) as [n ->]; [|eauto].
  rewrite (sum_pos_perm _ _ _ _ (permute_perm _ _ _)). lia.
Qed.

Lemma rack_step_succeeds : forall o dc rk ro, 0 < avail_rack o rk -> rack_sound o rk ->
  rack_step o dc rk ro <> None.
Proof.
  intros o dc rk ro Hp Hs. unfold rack_step.
  destruct (reserve_in_rack_succeeds o (permute (ro_nodes ro) (r_nodes rk)) (Z.modulo (ro_r ro) (avail_rack o rk)))
    as [n ->]; [|discriminate].
  rewrite (sum_pos_perm _ _ _ _ (permute_perm _ _ _)).
  pose proof (Z.mod_pos_bound (ro_r ro) _ Hp). unfold rack_sound in Hs. lia.
Qed.

Lemma dc_step_succeeds : forall o dc d, 0 < avail_dc o dc -> dc_sound o dc -> dc_step o dc d <> None.
Proof.
  intros o dc d Hp [Hs Hr]. unfold dc_step.
  destruct (reserve_in_dc_succeeds o (permute (do_racks d) (d_racks dc)) (Z.modulo (do_r d) (avail_dc o dc)) (do_nodes d))
    as [p ->]; [| |discriminate].
  - intros rk Hrk. apply Hr. rewrite permute_in in Hrk. exact Hrk.
  - rewrite (sum_pos_perm _ _ _ _ (permute_perm _ _ _)).
    pose proof (Z.mod_pos_bound (do_r d) _ Hp). lia.
Qed.

Lemma counters_sound_spec : forall t o, counters_sound t o = true ->
  forall dc, In dc (t_dcs t) -> dc_sound o dc.
Proof.
  intros t o H dc Hdc. unfold counters_sound in H. rewrite forallb_forall in H.
  apply H, andb_prop in Hdc as [H1 H2]. split; [apply Z.leb_le, H1|].
  intros rk Hrk. rewrite forallb_forall in H2. apply Z.leb_le, H2, Hrk.
Qed.

(* the hypothesis wf_topology t = true is not used *)
Theorem all_paths_ok_success_thm : forall orc t o,
  wf_topology t = true -> all_paths_ok t o = true -> snd (find_empty_slots orc t o) = false.
Proof.
  intros orc t o _ H.
  unfold all_paths_ok in H. apply andb_prop in H as [H H3]. apply andb_prop in H as [H1 H2].
  apply negb_true_iff in H2. pose proof (counters_sound_spec _ _ H1) as CS. rewrite forallb_forall in H3.
  unfold find_empty_slots.
  destruct (pick_nodes_some _ (avail_dc o) (o_dc_order orc) (o_dc_rs orc) _ _ _ H2) as (mdc & odcs & Pd).
  rewrite Pd. apply pick_nodes_members in Pd as [Fd Md].
  destruct (Md mdc (or_introl eq_refl)) as [Hmdc Amdc].
  pose proof (H3 mdc Hmdc) as H3m. apply Z.ltb_lt in Amdc. rewrite Amdc, Fd in H3m. cbn [andb] in H3m.
  apply andb_prop in H3m as [H4 H5]. apply negb_true_iff in H4.
  destruct (pick_nodes_some _ (avail_rack o) (o_rack_order orc) (o_rack_rs orc) _ _ _ H4) as (mrk & orks & Pr).
  rewrite Pr. apply pick_nodes_members in Pr as [Fr Mr].
  destruct (Mr mrk (or_introl eq_refl)) as [Hmrk Amrk].
  rewrite forallb_forall in H5. pose proof (H5 mrk Hmrk) as H5m.
  apply Z.ltb_lt in Amrk. rewrite Amrk, Fr in H5m. cbn [andb] in H5m. apply negb_true_iff in H5m.
  destruct (pick_nodes_some _ (avail_node o) (o_node_order orc) (o_node_rs orc) _ _ _ H5m) as (mn & ons & ->).
  rewrite reserve_racks_seq.
  pose proof (reserve_seq_succeeds (rack_step o mdc) default_rack_oracle orks
                (srv mdc mrk mn :: map (srv mdc mrk) ons) (o_other_racks orc)) as RR.
  destruct (reserve_seq _ _ _ orks _) as [ss1 e1]. simpl in RR. rewrite RR.
  - rewrite reserve_dcs_seq. apply reserve_seq_succeeds. intros dc d Hdc.
    destruct (Md dc (or_intror Hdc)) as [Hin Ha]. apply dc_step_succeeds; [exact Ha|apply CS, Hin].
  - intros rk ro Hrk. destruct (Mr rk (or_intror Hrk)) as [Hin Ha].
    apply rack_step_succeeds; [exact Ha|apply (CS mdc Hmdc), Hin].
Qed.

(* the condition holds on a 2-DC tree with replication 110, and the model indeed succeeds *)
Definition cp_node (id : string) (vol max : Z) : dnode :=
  {| n_id := id; n_usage := [(""%string, mkCounts vol 0 vol 0 max)] |}.
Definition cp_topo : topology :=
  {| t_usage := [];
     t_dcs := [ {| d_id := "dc1"; d_usage := [(""%string, mkCounts 1 0 1 0 6)];
                   d_racks := [ {| r_id := "r1"; r_usage := [(""%string, mkCounts 1 0 1 0 3)];
                                   r_nodes := [cp_node "n1" 1 2; cp_node "n2" 0 1] |};
                                {| r_id := "r2"; r_usage := [(""%string, mkCounts 0 0 0 0 3)];
                                   r_nodes := [cp_node "n1" 0 3] |} ] |};
                {| d_id := "dc2"; d_usage := [(""%string, mkCounts 0 0 0 0 2)];
                   d_racks := [ {| r_id := "r1"; r_usage := [(""%string, mkCounts 0 0 0 0 2)];
                                   r_nodes := [cp_node "n1" 0 2] |} ] |} ] |}.
Definition cp_opt : grow_option :=
  {| go_disk := ""; go_dc := "dc1"; go_rack := ""; go_node := ""; rp_dc := 1; rp_rack := 1; rp_same := 0 |}.
Lemma all_paths_ok_example :
  wf_topology cp_topo = true /\ all_paths_ok cp_topo cp_opt = true /\
  length (fst (find_empty_slots gw_oracle cp_topo cp_opt)) = 3%nat.
Proof. vm_compute. repeat split; reflexivity. Qed.

Definition ex_node (id : string) (vol max ec : Z) : dnode :=
  {| n_id := id; n_usage := [(""%string, mkCounts vol 0 vol ec max)] |}.
Definition ex_topo : topology :=
  {| t_usage := [];
     t_dcs := [ {| d_id := "dc1"; d_usage := [(""%string, mkCounts 3 0 3 0 12)];
                   d_racks := [ {| r_id := "r1"; r_usage := [(""%string, mkCounts 1 0 1 0 6)];
                                   r_nodes := [ex_node "n1" 1 3 0; ex_node "n2" 0 3 0] |};
                                {| r_id := "r2"; r_usage := [(""%string, mkCounts 2 0 2 0 6)];
                                   r_nodes := [ex_node "n1" 2 3 0; ex_node "n2" 0 3 0] |} ] |};
                {| d_id := "dc2"; d_usage := [(""%string, mkCounts 0 0 0 0 2)];
                   d_racks := [ {| r_id := "r1"; r_usage := [(""%string, mkCounts 0 0 0 0 2)];
                                   r_nodes := [ex_node "n1" 0 2 0] |} ] |} ] |}.
Definition ex_opt : grow_option :=
  {| go_disk := ""; go_dc := "dc1"; go_rack := ""; go_node := ""; rp_dc := 1; rp_rack := 1; rp_same := 1 |}.
Definition ex_oracle : oracle :=
  {| o_dc_order := [1%nat]; o_dc_rs := [5]; o_rack_order := [1%nat]; o_rack_rs := [7; 1];
     o_node_order := []; o_node_rs := [2]; o_other_racks := [{| ro_r := 4; ro_nodes := [1%nat] |}];
     o_other_dcs := [{| do_r := 1; do_racks := []; do_nodes := [] |}] |}.

(* the hypotheses of c10_placement are satisfiable on a 2-DC topology with replication 111,
   and the model returns 4 servers *)
Lemma placement_example :
  wf_topology ex_topo = true /\
  exists ss, find_empty_slots ex_oracle ex_topo ex_opt = (ss, false) /\ length ss = 4%nat.
Proof. split; [vm_compute; reflexivity|eexists; split; vm_compute; reflexivity]. Qed.

(* the search can fail after the main rack was chosen: rack r2's own counter promises 4 free slots
   while its three nodes hold 1 each (the EC-shard term is charged once at the rack, three times at
   the nodes); with r = 3 ReserveOneVolume walks past all three, and the result is an error carrying
   the partial list *)
Definition ex_ec_topo : topology :=
  {| t_usage := [];
     t_dcs := [ {| d_id := "dc1"; d_usage := [(""%string, mkCounts 1 0 1 15 10)];
                   d_racks := [ {| r_id := "r1"; r_usage := [(""%string, mkCounts 1 0 1 0 4)];
                                   r_nodes := [ex_node "n1" 0 2 0; ex_node "n2" 1 2 0] |};
                                {| r_id := "r2"; r_usage := [(""%string, mkCounts 0 0 0 15 6)];
                                   r_nodes := [ex_node "n1" 0 2 5; ex_node "n2" 0 2 5; ex_node "n3" 0 2 5] |} ] |} ] |}.
Definition ex_ec_opt : grow_option :=
  {| go_disk := ""; go_dc := ""; go_rack := "r1"; go_node := ""; rp_dc := 0; rp_rack := 1; rp_same := 0 |}.
Lemma error_with_partial_list_example :
  counters_sound ex_ec_topo ex_ec_opt = false /\
  exists orc ss, find_empty_slots orc ex_ec_topo ex_ec_opt = (ss, true) /\ length ss = 1%nat.
Proof.
  split; [vm_compute; reflexivity|].
  exists {| o_dc_order := []; o_dc_rs := []; o_rack_order := []; o_rack_rs := []; o_node_order := [];
            o_node_rs := []; o_other_racks := [{| ro_r := 3; ro_nodes := [] |}]; o_other_dcs := [] |}.
  eexists. split; vm_compute; reflexivity.
Qed.
