(* Proofs about model/VolPlanner.v (C15): satisfyReplicaPlacement and isGoodMove against the
   placement spec.  satisfy: by cases new data center / primary data center, new rack / primary
   rack.  isGoodMove: the list after the move is a permutation of target :: others, on which its
   three counts are taken ([good_counts_SubP]). *)
From Coq Require Import List NArith ZArith Bool Arith Lia Permutation.
From SW Require Import proof.ListFacts model.VolPlanner proof.VolPlannerProofs.
Import ListNotations.

Lemma dcs_cons_in : forall c l, In (l_dc c) (dcs l) -> dcs (c :: l) = dcs l.
Proof.
  intros c l H. unfold dcs in *. cbn [map nodup]. apply nodup_In in H.
  destruct (in_dec N.eq_dec (l_dc c) (map l_dc l)); [reflexivity|contradiction].
Qed.
Lemma dcs_cons_notin : forall c l, ~ In (l_dc c) (dcs l) -> dcs (c :: l) = l_dc c :: dcs l.
Proof.
  intros c l H. unfold dcs in *. cbn [map nodup]. rewrite nodup_In in H.
  destruct (in_dec N.eq_dec (l_dc c) (map l_dc l)); [contradiction|reflexivity].
Qed.
Lemma racks_cons_in : forall c l, In (rack_of c) (racks l) -> racks (c :: l) = racks l.
Proof.
  intros c l H. unfold racks in *. cbn [map nodup]. apply nodup_In in H.
  destruct (in_dec rack_dec (rack_of c) (map rack_of l)); [reflexivity|contradiction].
Qed.
Lemma racks_cons_notin : forall c l, ~ In (rack_of c) (racks l) -> racks (c :: l) = rack_of c :: racks l.
Proof.
  intros c l H. unfold racks in *. cbn [map nodup]. rewrite nodup_In in H.
  destruct (in_dec rack_dec (rack_of c) (map rack_of l)); [contradiction|reflexivity].
Qed.
Lemma cnt_dc_cons_eq : forall c l, cnt_dc (c :: l) (l_dc c) = S (cnt_dc l (l_dc c)).
Proof. intros. unfold cnt_dc. cbn [map]. apply count_occ_cons_eq. reflexivity. Qed.
Lemma cnt_dc_cons_neq : forall c l d, l_dc c <> d -> cnt_dc (c :: l) d = cnt_dc l d.
Proof. intros. unfold cnt_dc. cbn [map]. apply count_occ_cons_neq. assumption. Qed.
Lemma cnt_rack_cons_eq : forall c l, cnt_rack (c :: l) (rack_of c) = S (cnt_rack l (rack_of c)).
Proof. intros. unfold cnt_rack. cbn [map]. apply count_occ_cons_eq. reflexivity. Qed.
Lemma cnt_rack_cons_neq : forall c l k, rack_of c <> k -> cnt_rack (c :: l) k = cnt_rack l k.
Proof. intros. unfold cnt_rack. cbn [map]. apply count_occ_cons_neq. assumption. Qed.
Lemma cnt_dc_notin : forall l d, ~ In d (dcs l) -> cnt_dc l d = 0.
Proof. intros l d H. unfold cnt_dc, dcs in *. rewrite nodup_In in H. apply count_occ_not_In; auto. Qed.
Lemma cnt_rack_notin : forall l k, ~ In k (racks l) -> cnt_rack l k = 0.
Proof. intros l k H. unfold cnt_rack, racks in *. rewrite nodup_In in H. apply count_occ_not_In; auto. Qed.
Lemma cnt_dc_in : forall l d, In d (dcs l) -> cnt_dc l d >= 1.
Proof. intros. apply (count_pos N.eq_dec). assumption. Qed.
Lemma cnt_rack_in : forall l k, In k (racks l) -> cnt_rack l k >= 1.
Proof. intros. apply (count_pos rack_dec). assumption. Qed.

Lemma in_dc_cons_eq : forall c l, in_dc (l_dc c) (c :: l) = c :: in_dc (l_dc c) l.
Proof. intros. unfold in_dc. cbn [filter]. rewrite N.eqb_refl. reflexivity. Qed.
Lemma in_dc_cons_neq : forall c l D, l_dc c <> D -> in_dc D (c :: l) = in_dc D l.
Proof.
  intros. unfold in_dc. cbn [filter]. destruct (N.eqb_spec (l_dc c) D); [contradiction|reflexivity].
Qed.

Lemma is_top_iff : forall {K} (keys : list K) cnt k,
  is_top keys cnt k = true <-> forall k', In k' keys -> cnt k' <= cnt k.
Proof.
  intros. unfold is_top. rewrite forallb_forall. split; intros H k' Hk; specialize (H k' Hk);
    [apply Nat.leb_le in H|apply Nat.leb_le]; auto.
Qed.

Lemma not_exists_loc : forall l c, existsb (fun r => loc_eqb r c) l = false -> ~ In c l.
Proof.
  intros l c H Hin. assert (existsb (fun r => loc_eqb r c) l = true); [|congruence].
  apply existsb_exists. exists c. split; auto. apply loc_eqb_refl.
Qed.

(* node ids determine locations (unique server ids in the cluster): the Go code compares
   location.String(), i.e. (dc, rack, node), while the spec counts node ids *)
Definition ids_ok (l : list loc) : Prop := forall a b, In a l -> In b l -> l_node a = l_node b -> a = b.

Lemma node_fresh : forall l c, ids_ok (c :: l) -> ~ In c l -> ~ In (l_node c) (map l_node l).
Proof.
  intros l c Hid Hn Hin. apply in_map_iff in Hin. destruct Hin as [r [H1 H2]].
  assert (r = c) by (apply Hid; [right; auto|left; auto|auto]). subst; auto.
Qed.

Lemma racks_single : forall r, racks [r] = [rack_of r].
Proof.
  intros. unfold racks. cbn [map]. apply nodup_fixed_point. constructor; [intros []|constructor].
Qed.
Lemma dcs_single : forall r, dcs [r] = [l_dc r].
Proof.
  intros. unfold dcs. cbn [map]. apply nodup_fixed_point. constructor; [intros []|constructor].
Qed.

Lemma single_MainRack : forall p r, MainRack p [r] (rack_of r).
Proof.
  intros p r. unfold MainRack. rewrite racks_single.
  split; [left; auto|]. split.
  - intros k [Hk|[]] Hne. congruence.
  - unfold cnt_rack. cbn [map]. rewrite count_occ_cons_eq by reflexivity. cbn [count_occ]. lia.
Qed.

Lemma satisfy_SubP : forall p l c,
  SubP p l -> ids_ok (c :: l) -> satisfy p l c = true -> SubP p (c :: l).
Proof.
  intros p l c [Hnd [Hdcs Hmain]] Hid Hs. unfold satisfy in Hs.
  destruct (existsb (fun r => loc_eqb r c) l) eqn:E1; [discriminate|].
  apply not_exists_loc in E1.
  assert (NoDup (map l_node (c :: l))) as Hnd'.
  { cbn [map]. constructor; auto. apply node_fresh; auto. }
  destruct (existsb (N.eqb (l_dc c)) (dcs l)) eqn:E2; cbn [negb] in Hs.
  2:{ (* a new data center *)
    apply Nat.ltb_lt in Hs.
    assert (~ In (l_dc c) (dcs l)) as Hnin.
    { intro Hi. apply (existsb_eqb_In N.eqb N.eqb_eq) in Hi. congruence. }
    split; auto. split; [rewrite dcs_cons_notin; auto; cbn [length]; lia|]. right.
    destruct Hmain as [->|[D [HD [Ho [Hr [R HR]]]]]].
    - exists (l_dc c). unfold MainDc. rewrite dcs_cons_notin; auto. unfold dcs at 1 2. cbn [map nodup].
      split; [left; auto|]. split; [intros d [Hd|[]] Hne; congruence|].
      assert (in_dc (l_dc c) [c] = [c]) as -> by (rewrite in_dc_cons_eq; reflexivity).
      split; [rewrite racks_single; cbn [length]; lia|].
      exists (rack_of c). apply single_MainRack.
    - assert (l_dc c <> D) as HcD by (intro; subst; auto).
      exists D. unfold MainDc. rewrite dcs_cons_notin; auto. split; [right; auto|]. split.
      + intros d [Hd|Hd] Hne.
        * subst d. rewrite cnt_dc_cons_eq, cnt_dc_notin; auto.
        * rewrite cnt_dc_cons_neq; [apply Ho; auto|]. intro; subst; auto.
      + rewrite in_dc_cons_neq; auto. split; auto. exists R; auto. }
  (* an existing data center: it must be a primary one *)
  apply (existsb_eqb_In N.eqb N.eqb_eq) in E2.
  destruct (is_top (dcs l) (cnt_dc l) (l_dc c)) eqn:E3; cbn [negb] in Hs; [|discriminate].
  rewrite is_top_iff in E3.
  destruct Hmain as [->|[D [HD [Ho [Hr [R HR]]]]]]; [destruct E2|].
  set (indc := in_dc (l_dc c) l) in *.
  (* facts about the candidate's data center, whether it was the main one or not *)
  assert ((forall d, In d (dcs l) -> d <> l_dc c -> cnt_dc l d = 1) /\
          length (racks indc) <= rp_rack p + 1 /\ exists R0, MainRack p indc R0) as [HA [HB [R0 HC]]].
  { destruct (N.eq_dec D (l_dc c)) as [->|HDc].
    - split; auto. split; auto. exists R; auto.
    - assert (cnt_dc l (l_dc c) = 1) as H1 by (apply Ho; auto).
      split.
      + intros d Hd Hne. pose proof (E3 d Hd). pose proof (cnt_dc_in l d Hd). lia.
      + assert (length indc = 1) as Hl by (unfold indc; rewrite length_in_dc; auto).
        destruct (singleton_len1 _ Hl) as [r0 Hr0]. rewrite Hr0.
        split; [rewrite racks_single; cbn [length]; lia|].
        exists (rack_of r0). apply single_MainRack. }
  split; auto. split; [rewrite dcs_cons_in; auto|]. right.
  exists (l_dc c). unfold MainDc. rewrite dcs_cons_in; auto. split; auto. split.
  { intros d Hd Hne. rewrite cnt_dc_cons_neq; auto. }
  rewrite in_dc_cons_eq. fold indc.
  destruct (existsb (rack_eqb (rack_of c)) (racks indc)) eqn:E4; cbn [negb] in Hs.
  2:{ (* a new rack of that data center *)
    apply Nat.ltb_lt in Hs.
    assert (~ In (rack_of c) (racks indc)) as Hnin.
    { intro Hi. apply (existsb_eqb_In rack_eqb rack_eqb_eq) in Hi. congruence. }
    rewrite racks_cons_notin; auto. split; [cbn [length]; lia|].
    destruct HC as [HC1 [HC2 HC3]].
    assert (rack_of c <> R0) as HcR by (intro; subst; auto).
    exists R0. unfold MainRack. rewrite racks_cons_notin; auto. split; [right; auto|]. split.
    - intros k [Hk|Hk] Hne.
      + subst k. rewrite cnt_rack_cons_eq, cnt_rack_notin; auto.
      + rewrite cnt_rack_cons_neq; [apply HC2; auto|]. intro; subst; auto.
    - rewrite cnt_rack_cons_neq; auto. }
  (* an existing rack: it must be a primary one *)
  apply (existsb_eqb_In rack_eqb rack_eqb_eq) in E4.
  destruct (is_top (racks indc) (cnt_rack indc) (rack_of c)) eqn:E5; cbn [negb] in Hs; [|discriminate].
  rewrite is_top_iff in E5. apply Nat.ltb_lt in Hs.
  rewrite racks_cons_in; auto. split; auto.
  destruct HC as [HC1 [HC2 HC3]].
  exists (rack_of c). unfold MainRack. rewrite racks_cons_in; auto. split; auto. split.
  - intros k Hk Hne. rewrite cnt_rack_cons_neq; auto.
    destruct (rack_dec R0 (rack_of c)) as [HR0|HR0].
    + apply HC2; auto. congruence.
    + assert (cnt_rack indc (rack_of c) = 1) as H1 by (apply HC2; auto).
      pose proof (E5 k Hk). pose proof (cnt_rack_in indc k Hk). lia.
  - rewrite cnt_rack_cons_eq. lia.
Qed.

Lemma satisfy_no_coloc : forall p l c, ids_ok (c :: l) -> satisfy p l c = true ->
  ~ In (l_node c) (map l_node l).
Proof.
  intros p l c Hid Hs. unfold satisfy in Hs.
  destruct (existsb (fun r => loc_eqb r c) l) eqn:E1; [discriminate|].
  apply node_fresh; auto. apply not_exists_loc; auto.
Qed.

Lemma locs_relocate : forall f t rs, locs (relocate f t rs) = relocate_loc f t (locs rs).
Proof.
  induction rs as [|r rs IH]; cbn [relocate locs map relocate_loc]; auto.
  destruct (loc_eqb (r_loc r) f); cbn [map r_loc]; [reflexivity|]. f_equal. apply IH.
Qed.

Lemma relocate_loc_length : forall f t l, length (relocate_loc f t l) = length l.
Proof.
  induction l as [|r l IH]; cbn [relocate_loc length]; auto.
  destruct (loc_eqb r f); cbn [length]; auto.
Qed.

Lemma relocate_perm : forall f t l, NoDup (map l_node l) -> In f l ->
  Permutation (relocate_loc f t l) (t :: filter (fun r => negb (l_node r =? l_node f)%N) l).
Proof.
  induction l as [|r l IH]; intros Hnd Hin; [destruct Hin|].
  cbn [map] in Hnd. inversion Hnd as [|? ? Hn Hd]; subst.
  cbn [relocate_loc filter]. destruct (loc_eqb r f) eqn:E.
  - apply loc_eqb_eq in E. subst r. rewrite N.eqb_refl. cbn [negb].
    rewrite filter_all_true; auto. intros x Hx.
    destruct (N.eqb_spec (l_node x) (l_node f)) as [Ex|Ex]; auto.
    exfalso. apply Hn. rewrite <- Ex. apply in_map; auto.
  - destruct Hin as [Hin|Hin]; [subst; rewrite loc_eqb_refl in E; discriminate|].
    destruct (N.eqb_spec (l_node r) (l_node f)) as [Ex|Ex].
    + exfalso. apply Hn. rewrite Ex. apply in_map; auto.
    + cbn [negb]. eapply perm_trans; [apply perm_skip; apply IH; auto|]. apply perm_swap.
Qed.

(* the replica list after a move: the target in front of the copies on the other servers *)
Lemma NoDup_nodes_after : forall (g : loc -> bool) t l,
  NoDup (map l_node l) -> ~ In (l_node t) (map l_node l) -> NoDup (map l_node (t :: filter g l)).
Proof.
  intros g t l Hnd Hf. cbn [map]. constructor; [|apply NoDup_map_filter; auto].
  intro Hi. apply Hf. apply in_map_iff in Hi. destruct Hi as [x [H1 H2]].
  apply filter_In in H2. apply in_map_iff. exists x; tauto.
Qed.

Lemma good_move_no_coloc : forall p l f t, ids_ok (t :: l) -> is_good_move p l f t = true ->
  ~ In (l_node t) (map l_node l).
Proof.
  intros p l f t Hid H. unfold is_good_move in H.
  destruct (existsb (fun r => loc_eqb r t) l) eqn:E1; [discriminate|].
  apply node_fresh; auto. apply not_exists_loc; auto.
Qed.

(* isGoodMove establishes a valid layout, whatever the layout was: only distinct servers and
   the right number of copies are needed of [l] *)
Lemma good_move_establishes : forall p l f t,
  NoDup (map l_node l) -> length l = copy_count p -> In f l -> ids_ok (t :: l) ->
  is_good_move p l f t = true -> rp_trig p = false ->
  valid_placement p (relocate_loc f t l) = true.
Proof.
  intros p l f t Hnd Hlen Hf Hid Hg Htr.
  pose proof (relocate_perm f t l Hnd Hf) as HP.
  apply (valid_placement_perm p _ _ (Permutation_sym HP)).
  unfold is_good_move in Hg.
  destruct (existsb (fun r => loc_eqb r t) l) eqn:E1; [discriminate|].
  apply not_exists_loc in E1.
  set (after := t :: filter (fun r => negb (l_node r =? l_node f)%N) l) in *.
  apply andb_true_iff in Hg. destruct Hg as [Hg H3]. apply andb_true_iff in Hg. destruct Hg as [H1 H2].
  apply Nat.eqb_eq in H1. apply Nat.eqb_eq in H2. rewrite forallb_forall in H3.
  assert (length after = copy_count p) as Hla.
  { rewrite <- (Permutation_length HP), relocate_loc_length. auto. }
  unfold valid_placement. apply andb_true_iff. split; [|apply Nat.eqb_eq; auto].
  apply sub_placement_iff. apply good_counts_SubP; auto.
  - apply NoDup_nodes_after; auto. apply node_fresh; auto.
  - unfold after. discriminate.
  - intros k Hk. apply Nat.eqb_eq. apply H3; auto.
Qed.

Lemma good_move_valid : forall p l f t,
  valid_placement p l = true -> In f l -> ids_ok (t :: l) ->
  is_good_move p l f t = true -> rp_trig p = false ->
  valid_placement p (relocate_loc f t l) = true.
Proof.
  intros p l f t Hv. unfold valid_placement in Hv. apply andb_true_iff in Hv. destruct Hv as [Hsub Hlen].
  apply sub_placement_iff in Hsub. destruct Hsub as [Hnd _]. apply Nat.eqb_eq in Hlen.
  apply good_move_establishes; assumption.
Qed.

(* a completable set has at most copy_count members *)
Lemma SubP_length : forall p l, SubP p l -> length l <= copy_count p.
Proof.
  intros p l [Hnd [Hdcs [->|[D [HD [Ho [Hr [R [HR1 [HR2 HR3]]]]]]]]]]; [cbn [length]; lia|].
  pose proof (len_sum_dcs l) as Hs.
  pose proof (sum_one_except (dcs l) (cnt_dc l) D (NoDup_nodup _ _) HD Ho) as H1.
  set (inD := in_dc D l) in *.
  pose proof (len_sum_racks inD) as Hs2.
  pose proof (sum_one_except (racks inD) (cnt_rack inD) R (NoDup_nodup _ _) HR1 HR2) as H2.
  assert (length inD = cnt_dc l D) as HlD by (unfold inD; apply length_in_dc).
  unfold copy_count. lia.
Qed.

(* satisfyReplicaPlacement never admits a copy for a volume whose replicas already form a
   valid layout *)
Lemma satisfy_not_valid : forall p l c, ids_ok (c :: l) -> satisfy p l c = true ->
  valid_placement p l = false.
Proof.
  intros p l c Hid Hs. destruct (valid_placement p l) eqn:Ev; auto. exfalso.
  unfold valid_placement in Ev. apply andb_true_iff in Ev. destruct Ev as [Hsub Hlen].
  apply sub_placement_iff in Hsub. apply Nat.eqb_eq in Hlen.
  pose proof (SubP_length p (c :: l) (satisfy_SubP p l c Hsub Hid Hs)) as Hle.
  cbn [length] in Hle. lia.
Qed.
