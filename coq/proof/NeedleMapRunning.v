(* C05 proofs: the counters maintained while running are the reference counters (both
   writable map kinds, every history); the invariants of every reachable CompactMap stated
   directly; the bloom filter of newNeedleMapMetricFromIndexFile as an oracle. *)
From Coq Require Import List NArith ZArith Bool Lia Sorted Arith.
From Coq Require Import ZifyBool ZifyN ZifyNat.
From SW Require Import model.NeedleMap proof.EcIndexProofs proof.NeedleMapSearch proof.NeedleMapSec
  proof.NeedleMapCm proof.NeedleMapRefine proof.NeedleMapProofs proof.NeedleMapKinds.
Import ListNotations.
Local Open Scope N_scope.

Lemma log_put_ref : forall m k old sz,
  log_put m k old sz =
  (let m1 := add_file (maybe_max m k) sz in if (0 <? old)%Z then add_del m1 old else m1).
Proof.
  intros. unfold log_put, log_deletion. rewrite size_is_valid_pos. destruct (0 <? old)%Z; reflexivity.
Qed.
Lemma log_delete_ref : forall m ret, log_delete m ret = if (0 <? ret)%Z then add_del m ret else m.
Proof. reflexivity. Qed.

Lemma ref_metric_step_fst : forall r m o, fst (ref_metric_step (r, m) o) = fst (ref_step r o).
Proof. reflexivity. Qed.

Lemma ldb_step_met : forall osz s r o, ldb_rel s r ->
  l_met (fst (ldb_step osz s o)) = snd (ref_metric_step (r, l_met s) o).
Proof.
  intros osz s r o [_ Hrel]. destruct o as [k off sz|k off|k]; cbn [ldb_step fst ref_metric_step snd].
  - unfold ldb_put. cbn [l_met]. rewrite Hrel, log_put_ref. cbv zeta.
    destruct (ref_get r k) as [[ro rs]|]; reflexivity.
  - unfold ldb_delete. rewrite Hrel. destruct (ref_get r k) as [[ro rs]|]; [|reflexivity].
    unfold size_is_deleted, tombstone.
    destruct (Z.ltb_spec rs 0) as [Hn|Hn]; cbn [orb].
    + destruct (Z.ltb_spec 0 rs); [lia|reflexivity].
    + destruct (rs =? -1)%Z eqn:Eq; [apply Z.eqb_eq in Eq; lia|]. cbn [l_met]. apply log_delete_ref.
  - reflexivity.
Qed.

Lemma ldb_run_met : forall osz ops s r, ldb_rel s r ->
  l_met (snd (ldb_run osz s ops)) = snd (fold_left ref_metric_step ops (r, l_met s)).
Proof.
  intros osz ops. induction ops as [|o ops IH]; intros s r H; [reflexivity|].
  cbn [ldb_run fold_left]. pose proof (ldb_step_met osz s r o H) as Hm.
  destruct (ldb_step_rel osz s r o H) as [Hn _].
  destruct (ldb_step osz s o) as [s' x]. cbn [fst] in *.
  specialize (IH s' _ Hn). destruct (ldb_run osz s' ops) as [rs fin]. cbn [snd] in *.
  rewrite IH, Hm. reflexivity.
Qed.

Theorem ldb_counters_running : forall osz ops,
  l_met (snd (ldb_run osz ldb0 ops)) = ref_metric ops.
Proof. intros. rewrite (ldb_run_met osz ops ldb0 [] ldb_rel0). reflexivity. Qed.

Lemma nm_step_met : forall osz batch s r o, refines batch (nm_map s) r -> op_key o < two64 ->
  nm_met (fst (nm_step osz batch s o)) = snd (ref_metric_step (r, nm_met s) o) /\
  refines batch (nm_map (fst (nm_step osz batch s o))) (fst (ref_step r o)).
Proof.
  intros osz batch s r o Href Hk.
  destruct (step_refines batch (nm_map s) r o Href Hk) as [Hnext Hres].
  destruct Href as [Hinv Hrel].
  destruct o as [k off sz|k off|k]; cbn [op_key] in Hk; cbn [nm_step fst ref_metric_step snd].
  - unfold nm_put. cbn [cm_step] in Hnext, Hres.
    destruct (cm_set batch (nm_map s) k off sz) as [[cm' oo] os] eqn:E. cbn [fst snd nm_map nm_met] in *.
    split; [|exact Hnext]. rewrite ref_step_put_snd in Hres.
    rewrite log_put_ref. cbv zeta.
    destruct (ref_get r k) as [[ro rs]|]; injection Hres as _ ->; reflexivity.
  - unfold nm_delete. cbn [cm_step] in Hnext, Hres.
    destruct (cm_delete batch (nm_map s) k) as [cm' ret] eqn:E. cbn [fst snd nm_map nm_met] in *.
    split; [|exact Hnext]. rewrite ref_step_del_snd in Hres. injection Hres as ->. rewrite log_delete_ref.
    destruct (ref_get r k) as [[ro rs]|]; [destruct (0 <? rs)%Z eqn:Hp; rewrite ?Hp|]; reflexivity.
  - split; [reflexivity|exact Hnext].
Qed.

Lemma nm_run_met : forall osz batch ops s r, refines batch (nm_map s) r -> keys_ok ops ->
  nm_met (snd (nm_run osz batch s ops)) = snd (fold_left ref_metric_step ops (r, nm_met s)).
Proof.
  intros osz batch ops. induction ops as [|o ops IH]; intros s r H Hk; [reflexivity|].
  inversion Hk as [|? ? Hk1 Hk2]; subst.
  rewrite nm_run_cons_snd. cbn [fold_left].
  destruct (nm_step_met osz batch s r o H Hk1) as [Hm Hn].
  rewrite (IH _ _ Hn Hk2), Hm. reflexivity.
Qed.

Theorem nm_counters_running : forall osz batch ops, keys_ok ops ->
  nm_met (snd (nm_run osz batch nm0 ops)) = ref_metric ops.
Proof.
  intros osz batch ops Hk. rewrite (nm_run_met osz batch ops nm0 [] (refines_nil batch) Hk). reflexivity.
Qed.

Theorem reachable_sections_sorted : forall batch ops, keys_ok ops ->
  let cm := snd (cm_run batch [] ops) in
  forall i j a b, (i < j)%nat -> nth_error cm i = Some a -> nth_error cm j = Some b ->
    s_start a <= s_end a /\ s_end a < s_start b /\ s_start a < s_start b.
Proof.
  intros batch ops Hk cm i j a b Hij Ha Hb. pose proof (reachable_inv batch ops Hk) as Hinv. fold cm in Hinv.
  pose proof (ci_ord _ _ Hinv i j a b Hij Ha Hb). pose proof (sw_se _ _ (ci_wf _ _ Hinv _ _ Ha)). lia.
Qed.

Theorem reachable_values_sorted : forall batch ops, keys_ok ops ->
  let cm := snd (cm_run batch [] ops) in
  forall i s, nth_error cm i = Some s ->
    sorted (s_values s) /\ sorted (s_overflow s) /\
    (forall k, In k (map sk (s_overflow s)) -> ~ In k (map sk (s_values s))) /\
    (forall v, In v (s_values s ++ s_overflow s) -> sk v <= sec_lim /\ s_start s + sk v <= s_end s).
Proof.
  intros batch ops Hk cm i s Hs. pose proof (reachable_inv batch ops Hk) as Hinv. fold cm in Hinv.
  pose proof (ci_wf _ _ Hinv _ _ Hs) as W. destruct (sw_inv _ _ W) as [A B C D].
  repeat split; auto; apply (sw_keys _ _ W); assumption.
Qed.

(* re-deleting an overflow entry with the real section capacity 100000 *)
Definition asc_puts (n : nat) : list op :=
  map (fun i => Put (10 * N.of_nat i) (N.of_nat i + 1) (100 + Z.of_nat i)%Z) (seq 0 n).
Definition redelete_real : list op := asc_puts 140 ++ [Put 55 7 778%Z; Del 55 9; Del 55 9].

Lemma redelete_real_witness :
  keys_ok redelete_real /\
  map (fun s => map sk (s_overflow s)) (snd (cm_run 100000 [] redelete_real)) = [[55]] /\
  nth 141 (fst (cm_run 100000 [] redelete_real)) (RGet None) = RDel 778%Z /\
  nth 142 (fst (cm_run 100000 [] redelete_real)) (RGet None) = RDel 0%Z.
Proof.
  split.
  2:{ (* one evaluation of the run, shared by the three facts read off it *)
      eassert (E : cm_run 100000 [] redelete_real = _) by (vm_compute; reflexivity).
      rewrite E. repeat split; reflexivity. }
  unfold keys_ok. rewrite Forall_forall. intros o Ho. unfold redelete_real in Ho. apply in_app_or in Ho.
  destruct Ho as [Ho|Ho].
  - unfold asc_puts in Ho. apply in_map_iff in Ho. destruct Ho as [i [<- Hi]]. apply in_seq in Hi.
    cbn [op_key]. unfold two64. lia.
  - simpl in Ho. destruct Ho as [<-|[<-|[<-|[]]]]; vm_compute; reflexivity.
Qed.

Lemma mfi_oracle_exact : forall es m seen,
  mfi_oracle m es (exact_answers seen es) = fst (fold_left mfi_step es (m, seen)).
Proof.
  induction es as [|e es IH]; intros m seen; [reflexivity|].
  cbn [exact_answers mfi_oracle fold_left]. rewrite IH. f_equal. f_equal.
  unfold mfi_step, mfi_metric_step. destruct (existsb (N.eqb (e_key e)) seen); reflexivity.
Qed.

Lemma bool_list_eqb_eq : forall a b, bool_list_eqb a b = true -> a = b.
Proof.
  induction a as [|x a IH]; intros [|y b] H; simpl in H; try discriminate; [reflexivity|].
  apply andb_true_iff in H. destruct H as [H1 H2]. apply Bool.eqb_prop in H1. subst. f_equal. auto.
Qed.

Theorem bloom_no_false_positive : forall osz idx ans, trig_bloom_fp osz idx ans = false ->
  metric_from_index_o osz idx ans = metric_from_index osz idx.
Proof.
  intros osz idx ans H. unfold trig_bloom_fp in H. apply negb_false_iff in H.
  apply bool_list_eqb_eq in H. subst ans. unfold metric_from_index_o, metric_from_index.
  apply mfi_oracle_exact.
Qed.

(* known finding 2: a single false positive turns a file into a deletion *)
Lemma bloom_false_positive_witness :
  let idx := encode 4 [mk_entry 1 1 10%Z; mk_entry 2 2 20%Z] in
  trig_bloom_fp 4 idx [false; true] = true /\
  metric_from_index 4 idx = {| m_del := 0; m_file := 2; m_delb := 0; m_fileb := 30; m_max := 2 |} /\
  metric_from_index_o 4 idx [false; true] = {| m_del := 1; m_file := 1; m_delb := 10; m_fileb := 30; m_max := 2 |}.
Proof. vm_compute. repeat split; reflexivity. Qed.
