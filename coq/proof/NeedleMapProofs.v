(* C05: the .idx written by a run; doLoading (reload of the in-memory map) replays the run on
   disciplined histories without an empty Put (known finding 0 otherwise); concrete witnesses. *)
From Coq Require Import List NArith ZArith Bool Lia Sorted Arith.
From Coq Require Import ZifyBool ZifyN ZifyNat.
From SW Require Import model.NeedleMap proof.EcIndexProofs proof.NeedleMapSearch proof.NeedleMapSec
  proof.NeedleMapCm proof.NeedleMapRefine.
Import ListNotations.
Local Open Scope N_scope.

Definition entry_of_op (o : op) : list entry :=
  match o with
  | Put k off sz => [mk_entry k off sz]
  | Del k off => [mk_entry k off tombstone]
  | Get _ => []
  end.
Definition entries_of (ops : list op) : list entry := flat_map entry_of_op ops.

Lemma nm_run_idx : forall osz batch ops s,
  nm_idx (snd (nm_run osz batch s ops)) = nm_idx s ++ encode osz (entries_of ops).
Proof.
  intros osz batch ops. induction ops as [|o ops IH]; intros s.
  - simpl. symmetry. apply app_nil_r.
  - cbn [nm_run]. destruct (nm_step osz batch s o) as [s' r] eqn:E.
    specialize (IH s'). destruct (nm_run osz batch s' ops) as [rs fin]. cbn [snd] in *.
    rewrite IH. cbn [entries_of flat_map]. fold (entries_of ops). rewrite encode_app, app_assoc. f_equal.
    destruct o as [k off sz|k off|k]; cbn [nm_step] in E.
    + injection E as <- _. unfold nm_put. destruct (cm_set batch (nm_map s) k off sz) as [[cm' oo] os].
      cbn [nm_idx entry_of_op]. unfold encode. simpl. rewrite app_nil_r. reflexivity.
    + injection E as <- _. unfold nm_delete. destruct (cm_delete batch (nm_map s) k) as [cm' ret].
      cbn [nm_idx entry_of_op]. unfold encode. simpl. rewrite app_nil_r. reflexivity.
    + injection E as <- _. simpl. symmetry. apply app_nil_r.
Qed.

Lemma entries_wf : forall osz ops, forallb (op_in_range osz) ops = true ->
  Forall (wf_entry osz) (entries_of ops).
Proof.
  intros osz ops H. induction ops as [|o ops IH]; [constructor|].
  cbn [forallb] in H. apply andb_true_iff in H. destruct H as [Ho H].
  cbn [entries_of flat_map]. apply Forall_app. split; [|apply IH; assumption].
  destruct o as [k off sz|k off|k]; cbn [entry_of_op op_in_range] in *.
  - constructor; [|constructor]. unfold wf_entry, mk_entry. simpl. lia.
  - constructor; [|constructor]. unfold wf_entry, mk_entry, tombstone. simpl. lia.
  - constructor.
Qed.

Lemma keys_ok_of_range : forall osz ops, forallb (op_in_range osz) ops = true -> keys_ok ops.
Proof.
  intros osz ops H. induction ops as [|o ops IH]; [constructor|].
  cbn [forallb] in H. apply andb_true_iff in H. destruct H as [Ho H].
  constructor; [|apply IH; assumption].
  destruct o; cbn [op_in_range op_key] in *; lia.
Qed.

(* the reference map of a disciplined history: nonzero offsets, keys below the recorded maximum *)
Definition ref_ok (r : rmap) (m : metric) : Prop :=
  forall k off sz, ref_get r k = Some (off, sz) -> off <> 0 /\ k <= m_max m.

Lemma m_max_maybe : forall m k, m_max (maybe_max m k) = N.max (m_max m) k.
Proof. intros m k. unfold maybe_max. destruct (N.ltb_spec (m_max m) k); simpl; lia. Qed.

Lemma maybe_max_id : forall m k, k <= m_max m -> maybe_max m k = m.
Proof. intros m k H. unfold maybe_max. destruct (N.ltb_spec (m_max m) k); [lia|reflexivity]. Qed.

Lemma m_max_log_put : forall m k old new, m_max (log_put m k old new) = N.max (m_max m) k.
Proof.
  intros. unfold log_put, log_deletion.
  destruct ((0 <? old)%Z && size_is_valid old); [destruct (0 <? old)%Z|]; simpl; apply m_max_maybe.
Qed.

Lemma nm_run_cons_snd : forall osz batch s o ops,
  snd (nm_run osz batch s (o :: ops)) = snd (nm_run osz batch (fst (nm_step osz batch s o)) ops).
Proof.
  intros. cbn [nm_run]. destruct (nm_step osz batch s o) as [s' r]. cbn [fst].
  destruct (nm_run osz batch s' ops). reflexivity.
Qed.

Lemma nm_run_map : forall osz batch ops s,
  nm_map (snd (nm_run osz batch s ops)) = snd (cm_run batch (nm_map s) ops).
Proof.
  intros osz batch ops. induction ops as [|o ops IH]; intros s; [reflexivity|].
  rewrite nm_run_cons_snd, IH. cbn [cm_run].
  assert (E : nm_map (fst (nm_step osz batch s o)) = fst (cm_step batch (nm_map s) o)).
  { destruct o as [k off sz|k off|k]; cbn [nm_step cm_step fst]; [unfold nm_put|unfold nm_delete|reflexivity].
    - destruct (cm_set batch (nm_map s) k off sz) as [[cm' oo] os]. reflexivity.
    - destruct (cm_delete batch (nm_map s) k) as [cm' ret]. reflexivity. }
  rewrite E. destruct (cm_step batch (nm_map s) o) as [cm' x]. cbn [fst].
  destruct (cm_run batch cm' ops). reflexivity.
Qed.

Lemma load_step_put : forall batch cm m k off sz, off <> 0 -> size_is_valid sz = true ->
  load_step batch (cm, m) (mk_entry k off sz) =
  let '(cm', oo, os) := cm_set batch cm k off sz in
  (cm', if negb (oo =? 0) && size_is_valid os then add_del (add_file (maybe_max m k) sz) os
        else add_file (maybe_max m k) sz).
Proof.
  intros batch cm m k off sz Hoff Hv. unfold load_step. cbn [mk_entry e_key e_off e_size].
  destruct (N.eqb_spec off 0); [contradiction|]. rewrite Hv. reflexivity.
Qed.

Lemma load_step_tomb : forall batch cm m k off,
  load_step batch (cm, m) (mk_entry k off tombstone) =
  let '(cm', os) := cm_delete batch cm k in (cm', add_del (maybe_max m k) os).
Proof.
  intros. unfold load_step. cbn [mk_entry e_key e_off e_size].
  replace (negb (off =? 0) && size_is_valid tombstone) with false by (rewrite andb_false_r; reflexivity).
  reflexivity.
Qed.

Lemma ref_step_del_live : forall r k off ro rs, ref_get r k = Some (ro, rs) -> (0 < rs)%Z ->
  ref_step r (Del k off) = (ref_put r k (ro, (- rs)%Z), RDel rs).
Proof.
  intros r k off ro rs G H. cbn [ref_step]. rewrite G. destruct (Z.ltb_spec 0 rs); [reflexivity|lia].
Qed.

(* doLoading replays exactly what the running map did.  By induction on ops, generalised over the
   state reached so far: cm refines r, m are the reference counters, idx the .idx written *)
Lemma load_matches_run : forall osz batch ops cm r m idx,
  refines batch cm r -> ref_ok r m ->
  keys_ok ops -> disciplined_from r ops = true -> trig_empty_put ops = false ->
  let fin := snd (nm_run osz batch {| nm_map := cm; nm_met := m; nm_idx := idx |} ops) in
  fold_left (load_step batch) (entries_of ops) (cm, m) = (nm_map fin, nm_met fin).
Proof.
  intros osz batch ops. induction ops as [|o ops IH]; intros cm r m idx Href Hok Hk Hd He; [reflexivity|].
  inversion Hk as [|? ? Hk1 Hk2]; subst.
  cbn [disciplined_from] in Hd. apply andb_true_iff in Hd. destruct Hd as [Hd1 Hd2].
  cbn [trig_empty_put existsb] in He. apply orb_false_iff in He. destruct He as [He1 He2].
  destruct (step_refines batch cm r o Href Hk1) as [Hnext Hres].
  destruct Href as [Hinv Hrel].
  rewrite nm_run_cons_snd. cbn [entries_of flat_map]. fold (entries_of ops). rewrite fold_left_app.
  destruct o as [k off sz|k off|k]; cbn [op_key] in Hk1.
  - apply andb_true_iff in Hd1. destruct Hd1 as [Hoff Hsz].
    assert (Hpos : (0 < sz)%Z) by lia. assert (Hoff' : off <> 0) by lia.
    assert (Hvalid : size_is_valid sz = true) by (rewrite size_is_valid_pos; lia).
    cbn [nm_step entry_of_op fst]. cbn [fold_left]. rewrite (load_step_put batch cm m k off sz Hoff' Hvalid).
    unfold nm_put. cbn [nm_map nm_met nm_idx].
    rewrite ref_step_put_fst in Hnext, Hd2. rewrite ref_step_put_snd in Hres.
    cbn [cm_step] in Hnext, Hres.
    destruct (cm_set batch cm k off sz) as [[cm' oo] os] eqn:E. cbn [fst snd] in Hnext, Hres.
    (* the old value returned by Set is the reference's *)
    assert (Hold : (0 < os)%Z -> oo <> 0).
    { intros Hos.
      destruct (ref_get r k) as [[ro rs]|] eqn:G; injection Hres as -> ->.
      - destruct (Hok k ro rs G). assumption.
      - lia. }
    assert (Hmet : (if negb (oo =? 0) && size_is_valid os
                    then add_del (add_file (maybe_max m k) sz) os
                    else add_file (maybe_max m k) sz) = log_put m k os sz).
    { unfold log_put, log_deletion. rewrite size_is_valid_pos.
      destruct (Z.ltb_spec 0 os) as [Hos|Hos]; [|rewrite andb_false_r; reflexivity].
      destruct (N.eqb_spec oo 0); [destruct (Hold Hos); assumption|reflexivity]. }
    rewrite Hmet.
    apply (IH cm' (ref_put r k (off, sz)) (log_put m k os sz) _ Hnext); auto.
    intros k' off' sz' Hg. rewrite ref_get_put in Hg.
    rewrite m_max_log_put. destruct (N.eqb_spec k' k) as [->|Hne].
    + injection Hg as <- <-. split; [assumption|apply N.le_max_r].
    + destruct (Hok k' off' sz' Hg) as [Ho Hm]. split; [assumption|].
      eapply N.le_trans; [exact Hm|apply N.le_max_l].
  - (* Delete of a live key *)
    destruct (ref_get r k) as [[ro rs]|] eqn:G; [|discriminate].
    assert (Hlive : (0 < rs)%Z) by lia.
    cbn [nm_step entry_of_op fst]. cbn [fold_left]. rewrite (load_step_tomb batch cm m k off).
    unfold nm_delete. cbn [nm_map nm_met nm_idx].
    rewrite (ref_step_del_live r k off ro rs G Hlive) in Hnext, Hres, Hd2.
    cbn [cm_step] in Hnext, Hres. cbn [fst snd] in Hd2.
    destruct (cm_delete batch cm k) as [cm' ret] eqn:E. cbn [fst snd] in Hnext, Hres.
    injection Hres as ->.
    destruct (Hok k ro rs G) as [Hro Hmax]. rewrite (maybe_max_id m k Hmax).
    assert (Hmet : add_del m rs = log_delete m rs).
    { unfold log_delete, log_deletion. destruct (Z.ltb_spec 0 rs); [reflexivity|lia]. }
    rewrite Hmet.
    apply (IH cm' (ref_put r k (ro, (- rs)%Z)) (log_delete m rs) _ Hnext); auto.
    intros k' off' sz' Hg. rewrite ref_get_put in Hg.
    assert (Hm : m_max (log_delete m rs) = m_max m).
    { unfold log_delete, log_deletion. destruct (0 <? rs)%Z; reflexivity. }
    rewrite Hm. destruct (N.eqb_spec k' k) as [->|Hne].
    + injection Hg as <- <-. split; assumption.
    + apply (Hok k' off' sz' Hg).
  - cbn [nm_step entry_of_op fst]. cbn [fold_left]. cbn [ref_step fst] in Hd2. cbn [cm_step ref_step fst] in Hnext.
    apply (IH cm r m idx Hnext); auto.
Qed.

Definition reload_ok (osz batch : N) (ops : list op) : Prop :=
  let s := snd (nm_run osz batch nm0 ops) in
  let s' := do_loading osz batch (nm_idx s) in
  nm_map s' = nm_map s /\ nm_met s' = nm_met s /\ (forall k, nm_get batch s' k = nm_get batch s k).

Theorem reload_partial : forall osz batch ops, ok_osz osz ->
  forallb (op_in_range osz) ops = true -> disciplined ops = true -> trig_empty_put ops = false ->
  reload_ok osz batch ops.
Proof.
  intros osz batch ops Hosz Hr Hd He. unfold reload_ok. cbv zeta.
  pose proof (nm_run_idx osz batch ops nm0) as Hidx. cbn [nm0 nm_idx app] in Hidx.
  unfold do_loading. rewrite Hidx. rewrite walk_encode by (try assumption; apply entries_wf; assumption).
  pose proof (load_matches_run osz batch ops [] [] metric0 [] (refines_nil batch)
                ltac:(intros k off sz H; discriminate) (keys_ok_of_range osz ops Hr) Hd He) as L.
  cbv zeta in L. fold nm0 in L.
  match goal with |- context [fold_left (load_step batch) (entries_of ops) ?init] =>
    replace (fold_left (load_step batch) (entries_of ops) init)
      with (nm_map (snd (nm_run osz batch nm0 ops)), nm_met (snd (nm_run osz batch nm0 ops)))
      by (symmetry; exact L)
  end.
  cbn [nm_map nm_met]. repeat split.
Qed.

(* known finding 0: an empty put is a file while running and a deletion on reload *)
Definition reload_witness : list op := [Put 1 1 0%Z; Put 2 2 5%Z].

Theorem reload_refuted : exists osz batch ops, ok_osz osz /\
  forallb (op_in_range osz) ops = true /\ disciplined ops = true /\ ~ reload_ok osz batch ops.
Proof.
  exists 4, 100000, reload_witness. split; [left; reflexivity|]. split; [reflexivity|]. split; [reflexivity|].
  intros [_ [H _]]. vm_compute in H. discriminate.
Qed.

(* with a section capacity of 2 three Sets suffice to reach the overflow list; the second Delete
   of the overflow entry returns 0 *)
Definition redelete_witness : list op := [Put 0 1 10%Z; Put 10 2 20%Z; Put 5 3 30%Z; Del 5 9; Del 5 9].

Lemma redelete_witness_ok :
  fst (cm_run 2 [] redelete_witness) = [RSet 0 0%Z; RSet 0 0%Z; RSet 0 0%Z; RDel 30%Z; RDel 0%Z] /\
  map (fun s => length (s_overflow s)) (snd (cm_run 2 [] redelete_witness)) = [1%nat].
Proof. vm_compute. split; reflexivity. Qed.
