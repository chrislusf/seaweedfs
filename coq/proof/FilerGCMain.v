(* C20: the step and history theorems, and the refutations of the full statements. *)
From Coq Require Import List NArith ZArith Bool String Arith Lia Permutation.
From SW Require Import model.FilerNS proof.FilerNSBase model.Chunks model.HardLink model.FilerGC
  proof.HardLinkBase proof.HardLinkInv proof.HardLinkOps proof.HardLinkProofs
  proof.FilerGCBase proof.FilerGCProofs.
Import ListNotations.
Local Open Scope list_scope.

Lemma c20_quiet_parts : forall ev s o, c20_quiet ev s o = true ->
  forallb chunk_ok (op_chunks o) = true /\ fresh_op ev s o = true /\ c21_op_ok ev s o = true /\
  match o with
  | Create _ e _ | Update _ e => negb (h_dir e) || match h_chunks e with [] => true | _ => false end
  | Append p cs =>
      (total_size (match find_entry ev s p with Some e => h_chunks e | None => [] end) +
       fold_right (fun c acc => c_size c + acc) 0 cs <? max_int64)%N
  | _ => true
  end = true /\
  match o with Link _ _ _ => false | _ => true end = true /\
  forallb (fun c => negb (c_manifest c)) (op_chunks o) = true /\
  match o with
  | Rename oldp _ => match nfind s oldp with Some e => negb (h_dir e) | None => true end
  | _ => true
  end = true.
Proof.
  intros ev s o H. unfold c20_quiet, op_ok in H. repeat rewrite andb_true_iff in H. tauto.
Qed.

Lemma fresh_of : forall ev s o, PS s -> good_list (op_chunks o) -> fresh_op ev s o = true ->
  forall c, In c (fids (op_chunks o)) -> In c (ids_at s (op_path o)) \/ ~ In c (refs ev s).
Proof.
  intros ev s o P Hg H c Hc. unfold fresh_op in H. rewrite forallb_forall in H.
  rewrite (reach_good ev _ Hg) in H. specialize (H c Hc). apply orb_true_iff in H.
  rewrite (reach_at_ps ev s _ P) in H. destruct H as [H|H].
  - left. now apply mem_In.
  - right. apply negb_true_iff in H. now apply mem_false.
Qed.

Lemma dir_no_chunks : forall e, negb (h_dir e) || match h_chunks e with [] => true | _ => false end = true ->
  h_dir e = true -> h_chunks e = [].
Proof. intros e H D. rewrite D in H. simpl in H. destruct (h_chunks e); [reflexivity|discriminate]. Qed.

Lemma grpc_delete_sched : forall ev s p rec ign data,
  sched_of (grpc_delete ev s p rec ign data) = sched_of (delete_entry ev s p rec ign data).
Proof.
  intros. unfold grpc_delete. destruct (delete_entry ev s p rec ign data) as [[s1 r] d]. destruct r; reflexivity.
Qed.

Lemma scoped_outcome : forall ev s p r req, PS s -> Excl s ->
  (in_scope p = true -> p <> [] -> Outcome_ok ev s (st_of r) (sched_of r) req) ->
  Outcome_ok ev s (st_of (scoped p r s)) (sched_of (scoped p r s)) req.
Proof.
  intros ev s p r req P X H. unfold scoped. destruct (in_scope p) eqn:E.
  - apply H; [reflexivity|now apply in_scope_nonroot].
  - unfold st_of, sched_of. simpl. now apply outcome_same.
Qed.

(* the step function with UpdateEntry's test for "nothing changed" left open (update_with) *)
Definition step_with (same : hentry -> hentry -> bool) (ev : env) (s : st) (o : op) : res :=
  match o with
  | Update p e => scoped p (update_with same ev s p e) s
  | Write p cs mt false =>
      scoped p (match find_entry ev s p with
                | None => (s, ENotFound, [])
                | Some e0 => update_with same ev s p (set_mtime (set_chunks e0 cs) mt)
                end) s
  | _ => step ev s o
  end.

Lemma step_with_eqb : forall ev s o, step ev s o = step_with hentry_eqb ev s o.
Proof. intros ev s [| | | | | |p cs mt []|]; reflexivity. Qed.

(* the one proof; c20_step_outcome, step_prop_quiet and the two halves below are its instance at hentry_eqb
   and projections *)
Theorem step_with_outcome : forall same ev s o, PS s -> Excl s -> c20_quiet ev s o = true ->
  let r := step_with same ev s o in Outcome_ok ev s (st_of r) (sched_of r) (requests_deletion ev s o).
Proof.
  intros same ev s o P X Hq. destruct (c20_quiet_parts ev s o Hq) as [Hok [Hfr [H21 [Hsp [Hnl [Hmf Hrn]]]]]].
  pose proof (good_of_flags _ Hok Hmf) as Hg.
  pose proof (fresh_of ev s o P Hg Hfr) as Hfresh.
  destruct o as [p e x|p e|p cs|p rec ign data|oldp newp|oldp newp fresh|p cs mt via|p]; simpl.
  - (* Create *)
    apply scoped_outcome; auto. intros _ Hp. simpl in H21. apply N.eqb_eq in H21.
    apply grpc_create_outcome; auto. now apply dir_no_chunks.
  - (* Update *)
    apply scoped_outcome; auto. intros _ Hp. simpl in H21. apply N.eqb_eq in H21.
    apply update_with_outcome; auto. now apply dir_no_chunks.
  - (* Append *)
    apply scoped_outcome; auto. intros _ Hp. simpl in H21, Hsp.
    rewrite (find_entry_ps ev s p P Hp) in Hsp. apply N.ltb_lt in Hsp.
    apply grpc_append_outcome; auto.
    intros e0 He0. unfold file_at in H21. rewrite (find_entry_ps ev s p P Hp), He0 in H21.
    now apply negb_true_iff in H21.
  - (* Delete *)
    apply scoped_outcome; auto. intros _ Hp. rewrite grpc_delete_st, grpc_delete_sched.
    now apply delete_entry_outcome.
  - (* Rename *)
    unfold grpc_rename. destruct (in_scope oldp && in_scope newp) eqn:Esc; simpl;
      [|now apply outcome_same].
    destruct (in_scope2_nonroot _ _ Esc) as [Ho Hn].
    destruct (HardLink.is_prefix oldp (HardLink.parent newp));
      [now apply outcome_same|].
    rewrite (find_entry_ps ev s oldp P Ho).
    destruct (nfind s oldp) as [eo|] eqn:Eo; [|now apply outcome_same].
    apply negb_true_iff in Hrn. rewrite Hrn. simpl.
    now apply move_self_outcome.
  - discriminate.
  - (* Write *)
    simpl in H21. unfold file_at in H21.
    destruct via; simpl.
    + apply scoped_outcome; auto. intros _ Hp. unfold mount_write.
      rewrite (find_entry_ps ev s p P Hp) in *.
      destruct (nfind s p) as [e0|] eqn:E0; [|now apply outcome_same].
      apply negb_true_iff in H21. apply grpc_create_outcome; auto.
      * apply (ps_plain _ P p e0 E0).
      * simpl. intro D. congruence.
    + apply scoped_outcome; auto. intros _ Hp.
      rewrite (find_entry_ps ev s p P Hp) in *.
      destruct (nfind s p) as [e0|] eqn:E0; [|now apply outcome_same].
      apply negb_true_iff in H21. apply update_with_outcome; auto.
      * apply (ps_plain _ P p e0 E0).
      * simpl. intro D. congruence.
  - (* Unlink *)
    apply scoped_outcome; auto. intros _ Hp. unfold mount_unlink.
    destruct (find_entry ev s p) as [e0|]; [|now apply outcome_same].
    rewrite grpc_delete_st, grpc_delete_sched. now apply delete_entry_outcome.
Qed.

Theorem c20_step_outcome : forall ev s o, PS s -> Excl s -> c20_quiet ev s o = true ->
  let r := step ev s o in Outcome_ok ev s (st_of r) (sched_of r) (requests_deletion ev s o).
Proof. intros ev s o. rewrite step_with_eqb. apply step_with_outcome. Qed.

Theorem step_with_prop_quiet : forall same ev s o, PS s -> Excl s -> c20_quiet ev s o = true ->
  let r := step_with same ev s o in
  step_prop ev s o (refs ev s) (refs ev (st_of r)) (sched_of r) = true /\ PS (st_of r) /\ Excl (st_of r).
Proof.
  intros same ev s o P X Hq. pose proof (step_with_outcome same ev s o P X Hq) as G. simpl in *.
  split; [|split; [apply (g_ps _ _ _ _ _ G)|apply (g_excl _ _ _ _ _ G)]].
  eapply outcome_prop; [exact G|reflexivity].
Qed.

Theorem step_prop_quiet : forall ev s o, PS s -> Excl s -> c20_quiet ev s o = true ->
  let r := step ev s o in
  step_prop ev s o (refs ev s) (refs ev (st_of r)) (sched_of r) = true /\ PS (st_of r) /\ Excl (st_of r).
Proof. intros ev s o. rewrite step_with_eqb. apply step_with_prop_quiet. Qed.

(* no chunk id handed to a deletion sink is referenced by the state after the operation *)
Theorem no_live_deleted_quiet : forall ev s o, PS s -> Excl s -> c20_quiet ev s o = true ->
  forall c, In c (sched_of (step ev s o)) -> ~ In c (refs ev (st_of (step ev s o))).
Proof. intros ev s o P X Hq. apply (g_live _ _ _ _ _ (c20_step_outcome ev s o P X Hq)). Qed.

(* every chunk id that stops being referenced by an operation that asks for data deletion is scheduled *)
Theorem all_garbage_scheduled_quiet : forall ev s o, PS s -> Excl s -> c20_quiet ev s o = true ->
  requests_deletion ev s o = true ->
  forall c, In c (refs ev s) -> In c (refs ev (st_of (step ev s o))) \/ In c (sched_of (step ev s o)).
Proof. intros ev s o P X Hq Hr. apply (g_garb _ _ _ _ _ (c20_step_outcome ev s o P X Hq) Hr). Qed.

Lemma c20_run_ok_quiet : forall ev ops s, PS s -> Excl s ->
  c20_hist_quiet ev s ops = true -> c20_run_ok ev s ops = true.
Proof.
  induction ops as [|o ops IH]; intros s P X H; [reflexivity|].
  simpl in H. apply andb_true_iff in H. destruct H as [Hq Hr].
  destruct (step_prop_quiet ev s o P X Hq) as [A [P' X']]. simpl. rewrite A. simpl. now apply IH.
Qed.

Theorem c20_history_quiet : forall ev ops,
  c20_hist_quiet ev empty_st ops = true -> c20_run_ok ev empty_st ops = true.
Proof. intros. apply c20_run_ok_quiet; [apply PS_empty|apply Excl_empty|assumption]. Qed.

Lemma final_ps : forall ev ops s, PS s -> Excl s -> c20_hist_quiet ev s ops = true ->
  PS (final ev s ops) /\ Excl (final ev s ops).
Proof.
  induction ops as [|o ops IH]; intros s P X H; [auto|].
  simpl in H. apply andb_true_iff in H. destruct H as [Hq Hr].
  destruct (step_prop_quiet ev s o P X Hq) as [_ [P' X']]. simpl. now apply IH.
Qed.

Lemma hist_quiet_snoc : forall ev o ops s, c20_hist_quiet ev s (ops ++ [o]) = true ->
  c20_hist_quiet ev s ops = true /\ c20_quiet ev (final ev s ops) o = true.
Proof.
  induction ops as [|a l IH]; intros s H; simpl in *; apply andb_true_iff in H.
  - tauto.
  - destruct H as [A B]. destruct (IH _ B). rewrite A. auto.
Qed.

(* the two halves of the property at the last step of any history inside c20_hist_quiet *)
Theorem no_live_deleted_history : forall ev ops o,
  c20_hist_quiet ev empty_st (ops ++ [o]) = true ->
  let s := final ev empty_st ops in
  forall c, In c (sched_of (step ev s o)) -> ~ In c (refs ev (st_of (step ev s o))).
Proof.
  intros ev ops o H s. destruct (hist_quiet_snoc ev o ops empty_st H) as [H1 H2].
  destruct (final_ps ev ops empty_st PS_empty Excl_empty H1) as [P X].
  now apply no_live_deleted_quiet.
Qed.

Theorem all_garbage_scheduled_history : forall ev ops o,
  c20_hist_quiet ev empty_st (ops ++ [o]) = true ->
  let s := final ev empty_st ops in
  requests_deletion ev s o = true ->
  forall c, In c (refs ev s) -> In c (refs ev (st_of (step ev s o))) \/ In c (sched_of (step ev s o)).
Proof.
  intros ev ops o H s. destruct (hist_quiet_snoc ev o ops empty_st H) as [H1 H2].
  destruct (final_ps ev ops empty_st PS_empty Excl_empty H1) as [P X].
  now apply all_garbage_scheduled_quiet.
Qed.

(* from here on numerals are N: the witnesses are concrete chunks and file ids *)
Local Open Scope N_scope.
Definition g_c (k i : N) : chunk := Chunk k (i * 10) 10 k false.
Definition g_m (k off size : N) : chunk := Chunk k off size k true.
Definition g_file (tag : N) (cs : list chunk) : hentry := mk_hentry false 420 tag tag tag cs 0 0%Z.
Definition qa : path := ["a"%string].
Definition qb : path := ["b"%string].
Definition qc : path := ["c"%string].
Definition qd : path := ["d"%string].

(* k = 0: a flush (CreateEntry) that wraps the existing chunks into a manifest deletes them *)
Definition g_ev0 : env := mk_env [(50, [g_c 1 0; g_c 2 1])] 0.
Definition g_w0 : list op :=
  [Create qa (g_file 1 [g_c 1 0; g_c 2 1]) false; Write qa [g_m 50 0 20; g_c 3 2] 2 true].
(* k = 1: one name of a hard-linked file deleted with data deletion *)
Definition g_ev : env := mk_env [] 0.
Definition g_w1 : list op :=
  [Create qa (g_file 1 [g_c 1 0; g_c 2 1]) false; Link qa qb 1; Delete qa false false true].
(* k = 2: the last links go away through a recursive delete with data deletion *)
Definition g_w2 : list op :=
  [Create qd (mk_hentry true 493 9 9 9 [] 0 0%Z) false;
   Create (qd ++ qa) (g_file 1 [g_c 1 0; g_c 2 1]) false; Link (qd ++ qa) (qd ++ qb) 1;
   Create (qd ++ qc) (g_file 2 [g_c 3 0]) false; Delete qd true false true].
(* k = 3: UpdateEntry replaces a manifest by another one over the same chunks *)
Definition g_ev3 : env := mk_env [(50, [g_c 1 0; g_c 2 1]); (51, [g_c 1 0; g_c 2 1; g_c 3 2])] 0.
Definition g_w3 : list op :=
  [Create qa (g_file 1 [g_c 1 0; g_c 2 1]) false; Update qa (g_file 1 [g_m 50 0 20; g_c 3 2]);
   Update qa (g_file 1 [g_m 51 0 30])].
(* k = 4: a renamed link is a plain copy; a write through the other name deletes the shared chunks *)
Definition g_w4 : list op :=
  [Create qa (g_file 1 [g_c 1 0; g_c 2 1]) false; Link qa qb 1; Rename qa qc; Write qb [g_c 5 0] 9 true].

Definition assumptions_hold (ev : env) (ops : list op) : bool := flat_env ev && hist_ok ev empty_st ops.

(* the chunks scheduled by the last operation of a history that are still referenced afterwards *)
Definition live_deleted (ev : env) (ops : list op) : list N :=
  let s := final ev empty_st (removelast ops) in
  let r := step ev s (last ops (Unlink [])) in
  filter (fun c => mem c (refs ev (st_of r))) (sched_of r).
(* the chunks that stopped being referenced by the last operation and were not scheduled *)
Definition leaked (ev : env) (ops : list op) : list N :=
  let s := final ev empty_st (removelast ops) in
  let r := step ev s (last ops (Unlink [])) in
  filter (fun c => negb (mem c (refs ev (st_of r))) && negb (mem c (sched_of r))) (refs ev s).

Theorem no_live_deleted_refuted :
  (assumptions_hold g_ev0 g_w0 = true /\ live_deleted g_ev0 g_w0 = [1; 2]) /\
  (assumptions_hold g_ev g_w1 = true /\ live_deleted g_ev g_w1 = [1; 2]) /\
  (assumptions_hold g_ev3 g_w3 = true /\ live_deleted g_ev3 g_w3 = [1; 2]) /\
  (assumptions_hold g_ev g_w4 = true /\ live_deleted g_ev g_w4 = [1; 2]).
Proof. repeat split; vm_compute; reflexivity. Qed.

Theorem all_garbage_scheduled_refuted :
  assumptions_hold g_ev g_w2 = true /\
  requests_deletion g_ev (final g_ev empty_st (removelast g_w2)) (last g_w2 (Unlink [])) = true /\
  leaked g_ev g_w2 = [1; 2; 1; 2].
Proof. repeat split; vm_compute; reflexivity. Qed.

Theorem history_refuted :
  exists ev ops, assumptions_hold ev ops = true /\ c20_run_ok ev empty_st ops = false.
Proof. exists g_ev, g_w1. split; vm_compute; reflexivity. Qed.

(* each witness fails, every offending chunk of every failing step has an explanation, and the first one is
   the finding it is the witness of *)
Theorem witness_triggers :
  first_failure g_ev0 g_w0 = Some (Some 0) /\
  first_failure g_ev g_w1 = Some (Some 1) /\
  first_failure g_ev g_w2 = Some (Some 2) /\
  first_failure g_ev3 g_w3 = Some (Some 3) /\
  first_failure g_ev g_w4 = Some (Some 4).
Proof. repeat split; vm_compute; reflexivity. Qed.

(* the explanations are per chunk: the same failing steps with one more, unrelated, violation are NOT
   classified.  g_w1x: the k=1 witness on a filer where a client also shares chunk 7 between two plain
   files (outside the assumptions) and deletes one of them: chunk 7 is explained by nothing *)
Definition g_w1x : list op :=
  [Create qc (g_file 3 [g_c 7 0]) false; Create qd (g_file 4 [g_c 7 0]) false;
   Create qa (g_file 1 [g_c 1 0; g_c 2 1]) false; Link qa qb 1; Delete qa false false true;
   Delete qc false false true].
Theorem unexplained_not_classified : first_failure g_ev g_w1x = Some None.
Proof. vm_compute. reflexivity. Qed.

Lemma filter_nil_forall : forall {A} (f : A -> bool) l, filter f l = [] <-> forallb (fun x => negb (f x)) l = true.
Proof.
  induction l as [|x l IH]; simpl; [tauto|]. destruct (f x); simpl; [split; discriminate|exact IH].
Qed.

Lemma step_prop_offending : forall ev s o rb ra sched,
  step_prop ev s o rb ra sched = true <->
  live_ids ra sched = [] /\ leaked_ids (requests_deletion ev s o) rb ra sched = [].
Proof.
  intros. unfold step_prop, no_live_b, disjoint, live_ids, leaked_ids, all_garbage_b.
  rewrite andb_true_iff, filter_nil_forall.
  destruct (requests_deletion ev s o).
  - rewrite filter_nil_forall.
    assert (E : forallb (fun c => mem c ra || mem c sched) rb =
                forallb (fun x => negb (negb (mem x ra) && negb (mem x sched))) rb).
    { clear. induction rb as [|c rb IHrb]; simpl; [reflexivity|]. rewrite IHrb.
      destruct (mem c ra), (mem c sched); reflexivity. }
    rewrite E. tauto.
  - tauto.
Qed.

Theorem failures_complete : forall ev ops taint s,
  failures ev taint s ops = [] <-> c20_run_ok ev s ops = true.
Proof.
  induction ops as [|o ops IH]; intros taint s; simpl; [tauto|].
  rewrite andb_true_iff, step_prop_offending, <- (IH (taint_of ev s o ++ taint)).
  split.
  - intro H. apply app_eq_nil in H. destruct H as [H1 H2]. apply app_eq_nil in H2. destruct H2 as [H2 H3].
    apply map_eq_nil in H1. apply map_eq_nil in H2. auto.
  - intros [[H1 H2] H3]. rewrite H1, H2, H3. reflexivity.
Qed.

(* no step of a history inside the hypothesis of the partial theorems has an offending chunk *)
Theorem quiet_no_failures : forall ev ops,
  c20_hist_quiet ev empty_st ops = true -> first_failure ev ops = None.
Proof.
  intros ev ops H. unfold first_failure.
  assert (E : failures ev [] empty_st ops = []) by (apply failures_complete; now apply c20_history_quiet).
  now rewrite E.
Qed.

(* first_failure is None exactly when the property holds at every step *)
Theorem first_failure_none : forall ev ops,
  first_failure ev ops = None <-> c20_run_ok ev empty_st ops = true.
Proof.
  intros. unfold first_failure. rewrite <- (failures_complete ev ops [] empty_st).
  destruct (failures ev [] empty_st ops); split; intro H; try reflexivity; discriminate.
Qed.

(* the mount's own discipline over a hard link (link, write through a name, unlink both) and an
   UpdateEntry that wraps chunks into a manifest satisfy the property at every step, although they
   are outside c20_quiet *)
Definition g_mount : list op :=
  [Create qd (mk_hentry true 493 9 9 9 [] 0 0%Z) false;
   Create qa (g_file 1 [g_c 1 0; g_c 2 1]) false; Link qa (qd ++ qb) 1;
   Write (qd ++ qb) [g_c 2 1; Chunk 4 0 10 9 false] 5 true; Unlink qa; Unlink (qd ++ qb)].
Definition g_wrapu : list op :=
  [Create qa (g_file 1 [g_c 1 0; g_c 2 1]) false; Update qa (g_file 1 [g_m 50 0 20; g_c 3 2]);
   Delete qa false false true].
Theorem clean_outside_quiet :
  (assumptions_hold g_ev g_mount = true /\ c20_hist_quiet g_ev empty_st g_mount = false /\
   first_failure g_ev g_mount = None) /\
  (assumptions_hold g_ev0 g_wrapu = true /\ c20_hist_quiet g_ev0 empty_st g_wrapu = false /\
   first_failure g_ev0 g_wrapu = None).
Proof. repeat split; vm_compute; reflexivity. Qed.

(* non-vacuity: overwrites with retained and fresh chunks, an append, a rename onto an
   existing file, deletes with and without data, a recursive delete — inside the hypothesis *)
Definition g_clean : list op :=
  [Create qa (g_file 1 [g_c 1 0; g_c 2 1]) false;
   Create (qd ++ qa) (g_file 2 [g_c 3 0]) false;
   Write qa [g_c 1 0; Chunk 4 10 10 9 false; g_c 5 2] 3 true;
   Update qa (g_file 4 [g_c 1 0; g_c 6 1]);
   Append (qd ++ qa) [Chunk 7 0 5 7 false];
   Create qb (g_file 5 [g_c 8 0]) false;
   Rename qb qa;
   Delete (qd ++ qa) false false false;
   Create (qd ++ qb) (g_file 6 [g_c 9 0]) false;
   Delete qd true false true;
   Unlink qa].

Example clean_is_quiet :
  c20_hist_quiet g_ev empty_st g_clean = true /\
  map sched_of (run g_ev empty_st g_clean) =
    [[]; []; [2]; [4; 5]; []; []; [1; 6]; []; []; [9]; [8]] /\
  final g_ev empty_st g_clean = empty_st.
Proof. repeat split; vm_compute; reflexivity. Qed.
