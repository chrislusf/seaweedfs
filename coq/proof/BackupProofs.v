(* C37, model/Backup.v.  The source is P ++ A with A newer than everything the backup holds and the backup
   serving every key A does not touch as P does (backup_inv); the binary search never starts after the beginning
   of A (search_not_late) and re-copying part of P is harmless (replay_suffix_pointwise), so a run ends in
   Synced; a write keeps backup_inv while its clock reading is newer, a compaction keeps Synced; trigger fires
   exactly where a step could leave backup_inv.  Then the two findings as witnesses; last, the .idx observable. *)
From Coq Require Import List NArith ZArith Bool Arith Lia Sorted.
From Coq Require Import ZifyBool ZifyN ZifyNat.
From SW Require Import model.Backup.
Import ListNotations.
Local Open Scope N_scope.
Ltac Zify.zify_post_hook ::= Z.div_mod_to_equations.

Lemma latest_app : forall a b k,
  latest (a ++ b) k = match latest b k with Some x => Some x | None => latest a k end.
Proof.
  induction a as [|r a IH]; intros b k; cbn [app latest].
  - destruct (latest b k); reflexivity.
  - rewrite IH. destruct (latest b k); [reflexivity|]. reflexivity.
Qed.

Lemma latest_some : forall l k r, latest l k = Some r -> r_key r = k /\ In r l.
Proof.
  induction l as [|x l IH]; intros k r H; cbn [latest] in H; [discriminate|].
  destruct (latest l k) as [y|] eqn:E.
  - inversion H; subst y. destruct (IH _ _ E) as [H1 H2]. split; [exact H1 | right; exact H2].
  - destruct (r_key x =? k) eqn:Ek; [|discriminate]. inversion H; subst x.
    apply N.eqb_eq in Ek. split; [exact Ek | left; reflexivity].
Qed.

Lemma latest_none_notin : forall l k, latest l k = None -> ~ In k (map r_key l).
Proof.
  induction l as [|x l IH]; intros k H; cbn [latest] in H; [intros []|].
  destruct (latest l k) eqn:E; [discriminate|].
  destruct (r_key x =? k) eqn:Ek; [discriminate|]. apply N.eqb_neq in Ek.
  cbn [map]. intros [Hx | Hx]; [exact (Ek Hx) | exact (IH _ E Hx)].
Qed.

Lemma latest_notin : forall l k, ~ In k (map r_key l) -> latest l k = None.
Proof.
  intros l k H. destruct (latest l k) as [r|] eqn:E; [|reflexivity].
  destruct (latest_some _ _ _ E) as [Hk Hin]. exfalso. apply H. rewrite <- Hk. apply in_map. exact Hin.
Qed.

Lemma live_lookup_notin : forall l k, ~ In k (map r_key l) -> live_lookup l k = None.
Proof. intros l k H. unfold live_lookup. rewrite (latest_notin _ _ H). reflexivity. Qed.

Lemma live_lookup_some : forall l k r, live_lookup l k = Some r -> r_key r = k /\ In r l /\ r_live r = true.
Proof.
  unfold live_lookup. intros l k r H. destruct (latest l k) as [x|] eqn:E; [|discriminate].
  destruct (r_live x) eqn:El; [|discriminate]. inversion H; subst x.
  destruct (latest_some _ _ _ E) as [H1 H2]. auto.
Qed.

Lemma live_lookup_app : forall a b k,
  live_lookup (a ++ b) k =
  match latest b k with Some r => if r_live r then Some r else None | None => live_lookup a k end.
Proof.
  intros a b k. unfold live_lookup. rewrite latest_app. destruct (latest b k); reflexivity.
Qed.

Lemma live_lookup_app_cong : forall a a' b,
  (forall k, live_lookup a k = live_lookup a' k) ->
  forall k, live_lookup (a ++ b) k = live_lookup (a' ++ b) k.
Proof. intros a a' b H k. rewrite !live_lookup_app. destruct (latest b k); [reflexivity | apply H]. Qed.

Lemma latest_skipn : forall n l k r, latest (skipn n l) k = Some r -> latest l k = Some r.
Proof.
  intros n l k r H. rewrite <- (firstn_skipn n l) at 1. rewrite latest_app, H. reflexivity.
Qed.

(* re-appending records the backup already reflects leaves the lookup unchanged *)
Lemma replay_suffix_pointwise : forall B P n k,
  live_lookup B k = live_lookup P k -> live_lookup (B ++ skipn n P) k = live_lookup P k.
Proof.
  intros B P n k H. rewrite live_lookup_app.
  destruct (latest (skipn n P) k) as [r|] eqn:E.
  - unfold live_lookup. rewrite (latest_skipn _ _ _ _ E). reflexivity.
  - exact H.
Qed.

Lemma read_of_lookup : forall v w,
  (forall k, live_lookup (recs v) k = live_lookup (recs w) k) -> forall k, read v k = read w k.
Proof. intros v w H k. unfold read. rewrite H. reflexivity. Qed.

Theorem replay_idempotent_reads : forall bkv srcv n,
  (forall k, live_lookup (recs bkv) k = live_lookup (recs srcv) k) ->
  forall k, read {| recs := recs bkv ++ skipn n (recs srcv); rev := rev bkv |} k = read srcv k.
Proof.
  intros bkv srcv n H k. unfold read. cbn [recs].
  rewrite (replay_suffix_pointwise _ _ n k (H k)). reflexivity.
Qed.

Lemma latest_live_rec : forall l x k, latest (live_rec l x) k = if k =? x then live_lookup l k else None.
Proof.
  intros l x k. unfold live_rec. destruct (N.eqb_spec k x) as [->|Hne].
  - destruct (live_lookup l x) as [r|] eqn:E; [|reflexivity].
    destruct (live_lookup_some _ _ _ E) as [Hk _]. cbn [latest]. rewrite Hk, N.eqb_refl. reflexivity.
  - destruct (live_lookup l x) as [r|] eqn:E; [|reflexivity].
    destruct (live_lookup_some _ _ _ E) as [Hk _]. cbn [latest]. rewrite Hk.
    destruct (N.eqb_spec x k); [congruence | reflexivity].
Qed.

Lemma latest_flat_map : forall l ks k,
  latest (flat_map (live_rec l) ks) k = if existsb (N.eqb k) ks then live_lookup l k else None.
Proof.
  intros l ks k. induction ks as [|x ks IH]; [reflexivity|].
  cbn [flat_map existsb]. rewrite latest_app, IH, latest_live_rec.
  destruct (k =? x), (existsb (N.eqb k) ks), (live_lookup l k); reflexivity.
Qed.

Lemma insert_key_in : forall k l y, In y (insert_key k l) <-> y = k \/ In y l.
Proof.
  intros k l y. induction l as [|x l IH]; cbn [insert_key].
  - cbn. intuition.
  - destruct (k <? x) eqn:E1.
    + cbn [In]. intuition.
    + destruct (k =? x) eqn:E2.
      * apply N.eqb_eq in E2; subst x. cbn [In]. intuition.
      * cbn [In]. rewrite IH. intuition.
Qed.

Lemma keys_sorted_in : forall l y, In y (keys_sorted l) <-> In y (map r_key l).
Proof.
  unfold keys_sorted. induction l as [|x l IH]; intros y; cbn [map fold_right].
  - reflexivity.
  - rewrite insert_key_in, IH. cbn [In]. intuition.
Qed.

(* Compact2 + CommitCompact keep exactly the live entries *)
Lemma live_lookup_compact : forall l k, live_lookup (compact l) k = live_lookup l k.
Proof.
  intros l k. unfold compact. unfold live_lookup at 1. rewrite latest_flat_map.
  destruct (existsb (N.eqb k) (keys_sorted l)) eqn:E.
  - destruct (live_lookup l k) as [r|] eqn:El; [|reflexivity].
    destruct (live_lookup_some _ _ _ El) as [_ [_ Hl]]. rewrite Hl. reflexivity.
  - symmetry. apply live_lookup_notin. rewrite <- keys_sorted_in. intro Hin.
    rewrite (proj2 (existsb_exists _ _)) in E; [discriminate | exists k; split; [exact Hin | apply N.eqb_refl]].
Qed.

Lemma compact_in : forall l r, In r (compact l) -> In r l /\ r_live r = true /\ live_lookup l (r_key r) = Some r.
Proof.
  intros l r H. unfold compact in H. apply in_flat_map in H. destruct H as [k [_ Hr]].
  unfold live_rec in Hr. destruct (live_lookup l k) as [x|] eqn:E; [|destruct Hr].
  destruct Hr as [Hr|[]]. subst x. destruct (live_lookup_some _ _ _ E) as [Hk [Hin Hl]].
  rewrite Hk. auto.
Qed.

Definition key_lt (a b : rec) : Prop := r_key a < r_key b.

Lemma insert_key_sorted : forall k l, StronglySorted N.lt l -> StronglySorted N.lt (insert_key k l).
Proof.
  intros k l H. induction H as [|x l Hs IH Hf]; cbn [insert_key].
  - constructor; constructor.
  - destruct (k <? x) eqn:E1.
    + apply N.ltb_lt in E1. constructor.
      * constructor; assumption.
      * constructor; [exact E1|]. rewrite Forall_forall in *. intros y Hy. specialize (Hf y Hy). lia.
    + destruct (k =? x) eqn:E2.
      * constructor; assumption.
      * apply N.ltb_ge in E1. apply N.eqb_neq in E2. constructor; [exact IH|].
        rewrite Forall_forall in *. intros y Hy. apply insert_key_in in Hy. destruct Hy as [Hy|Hy].
        -- subst y. lia.
        -- apply Hf; exact Hy.
Qed.

Lemma keys_sorted_sorted : forall l, StronglySorted N.lt (keys_sorted l).
Proof.
  unfold keys_sorted. induction l as [|x l IH]; cbn [map fold_right]; [constructor|].
  apply insert_key_sorted. exact IH.
Qed.

Lemma flat_map_sorted : forall l ks, StronglySorted N.lt ks ->
  StronglySorted key_lt (flat_map (live_rec l) ks) /\
  (forall r, In r (flat_map (live_rec l) ks) -> In (r_key r) ks).
Proof.
  intros l ks H. induction H as [|x ks Hs IH Hf]; cbn [flat_map].
  - split; [constructor | intros r []].
  - destruct IH as [IH1 IH2]. unfold live_rec at 1 3.
    destruct (live_lookup l x) as [r0|] eqn:E; cbn [app].
    + destruct (live_lookup_some _ _ _ E) as [Hk _]. split.
      * constructor; [exact IH1|]. rewrite Forall_forall. intros y Hy. unfold key_lt. rewrite Hk.
        rewrite Forall_forall in Hf. apply Hf. apply IH2. exact Hy.
      * intros r [Hr|Hr]; [subst r0; left; symmetry; exact Hk | right; apply IH2; exact Hr].
    + split; [exact IH1 | intros r Hr; right; apply IH2; exact Hr].
Qed.

Theorem compact_sorted_live : forall l,
  StronglySorted key_lt (compact l) /\ (forall r, In r (compact l) -> r_live r = true).
Proof.
  intros l. split.
  - apply flat_map_sorted. apply keys_sorted_sorted.
  - intros r Hr. apply compact_in in Hr. tauto.
Qed.

(* with enough fuel the loop stops at a tested boundary *)
Lemma bsearch_loop_boundary : forall fuel ts since l h,
  (l <= h)%nat -> (h - l < fuel)%nat ->
  let r := bsearch_loop fuel ts since l h in
  (l <= r <= h)%nat /\ (r = h \/ since < nth r ts 0) /\ (r = l \/ nth (r - 1) ts 0 <= since).
Proof.
  induction fuel as [|f IH]; intros ts since l h Hlh Hf; [lia|].
  cbn [bsearch_loop]. destruct (l <? h)%nat eqn:Elh.
  - apply Nat.ltb_lt in Elh.
    assert (Hm : (l <= (l + h) / 2 < h)%nat) by lia.
    destruct (nth ((l + h) / 2) ts 0 <=? since) eqn:Ets.
    + apply N.leb_le in Ets.
      destruct (IH ts since (S ((l + h) / 2)) h ltac:(lia) ltac:(lia)) as [H1 [H2 H3]].
      cbv zeta. split; [lia|]. split; [exact H2|].
      destruct H3 as [H3|H3]; [|right; exact H3].
      right. rewrite H3. replace (S ((l + h) / 2) - 1)%nat with ((l + h) / 2)%nat by lia. exact Ets.
    + apply N.leb_gt in Ets.
      destruct (IH ts since l ((l + h) / 2)%nat ltac:(lia) ltac:(lia)) as [H1 [H2 H3]].
      cbv zeta. split; [lia|]. split; [|exact H3].
      destruct H2 as [H2|H2]; [|right; exact H2]. right. rewrite H2. exact Ets.
  - apply Nat.ltb_ge in Elh. cbv zeta. split; [lia|]. split; [left; lia | left; reflexivity].
Qed.

Lemma nth_in_skipn : forall (A : Type) (d : A) j (l : list A) i,
  (j <= i < length l)%nat -> In (nth i l d) (skipn j l).
Proof.
  intros A d. induction j as [|j IH]; intros l i H.
  - cbn [skipn]. apply nth_In. lia.
  - destruct l as [|x l]; [cbn in H; lia|]. destruct i as [|i]; [lia|].
    cbn [skipn nth]. apply IH. cbn [length] in H. lia.
Qed.

Lemma nth_map_ts : forall l i, (i < length l)%nat ->
  nth i (map r_ts l) 0 = r_ts (nth i l {| r_key := 0; r_ts := 0; r_live := false; r_val := 0; r_len := 0; r_meta := 0 |}).
Proof.
  intros l i H.
  change 0 with (r_ts {| r_key := 0; r_ts := 0; r_live := false; r_val := 0; r_len := 0; r_meta := 0 |}) at 1.
  apply map_nth.
Qed.

(* on any index the search stops at a boundary: the entry it starts at is newer than
   [since] and the entry just before it is not *)
Theorem search_boundary : forall (l : list rec) since,
  let ts := map r_ts l in
  match binary_search_by_append_ns l since with
  | Some p => (p < length l)%nat /\ since < nth p ts 0 /\ (p = 0%nat \/ nth (p - 1) ts 0 <= since)
  | None => l = [] \/ nth (length l - 1) ts 0 <= since
  end.
Proof.
  intros l since ts. unfold binary_search_by_append_ns. fold ts.
  replace (length ts) with (length l) by (unfold ts; rewrite map_length; reflexivity).
  destruct (bsearch_loop_boundary (S (length l)) ts since 0 (length l) ltac:(lia) ltac:(lia)) as [Hb [H2 H3]].
  set (p := bsearch_loop (S (length l)) ts since 0 (length l)) in *.
  destruct (Nat.eqb p (length l)) eqn:E.
  - apply Nat.eqb_eq in E. rewrite E in H3. destruct H3 as [H3|H3]; [|right; exact H3].
    left. destruct l; [reflexivity | cbn in H3; lia].
  - apply Nat.eqb_neq in E. split; [lia|]. split; [destruct H2 as [H2|H2]; [lia | exact H2] | exact H3].
Qed.

(* if every record from position j on is newer than [since], the search
   never starts after j (and "nothing newer" is answered only when j is the end) *)
Theorem search_not_late : forall (l : list rec) since j,
  (j <= length l)%nat ->
  (forall r, In r (skipn j l) -> since < r_ts r) ->
  match binary_search_by_append_ns l since with
  | Some p => (p <= j)%nat /\ (p < length l)%nat
  | None => j = length l
  end.
Proof.
  intros l since j Hj Hnew.
  assert (Hn : forall i, (j <= i < length l)%nat -> since < nth i (map r_ts l) 0).
  { intros i Hi. rewrite nth_map_ts by lia. apply Hnew, nth_in_skipn, Hi. }
  pose proof (search_boundary l since) as Hb. cbv zeta in Hb.
  destruct (binary_search_by_append_ns l since) as [p|].
  - destruct Hb as (Hp & _ & [->|Hb]); [lia|]. split; [|exact Hp].
    destruct (Nat.le_gt_cases p j) as [H|H]; [exact H|]. specialize (Hn (p - 1)%nat ltac:(lia)). lia.
  - destruct Hb as [->|Hb]; [cbn in *; lia|].
    destruct (Nat.eq_dec j (length l)) as [H|H]; [exact H|]. specialize (Hn (length l - 1)%nat ltac:(lia)). lia.
Qed.

(* the loop's answer does not depend on the fuel once it exceeds h - l: the None/Some
   split of [binary_search_by_append_ns] is never an artefact of fuel exhaustion *)
Lemma bsearch_fuel_irrelevant : forall f1 f2 ts since l h,
  (h - l < f1)%nat -> (h - l < f2)%nat ->
  bsearch_loop f1 ts since l h = bsearch_loop f2 ts since l h.
Proof.
  induction f1 as [|f1 IH]; intros f2 ts since l h H1 H2; [lia|].
  destruct f2 as [|f2]; [lia|]. cbn [bsearch_loop].
  destruct (l <? h)%nat eqn:Elh; [|reflexivity]. apply Nat.ltb_lt in Elh.
  assert (Hm : (l <= (l + h) / 2 < h)%nat) by lia.
  destruct (nth ((l + h) / 2) ts 0 <=? since); apply IH; lia.
Qed.

Theorem search_fuel_irrelevant : forall (l : list rec) since extra,
  let ts := map r_ts l in
  bsearch_loop (S (length ts) + extra) ts since 0 (length ts) = bsearch_loop (S (length ts)) ts since 0 (length ts).
Proof. intros l since extra ts. apply bsearch_fuel_irrelevant; lia. Qed.

Lemma in_maxts : forall l r, In r l -> r_ts r <= maxts l.
Proof.
  induction l as [|x l IH]; intros r H; [destruct H|]. cbn [maxts fold_right]. fold (maxts l).
  destruct H as [H|H]; [subst x; lia | specialize (IH r H); lia].
Qed.

Lemma maxts_le : forall l c, (forall r, In r l -> r_ts r <= c) -> maxts l <= c.
Proof.
  induction l as [|x l IH]; intros c H; [cbn; lia|]. cbn [maxts fold_right]. fold (maxts l).
  assert (H1 : r_ts x <= c) by (apply H; left; reflexivity).
  assert (H2 : maxts l <= c) by (apply IH; intros r Hr; apply H; right; exact Hr). lia.
Qed.

Lemma split_newer_spec : forall M l P A,
  split_newer M l = (P, A) -> l = P ++ A /\ (forall r, In r A -> M < r_ts r).
Proof.
  intros M. induction l as [|x l IH]; intros P A H; cbn [split_newer] in H.
  - inversion H; subst. split; [reflexivity | intros r []].
  - destruct (split_newer M l) as [P0 A0] eqn:E. destruct (IH P0 A0 eq_refl) as [Hl HA].
    destruct P0 as [|y P0].
    + destruct (M <? r_ts x) eqn:Ex; inversion H; subst; cbn [app] in *.
      * split; [reflexivity|]. apply N.ltb_lt in Ex. intros r [Hr|Hr]; [subst r; exact Ex | apply HA; exact Hr].
      * split; [reflexivity | exact HA].
    + inversion H; subst. split; [reflexivity | exact HA].
Qed.

Lemma rec_eqb_eq : forall a b, rec_eqb a b = true -> a = b.
Proof.
  intros [k1 t1 l1 v1 n1 m1] [k2 t2 l2 v2 n2 m2]. unfold rec_eqb. cbn [r_key r_ts r_live r_val r_len r_meta].
  rewrite !andb_true_iff, !N.eqb_eq, Bool.eqb_true_iff. intros [[[[[-> ->] ->] ->] ->] ->]. reflexivity.
Qed.

Lemma orec_eqb_eq : forall a b, orec_eqb a b = true -> a = b.
Proof.
  intros [a|] [b|] H; cbn in H; try discriminate; [|reflexivity]. f_equal. apply rec_eqb_eq. exact H.
Qed.

Theorem reflects_sound : forall st, reflects st = true ->
  exists P A, recs (src st) = P ++ A /\
    (forall r, In r A -> maxts (recs (bk st)) < r_ts r) /\
    (forall k, latest A k = None -> live_lookup (recs (bk st)) k = live_lookup P k).
Proof.
  intros st H. unfold reflects in H.
  destruct (split_newer (maxts (recs (bk st))) (recs (src st))) as [P A] eqn:E.
  destruct (split_newer_spec _ _ _ _ E) as [Hl HA]. exists P, A. split; [exact Hl|]. split; [exact HA|].
  intros k Hk. rewrite forallb_forall in H.
  destruct (in_dec N.eq_dec k (map r_key (recs (src st)) ++ map r_key (recs (bk st)))) as [Hin|Hnin].
  - specialize (H k Hin). rewrite Hk in H. apply orec_eqb_eq. exact H.
  - rewrite !live_lookup_notin; [reflexivity | |].
    + intros Hc. apply Hnin. apply in_or_app. left. rewrite Hl, map_app. apply in_or_app. left. exact Hc.
    + intros Hc. apply Hnin. apply in_or_app. right. exact Hc.
Qed.

Lemma last_map_bound : forall (l : list rec) c,
  (forall r, In r l -> r_ts r <= c) -> find_last_append_ns l <= c.
Proof.
  intros l c H. unfold find_last_append_ns.
  destruct l as [|x l]; [cbn; lia|].
  assert (Hin : In (last (map r_ts (x :: l)) 0) (map r_ts (x :: l))).
  { destruct (exists_last (l := map r_ts (x :: l))) as [l' [a Ha]]; [discriminate|].
    rewrite Ha, last_last. apply in_or_app. right. left. reflexivity. }
  apply in_map_iff in Hin. destruct Hin as [r [Hr Hin]]. rewrite <- Hr. apply H. exact Hin.
Qed.

(* S = P ++ A, every record of A newer than everything the backup holds, and the backup
   agrees with P on every key that A does not touch: one incremental copy converges *)
Lemma incremental_converges : forall S B P A c,
  recs S = P ++ A ->
  (forall r, In r A -> c < r_ts r) ->
  (forall r, In r (recs B) -> r_ts r <= c) ->
  (forall k, latest A k = None -> live_lookup (recs B) k = live_lookup P k) ->
  forall k, live_lookup (recs (incremental_backup S B)) k = live_lookup (recs S) k.
Proof.
  intros S B P A c HS HA HB Hll. unfold incremental_backup.
  pose proof (last_map_bound _ _ HB) as Hsince.
  pose proof (search_not_late (recs S) (find_last_append_ns (recs B)) (length P)) as Hs.
  rewrite HS in Hs. rewrite app_length in Hs. specialize (Hs ltac:(lia)).
  rewrite skipn_app, skipn_all, Nat.sub_diag in Hs. cbn [skipn app] in Hs.
  specialize (Hs (fun r Hr => N.le_lt_trans _ _ _ Hsince (HA r Hr))).
  rewrite <- HS in Hs.
  destruct (binary_search_by_append_ns (recs S) (find_last_append_ns (recs B))) as [p|].
  - destruct Hs as [Hp _]. cbn [recs].
    intros k. rewrite HS, skipn_app. replace (p - length P)%nat with 0%nat by lia. cbn [skipn].
    rewrite app_assoc, (live_lookup_app (recs B ++ skipn p P) A), (live_lookup_app P A).
    destruct (latest A k) eqn:EA; [reflexivity|].
    apply replay_suffix_pointwise. apply Hll. exact EA.
  - assert (HA0 : A = []) by (destruct A; [reflexivity | cbn [length] in Hs; lia]).
    subst A. rewrite app_nil_r in HS. intros k. rewrite HS. apply Hll. reflexivity.
Qed.

Lemma incremental_subset : forall S B r,
  In r (recs (incremental_backup S B)) -> In r (recs B) \/ In r (recs S).
Proof.
  intros S B r. unfold incremental_backup.
  destruct (binary_search_by_append_ns (recs S) (find_last_append_ns (recs B))) as [p|]; [|auto].
  cbn [recs]. intros Hr. apply in_app_or in Hr. destruct Hr as [Hr|Hr]; [left; exact Hr|].
  right. rewrite <- (firstn_skipn p (recs S)). apply in_or_app. right. exact Hr.
Qed.

(* runBackup's local compaction adds no record and changes no lookup *)
Lemma compacted_bk : forall S B,
  let bk1 := if rev B <? rev S then {| recs := compact (recs B); rev := rev S |} else B in
  (forall r, In r (recs bk1) -> In r (recs B)) /\ (forall k, live_lookup (recs bk1) k = live_lookup (recs B) k).
Proof.
  intros S B. cbv zeta. destruct (rev B <? rev S); cbn [recs]; [|auto].
  split; [intros r Hr; apply compact_in in Hr; tauto | apply live_lookup_compact].
Qed.

Theorem backup_run_subset : forall S B r,
  In r (recs (backup_run S B)) -> In r (recs B) \/ In r (recs S).
Proof.
  intros S B r. unfold backup_run. destruct (compacted_bk S B) as [H1 _].
  destruct (dat_size S <? dat_size _); intros Hr; apply incremental_subset in Hr.
  - destruct Hr as [[]|Hr]. right. exact Hr.
  - destruct Hr as [Hr|Hr]; [left; apply H1; exact Hr | right; exact Hr].
Qed.

Lemma backup_run_converges : forall S B P A c,
  recs S = P ++ A ->
  (forall r, In r (recs S) -> 0 < r_ts r) ->
  (forall r, In r A -> c < r_ts r) ->
  (forall r, In r (recs B) -> r_ts r <= c) ->
  (forall k, latest A k = None -> live_lookup (recs B) k = live_lookup P k) ->
  forall k, live_lookup (recs (backup_run S B)) k = live_lookup (recs S) k.
Proof.
  intros S B P A c HS Hpos HA HB Hll. unfold backup_run. destruct (compacted_bk S B) as [H1a H1b].
  destruct (dat_size S <? dat_size _).
  - (* destroyed and recreated: a full copy *)
    apply (incremental_converges S empty_vol [] (recs S) 0 eq_refl Hpos).
    + intros r [].
    + intros k Hk. cbn [empty_vol recs]. unfold live_lookup. cbn [latest]. reflexivity.
  - apply (incremental_converges S _ P A c HS HA (fun r Hr => HB r (H1a r Hr))).
    intros k Hk. rewrite H1b. apply Hll. exact Hk.
Qed.

(* the source is P ++ A: every record of A is newer than everything the backup holds,
   the backup serves every key A does not touch as P does *)
Definition backup_inv (st : state) : Prop :=
  exists P A,
    recs (src st) = P ++ A /\
    (forall r, In r (recs (src st)) -> 0 < r_ts r) /\
    (forall r, In r A -> maxts (recs (bk st)) < r_ts r) /\
    (forall k, latest A k = None -> live_lookup (recs (bk st)) k = live_lookup P k).

(* A is empty: nothing is left to copy *)
Definition Synced (st : state) : Prop :=
  (forall r, In r (recs (src st)) -> 0 < r_ts r) /\
  forall k, live_lookup (recs (bk st)) k = live_lookup (recs (src st)) k.

Lemma synced_init : Synced init.
Proof. split; [intros r [] | reflexivity]. Qed.

Lemma synced_inv : forall st, Synced st -> backup_inv st.
Proof.
  intros st [Hpos H]. exists (recs (src st)), []. rewrite app_nil_r. repeat split; auto. intros r [].
Qed.

Definition snoc (st : state) (r : rec) : state :=
  {| src := {| recs := recs (src st) ++ [r]; rev := rev (src st) |}; bk := bk st |}.

(* a write or a delete leaves the source as it is or appends one record with the clock reading *)
Lemma step_put : forall st o ts,
  match o with Write _ _ _ _ t | Delete _ t => t = ts | _ => False end ->
  step st o = st \/ exists r, r_ts r = ts /\ step st o = snoc st r.
Proof.
  intros [s b] o ts H. destruct o as [k val len meta t | k t | | ]; try contradiction; subst t; cbn [step src bk].
  - unfold src_write. destruct (match live_lookup (recs s) k with Some r => _ | None => false end); [left; reflexivity|].
    right. eexists. split; [|reflexivity]. reflexivity.
  - unfold src_delete. destruct (live_lookup (recs s) k); [|left; reflexivity].
    right. eexists. split; [|reflexivity]. reflexivity.
Qed.

Lemma inv_append : forall st r,
  backup_inv st -> maxts (recs (bk st)) < r_ts r -> backup_inv (snoc st r).
Proof.
  intros st r [P [A [HS [Hpos [HA Hll]]]]] Hr.
  exists P, (A ++ [r]). cbn [snoc src recs bk].
  split; [rewrite HS, app_assoc; reflexivity|].
  split. { intros x Hx. apply in_app_or in Hx. destruct Hx as [Hx|[Hx|[]]]; [apply Hpos; exact Hx | subst x; lia]. }
  split. { intros x Hx. apply in_app_or in Hx. destruct Hx as [Hx|[Hx|[]]]; [apply HA; exact Hx | subst x; exact Hr]. }
  intros k Hk. apply Hll. rewrite latest_app in Hk. destruct (latest [r] k); [discriminate | exact Hk].
Qed.

Lemma inv_of_reflects : forall st,
  reflects st = true -> (forall r, In r (recs (src st)) -> 0 < r_ts r) -> backup_inv st.
Proof.
  intros st H Hpos. destruct (reflects_sound st H) as [P [A [HS [HA Hll]]]].
  exists P, A. auto.
Qed.

Lemma inv_backup : forall st, backup_inv st -> Synced (step st Backup).
Proof.
  intros st [P [A [HS [Hpos [HA Hll]]]]]. split; [exact Hpos|]. cbn [step src bk].
  exact (backup_run_converges (src st) (bk st) P A (maxts (recs (bk st))) HS Hpos HA (fun r Hr => in_maxts _ _ Hr) Hll).
Qed.

Lemma synced_compact : forall st, Synced st -> Synced (step st Compact).
Proof.
  intros st [Hpos H]. unfold Synced. cbn [step src bk compact_vol recs]. split.
  - intros r Hr. apply compact_in in Hr. apply Hpos. tauto.
  - intros k. rewrite live_lookup_compact. apply H.
Qed.

Lemma appended_snoc : forall st r, appended st (snoc st r) = true.
Proof.
  intros st r. unfold appended. cbn [snoc src recs]. rewrite app_length. cbn [length].
  apply negb_true_iff. apply Nat.eqb_neq. lia.
Qed.

Lemma inv_append_or : forall st r,
  backup_inv st -> 0 < r_ts r ->
  (r_ts r <=? maxts (recs (bk st))) && negb (reflects (snoc st r)) = false ->
  backup_inv (snoc st r).
Proof.
  intros st r HI Hpos Hc. apply andb_false_iff in Hc. destruct Hc as [Hc|Hc].
  - apply N.leb_gt in Hc. exact (inv_append st r HI Hc).
  - apply negb_false_iff in Hc. apply inv_of_reflects; [exact Hc|].
    destruct HI as [P [A [_ [Hp _]]]]. cbn [snoc src recs].
    intros x Hx. apply in_app_or in Hx. destruct Hx as [Hx|[Hx|[]]]; [apply Hp; exact Hx | subst x; exact Hpos].
Qed.

Lemma inv_put : forall st o ts,
  match o with Write _ _ _ _ t | Delete _ t => t = ts | _ => False end ->
  backup_inv st -> (0 <? ts) = true ->
  (if appended st (step st o) && (ts <=? maxts (recs (bk st))) && negb (reflects (step st o)) then Some 1 else None) = None ->
  backup_inv (step st o).
Proof.
  intros st o ts Ho HI Hpos Ht. destruct (step_put st o ts Ho) as [E|(r & Er & E)]; rewrite E in *; [exact HI|].
  rewrite appended_snoc, <- Er in Ht. apply inv_append_or; [exact HI | rewrite Er; apply N.ltb_lt; exact Hpos |].
  destruct (_ && _); [discriminate | reflexivity].
Qed.

(* a step that is not an instance of a finding keeps the invariant *)
Lemma inv_step_trigger : forall st o,
  backup_inv st -> op_ts_pos o = true -> step_trigger st o = None -> backup_inv (step st o).
Proof.
  intros st o HI Hpos Ht. unfold step_trigger in Ht. destruct o as [k val len meta ts | k ts | | ].
  - exact (inv_put st (Write k val len meta ts) ts eq_refl HI Hpos Ht).
  - exact (inv_put st (Delete k ts) ts eq_refl HI Hpos Ht).
  - cbn [step] in *. destruct (reflects {| src := compact_vol (src st); bk := bk st |}) eqn:E; [|discriminate].
    apply inv_of_reflects; [exact E|]. cbn [src compact_vol recs].
    destruct HI as [P [A [_ [Hp _]]]]. intros r Hr. apply compact_in in Hr. apply Hp. tauto.
  - exact (synced_inv _ (inv_backup st HI)).
Qed.

Lemma inv_exec_trigger : forall h st,
  backup_inv st -> ts_positive h = true -> trigger_from st h = None -> backup_inv (exec st h).
Proof.
  induction h as [|o h IH]; intros st HI Hp Ht; [exact HI|].
  unfold exec. cbn [fold_left]. fold (exec (step st o) h).
  cbn [ts_positive forallb] in Hp. apply andb_true_iff in Hp. destruct Hp as [Hp1 Hp2].
  cbn [trigger_from] in Ht. destruct (step_trigger st o) eqn:E; [discriminate|].
  apply IH; [exact (inv_step_trigger st o HI Hp1 E) | exact Hp2 | exact Ht].
Qed.

Lemma exec_app : forall st h1 h2, exec st (h1 ++ h2) = exec (exec st h1) h2.
Proof. intros. unfold exec. apply fold_left_app. Qed.

Lemma converges_of_inv : forall st,
  backup_inv st -> forall k, read (bk (step st Backup)) k = read (src (step st Backup)) k.
Proof. intros st HI. apply read_of_lookup. exact (proj2 (inv_backup st HI)). Qed.

(* convergence for every history none of whose steps is an instance of finding 0 or 1 *)
Theorem converges_if_no_trigger : forall h,
  ts_positive h = true -> trigger h = None ->
  forall k, read (bk (exec init (h ++ [Backup]))) k = read (src (exec init (h ++ [Backup]))) k.
Proof.
  intros h Hp Ht. rewrite exec_app. change (exec (exec init h) [Backup]) with (step (exec init h) Backup).
  apply converges_of_inv. apply inv_exec_trigger; [exact (synced_inv _ synced_init) | exact Hp | exact Ht].
Qed.

(* the same at every backup run inside such a history, not only the last *)
Theorem converges_at_every_run : forall h1 h2,
  ts_positive (h1 ++ Backup :: h2) = true -> trigger (h1 ++ Backup :: h2) = None ->
  forall k, read (bk (exec init (h1 ++ [Backup]))) k = read (src (exec init (h1 ++ [Backup]))) k.
Proof.
  intros h1 h2 Hp Ht. apply converges_if_no_trigger.
  - unfold ts_positive in *. rewrite forallb_app in Hp. apply andb_true_iff in Hp. tauto.
  - clear Hp. unfold trigger in *. revert Ht. generalize init. induction h1 as [|o h1 IH]; intros st Ht; [reflexivity|].
    cbn [app trigger_from] in *. destruct (step_trigger st o); [discriminate | apply IH; exact Ht].
Qed.

(* the coarser history-level condition: strictly increasing clock readings and a
   backup run before every source compaction.  [d = false]: nothing was written since the last run;
   [c]: no record is newer *)
Definition pulled_inv (st : state) (d : bool) (c : N) : Prop :=
  (if d then backup_inv st else Synced st) /\
  (forall r, In r (recs (src st)) -> r_ts r <= c) /\ (forall r, In r (recs (bk st)) -> r_ts r <= c).

Lemma inv2_inv : forall st d c, pulled_inv st d c -> backup_inv st.
Proof. intros st d c [HI _]. destruct d; [exact HI | exact (synced_inv _ HI)]. Qed.

Lemma inv2_mono : forall st d c c', pulled_inv st d c -> c <= c' -> pulled_inv st true c'.
Proof.
  intros st d c c' HI Hc. split; [exact (inv2_inv _ _ _ HI)|]. destruct HI as [_ [H1 H2]].
  split; intros r Hr; [specialize (H1 r Hr) | specialize (H2 r Hr)]; lia.
Qed.

Lemma inv2_append : forall st d c r,
  pulled_inv st d c -> c < r_ts r -> pulled_inv (snoc st r) true (r_ts r).
Proof.
  intros st d c r HI Hc. pose proof (inv2_inv _ _ _ HI) as HI'. destruct HI as [_ [H1 H2]]. split.
  - apply (inv_append st r HI'). pose proof (maxts_le _ _ H2). lia.
  - cbn [snoc src recs bk]. split.
    + intros x Hx. apply in_app_or in Hx. destruct Hx as [Hx|[Hx|[]]]; [specialize (H1 x Hx); lia | subst x; lia].
    + intros x Hx. specialize (H2 x Hx). lia.
Qed.

Lemma inv2_put : forall st o ts d c,
  match o with Write _ _ _ _ t | Delete _ t => t = ts | _ => False end ->
  pulled_inv st d c -> c < ts -> pulled_inv (step st o) true ts.
Proof.
  intros st o ts d c Ho HI Hc. destruct (step_put st o ts Ho) as [E|(r & Er & E)]; rewrite E.
  - apply (inv2_mono st d c ts HI). lia.
  - rewrite <- Er. apply (inv2_append st d c r HI). rewrite Er. exact Hc.
Qed.

Lemma inv2_exec : forall h st d c,
  pulled_inv st d c -> ts_increasing_from c h = true -> pulled_from d h = true ->
  exists d' c', pulled_inv (exec st h) d' c'.
Proof.
  induction h as [|o h IH]; intros st d c HI Hts Hp; [exists d, c; exact HI|].
  unfold exec. cbn [fold_left]. fold (exec (step st o) h).
  destruct o as [k val len meta ts | k ts | | ]; cbn [pulled_from ts_increasing_from] in Hp, Hts.
  1,2: apply andb_true_iff in Hts; destruct Hts as [Hc Hts]; apply N.ltb_lt in Hc.
  1,2: apply (IH _ true ts); [|exact Hts|exact Hp].
  - exact (inv2_put st (Write k val len meta ts) ts d c eq_refl HI Hc).
  - exact (inv2_put st (Delete k ts) ts d c eq_refl HI Hc).
  - apply andb_true_iff in Hp. destruct Hp as [Hd Hp]. apply negb_true_iff in Hd. subst d.
    apply (IH _ false c); [|exact Hts|exact Hp]. destruct HI as [HI [H1 H2]].
    split; [exact (synced_compact st HI)|]. cbn [step src bk compact_vol recs].
    split; [|exact H2]. intros r Hr. apply compact_in in Hr. apply H1. tauto.
  - apply (IH _ false c); [|exact Hts|exact Hp].
    split; [exact (inv_backup st (inv2_inv _ _ _ HI))|]. destruct HI as [_ [H1 H2]]. cbn [step src bk]. split; [exact H1|].
    intros r Hr. apply backup_run_subset in Hr. destruct Hr as [Hr|Hr]; [apply H2 | apply H1]; exact Hr.
Qed.

Theorem converges_if_pulled : forall h,
  ts_increasing h = true -> pulled_before_each_compaction h = true ->
  forall k, read (bk (exec init (h ++ [Backup]))) k = read (src (exec init (h ++ [Backup]))) k.
Proof.
  intros h Hts Hp. rewrite exec_app. change (exec (exec init h) [Backup]) with (step (exec init h) Backup).
  assert (H0 : pulled_inv init false 0) by (split; [exact synced_init | split; intros r []]).
  destruct (inv2_exec h init false 0 H0 Hts Hp) as [d [c HI]].
  exact (converges_of_inv _ (inv2_inv _ _ _ HI)).
Qed.

(* finding 0: a write that reaches the source between the last pull and a source
   compaction is moved into the key-ordered region and never copied *)
Definition witness_history : list op := [Write 3 1 8 0 10; Backup; Write 1 2 8 19 20; Compact].

Theorem converges_refuted : exists h k,
  hist_ok h = true /\ ts_increasing h = true /\ trigger h = Some 0 /\
  read (bk (exec init (h ++ [Backup]))) k <> read (src (exec init (h ++ [Backup]))) k.
Proof. exists witness_history, 1. repeat split; try reflexivity. vm_compute; discriminate. Qed.

(* finding 0, second form: an unpulled delete whose tombstone the compaction drops keeps
   being served by the backup (same .dat sizes: no destroy-and-full-copy) *)
Definition witness_delete : list op :=
  [Write 1 1 8 0 10; Write 2 1 8 0 20; Backup; Delete 1 30; Write 3 2 8 19 40; Compact].

Theorem delete_resurrected : 
  hist_ok witness_delete = true /\ ts_increasing witness_delete = true /\ trigger witness_delete = Some 0 /\
  read (bk (exec init (witness_delete ++ [Backup]))) 1 = Some (1, 8) /\
  read (src (exec init (witness_delete ++ [Backup]))) 1 = None.
Proof. repeat split; vm_compute; reflexivity. Qed.

(* finding 1: no compaction at all; the clock reads the same nanosecond twice, or steps back *)
Definition witness_equal_ts : list op := [Write 1 1 8 0 10; Backup; Write 2 2 8 19 10].
Definition witness_clock_step : list op := [Write 1 1 8 0 20; Backup; Write 2 2 8 19 15].

Theorem equal_ts_refuted :
  hist_ok witness_equal_ts = true /\ pulled_before_each_compaction witness_equal_ts = true /\
  trigger witness_equal_ts = Some 1 /\
  read (bk (exec init (witness_equal_ts ++ [Backup]))) 2 = None /\
  read (src (exec init (witness_equal_ts ++ [Backup]))) 2 = Some (2, 8).
Proof. repeat split; vm_compute; reflexivity. Qed.

Theorem clock_step_refuted :
  hist_ok witness_clock_step = true /\ pulled_before_each_compaction witness_clock_step = true /\
  trigger witness_clock_step = Some 1 /\
  read (bk (exec init (witness_clock_step ++ [Backup]))) 2 = None /\
  read (src (exec init (witness_clock_step ++ [Backup]))) 2 = Some (2, 8).
Proof. repeat split; vm_compute; reflexivity. Qed.

Lemma exec_repeat_backup_fix : forall st n,
  backup_run (src st) (bk st) = bk st -> exec st (repeat Backup n) = st.
Proof.
  intros st n H. induction n as [|n IH]; [reflexivity|].
  cbn [repeat]. unfold exec. cbn [fold_left]. fold (exec (step st Backup) (repeat Backup n)).
  assert (Hs : step st Backup = st) by (destruct st as [s0 b0]; cbn [step src bk] in *; rewrite H; reflexivity).
  rewrite Hs. exact IH.
Qed.

(* once a run leaves the backup as it is, so does every further one *)
Lemma backup_fixpoint : forall h n,
  (let st := exec init (h ++ [Backup]) in backup_run (src st) (bk st) = bk st) ->
  exec init (h ++ Backup :: repeat Backup n) = exec init (h ++ [Backup]).
Proof.
  intros h n H. change (Backup :: repeat Backup n) with ([Backup] ++ repeat Backup n).
  rewrite app_assoc, exec_app. apply exec_repeat_backup_fix. exact H.
Qed.

(* no number of further backup runs recovers key 1 after witness_history *)
Theorem never_recovers : forall n,
  read (bk (exec init (witness_history ++ Backup :: repeat Backup n))) 1 = None /\
  read (src (exec init (witness_history ++ Backup :: repeat Backup n))) 1 = Some (2, 8).
Proof.
  intros n. rewrite backup_fixpoint by (vm_compute; reflexivity). split; vm_compute; reflexivity.
Qed.

Theorem never_recovers_equal_ts : forall n,
  read (bk (exec init (witness_equal_ts ++ Backup :: repeat Backup n))) 2 = None /\
  read (src (exec init (witness_equal_ts ++ Backup :: repeat Backup n))) 2 = Some (2, 8).
Proof.
  intros n. rewrite backup_fixpoint by (vm_compute; reflexivity). split; vm_compute; reflexivity.
Qed.

Definition example_history : list op :=
  [Write 2 1 8 0 1; Write 1 1 300 0 2; Backup; Write 1 2 17 19 3; Delete 2 4; Write 3 0 3 0 5; Backup; Compact;
   Write 2 3 40 23 6; Backup; Backup; Compact; Compact; Write 1 0 1 0 7].

Lemma example_ok :
  trigger example_history = None /\ hist_ok example_history = true /\
  ts_increasing example_history = true /\ pulled_before_each_compaction example_history = true /\
  map (read (bk (exec init (example_history ++ [Backup])))) [1; 2; 3; 4] = [Some (0, 1); Some (3, 40); Some (0, 3); None] /\
  map (read (src (exec init (example_history ++ [Backup])))) [1; 2; 3; 4] = [Some (0, 1); Some (3, 40); Some (0, 3); None].
Proof. vm_compute. repeat split. Qed.

Definition example_harmless : list op :=
  [Write 5 1 8 0 15; Write 3 1 8 0 18; Write 2 1 8 0 20; Backup; Write 1 1 8 0 60; Backup;
   Write 7 1 8 0 70; Write 7 2 8 19 65; Compact].

Lemma example_harmless_ok :
  trigger example_harmless = None /\ hist_ok example_harmless = true /\
  pulled_before_each_compaction example_harmless = false /\ ts_increasing example_harmless = false /\
  (length (recs (bk (exec init (example_harmless ++ [Backup])))) > length (recs (src (exec init (example_harmless ++ [Backup])))))%nat /\
  map (read (bk (exec init (example_harmless ++ [Backup])))) [1; 2; 3; 5; 7] =
  map (read (src (exec init (example_harmless ++ [Backup])))) [1; 2; 3; 5; 7] /\
  map (read (src (exec init (example_harmless ++ [Backup])))) [1; 2; 3; 5; 7] =
  [Some (1, 8); Some (1, 8); Some (1, 8); Some (1, 8); Some (2, 8)].
Proof. vm_compute. repeat split; lia. Qed.

Definition example_destroy : list op := example_harmless ++ [Backup].

Lemma example_destroy_ok :
  trigger example_destroy = None /\ hist_ok example_destroy = true /\
  (let st := exec init example_destroy in
   rev (bk st) <? rev (src st) = false /\ dat_size (src st) <? dat_size (bk st) = true /\
   length (recs (bk st)) = 9%nat /\ length (recs (bk (step st Backup))) = 5%nat) /\
  map (read (bk (exec init (example_destroy ++ [Backup])))) [1; 2; 3; 5; 7] =
  [Some (1, 8); Some (1, 8); Some (1, 8); Some (1, 8); Some (2, 8)] /\
  map (read (src (exec init (example_destroy ++ [Backup])))) [1; 2; 3; 5; 7] =
  [Some (1, 8); Some (1, 8); Some (1, 8); Some (1, 8); Some (2, 8)].
Proof. vm_compute. repeat split. Qed.

Lemma disk_size_pos : forall r, 0 < disk_size r.
Proof.
  intro r. unfold disk_size.
  set (raw := 16 + (if r_live r then r_len r + 5 + r_meta r else 0) + 4 + 8).
  assert (H : raw mod 8 < 8) by (apply N.mod_lt; discriminate). lia.
Qed.

Lemma idx_from_length : forall l b, length (idx_from b l) = length l.
Proof. induction l as [|r l IH]; intro b; cbn [idx_from length]; [reflexivity | rewrite IH; reflexivity]. Qed.

Lemma rec_at_from_ge : forall l cur off r, rec_at_from cur l off = Some r -> cur <= off.
Proof.
  induction l as [|x l IH]; intros cur off r H; cbn [rec_at_from] in H; [discriminate|].
  destruct (off =? cur) eqn:E.
  - apply N.eqb_eq in E. lia.
  - apply IH in H. pose proof (disk_size_pos x). lia.
Qed.

(* idx entry i of [idx_from b l] carries the key and Size of record i, and following its
   offset into the .dat (readAppendAtNs, ReadData) yields record i itself *)
Lemma idx_entry_points_at_record : forall l b i r,
  nth_error l i = Some r ->
  exists off, nth_error (idx_from b l) i = Some (r_key r, off, idx_size r) /\ rec_at_from b l off = Some r.
Proof.
  induction l as [|x l IH]; intros b i r H; [destruct i; discriminate|].
  destruct i as [|i]; cbn [nth_error] in H.
  - inversion H; subst x. exists b. cbn [idx_from nth_error rec_at_from]. rewrite N.eqb_refl. split; reflexivity.
  - destruct (IH (b + disk_size x) i r H) as [off [H1 H2]]. exists off.
    cbn [idx_from nth_error rec_at_from]. split; [exact H1|].
    destruct (off =? b) eqn:E; [|exact H2].
    apply N.eqb_eq in E. apply rec_at_from_ge in H2. pose proof (disk_size_pos x). lia.
Qed.

(* so the timestamp the code reads through idx entry m (readOffsetFromIndex m, then
   readAppendAtNs) is the timestamp of record m: what find_last_append_ns and
   bsearch_loop use *)
Lemma idx_entry_ts : forall v m r,
  nth_error (recs v) m = Some r ->
  exists k off sz, nth_error (idx_of v) m = Some (k, off, sz) /\
                   option_map r_ts (rec_at v off) = Some (nth m (map r_ts (recs v)) 0).
Proof.
  intros v m r H. destruct (idx_entry_points_at_record (recs v) 8 m r H) as [off [H1 H2]].
  exists (r_key r), off, (idx_size r). split; [exact H1|].
  unfold rec_at. rewrite H2. cbn [option_map]. f_equal.
  symmetry. apply nth_error_nth, map_nth_error, H.
Qed.

Lemma idx_of_length : forall v, length (idx_of v) = length (recs v).
Proof. intro v. apply idx_from_length. Qed.
