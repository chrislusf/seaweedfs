(* Proofs about model/NeedleCrc.v: the CRC register is GF(2)-linear and is the byte string, as
   one number, pushed through the shifts; a register step never maps a non-zero 32-bit value
   to zero (the polynomial has its top bit set).  Hence any change confined to 4 consecutive
   bytes - to one byte in particular - changes crc32c, whatever the other bytes are and
   however long the string is. *)
From Coq Require Import List NArith Bool Lia.
From SW Require Import model.Needle model.NeedleCrc proof.NeedleProofs.
Import ListNotations.
Local Open Scope N_scope.

Arguments N.lxor : simpl never.
Arguments N.div2 : simpl never.
Arguments N.odd : simpl never.

Lemma lxor_cancel_r : forall x y p, N.lxor (N.lxor x p) (N.lxor y p) = N.lxor x y.
Proof.
  intros. rewrite N.lxor_assoc, (N.lxor_comm p (N.lxor y p)), N.lxor_assoc, N.lxor_nilpotent, N.lxor_0_r.
  reflexivity.
Qed.

Lemma lxor_swap : forall a b c d, N.lxor (N.lxor a b) (N.lxor c d) = N.lxor (N.lxor a c) (N.lxor b d).
Proof.
  intros. rewrite !N.lxor_assoc. f_equal. rewrite <- !N.lxor_assoc. f_equal. apply N.lxor_comm.
Qed.

Lemma lxor_self_l : forall a e, N.lxor a e = a -> e = 0.
Proof.
  intros a e H. apply (f_equal (N.lxor a)) in H.
  rewrite <- N.lxor_assoc, N.lxor_nilpotent, N.lxor_0_l in H. exact H.
Qed.

(* below 2^k means no bit from k on, and xor works bit by bit *)
Lemma lxor_lt_pow2 : forall k a b, a < 2 ^ k -> b < 2 ^ k -> N.lxor a b < 2 ^ k.
Proof.
  intros k a b Ha Hb. apply N.div_small_iff; [apply N.pow_nonzero; lia|].
  rewrite <- N.shiftr_div_pow2, N.shiftr_lxor, !N.shiftr_div_pow2, !N.div_small by assumption. reflexivity.
Qed.

Lemma odd_lxor : forall a b, N.odd (N.lxor a b) = xorb (N.odd a) (N.odd b).
Proof. intros. rewrite <- !N.bit0_odd. apply N.lxor_spec. Qed.

Lemma div2_lxor : forall a b, N.div2 (N.lxor a b) = N.lxor (N.div2 a) (N.div2 b).
Proof. intros. rewrite !N.div2_spec. apply N.shiftr_lxor. Qed.

Lemma shift1_lxor : forall a b, crc_shift1 (N.lxor a b) = N.lxor (crc_shift1 a) (crc_shift1 b).
Proof.
  intros. unfold crc_shift1. rewrite odd_lxor, div2_lxor.
  destruct (N.odd a), (N.odd b); cbn [xorb].
  - symmetry. apply lxor_cancel_r.
  - rewrite !N.lxor_assoc. f_equal. apply N.lxor_comm.
  - rewrite N.lxor_assoc. reflexivity.
  - reflexivity.
Qed.

Lemma shift1_0 : crc_shift1 0 = 0.
Proof. reflexivity. Qed.

Lemma div2_lt : forall r, r < 2 ^ 32 -> N.div2 r < 2 ^ 31.
Proof.
  intros r H. rewrite N.div2_div. change (2 ^ 32) with (2 * 2 ^ 31) in H.
  apply N.div_lt_upper_bound; lia.
Qed.

Lemma shift1_lt : forall r, r < 2 ^ 32 -> crc_shift1 r < 2 ^ 32.
Proof.
  intros r H. pose proof (div2_lt r H) as Hd. unfold crc_shift1.
  assert (Hd' : N.div2 r < 2 ^ 32) by (change (2 ^ 32) with 4294967296; change (2 ^ 31) with 2147483648 in Hd; lia).
  destruct (N.odd r); [|assumption].
  apply (lxor_lt_pow2 32); [assumption|reflexivity].
Qed.

(* the top bit of the (reflected) polynomial is set: a shifted-out 1 always leaves a trace *)
Lemma shift1_nonzero : forall r, r < 2 ^ 32 -> r <> 0 -> crc_shift1 r <> 0.
Proof.
  intros r H Hnz E. unfold crc_shift1 in E. destruct (N.odd r) eqn:Eo.
  - apply N.lxor_eq in E. pose proof (div2_lt r H) as Hd. rewrite E in Hd.
    unfold crc_poly in Hd. change (2 ^ 31) with 2147483648 in Hd. lia.
  - destruct r as [|[p|p|]]; try discriminate; congruence.
Qed.

Lemma shift8_lxor : forall a b, crc_shift8 (N.lxor a b) = N.lxor (crc_shift8 a) (crc_shift8 b).
Proof. intros. unfold crc_shift8. rewrite !shift1_lxor. reflexivity. Qed.

Lemma shift8_lt : forall r, r < 2 ^ 32 -> crc_shift8 r < 2 ^ 32.
Proof. intros r H. unfold crc_shift8. repeat apply shift1_lt. assumption. Qed.

Lemma shift8_nonzero : forall r, r < 2 ^ 32 -> r <> 0 -> crc_shift8 r <> 0.
Proof.
  intros r H Hnz. unfold crc_shift8.
  repeat (apply shift1_nonzero; [repeat apply shift1_lt; assumption|]). assumption.
Qed.

(* an error [e] in the register travels through the rest of the string on its own *)
Fixpoint shift8_iter (k : nat) (e : N) : N :=
  match k with O => e | S k' => shift8_iter k' (crc_shift8 e) end.

Lemma shift8_iter_lt : forall k e, e < 2 ^ 32 -> shift8_iter k e < 2 ^ 32.
Proof. induction k as [|k IH]; intros e H; [assumption|]. cbn [shift8_iter]. apply IH, shift8_lt, H. Qed.

Lemma shift8_iter_nonzero : forall k e, e < 2 ^ 32 -> e <> 0 -> shift8_iter k e <> 0.
Proof.
  induction k as [|k IH]; intros e H Hnz; [assumption|].
  cbn [shift8_iter]. apply IH; [apply shift8_lt|apply shift8_nonzero]; assumption.
Qed.

Lemma upd_lxor_reg : forall r e x, crc_upd (N.lxor r e) x = N.lxor (crc_upd r x) (crc_shift8 e).
Proof.
  intros. unfold crc_upd. rewrite <- shift8_lxor. f_equal.
  rewrite !N.lxor_assoc. f_equal. apply N.lxor_comm.
Qed.

Lemma reg_lxor : forall l r e, crc_reg (N.lxor r e) l = N.lxor (crc_reg r l) (shift8_iter (length l) e).
Proof.
  induction l as [|x l IH]; intros r e; [reflexivity|].
  cbn [crc_reg fold_left length shift8_iter]. fold (crc_reg (crc_upd (N.lxor r e) x) l).
  rewrite upd_lxor_reg. fold (crc_reg (crc_upd r x) l). apply IH.
Qed.

Lemma reg_cons : forall r x l, crc_reg r (x :: l) = crc_reg (crc_upd r x) l.
Proof. reflexivity. Qed.

Lemma len_flip_byte : forall l pos mask, len (flip_byte l pos mask) = len l.
Proof.
  induction l as [|x l IH]; intros pos mask; [reflexivity|].
  cbn [flip_byte]. destruct (pos =? 0); rewrite !len_cons; [reflexivity|]. rewrite IH. reflexivity.
Qed.

Lemma upd_lt : forall r x, r < 2 ^ 32 -> x < 256 -> crc_upd r x < 2 ^ 32.
Proof.
  intros r x Hr Hx. unfold crc_upd. apply shift8_lt. apply (lxor_lt_pow2 32); [assumption|].
  change (2 ^ 32) with 4294967296. lia.
Qed.

Lemma reg_lt : forall l r, r < 2 ^ 32 -> bytes_ok l -> crc_reg r l < 2 ^ 32.
Proof.
  induction l as [|x l IH]; intros r Hr Hl; [assumption|].
  inversion Hl as [|? ? Hx Hl']; subst. rewrite reg_cons. apply IH; [apply upd_lt|]; assumption.
Qed.

Lemma crc32c_lt : forall l, bytes_ok l -> crc32c l < 2 ^ 32.
Proof.
  intros l H. unfold crc32c. apply (lxor_lt_pow2 32); [apply reg_lt; [reflexivity|assumption]|reflexivity].
Qed.

Fixpoint xor_list (l w : list N) : list N :=
  match l, w with
  | x :: l', m :: w' => N.lxor x m :: xor_list l' w'
  | _, _ => l
  end.

(* first byte lowest *)
Fixpoint le_word (w : list N) : N :=
  match w with
  | [] => 0
  | m :: w' => N.lxor m (le_word w' * 256)
  end.

Lemma shift1_double : forall y, crc_shift1 (2 * y) = y.
Proof.
  intros y. unfold crc_shift1. rewrite N.odd_mul, N.odd_2. cbn [andb]. apply N.div2_double.
Qed.

Lemma shift8_mul256 : forall y, crc_shift8 (y * 256) = y.
Proof.
  intros y. replace (y * 256) with (2 * (2 * (2 * (2 * (2 * (2 * (2 * (2 * y)))))))) by lia.
  unfold crc_shift8. rewrite !shift1_double. reflexivity.
Qed.

(* the register after a string = the string, as one number, pushed through the shifts: the
   CRC is a polynomial remainder *)
Lemma reg_le_word : forall w r, crc_reg r w = shift8_iter (length w) (N.lxor r (le_word w)).
Proof.
  induction w as [|m w IH]; intros r.
  - cbn [crc_reg fold_left length shift8_iter le_word]. rewrite N.lxor_0_r. reflexivity.
  - rewrite reg_cons, IH. cbn [length shift8_iter le_word]. f_equal.
    unfold crc_upd. rewrite <- (N.lxor_assoc r m), (shift8_lxor (N.lxor r m)), shift8_mul256. reflexivity.
Qed.

Lemma reg_xor_list : forall x w r e, length x = length w ->
  crc_reg (N.lxor r e) (xor_list x w) = N.lxor (crc_reg r x) (crc_reg e w).
Proof.
  induction x as [|a x IH]; intros w r e H; destruct w as [|m w]; try discriminate; [reflexivity|].
  cbn [xor_list]. rewrite !reg_cons.
  assert (Hu : crc_upd (N.lxor r e) (N.lxor a m) = N.lxor (crc_upd r a) (crc_upd e m)).
  { unfold crc_upd. rewrite <- shift8_lxor. f_equal. apply lxor_swap. }
  rewrite Hu. apply IH. simpl in H. lia.
Qed.

Lemma le_word_lt : forall w, bytes_ok w -> le_word w < 2 ^ (8 * N.of_nat (length w)).
Proof.
  induction w as [|m w IH]; intros H; [reflexivity|].
  inversion H as [|? ? Hm Hw]; subst. specialize (IH Hw). cbn [le_word length].
  replace (8 * N.of_nat (S (length w))) with (8 + 8 * N.of_nat (length w)) by lia.
  rewrite N.pow_add_r. change (2 ^ 8) with 256.
  assert (Hp : 0 < 2 ^ (8 * N.of_nat (length w))) by (apply N.neq_0_lt_0, N.pow_nonzero; lia).
  rewrite <- (N.pow_add_r 2 8) by lia. apply lxor_lt_pow2.
  - rewrite N.pow_add_r. change (2 ^ 8) with 256. nia.
  - rewrite N.pow_add_r. change (2 ^ 8) with 256. nia.
Qed.

Lemma le_word_nonzero : forall w, bytes_ok w -> Exists (fun m => m <> 0) w -> le_word w <> 0.
Proof.
  induction w as [|m w IH]; intros H Hex; [inversion Hex|].
  inversion H as [|? ? Hm Hw]; subst. cbn [le_word]. intro E. apply N.lxor_eq in E.
  assert (Hz : le_word w = 0) by lia.
  inversion Hex as [? ? Hnz|? ? Hex']; subst; [lia|]. exact (IH Hw Hex' Hz).
Qed.

(* Any change confined to 4 consecutive bytes (a burst of up to 32 bits in a byte-aligned
   window, anywhere in a string of any length) changes CRC32-C. *)
Theorem crc32c_detects_burst : forall a x b w, length x = length w -> (length w <= 4)%nat ->
  bytes_ok w -> Exists (fun m => m <> 0) w ->
  crc32c (a ++ xor_list x w ++ b) <> crc32c (a ++ x ++ b).
Proof.
  intros a x b w Hl H4 Hw Hex E. unfold crc32c in E.
  apply (f_equal (fun z => N.lxor z 4294967295)) in E.
  rewrite !N.lxor_assoc, !N.lxor_nilpotent, !N.lxor_0_r in E.
  unfold crc_reg in E. rewrite !fold_left_app in E.
  fold (crc_reg 4294967295 a) in E. set (R := crc_reg 4294967295 a) in E.
  fold (crc_reg R (xor_list x w)) in E. fold (crc_reg R x) in E.
  fold (crc_reg (crc_reg R (xor_list x w)) b) in E. fold (crc_reg (crc_reg R x) b) in E.
  rewrite <- (N.lxor_0_r R) in E at 1. rewrite reg_xor_list in E by assumption.
  rewrite reg_lxor in E. apply lxor_self_l in E. revert E.
  rewrite reg_le_word, N.lxor_0_l.
  assert (Hlt : le_word w < 2 ^ 32).
  { eapply N.lt_le_trans; [apply le_word_lt; assumption|]. apply N.pow_le_mono_r; lia. }
  apply shift8_iter_nonzero; [apply shift8_iter_lt; assumption|].
  apply shift8_iter_nonzero; [assumption|apply le_word_nonzero; assumption].
Qed.

(* a flipped byte is a one-byte burst *)
Lemma flip_byte_split : forall l pos mask, pos < len l ->
  exists a x b, l = a ++ [x] ++ b /\ flip_byte l pos mask = a ++ xor_list [x] [mask] ++ b.
Proof.
  induction l as [|y l IH]; intros pos mask Hp; [rewrite len_nil in Hp; lia|].
  cbn [flip_byte]. destruct (pos =? 0) eqn:E.
  - exists [], y, l. split; reflexivity.
  - rewrite len_cons in Hp. destruct (IH (N.pred pos) mask) as [a [x [b [E1 E2]]]]; [lia|].
    exists (y :: a), x, b. rewrite E2. split; [cbn [app]; f_equal; exact E1|reflexivity].
Qed.

(* Any change confined to one byte (all 255 non-zero masks, in particular every single-bit
   flip) at any position of a byte string of any length changes its CRC32-C. *)
Theorem crc32c_detects_byte : forall l pos mask, pos < len l -> 0 < mask < 256 ->
  crc32c (flip_byte l pos mask) <> crc32c l.
Proof.
  intros l pos mask Hp Hm. destruct (flip_byte_split l pos mask Hp) as [a [x [b [E1 E2]]]].
  rewrite E2, E1. apply crc32c_detects_burst; [reflexivity|cbn; lia|repeat constructor; lia|left; lia].
Qed.

Lemma xor_list_bytes_ok : forall x w, bytes_ok x -> bytes_ok w -> bytes_ok (xor_list x w).
Proof.
  induction x as [|a x IH]; intros w Hx Hw; [destruct w; constructor|].
  destruct w as [|m w]; [assumption|].
  inversion Hx as [|? ? Ha Hx']; inversion Hw as [|? ? Hm Hw']; subst. cbn [xor_list].
  constructor; [|apply IH; assumption].
  change 256 with (2 ^ 8). apply lxor_lt_pow2; assumption.
Qed.

Lemma len_xor_list : forall x w, len (xor_list x w) = len x.
Proof.
  induction x as [|a x IH]; intros w; [destruct w; reflexivity|].
  destruct w as [|m w]; [reflexivity|]. cbn [xor_list]. rewrite !len_cons, IH. reflexivity.
Qed.
