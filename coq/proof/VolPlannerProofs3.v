(* Proofs about model/VolPlanner.v (C15): well-formed snapshots ([wf_snap]) and the invariants of
   the cluster ([WInv], [NodesOk]); what one Move that isGoodMove admits does to it ([MoveOk],
   [move_step_safe]); plans as sequences of steps ([Steps]). *)
From Coq Require Import List NArith ZArith Bool Arith Lia Permutation.
From SW Require Import proof.ListFacts model.VolPlanner proof.VolPlannerProofs proof.VolPlannerProofs2.
Import ListNotations.

(* well-formed snapshots: unique server ids, a volume id at most once per server *)
Definition wf_snap (s : snapshot) : Prop :=
  NoDup (map n_id s) /\ forall n, In n s -> NoDup (map v_id (all_vols n)).

Definition cluster_locs (s : snapshot) : list loc := map n_loc s.

Lemma find_node_some : forall s id n, find_node s id = Some n -> In n s /\ n_id n = id.
Proof. intros s id n. apply (find_key_some n_id). Qed.

Lemma find_node_in : forall s n, NoDup (map n_id s) -> In n s -> find_node s (n_id n) = Some n.
Proof. intros s n. apply (find_key_unique n_id). Qed.

Lemma loc_of_node : forall s id, l_node (loc_of s id) = id.
Proof.
  intros s id. unfold loc_of. destruct (find_node s id) as [n|] eqn:E; [|reflexivity].
  apply find_node_some in E. apply E.
Qed.

Lemma loc_of_in : forall s n, NoDup (map n_id s) -> In n s -> loc_of s (n_id n) = n_loc n.
Proof. intros s n Hnd Hin. unfold loc_of. rewrite find_node_in; auto. Qed.

Lemma loc_of_cl : forall s l, NoDup (map n_id s) -> In l (cluster_locs s) -> loc_of s (l_node l) = l.
Proof.
  intros s l Hnd Hin. unfold cluster_locs in Hin. apply in_map_iff in Hin. destruct Hin as [n [H1 H2]].
  subst l. apply (loc_of_in s n); auto.
Qed.

Lemma ids_ok_cl : forall s, NoDup (map n_id s) -> ids_ok (cluster_locs s).
Proof.
  intros s Hnd a b Ha Hb Hab. unfold cluster_locs in *.
  apply in_map_iff in Ha. destruct Ha as [na [Ea Ha]]. apply in_map_iff in Hb. destruct Hb as [nb [Eb Hb]].
  subst. f_equal. apply (NoDup_map_inj n_id s); auto.
Qed.

Lemma ids_ok_incl : forall l l', ids_ok l -> incl l' l -> ids_ok l'.
Proof. intros l l' H Hi a b Ha Hb. apply H; auto. Qed.

(* every copy is on a server of the snapshot and is a copy of one of its volumes *)
Definition WInv (s : snapshot) (w : world) : Prop :=
  forall vid r, In r (w_reps w vid) ->
    In (r_loc r) (cluster_locs s) /\ exists n0, In n0 s /\ In (r_info r) (all_vols n0).
(* no two copies of a volume on one server *)
Definition NodesOk (w : world) : Prop :=
  forall vid, NoDup (map l_node (locs (w_reps w vid))).

Lemma upd1_eq : forall {V} (f : N -> V) k v, upd1 f k v k = v.
Proof. intros. unfold upd1. rewrite N.eqb_refl. reflexivity. Qed.
Lemma upd1_neq : forall {V} (f : N -> V) k v k', k' <> k -> upd1 f k v k' = f k'.
Proof. intros. unfold upd1. destruct (N.eqb_spec k' k); [contradiction|reflexivity]. Qed.

Lemma holds_iff : forall rs n, holds rs n = true <-> In n (map l_node (locs rs)).
Proof.
  intros. unfold holds, locs. rewrite existsb_exists, map_map, in_map_iff. split.
  - intros [r [H1 H2]]. apply N.eqb_eq in H2. exists r; auto.
  - intros [r [H1 H2]]. exists r. split; auto. apply N.eqb_eq; auto.
Qed.

Lemma replica_at_unique : forall rs r, NoDup (map l_node (locs rs)) -> In r rs ->
  replica_at rs (l_node (r_loc r)) = Some r.
Proof.
  intros rs r Hnd. unfold locs in Hnd. rewrite map_map in Hnd.
  apply (find_key_unique (fun r => l_node (r_loc r))). exact Hnd.
Qed.

Lemma relocate_moved : forall fl tl v rs, NoDup (map l_node (locs rs)) ->
  In {| r_loc := fl; r_info := v |} rs -> In {| r_loc := tl; r_info := v |} (relocate fl tl rs).
Proof.
  induction rs as [|a rs IH]; intros Hnd Hin; [destruct Hin|].
  cbn [locs map] in Hnd. inversion Hnd as [|? ? Hn Hd]; subst.
  cbn [relocate]. destruct (loc_eqb (r_loc a) fl) eqn:E.
  - apply loc_eqb_eq in E. destruct Hin as [Ha|Hin].
    + subst a. left. reflexivity.
    + exfalso. apply Hn. rewrite E. unfold locs. rewrite map_map. apply in_map_iff.
      exists {| r_loc := fl; r_info := v |}. auto.
  - destruct Hin as [Ha|Hin].
    + subst a. cbn [r_loc] in E. rewrite loc_eqb_refl in E. discriminate.
    + right. apply IH; auto.
Qed.

Lemma relocate_other : forall fl tl rs r, In r rs -> r_loc r <> fl -> In r (relocate fl tl rs).
Proof.
  induction rs as [|a rs IH]; intros r Hin Hne; [destruct Hin|].
  cbn [relocate]. destruct (loc_eqb (r_loc a) fl) eqn:E.
  - apply loc_eqb_eq in E. destruct Hin as [->|Hin]; [congruence|]. right; auto.
  - destruct Hin as [->|Hin]; [left; auto|right; apply IH; auto].
Qed.

Lemma relocate_in_inv : forall fl tl rs r, In r (relocate fl tl rs) ->
  (r_loc r = tl /\ exists a, In a rs /\ r_info r = r_info a) \/ In r rs.
Proof.
  induction rs as [|a rs IH]; intros r Hin; [destruct Hin|].
  cbn [relocate] in Hin. destruct (loc_eqb (r_loc a) fl).
  - destruct Hin as [<-|Hin]; [left; split; [reflexivity|exists a; split; [left|]; reflexivity]|right; right; auto].
  - destruct Hin as [<-|Hin]; [right; left; auto|].
    destruct (IH r Hin) as [[H [b [Hb Eb]]]|H]; [left; split; [exact H|exists b; split; [right|]; auto]|right; right; auto].
Qed.

Lemma relocate_infos : forall fl tl rs, map r_info (relocate fl tl rs) = map r_info rs.
Proof.
  induction rs as [|a rs IH]; cbn [relocate map]; auto.
  destruct (loc_eqb (r_loc a) fl); cbn [map r_info]; [reflexivity|]. f_equal; auto.
Qed.

Lemma relocate_length : forall fl tl rs, length (relocate fl tl rs) = length rs.
Proof. intros. rewrite <- (map_length r_info), relocate_infos, map_length. reflexivity. Qed.

Lemma relocate_nodes_ok : forall fl tl rs, NoDup (map l_node (locs rs)) -> In fl (locs rs) ->
  ~ In (l_node tl) (map l_node (locs rs)) ->
  NoDup (map l_node (locs (relocate fl tl rs))).
Proof.
  intros fl tl rs Hnd Hin Hfresh. rewrite locs_relocate.
  pose proof (relocate_perm fl tl (locs rs) Hnd Hin) as HP.
  eapply Permutation_NoDup; [apply Permutation_map; apply Permutation_sym; exact HP|].
  apply NoDup_nodes_after; auto.
Qed.

Lemma SubP_single : forall p a, SubP p [a].
Proof.
  intros p a. split; [cbn [map]; constructor; [intros []|constructor]|].
  split; [rewrite dcs_single; cbn [length]; lia|]. right.
  exists (l_dc a). unfold MainDc. rewrite dcs_single. split; [left; auto|]. split.
  - intros d [Hd|[]] Hne. congruence.
  - assert (in_dc (l_dc a) [a] = [a]) as -> by (rewrite in_dc_cons_eq; reflexivity).
    split; [rewrite racks_single; cbn [length]; lia|]. exists (rack_of a). apply single_MainRack.
Qed.

Lemma valid_single : forall p a b, valid_placement p [a] = valid_placement p [b].
Proof.
  intros. unfold valid_placement.
  rewrite (proj2 (sub_placement_iff p [a]) (SubP_single p a)).
  rewrite (proj2 (sub_placement_iff p [b]) (SubP_single p b)). reflexivity.
Qed.

(* a Move is harmless: the target does not hold the volume, and a valid layout stays valid
   unless the moved replica's setting has x >= 1 and y >= 2 (which no volume of [s] has when
   [trig_rp_xy s] is off) *)
Definition MoveOk (s : snapshot) (w : world) (st : step) : Prop :=
  ok_coloc (prop_step s w st) = true /\
  ok_pres (prop_step s w st) || step_rp_trig w st = true /\
  (trig_rp_xy s = false -> step_rp_trig w st = false).

Lemma no_rp_trig : forall s n v, trig_rp_xy s = false -> In n s -> In v (all_vols n) ->
  rp_trig (rp_of_byte (v_rp v)) = false.
Proof.
  intros s n v H Hn Hv. destruct (rp_trig (rp_of_byte (v_rp v))) eqn:E; auto.
  assert (trig_rp_xy s = true); [|congruence].
  unfold trig_rp_xy. apply existsb_exists. exists n. split; auto.
  apply existsb_exists. exists v. auto.
Qed.

(* maybeMoveOneVolume's test, on the real cluster *)
Definition move_guard (s : snapshot) (w : world) (v : vol) (from to : N) : Prop :=
  is_good_move (rp_of_byte (v_rp v)) (locs (w_reps w (v_id v))) (loc_of s from) (loc_of s to) = true.

Lemma ids_ok_cons_cl : forall s w vid l, NoDup (map n_id s) -> WInv s w -> In l (cluster_locs s) ->
  ids_ok (l :: locs (w_reps w vid)).
Proof.
  intros s w vid l Hnd HW Hl. apply (ids_ok_incl (cluster_locs s)); [apply ids_ok_cl; auto|].
  intros x [<-|Hx]; auto.
  unfold locs in Hx. apply in_map_iff in Hx. destruct Hx as [r [<- Hr]]. apply (HW vid r Hr).
Qed.

(* a move that passes it is harmless and keeps the invariants; afterwards the copy is on the
   target and every other copy where it was *)
Lemma move_step_safe : forall s w dt from to v,
  NoDup (map n_id s) -> WInv s w -> NodesOk w ->
  In (loc_of s to) (cluster_locs s) ->
  In {| r_loc := loc_of s from; r_info := v |} (w_reps w (v_id v)) ->
  move_guard s w v from to ->
  let st := Move (v_id v) dt from to in
  let w' := apply_step s w st in
  MoveOk s w st /\ WInv s w' /\ NodesOk w' /\
  In {| r_loc := loc_of s to; r_info := v |} (w_reps w' (v_id v)) /\
  (forall x r, In r (w_reps w x) -> x <> v_id v \/ r_loc r <> loc_of s from -> In r (w_reps w' x)).
Proof.
  intros s w dt from to v Hnd HW HN Hto Hin Hg st w'. unfold move_guard in Hg.
  set (vid := v_id v) in *. set (fl := loc_of s from) in *. set (tl := loc_of s to) in *.
  set (rs := w_reps w vid) in *.
  assert (ids_ok (tl :: locs rs)) as Hids by (apply (ids_ok_cons_cl s); auto).
  assert (In fl (locs rs)) as Hfl.
  { unfold locs. apply in_map_iff. exists {| r_loc := fl; r_info := v |}. auto. }
  assert (l_node fl = from) as Hnf by apply loc_of_node.
  assert (l_node tl = to) as Hnt by apply loc_of_node.
  assert (~ In (l_node tl) (map l_node (locs rs))) as Hfresh by (eapply good_move_no_coloc; eauto).
  assert (w_reps w' vid = relocate fl tl rs) as Hrs'.
  { unfold w', st. cbn [apply_step w_reps]. apply upd1_eq. }
  assert (forall vid', vid' <> vid -> w_reps w' vid' = w_reps w vid') as Hoth.
  { intros vid' Hv. unfold w', st. cbn [apply_step w_reps]. apply upd1_neq; auto. }
  pose proof (replica_at_unique rs _ (HN vid) Hin) as Hat. cbn [r_loc] in Hat. rewrite Hnf in Hat.
  split; [split; [|split]|].
  - unfold st. cbn [prop_step ok_coloc]. fold rs. destruct (holds rs to) eqn:E; auto.
    apply holds_iff in E. rewrite <- Hnt in E. contradiction.
  - (* placement preserved, unless the moved replica's setting has x >= 1 and y >= 2 *)
    unfold st. cbn [prop_step ok_pres step_rp_trig]. fold rs. fold fl. fold tl. rewrite Hat. cbn [r_info].
    destruct (rp_trig (rp_of_byte (v_rp v))) eqn:Htr; [apply orb_true_r|]. rewrite orb_false_r, locs_relocate.
    destruct (valid_placement (rp_of_byte (v_rp v)) (locs rs)) eqn:Ev; auto. cbn [implb].
    apply good_move_valid; auto.
  - intros Htr. unfold st. cbn [step_rp_trig]. fold rs. rewrite Hat. cbn [r_info].
    destruct (HW vid _ Hin) as [_ [n0 [Hn0 Hv0]]]. eapply no_rp_trig; eauto.
  - split; [|split; [|split]]; auto.
    + intros vid' r Hr. destruct (N.eq_dec vid' vid) as [->|Hv].
      * rewrite Hrs' in Hr. apply relocate_in_inv in Hr. destruct Hr as [[-> [a [Ha ->]]]|Hr]; [|apply (HW vid); auto].
        split; [exact Hto|apply (HW vid a Ha)].
      * rewrite Hoth in Hr; auto. apply (HW vid'); auto.
    + intros vid'. destruct (N.eq_dec vid' vid) as [->|Hv].
      * rewrite Hrs'. apply relocate_nodes_ok; auto. apply HN.
      * rewrite Hoth; auto.
    + rewrite Hrs'. apply relocate_moved; auto. apply HN.
    + intros x r Hr Hx. destruct (N.eq_dec x vid) as [->|Hv]; [|rewrite Hoth; auto].
      rewrite Hrs'. apply relocate_other; auto. destruct Hx as [Hx|Hx]; [contradiction|exact Hx].
Qed.

Lemma prop_trace_cons : forall s w st tr,
  prop_trace s w (st :: tr) = v4_and (prop_step s w st) (prop_trace s (apply_step s w st) tr).
Proof. reflexivity. Qed.

Lemma prop_trace_app : forall s tr1 tr2 w,
  prop_trace s w (tr1 ++ tr2) = v4_and (prop_trace s w tr1) (prop_trace s (run_trace s w tr1) tr2).
Proof.
  induction tr1 as [|st tr1 IH]; intros tr2 w.
  - cbn [app prop_trace run_trace]. destruct (prop_trace s w tr2) as [c1 c2 c3 c4]; reflexivity.
  - cbn [app prop_trace run_trace]. rewrite IH.
    destruct (prop_step s w st) as [a1 a2 a3 a4], (prop_trace s (apply_step s w st) tr1) as [b1 b2 b3 b4],
      (prop_trace s _ tr2) as [c1 c2 c3 c4].
    unfold v4_and. cbn [ok_coloc ok_cap ok_pres ok_repair]. rewrite !andb_assoc. reflexivity.
Qed.

Lemma excused_app : forall clause tg s tr1 tr2 w,
  excused clause tg s w (tr1 ++ tr2) = excused clause tg s w tr1 && excused clause tg s (run_trace s w tr1) tr2.
Proof.
  induction tr1 as [|st tr1 IH]; intros tr2 w; [reflexivity|].
  cbn [app excused run_trace]. rewrite IH, andb_assoc. reflexivity.
Qed.

(* a clause that holds on the whole plan needs no excuse *)
Lemma excused_of_clause : forall (clause : verdict4 -> bool) trig s,
  (forall a b, clause (v4_and a b) = clause a && clause b) ->
  forall tr w, clause (prop_trace s w tr) = true -> excused clause trig s w tr = true.
Proof.
  intros clause trig s Hand. induction tr as [|st tr IH]; intros w H; [reflexivity|].
  cbn [prop_trace] in H. rewrite Hand in H. apply andb_true_iff in H. destruct H as [H1 H2].
  cbn [excused]. rewrite H1, (IH _ H2). reflexivity.
Qed.

(* every step of a plan, at the state of the cluster it is applied to, satisfies [Q] *)
Fixpoint Steps (Q : world -> step -> Prop) (s : snapshot) (w : world) (tr : list step) : Prop :=
  match tr with
  | [] => True
  | st :: tr' => Q w st /\ Steps Q s (apply_step s w st) tr'
  end.

Lemma Steps_app : forall Q s tr1 tr2 w,
  Steps Q s w tr1 -> Steps Q s (run_trace s w tr1) tr2 -> Steps Q s w (tr1 ++ tr2).
Proof.
  induction tr1 as [|st tr1 IH]; intros tr2 w H1 H2; [exact H2|].
  destruct H1 as [Hq H1]. split; [exact Hq|]. apply IH; assumption.
Qed.

Lemma Steps_impl : forall (Q Q' : world -> step -> Prop) s, (forall w st, Q w st -> Q' w st) ->
  forall tr w, Steps Q s w tr -> Steps Q' s w tr.
Proof.
  intros Q Q' s HQ. induction tr as [|st tr IH]; intros w H; [exact I|].
  destruct H as [Hq H]. split; auto.
Qed.

(* from [Steps] to the boolean folds of the model, [excused] and a clause of [prop_trace]; each of
   the four clauses of [verdict4] meets the first two premises of [Steps_clause] by computation *)
Lemma Steps_excused : forall clause tg s (Q : world -> step -> Prop),
  (forall w st, Q w st -> clause (prop_step s w st) || tg w st = true) ->
  forall tr w, Steps Q s w tr -> excused clause tg s w tr = true.
Proof.
  intros clause tg s Q HQ. induction tr as [|st tr IH]; intros w H; [reflexivity|].
  destruct H as [Hq H]. cbn [excused]. rewrite (HQ _ _ Hq). apply IH. exact H.
Qed.

Lemma Steps_clause : forall (clause : verdict4 -> bool) s (Q : world -> step -> Prop),
  clause v4_true = true -> (forall a b, clause (v4_and a b) = clause a && clause b) ->
  (forall w st, Q w st -> clause (prop_step s w st) = true) ->
  forall tr w, Steps Q s w tr -> clause (prop_trace s w tr) = true.
Proof.
  intros clause s Q H1 Hand HQ. induction tr as [|st tr IH]; intros w H; [exact H1|].
  destruct H as [Hq H]. cbn [prop_trace]. rewrite Hand, (HQ _ _ Hq). apply IH. exact H.
Qed.

Lemma MoveOk_trace : forall s w tr, Steps (MoveOk s) s w tr ->
  ok_coloc (prop_trace s w tr) = true /\
  excused ok_pres step_rp_trig s w tr = true /\
  (trig_rp_xy s = false -> ok_pres (prop_trace s w tr) = true).
Proof.
  intros s w tr H. split; [|split].
  - apply (Steps_clause ok_coloc s (MoveOk s) eq_refl (fun _ _ => eq_refl)) with (2 := H).
    intros w0 st H0. apply H0.
  - apply (Steps_excused ok_pres step_rp_trig s (MoveOk s)) with (2 := H).
    intros w0 st H0. apply H0.
  - intros Htr. apply (Steps_clause ok_pres s (MoveOk s) eq_refl (fun _ _ => eq_refl)) with (2 := H).
    intros w0 st [_ [Hp Ht]]. rewrite (Ht Htr), orb_false_r in Hp. exact Hp.
Qed.
