(* C33: the readers ReadUrl and ReadUrlAsReaderCloser of util/http_util.go against ReadUrlAsStream,
   the bytes handed to fn, and finding 0 (false gzip promise: isInputCompressed on data that carries
   the gzip magic but is not a gzip stream). *)
From Coq Require Import List Arith NArith Bool String Lia.
From SW Require Import model.UploadCodec proof.UploadCodecProofs.
Import ListNotations.
Local Open Scope N_scope.

(* the trigger of finding 0 is exactly "clear_of = None" *)
Lemma clear_of_none_iff : forall O u, clear_of O u = None <-> false_gzip_promise O u = true.
Proof.
  intros O u. unfold clear_of, false_gzip_promise.
  destruct (u_ic u); simpl; [|split; discriminate].
  destruct (is_gzipped_content (glib O) (u_data u)); simpl; [|split; discriminate].
  destruct (o_gunzip O (u_data u)); split; intro H; try discriminate; reflexivity.
Qed.

Lemma clear_of_some : forall O u, false_gzip_promise O u = false -> exists c, clear_of O u = Some c.
Proof.
  intros O u H. destruct (clear_of O u) as [c|] eqn:E; [exists c; reflexivity|].
  apply clear_of_none_iff in E. congruence.
Qed.

(* ReadUrl against ReadUrlAsStream, on both paths: the same bytes cut to the buffer, the same panic,
   and an error of the stream is at worst a success of ReadUrl (a body error behind a full buffer) *)
Lemma read_url_vs_fetch : forall rep O n key gz full off size buflen,
  match fetch_gen rep O n key gz full off size with
  | FOk b => read_url rep O n key gz full off size buflen = FOk (firstn (N.to_nat buflen) b)
  | FPanic => read_url rep O n key gz full off size buflen = FPanic
  | FErr => read_url rep O n key gz full off size buflen <> FPanic
  end.
Proof.
  intros rep O n key gz full off size buflen. unfold read_url. destruct key as [k|].
  - destruct (fetch_gen rep O n (Some k) gz full off size); try reflexivity. discriminate.
  - unfold fetch_gen, read_body. destruct (400 <=? rs_status _); [discriminate|].
    destruct (rs_ce_gzip _); [|reflexivity].
    destruct (o_gunzip O _); [reflexivity|destruct (buflen <? len partial); discriminate|].
    destruct rep; [discriminate|reflexivity].
Qed.

Lemma read_url_of_fetch : forall rep O n key gz full off size buflen b,
  fetch_gen rep O n key gz full off size = FOk b ->
  read_url rep O n key gz full off size buflen = FOk (firstn (N.to_nat buflen) b).
Proof.
  intros rep O n key gz full off size buflen b H.
  pose proof (read_url_vs_fetch rep O n key gz full off size buflen) as V. rewrite H in V. exact V.
Qed.

Lemma read_closer_is_fetch : forall rep O n gz (full : bool) off size,
  read_closer rep O n (if full then None else Some (off, size)) = fetch_gen rep O n None gz full off size.
Proof. intros rep O n gz full off size. unfold read_closer, fetch_gen. destruct full; reflexivity. Qed.

Theorem read_url_no_panic : forall O n key gz full off size buflen,
  read_url true O n key gz full off size buflen <> FPanic.
Proof.
  intros O n key gz full off size buflen.
  pose proof (read_url_vs_fetch true O n key gz full off size buflen) as V.
  pose proof (fetch_no_panic O n key gz full off size) as P. unfold fetch in P.
  destruct (fetch_gen true O n key gz full off size); [rewrite V; discriminate|exact V|congruence].
Qed.

Theorem read_closer_no_panic : forall O n rng, read_closer true O n rng <> FPanic.
Proof.
  intros O n rng. unfold read_closer.
  destruct (400 <=? rs_status _); [discriminate | apply read_body_no_panic].
Qed.

(* the pinned code: same unchecked gzip.NewReader in both readers *)
Theorem pinned_read_closer_panic_iff : forall O n rng,
  read_closer false O n rng = FPanic <->
  pinned_fetch_panic O n None (match rng with None => true | Some _ => false end) = true.
Proof.
  intros O n rng.
  destruct rng as [[off size]|].
  - rewrite (read_closer_is_fetch false O n false false off size). apply pinned_fetch_panic_iff.
  - rewrite (read_closer_is_fetch false O n false true 0 0). apply pinned_fetch_panic_iff.
Qed.

Theorem pinned_read_url_panic_iff : forall O n key gz full off size buflen,
  read_url false O n key gz full off size buflen = FPanic <-> pinned_fetch_panic O n key full = true.
Proof.
  intros O n key gz full off size buflen.
  rewrite <- (pinned_fetch_panic_iff O n key gz full off size).
  pose proof (read_url_vs_fetch false O n key gz full off size buflen) as V.
  destruct (fetch_gen false O n key gz full off size); [rewrite V| |]; split; intro H; congruence.
Qed.

Lemma fetch_handed_ok : forall O n key gz full off size b,
  fetch O n key gz full off size = FOk b -> fetch_handed O n key gz full off size = b.
Proof.
  intros O n key gz full off size b H. unfold fetch in H. unfold fetch_handed.
  destruct key as [k|]; [rewrite H; reflexivity|].
  unfold fetch_gen in H.
  destruct (400 <=? rs_status _); [discriminate|].
  unfold read_body in H.
  destruct (rs_ce_gzip _); [|inversion H; reflexivity].
  destruct (o_gunzip O _); try discriminate. inversion H; reflexivity.
Qed.

Theorem roundtrip_all_readers : forall O, laws O -> forall u clear,
  List.length (u_nonce u) = 12%nat -> clear_of O u = Some clear ->
  let w := fst (upload O u) in let r := snd (upload O u) in
  let n := server_store w in
  r_size r = len clear /\
  (forall off size, off + size <= len clear ->
     fetch O n (r_key r) (r_gzip r) true off size = FOk clear /\
     fetch_handed O n (r_key r) (r_gzip r) true off size = clear /\
     (forall buflen, read_url true O n (r_key r) (r_gzip r) true off size buflen = FOk (firstn (N.to_nat buflen) clear))) /\
  (forall off size, 0 < size -> off + size <= len clear ->
     fetch O n (r_key r) (r_gzip r) false off size = FOk (slice off size clear) /\
     fetch_handed O n (r_key r) (r_gzip r) false off size = slice off size clear /\
     (forall buflen, read_url true O n (r_key r) (r_gzip r) false off size buflen =
                     FOk (firstn (N.to_nat buflen) (slice off size clear)))) /\
  (u_cipher u = false ->
     read_closer true O n None = FOk clear /\
     forall off size, 0 < size -> off + size <= len clear ->
       read_closer true O n (Some (off, size)) = FOk (slice off size clear)).
Proof.
  intros O HL u clear Hn Hc. cbv zeta.
  destruct (roundtrip O HL u clear Hn Hc) as [Hs [Hf Hr]].
  split; [exact Hs|]. split; [|split].
  - intros off size Hle. pose proof (Hf off size Hle) as H.
    split; [exact H|]. split; [apply fetch_handed_ok; exact H|].
    intro buflen. apply read_url_of_fetch. exact H.
  - intros off size Hp Hle. pose proof (Hr off size Hp Hle) as H.
    split; [exact H|]. split; [apply fetch_handed_ok; exact H|].
    intro buflen. apply read_url_of_fetch. exact H.
  - intro Hci.
    pose proof (upload_plain_key O u Hci) as Hk.
    split.
    + rewrite (read_closer_is_fetch true O _ (r_gzip (snd (upload O u))) true 0 0).
      rewrite <- Hk. apply (Hf 0 0). lia.
    + intros off size Hp Hle.
      rewrite (read_closer_is_fetch true O _ (r_gzip (snd (upload O u))) false off size).
      rewrite <- Hk. apply (Hr off size Hp Hle).
Qed.

(* the round trip under the DECIDABLE hypothesis "not inside finding 0" *)
Theorem roundtrip_partial : forall O, laws O -> forall u,
  List.length (u_nonce u) = 12%nat -> false_gzip_promise O u = false ->
  exists clear,
    (clear = u_data u \/ (u_ic u = true /\ o_gunzip O (u_data u) = GzOk clear)) /\
    let w := fst (upload O u) in let r := snd (upload O u) in
    r_size r = len clear /\
    (forall off size, off + size <= len clear ->
       fetch O (server_store w) (r_key r) (r_gzip r) true off size = FOk clear) /\
    (forall off size, 0 < size -> off + size <= len clear ->
       fetch O (server_store w) (r_key r) (r_gzip r) false off size = FOk (slice off size clear)).
Proof.
  intros O HL u Hn Ht. destruct (clear_of_some O u Ht) as [c Hc]. exists c. split.
  - unfold clear_of in Hc. destruct (u_ic u); [|inversion Hc; left; reflexivity].
    destruct (is_gzipped_content (glib O) (u_data u)); [|inversion Hc; left; reflexivity].
    destruct (o_gunzip O (u_data u)) eqn:E; try discriminate. inversion Hc; subst. right. split; reflexivity.
  - exact (roundtrip O HL u c Hn Hc).
Qed.

(* not encrypted: the junk is stored as it is, flagged compressed; every full fetch
   (all three readers ask with Accept-Encoding: gzip and get the junk back labelled
   gzip) fails; nothing panics *)
Theorem false_promise_plain : forall O u,
  false_gzip_promise O u = true -> u_cipher u = false ->
  let w := fst (upload O u) in let r := snd (upload O u) in
  w_body w = u_data u /\ w_ce_gzip w = true /\ r_gzip r = true /\ r_key r = None /\ r_size r = len (u_data u) /\
  (forall gz off size, fetch O (server_store w) None gz true off size = FErr) /\
  read_closer true O (server_store w) None = FErr /\
  (* a ranged fetch gets whatever the server's own (error-ignoring) decompression left *)
  (forall gz off size, fetch O (server_store w) None gz false off size =
     let body := gunzip_partial O (u_data u) in
     if (size =? 0) || (len body <? off) then FErr
     else FOk (slice off (N.min (off + size) (len body) - off) body)).
Proof.
  intros O u Ht Hc. cbv zeta. unfold false_gzip_promise in Ht.
  apply andb_prop in Ht. destruct Ht as [Ht Hg]. apply andb_prop in Ht. destruct Ht as [Hic Hmag].
  assert (Hsg : should_gzip_now O u = false) by (unfold should_gzip_now; rewrite Hic; reflexivity).
  unfold upload. rewrite Hc, Hsg, Hic. simpl andb. cbv iota.
  rewrite (read_closer_is_fetch true O _ true true 0 0).
  unfold decompress_data, ungzip_data, gunzip_partial. rewrite Hmag. simpl gz_gunzip.
  (* the junk is stored as it is, flagged compressed; what the server and the client make of it *)
  destruct (o_gunzip O (u_data u)) eqn:Hgun; [discriminate| |]; cbn [fst snd].
  all: repeat split; intros.
  all: unfold fetch, fetch_gen, server_store, server_get, read_body, decompress_ignore_err, decompress_data, ungzip_data.
  all: simpl; rewrite Hmag; simpl; rewrite Hgun; try reflexivity.
  all: destruct ((size =? 0) || (len _ <? off)); reflexivity.
Qed.

(* encrypted: the upload succeeds, records the length of the INPUT, but what is sealed
   and stored is only DecompressData's partial output (nothing at all after a header
   error): the input bytes are gone *)
Theorem false_promise_cipher : forall O, laws O -> forall u,
  false_gzip_promise O u = true -> u_cipher u = true -> List.length (u_nonce u) = 12%nat ->
  let w := fst (upload O u) in let r := snd (upload O u) in
  let p := gunzip_partial O (u_data u) in
  w_body w = encrypt O (u_key u) (u_nonce u) p /\ r_size r = len (u_data u) /\ r_gzip r = false /\
  forall full off size,
    fetch O (server_store w) (r_key r) (r_gzip r) full off size =
    if len p <? off + size then FErr else if full then FOk p else FOk (slice off size p).
Proof.
  intros O HL u Ht Hc Hn. cbv zeta. unfold false_gzip_promise in Ht.
  apply andb_prop in Ht. destruct Ht as [Ht Hg]. apply andb_prop in Ht. destruct Ht as [Hic Hmag].
  unfold upload. rewrite Hc, Hic, andb_false_r. cbv iota.
  unfold decompress_data, ungzip_data, gunzip_partial. rewrite Hmag. simpl gz_gunzip.
  destruct (o_gunzip O (u_data u)) eqn:Hgun; try discriminate; simpl;
    (split; [reflexivity|]; split; [reflexivity|]; split; [reflexivity|]);
    intros full off size; unfold fetch, fetch_gen, server_store, server_get, http_get_all, read_body; simpl;
    rewrite (decrypt_encrypt O HL _ _ _ Hn); reflexivity.
Qed.

Definition junk_cipher_upload : upload_in :=
  {| u_name := "junk"%string; u_cipher := true; u_data := [31; 139; 0; 1; 2]; u_ic := true;
     u_mime := ""%string; u_key := [9]; u_nonce := [1; 2; 3; 4; 5; 6; 7; 8; 9; 10; 11; 12] |}.

(* the full statement: some clear bytes (the data, or its gunzip) come back from a full fetch
   of the recorded size *)
Definition any_content_ok (O : oracle) (u : upload_in) : Prop :=
  exists clear, (clear = u_data u \/ o_gunzip O (u_data u) = GzOk clear) /\
    fetch O (server_store (fst (upload O u))) (r_key (snd (upload O u))) (r_gzip (snd (upload O u))) true 0
          (r_size (snd (upload O u))) = FOk clear.

(* it fails on the faithful model, encrypted or not *)
Theorem any_content_refuted : exists O, laws O /\
  (exists u, List.length (u_nonce u) = 12%nat /\ u_cipher u = false /\ ~ any_content_ok O u /\
     (* and a ranged read of the first 5 bytes silently returns nothing *)
     fetch O (server_store (fst (upload O u))) None true false 0 5 = FOk []) /\
  (exists u, List.length (u_nonce u) = 12%nat /\ u_cipher u = true /\ ~ any_content_ok O u /\
     (* the upload reported 5 bytes, the stored plaintext is empty *)
     r_size (snd (upload O u)) = 5 /\
     decrypt O (u_key u) (w_body (fst (upload O u))) = Some []).
Proof.
  exists toy. split; [exact toy_laws|]. split.
  - exists {| u_name := "junk"%string; u_cipher := false; u_data := [31; 139; 0; 1; 2]; u_ic := true;
              u_mime := ""%string; u_key := []; u_nonce := [1; 2; 3; 4; 5; 6; 7; 8; 9; 10; 11; 12] |}.
    split; [reflexivity|]. split; [reflexivity|]. split; [|vm_compute; reflexivity].
    intros [c [_ H]]. vm_compute in H. discriminate.
  - exists junk_cipher_upload.
    split; [reflexivity|]. split; [reflexivity|]. split; [|split; vm_compute; reflexivity].
    intros [c [_ H]]. vm_compute in H. discriminate.
Qed.

Definition ex_text : upload_in :=
  {| u_name := "a.txt"%string; u_cipher := false; u_data := [104; 105; 32; 104; 105]; u_ic := false;
     u_mime := ""%string; u_key := []; u_nonce := [] |}.
Definition ex_cipher : upload_in :=
  {| u_name := "x"%string; u_cipher := true; u_data := [31; 139; 1; 2]; u_ic := false;
     u_mime := ""%string; u_key := [9]; u_nonce := [1; 2; 3; 4; 5; 6; 7; 8; 9; 10; 11; 12] |}.
Definition ex_pregz : upload_in :=
  {| u_name := "p.gz"%string; u_cipher := false; u_data := [31; 139; 8; 65; 66; 67]; u_ic := true;
     u_mime := ""%string; u_key := []; u_nonce := [1; 2; 3; 4; 5; 6; 7; 8; 9; 10; 11; 12] |}.

Lemma example_holds :
  laws toy /\
  (r_gzip (snd (upload toy ex_text)) = true /\
   fetch toy (server_store (fst (upload toy ex_text))) None true true 0 5 = FOk [104; 105; 32; 104; 105] /\
   fetch toy (server_store (fst (upload toy ex_text))) None true false 1 3 = FOk [105; 32; 104] /\
   read_url true toy (server_store (fst (upload toy ex_text))) None true true 0 5 2 = FOk [104; 105] /\
   read_closer true toy (server_store (fst (upload toy ex_text))) (Some (1, 3)) = FOk [105; 32; 104]) /\
  fetch toy (server_store (fst (upload toy ex_cipher))) (r_key (snd (upload toy ex_cipher)))
        (r_gzip (snd (upload toy ex_cipher))) false 1 2 = FOk [139; 1] /\
  (false_gzip_promise toy ex_pregz = false /\ clear_of toy ex_pregz = Some [65; 66; 67] /\
   List.length (u_nonce ex_pregz) = 12%nat /\
   fetch toy (server_store (fst (upload toy ex_pregz))) None true true 0 3 = FOk [65; 66; 67]) /\
  (false_gzip_promise toy junk_upload = true /\ false_gzip_promise toy junk_cipher_upload = true).
Proof. split; [exact toy_laws | vm_compute; repeat split; reflexivity]. Qed.
