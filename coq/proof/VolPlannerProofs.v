(* Proofs about model/VolPlanner.v (C15): counting replicas by data center and rack; the placement
   spec as propositions ([SubP]); lookup and removal by a key; and why isGoodMove's three counts
   imply the spec ([good_counts_SubP]). *)
From Coq Require Import List NArith ZArith Bool Arith Lia Permutation.
From SW Require Import proof.ListFacts model.VolPlanner.
Import ListNotations.

Lemma loc_eqb_eq : forall a b, loc_eqb a b = true <-> a = b.
Proof.
  intros [a1 a2 a3] [b1 b2 b3]; unfold loc_eqb; simpl.
  rewrite !andb_true_iff, !N.eqb_eq. split.
  - intros [[H1 H2] H3]; subst; reflexivity.
  - intros H; inversion H; auto.
Qed.

Lemma loc_eqb_refl : forall a, loc_eqb a a = true.
Proof. intros; apply loc_eqb_eq; reflexivity. Qed.

Lemma rack_eqb_eq : forall a b, rack_eqb a b = true <-> a = b.
Proof. intros a b; unfold rack_eqb; destruct (rack_dec a b); split; congruence. Qed.

Section Counting.
  Context {A : Type} (dec : forall x y : A, {x = y} + {x <> y}).

  Lemma nodup_len_NoDup : forall l : list A, length (nodup dec l) = length l -> NoDup l.
  Proof.
    intros l H. apply (NoDup_incl_NoDup (NoDup_nodup dec l)); [lia|].
    intros y Hy. apply nodup_In in Hy. exact Hy.
  Qed.

  Lemma nodup_len_le : forall l : list A, length (nodup dec l) <= length l.
  Proof.
    intros l. apply NoDup_incl_length; [apply NoDup_nodup|].
    intros y Hy. apply nodup_In in Hy; auto.
  Qed.

  Lemma nodup_perm : forall l l' : list A, Permutation l l' -> Permutation (nodup dec l) (nodup dec l').
  Proof.
    intros l l' HP. apply NoDup_Permutation; try apply NoDup_nodup.
    intros x. rewrite !nodup_In. split; apply Permutation_in; [|apply Permutation_sym]; exact HP.
  Qed.

  Lemma nodup_perm_len : forall l l' : list A, Permutation l l' ->
    length (nodup dec l) = length (nodup dec l').
  Proof. intros l l' HP. apply Permutation_length, nodup_perm, HP. Qed.

  Lemma sum_zero_indicator : forall (ks : list A) x, ~ In x ks ->
    list_sum (map (fun k => if dec x k then 1 else 0) ks) = 0.
  Proof.
    induction ks as [|k ks IH]; simpl; intros x Hn; auto.
    destruct (dec x k) as [->|]; [exfalso; apply Hn; left; auto|].
    apply IH. intro; apply Hn; right; auto.
  Qed.

  Lemma sum_indicator : forall (ks : list A) x, NoDup ks -> In x ks ->
    list_sum (map (fun k => if dec x k then 1 else 0) ks) = 1.
  Proof.
    induction ks as [|k ks IH]; simpl; intros x Hnd Hin; [tauto|].
    inversion Hnd as [|? ? Hn Hd]; subst.
    destruct (dec x k) as [->|Hne].
    - rewrite sum_zero_indicator; auto.
    - destruct Hin as [->|Hin]; [congruence|]. simpl. apply IH; auto.
  Qed.

  Lemma list_sum_map_add : forall (ks : list A) f g,
    list_sum (map (fun k => f k + g k) ks) = list_sum (map f ks) + list_sum (map g ks).
  Proof. induction ks as [|k ks IH]; simpl; intros; auto. rewrite IH. lia. Qed.

  Lemma len_sum_counts : forall (l ks : list A), NoDup ks -> incl l ks ->
    length l = list_sum (map (count_occ dec l) ks).
  Proof.
    induction l as [|a l IH]; intros ks Hnd Hin.
    - clear Hnd Hin. induction ks as [|k ks IHk]; simpl; auto.
    - assert (forall k, count_occ dec (a :: l) k = count_occ dec l k + (if dec a k then 1 else 0)) as Hc.
      { intros k. simpl. destruct (dec a k); lia. }
      rewrite (map_ext _ _ Hc), list_sum_map_add, sum_indicator; auto.
      + simpl. rewrite (IH ks); auto. lia. intros y Hy. apply Hin. right; auto.
      + apply Hin. left; auto.
  Qed.

  Lemma len_sum_nodup : forall l : list A,
    length l = list_sum (map (count_occ dec l) (nodup dec l)).
  Proof.
    intros l. apply len_sum_counts; [apply NoDup_nodup|]. intros y Hy. apply nodup_In; auto.
  Qed.

  Lemma count_pos : forall (l : list A) k, In k (nodup dec l) -> count_occ dec l k >= 1.
  Proof. intros l k H. apply nodup_In in H. apply (count_occ_In dec) in H. lia. Qed.

  Lemma sum_ge_len : forall (ks : list A) (f : A -> nat),
    (forall k, In k ks -> f k >= 1) -> list_sum (map f ks) >= length ks.
  Proof.
    induction ks as [|k ks IH]; simpl; intros f Hge; auto.
    assert (f k >= 1) by (apply Hge; auto).
    assert (list_sum (map f ks) >= length ks) by (apply IH; intros; apply Hge; auto).
    lia.
  Qed.

  Lemma sum_eq_len_all_one : forall (ks : list A) (f : A -> nat),
    (forall k, In k ks -> f k >= 1) -> list_sum (map f ks) = length ks ->
    forall k, In k ks -> f k = 1.
  Proof.
    induction ks as [|k0 ks IH]; simpl; intros f Hge Hs k Hin; [tauto|].
    assert (list_sum (map f ks) >= length ks) by (apply sum_ge_len; intros; apply Hge; auto).
    assert (f k0 >= 1) by (apply Hge; auto).
    destruct Hin as [->|Hin]; [lia|].
    apply IH; auto. lia.
  Qed.

  Lemma sum_eq_len_plus_one : forall (ks : list A) (f : A -> nat), NoDup ks ->
    (forall k, In k ks -> f k >= 1) -> list_sum (map f ks) = length ks + 1 ->
    exists D, In D ks /\ f D = 2 /\ forall d, In d ks -> d <> D -> f d = 1.
  Proof.
    induction ks as [|k0 ks IH]; simpl; intros f Hnd Hge Hs; [lia|].
    inversion Hnd as [|? ? Hn Hd]; subst.
    assert (f k0 >= 1) by (apply Hge; auto).
    assert (list_sum (map f ks) >= length ks) by (apply sum_ge_len; intros; apply Hge; auto).
    destruct (Nat.eq_dec (f k0) 1) as [H1|H1].
    - destruct (IH f Hd) as [D [HD [H2 Ho]]]; [intros; apply Hge; auto|lia|].
      exists D. split; [right; auto|]. split; auto.
      intros d [->|Hin] Hne; auto.
    - exists k0. split; [left; auto|]. split; [lia|].
      intros d [->|Hin] Hne; [congruence|].
      apply (sum_eq_len_all_one ks f); [intros; apply Hge; auto | lia | auto].
  Qed.

  Lemma count_occ_filter_le : forall (l : list A) (g : A -> bool) k,
    count_occ dec (filter g l) k <= count_occ dec l k.
  Proof.
    induction l as [|a l IH]; simpl; intros g k; auto.
    destruct (g a); simpl; destruct (dec a k); specialize (IH g k); lia.
  Qed.
End Counting.

(* Prop forms of the model's [main_rack_ok], [main_dc_ok], [sub_placement] *)
Definition MainRack (p : rp) (inD : list loc) (R : N * N) : Prop :=
  In R (racks inD) /\ (forall k, In k (racks inD) -> k <> R -> cnt_rack inD k = 1) /\
  cnt_rack inD R <= rp_same p + 1.

Definition MainDc (p : rp) (l : list loc) (D : N) : Prop :=
  In D (dcs l) /\ (forall d, In d (dcs l) -> d <> D -> cnt_dc l d = 1) /\
  length (racks (in_dc D l)) <= rp_rack p + 1 /\ exists R, MainRack p (in_dc D l) R.

Definition SubP (p : rp) (l : list loc) : Prop :=
  NoDup (map l_node l) /\ length (dcs l) <= rp_dc p + 1 /\ (l = [] \/ exists D, MainDc p l D).

Lemma nodup_nodes_iff : forall l, nodup_nodes l = true <-> NoDup (map l_node l).
Proof.
  intros l. unfold nodup_nodes. rewrite Nat.eqb_eq. split; intro H.
  - apply (nodup_len_NoDup N.eq_dec). rewrite map_length. auto.
  - rewrite nodup_fixed_point, map_length; auto.
Qed.

Lemma main_rack_ok_iff : forall p inD R, In R (racks inD) ->
  (main_rack_ok p inD R = true <-> MainRack p inD R).
Proof.
  intros p inD R HR. unfold main_rack_ok, MainRack.
  rewrite andb_true_iff, forallb_forall, Nat.leb_le. split.
  - intros [H1 H2]. split; auto. split; auto.
    intros k Hk Hne. specialize (H1 k Hk). apply orb_true_iff in H1.
    destruct H1 as [H1|H1]; [apply rack_eqb_eq in H1; congruence|apply Nat.eqb_eq; auto].
  - intros [_ [H1 H2]]. split; auto. intros k Hk.
    destruct (rack_dec k R) as [->|Hne].
    + apply orb_true_iff; left; apply rack_eqb_eq; auto.
    + apply orb_true_iff; right; apply Nat.eqb_eq; auto.
Qed.

Lemma main_dc_ok_iff : forall p l D, In D (dcs l) ->
  (main_dc_ok p l D = true <-> MainDc p l D).
Proof.
  intros p l D HD. unfold main_dc_ok, MainDc.
  rewrite !andb_true_iff, forallb_forall, Nat.leb_le, existsb_exists. split.
  - intros [[H1 H2] [R [HR H3]]]. split; auto. split.
    + intros d Hd Hne. specialize (H1 d Hd). apply orb_true_iff in H1.
      destruct H1 as [H1|H1]; [apply N.eqb_eq in H1; congruence|apply Nat.eqb_eq; auto].
    + split; auto. exists R. apply main_rack_ok_iff; auto.
  - intros [_ [H1 [H2 [R HR]]]]. split; [split; auto|].
    + intros d Hd. destruct (N.eq_dec d D) as [->|Hne].
      * apply orb_true_iff; left; apply N.eqb_eq; auto.
      * apply orb_true_iff; right; apply Nat.eqb_eq; auto.
    + exists R. split; [apply HR|]. apply main_rack_ok_iff; auto. apply HR.
Qed.

Lemma sub_placement_iff : forall p l, sub_placement p l = true <-> SubP p l.
Proof.
  intros p l. unfold sub_placement, SubP.
  rewrite !andb_true_iff, nodup_nodes_iff, Nat.leb_le. split.
  - intros [[H1 H2] H3]. split; auto. split; auto.
    destruct l as [|a l]; [left; auto|right].
    apply existsb_exists in H3. destruct H3 as [D [HD H3]]. exists D. apply main_dc_ok_iff; auto.
  - intros [H1 [H2 H3]]. split; auto.
    destruct l as [|a l]; auto. destruct H3 as [H3|[D H3]]; [discriminate|].
    apply existsb_exists. exists D. split; [apply H3|]. apply main_dc_ok_iff; auto. apply H3.
Qed.

Lemma filter_perm : forall {A} (g : A -> bool) l l', Permutation l l' -> Permutation (filter g l) (filter g l').
Proof.
  intros A g l l' H. induction H as [|x l l' H IH|x y l|l l' l'' H1 IH1 H2 IH2]; simpl.
  - constructor.
  - destruct (g x); auto.
  - destruct (g x), (g y); auto. constructor.
  - eapply perm_trans; eauto.
Qed.

Lemma cnt_dc_perm : forall l l' d, Permutation l l' -> cnt_dc l d = cnt_dc l' d.
Proof. intros. unfold cnt_dc. apply Permutation_count_occ. apply Permutation_map; auto. Qed.
Lemma cnt_rack_perm : forall l l' k, Permutation l l' -> cnt_rack l k = cnt_rack l' k.
Proof. intros. unfold cnt_rack. apply Permutation_count_occ. apply Permutation_map; auto. Qed.
Lemma dcs_perm : forall l l', Permutation l l' -> Permutation (dcs l) (dcs l').
Proof. intros. unfold dcs. apply nodup_perm. apply Permutation_map; auto. Qed.
Lemma racks_perm : forall l l', Permutation l l' -> Permutation (racks l) (racks l').
Proof. intros. unfold racks. apply nodup_perm. apply Permutation_map; auto. Qed.

(* the spec does not depend on the order of the replica list *)
Lemma MainRack_perm : forall p a b R, Permutation a b -> MainRack p a R -> MainRack p b R.
Proof.
  intros p a b R HP [H1 [H2 H3]]. pose proof (racks_perm _ _ HP) as HR.
  split; [eapply Permutation_in; eauto|]. split.
  - intros k Hk Hne. rewrite <- (cnt_rack_perm a b); auto. apply H2; auto.
    eapply Permutation_in; [apply Permutation_sym|]; eauto.
  - rewrite <- (cnt_rack_perm a b); auto.
Qed.

Lemma MainDc_perm : forall p l l' D, Permutation l l' -> MainDc p l D -> MainDc p l' D.
Proof.
  intros p l l' D HP [H1 [H2 [H3 [R H4]]]]. pose proof (dcs_perm _ _ HP) as HD.
  assert (Permutation (in_dc D l) (in_dc D l')) as HI by (apply filter_perm; auto).
  split; [eapply Permutation_in; eauto|]. split; [|split].
  - intros d Hd Hne. rewrite <- (cnt_dc_perm l l'); auto. apply H2; auto.
    eapply Permutation_in; [apply Permutation_sym|]; eauto.
  - rewrite <- (Permutation_length (racks_perm _ _ HI)). auto.
  - exists R. eapply MainRack_perm; eauto.
Qed.

Lemma SubP_perm : forall p l l', Permutation l l' -> SubP p l -> SubP p l'.
Proof.
  intros p l l' HP [H1 [H2 H3]]. split; [|split].
  - eapply Permutation_NoDup; [apply Permutation_map; eauto|auto].
  - rewrite <- (Permutation_length (dcs_perm _ _ HP)). auto.
  - destruct H3 as [->|[D HD]].
    + left. apply Permutation_nil; auto.
    + right. exists D. eapply MainDc_perm; eauto.
Qed.

Lemma valid_placement_perm : forall p l l', Permutation l l' ->
  valid_placement p l = true -> valid_placement p l' = true.
Proof.
  intros p l l' HP H. unfold valid_placement in *. apply andb_true_iff in H. destruct H as [H1 H2].
  apply andb_true_iff. split.
  - apply sub_placement_iff. eapply SubP_perm; eauto. apply sub_placement_iff; auto.
  - rewrite <- (Permutation_length HP). auto.
Qed.

Lemma in_dcs : forall l d, In d (dcs l) <-> exists r, In r l /\ l_dc r = d.
Proof.
  intros. unfold dcs. rewrite nodup_In, in_map_iff. split; intros [r [H1 H2]]; exists r; auto.
Qed.
Lemma in_racks : forall l k, In k (racks l) <-> exists r, In r l /\ rack_of r = k.
Proof.
  intros. unfold racks. rewrite nodup_In, in_map_iff. split; intros [r [H1 H2]]; exists r; auto.
Qed.

Lemma length_in_dc : forall l D, length (in_dc D l) = cnt_dc l D.
Proof.
  induction l as [|a l IH]; intros D; simpl; auto.
  unfold cnt_dc in *. simpl. destruct (N.eqb_spec (l_dc a) D) as [E|E].
  - simpl. rewrite IH. destruct (N.eq_dec (l_dc a) D); [auto|congruence].
  - rewrite IH. destruct (N.eq_dec (l_dc a) D); [congruence|auto].
Qed.

Lemma len_sum_dcs : forall l, length l = list_sum (map (cnt_dc l) (dcs l)).
Proof. intros l. rewrite <- (map_length l_dc l). apply (len_sum_nodup N.eq_dec). Qed.
Lemma len_sum_racks : forall l, length l = list_sum (map (cnt_rack l) (racks l)).
Proof. intros l. rewrite <- (map_length rack_of l). apply (len_sum_nodup rack_dec). Qed.

Lemma cnt_rack_filter_le : forall (g : loc -> bool) l k, cnt_rack (filter g l) k <= cnt_rack l k.
Proof.
  intros g l k. unfold cnt_rack. induction l as [|a l IH]; [simpl; auto|].
  cbn [filter]. destruct (g a); cbn [map count_occ]; destruct (rack_dec (rack_of a) k); lia.
Qed.

Lemma in_in_dc : forall l D r, In r (in_dc D l) <-> In r l /\ l_dc r = D.
Proof. intros. unfold in_dc. rewrite filter_In, N.eqb_eq. tauto. Qed.

Lemma list_sum_const : forall {A} (ks : list A) f c, (forall k, In k ks -> f k = c) ->
  list_sum (map f ks) = length ks * c.
Proof.
  induction ks as [|k ks IH]; simpl; intros f c H; [reflexivity|].
  rewrite (H k (or_introl eq_refl)), (IH f c); [reflexivity|]. intros; apply H; right; assumption.
Qed.

Lemma find_key_some : forall {A} (key : A -> N) k l x,
  find (fun y => (key y =? k)%N) l = Some x -> In x l /\ key x = k.
Proof. intros A key k l x H. apply find_some in H. destruct H as [H1 H2]. apply N.eqb_eq in H2. auto. Qed.

Lemma find_key_unique : forall {A} (key : A -> N) l x, NoDup (map key l) -> In x l ->
  find (fun y => (key y =? key x)%N) l = Some x.
Proof.
  induction l as [|a l IH]; intros x Hnd Hin; [destruct Hin|].
  cbn [map] in Hnd. inversion Hnd as [|? ? Hn Hd]; subst. cbn [find].
  destruct (N.eqb_spec (key a) (key x)) as [E|E].
  - destruct Hin as [->|Hin]; [reflexivity|]. exfalso. apply Hn. rewrite E. apply in_map; assumption.
  - destruct Hin as [->|Hin]; [congruence|]. apply IH; assumption.
Qed.

(* remove_vid, remove_N and remove_at of the model all drop the first element with a given key *)
Fixpoint remove_key {A} (key : A -> N) (k : N) (l : list A) : list A :=
  match l with [] => [] | x :: l' => if (key x =? k)%N then l' else x :: remove_key key k l' end.

Lemma remove_key_incl : forall {A} (key : A -> N) k l x, In x (remove_key key k l) -> In x l.
Proof.
  induction l as [|a l IH]; intros x Hin; [destruct Hin|].
  cbn [remove_key] in Hin. destruct (key a =? k)%N; [right; auto|].
  destruct Hin as [<-|Hin]; [left; auto|right; auto].
Qed.

Lemma remove_key_length : forall {A} (key : A -> N) k l, In k (map key l) ->
  S (length (remove_key key k l)) = length l.
Proof.
  induction l as [|a l IH]; intros Hin; [destruct Hin|].
  cbn [remove_key]. destruct (N.eqb_spec (key a) k) as [E|E]; [reflexivity|].
  cbn [length]. f_equal. apply IH. destruct Hin as [Hin|Hin]; [contradiction|auto].
Qed.

Lemma remove_key_nodup : forall {A} (key : A -> N) k l, NoDup (map key l) ->
  NoDup (map key (remove_key key k l)) /\ ~ In k (map key (remove_key key k l)).
Proof.
  induction l as [|a l IH]; intros Hnd; [split; [constructor|intros []]|].
  cbn [map] in Hnd. inversion Hnd as [|? ? Hn Hd]; subst. cbn [remove_key].
  destruct (N.eqb_spec (key a) k) as [E|E].
  - subst. auto.
  - destruct (IH Hd) as [H1 H2]. cbn [map]. split.
    + constructor; auto. intro Hi. apply Hn. apply in_map_iff in Hi. destruct Hi as [x [Ex Hx]].
      rewrite <- Ex. apply in_map. eapply remove_key_incl; eauto.
    + intros [Hx|Hx]; auto.
Qed.

(* the converse of [sum_eq_len_all_one] / [sum_eq_len_plus_one]: all counts but one are 1 *)
Lemma sum_one_except : forall {A} (ks : list A) (f : A -> nat) D, NoDup ks -> In D ks ->
  (forall d, In d ks -> d <> D -> f d = 1) -> list_sum (map f ks) + 1 = f D + length ks.
Proof.
  induction ks as [|k ks IH]; intros f D Hnd HD H1; [destruct HD|].
  inversion Hnd as [|? ? Hn Hd]; subst. cbn [map length].
  change (list_sum (f k :: map f ks)) with (f k + list_sum (map f ks)).
  destruct HD as [->|HD].
  - rewrite (list_sum_const ks f 1); [lia|].
    intros d Hd'. apply H1; [right; auto|]. intro; subst; auto.
  - assert (f k = 1) as Hk by (apply H1; [left; auto|intro; subst; auto]).
    assert (list_sum (map f ks) + 1 = f D + length ks) as Hi.
    { apply IH; auto. intros d Hd' Hne. apply H1; auto. right; auto. }
    lia.
Qed.

Lemma singleton_len1 : forall {A} (l : list A), length l = 1 -> exists x, l = [x].
Proof. intros A [|x [|y l]] H; simpl in H; try lia. exists x; auto. Qed.

(* isGoodMove's three counts imply the layout is valid (unless x>=1, y>=2) *)
Lemma good_counts_SubP : forall p l,
  NoDup (map l_node l) -> l <> [] ->
  length (dcs l) = rp_dc p + 1 ->
  length (racks l) = rp_rack p + rp_dc p + 1 ->
  (forall k, In k (racks l) -> cnt_rack l k = rp_same p + 1) ->
  length l = copy_count p ->
  rp_trig p = false ->
  SubP p l.
Proof.
  intros p l Hnd Hne Hdc Hrk Hcnt Hlen Htr.
  destruct p as [x y z]. unfold copy_count, rp_trig, SubP, MainDc, MainRack in *. cbn [rp_dc rp_rack rp_same] in *.
  assert (length l = (y + x + 1) * (z + 1)) as Hprod.
  { pose proof (len_sum_racks l) as Hs.
    rewrite (list_sum_const (racks l) _ (z + 1)) in Hs.
    - rewrite Hrk in Hs. exact Hs.
    - intros k Hk. apply Hcnt; auto. }
  split; auto. split; [lia|]. right.
  (* x+y+1 racks of z+1 copies each, x+y+z+1 copies in all: (x+y) z = 0 *)
  assert (x + y = 0 \/ z = 0) as Hcase by nia.
  destruct Hcase as [Hxy|Hz].
  - (* 00z: one data center, one rack *)
    assert (x = 0) by lia. assert (y = 0) by lia. subst x y.
    destruct (singleton_len1 _ Hdc) as [D HD]. destruct (singleton_len1 _ Hrk) as [R HR].
    assert (in_dc D l = l) as HinD.
    { apply filter_all_true. intros r Hr. assert (In (l_dc r) (dcs l)) as Hi by (apply in_dcs; exists r; auto).
      rewrite HD in Hi. destruct Hi as [Hi|[]]. apply N.eqb_eq. auto. }
    exists D. split; [rewrite HD; left; auto|]. split.
    + intros d Hd Hne'. rewrite HD in Hd. destruct Hd as [Hd|[]]; congruence.
    + rewrite HinD, Hrk. split; [lia|]. exists R. split; [rewrite HR; left; auto|]. split.
      * intros k Hk Hne'. rewrite HR in Hk. destruct Hk as [Hk|[]]; congruence.
      * rewrite Hcnt; [lia|]. rewrite HR; left; auto.
  - (* xy0: every rack holds one copy *)
    subst z.
    assert (exists D, In D (dcs l) /\ (forall d, In d (dcs l) -> d <> D -> cnt_dc l d = 1) /\ cnt_dc l D <= y + 1)
      as [D [HD [Ho HcD]]].
    { pose proof (len_sum_dcs l) as Hs.
      assert (forall d, In d (dcs l) -> cnt_dc l d >= 1) as Hge by (intros d Hd; apply (count_pos N.eq_dec); auto).
      destruct (Nat.eq_dec x 0) as [Hx|Hx].
      - subst x. destruct (singleton_len1 _ Hdc) as [D HD]. exists D.
        split; [rewrite HD; left; auto|]. split.
        + intros d Hd Hne'. rewrite HD in Hd. destruct Hd as [Hd|[]]; congruence.
        + rewrite HD in Hs. simpl in Hs. lia.
      - assert (y <= 1) as Hy.
        { destruct (Nat.leb_spec 1 x); destruct (Nat.leb_spec 2 y); simpl in Htr; try discriminate; lia. }
        destruct (Nat.eq_dec y 0) as [Hy0|Hy0].
        + subst y. destruct (dcs l) as [|D ds] eqn:HE; [simpl in Hdc; lia|]. exists D.
          assert (forall d, In d (D :: ds) -> cnt_dc l d = 1) as Hall.
          { apply (sum_eq_len_all_one (D :: ds)); auto. lia. }
          split; [left; auto|]. split; [intros; apply Hall; auto|]. rewrite Hall; [lia|left; auto].
        + assert (y = 1) by lia. subst y.
          destruct (sum_eq_len_plus_one (dcs l) (cnt_dc l)) as [D [H1 [H2 H3]]]; auto.
          { apply NoDup_nodup. } { lia. }
          exists D. split; auto. split; auto. lia. }
    exists D. split; auto. split; auto.
    assert (length (in_dc D l) <= y + 1) as HlenD by (rewrite length_in_dc; auto).
    split.
    + eapply Nat.le_trans; [apply nodup_len_le|]. rewrite map_length. auto.
    + assert (forall k, In k (racks (in_dc D l)) -> cnt_rack (in_dc D l) k = 1) as Hone.
      { intros k Hk. assert (cnt_rack (in_dc D l) k >= 1) by (apply (count_pos rack_dec); auto).
        assert (cnt_rack (in_dc D l) k <= cnt_rack l k) by apply cnt_rack_filter_le.
        assert (In k (racks l)) as Hkl.
        { apply in_racks in Hk. destruct Hk as [r [Hr Hk]]. apply in_in_dc in Hr. apply in_racks. exists r; tauto. }
        rewrite (Hcnt k Hkl) in *. lia. }
      destruct (racks (in_dc D l)) as [|R rs] eqn:HE.
      * exfalso. apply in_dcs in HD. destruct HD as [r [Hr HrD]].
        assert (In (rack_of r) (racks (in_dc D l))) as Hi by (apply in_racks; exists r; split; auto; apply in_in_dc; auto).
        rewrite HE in Hi. destruct Hi.
      * exists R. split; [left; auto|]. split; [intros; apply Hone; auto|]. rewrite Hone; [lia|left; auto].
Qed.
