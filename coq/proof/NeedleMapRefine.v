(* C05 proofs: CompactMap.Delete, and the refinement of the reference association
   list by every history of Set / Delete / Get. *)
From Coq Require Import List NArith ZArith Bool Lia Sorted Arith.
From Coq Require Import ZifyBool ZifyN ZifyNat.
From SW Require Import model.NeedleMap proof.NeedleMapSearch proof.NeedleMapSec proof.NeedleMapCm.
Import ListNotations.
Local Open Scope N_scope.

Lemma sec_keys_same : forall s s',
  s_start s' = s_start s -> s_end s' = s_end s ->
  map sk (s_values s') = map sk (s_values s) -> map sk (s_overflow s') = map sk (s_overflow s) ->
  sec_keys s -> sec_keys s'.
Proof.
  intros s s' Hs He Hv Ho K v Hin.
  assert (Hk : In (sk v) (map sk (s_values s ++ s_overflow s))).
  { rewrite map_app, <- Hv, <- Ho, <- map_app. apply in_map. assumption. }
  apply in_map_iff in Hk. destruct Hk as [v0 [E Hin0]]. destruct (K v0 Hin0) as [A B].
  rewrite Hs, He, <- E. lia.
Qed.

Lemma cm_delete_spec : forall batch cm key cm' ret,
  cm_inv batch cm -> key < two64 ->
  cm_delete batch cm key = (cm', ret) ->
  cm_inv batch cm' /\
  (forall k', k' < two64 ->
     cm_lookup batch cm' k' = if k' =? key then option_map neg_if_live (cm_lookup batch cm key)
                              else cm_lookup batch cm k') /\
  ret = match cm_lookup batch cm key with
        | Some v => if (0 <? ssz v)%Z then ssz v else 0%Z
        | None => 0%Z
        end.
Proof.
  intros batch cm key cm' ret Hinv Hk Hdel. unfold cm_delete in Hdel.
  destruct (locate batch cm key) as [x|] eqn:L.
  - destruct (locate_some batch cm key x Hinv Hk L) as [s [Hx [Hs [Hl [Hnext Hsub]]]]].
    rewrite (nth_error_nth cm x empty_section Hx) in *.
    destruct (sec_delete s key) as [s' r'] eqn:Sdel. injection Hdel as <- <-.
    pose proof (ci_wf _ _ Hinv _ _ Hx) as W.
    destruct (sec_delete_spec batch s key s' r' (sw_inv _ _ W) Sdel) as [I' [Hst [Hen [Hlen [Hlk [Hret [Kv Ko]]]]]]].
    rewrite Hsub, u32_small in Hlk, Hret by assumption.
    assert (W' : sec_wf batch s').
    { constructor; auto.
      - eapply sec_keys_same; eauto. apply (sw_keys _ _ W).
      - rewrite Hst, Hen. apply (sw_se _ _ W).
      - rewrite Hst, Hen. apply (sw_span _ _ W).
      - rewrite Hen. apply (sw_64 _ _ W). }
    assert (Hcur : cm_lookup batch cm key = sec_lookup s (key - s_start s)).
    { unfold cm_lookup. rewrite L. rewrite (nth_error_nth cm x empty_section Hx). reflexivity. }
    rewrite Hcur, Hret.
    destruct (replace_section batch cm key x s s' _ Hinv Hk L Hx W' Hst (or_introl Hen) Hlk) as [Hinv' Hlk'].
    split; [exact Hinv'|split; [exact Hlk'|reflexivity]].
  - injection Hdel as <- <-.
    assert (Hcur : cm_lookup batch cm key = None) by (unfold cm_lookup; rewrite L; reflexivity).
    split; [exact Hinv|]. split.
    + intros k' Hk'. destruct (N.eqb_spec k' key) as [->|]; [rewrite Hcur|]; reflexivity.
    + rewrite Hcur. reflexivity.
Qed.

Lemma ref_get_remove : forall r k k', ref_get (ref_remove r k) k' = if k' =? k then None else ref_get r k'.
Proof.
  induction r as [|[a v] r IH]; intros k k'; [destruct (k' =? k); reflexivity|].
  unfold ref_remove in *. cbn [filter fst ref_get].
  destruct (N.eqb_spec a k) as [->|Ha]; cbn [negb ref_get]; rewrite IH.
  - destruct (k' =? k); reflexivity.
  - destruct (N.eqb_spec k' a) as [->|]; [|reflexivity]. destruct (N.eqb_spec a k); [contradiction|reflexivity].
Qed.

Lemma ref_get_put : forall r k v k', ref_get (ref_put r k v) k' = if k' =? k then Some v else ref_get r k'.
Proof.
  intros r k v k'. unfold ref_put. cbn [ref_get]. rewrite ref_get_remove. destruct (k' =? k); reflexivity.
Qed.

Lemma ref_run_app : forall a r b,
  ref_run r (a ++ b) =
  (fst (ref_run r a) ++ fst (ref_run (snd (ref_run r a)) b), snd (ref_run (snd (ref_run r a)) b)).
Proof.
  induction a as [|o a IH]; intros r b.
  - cbn [app ref_run fst snd]. destruct (ref_run r b). reflexivity.
  - cbn [app ref_run]. destruct (ref_step r o) as [r' x]. rewrite IH.
    destruct (ref_run r' a) as [rs fin]. cbn [fst snd].
    destruct (ref_run fin b). reflexivity.
Qed.

Definition val (v : sval) : N * Z := (sv_off v, ssz v).
Definition refines (batch : N) (cm : cmap) (r : rmap) : Prop :=
  cm_inv batch cm /\ forall k, k < two64 -> option_map val (cm_lookup batch cm k) = ref_get r k.
Definition op_key (o : op) : N := match o with Put k _ _ => k | Del k _ => k | Get k => k end.
Definition keys_ok (ops : list op) : Prop := Forall (fun o => op_key o < two64) ops.

Lemma refines_nil : forall batch, refines batch [] [].
Proof.
  intros. split; [apply cm_inv_nil|]. intros k _. reflexivity.
Qed.

Lemma ref_step_put_fst : forall r k off sz, fst (ref_step r (Put k off sz)) = ref_put r k (off, sz).
Proof. intros. cbn [ref_step]. destruct (ref_get r k) as [[ro rs]|]; reflexivity. Qed.

Lemma ref_step_put_snd : forall r k off sz,
  snd (ref_step r (Put k off sz)) =
  match ref_get r k with Some (ro, rs) => RSet ro rs | None => RSet 0 0%Z end.
Proof. intros. cbn [ref_step]. destruct (ref_get r k) as [[ro rs]|]; reflexivity. Qed.

(* Delete negates a live size *)
Definition neg_live (v : N * Z) : N * Z := if (0 <? snd v)%Z then (fst v, (- snd v)%Z) else v.

Lemma ref_step_del_get : forall r k off k',
  ref_get (fst (ref_step r (Del k off))) k' =
  if k' =? k then option_map neg_live (ref_get r k) else ref_get r k'.
Proof.
  intros r k off k'. cbn [ref_step]. unfold neg_live.
  destruct (ref_get r k) as [[ro rs]|] eqn:G; cbn [option_map fst snd];
    [destruct (0 <? rs)%Z; cbn [fst]; rewrite ?ref_get_put|];
    destruct (N.eqb_spec k' k) as [->|]; auto.
Qed.

Lemma ref_step_del_snd : forall r k off,
  snd (ref_step r (Del k off)) =
  RDel (match ref_get r k with Some (_, sz) => if (0 <? sz)%Z then sz else 0%Z | None => 0%Z end).
Proof. intros. cbn [ref_step]. destruct (ref_get r k) as [[ro rs]|]; [destruct (0 <? rs)%Z|]; reflexivity. Qed.

Lemma val_neg : forall v, val (neg_if_live v) = neg_live (val v).
Proof. intros v. unfold neg_if_live, neg_live, val. cbn [fst snd]. destruct (0 <? ssz v)%Z; reflexivity. Qed.

Lemma step_refines : forall batch cm r o, refines batch cm r -> op_key o < two64 ->
  refines batch (fst (cm_step batch cm o)) (fst (ref_step r o)) /\
  snd (cm_step batch cm o) = snd (ref_step r o).
Proof.
  intros batch cm r o [Hinv Hrel] Hk. destruct o as [k off sz|k off|k]; simpl in Hk.
  - cbn [cm_step]. rewrite ref_step_put_fst, ref_step_put_snd.
    destruct (cm_set batch cm k off sz) as [[cm' oo] os] eqn:E.
    destruct (cm_set_spec batch cm k off sz cm' oo os Hinv Hk E) as [Hinv' [[v0 [Ho [Hsz Hlk]]] Hold]].
    cbn [fst snd]. split; [split; [exact Hinv'|]|].
    + intros k' Hk'. rewrite Hlk by assumption. rewrite ref_get_put.
      destruct (N.eqb_spec k' k); [simpl; unfold val; rewrite Ho, Hsz; reflexivity|apply Hrel; assumption].
    + rewrite <- (Hrel k Hk). destruct (cm_lookup batch cm k) as [o|]; injection Hold as -> ->; reflexivity.
  - cbn [cm_step]. rewrite ref_step_del_snd.
    destruct (cm_delete batch cm k) as [cm' ret] eqn:E.
    destruct (cm_delete_spec batch cm k cm' ret Hinv Hk E) as [Hinv' [Hlk Hret]].
    cbn [fst snd]. split; [split; [exact Hinv'|]|].
    + intros k' Hk'. rewrite Hlk by assumption. rewrite ref_step_del_get.
      destruct (N.eqb_spec k' k) as [->|]; [|apply Hrel; assumption].
      rewrite <- (Hrel k Hk). destruct (cm_lookup batch cm k) as [v|]; [|reflexivity].
      cbn [option_map]. rewrite val_neg. reflexivity.
    + rewrite Hret, <- (Hrel k Hk). destruct (cm_lookup batch cm k); reflexivity.
  - cbn [cm_step ref_step fst snd]. split; [split; assumption|].
    rewrite (cm_get_spec batch cm k Hinv Hk). pose proof (Hrel k Hk) as Rk.
    destruct (cm_lookup batch cm k) as [v|]; simpl in Rk; rewrite <- Rk; reflexivity.
Qed.

Lemma run_refines : forall batch ops cm r, refines batch cm r -> keys_ok ops ->
  refines batch (snd (cm_run batch cm ops)) (snd (ref_run r ops)) /\
  fst (cm_run batch cm ops) = fst (ref_run r ops).
Proof.
  intros batch ops. induction ops as [|o ops IH]; intros cm r Href Hk; [split; [exact Href|reflexivity]|].
  inversion Hk as [|? ? Hk1 Hk2]; subst.
  destruct (step_refines batch cm r o Href Hk1) as [Hnext Hres].
  cbn [cm_run ref_run].
  destruct (cm_step batch cm o) as [cm' x] eqn:E1. destruct (ref_step r o) as [r' y] eqn:E2.
  cbn [fst snd] in *.
  destruct (IH cm' r' Hnext Hk2) as [Hfin Hrs].
  destruct (cm_run batch cm' ops) as [rs fin]. destruct (ref_run r' ops) as [rs' fin'].
  cbn [fst snd] in *. split; [exact Hfin|]. rewrite Hres, Hrs. reflexivity.
Qed.

Theorem reachable_inv : forall batch ops, keys_ok ops -> cm_inv batch (snd (cm_run batch [] ops)).
Proof.
  intros batch ops Hk. destruct (run_refines batch ops [] [] (refines_nil batch) Hk) as [[H _] _]. exact H.
Qed.

Theorem lookup_refines : forall batch ops key, keys_ok ops -> key < two64 ->
  cm_get batch (snd (cm_run batch [] ops)) key =
  match ref_get (snd (ref_run [] ops)) key with Some (off, sz) => Some (key, off, sz) | None => None end.
Proof.
  intros batch ops key Hk Hkey.
  destruct (run_refines batch ops [] [] (refines_nil batch) Hk) as [[Hinv Hrel] _].
  rewrite (cm_get_spec batch _ key Hinv Hkey). rewrite <- (Hrel key Hkey).
  destruct (cm_lookup batch (snd (cm_run batch [] ops)) key); reflexivity.
Qed.

(* the old values of Set, the sizes of Delete and the answers of Get are the reference's *)
Theorem results_refine : forall batch ops, keys_ok ops ->
  fst (cm_run batch [] ops) = fst (ref_run [] ops).
Proof.
  intros batch ops Hk.
  destruct (run_refines batch ops [] [] (refines_nil batch) Hk) as [_ H]. exact H.
Qed.
