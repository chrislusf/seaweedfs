(* Proofs about model/Vacuum.v (C14).
   [round_log_shape]: a round's log is one of four shapes (nothing / checks / checks +
   compacts + commits / checks + compacts + cleanups); clause 2 is read off it.
   [round_of_spec] + [fold_av_spec]: the layout after an event-free round in closed form;
   with the C11 invariant [Inv] this gives [writable_after_on_inv], from which the partial
   theorem and the exactness of the three triggers are case distinctions. *)
From Coq Require Import List NArith Bool Lia.
From SW Require Import model.TopoLayout model.Vacuum proof.TopoLayoutProofs.
Import ListNotations.
Local Open Scope N_scope.

Lemma log_of_app : forall l1 l2 v n, log_of (l1 ++ l2) v n = log_of l1 v n ++ log_of l2 v n.
Proof. intros; unfold log_of. now rewrite filter_app, map_app. Qed.

Lemma got_app : forall l1 l2 v n r, got (l1 ++ l2) v n r = got l1 v n r || got l2 v n r.
Proof. intros; unfold got. now rewrite log_of_app, existsb_app. Qed.

(* the RPCs of one phase: replica n gets r exactly when it is in the phase's list *)
Lemma got_phase : forall v v' r r' ns n,
  got (map (mk v r) ns) v' n r' = (v =? v') && rpc_eqb r' r && mem n ns.
Proof.
  intros v v' r r' ns n; unfold got, log_of. induction ns as [|x ns IH]; simpl.
  - now rewrite andb_false_r.
  - destruct (v =? v') eqn:Ev; simpl in *.
    + destruct (x =? n) eqn:En; simpl.
      * rewrite IH. rewrite (N.eqb_sym n x), En. destruct (rpc_eqb r' r); reflexivity.
      * rewrite IH. rewrite (N.eqb_sym n x), En. reflexivity.
    + exact IH.
Qed.

Lemma rpc_eqb_refl : forall r, rpc_eqb r r = true.
Proof. destruct r; reflexivity. Qed.

Lemma commit_calls_sub : forall scs v vac n, In n (fst (commit_calls scs v vac)) -> In n vac.
Proof.
  induction vac as [|x vac IH]; simpl; intros n H; [exact H|].
  destruct (is_cm_hang (sget scs v x)).
  - simpl in H. destruct H as [->|[]]. now left.
  - destruct (commit_calls scs v vac) as [cs h]; simpl in *. destruct H as [->|H]; [now left|right; auto].
Qed.

Lemma commit_calls_nohang : forall scs v vac, snd (commit_calls scs v vac) = false ->
  fst (commit_calls scs v vac) = vac.
Proof.
  induction vac as [|x vac IH]; simpl; intros H; [reflexivity|].
  destruct (is_cm_hang (sget scs v x)); [discriminate|].
  destruct (commit_calls scs v vac) as [cs h]; simpl in *. now rewrite IH.
Qed.

Lemma round_log_shape : forall c s scs mid v locs,
  let r := vacuum_round c s scs mid v locs in
  let vac := fst (check_phase scs v locs) in
  r_log r = [] \/ r_log r = check_log scs v locs \/
  (compact_ok scs v vac = true /\
   r_log r = check_log scs v locs ++ map (mk v RCompact) vac ++ map (mk v RCommit) (fst (commit_calls scs v vac))) \/
  (compact_ok scs v vac = false /\
   r_log r = check_log scs v locs ++ map (mk v RCompact) vac ++ map (mk v RCleanup) vac).
Proof.
  intros c s scs mid v locs; cbv zeta; unfold vacuum_round.
  destruct (bs_true v (l_ro (s_lay s))); [now left|].
  destruct (check_phase scs v locs) as [vac need]; cbn [fst].
  destruct need; [|right; now left].
  destruct (compact_ok scs v vac) eqn:Eok.
  - destruct (commit_calls scs v vac) as [called hung]; cbn [fst].
    right; right; left; split; [reflexivity|].
    destruct hung; [reflexivity|]. destruct (commit_ok scs v vac); [|reflexivity].
    destruct (detached _ _ _); reflexivity.
  - right; right; right; split; reflexivity.
Qed.

(* the check phase sends only check RPCs *)
Lemma got_check_log : forall scs v locs v' n r, r <> RCheck -> got (check_log scs v locs) v' n r = false.
Proof.
  intros scs v locs v' n r Hr; unfold check_log. rewrite got_phase.
  destruct r; try congruence; simpl; now rewrite andb_false_r.
Qed.

(* clause 2: commit only after every compaction succeeded *)
Lemma commit_only_after_compact : forall c s scs mid v locs n,
  let r := vacuum_round c s scs mid v locs in
  got (r_log r) v n RCommit = true ->
  let vac := fst (check_phase scs v locs) in
  In n vac /\ compact_ok scs v vac = true /\ is_cp_ok (sget scs v n) = true /\
  got (r_log r) v n RCompact = true /\ got (r_log r) v n RCleanup = false.
Proof.
  intros c s scs mid v locs n r H vac.
  pose proof (round_log_shape c s scs mid v locs) as S. cbv zeta in S. fold r in S. fold vac in S.
  destruct S as [E|[E|[[Hok E]|[Hok E]]]]; rewrite E in *.
  - discriminate.
  - rewrite got_check_log in H by discriminate. discriminate.
  - rewrite !got_app, got_check_log, !got_phase, N.eqb_refl in H by discriminate. simpl in H.
    assert (Hin : In n vac) by (apply commit_calls_sub with scs v; now apply mem_In).
    repeat split; auto.
    + unfold compact_ok in Hok. rewrite forallb_forall in Hok. now apply Hok.
    + rewrite !got_app, !got_phase, N.eqb_refl. apply mem_In in Hin. rewrite Hin. simpl. apply orb_true_r.
    + rewrite !got_app, got_check_log, !got_phase by discriminate. simpl. now rewrite !andb_false_r.
  - rewrite !got_app, got_check_log, !got_phase in H by discriminate. simpl in H.
    rewrite !andb_false_r in H. discriminate.
Qed.

Lemma got_other_vid : forall c s scs mid v v' locs n r, v <> v' ->
  got (r_log (vacuum_round c s scs mid v locs)) v' n r = false.
Proof.
  intros c s scs mid v v' locs n r Hne. apply N.eqb_neq in Hne.
  pose proof (round_log_shape c s scs mid v locs) as S. cbv zeta in S.
  destruct S as [E|[E|[[_ E]|[_ E]]]]; rewrite E; unfold check_log;
    now rewrite ?got_app, ?got_phase, ?Hne.
Qed.

(* the log of a whole pass over a layout: the entries for vid v come from v's rounds;
   hence clause 2 for a pass *)
Lemma layout_commit_only_after_compact : forall c scs mids s v n,
  got (q_log (vacuum_layout c scs mids s)) v n RCommit = true ->
  exists locs s', In (v, locs) (l_loc (s_lay s)) /\
    let r := vacuum_round c s' scs (mids v) v locs in
    let vac := fst (check_phase scs v locs) in
    In n vac /\ compact_ok scs v vac = true /\ is_cp_ok (sget scs v n) = true /\
    got (r_log r) v n RCompact = true /\ got (r_log r) v n RCleanup = false.
Proof.
  intros c scs mids s v n. unfold vacuum_layout.
  assert (G : forall ps q0,
    got (q_log (fold_left (round_step c scs mids) ps q0)) v n RCommit = true ->
    got (q_log q0) v n RCommit = true \/
    exists locs s', In (v, locs) ps /\ got (r_log (vacuum_round c s' scs (mids v) v locs)) v n RCommit = true).
  { induction ps as [|[v0 locs0] ps IH]; intros q0 H; simpl in *; [now left|].
    destruct (IH _ H) as [H1|(locs & s' & Hin & H1)].
    - unfold round_step in H1. destruct (q_hung q0 || q_panic q0); [now left|].
      cbn [q_log fst snd] in H1. rewrite got_app in H1. apply orb_true_iff in H1.
      destruct H1 as [H1|H1]; [now left|].
      right. destruct (N.eq_dec v0 v) as [->|Hne].
      + exists locs0, (q_st q0); split; [now left|exact H1].
      + rewrite got_other_vid in H1 by assumption. discriminate.
    - right. exists locs, s'; split; [now right|exact H1]. }
  intros H. destruct (G _ _ H) as [H1|(locs & s' & Hin & H1)]; [discriminate|].
  exists locs, s'; split; [exact Hin|]. now apply commit_only_after_compact.
Qed.

(* clause 1 (replicas keep the same live content), given C04 *)
Section Content.
  Variables content live_t : Type.
  Variable live : content -> live_t.           (* the live needles of a volume's files *)
  Variable compacted : content -> content.      (* the files Compact2 + CommitCompact leave *)
  (* C04: compaction preserves the live content *)
  Hypothesis compact_preserves_live : forall x, live (compacted x) = live x.

  (* replica n swapped in the compacted files iff it received a commit that succeeded *)
  Definition committed (log : list entry) (scs : scripts) (v n : N) : bool :=
    got log v n RCommit && is_cm_ok (sget scs v n).
  Definition content_after (log : list entry) (scs : scripts) (v : N) (before : N -> content) (n : N) : content :=
    if committed log scs v n then compacted (before n) else before n.

  Lemma same_content : forall log scs v before n m,
    live (before n) = live (before m) ->
    live (content_after log scs v before n) = live (content_after log scs v before m).
  Proof.
    intros log scs v before n m H; unfold content_after.
    destruct (committed log scs v n), (committed log scs v m); now rewrite ?compact_preserves_live.
  Qed.

  (* the same for the log of a round, whatever the state, the scripts and the events;
     and a replica whose files are swapped had a successful compaction *)
  Lemma same_content_round : forall c s scs mid v locs before n m,
    let log := r_log (vacuum_round c s scs mid v locs) in
    live (before n) = live (before m) ->
    live (content_after log scs v before n) = live (content_after log scs v before m) /\
    (committed log scs v n = true -> is_cp_ok (sget scs v n) = true /\ got log v n RCleanup = false).
  Proof.
    intros c s scs mid v locs before n m log H; split; [now apply same_content|].
    unfold committed. intros Hc. apply andb_true_iff in Hc. destruct Hc as [Hc _].
    pose proof (commit_only_after_compact c s scs mid v locs n Hc) as K. cbv zeta in K. tauto.
  Qed.
End Content.

Lemma forallb_same_members : forall {A} (f : A -> bool) l1 l2,
  (forall x, In x l1 <-> In x l2) -> forallb f l1 = forallb f l2.
Proof.
  intros A f l1 l2 H. apply eq_true_iff_eq. rewrite !forallb_forall.
  split; intros K x Hx; apply K, H, Hx.
Qed.

Lemma crit_loc_crit : forall c s v, Inv c s -> crit_loc c (s_nodes s) (s_lay s) v = crit c (s_nodes s) v.
Proof.
  intros c s v HI. unfold crit_loc, crit. rewrite (inv_lookup_len c s v HI). f_equal.
  apply forallb_same_members. intros n. destruct HI as [_ Hns Hloc _].
  rewrite (Hloc v n). symmetry. now apply holders_spec.
Qed.

(* SetVolumeAvailable(n, v, ro) on a replica the layout lists: only the writables can
   change, and v enters them when the call is not read-only, the registered info of n
   is not read-only and the copy count fits *)
Lemma set_available_spec : forall c ns n v ro l, In n (loc l v) ->
  let l' := set_available c ns n v ro l in
  loc l' v = loc l v /\ l_ro l' = l_ro l /\ l_os l' = l_os l /\
  mem v (l_writ l') = mem v (l_writ l) || (negb ro && replica_rw ns v n && enough c (nlen (loc l v))).
Proof.
  intros c ns n v ro l Hin; cbv zeta. unfold set_available, replica_rw.
  destruct (ginfo ns n v) as [i|]; [|now rewrite andb_false_r, orb_false_r].
  rewrite (loc_In_aget l v n Hin).
  assert (Hl : lset n (loc l v) = loc l v) by (unfold lset; apply mem_In in Hin; now rewrite Hin).
  rewrite Hl. set (l1 := with_loc _ l).
  assert (H1 : loc l1 v = loc l v) by (unfold loc at 1; simpl; now rewrite aget_aset_eq).
  destruct (vi_ro i), ro; simpl; rewrite ?andb_false_r, ?orb_false_r; auto. rewrite H1.
  destruct (enough c (nlen (loc l v))); [|now rewrite orb_false_r].
  unfold set_writable. change (l_writ l1) with (l_writ l).
  destruct (mem v (l_writ l)) eqn:Em; simpl; [auto|]. rewrite mem_snoc, N.eqb_refl, orb_true_r. auto.
Qed.

Definition fold_av (c : cfg) (ns : nodes) (v : N) (ro : bool) (vac : list N) (l : layout) : layout :=
  fold_left (fun l' n => set_available c ns n v ro l') vac l.

Lemma fold_av_spec : forall c ns v ro vac l, (forall n, In n vac -> In n (loc l v)) ->
  let l' := fold_av c ns v ro vac l in
  loc l' v = loc l v /\ l_ro l' = l_ro l /\ l_os l' = l_os l /\
  mem v (l_writ l') =
    mem v (l_writ l) || (negb ro && enough c (nlen (loc l v)) && existsb (replica_rw ns v) vac).
Proof.
  unfold fold_av. induction vac as [|n vac IH]; intros l H; simpl.
  - now rewrite andb_false_r, orb_false_r.
  - destruct (set_available_spec c ns n v ro l (H n (or_introl eq_refl))) as (A & B & C & D).
    destruct (IH (set_available c ns n v ro l)) as (A' & B' & C' & D').
    { intros m Hm. rewrite A. apply H; now right. }
    rewrite A', B', C', D', D, A. repeat split; auto.
    destruct (mem v (l_writ l)), ro, (replica_rw ns v n), (enough c (nlen (loc l v))); reflexivity.
Qed.

(* no panic while the replicas are in the layout's list for v *)
Lemma fold_set_av_ok : forall c held v ro vac l, (forall n, In n vac -> In n (loc l v)) ->
  fold_left (set_av c held v ro) vac (l, false) = (fold_av c held v ro vac l, false).
Proof.
  unfold fold_av. induction vac as [|n vac IH]; intros l H; simpl; [reflexivity|].
  assert (Hn : In n (loc l v)) by (apply H; now left).
  replace (set_av c held v ro (l, false) n) with (set_available c held n v ro l, false).
  - apply IH. intros m Hm. rewrite (proj1 (set_available_spec c held n v ro l Hn)). apply H; now right.
  - unfold set_av, set_available; cbn [fst snd]. rewrite (loc_In_aget l v n Hn). now destruct (ginfo held n v).
Qed.

Definition round_of (c : cfg) (s : state) (scs : scripts) (v : N) : round :=
  vacuum_round c s scs [] v (lookup s v).

Definition writable_after (c : cfg) (s : state) (scs : scripts) (v : N) : bool :=
  mem v (l_writ (r_lay (round_of c s scs v))).

Lemma vac_sub : forall scs v locs n, In n (fst (check_phase scs v locs)) -> In n locs.
Proof. intros scs v locs n H; unfold check_phase in H; simpl in H. apply filter_In in H. tauto. Qed.

(* a round that reaches the compact phase compacts at least one replica of the list *)
Lemma some_vac_rw : forall ns scs l v, reaches_compact scs l v = true ->
  (forall n, In n (loc l v) -> replica_rw ns v n = true) ->
  existsb (replica_rw ns v) (vac_of scs l v) = true.
Proof.
  intros ns scs l v Er H. unfold reaches_compact in Er. apply andb_true_iff in Er. destruct Er as [_ Er].
  unfold vac_of. pose proof (vac_sub scs v (loc l v)) as Hs. unfold check_phase in *; simpl in *.
  destruct (filter _ (loc l v)) as [|n vac]; [now rewrite andb_false_r in Er|].
  simpl. rewrite H; [reflexivity|]. apply Hs. now left.
Qed.

(* the layout after an event-free round, as a function of reaches_compact / compact_ok /
   hang / commit_ok, and the round's flags *)
Lemma round_of_spec : forall c s scs v,
  let l := s_lay s in let vac := vac_of scs l v in let r := round_of c s scs v in
  r_lay r =
    (if reaches_compact scs l v then
       if compact_ok scs v vac && negb (snd (commit_calls scs v vac)) && commit_ok scs v vac
       then fold_av c (s_nodes s) v (commit_ro scs v vac) vac (remove_writable v l)
       else remove_writable v l
     else l) /\
  r_hung r = trigger_hang scs l v /\ r_panic r = false /\ s_nodes (r_st r) = s_nodes s.
Proof.
  intros c s scs v; cbv zeta.
  unfold round_of, vacuum_round, trigger_hang, reaches_compact, vac_of, lookup, r_lay.
  destruct (bs_true v (l_ro (s_lay s))); [now repeat split|].
  destruct (check_phase scs v (loc (s_lay s) v)) as [vac need] eqn:Ec; cbn [fst snd negb andb].
  destruct need; [|now repeat split].
  destruct (compact_ok scs v vac); cbn [andb]; [|now repeat split].
  destruct (commit_calls scs v vac) as [called hung]; cbn [snd].
  destruct hung; cbn [negb andb]; [now repeat split|].
  destruct (commit_ok scs v vac); [|now repeat split].
  (* no master-side events: nothing is detached and the held nodes are the state's *)
  cbn [detached trace existsb run fold_left held_nodes dead_of with_lay s_nodes s_lay].
  rewrite fold_set_av_ok; [now repeat split|].
  intros n Hn. change (In n (loc (s_lay s) v)). apply (vac_sub scs v). now rewrite Ec.
Qed.

(* for the round's vid the location list, and the whole readonly / oversized sets, are as
   before (nothing at all changes when the compact phase is not reached) *)
Lemma round_of_frame : forall c s scs v,
  let r := round_of c s scs v in
  loc (r_lay r) v = loc (s_lay s) v /\ l_ro (r_lay r) = l_ro (s_lay s) /\ l_os (r_lay r) = l_os (s_lay s).
Proof.
  intros c s scs v; cbv zeta. rewrite (proj1 (round_of_spec c s scs v)).
  destruct (reaches_compact scs (s_lay s) v); [|now repeat split].
  destruct (_ && _ && _); [|now repeat split].
  destruct (fold_av_spec c (s_nodes s) v (commit_ro scs v (vac_of scs (s_lay s) v)) (vac_of scs (s_lay s) v)
              (remove_writable v (s_lay s))) as (A & B & C & _); [|auto].
  intros n Hn. now apply (vac_sub scs v).
Qed.

Lemma no_compact_no_change : forall c s scs mid v,
  reaches_compact scs (s_lay s) v = false ->
  let r := vacuum_round c s scs mid v (loc (s_lay s) v) in
  r_st r = s /\ r_hung r = false /\ r_panic r = false /\
  (r_log r = [] \/ r_log r = check_log scs v (loc (s_lay s) v)).
Proof.
  intros c s scs mid v H; cbv zeta. unfold vacuum_round, reaches_compact in *.
  destruct (bs_true v (l_ro (s_lay s))); [repeat split; now left|].
  destruct (check_phase scs v (loc (s_lay s) v)) as [vac need]; cbn [snd negb andb] in H. subst need.
  repeat split; now right.
Qed.

Lemma full_success_reaches : forall scs l v, full_success scs l v = true -> reaches_compact scs l v = true.
Proof. intros scs l v H. unfold full_success in H. now destruct (reaches_compact scs l v). Qed.

(* "writable after the round" on any state: what removeFromWritable leaves, or a clean
   commit that passes SetVolumeAvailable's test *)
Lemma writable_after_closed : forall c s scs v,
  writable_after c s scs v =
    if reaches_compact scs (s_lay s) v
    then mem v (lremove v (l_writ (s_lay s))) ||
         (full_success scs (s_lay s) v && readmit_test c (s_nodes s) scs (s_lay s) v)
    else writable s v.
Proof.
  intros c s scs v. unfold writable_after. rewrite (proj1 (round_of_spec c s scs v)).
  unfold full_success, readmit_test.
  destruct (reaches_compact scs (s_lay s) v) eqn:Er; [|reflexivity]. cbn [andb].
  set (vac := vac_of scs (s_lay s) v) in *.
  destruct (compact_ok scs v vac); cbn [andb]; [|now rewrite orb_false_r].
  destruct (snd (commit_calls scs v vac)); cbn [negb andb]; [now rewrite orb_false_r|].
  destruct (commit_ok scs v vac); cbn [andb]; [|now rewrite orb_false_r].
  destruct (fold_av_spec c (s_nodes s) v (commit_ro scs v vac) vac (remove_writable v (s_lay s))) as (_ & _ & _ & ->).
  - intros n Hn. now apply (vac_sub scs v).
  - cbn [remove_writable with_writ l_writ]. now destruct (commit_ro scs v vac).
Qed.

(* under Inv the writables hold no vid twice, so removeFromWritable leaves no v *)
Lemma writable_after_on_inv : forall c s scs v, Inv c s ->
  writable_after c s scs v =
    if reaches_compact scs (s_lay s) v
    then full_success scs (s_lay s) v && readmit_test c (s_nodes s) scs (s_lay s) v
    else writable s v.
Proof. intros c s scs v HI. rewrite writable_after_closed, mem_lremove_eq by apply HI. reflexivity. Qed.

(* a writable volume passes SetVolumeAvailable's test (C11 invariant) *)
Lemma writable_passes_test : forall c s scs v, Inv c s ->
  reaches_compact scs (s_lay s) v = true -> writable s v = true ->
  readmit_test c (s_nodes s) scs (s_lay s) v = true.
Proof.
  intros c s scs v HI Er Hw. destruct HI as [_ _ Hloc HI3]. specialize (HI3 v Hw).
  destruct HI3 as [Hen Hrw]. unfold readmit_test. cbn [view_of w_loc] in Hen, Hrw.
  rewrite loc_olist, Hen. cbn [andb]. apply some_vac_rw; [exact Er|]. intros n Hn.
  destruct (proj1 (Hloc v n) Hn) as [i Hi]. unfold replica_rw. rewrite Hi.
  rewrite loc_olist in Hn. now rewrite (Hrw n i Hn Hi).
Qed.

(* the statement at full strength: the round leaves the volume writable exactly
   when it was (a master that never vacuums keeps the writable set) *)
Definition writable_unchanged (c : cfg) : Prop :=
  forall es, wf_history es -> forall scs v,
    let s := run c init es in writable_after c s scs v = writable s v.
(* the same in terms of the C11 criterion *)
Definition writable_iff (c : cfg) : Prop :=
  forall es, wf_history es -> forall scs v,
    let s := run c init es in
    writable s v = crit c (s_nodes s) v -> writable_after c s scs v = crit c (s_nodes s) v.

Lemma unchanged_partial_inv : forall c s scs v, Inv c s ->
  trigger_stuck scs (s_lay s) v = false ->
  trigger_readmit c (s_nodes s) scs (s_lay s) v = false ->
  trigger_hang scs (s_lay s) v = false ->
  writable_after c s scs v = writable s v.
Proof.
  intros c s scs v HI T0 T1 T2. rewrite writable_after_on_inv by exact HI.
  destruct (reaches_compact scs (s_lay s) v) eqn:Er; [|reflexivity].
  unfold trigger_stuck, trigger_readmit in T0, T1. rewrite Er, T2 in T0. cbn [andb negb] in T0.
  fold (writable s v) in T0, T1.
  destruct (full_success scs (s_lay s) v) eqn:Ef; cbn [andb negb] in *.
  - destruct (writable s v) eqn:Ew; cbn [negb andb] in T1; [|exact T1].
    now apply writable_passes_test.
  - now rewrite T0.
Qed.

Lemma writable_unchanged_partial : forall c, 1 <= c_copy c ->
  forall es, wf_history es -> forall scs v,
    let s := run c init es in
    trigger_stuck scs (s_lay s) v = false ->
    trigger_readmit c (s_nodes s) scs (s_lay s) v = false ->
    trigger_hang scs (s_lay s) v = false ->
    writable_after c s scs v = writable s v.
Proof. intros c Hc es Hwf scs v s. apply unchanged_partial_inv. now apply reach_inv. Qed.

Lemma writable_iff_partial : forall c, 1 <= c_copy c ->
  forall es, wf_history es -> forall scs v,
    let s := run c init es in
    trigger_stuck scs (s_lay s) v = false ->
    trigger_readmit c (s_nodes s) scs (s_lay s) v = false ->
    trigger_hang scs (s_lay s) v = false ->
    writable s v = crit c (s_nodes s) v -> writable_after c s scs v = crit c (s_nodes s) v.
Proof.
  intros c Hc es Hwf scs v s T0 T1 T2 Hpre. rewrite <- Hpre.
  now apply writable_unchanged_partial.
Qed.

(* every input inside a trigger is a violation: the triggers are exact *)
Lemma stuck_exact : forall c, 1 <= c_copy c -> forall es, wf_history es -> forall scs v,
  let s := run c init es in
  trigger_stuck scs (s_lay s) v = true ->
  writable s v = true /\ writable_after c s scs v = false /\ r_hung (round_of c s scs v) = false.
Proof.
  intros c Hc es Hwf scs v s T. pose proof (reach_inv c Hc es Hwf) as HI. fold s in HI.
  rewrite writable_after_on_inv by exact HI. unfold trigger_stuck in T.
  apply andb_true_iff in T. destruct T as [T Hw]. apply andb_true_iff in T. destruct T as [T Hh].
  apply andb_true_iff in T. destruct T as [Er Hf].
  rewrite Er. apply negb_true_iff in Hf, Hh. rewrite Hf.
  destruct (round_of_spec c s scs v) as (_ & -> & _ & _). now repeat split.
Qed.

Lemma readmit_exact : forall c, 1 <= c_copy c -> forall es, wf_history es -> forall scs v,
  let s := run c init es in
  trigger_readmit c (s_nodes s) scs (s_lay s) v = true ->
  writable s v = false /\ writable_after c s scs v = true.
Proof.
  intros c Hc es Hwf scs v s T. pose proof (reach_inv c Hc es Hwf) as HI. fold s in HI.
  rewrite writable_after_on_inv by exact HI. unfold trigger_readmit in T.
  apply andb_true_iff in T. destruct T as [T Ht]. apply andb_true_iff in T. destruct T as [Hf Hw].
  apply negb_true_iff in Hw. rewrite Hf, Ht.
  pose proof (full_success_reaches _ _ _ Hf) as Er.
  rewrite Er. now split.
Qed.

(* finding 2: a commit that never answers: the round never returns and the volume
   stays out of writables *)
Lemma hang_exact : forall c, 1 <= c_copy c -> forall es, wf_history es -> forall scs v,
  let s := run c init es in
  trigger_hang scs (s_lay s) v = true ->
  r_hung (round_of c s scs v) = true /\ writable_after c s scs v = false.
Proof.
  intros c Hc es Hwf scs v s T. pose proof (reach_inv c Hc es Hwf) as HI. fold s in HI.
  destruct (round_of_spec c s scs v) as (_ & -> & _ & _). split; [exact T|].
  rewrite writable_after_on_inv by exact HI. unfold trigger_hang in T. unfold full_success.
  apply andb_true_iff in T. destruct T as [T ->]. apply andb_true_iff in T. destruct T as [-> ->].
  reflexivity.
Qed.

(* ... and every later call of Topology.Vacuum returns at once (vacuumLockCounter) *)
Lemma hung_blocks_later_passes : forall c q p, q_hung q = true -> q_panic q = false ->
  let q' := pass_step c q p in
  q_log q' = [] /\ q_hung q' = true /\ q_st q' = run c (q_st q) (p_pre p).
Proof. intros c q p Hh Hp; cbv zeta; unfold pass_step. rewrite Hp, Hh. now repeat split. Qed.

(* a later round that ends in a clean commit puts a healthy volume back *)
Lemma clean_round_writable : forall c s scs v,
  crit_loc c (s_nodes s) (s_lay s) v = true -> full_success scs (s_lay s) v = true ->
  writable_after c s scs v = true.
Proof.
  intros c s scs v Hcr Hf. rewrite writable_after_closed, Hf.
  pose proof (full_success_reaches _ _ _ Hf) as Er.
  rewrite Er. apply orb_true_iff; right. unfold readmit_test, crit_loc in *.
  apply andb_true_iff in Hcr. destruct Hcr as [-> Hall]. apply some_vac_rw; [exact Er|]. intros n Hn.
  rewrite forallb_forall in Hall. specialize (Hall n Hn). unfold replica_ok in Hall.
  unfold replica_rw. destruct (ginfo (s_nodes s) n v) as [i|]; [|discriminate].
  now apply andb_true_iff in Hall.
Qed.

Lemma recovers_on_next_clean_round : forall c s scs1 scs2 v,
  crit_loc c (s_nodes s) (s_lay s) v = true ->
  full_success scs2 (s_lay s) v = true ->
  let r1 := round_of c s scs1 v in
  writable_after c (r_st r1) scs2 v = true.
Proof.
  intros c s scs1 scs2 v Hcr Hf r1.
  destruct (round_of_frame c s scs1 v) as (A & B & C). fold r1 in A, B, C.
  destruct (round_of_spec c s scs1 v) as (_ & _ & _ & D). fold r1 in D.
  apply clean_round_writable.
  - unfold crit_loc in *. fold (r_lay r1). now rewrite D, A.
  - unfold full_success, reaches_compact, vac_of in *. fold (r_lay r1). now rewrite A, B.
Qed.

Definition ok_script : script := {| sc_ck := CkOver; sc_cp := CpOk; sc_cm := CmOk |}.
Definition sc (a : ck) (b : cp) (d : cm) : script := {| sc_ck := a; sc_cp := b; sc_cm := d |}.

Definition stuck_history := [EFull 1 [vi 1 10 false]].
Definition stuck_scripts : scripts := [(1, [(1, sc CkOver CpErr CmOk)])].
Definition readmit_history := [EFull 1 [vi 1 10 false]; EFull 2 [vi 1 10 false]; EFull 2 [vi 1 10 true]].
Definition readmit_scripts : scripts := [(1, [(1, ok_script); (2, ok_script)])].

(* finding 0: a failed compaction leaves a healthy volume out of writables; the other
   triggers are false on the witness *)
Lemma refuted_stuck_witness :
  let s := run cfg000 init stuck_history in
  wf_history stuck_history /\
  trigger_stuck stuck_scripts (s_lay s) 1 = true /\
  trigger_readmit cfg000 (s_nodes s) stuck_scripts (s_lay s) 1 = false /\
  trigger_hang stuck_scripts (s_lay s) 1 = false /\
  writable s 1 = true /\ crit cfg000 (s_nodes s) 1 = true /\
  writable_after cfg000 s stuck_scripts 1 = false.
Proof. vm_compute; repeat split; reflexivity. Qed.

(* finding 1: a clean commit re-admits a volume one of whose replicas is read-only *)
Lemma refuted_readmit_witness :
  let s := run cfg001 init readmit_history in
  wf_history readmit_history /\
  trigger_readmit cfg001 (s_nodes s) readmit_scripts (s_lay s) 1 = true /\
  trigger_stuck readmit_scripts (s_lay s) 1 = false /\
  trigger_hang readmit_scripts (s_lay s) 1 = false /\
  writable s 1 = false /\ crit cfg001 (s_nodes s) 1 = false /\
  writable_after cfg001 s readmit_scripts 1 = true.
Proof. vm_compute; repeat split; reflexivity. Qed.

Lemma writable_iff_refuted_stuck : ~ writable_iff cfg000.
Proof.
  intros H. specialize (H stuck_history eq_refl stuck_scripts 1).
  vm_compute in H. specialize (H eq_refl). discriminate.
Qed.

Lemma writable_iff_refuted_readmit : ~ writable_iff cfg001.
Proof.
  intros H. specialize (H readmit_history eq_refl readmit_scripts 1).
  vm_compute in H. specialize (H eq_refl). discriminate.
Qed.

Lemma writable_unchanged_refuted : ~ writable_unchanged cfg000 /\ ~ writable_unchanged cfg001.
Proof.
  split; intros H.
  - specialize (H stuck_history eq_refl stuck_scripts 1). vm_compute in H. discriminate.
  - specialize (H readmit_history eq_refl readmit_scripts 1). vm_compute in H. discriminate.
Qed.

(* finding 1 also re-admits a volume whose registered size is over the limit *)
Lemma readmit_oversized_witness :
  let s := run cfg000 init [EFull 1 [vi 1 10 false]; EFull 1 [vi 1 150 false]; ECollect] in
  writable s 1 = false /\ crit cfg000 (s_nodes s) 1 = false /\
  trigger_readmit cfg000 (s_nodes s) [(1, [(1, ok_script)])] (s_lay s) 1 = true /\
  writable_after cfg000 s [(1, [(1, ok_script)])] 1 = true.
Proof. vm_compute; repeat split; reflexivity. Qed.

(* the sequential commit loop is not atomic: replica 1 commits, replica 2 fails *)
Lemma commit_not_atomic_witness :
  let s := run cfg001 init [EFull 1 [vi 1 10 false]; EFull 2 [vi 1 10 false]] in
  let scs := [(1, [(1, ok_script); (2, sc CkOver CpOk CmErr)])] in
  let r := round_of cfg001 s scs 1 in
  committed (r_log r) scs 1 1 = true /\ committed (r_log r) scs 1 2 = false /\
  log_of (r_log r) 1 2 = [RCheck; RCompact; RCommit] /\ writable_after cfg001 s scs 1 = false.
Proof. vm_compute; repeat split; reflexivity. Qed.

(* finding 2: the commit has no timer *)
Definition hang_scripts : scripts := [(1, [(1, sc CkOver CpOk CmHang)])].
Lemma hang_witness :
  let s := run cfg000 init stuck_history in
  let q1 := pass_step cfg000 (pstart s) {| p_pre := []; p_scs := hang_scripts; p_mid := [] |} in
  let q2 := pass_step cfg000 q1 {| p_pre := []; p_scs := [(1, [(1, ok_script)])]; p_mid := [] |} in
  trigger_hang hang_scripts (s_lay s) 1 = true /\
  q_hung q1 = true /\ log_of (q_log q1) 1 1 = [RCheck; RCompact; RCommit] /\ writable (q_st q1) 1 = false /\
  q_log q2 = [] /\ writable (q_st q2) 1 = false /\ crit cfg000 (s_nodes (q_st q2)) 1 = true.
Proof. vm_compute; repeat split; reflexivity. Qed.

(* finding 3: the layout loses the volume's entry while the replica compacts: nil dereference
   in SetVolumeAvailable.  Nodes 1,2 hold vid 1, node 2 is under the threshold; while
   node 1 compacts its stream ends and node 2 reports an empty volume list *)
Definition panic_mid := [EDisconnect 1; EFull 2 []].
Lemma panic_witness :
  let s := run cfg001 init [EFull 1 [vi 1 10 false]; EFull 2 [vi 1 10 false]] in
  let scs := [(1, [(1, ok_script); (2, sc CkUnder CpOk CmOk)])] in
  let r := vacuum_round cfg001 s scs panic_mid 1 (lookup s 1) in
  r_panic r = true /\ log_of (r_log r) 1 1 = [RCheck; RCompact; RCommit] /\ log_of (r_log r) 1 2 = [RCheck].
Proof. vm_compute; repeat split; reflexivity. Qed.
(* finding 3 without a disconnect: the volume is dropped and reported again *)
Lemma panic_witness_readd :
  let s := run cfg000 init stuck_history in
  let r := vacuum_round cfg000 s [(1, [(1, ok_script)])] [EFull 1 []; EFull 1 [vi 1 10 false]] 1 (lookup s 1) in
  r_panic r = true /\ writable (r_st r) 1 = true.
Proof. vm_compute; repeat split; reflexivity. Qed.

(* finding 4: a replica disconnects while it compacts; the clean commit puts the unlinked
   DataNode object back into the location list and makes the volume writable *)
Lemma readd_unlinked_witness :
  let s := run cfg000 init stuck_history in
  let mid := [EDisconnect 1] in
  let r := vacuum_round cfg000 s [(1, [(1, ok_script)])] mid 1 (lookup s 1) in
  let u := run cfg000 s mid in
  r_panic r = false /\ lookup (r_st r) 1 = [1] /\ writable (r_st r) 1 = true /\ s_nodes (r_st r) = [] /\
  lookup u 1 = [] /\ writable u 1 = false.
Proof. vm_compute; repeat split; reflexivity. Qed.

(* non-vacuity of the partial theorems: a clean round on a healthy two-replica volume *)
Lemma clean_round_example :
  let es := [EFull 1 [vi 1 10 false]; EFull 2 [vi 1 10 false]] in
  let s := run cfg001 init es in
  let scs := [(1, [(1, ok_script); (2, ok_script)])] in
  wf_history es /\ trigger_stuck scs (s_lay s) 1 = false /\
  trigger_readmit cfg001 (s_nodes s) scs (s_lay s) 1 = false /\ trigger_hang scs (s_lay s) 1 = false /\
  writable s 1 = true /\ crit cfg001 (s_nodes s) 1 = true /\ writable_after cfg001 s scs 1 = true /\
  log_of (r_log (round_of cfg001 s scs 1)) 1 2 = [RCheck; RCompact; RCommit].
Proof. vm_compute; repeat split; reflexivity. Qed.

(* non-vacuity of recovers_on_next_clean_round: failed round, then a clean one *)
Lemma recovers_example :
  let s := run cfg000 init stuck_history in
  let r1 := round_of cfg000 s stuck_scripts 1 in
  crit_loc cfg000 (s_nodes s) (s_lay s) 1 = true /\ full_success [(1, [(1, ok_script)])] (s_lay s) 1 = true /\
  writable s 1 = true /\ writable (r_st r1) 1 = false /\
  writable_after cfg000 (r_st r1) [(1, [(1, ok_script)])] 1 = true.
Proof. vm_compute; repeat split; reflexivity. Qed.
