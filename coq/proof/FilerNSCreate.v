(* Proofs about model/FilerNS.v (C18): insertion, CreateEntry, UpdateEntry. *)
From Coq Require Import List NArith Bool String Arith Lia Permutation.
From SW Require Import model.FilerNS proof.FilerNSBase.
Import ListNotations.
Local Open Scope list_scope.

Lemma snoc_neq_self : forall (d : path) n, d ++ [n] <> d.
Proof.
  intros d n H. assert (L : List.length (d ++ [n]) = List.length d) by congruence.
  rewrite app_length in L. simpl in L. lia.
Qed.

Lemma tree_ok_insert : forall s p e, tree_ok s ->
  (forall d n, p = d ++ [n] -> d = [] \/ exists de, find s d = Some de /\ e_dir de = true) ->
  (e_dir e = true \/ forall m, find s (p ++ [m]) = None) ->
  tree_ok (insert s p e).
Proof.
  intros s p e Hs Hpar Hch d0 n0 e0 Hf. rewrite find_insert in Hf.
  destruct (path_eqb_spec p (d0 ++ [n0])) as [Heq|Hne].
  - destruct (Hpar _ _ Heq) as [|[de [H1 H2]]]; auto. right. exists de. split; auto.
    rewrite find_insert_other; auto. subst p. apply snoc_neq_self.
  - destruct (Hs _ _ _ Hf) as [|[de [H1 H2]]]; auto. right.
    rewrite find_insert. destruct (path_eqb_spec p d0) as [Hpd|Hpd].
    + subst d0. exists e. split; auto. destruct Hch as [|Hch]; auto. rewrite Hch in Hf. discriminate.
    + eauto.
Qed.

Lemma tree_ok_replace : forall s p old e, tree_ok s -> p <> [] ->
  find s p = Some old -> e_dir e = e_dir old -> tree_ok (insert s p e).
Proof.
  intros s p old e Hs Hp Hf Ht. apply tree_ok_insert; auto.
  - intros d n Hdn. subst p. eapply Hs; eauto.
  - destruct (e_dir e) eqn:E; auto. right. intro m.
    eapply tree_ok_file_below; eauto; congruence.
Qed.

Lemma tree_ok_filter : forall (f : path -> bool) s, tree_ok s ->
  (forall d n e, find s (d ++ [n]) = Some e -> f (d ++ [n]) = true -> d = [] \/ f d = true) ->
  tree_ok (filter (fun kv => f (fst kv)) s).
Proof.
  intros f s Hs Hf d n e H. rewrite find_filter_key in H.
  destruct (f (d ++ [n])) eqn:E; [|discriminate].
  destruct (Hs _ _ _ H) as [|[de [H1 H2]]]; auto.
  destruct (Hf _ _ _ H E) as [|Hfd]; auto.
  right. exists de. rewrite find_filter_key, Hfd. auto.
Qed.

Lemma find_entry_nonroot : forall s p, p <> [] -> find_entry s p = find s p.
Proof. intros s p H. destruct p; [congruence|reflexivity]. Qed.

(* q <> [] as a bool, for the `if` in ensure_dir_spec *)
Definition nonroot (q : path) : bool := match q with [] => false | _ => true end.

Lemma nonroot_nonnil : forall q, nonroot q = true -> q <> [].
Proof. intros [|? ?] H; [discriminate|congruence]. Qed.

Lemma is_prefix_snoc : forall q p n,
  is_prefix q (p ++ [n]) = is_prefix q p || path_eqb q (p ++ [n]).
Proof.
  intros q p n. destruct (is_prefix q (p ++ [n])) eqn:E.
  - apply is_prefix_true in E. destruct E as [r Hr]. symmetry. apply orb_true_iff.
    destruct (path_cases r) as [->|[r' [m ->]]].
    + right. rewrite app_nil_r in Hr. subst. apply path_eqb_refl.
    + left. rewrite app_assoc in Hr. apply app_inj_tail in Hr. destruct Hr as [Hr _].
      apply is_prefix_true. eauto.
  - symmetry. apply orb_false_iff. split.
    + apply is_prefix_false. intros r Hr. rewrite is_prefix_false in E.
      apply (E (r ++ [n])). rewrite app_assoc. congruence.
    + destruct (path_eqb_spec q (p ++ [n])); auto. subst. rewrite is_prefix_refl in E. discriminate.
Qed.

Lemma is_prefix_longer : forall (p : path) n t, is_prefix (p ++ n :: t) p = false.
Proof.
  intros p n t. apply is_prefix_false. intros r H.
  assert (L : List.length p = List.length ((p ++ n :: t) ++ r)) by congruence.
  rewrite !app_length in L. simpl in L. lia.
Qed.

(* an absent path has nothing below it, so ensureParentDirecotryEntry inserts exactly the absent non-root
   prefixes of the directory; a prefix that is present is a directory, or the answer is ENotDir *)
Lemma ensure_dir_spec : forall rd s tmpl s1 r, wf s -> ensure_dir s rd tmpl = (s1, r) ->
  (r = OK /\ wf s1 /\
   (forall q, find s1 q = match find s q with
                         | Some x => Some x
                         | None => if nonroot q && is_prefix q (rev rd) then Some (implicit_dir tmpl) else None
                         end) /\
   (forall a f, nonroot a = true -> is_prefix a (rev rd) = true -> find s a = Some f -> e_dir f = true))
  \/
  (r = ENotDir /\ s1 = s /\
   exists a f, nonroot a = true /\ is_prefix a (rev rd) = true /\ find s a = Some f /\ e_dir f = false).
Proof.
  induction rd as [|n rd IH]; intros s tmpl s1 r Hwf H.
  - simpl in H. inversion H; subst. left. repeat split; auto; try apply Hwf.
    + intro q. destruct (find s1 q); auto. destruct q; simpl; auto.
    + intros a f Ha Hp. apply is_prefix_true in Hp. destruct Hp as [r Hr].
      symmetry in Hr. apply app_eq_nil in Hr. destruct Hr; subst. discriminate.
  - simpl in H. assert (Hne : rev rd ++ [n] <> []) by (intro E; apply app_eq_nil in E; destruct E; discriminate).
    rewrite find_entry_nonroot in H by assumption.
    destruct (find s (rev rd ++ [n])) as [d|] eqn:Ef.
    + destruct (e_dir d) eqn:Ed; inversion H; subst.
      * left. repeat split; auto; try apply Hwf.
        -- intro q. destruct (find s1 q) eqn:Eq; auto.
           destruct (nonroot q) eqn:Nq; auto. simpl.
           destruct (is_prefix q (rev rd ++ [n])) eqn:Pq; auto.
           destruct (prefix_of_existing s1 _ d q (proj2 Hwf) Ef (nonroot_nonnil q Nq) Pq) as [f [Hf _]]. congruence.
        -- intros a f Ha Hp Hf.
           destruct (prefix_of_existing s1 _ d a (proj2 Hwf) Ef (nonroot_nonnil a Ha) Hp) as [f' [Hf' [->|Hd]]]; congruence.
      * right. repeat split; auto. exists (rev rd ++ [n]), d. simpl. repeat split; auto.
        -- destruct (rev rd ++ [n]); [congruence|reflexivity].
        -- apply is_prefix_refl.
    + destruct (ensure_dir s rd tmpl) as [s1' r'] eqn:Er.
      destruct (IH s tmpl s1' r' Hwf Er) as [[Hr [Hwf1 [Hfind Hnof]]]|[Hr [Hs1 [a [f [Ha [Hp [Hf Hd]]]]]]]].
      * subst r'. simpl in H. inversion H; subst. clear H.
        assert (Habs : find s1' (rev rd ++ [n]) = None).
        { rewrite Hfind, Ef. rewrite is_prefix_longer. rewrite andb_false_r. reflexivity. }
        left. split; [reflexivity|]. split; [|split].
        -- split; [apply insert_NoDup, Hwf1|]. apply tree_ok_insert; [apply Hwf1| |].
           ++ intros d0 n0 E. apply app_inj_tail in E. destruct E as [E _]. subst d0.
              destruct (nonroot (rev rd)) eqn:Nr; [|destruct (rev rd); [auto|discriminate]].
              right. rewrite Hfind. destruct (find s (rev rd)) as [x0|] eqn:E0.
              ** exists x0. split; auto. eapply Hnof; eauto. apply is_prefix_refl.
              ** rewrite Nr, is_prefix_refl. simpl. eauto.
           ++ left. reflexivity.
        -- intro q. rewrite find_insert. simpl. destruct (path_eqb_spec (rev rd ++ [n]) q) as [Hq|Hq].
           ++ subst q. rewrite Ef, is_prefix_refl.
              destruct (rev rd ++ [n]); [congruence|reflexivity].
           ++ rewrite Hfind. destruct (find s q); auto. rewrite is_prefix_snoc.
              destruct (path_eqb_spec q (rev rd ++ [n])); [congruence|]. now rewrite orb_false_r.
        -- intros a f Ha Hp Hf. simpl in Hp. rewrite is_prefix_snoc in Hp. apply orb_true_iff in Hp.
           destruct Hp as [Hp|Hp]; [eapply Hnof; eauto|].
           destruct (path_eqb_spec a (rev rd ++ [n])); [congruence|discriminate].
      * subst. simpl in H. inversion H; subst. right. repeat split; auto.
        exists a, f. repeat split; auto. simpl. rewrite is_prefix_snoc, Hp. reflexivity.
Qed.

Lemma ancestors_from_snoc : forall d acc n q,
  In q (ancestors_from acc (d ++ [n])) <-> exists t, t <> [] /\ is_prefix t d = true /\ q = acc ++ t.
Proof.
  induction d as [|a d IH]; intros acc n q.
  - simpl. split; [tauto|]. intros [t [Ht [Hp _]]]. apply is_prefix_true in Hp. destruct Hp as [r Hr].
    symmetry in Hr. apply app_eq_nil in Hr. tauto.
  - assert (E : ancestors_from acc ((a :: d) ++ [n]) = (acc ++ [a]) :: ancestors_from (acc ++ [a]) (d ++ [n])).
    { simpl. destruct (d ++ [n]) eqn:E; [elim (snoc_nonnil d n E)|reflexivity]. }
    rewrite E. simpl In. rewrite IH. split.
    + intros [<-|[t [Ht [Hp ->]]]].
      * exists [a]. split; [discriminate|]. split; [apply (is_prefix_app [a] d)|reflexivity].
      * apply is_prefix_true in Hp. destruct Hp as [r ->]. exists (a :: t). split; [discriminate|].
        split; [apply (is_prefix_app (a :: t) r)|now rewrite <- app_assoc].
    + intros [t [Ht [Hp ->]]]. apply is_prefix_true in Hp. destruct Hp as [r Hr].
      destruct t as [|b [|c t]]; [congruence| |]; injection Hr as <- Hr; [now left|right].
      exists (c :: t). split; [discriminate|]. split; [apply is_prefix_true; eauto|now rewrite <- app_assoc].
Qed.

Lemma ancestors_mem : forall d n q,
  existsb (path_eqb q) (ancestors (d ++ [n])) = nonroot q && is_prefix q d.
Proof.
  intros d n q. apply eq_true_iff_eq. rewrite existsb_exists, andb_true_iff. split.
  - intros [x [Hin Hx]]. destruct (path_eqb_spec q x); [subst x|discriminate].
    apply ancestors_from_snoc in Hin. destruct Hin as [t [Ht [Hp ->]]].
    split; [destruct t; [congruence|reflexivity]|exact Hp].
  - intros [Hq Hp]. exists q. split; [|apply path_eqb_refl].
    apply ancestors_from_snoc. exists q. auto using nonroot_nonnil.
Qed.

Lemma has_file_ancestor_spec : forall s d n,
  has_file_ancestor s (d ++ [n]) = true <->
  exists a f, nonroot a = true /\ is_prefix a d = true /\ find s a = Some f /\ e_dir f = false.
Proof.
  intros s d n. unfold has_file_ancestor. rewrite existsb_exists. split.
  - intros [a [Hin H]]. apply (ancestors_from_snoc d [] n a) in Hin. destruct Hin as [t [Ht [Hp E]]].
    simpl in E. subst a. destruct (find s t) as [f|] eqn:E; [|discriminate]. exists t, f. apply negb_true_iff in H.
    repeat split; auto. destruct t; [congruence|reflexivity].
  - intros [a [f [Ha [Hp [Hf Hd]]]]]. exists a. rewrite Hf, Hd. split; [|reflexivity].
    apply (ancestors_from_snoc d [] n a). exists a. auto using nonroot_nonnil.
Qed.

Lemma same_dir_flag : forall a b : bool, a && negb b = false -> negb a && b = false -> b = a.
Proof. destruct a, b; simpl; congruence. Qed.

Lemma add_missing_find : forall tmpl l s q,
  find (fold_left (fun s0 a => match find s0 a with Some _ => s0 | None => insert s0 a (implicit_dir tmpl) end) l s) q =
  match find s q with
  | Some x => Some x
  | None => if existsb (path_eqb q) l then Some (implicit_dir tmpl) else None
  end.
Proof.
  intros tmpl l. induction l as [|a l IH]; intros s q; simpl.
  - destruct (find s q); reflexivity.
  - rewrite IH. destruct (find s a) as [y|] eqn:Ea.
    + destruct (find s q) eqn:Eq; auto.
      destruct (path_eqb_spec q a); [congruence|reflexivity].
    + rewrite find_insert. rewrite (path_eqb_sym q a).
      destruct (path_eqb_spec a q); [subst; now rewrite Ea|].
      destruct (find s q); reflexivity.
Qed.

Lemma find_add_missing_ancestors : forall s p tmpl q,
  find (add_missing_ancestors s p tmpl) q =
  match find s q with
  | Some x => Some x
  | None => if existsb (path_eqb q) (ancestors p) then Some (implicit_dir tmpl) else None
  end.
Proof. intros. unfold add_missing_ancestors. apply add_missing_find. Qed.

(* the refusals return the store itself, not an equivalent one: rename_cases needs that *)
Theorem create_entry_ref : forall s p e x, wf s ->
  wf (fst (create_entry s p e x)) /\
  snd (create_entry s p e x) = snd (ref_create s p e x) /\
  equiv (fst (create_entry s p e x)) (fst (ref_create s p e x)) /\
  (snd (create_entry s p e x) <> OK -> fst (create_entry s p e x) = s).
Proof.
  intros s p e x Hwf.
  assert (Hsame : forall r, wf (fst (s, r)) /\ snd (s, r) = snd (s, r) /\ equiv (fst (s, r)) (fst (s, r)) /\
                            (snd (s, r) <> OK -> fst (s, r) = s)) by (repeat split; auto; apply Hwf).
  destruct (path_eqb_spec p []) as [->|Hp]; [apply Hsame|].
  unfold create_entry, ref_create.
  destruct p as [|a0 p0] eqn:Ep; [congruence|]. rewrite <- Ep in *. clear Ep a0 p0.
  rewrite find_entry_nonroot by assumption.
  destruct (find s p) as [old|] eqn:Ef.
  - destruct x; [apply Hsame|]. unfold update_entry_raw.
    destruct (e_dir old && negb (e_dir e)) eqn:E1; [apply Hsame|].
    destruct (negb (e_dir old) && e_dir e) eqn:E2; [apply Hsame|].
    cbn [fst snd]. repeat split; try congruence; [apply insert_NoDup, Hwf|].
    eapply tree_ok_replace; eauto; [apply Hwf|]. apply same_dir_flag; auto.
  - destruct (path_cases p) as [|[d [n Hdn]]]; [congruence|]. subst p.
    rewrite parent_child.
    destruct (ensure_dir s (rev d) e) as [s1' r'] eqn:Ee.
    destruct (ensure_dir_spec _ _ _ _ _ Hwf Ee) as [[Hr [Hwf1 [Hfind Hnof]]]|[Hr [Hs1 [a [f [Ha [Hpa [Hf Hd]]]]]]]];
      rewrite rev_involutive in *; subst r'.
    + assert (Hh : has_file_ancestor s (d ++ [n]) = false).
      { destruct (has_file_ancestor s (d ++ [n])) eqn:Eh; auto.
        apply has_file_ancestor_spec in Eh. destruct Eh as [a [f [Ha [Hpa [Hf Hd]]]]].
        rewrite (Hnof a f Ha Hpa Hf) in Hd. discriminate. }
      rewrite Hh. cbn [is_err fst snd]. repeat split; try congruence.
      * apply insert_NoDup, Hwf1.
      * apply tree_ok_insert; [apply Hwf1| |].
        -- intros d0 n0 E. apply app_inj_tail in E. destruct E as [E _]. subst d0.
           destruct (nonroot d) eqn:Nd; [right|destruct d; [auto|discriminate]].
           rewrite Hfind, Nd, is_prefix_refl. destruct (find s d) as [y|] eqn:Ed; [|simpl; eauto].
           exists y. split; [reflexivity|]. eapply Hnof; eauto. apply is_prefix_refl.
        -- right. intro m. apply (tree_ok_absent_below s1' (proj2 Hwf1)); [apply snoc_nonnil|].
           rewrite Hfind, Ef, is_prefix_longer, andb_false_r. reflexivity.
      * intro q. rewrite !find_insert, Hfind, find_add_missing_ancestors, ancestors_mem. reflexivity.
    + subst s1'. replace (has_file_ancestor s (d ++ [n])) with true; [apply Hsame|].
      symmetry. apply has_file_ancestor_spec. eauto 6.
Qed.

Lemma create_entry_wf : forall s p e x, wf s -> wf (fst (create_entry s p e x)).
Proof. intros. apply create_entry_ref. assumption. Qed.

Lemma update_entry_is_ref : forall s p e, update_entry s p e = ref_update s p e.
Proof.
  intros. unfold update_entry, ref_update, update_entry_raw, update.
  destruct (find_entry s p); reflexivity.
Qed.

Lemma update_entry_wf : forall s p e, wf s -> wf (fst (update_entry s p e)).
Proof.
  intros s p e Hwf. unfold update_entry.
  destruct (find_entry s p) as [o|] eqn:Ef; [|assumption].
  unfold update_entry_raw.
  destruct (e_dir o && negb (e_dir e)) eqn:E1; [assumption|].
  destruct (negb (e_dir o) && e_dir e) eqn:E2; [assumption|].
  simpl. unfold update. split; [apply insert_NoDup, Hwf|].
  assert (Ht : e_dir e = e_dir o) by (apply same_dir_flag; auto).
  destruct (path_eqb_spec p []) as [->|Hp].
  - simpl in Ef. inversion Ef; subst o. simpl in Ht.
    apply tree_ok_insert; [apply Hwf| |auto].
    intros d n E. destruct d; discriminate.
  - rewrite find_entry_nonroot in Ef by assumption.
    eapply tree_ok_replace; eauto. apply Hwf.
Qed.
