(* C28: part file names ("%04d.part") and the order in which a directory lists them. *)
From Coq Require Import List NArith ZArith Bool Arith Lia.
From SW Require Import proof.ListFacts model.S3Multipart.
Import ListNotations.
Local Open Scope N_scope.

Lemma lex_cmp_refl : forall a, lex_cmp a a = Eq.
Proof. induction a as [|x a IH]; simpl; auto. rewrite N.compare_refl. exact IH. Qed.

Lemma lex_cmp_eq : forall a b, lex_cmp a b = Eq -> a = b.
Proof.
  induction a as [|x a IH]; destruct b as [|y b]; simpl; intros H; try discriminate; auto.
  destruct (N.compare_spec x y) as [E|E|E]; try discriminate. subst. f_equal. auto.
Qed.

Lemma lex_cmp_antisym : forall a b, lex_cmp b a = CompOpp (lex_cmp a b).
Proof.
  induction a as [|x a IH]; destruct b as [|y b]; simpl; auto.
  rewrite (N.compare_antisym x y). destruct (N.compare x y); simpl; auto.
Qed.

Lemma lex_lt_trans : forall a b c, lex_cmp a b = Lt -> lex_cmp b c = Lt -> lex_cmp a c = Lt.
Proof.
  induction a as [|x a IH]; destruct b as [|y b]; destruct c as [|z c]; simpl; intros H1 H2;
    try discriminate; auto.
  destruct (N.compare_spec x y); try discriminate;
  destruct (N.compare_spec y z); try discriminate;
  destruct (N.compare_spec x z); try lia; eauto.
Qed.

(* Between digit strings of one length the byte order is the order of the numbers they
   denote, whatever follows them: with equal accumulators [a], [b] the first differing
   digit decides both sides, and once the accumulators differ the digits no longer matter. *)
Definition digit (c : N) : Prop := 48 <= c <= 57.
Definition atoi_from (a : N) (ds : list N) : N := fold_left (fun acc d => acc * 10 + (d - 48)) ds a.

Lemma lex_cmp_digits_acc : forall s t r1 r2 a b,
  length s = length t -> Forall digit s -> Forall digit t ->
  match a ?= b with Eq => lex_cmp (s ++ r1) (t ++ r2) | c => c end =
  match atoi_from a s ?= atoi_from b t with Eq => lex_cmp r1 r2 | c => c end.
Proof.
  unfold atoi_from. induction s as [|x s IH]; destruct t as [|y t]; simpl; intros r1 r2 a b L Hs Ht; try discriminate.
  - destruct (a ?= b); reflexivity.
  - inversion Hs; inversion Ht; subst. rewrite <- IH by auto. unfold digit in *.
    destruct (N.compare_spec a b), (N.compare_spec x y),
      (N.compare_spec (a * 10 + (x - 48)) (b * 10 + (y - 48))); try reflexivity; lia.
Qed.

Lemma lex_cmp_digits : forall s t r1 r2, length s = length t -> Forall digit s -> Forall digit t ->
  lex_cmp (s ++ r1) (t ++ r2) = match atoi s ?= atoi t with Eq => lex_cmp r1 r2 | c => c end.
Proof. intros s t r1 r2. exact (lex_cmp_digits_acc s t r1 r2 0 0). Qed.

(* "%04d" of a number below 10000: its four decimal digits *)
Definition digits4 (n : N) : list N := map (fun q => 48 + q mod 10) [n / 10 / 10 / 10; n / 10 / 10; n / 10; n].

Lemma no_fifth_digit : forall n, n < 10000 -> n / 10 / 10 / 10 / 10 = 0.
Proof. intros n H. rewrite !N.div_div by discriminate. apply N.div_small. exact H. Qed.

Lemma part_digits_below : forall n, n < 10000 -> part_digits n = digits4 n.
Proof.
  intros n H. unfold part_digits, digits4. change 20%nat with (4 + 16)%nat. cbn [dec_digits Nat.add map].
  rewrite (no_fifth_digit n H).
  destruct (N.eqb_spec (n / 10) 0) as [e|_]; [|destruct (N.eqb_spec (n / 10 / 10) 0) as [e|_];
    [|destruct (N.eqb_spec (n / 10 / 10 / 10) 0) as [e|_]]]; try rewrite e; reflexivity.
Qed.

Lemma digit_mod : forall q, digit (48 + q mod 10).
Proof. intros q. generalize (N.mod_lt q 10 ltac:(discriminate)). generalize (q mod 10). unfold digit. lia. Qed.

Lemma digits4_digits : forall n, Forall digit (digits4 n).
Proof. intros n. repeat (apply Forall_cons; [apply digit_mod|]). apply Forall_nil. Qed.

Lemma atoi_last_digit : forall q, q / 10 * 10 + (48 + q mod 10 - 48) = q.
Proof.
  intros q. rewrite (N.add_comm 48), N.add_sub, N.mul_comm.
  symmetry. apply N.div_mod. discriminate.
Qed.

Lemma atoi_digits4 : forall n, n < 10000 -> atoi (digits4 n) = n.
Proof.
  intros n H. unfold atoi. cbn [digits4 map fold_left]. rewrite <- (no_fifth_digit n H).
  rewrite !atoi_last_digit. reflexivity.
Qed.

(* below 10000 the listing order of the names is the numeric order *)
Theorem name_order_below_10000 : forall n m, n < 10000 -> m < 10000 ->
  lex_cmp (part_name n) (part_name m) = N.compare n m.
Proof.
  intros n m Hn Hm. unfold part_name. rewrite !part_digits_below by assumption.
  rewrite lex_cmp_digits by (reflexivity || apply digits4_digits).
  rewrite !atoi_digits4, lex_cmp_refl by assumption. destruct (n ?= m); reflexivity.
Qed.

(* "10000.part" is "1000" followed by "0.part", and '0' sorts after '.' *)
Lemma name_10000_cmp : forall m, m < 10000 ->
  lex_cmp (part_name 10000) (part_name m) = if m <=? 1000 then Gt else Lt.
Proof.
  intros m H. change (part_name 10000) with (digits4 1000 ++ 48 :: dot_part).
  unfold part_name. rewrite part_digits_below by assumption.
  rewrite lex_cmp_digits by (reflexivity || apply digits4_digits).
  rewrite !atoi_digits4 by (assumption || reflexivity).
  destruct (N.leb_spec m 1000); destruct (N.compare_spec 1000 m); try reflexivity; lia.
Qed.

Lemma name_10000_before : forall m, 1001 <= m -> m <= 9999 -> lex_cmp (part_name 10000) (part_name m) = Lt.
Proof.
  intros m H1 H2. rewrite name_10000_cmp by lia. destruct (N.leb_spec m 1000); [lia|reflexivity].
Qed.

Lemma name_10000_after : forall m, m <= 1000 -> lex_cmp (part_name m) (part_name 10000) = Lt.
Proof.
  intros m H. rewrite lex_cmp_antisym, name_10000_cmp by lia. destruct (N.leb_spec m 1000); [reflexivity|lia].
Qed.

Lemma part_number_of_app : forall ds, part_number_of (ds ++ dot_part) = atoi ds.
Proof.
  intros ds. unfold part_number_of. rewrite app_length, Nat.add_sub, firstn_app, Nat.sub_diag, firstn_all.
  apply f_equal, app_nil_r.
Qed.

Lemma has_part_suffix_app : forall ds, has_part_suffix (ds ++ dot_part) = true.
Proof.
  intros ds. unfold has_part_suffix. rewrite app_length, Nat.add_sub, skipn_app, Nat.sub_diag, skipn_all.
  apply andb_true_intro. split; [apply Nat.leb_le, Nat.le_add_l|reflexivity].
Qed.

(* strconv.Atoi inverts the format for every number the gateway accepts in 0..10000 *)
Lemma part_number_of_name : forall n, n <= 10000 -> part_number_of (part_name n) = n.
Proof.
  intros n H. destruct (N.eq_dec n 10000) as [->|E]; [reflexivity|].
  assert (L : n < 10000) by lia. unfold part_name.
  rewrite part_digits_below, part_number_of_app by exact L. apply atoi_digits4, L.
Qed.

Lemma part_name_suffix : forall n, has_part_suffix (part_name n) = true.
Proof. intros n. apply has_part_suffix_app. Qed.

(* the pair (n, m) is ordered by name as by number unless one is 10000 and the other in 1001..9999 *)
Definition bad_pair (n m : N) : bool :=
  ((n =? 10000) && in_range 1001 9999 m) || ((m =? 10000) && in_range 1001 9999 n).

Lemma below_bad_range : forall m, m < 10000 -> in_range 1001 9999 m = false -> m <= 1000.
Proof.
  intros m L H. unfold in_range in H. rewrite (proj2 (N.leb_le m 9999)), andb_true_r in H by lia.
  apply N.leb_gt in H. lia.
Qed.

Theorem name_order : forall n m, n <= 10000 -> m <= 10000 -> bad_pair n m = false ->
  lex_cmp (part_name n) (part_name m) = N.compare n m.
Proof.
  intros n m Hn Hm Hb. apply orb_false_elim in Hb. destruct Hb as [Hn' Hm'].
  destruct (N.eq_dec n 10000) as [->|En]; destruct (N.eq_dec m 10000) as [->|Em].
  - reflexivity.
  - assert (L : m < 10000) by lia. apply below_bad_range in Hn'; [|exact L].
    rewrite lex_cmp_antisym, name_10000_after by assumption.
    symmetry. apply N.compare_gt_iff. exact L.
  - assert (L : n < 10000) by lia. apply below_bad_range in Hm'; [|exact L].
    rewrite name_10000_after by assumption. symmetry. exact L.
  - apply name_order_below_10000; lia.
Qed.

(* every valid part sorts after the start marker "0000.part" of ListParts *)
Lemma name_after_zero : forall n, 1 <= n -> n <= 10000 -> lex_ltb (part_name 0) (part_name n) = true.
Proof.
  intros n H1 H2. unfold lex_ltb. rewrite name_order; [|discriminate|exact H2|].
  - rewrite (proj2 (N.compare_lt_iff 0 n)) by lia. reflexivity.
  - unfold bad_pair, in_range. simpl. destruct (n =? 10000); reflexivity.
Qed.

(* the defect: a pair the listing orders the other way round *)
Theorem name_order_refuted : exists n m, n <= 10000 /\ m <= 10000 /\ n < m /\
  lex_cmp (part_name n) (part_name m) = Gt.
Proof. exists 1001, 10000. repeat apply conj; try reflexivity; discriminate. Qed.

Lemma bad_pair_sym : forall n m, bad_pair n m = bad_pair m n.
Proof. intros. unfold bad_pair. apply orb_comm. Qed.

Lemma trig_order_pairs : forall l n m, trig_order l = false -> In n l -> In m l -> bad_pair n m = false.
Proof.
  intros l n m H Hn Hm. unfold bad_pair. apply andb_false_iff in H. destruct H as [H|H].
  - rewrite 2(N.eqb_sym _ 10000), !(existsb_false_in _ l _ H) by assumption. reflexivity.
  - rewrite !(existsb_false_in _ l _ H), !andb_false_r by assumption. reflexivity.
Qed.
