(* C20: every operation of model/HardLink.v that involves neither a hard link nor a manifest
   chunk, one by one: it deletes no referenced chunk and schedules all the garbage it makes
   ([Outcome_ok], from the generic transitions of FilerGCBase.v). *)
From Coq Require Import List NArith ZArith Bool String Arith Lia Permutation.
From SW Require Import proof.ListFacts model.FilerNS proof.FilerNSBase model.Chunks model.HardLink model.FilerGC
  proof.HardLinkBase proof.HardLinkInv proof.HardLinkOps proof.HardLinkProofs
  proof.FilerGCBase.
Import ListNotations.
Local Open Scope list_scope.

Lemma delete_chunks_if_not_new_good : forall ev old new, good_list (h_chunks old) ->
  forall c, In c (delete_chunks_if_not_new ev old new) <-> In c (ids old) /\ ~ In c (ids new).
Proof.
  intros ev old new Hg c. unfold delete_chunks_if_not_new.
  change (filter (fun oc => negb (has_fid (h_chunks new) (c_fid oc))) (h_chunks old))
    with (do_minus (h_chunks old) (h_chunks new)).
  rewrite expand_good by (apply good_filter; exact Hg). apply In_do_minus.
Qed.

Lemma fids_app : forall a b, fids (a ++ b) = fids a ++ fids b.
Proof. intros. unfold fids. apply map_app. Qed.

Lemma good_of_flags : forall cs, forallb chunk_ok cs = true -> forallb (fun c => negb (c_manifest c)) cs = true ->
  good_list cs.
Proof.
  intros cs H1 H2. unfold good_list. apply Forall_forall. intros c Hc.
  rewrite forallb_forall in H1, H2. split; [apply negb_true_iff, (H2 c Hc)|apply (H1 c Hc)].
Qed.

Lemma fids_place : forall cs off, fids (place_chunks off cs) = fids cs.
Proof. induction cs; simpl; intros; [reflexivity|]. now rewrite IHcs. Qed.

Definition sum_sizes (cs : list chunk) : N := fold_right (fun c acc => (c_size c + acc)%N) 0%N cs.

Lemma good_place : forall cs off, good_list cs -> (off + sum_sizes cs < max_int64)%N ->
  good_list (place_chunks off cs).
Proof.
  induction cs as [|c cs IH]; intros off Hg Hfit; [constructor|].
  inversion Hg as [|c' cs' [Hm Hok] Hcs]; subst. simpl in *.
  unfold chunk_ok in Hok. apply andb_true_iff in Hok. destruct Hok as [Hs _]. apply N.ltb_lt in Hs.
  constructor.
  - split; [exact Hm|]. unfold chunk_ok. simpl. apply andb_true_iff.
    split; apply N.ltb_lt; lia.
  - apply IH; [exact Hcs|]. lia.
Qed.

(* what doBatchDeleteFolderMetaAndData collects from children without link id: no ids, the chunks of
   the non-directory children *)
Lemma collect_children_plain : forall cs, (forall c, In c cs -> h_hl (snd c) = 0%N) ->
  collect_children cs = (flat_map (fun c => if h_dir (snd c) then [] else h_chunks (snd c)) cs, []).
Proof.
  induction cs as [|c cs IH]; intro H; [reflexivity|]. simpl.
  rewrite IH by (intros; apply H; now right).
  destruct (h_dir (snd c)); [reflexivity|]. now rewrite (H c (or_introl eq_refl)).
Qed.

Lemma children_raw_complete : forall m d n e, In (d ++ [n], e) m -> In (n, e) (children_raw m d).
Proof.
  intros m d n e H. unfold children_raw. apply in_flat_map. exists (d ++ [n], e). split; [assumption|].
  simpl. unfold HardLink.strip_prefix. rewrite strip_prefix_app. now left.
Qed.

Lemma list_children_In : forall s d n e, NoDup (map fst (names s)) ->
  (In (n, e) (list_children s d) <-> nfind s (d ++ [n]) = Some e).
Proof.
  intros s d n e Hnd. split.
  - intro H. apply (Permutation_in _ (Permutation_sym (list_children_perm s d))) in H.
    apply children_raw_In in H. now apply In_nfind.
  - intro H. apply (Permutation_in _ (list_children_perm s d)).
    apply children_raw_complete. now apply nfind_In.
Qed.

Lemma w_delete_one_plain_names : forall s p x, h_hl x = 0%N ->
  names (w_delete_one s p x) = adel HardLink.path_eqb (names s) p.
Proof. intros. unfold w_delete_one. rewrite H. reflexivity. Qed.

(* CreateEntry of an entry without link id fails and changes nothing, or writes the entry: over the
   old one, whose dropped chunks it schedules, or at a new name, below a directory it may have to
   create.  [extra]: what the caller schedules besides *)
Lemma filer_create_outcome : forall ev s p E x, PS s -> Excl s -> p <> [] ->
  h_hl E = 0%N -> good_list (h_chunks E) -> (h_dir E = true -> h_chunks E = []) ->
  (forall c, In c (ids E) -> In c (ids_at s p) \/ ~ In c (refs ev s)) ->
  let r := filer_create ev s p E x in
  (r = (s, err_of r, []) /\ err_of r <> OK) \/
  (err_of r = OK /\ forall extra,
     (forall c, In c extra -> ~ In c (ids E) /\ (In c (ids_at s p) \/ ~ In c (refs ev s))) ->
     Outcome_ok ev s (st_of r) (sched_of r ++ extra) true).
Proof.
  intros ev s p E x P X Hp He Hg Hd Hnew. simpl.
  destruct (filer_create_cases ev s p E x) as [F|[[old [Eo [_ ->]]]|[s0 [Eo [B ->]]]]]; [now left| |].
  - (* over the old entry: written into s itself; scheduled are the ids it drops, and [extra] *)
    right. split; [reflexivity|]. intros extra Hex. unfold st_of, sched_of. simpl.
    rewrite (find_entry_ps ev s p P Hp) in Eo. unfold ids_at in Hex. rewrite Eo in Hex.
    pose proof (delete_chunks_if_not_new_good ev old E (ps_good _ P p old Eo)) as Hdc.
    apply (write_generic ev s s p); auto; unfold ids_at; rewrite ?Eo.
    + now left.
    + intros c Hc. apply in_app_iff in Hc. destruct Hc as [Hc|Hc]; [|now apply Hex].
      apply Hdc in Hc. tauto.
    + intros c Hc Hn. apply in_app_iff. left. apply Hdc. tauto.
  - (* at a new name: written into the base state s0; scheduled is [extra] alone *)
    right. split; [reflexivity|]. intros extra Hex. unfold st_of, sched_of. simpl.
    rewrite (find_entry_ps ev s p P Hp) in Eo. unfold ids_at in Hex. rewrite Eo in Hex.
    apply (write_generic ev s s0 p); auto; unfold ids_at; rewrite ?Eo; [exact Hex|contradiction].
Qed.

Lemma filer_create_outcome_no_extra : forall ev s p E x, PS s -> Excl s -> p <> [] ->
  h_hl E = 0%N -> good_list (h_chunks E) -> (h_dir E = true -> h_chunks E = []) ->
  (forall c, In c (ids E) -> In c (ids_at s p) \/ ~ In c (refs ev s)) ->
  let r := filer_create ev s p E x in Outcome_ok ev s (st_of r) (sched_of r) true.
Proof.
  intros ev s p E x P X Hp He Hg Hd Hnew. simpl.
  destruct (filer_create_outcome ev s p E x P X Hp He Hg Hd Hnew) as [[Hr _]|[_ HG]].
  - rewrite Hr. now apply outcome_same.
  - rewrite <- (app_nil_r (sched_of _)). apply HG. intros c [].
Qed.

Lemma in_expand_cov : forall ev (g : N -> bool) cs c, good_list cs ->
  (In c (expand_delete ev (filter (fun x => negb (g (c_fid x))) cs)) <->
   In c (fids cs) /\ g c = false).
Proof.
  intros ev g cs c Hg. rewrite expand_good by (apply good_filter; exact Hg).
  rewrite (In_fids_filter (fun f => negb (g f)) cs c). rewrite negb_true_iff. reflexivity.
Qed.

Lemma grpc_create_outcome : forall ev s p e x, PS s -> Excl s -> p <> [] ->
  h_hl e = 0%N -> good_list (h_chunks e) -> (h_dir e = true -> h_chunks e = []) ->
  (forall c, In c (fids (h_chunks e)) -> In c (ids_at s p) \/ ~ In c (refs ev s)) ->
  let r := grpc_create ev s p e x in Outcome_ok ev s (st_of r) (sched_of r) true.
Proof.
  intros ev s p e x P X Hp He Hg Hd Hfresh. simpl.
  destruct (cleanup_good ev None (h_chunks e) Hg) as [g Hc]; [intros o Ho; discriminate|].
  unfold grpc_create. rewrite Hc. clear Hc.
  set (kept := filter (fun c => g (c_fid c)) (h_chunks e)).
  assert (HC := filer_create_outcome ev s p (set_chunks e kept) x P X Hp He (good_filter _ _ Hg)).
  simpl in HC.
  destruct (filer_create ev s p (set_chunks e kept) x) as [[s1 r1] d1].
  unfold err_of, st_of, sched_of in *. simpl in *.
  destruct HC as [[Hr Herr]|[-> HG]].
  - intro D. unfold kept. now rewrite (Hd D).
  - intros c Hc. unfold ids in Hc. simpl in Hc. apply In_fids_filter in Hc. apply Hfresh. tauto.
  - inversion Hr; subst. destruct r1; [congruence| ..]; now apply outcome_same.
  - apply HG. intros c Hc. apply (in_expand_cov ev g _ c Hg) in Hc. destruct Hc as [Hc1 Hc2]. split.
    + unfold ids. simpl. intro Hk. apply In_fids_filter in Hk. destruct Hk. congruence.
    + now apply Hfresh.
Qed.

(* FilerServer.UpdateEntry with its test for "nothing changed" left open: the handler of
   model/HardLink.v compares the decoded entries, that of model/FilerGCWire.v also looks at the
   encodings.  What is scheduled does not depend on the test. *)
Definition update_with (same : hentry -> hentry -> bool) (ev : env) (s : st) (p : path) (e : hentry) : res :=
  match find_entry ev s p with
  | None => (s, ENotFound, [])
  | Some ex =>
      match cleanup_chunks ev (Some ex) (h_chunks e) with
      | None => (s, EManifest, [])
      | Some (chunks, garbage) =>
          let new := set_chunks e chunks in
          if same ex new then (s, OK, [])
          else
            let (s1, r) := filer_update s p ex new in
            if is_err r then (s1, r, []) else (s1, OK, expand_delete ev garbage)
      end
  end.

Lemma update_with_outcome : forall same ev s p e, PS s -> Excl s -> p <> [] ->
  h_hl e = 0%N -> good_list (h_chunks e) -> (h_dir e = true -> h_chunks e = []) ->
  (forall c, In c (fids (h_chunks e)) -> In c (ids_at s p) \/ ~ In c (refs ev s)) ->
  let r := update_with same ev s p e in Outcome_ok ev s (st_of r) (sched_of r) true.
Proof.
  intros same ev s p e P X Hp He Hg Hd Hfresh. simpl.
  unfold update_with. rewrite (find_entry_ps ev s p P Hp).
  destruct (nfind s p) as [old|] eqn:Eo; [|now apply outcome_same].
  pose proof (ps_good _ P p old Eo) as Hog.
  destruct (cleanup_good ev (Some old) (h_chunks e) Hg) as [g Hc].
  { intros o Ho. inversion Ho; subst. exact Hog. }
  rewrite Hc. clear Hc.
  set (kept := filter (fun c => g (c_fid c)) (h_chunks e)).
  set (e' := set_chunks e kept).
  destruct (same old e'); [now apply outcome_same|].
  destruct (filer_update s p old e') as [s1 r1] eqn:Eu.
  destruct (filer_update_cases _ _ _ _ _ _ Eu) as [[A B]|[A B]]; subst s1.
  - destruct r1; try congruence; now apply outcome_same.
  - subst r1. unfold st_of, sched_of. simpl.
    assert (Hsched : forall c,
      In c (expand_delete ev (do_minus (h_chunks old) (h_chunks e) ++
                              filter (fun c0 => negb (g (c_fid c0))) (h_chunks e))) <->
      (In c (ids old) /\ ~ In c (fids (h_chunks e))) \/ (In c (fids (h_chunks e)) /\ g c = false)).
    { intro c. rewrite expand_good.
      - rewrite fids_app, in_app_iff, In_do_minus.
        rewrite (In_fids_filter (fun f => negb (g f)) (h_chunks e) c), negb_true_iff. reflexivity.
      - apply good_app; [apply good_filter; exact Hog|apply good_filter; exact Hg]. }
    apply (write_generic ev s s p); [exact P|exact X| | | | | | | ].
    + now left.
    + exact He.
    + apply good_filter; exact Hg.
    + simpl. intro D. unfold kept. rewrite (Hd D). reflexivity.
    + intros c Hc. unfold ids in Hc. simpl in Hc. apply In_fids_filter in Hc. apply Hfresh. tauto.
    + intros c Hc. apply Hsched in Hc. destruct Hc as [[Hc1 Hc2]|[Hc1 Hc2]].
      * split; [|left; unfold ids_at; now rewrite Eo].
        unfold ids. simpl. intro Hk. apply In_fids_filter in Hk. tauto.
      * split; [|now apply Hfresh].
        unfold ids. simpl. intro Hk. apply In_fids_filter in Hk. destruct Hk. congruence.
    + intros c Hc Hn. apply Hsched. unfold ids_at in Hc. rewrite Eo in Hc.
      destruct (in_dec N.eq_dec c (fids (h_chunks e))) as [Hi|Hi]; [|left; auto].
      right. split; [exact Hi|]. destruct (g c) eqn:Eg; [|reflexivity].
      exfalso. apply Hn. unfold ids. simpl. apply In_fids_filter. auto.
Qed.

Lemma grpc_append_outcome : forall ev s p cs, PS s -> Excl s -> p <> [] ->
  good_list cs ->
  (total_size (match nfind s p with Some e => h_chunks e | None => [] end) + sum_sizes cs < max_int64)%N ->
  (forall e, nfind s p = Some e -> h_dir e = false) ->
  (forall c, In c (fids cs) -> In c (ids_at s p) \/ ~ In c (refs ev s)) ->
  let r := grpc_append ev s p cs in Outcome_ok ev s (st_of r) (sched_of r) true.
Proof.
  intros ev s p cs P X Hp Hg Hfit Hfile Hfresh. simpl.
  unfold grpc_append. rewrite (find_entry_ps ev s p P Hp). unfold ids_at in Hfresh.
  destruct (nfind s p) as [old|] eqn:Eo; cbn [h_chunks].
  - pose proof (ps_good _ P p old Eo) as Hog.
    set (all := h_chunks old ++ place_chunks (total_size (h_chunks old)) cs).
    assert (Hall : good_list all) by (apply good_app; [exact Hog|apply good_place; assumption]).
    destruct (filter_manifest_good all Hall) as [F1 F2]. rewrite F1, F2.
    apply filer_create_outcome_no_extra; auto.
    + apply (ps_plain _ P p old Eo).
    + simpl. intro D. rewrite (Hfile old eq_refl) in D. discriminate.
    + intros c Hc. unfold ids, all in Hc. simpl in Hc. rewrite fids_app, in_app_iff, fids_place in Hc.
      unfold ids_at. rewrite Eo. destruct Hc as [Hc|Hc]; [now left|now apply Hfresh].
  - set (all := [] ++ place_chunks (total_size []) cs).
    assert (Hall : good_list all) by (apply good_place; assumption).
    destruct (filter_manifest_good all Hall) as [F1 F2]. simpl app at 1. rewrite F1, F2.
    apply filer_create_outcome_no_extra; auto.
    + simpl. discriminate.
    + intros c Hc. unfold ids, all in Hc. simpl in Hc. rewrite fids_place in Hc.
      unfold ids_at. rewrite Eo. now apply Hfresh.
Qed.

(* no recursion here: model/HardLink.v acts on paths of depth 1 and 2 only (in_scope), a child directory is
   empty, so DeleteFolderChildren and what collect_children gathers from the direct children is the whole delete *)
Lemma delete_entry_outcome : forall ev s p rec ign data, PS s -> Excl s -> p <> [] ->
  let r := delete_entry ev s p rec ign data in Outcome_ok ev s (st_of r) (sched_of r) data.
Proof.
  intros ev s p rec ign data P X Hp. simpl.
  unfold delete_entry. rewrite (find_entry_ps ev s p P Hp).
  destruct (nfind s p) as [e|] eqn:Eo; [|now apply outcome_same].
  set (cs := if h_dir e then list_children s p else []).
  destruct (h_dir e && negb rec && negb match cs with [] => true | _ => false end);
    [now apply outcome_same|].
  assert (Hcs : forall n e', In (n, e') cs <-> h_dir e = true /\ nfind s (p ++ [n]) = Some e').
  { intros n e'. unfold cs. destruct (h_dir e); [rewrite (list_children_In s p n e' (ps_nd _ P)); tauto|].
    simpl. split; [contradiction|intros [? _]; discriminate]. }
  rewrite (collect_children_plain cs).
  2:{ intros [n e'] Hin. apply Hcs in Hin. apply (ps_plain _ P _ _ (proj2 Hin)). }
  set (dc := flat_map _ cs).
  assert (Hdc : forall x, In x dc <-> exists n e', h_dir e = true /\ nfind s (p ++ [n]) = Some e' /\
                                       h_dir e' = false /\ In x (h_chunks e')).
  { intro x. unfold dc. rewrite in_flat_map. split.
    - intros [[n e'] [Hin Hx]]. simpl in Hx. apply Hcs in Hin.
      destruct (h_dir e') eqn:Ed'; [contradiction|]. exists n, e'. tauto.
    - intros [n [e' [A [B [C D]]]]]. exists (n, e'). split; [apply Hcs; auto|]. simpl. now rewrite C. }
  set (s1 := if h_dir e then w_delete_folder_children s p else s).
  set (s2 := w_delete_one s1 p e).
  (* the names of the final state *)
  assert (Hn2 : forall q, nfind s2 q =
            if HardLink.path_eqb p q then None
            else if h_dir e && HardLink.is_child_of p q then None else nfind s q).
  { intro q. unfold s2. rewrite w_delete_one_nfind. destruct (HardLink.path_eqb p q); [reflexivity|].
    unfold s1. destruct (h_dir e); simpl; [apply dfc_nfind|reflexivity]. }
  assert (Hnd2 : NoDup (map fst (names s2))).
  { unfold s2. rewrite w_delete_one_plain_names by (apply (ps_plain _ P p e Eo)).
    apply adel_NoDup. unfold s1. destruct (h_dir e); [|apply (ps_nd _ P)].
    simpl. apply NoDup_map_filter, (ps_nd _ P). }
  assert (Hsub : forall q e', nfind s2 q = Some e' -> nfind s q = Some e').
  { intros q e' H. rewrite Hn2 in H. destruct (HardLink.path_eqb p q); [discriminate|].
    destruct (h_dir e && HardLink.is_child_of p q); [discriminate|exact H]. }
  assert (Hgood_all : good_list (h_chunks e ++ dc)).
  { apply good_app; [apply (ps_good _ P p e Eo)|]. apply Forall_forall. intros x Hx.
    apply Hdc in Hx. destruct Hx as [n [e' [_ [Hin [_ Hx]]]]].
    pose proof (ps_good _ P _ _ Hin) as G. unfold good_list in G. rewrite Forall_forall in G. now apply G. }
  assert (Hfinal : Outcome_ok ev s s2 (if data then expand_delete ev (h_chunks e ++ dc) else []) data).
  { apply remove_generic; auto.
    - intros c Hc. destruct data; [|contradiction].
      rewrite expand_good in Hc by exact Hgood_all. rewrite fids_app, in_app_iff in Hc.
      destruct Hc as [Hc|Hc].
      + exists p, e. split; [exact Eo|]. split; [|exact Hc]. rewrite Hn2. now rewrite path_eqb_refl.
      + unfold fids in Hc. apply in_map_iff in Hc. destruct Hc as [x [Ex Hx]].
        apply Hdc in Hx. destruct Hx as [n [e' [Ed [Hin [_ Hx]]]]].
        exists (p ++ [n]), e'. split; [exact Hin|]. split.
        * rewrite Hn2, Ed. destruct (HardLink.path_eqb p (p ++ [n])); [reflexivity|].
          assert (Hch : HardLink.is_child_of p (p ++ [n]) = true) by (apply is_child_of_spec; eauto).
          rewrite Hch. reflexivity.
        * unfold ids, fids. apply in_map_iff. eauto.
    - intros Hd q e' c Hq Hq2 Hc. subst data.
      rewrite expand_good by exact Hgood_all. rewrite fids_app, in_app_iff.
      rewrite Hn2 in Hq2. destruct (peqb_spec p q) as [Epq|Epq].
      + subst q. assert (e' = e) by congruence. subst e'. now left.
      + destruct (h_dir e) eqn:Ed; simpl in Hq2; [|congruence].
        destruct (HardLink.is_child_of p q) eqn:Ech; [|congruence].
        apply is_child_of_spec in Ech. destruct Ech as [nm Eq]. subst q. right.
        unfold ids, fids in Hc. apply in_map_iff in Hc. destruct Hc as [x [Ex Hx]].
        unfold fids. apply in_map_iff. exists x. split; [exact Ex|]. apply Hdc.
        exists nm, e'. repeat split; auto.
        destruct (h_dir e') eqn:Ed'; [|reflexivity].
        rewrite (ps_dir _ P _ _ Hq Ed') in Hx. contradiction. }
  destruct data; unfold st_of, sched_of; simpl; exact Hfinal.
Qed.

Lemma strip_link_fields : forall e, h_hl (strip_link e) = 0%N /\ h_chunks (strip_link e) = h_chunks e /\
  h_dir (strip_link e) = h_dir e.
Proof. intros. repeat split. Qed.

Lemma move_self_outcome : forall ev s oldp newp eo, PS s -> Excl s -> oldp <> [] -> newp <> [] ->
  nfind s oldp = Some eo -> h_dir eo = false ->
  let r := move_self ev s oldp eo newp in Outcome_ok ev s (st_of r) (sched_of r) true.
Proof.
  intros ev s oldp newp eo P X Ho Hn Eo Hfile. simpl.
  unfold move_self. destruct (peqb_spec oldp newp) as [E|Hne];
    [now apply outcome_same|].
  set (E0 := strip_link eo).
  (* the delete of the old name, after a successful create into s1 = w_insert s0 newp E *)
  assert (Hdel : forall s0 E d1, base_ok s s0 ->
            h_hl E = 0%N -> h_chunks E = h_chunks eo -> h_dir E = false ->
            (forall c, In c d1 <-> In c (ids_at s newp)) ->
            let r2 := delete_entry ev (w_insert s0 newp E) oldp false false false in
            Outcome_ok ev s (st_of r2) (d1 ++ sched_of r2) true).
  { intros s0 E d1 B HE Hch HEd Hd1. simpl.
    pose proof (base_ok_PS s s0 P B) as P0.
    assert (P1 : PS (w_insert s0 newp E)).
    { apply PS_insert; auto.
      - rewrite Hch. apply (ps_good _ P oldp eo Eo).
      - intro D. congruence. }
    assert (Eo1 : nfind (w_insert s0 newp E) oldp = Some eo).
    { rewrite w_insert_nfind. destruct (peqb_spec newp oldp); [congruence|].
      apply (base_keeps s s0 oldp eo B Eo). }
    unfold delete_entry. rewrite (find_entry_ps ev _ oldp P1 Ho), Eo1, Hfile. simpl.
    unfold st_of, sched_of. simpl. rewrite app_nil_r.
    set (s2 := w_delete_one (w_insert s0 newp E) oldp eo).
    assert (Hn2 : forall q, nfind s2 q = if HardLink.path_eqb oldp q then None
                                         else if HardLink.path_eqb newp q then Some E else nfind s0 q).
    { intro q. unfold s2. rewrite w_delete_one_nfind. destruct (HardLink.path_eqb oldp q); [reflexivity|].
      apply w_insert_nfind. }
    assert (P2 : PS s2).
    { apply (PS_subset (w_insert s0 newp E)); auto.
      - unfold s2. rewrite w_delete_one_plain_names by (apply (ps_plain _ P oldp eo Eo)).
        apply adel_NoDup, (ps_nd _ P1).
      - intros q e' H. unfold s2 in H. rewrite w_delete_one_nfind in H.
        destruct (HardLink.path_eqb oldp q); [discriminate|exact H]. }
    apply (move_generic ev s s2 oldp newp eo E d1); auto.
    - rewrite Hn2. now rewrite path_eqb_refl.
    - rewrite Hn2. destruct (peqb_spec oldp newp); [contradiction|]. now rewrite path_eqb_refl.
    - unfold ids. now rewrite Hch.
    - intros q e' Hq1 Hq2 H. rewrite Hn2 in H.
      destruct (peqb_spec oldp q); [congruence|]. destruct (peqb_spec newp q); [congruence|].
      destruct (base_nfind s s0 q e' B H) as [A|[A [C _]]]; auto.
    - intros q e' Hq1 Hq2 H. rewrite Hn2.
      destruct (peqb_spec oldp q); [congruence|]. destruct (peqb_spec newp q); [congruence|].
      apply (base_keeps s s0 q e' B H). }
  destruct (filer_create_cases ev s newp E0 false) as [[-> Hr]|[[et [Et [_ ->]]]|[s0 [Et [B ->]]]]];
    [destruct (err_of _); [congruence|now apply outcome_same ..]| |];
    rewrite (find_entry_ps ev s newp P Hn) in Et.
  - pose proof (Hdel s (set_crtime E0 (h_crtime et)) (delete_chunks_if_not_new ev et E0)
                  (or_introl eq_refl) eq_refl eq_refl Hfile) as G.
    simpl in G.
    destruct (delete_entry ev (w_insert s newp (set_crtime E0 (h_crtime et))) oldp false false false)
      as [[s2 r2] d2]. unfold st_of, sched_of in *. simpl in *. apply G.
    intro c. rewrite (delete_chunks_if_not_new_good ev et E0 (ps_good _ P newp et Et)). unfold ids_at. rewrite Et.
    split; [tauto|]. intro Hc. split; [exact Hc|].
    intro Hc2. apply (X newp et oldp eo Et Eo (not_eq_sym Hne) c Hc Hc2).
  - pose proof (Hdel s0 E0 [] B eq_refl eq_refl Hfile) as G. simpl in G.
    destruct (delete_entry ev (w_insert s0 newp E0) oldp false false false) as [[s2 r2] d2].
    unfold st_of, sched_of in *. simpl in *. apply G.
    intro c. unfold ids_at. rewrite Et. tauto.
Qed.
