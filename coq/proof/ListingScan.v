(* C19: every store call returns the first L candidates (cand) and a lastFileName from which
   the rest follows: scan_ok (leveldb rule; generic prefixFilterEntries path, including its
   termination). *)
From Coq Require Import List NArith Bool String Ascii Arith Lia.
From SW Require Import proof.ListFacts model.Listing proof.ListingBase proof.ListingStore.
Import ListNotations.
Local Open Scope string_scope.
Local Open Scope list_scope.
Local Notation length := List.length.

Lemma lvl_list_spec : forall d start incl L p,
  wf d -> lvl_list d start incl L p = firstn L (cand start incl p d).
Proof.
  intros d start incl L p [Hs Hn]. unfold lvl_list, cand.
  set (k := if negb (String.eqb start "") && String.leb p start then start else p).
  (* the iterator is positioned at the larger of start and p *)
  assert (Hk : sle p k /\ sle start k /\ (k = start \/ k = p)).
  { subst k. destruct (String.eqb_spec start "") as [->|E]; cbn [negb andb].
    - auto using sle_refl, sle_empty.
    - destruct (String.leb p start) eqn:El.
      + apply leb_sle in El. auto using sle_refl.
      + split; [apply sle_refl|split; [|auto]]. apply not_slt_sle. intro H.
        rewrite (proj2 (leb_sle p start) (or_introl H)) in El. discriminate. }
  destruct Hk as [Hpk [Hsk Hk]].
  destruct (seek_spec k d Hs) as [S1 [S2 [S3 S4]]].
  rewrite (S4 (sel start incl p)).
  - apply lvl_iter_spec; auto; intros e He; eapply sle_trans; eauto.
  - intros e He Hlt. unfold sel. destruct Hk as [Ek|Ek]; rewrite Ek in Hlt.
    + assert (Ha : after start incl (ename e) = false).
      { apply not_true_iff_false. intro Ha. apply after_sle in Ha. eapply slt_irrefl. eapply sle_slt_trans; eauto. }
      rewrite Ha. reflexivity.
    + destruct (String.prefix p (ename e)) eqn:Ep; [|apply andb_false_r].
      exfalso. apply prefix_sle in Ep. eapply slt_irrefl. eapply sle_slt_trans; eauto.
Qed.

(* visited = the first L candidates; continuing after lastFileName (exclusive) on the
   directory without the expired entries just seen yields the remaining candidates *)
Definition scan_ok (d : dirst) (start : string) (incl : bool) (L : nat) (p : string) (w : wres) : Prop :=
  w_vis w = firstn L (cand start incl p d) /\
  (w_last w <> "" -> cand (w_last w) false p (del_expired (w_vis w) d) = skipn L (cand start incl p d)) /\
  (w_last w = "" -> w_vis w = []).

Lemma cand_in : forall start incl p d e, In e (cand start incl p d) -> In e d.
Proof. intros. apply filter_In in H. tauto. Qed.

Lemma cand_del_above : forall x p v d,
  (forall e, In e v -> sle (ename e) x) -> cand x false p (del_expired v d) = cand x false p d.
Proof.
  intros x p v d Hv. unfold cand. apply (filter_del_expired_above _ _ _ x); auto.
  intros e He. unfold sel in He. apply andb_true_iff in He. destruct He as [He _].
  apply ltb_slt. exact He.
Qed.

Lemma scan_ok_last_visited : forall d start incl L p,
  wf d -> scan_ok d start incl L p
            {| w_vis := firstn L (cand start incl p d);
               w_last := last_name (firstn L (cand start incl p d)) |}.
Proof.
  intros d start incl L p [Hs Hn]. unfold scan_ok. cbn [w_vis w_last].
  split; [reflexivity|]. split.
  - intros Hl.
    assert (Hne : firstn L (cand start incl p d) <> []) by (intro E; rewrite E in Hl; apply Hl; reflexivity).
    rewrite cand_del_above; [apply cand_cont; auto|].
    intros e He. apply sorted_le_last; auto. apply sorted_firstn. apply sorted_filter. auto.
  - intros Hl. apply last_name_nil; auto. intros e He. apply Hn. eapply cand_in. eapply firstn_in. eauto.
Qed.

Lemma cand_as_filter : forall start incl p d,
  cand start incl p d = filter (fun e => String.prefix p (ename e)) (filter (fun e => after start incl (ename e)) d).
Proof. intros. unfold cand, sel. rewrite filter_filter. reflexivity. Qed.

(* one pass over a batch: the first j entries were examined; either the page got full or
   the whole batch was examined *)
Lemma pf_batch_spec : forall p b need last em last', 1 <= need ->
  pf_batch p need b last = (em, last') ->
  exists j, j <= length b /\ (b <> [] -> 1 <= j) /\
    em = filter (fun e => String.prefix p (ename e)) (firstn j b) /\
    last' = (if Nat.eqb j 0 then last else last_name (firstn j b)) /\
    (length em = need \/ (j = length b /\ length em < need)).
Proof.
  intros p. induction b as [|e b IH]; intros need last em last' Hneed H.
  - inversion H; subst. exists 0. cbn. repeat split; auto; try lia. congruence.
  - assert (Hlast : forall j, j <= length b ->
              (if Nat.eqb j 0 then ename e else last_name (firstn j b)) = last_name (firstn (S j) (e :: b))).
    { intros j Hj. destruct j as [|j']; [reflexivity|]. cbn [Nat.eqb firstn].
      symmetry. apply last_name_cons. destruct b; [cbn in Hj; lia|discriminate]. }
    cbn [pf_batch] in H. destruct (String.prefix p (ename e)) eqn:Ep.
    + destruct need as [|[|n]]; [lia| |].
      * inversion H; subst. exists 1. cbn [firstn filter length Nat.eqb last_name]. rewrite Ep.
        repeat split; auto; try lia; cbn; lia.
      * destruct (pf_batch p (S n) b (ename e)) as [em0 l0] eqn:Eb. inversion H; subst.
        destruct (IH (S n) (ename e) em0 last' ltac:(lia) Eb) as [j [J1 [J2 [J3 [J4 J5]]]]].
        exists (S j). cbn [firstn filter length Nat.eqb]. rewrite Ep. cbn [length].
        split; [lia|]. split; [intros; lia|]. split; [rewrite J3; reflexivity|]. split.
        -- rewrite J4. apply Hlast. exact J1.
        -- destruct J5 as [J5|[J5 J6]]; [left; lia|right; split; lia].
    + destruct (IH need (ename e) em last' Hneed H) as [j [J1 [J2 [J3 [J4 J5]]]]].
      exists (S j). cbn [firstn filter length Nat.eqb]. rewrite Ep.
      split; [lia|]. split; [intros; lia|]. split; [exact J3|]. split.
      * rewrite J4. apply Hlast. exact J1.
      * destruct J5 as [J5|[J5 J6]]; [left; exact J5|right; split; [lia|exact J6]].
Qed.

Lemma after_cont : forall d start incl k v, wf d ->
  let A := filter (fun e => after start incl (ename e)) d in
  0 < k -> k <= length A -> (forall e, In e v -> In e (firstn k A)) ->
  filter (fun e => after (last_name (firstn k A)) false (ename e)) (del_expired v d) = skipn k A.
Proof.
  intros d start incl k v Hwf A Hk Hk' Hv.
  assert (Hne : firstn k A <> []).
  { intro E. assert (Hl : length (firstn k A) = 0) by (rewrite E; reflexivity).
    rewrite firstn_length in Hl. lia. }
  rewrite (filter_del_expired_above _ v d (last_name (firstn k A))).
  - transitivity (filter (fun e => after (last_name (firstn k A)) false (ename e) && true) d).
    + apply filter_ext_in. intros. rewrite andb_true_r. reflexivity.
    + apply (sel_cont (fun _ => true) d start incl); [apply Hwf| |exact Hne].
      rewrite firstn_skipn. unfold A. apply filter_ext_in. intros. rewrite andb_true_r. reflexivity.
  - intros e He. apply sorted_le_last; [apply sorted_firstn, sorted_filter, Hwf|auto].
  - intros e He. apply ltb_slt. exact He.
Qed.

(* prefixFilterEntries' loop from any of its states: [count] entries are in [acc], the batch is
   what follows [st]; it terminates, completes the page from the candidates after [st] and
   returns a name after which the rest of them follows.  ([last] is looked at only if the loop
   ends at once; the last clause of the conclusion is for the induction only.) *)
Lemma pf_loop_spec : forall fuel d st inc L p last count acc, wf d -> count <= L ->
  length (filter (fun e => after st inc (ename e)) d) < fuel ->
  (L <= count \/ filter (fun e => after st inc (ename e)) d = [] ->
   last <> "" -> cand last false p d = cand st inc p d) ->
  exists v last', pf_loop fuel d L p last count (mem_list d st inc L) acc = Some (acc ++ v, last') /\
    v = firstn (L - count) (cand st inc p d) /\
    (last' <> "" -> cand last' false p (del_expired v d) = skipn (L - count) (cand st inc p d)) /\
    (last' = "" -> v = []) /\ (last <> "" -> last' <> "").
Proof.
  induction fuel as [|f IH]; intros d st inc L p last count acc Hwf HcL Hfuel Hlast; [lia|].
  unfold mem_list. cbn [pf_loop].
  set (pre := fun e : entry => String.prefix p (ename e)).
  set (R := filter (fun e => after st inc (ename e)) d) in *.
  assert (HC : cand st inc p d = filter pre R) by apply cand_as_filter.
  destruct (Nat.ltb count L && negb (is_nil (firstn L R))) eqn:C.
  2:{ exists [], last. rewrite app_nil_r, del_expired_nil.
      assert (Hcase : L <= count \/ R = []).
      { apply andb_false_iff in C. destruct C as [C|C]; [left; apply Nat.ltb_ge; exact C|].
        apply negb_false_iff, is_nil_true in C. destruct (Nat.eq_dec L 0); [left; lia|right].
        apply firstn_nil_inv in C; [exact C|lia]. }
      assert (Hcut : firstn (L - count) (cand st inc p d) = [] /\
                     skipn (L - count) (cand st inc p d) = cand st inc p d).
      { destruct Hcase as [H|H]; [replace (L - count) with 0 by lia; auto|].
        rewrite HC, H. cbn [filter]. rewrite firstn_nil, skipn_nil. auto. }
      destruct Hcut as [-> ->]. auto 6. }
  apply andb_true_iff in C. destruct C as [C1 C2]. apply Nat.ltb_lt in C1. apply negb_true_iff, is_nil_false in C2.
  destruct (pf_batch p (L - count) (firstn L R) last) as [em last1] eqn:Eb.
  destruct (pf_batch_spec p (firstn L R) (L - count) last em last1 ltac:(lia) Eb) as [j [J1 [J2 [J3 [J4 J5]]]]]. specialize (J2 C2).
  assert (HjR : j <= length R) by (rewrite firstn_length in J1; lia).
  assert (Hjb : firstn j (firstn L R) = firstn j R).
  { rewrite firstn_firstn. f_equal. rewrite firstn_length in J1. lia. }
  rewrite Hjb in J3, J4. destruct (Nat.eqb_spec j 0) as [|_]; [lia|]. fold pre in J3.
  assert (Hl1 : last1 <> "").
  { rewrite J4. intro E. apply last_name_nil in E.
    - assert (Hl : length (firstn j R) = 0) by (rewrite E; reflexivity). rewrite firstn_length in Hl. lia.
    - intros e He. apply (proj2 Hwf). apply firstn_in in He. apply filter_In in He. tauto. }
  assert (HR' : filter (fun e => after last1 false (ename e)) (del_expired em d) = skipn j R).
  { rewrite J4. apply after_cont; [exact Hwf|lia|exact HjR|].
    intros e He. rewrite J3 in He. apply filter_In in He. tauto. }
  assert (Hc1 : cand last1 false p (del_expired em d) = filter pre (skipn j R))
    by (rewrite cand_as_filter, HR'; reflexivity).
  assert (Hsplit : cand st inc p d = em ++ filter pre (skipn j R)) by (rewrite HC, J3; apply filter_firstn_skipn).
  destruct (Nat.ltb (count + length em) L) eqn:C3.
  - (* the whole batch was examined and the page is not full: next batch *)
    apply Nat.ltb_lt in C3. destruct J5 as [J5|[J5 J6]]; [lia|].
    destruct (IH (del_expired em d) last1 false L p last1 (count + length em) (acc ++ em))
      as [v' [last2 [E [V1 [V2 [V3 V4]]]]]].
    + apply wf_del_expired. exact Hwf.
    + lia.
    + rewrite HR', skipn_length. lia.
    + auto.
    + rewrite Hc1 in V1, V2.
      rewrite E. exists (em ++ v'), last2. rewrite app_assoc, Hsplit. split; [reflexivity|].
      split; [|split; [|split; [intros E2; destruct (V4 Hl1 E2)|intros _; exact (V4 Hl1)]]].
      * rewrite firstn_app, (firstn_all2 em) by lia. rewrite V1. do 2 f_equal. lia.
      * intros Hl. rewrite <- del_expired_app, (V2 Hl), skipn_app, (skipn_all2 em) by lia. cbn [app]. f_equal. lia.
  - (* the page is full *)
    apply Nat.ltb_ge in C3. destruct J5 as [J5|[J5 J6]]; [|lia].
    assert (Hem : firstn (L - count) (cand st inc p d) = em) by (rewrite HC, <- J5, J3; apply firstn_filter_prefix).
    exists em, last1. split; [reflexivity|]. split; [symmetry; exact Hem|].
    split; [|split; [intros E; destruct (Hl1 E)|intros _; exact Hl1]].
    intros _. rewrite Hc1. symmetry. apply (firstn_app_skipn_eq _ em); [exact Hsplit|exact Hem].
Qed.

Lemma gen_list_spec : forall d start incl L p, wf d ->
  exists w, gen_list d start incl L p = Some w /\ scan_ok d start incl L p w.
Proof.
  intros d start incl L p Hwf. unfold gen_list. destruct (String.eqb_spec p "") as [Ep|Ep].
  - subst p. eexists. split; [reflexivity|].
    assert (Ec : mem_list d start incl L = firstn L (cand start incl "" d)).
    { unfold mem_list, cand. f_equal. apply filter_ext_in. intros e _. unfold sel.
      destruct (ename e); simpl; rewrite andb_true_r; reflexivity. }
    rewrite Ec. apply scan_ok_last_visited. auto.
  - destruct (pf_loop_spec (S (length d)) d start incl L p (last_name (mem_list d start incl L)) 0 [] Hwf)
      as [v [last' [E [V1 [V2 [V3 _]]]]]].
    + lia.
    + pose proof (filter_length_le (fun e => after start incl (ename e)) d). lia.
    + unfold mem_list. intros [H|H] Hl; exfalso; apply Hl; [replace L with 0 by lia|rewrite H, firstn_nil]; reflexivity.
    + rewrite E. rewrite Nat.sub_0_r in *. eexists. split; [reflexivity|]. split; [exact V1|]. split; assumption.
Qed.

Lemma wrapper_list_spec : forall s d start incl L p, wf d ->
  exists w, wrapper_list s d start incl L p = Some w /\ scan_ok d start incl L p w.
Proof.
  intros s d start incl L p Hwf. destruct s; simpl.
  - eexists. split; [reflexivity|]. rewrite (lvl_list_spec d start incl L p Hwf).
    apply scan_ok_last_visited. auto.
  - apply gen_list_spec; auto.
Qed.
