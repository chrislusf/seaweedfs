(* C20: the garbage decisions depend on the DECODED chunk ids only (model/FilerGCWire.v).
   A: the id comparisons on wire chunks commute with decoding, hence are invariant under re-encoding;
      the variant keyed by the raw string field is not.
   B: the encoding-aware state machine equals the decoded one except at UpdateEntry's EqualEntry shortcut
      (refuted there: enc_invariance_refuted; equal outside enc_visible: step_w_eq), and the C20 step / history
      theorems hold for EVERY encoding. *)
From Coq Require Import List NArith ZArith Bool String Arith Lia Permutation.
From SW Require Import model.FilerNS proof.FilerNSBase model.Chunks model.HardLink model.FilerGC model.FilerGCWire
  proof.HardLinkBase proof.HardLinkInv proof.HardLinkOps proof.HardLinkProofs
  proof.FilerGCBase proof.FilerGCProofs proof.FilerGCMain.
Import ListNotations.
Local Open Scope list_scope.

Lemma has_fid_decode : forall b f, has_fid (map decode b) f = existsb (fun d => (get_id d =? f)%N) b.
Proof. induction b as [|d b IH]; intro f; simpl; [reflexivity|]. now rewrite IH. Qed.

Theorem decode_do_minus : forall a b,
  map decode (do_minus_w a b) = do_minus (map decode a) (map decode b).
Proof.
  intros a b. unfold do_minus_w, do_minus. induction a as [|c a IH]; simpl; [reflexivity|].
  rewrite has_fid_decode.
  destruct (existsb (fun d => (get_id d =? get_id c)%N) b); simpl; now rewrite IH.
Qed.

(* what reaches the deletion sink is a function of the decoded lists *)
Theorem sink_do_minus : forall a b,
  sink_ids_w (do_minus_w a b) = fids (do_minus (map decode a) (map decode b)).
Proof.
  intros. rewrite <- decode_do_minus. unfold sink_ids_w, fids. rewrite map_map. reflexivity.
Qed.

Theorem do_minus_w_by_ids : forall a a' b b',
  map decode a = map decode a' -> map decode b = map decode b' ->
  map decode (do_minus_w a b) = map decode (do_minus_w a' b') /\
  sink_ids_w (do_minus_w a b) = sink_ids_w (do_minus_w a' b').
Proof.
  intros a a' b b' Ha Hb. split.
  - rewrite !decode_do_minus. now rewrite Ha, Hb.
  - rewrite !sink_do_minus. now rewrite Ha, Hb.
Qed.

Lemma decode_encode : forall enc c, decode (encode enc c) = c.
Proof.
  intros enc [f o sz m mf]. unfold decode, encode, get_id. simpl.
  destruct (enc =? 1)%N eqn:E1; simpl; [|reflexivity].
  apply N.eqb_eq in E1. subst enc. reflexivity.
Qed.

Lemma map_decode_encode : forall (encs : N -> N) cs, map decode (map (fun c => encode (encs (c_fid c)) c) cs) = cs.
Proof. intros. rewrite map_map. induction cs as [|c cs IH]; simpl; [reflexivity|]. now rewrite decode_encode, IH. Qed.

(* re-encoding the two lists in any way does not change the garbage *)
Theorem do_minus_reencode : forall (e1 e2 e3 e4 : N -> N) a b,
  sink_ids_w (do_minus_w (map (fun c => encode (e1 (c_fid c)) c) a) (map (fun c => encode (e2 (c_fid c)) c) b)) =
  sink_ids_w (do_minus_w (map (fun c => encode (e3 (c_fid c)) c) a) (map (fun c => encode (e4 (c_fid c)) c) b)).
Proof. intros. apply do_minus_w_by_ids; now rewrite !map_decode_encode. Qed.

(* the variant keyed by the raw string field is NOT invariant: the kept chunk 1, sent with its fid object
   only, is reported as garbage *)
Definition wa : list wchunk := [encode 0 (Chunk 1 0 10 1 false); encode 0 (Chunk 2 10 10 2 false)].
Definition wb0 : list wchunk := [encode 0 (Chunk 1 0 10 1 false)].
Definition wb1 : list wchunk := [encode 1 (Chunk 1 0 10 1 false)].
Theorem raw_key_not_invariant :
  map decode wb0 = map decode wb1 /\
  sink_ids_w (do_minus_raw wa wb0) = [2%N] /\ sink_ids_w (do_minus_raw wa wb1) = [1%N; 2%N] /\
  sink_ids_w (do_minus_w wa wb0) = [2%N] /\ sink_ids_w (do_minus_w wa wb1) = [2%N].
Proof. vm_compute. repeat split. Qed.

Lemma update_w_is_update_outside_visible : forall ev s p e sn, update_enc_visible ev s p e sn = false ->
  grpc_update_w ev s p e sn = grpc_update ev s p e.
Proof.
  intros ev s p e sn H. unfold grpc_update_w, grpc_update, update_enc_visible in *.
  destruct (find_entry ev s p) as [ex|]; [|reflexivity].
  destruct (cleanup_chunks ev (Some ex) (h_chunks e)) as [[chunks g]|]; [|reflexivity].
  destruct (hentry_eqb ex (set_chunks e chunks)); simpl in *; [|reflexivity].
  rewrite H. reflexivity.
Qed.

Theorem step_w_eq : forall ev s o sn, enc_visible ev s o sn = false -> step_w ev s o sn = step ev s o.
Proof.
  intros ev s o sn H. destruct o as [p e x|p e|p cs|p rec ign data|oldp newp|oldp newp fresh|p cs mt via|p];
    try reflexivity; simpl in *; unfold scoped.
  - destruct (in_scope p); [|reflexivity]. simpl in H. now rewrite update_w_is_update_outside_visible.
  - destruct (in_scope p); [|reflexivity]. unfold mount_write_w, mount_write.
    destruct (find_entry ev s p) as [e0|]; [|reflexivity].
    destruct via; [reflexivity|]. simpl in H. now rewrite update_w_is_update_outside_visible.
Qed.

Theorem step_w_enc_invariant : forall ev s o sn1 sn2,
  enc_visible ev s o sn1 = false -> enc_visible ev s o sn2 = false -> step_w ev s o sn1 = step_w ev s o sn2.
Proof. intros. rewrite !step_w_eq by assumption. reflexivity. Qed.

(* requests in which every chunk reference carries its fid object (LookupDirectoryEntry / ListEntries answers
   sent back, metadata events) never reach the visible spot *)
Definition all_with_fid (sn : sent) : bool := forallb (fun ke => negb (snd ke =? 2)%N) sn.

Lemma lacks_fid_false : forall sn c, all_with_fid sn = true -> lacks_fid sn c = false.
Proof.
  unfold lacks_fid, all_with_fid. induction sn as [|ke sn IHs]; intros c H; simpl; [reflexivity|].
  simpl in H. apply andb_true_iff in H. destruct H as [H1 H2]. apply negb_true_iff in H1.
  rewrite H1, andb_false_r. simpl. now apply IHs.
Qed.

Lemma lacks_fid_none : forall sn cs, all_with_fid sn = true -> existsb (lacks_fid sn) cs = false.
Proof.
  intros sn cs H. induction cs as [|c cs IH]; simpl; [reflexivity|].
  now rewrite IH, orb_false_r, lacks_fid_false.
Qed.

Lemma with_fid_not_visible : forall ev s o sn, all_with_fid sn = true -> enc_visible ev s o sn = false.
Proof.
  intros ev s o sn H.
  assert (U : forall p e, update_enc_visible ev s p e sn = false).
  { intros p e. unfold update_enc_visible. destruct (find_entry ev s p); [|reflexivity].
    destruct (cleanup_chunks ev (Some h) (h_chunks e)) as [[chunks g]|]; [|reflexivity].
    now rewrite lacks_fid_none, andb_false_r. }
  destruct o; try reflexivity; simpl.
  - now rewrite U, andb_false_r.
  - destruct via_create; [reflexivity|]. destruct (find_entry ev s p); [|now rewrite andb_false_r].
    now rewrite U, andb_false_r.
Qed.

(* the full statement is false: the same decoded request (an unchanged entry plus a chunk that is covered by a
   newer one), sent with both fields / with the string only *)
Definition w_ev : env := mk_env [] 0.
Definition w_ent (cs : list chunk) : hentry := mk_hentry false 420 1 1 1 cs 0 0%Z.
Definition w_c1 := Chunk 1 0 10 1 false.
Definition w_c2 := Chunk 2 10 10 2 false.
Definition w_c9 := Chunk 9 0 10 0 false.
Definition w_s : st := st_of (step w_ev empty_st (Create ["a"%string] (w_ent [w_c1; w_c2]) false)).
Definition w_o : op := Update ["a"%string] (w_ent [w_c9; w_c1; w_c2]).
Definition w_sn (enc : N) : sent := [(9, enc); (1, enc); (2, enc)]%N.

Theorem enc_invariance_refuted :
  sent_matches w_o (w_sn 0) = true /\ sent_matches w_o (w_sn 2) = true /\
  c20_quiet w_ev w_s w_o = true /\
  sched_of (step_w w_ev w_s w_o (w_sn 0)) = [] /\ sched_of (step_w w_ev w_s w_o (w_sn 2)) = [9%N] /\
  enc_visible w_ev w_s w_o (w_sn 0) = false /\ enc_visible w_ev w_s w_o (w_sn 2) = true.
Proof. vm_compute. repeat split. Qed.

Lemma step_w_with : forall ev s o sn,
  step_w ev s o sn =
  step_with (fun ex new => hentry_eqb ex new && negb (existsb (lacks_fid sn) (h_chunks new))) ev s o.
Proof. intros ev s [| | | | | |p cs mt []|] sn; reflexivity. Qed.

Theorem step_prop_quiet_w : forall ev s o sn, PS s -> Excl s -> c20_quiet ev s o = true ->
  let r := step_w ev s o sn in
  step_prop ev s o (refs ev s) (refs ev (st_of r)) (sched_of r) = true /\ PS (st_of r) /\ Excl (st_of r).
Proof. intros ev s o sn. rewrite step_w_with. apply step_with_prop_quiet. Qed.

Lemma run_ok_quiet_w : forall ev ops sns s, PS s -> Excl s ->
  c20_hist_quiet_w ev s ops sns = true -> c20_run_ok_w ev s ops sns = true.
Proof.
  induction ops as [|o ops IH]; intros sns s P X H; [reflexivity|].
  simpl in H. apply andb_true_iff in H. destruct H as [Hq Hr].
  destruct (step_prop_quiet_w ev s o (hd [] sns) P X Hq) as [A [P' X']]. simpl. rewrite A. simpl. now apply IH.
Qed.

Theorem c20_history_quiet_w : forall ev ops sns,
  c20_hist_quiet_w ev empty_st ops sns = true -> c20_run_ok_w ev empty_st ops sns = true.
Proof. intros. apply run_ok_quiet_w; [apply PS_empty|apply Excl_empty|assumption]. Qed.

(* with fid objects everywhere the encoding-aware run IS the decoded run *)
Theorem run_w_eq : forall ev ops sns s, forallb all_with_fid sns = true -> run_w ev s ops sns = run ev s ops.
Proof.
  induction ops as [|o ops IH]; intros sns s H; [reflexivity|]. simpl.
  assert (H0 : all_with_fid (hd [] sns) = true) by (destruct sns; simpl in *; [reflexivity|now apply andb_true_iff in H]).
  assert (H1 : forallb all_with_fid (tl sns) = true) by (destruct sns; simpl in *; [reflexivity|now apply andb_true_iff in H]).
  rewrite (step_w_eq ev s o _ (with_fid_not_visible ev s o _ H0)). now rewrite IH.
Qed.

(* non-vacuity: a history inside the hypothesis with all three encodings, the encoding visible at its last step *)
Definition w_hist : list op := [Create ["a"%string] (w_ent [w_c1; w_c2]) false;
                                Update ["a"%string] (mk_hentry false 384 1 2 1 [w_c1; w_c2] 0 0%Z);
                                Write ["a"%string] [w_c2; Chunk 3 0 10 3 false] 3 false;
                                Update ["a"%string] (mk_hentry false 384 1 3 1 [w_c9; w_c2; Chunk 3 0 10 3 false] 0 0%Z)].
Definition w_sns : list sent := [[(1, 2); (2, 2)]; [(1, 1); (2, 1)]; [(2, 1); (3, 2)]; [(9, 0); (2, 2); (3, 0)]]%N.
Theorem wire_example :
  c20_hist_quiet_w w_ev empty_st w_hist w_sns = true /\
  map sched_of (run_w w_ev empty_st w_hist w_sns) = [[]; []; [1]; [9]]%N /\
  map sched_of (run w_ev empty_st w_hist) = [[]; []; [1]; []]%N.
Proof. vm_compute. repeat split. Qed.
