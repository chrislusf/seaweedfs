(* C02, the scan: (1) what a scan-based copy (Volume.Compact) writes - every checksum is
   recomputed from whatever data the scan decoded, so an altered record comes out as a
   valid one; (2) the scan on a torn tail; (3) the self-checking clause instantiated with
   the real CRC32-C of model/NeedleCrc.v; (4) the examples of props/C02.v. *)
From Coq Require Import List NArith ZArith Bool Lia ZifyBool ZifyN ZifyNat.
From SW Require Import model.Needle model.NeedleCrc proof.NeedleProofs proof.NeedleCrcProofs.
Import ListNotations.
Local Open Scope N_scope.

Lemma body_size_view : forall v n, body_size (view v n) = body_size n.
Proof.
  intros v n. unfold body_size, data_size, name_size, mime_size, has_name, has_mime, has_lm, has_ttl, has_pairs.
  cbn [view flags data name mime pairs_size]. unfold has_name, has_mime, has_pairs.
  destruct (has_flag (flags n) FlagHasName), (has_flag (flags n) FlagHasMime), (has_flag (flags n) FlagHasPairs);
    reflexivity.
Qed.

(* the unflagged fields, which [view] blanks, are not written *)
Lemma body_bytes_view : forall v n, body_bytes (view v n) = body_bytes n.
Proof.
  intros v n.
  unfold body_bytes, name_field, mime_field, lm_field, ttl_field, pairs_field, data_size, name_size, mime_size,
    has_name, has_mime, has_lm, has_ttl, has_pairs.
  cbn [view flags data name mime pairs_size pairs last_modified ttl].
  unfold has_name, has_mime, has_lm, has_ttl, has_pairs.
  destruct (has_flag (flags n) FlagHasName), (has_flag (flags n) FlagHasMime),
    (has_flag (flags n) FlagHasLastModifiedDate), (has_flag (flags n) FlagHasTtl),
    (has_flag (flags n) FlagHasPairs); reflexivity.
Qed.

Lemma encode_view : forall v n, encode v (view v n) = encode v n.
Proof.
  intros v n. unfold encode, header_bytes, tail_bytes, pad_source.
  rewrite body_size_view, body_bytes_view. unfold has_lm, data_size.
  cbn [view flags data cookie id checksum last_modified append_at_ns]. unfold has_lm.
  destruct (has_flag (flags n) FlagHasLastModifiedDate), (v =? 3); rewrite ?andb_false_r; reflexivity.
Qed.

Definition fix_checksum (crc : list N -> N) (n : needle) : needle := n_set_checksum n (crc (data n)).

Lemma fix_checksum_id : forall crc n, checksum n = crc (data n) -> fix_checksum crc n = n.
Proof. intros crc n H. unfold fix_checksum. rewrite <- H. destruct n; reflexivity. Qed.

Lemma body_size_fix : forall crc n, body_size (fix_checksum crc n) = body_size n.
Proof. intros. destruct n; reflexivity. Qed.

Lemma data_fix : forall crc n, data (fix_checksum crc n) = data n.
Proof. intros. destruct n; reflexivity. Qed.

Lemma checksum_fix : forall crc n, checksum (fix_checksum crc n) = crc (data (fix_checksum crc n)).
Proof. intros. destruct n; reflexivity. Qed.

Lemma enc_okb_fix : forall crc n, enc_okb (fix_checksum crc n) = enc_okb n.
Proof. intros. destruct n; reflexivity. Qed.

Lemma ranges_ok_fix : forall crc n, ranges_ok n -> ranges_ok (fix_checksum crc n).
Proof.
  intros crc n H. unfold ranges_ok in *. rewrite body_size_fix. destruct n; cbn in *. exact H.
Qed.

Lemma rec_ok_fix : forall crc n, rec_ok n -> rec_ok (fix_checksum crc n).
Proof. intros crc n [H1 H2]. split; [rewrite enc_okb_fix; assumption|apply ranges_ok_fix; assumption]. Qed.

Lemma scan_visit_fix : forall crc v n, scan_visit crc v (fix_checksum crc n) = scan_visit crc v n.
Proof. intros. destruct n; reflexivity. Qed.

Section ScanCopy.
  Variable crc : list N -> N.

  Lemma scan_visit_payload : forall v n, data n <> [] ->
    scan_visit crc v n = dview v (fix_checksum crc n).
  Proof.
    intros v n Hne. rewrite <- scan_visit_fix.
    apply scan_visit_wf; [rewrite data_fix; assumption|apply checksum_fix].
  Qed.

  (* the visit of a record re-encodes to the record with its checksum REPLACED by the CRC of
     its data - whatever checksum the record carried *)
  Lemma scan_visit_encode : forall v n,
    encode v (d_n (scan_visit crc v n)) = encode v (fix_checksum crc n).
  Proof.
    intros v n. destruct (data_cases n) as [[He Ed]|[Hne _]].
    - unfold scan_visit. rewrite Ed.
      destruct n as [c i dt fl nm mm ps pr lm tt ck ns]. cbn [data] in He. subst dt.
      unfold fix_checksum, stripped, encode, header_bytes, body_bytes, tail_bytes, pad_source, body_size, data_size.
      cbn [cookie id data flags name mime pairs_size pairs last_modified ttl checksum append_at_ns d_n n_set_checksum len length N.of_nat].
      change (0 <? 0) with false. cbn [andb]. destruct (v =? 3); reflexivity.
    - rewrite scan_visit_payload by assumption. apply encode_view.
  Qed.

  Lemma scan_visit_size : forall v n,
    d_size (scan_visit crc v n) = body_size n /\ body_size (d_n (scan_visit crc v n)) = body_size n.
  Proof.
    intros v n. destruct (data_cases n) as [[He Ed]|[Hne _]].
    - unfold scan_visit, body_size. rewrite Ed. split; reflexivity.
    - rewrite scan_visit_payload by assumption. cbn [dview d_n d_size].
      rewrite body_size_view, body_size_fix. split; reflexivity.
  Qed.

  Lemma copy_bytes_expected : forall v rs off,
    copy_bytes v (scan_expected crc v rs off) = concat (map (encode v) (map (fix_checksum crc) rs)).
  Proof.
    intros v rs. induction rs as [|n rs IH]; intros off; [reflexivity|].
    unfold copy_bytes in *. cbn [scan_expected map concat fst]. rewrite IH, scan_visit_encode. reflexivity.
  Qed.

  (* (offset, size) of the records laid out from [off] on *)
  Fixpoint layout (v : N) (rs : list needle) (off : N) : list (N * N) :=
    match rs with
    | [] => []
    | n :: rs' => (off, body_size n) :: layout v rs' (off + actual_size (body_size n) v)
    end.

  Lemma copy_entries_expected : forall v rs off noff,
    copy_entries v (scan_expected crc v rs off) noff = layout v rs noff.
  Proof.
    intros v rs. induction rs as [|n rs IH]; intros off noff; [reflexivity|].
    cbn [scan_expected copy_entries layout]. destruct (scan_visit_size v n) as [H1 H2].
    rewrite H1, H2, IH. reflexivity.
  Qed.

  (* scanning [pre ++ records] and re-appending every visit after [npre] writes the
     same records with every checksum recomputed - for every list of records, whatever
     checksums they carry *)
  Theorem scan_copy_fixes : forall v npre pre rs, Forall rec_ok rs ->
    scan_copy crc v npre (pre ++ concat (map (encode v) rs)) (len pre)
      = npre ++ concat (map (encode v) (map (fix_checksum crc) rs)) /\
    scan_copy_index crc v npre (pre ++ concat (map (encode v) rs)) (len pre) = layout v rs (len npre).
  Proof.
    intros v npre pre rs Hall. unfold scan_copy, scan_copy_index. rewrite scan_records by assumption.
    rewrite copy_bytes_expected, copy_entries_expected. split; reflexivity.
  Qed.

  Definition unaltered (rs : list needle) : bool := forallb (fun n => checksum n =? crc (data n)) rs.

  Lemma map_fix_unaltered : forall rs, unaltered rs = true -> map (fix_checksum crc) rs = rs.
  Proof.
    induction rs as [|n rs IH]; intros H; [reflexivity|].
    cbn [unaltered forallb] in H. apply andb_true_iff in H. destruct H as [H1 H2].
    cbn [map]. rewrite IH by exact H2. rewrite fix_checksum_id by lia. reflexivity.
  Qed.

  Theorem scan_copy_clean : forall v npre pre rs, Forall rec_ok rs -> unaltered rs = true ->
    scan_copy crc v npre (pre ++ concat (map (encode v) rs)) (len pre) = npre ++ concat (map (encode v) rs).
  Proof.
    intros v npre pre rs Hall Hun. destruct (scan_copy_fixes v npre pre rs Hall) as [H _].
    rewrite H, map_fix_unaltered by assumption. reflexivity.
  Qed.

  Lemma len_concat_fix : forall v rs, Forall rec_ok rs ->
    len (concat (map (encode v) (map (fix_checksum crc) rs))) = len (concat (map (encode v) rs)).
  Proof.
    intros v rs. induction rs as [|n rs IH]; intros H; [reflexivity|].
    inversion H as [|? ? [Hok Hr] Hrs]; subst. cbn [map concat]. rewrite !len_app, IH by assumption.
    rewrite !len_encode by (rewrite ?enc_okb_fix; assumption). rewrite body_size_fix. reflexivity.
  Qed.

  (* every record with payload of the copy reads back WITHOUT error, with the data the scan saw *)
  Theorem scan_copy_reads_ok : forall v npre pre rs1 n rs2,
    Forall rec_ok (rs1 ++ n :: rs2) -> data n <> [] ->
    read_data crc (scan_copy crc v npre (pre ++ concat (map (encode v) (rs1 ++ n :: rs2))) (len pre))
              (len npre + len (concat (map (encode v) rs1))) (body_size n) v
      = (dview v (fix_checksum crc n), SOk).
  Proof.
    intros v npre pre rs1 n rs2 Hall Hne.
    destruct (scan_copy_fixes v npre pre _ Hall) as [H _]. rewrite H. clear H.
    apply Forall_app in Hall. destruct Hall as [H1 H2]. inversion H2 as [|? ? Hn H3]; subst.
    rewrite map_app, map_app, concat_app. cbn [map concat].
    rewrite <- (len_concat_fix v rs1 H1), <- len_app, app_assoc.
    rewrite <- (body_size_fix crc n).
    destruct (rec_ok_fix crc n Hn) as [Hok Hr].
    apply roundtrip_in_file; try assumption.
    - unfold empty_payload. rewrite data_fix. destruct (data n); [congruence|reflexivity].
    - apply checksum_fix.
  Qed.

  (* a record whose data bytes were overwritten in place is "returned", not "reported" *)
  Theorem scan_copy_launders : forall v npre pre rs1 n d' rs2,
    Forall rec_ok (rs1 ++ n :: rs2) -> data n <> [] -> len d' = len (data n) ->
    let file := pre ++ concat (map (encode v) rs1) ++ overwrite_data (encode v n) (len (data n)) d'
                    ++ concat (map (encode v) rs2) in
    exists r, read_data crc (scan_copy crc v npre file (len pre))
                        (len npre + len (concat (map (encode v) rs1))) (body_size n) v = (r, SOk)
              /\ data (d_n r) = d'.
  Proof.
    intros v npre pre rs1 n d' rs2 Hall Hne Hl file.
    set (n' := n_set_data n d').
    assert (Hbs : body_size n' = body_size n) by (apply body_size_set_data; assumption).
    assert (Hd : data n' = d') by (destruct n; reflexivity).
    assert (Hne' : data n' <> []).
    { rewrite Hd. intro E. apply Hne, len_zero_nil. rewrite <- Hl, E. reflexivity. }
    assert (Hall' : Forall rec_ok (rs1 ++ n' :: rs2)).
    { apply Forall_app in Hall. destruct Hall as [H1 H2].
      apply Forall_cons_iff in H2. destruct H2 as [[Hok Hr] H3].
      apply Forall_app. split; [assumption|]. constructor; [|assumption].
      apply set_data_ok; assumption. }
    assert (Hfile : file = pre ++ concat (map (encode v) (rs1 ++ n' :: rs2))).
    { unfold file. rewrite map_app, concat_app. cbn [map concat].
      unfold n'. rewrite encode_set_data by assumption. reflexivity. }
    exists (dview v (fix_checksum crc n')). split.
    - rewrite Hfile, <- Hbs. apply scan_copy_reads_ok; assumption.
    - cbn [dview d_n view data]. rewrite data_fix. exact Hd.
  Qed.

  Lemma parse_header_takeN : forall l k, 16 <= k -> parse_header (takeN k l) = parse_header l.
  Proof.
    intros l k H. unfold parse_header.
    rewrite !dropN_takeN, !takeN_takeN, !N.min_l by lia. reflexivity.
  Qed.

  (* a record cut anywhere: no visit if even the header is incomplete, else ONE visit carrying
     the header only (ReadNeedleBody's short read is logged and ignored) *)
  Lemma scan_from_torn : forall fuel v n k off, rec_ok n -> k < len (encode v n) ->
    scan_from crc (S fuel) v (takeN k (encode v n)) off =
      if k <? 16 then [] else [(header_needle (cookie n) (id n) (body_size n), off)].
  Proof.
    intros fuel v n k off [Hok Hr] Hk.
    assert (Hlen : len (takeN k (encode v n)) = k) by (apply len_takeN; lia).
    cbn [scan_from]. rewrite Hlen. unfold NeedleHeaderSize.
    destruct (k <? 16) eqn:E; [reflexivity|].
    rewrite parse_header_takeN by lia.
    rewrite <- (app_nil_r (encode v n)) at 1. rewrite parse_header_encode by assumption.
    cbv beta iota.
    assert (Hshort : len (takeN (body_length (body_size n) v) (dropN 16 (takeN k (encode v n)))) <? body_length (body_size n) v = true).
    { rewrite len_encode in Hk by assumption. unfold actual_size, NeedleHeaderSize in Hk.
      generalize dependent (body_length (body_size n) v). intros bl Hk.
      rewrite takeN_firstn, dropN_skipn, takeN_firstn. unfold len.
      rewrite firstn_length, skipn_length, firstn_length. lia. }
    rewrite Hshort. reflexivity.
  Qed.

  Theorem scan_torn : forall v pre rs n k, Forall rec_ok rs -> rec_ok n -> k < len (encode v n) ->
    scan crc v (pre ++ concat (map (encode v) rs) ++ takeN k (encode v n)) (len pre) =
      scan_expected crc v rs (len pre)
      ++ (if k <? 16 then []
          else [(header_needle (cookie n) (id n) (body_size n), len pre + len (concat (map (encode v) rs)))]).
  Proof.
    intros v pre rs n k Hall Hn Hk. unfold scan. rewrite dropN_app by reflexivity.
    assert (Hlen : len (takeN k (encode v n)) = k) by (apply len_takeN; lia).
    pose proof (length_concat_ge v rs) as Hge.
    rewrite scan_from_app; [|assumption|rewrite !app_length; lia].
    f_equal.
    destruct (length (pre ++ concat (map (encode v) rs) ++ takeN k (encode v n)) - length rs)%nat as [|f] eqn:Ef.
    - destruct (k <? 16) eqn:E; [reflexivity|]. rewrite !app_length in Ef. unfold len in Hlen. lia.
    - apply scan_from_torn; assumption.
  Qed.
End ScanCopy.

(* flipping a byte of the record inside its data region = overwriting the data with the
   flipped data *)
Lemma flip_byte_app_r : forall (a b : list N) k p m, len a = k -> flip_byte (a ++ b) (k + p) m = a ++ flip_byte b p m.
Proof.
  induction a as [|x a IH]; intros b k p m H.
  - rewrite len_nil in H. subst k. rewrite N.add_0_l. reflexivity.
  - rewrite len_cons in H. cbn [app flip_byte]. destruct (k + p =? 0) eqn:E; [lia|].
    f_equal. replace (N.pred (k + p)) with ((k - 1) + p) by lia. apply IH. lia.
Qed.

Lemma flip_byte_app_l : forall (a b : list N) p m, p < len a -> flip_byte (a ++ b) p m = flip_byte a p m ++ b.
Proof.
  induction a as [|x a IH]; intros b p m H.
  - rewrite len_nil in H. lia.
  - rewrite len_cons in H. cbn [app flip_byte]. destruct (p =? 0) eqn:E; [reflexivity|].
    cbn [app]. f_equal. apply IH. lia.
Qed.

Lemma overwrite_flip : forall v n pos mask, pos < len (data n) ->
  overwrite_data (encode v n) (len (data n)) (flip_byte (data n) pos mask)
    = flip_byte (encode v n) (20 + pos) mask.
Proof.
  intros v n pos mask Hp.
  assert (Hne : data n <> []) by (intro E; rewrite E, len_nil in Hp; lia).
  destruct (encode_data_window v n Hne) as [P [Q [HP E]]].
  pose proof (E (data n) eq_refl) as En. rewrite n_set_data_same in En. rewrite En.
  rewrite overwrite_window, flip_byte_app_r, flip_byte_app_l by assumption. reflexivity.
Qed.

(* The self-checking clause for the real checksum: any change confined to 4 consecutive data bytes of a stored
   record (a burst of up to 32 bits in a byte-aligned window; the data is a ++ x ++ b and x is
   xor-ed with the pattern w): ReadBytes answers the CRC error. *)
Theorem crc32c_burst_detected : forall v n a x b w, enc_okb n = true -> ranges_ok n -> bytes_ok (data n) ->
  checksum n = crc32c (data n) -> data n = a ++ x ++ b ->
  length x = length w -> (length w <= 4)%nat -> bytes_ok w -> Exists (fun m => m <> 0) w ->
  snd (read_bytes crc32c (overwrite_data (encode v n) (len (data n)) (a ++ xor_list x w ++ b)) (body_size n) v) = SCrc.
Proof.
  intros v n a x b w Hok Hr Hb Hck Hd Hl H4 Hw Hex.
  assert (Hne : data n <> []).
  { intro E. rewrite E in Hd. destruct a; [|discriminate]. destruct x; [|discriminate].
    destruct w; [inversion Hex|discriminate]. }
  assert (Hb' : bytes_ok (a ++ xor_list x w ++ b)).
  { rewrite Hd in Hb. unfold bytes_ok in *. apply Forall_app in Hb. destruct Hb as [Ha Hxb].
    apply Forall_app in Hxb. destruct Hxb as [Hx Hbb].
    apply Forall_app. split; [assumption|]. apply Forall_app. split; [|assumption].
    apply xor_list_bytes_ok; assumption. }
  apply altered_data_detected_ranges; try assumption.
  - rewrite Hd, !len_app, len_xor_list. reflexivity.
  - apply crc32c_lt. assumption.
  - apply crc32c_lt. assumption.
  - rewrite Hd. apply crc32c_detects_burst; assumption.
Qed.

(* xor any non-zero mask into any data byte (every single-bit flip) *)
Theorem crc32c_flip_detected : forall v n pos mask, enc_okb n = true -> ranges_ok n -> bytes_ok (data n) ->
  checksum n = crc32c (data n) -> pos < len (data n) -> 0 < mask < 256 ->
  snd (read_bytes crc32c (flip_byte (encode v n) (20 + pos) mask) (body_size n) v) = SCrc.
Proof.
  intros v n pos mask Hok Hr Hb Hck Hp Hm.
  rewrite <- overwrite_flip by assumption.
  destruct (flip_byte_split (data n) pos mask Hp) as [a [x [b [E1 E2]]]]. rewrite E2.
  apply crc32c_burst_detected; try assumption; [reflexivity|cbn; lia|repeat constructor; lia|left; lia].
Qed.

Theorem crc32c_flip_detected_in_file : forall v n pre post pos mask, enc_okb n = true -> ranges_ok n ->
  bytes_ok (data n) -> checksum n = crc32c (data n) -> pos < len (data n) -> 0 < mask < 256 ->
  snd (read_data crc32c (flip_byte (pre ++ encode v n ++ post) (len pre + (20 + pos)) mask) (len pre) (body_size n) v) = SCrc.
Proof.
  intros v n pre post pos mask Hok Hr Hb Hck Hp Hm.
  assert (Hne : data n <> []) by (intro E; rewrite E, len_nil in Hp; lia).
  rewrite flip_byte_app_r by reflexivity.
  assert (Hlt : 20 + pos < len (encode v n)).
  { rewrite len_encode by assumption. pose proof (data_size_lt_body n Hne) as H.
    unfold actual_size, body_length, NeedleHeaderSize, NeedleChecksumSize, data_size in *. lia. }
  rewrite flip_byte_app_l by exact Hlt.
  rewrite read_data_exact by (rewrite len_flip_byte; apply len_encode; assumption).
  apply crc32c_flip_detected; assumption.
Qed.

(* full statement one would like: after a scan-based copy of a file in which the data of a
   record was altered (and the checksum tells), reading that record does not succeed *)
Definition scan_self_checking (crc : list N -> N) : Prop :=
  forall v pre n d', rec_ok n -> data n <> [] -> checksum n = crc (data n) ->
    len d' = len (data n) -> crc d' <> crc (data n) ->
    snd (read_data crc (scan_copy crc v pre (pre ++ overwrite_data (encode v n) (len (data n)) d') (len pre))
                   (len pre) (body_size n) v) <> SOk.

(* the witness of known finding 1: id 1 "hello", one bit of the first byte flipped: "iello" *)
Definition launder_witness : needle :=
  {| cookie := 4660; id := 1; data := [104; 101; 108; 108; 111]; flags := 0; name := []; mime := [];
     pairs_size := 0; pairs := []; last_modified := 0; ttl := None;
     checksum := crc32c [104; 101; 108; 108; 111]; append_at_ns := 5 |}.

Lemma launder_witness_ok : rec_ok launder_witness.
Proof. split; [reflexivity|]. unfold ranges_ok. vm_compute. repeat split; try reflexivity; discriminate. Qed.

Theorem scan_self_checking_refuted : ~ scan_self_checking crc32c.
Proof.
  intros H.
  specialize (H 3 [3; 0; 0; 0; 0; 0; 0; 0] launder_witness [105; 101; 108; 108; 111] launder_witness_ok).
  apply H.
  - discriminate.
  - reflexivity.
  - reflexivity.
  - vm_compute. congruence.
  - (* by scan_copy_launders; here simply computed *) vm_compute. reflexivity.
Qed.

(* every CRC function that tells some pair of equally long byte strings apart fails the
   statement (the refutation does not depend on CRC32-C) *)
Theorem scan_self_checking_refuted_gen : forall crc n d', rec_ok n -> data n <> [] ->
  checksum n = crc (data n) -> len d' = len (data n) -> crc d' <> crc (data n) ->
  ~ scan_self_checking crc.
Proof.
  intros crc n d' Hn Hne Hck Hl Hcrc H.
  apply (H 3 [] n d' Hn Hne Hck Hl Hcrc).
  destruct (scan_copy_launders crc 3 [] [] [] n d' []) as [r [Hr _]]; try assumption.
  - constructor; [assumption|constructor].
  - cbn [map concat app] in Hr. rewrite app_nil_r in Hr. cbn [app].
    change (len (@nil N) + len (@nil N)) with (len (@nil N)) in Hr. rewrite Hr. reflexivity.
Qed.

(* the direct read reports the CRC error, the read after the copy
   returns the altered bytes with status ok *)
Lemma launder_witness_computed :
  let n := launder_witness in
  let sb := [3; 0; 0; 0; 0; 0; 0; 0] in
  let bad := sb ++ overwrite_data (encode 3 n) 5 [105; 101; 108; 108; 111] in
  snd (read_data crc32c bad 8 (body_size n) 3) = SCrc /\
  (let '(r, s) := read_data crc32c (scan_copy crc32c 3 sb bad 8) 8 (body_size n) 3 in
   (data (d_n r), s)) = ([105; 101; 108; 108; 111], SOk).
Proof. vm_compute. split; reflexivity. Qed.

Definition example_needle_c : needle := fix_checksum crc32c example_needle.

Lemma example_bytes_ok : bytes_ok (data example_needle_c).
Proof. unfold bytes_ok. cbn. repeat constructor. Qed.

(* a version-3 needle with every defined flag set satisfies all the hypotheses of the
   theorems, is 8-aligned, round-trips, is found by the scan after an 8-byte super block, a
   changed data byte is detected with the real CRC32-C, a torn copy of it is visited header
   only, and a scan-based copy of the undamaged file is the file *)
Lemma example_holds :
  let n := example_needle_c in
  let sb := [3; 0; 0; 0; 0; 0; 0; 0] in
  enc_okb n = true /\ ranges_ok n /\ rec_ok n /\ checksum n = crc32c (data n) /\
  empty_payload n = false /\ normalb 3 n = true /\ unaltered crc32c [n; n] = true /\
  len (encode 3 n) = 64 /\
  read_bytes crc32c (encode 3 n) (body_size n) 3 = (dview 3 n, SOk) /\
  scan crc32c 3 (sb ++ encode 3 n ++ encode 3 n) 8 = [(dview 3 n, 8); (dview 3 n, 72)] /\
  snd (read_bytes crc32c (flip_byte (encode 3 n) (20 + 2) 4) (body_size n) 3) = SCrc /\
  scan crc32c 3 (sb ++ encode 3 n ++ takeN 40 (encode 3 n)) 8
    = [(dview 3 n, 8); (header_needle (cookie n) (id n) (body_size n), 72)] /\
  scan_copy crc32c 3 sb (sb ++ encode 3 n ++ encode 3 n) 8 = sb ++ encode 3 n ++ encode 3 n.
Proof. vm_compute. repeat split; try reflexivity; discriminate. Qed.

Lemma example_toy_holds :
  let n := example_needle in
  enc_okb n = true /\ ranges_ok n /\ rec_ok n /\ checksum n = toy_crc (data n) /\
  empty_payload n = false /\ normalb 3 n = true /\
  len (encode 3 n) = 64 /\
  read_bytes toy_crc (encode 3 n) (body_size n) 3 = (dview 3 n, SOk) /\
  scan toy_crc 3 ([3; 0; 0; 0; 0; 0; 0; 0] ++ encode 3 n ++ encode 3 n) 8 = [(dview 3 n, 8); (dview 3 n, 72)] /\
  snd (read_bytes toy_crc (overwrite_data (encode 3 n) 5 [1; 2; 7; 255; 0]) (body_size n) 3) = SCrc.
Proof. vm_compute. repeat split; try reflexivity; discriminate. Qed.
