(* C07: ec.decode (FindDatFileSize + WriteDatFile + WriteIdxFileFromEcIndex) followed by the mount of the
   decoded volume (Volume.load: CheckAndFixVolumeDataIntegrity + doLoading), model/EcIndex.v [dm_*]:
   outside the trigger [dm_cuts] the mounted needle map is [live_spec]; a non-empty journal is never
   inside the trigger; the witness inside it. *)
From Coq Require Import List NArith ZArith Bool Lia Sorted.
From Coq Require Import ZifyBool ZifyN ZifyNat.
From SW Require Import model.EcIndex proof.EcIndexProofs.
Import ListNotations.
Local Open Scope N_scope.

(* doLoading = MemDb replay when no entry has Size 0 *)
Lemma nm_step_memdb : forall m e, e_size e <> 0%Z -> dm_nm_step m e = memdb_step m e.
Proof.
  intros m e Hs. unfold dm_nm_step, memdb_step, size_is_deleted, tombstone. rewrite size_is_valid_pos.
  destruct (e_off e =? 0); cbn [negb andb orb]; [reflexivity|].
  destruct (Z.ltb_spec 0 (e_size e)) as [Hp|Hp]; destruct (Z.ltb_spec (e_size e) 0) as [Hn|Hn];
    destruct (Z.eqb_spec (e_size e) (-1)) as [He|He]; cbn [orb]; try reflexivity; lia.
Qed.

Lemma nm_load_memdb : forall es acc, Forall (fun e => e_size e <> 0%Z) es ->
  fold_left dm_nm_step es acc = fold_left memdb_step es acc.
Proof.
  induction es as [|e es IH]; intros acc H; [reflexivity|].
  inversion H as [|? ? He Hes]; subst. cbn [fold_left]. rewrite nm_step_memdb by assumption.
  apply IH. assumption.
Qed.

Lemma tomb_sizes : forall js, Forall (fun e => e_size e <> 0%Z) (map tomb_entry js).
Proof.
  intros js. rewrite Forall_forall. intros x Hx. apply in_map_iff in Hx.
  destruct Hx as [k [Hk _]]. subst x. unfold tomb_entry, tombstone. simpl. lia.
Qed.

Lemma walk_decoded_idx : forall osz es js, ok_osz osz -> Forall (wf_entry osz) es ->
  Forall (fun k => k < two64) js ->
  walk osz (write_idx_from_ec osz (encode osz es) (concat (map enc_key js))) = es ++ map tomb_entry js.
Proof.
  intros osz es js Hosz Hwf Hjs. unfold write_idx_from_ec. rewrite ecj_keys_concat by assumption.
  rewrite <- encode_app. apply walk_encode; [assumption|]. apply Forall_app; auto using tomb_entries_wf.
Qed.

(* FindDatFileSize covers every live entry *)
Lemma dat_size_acc : forall es a,
  let F := fold_left (fun acc e => if size_is_deleted (e_size e) then acc
                                   else if acc <? dm_stop e then dm_stop e else acc) es a in
  a <= F /\ forall e, In e es -> live e = true -> dm_stop e <= F.
Proof.
  induction es as [|x es IH]; intros a; cbn [fold_left]; [split; [lia | intros e []]|].
  destruct (size_is_deleted (e_size x)) eqn:D;
    [destruct (IH a) as [G1 G2]
    |destruct (N.ltb_spec a (dm_stop x)); [destruct (IH (dm_stop x)) as [G1 G2] | destruct (IH a) as [G1 G2]]];
    (split; [lia|]); intros e [->|Hin] Hl; auto; unfold live in Hl; rewrite D in Hl; try discriminate; lia.
Qed.

Lemma dat_size_ge : forall es e, In e es -> live e = true -> dm_stop e <= dm_dat_size_es es.
Proof. intros es. exact (proj2 (dat_size_acc es 0)). Qed.

Definition rfind (k : N) (es : list entry) : option entry := find (fun e => e_key e =? k) es.

Lemma om_get_map : forall l k,
  om_get (map kv_of_entry l) k = option_map (fun e => (e_off e, e_size e)) (rfind k l).
Proof.
  induction l as [|e l IH]; intros k; [reflexivity|]. cbn [map om_get rfind find kv_of_entry].
  rewrite (N.eqb_sym k (e_key e)). destruct (e_key e =? k); [reflexivity|]. apply IH.
Qed.

Lemma rfind_filter : forall f k es, sorted_keys es ->
  rfind k (filter f es) = match rfind k es with Some e => if f e then Some e else None | None => None end.
Proof.
  intros f k es Hs. induction Hs as [|e es Hs IH Hall]; [reflexivity|].
  cbn [filter rfind find]. destruct (N.eqb_spec (e_key e) k) as [Hk|Hk].
  - destruct (f e) eqn:Hf.
    + cbn [find]. destruct (N.eqb_spec (e_key e) k); [reflexivity|contradiction].
    + apply find_none_keys. intros Hin. apply in_map_iff in Hin. destruct Hin as [x [Hxk Hx]].
      apply filter_In in Hx. destruct Hx as [Hx _]. rewrite Forall_forall in Hall.
      specialize (Hall x Hx). lia.
  - destruct (f e).
    + cbn [find]. destruct (N.eqb_spec (e_key e) k); [contradiction|]. exact IH.
    + exact IH.
Qed.

(* doCheckAndFixVolumeData returns nil on an entry with a zero offset and the loop stops *)
Lemma cf_loop_zero_offset : forall f e r pos recs len h, e_off e = 0 ->
  dm_cf_loop (S f) (e :: r) pos recs len h = (len, h).
Proof. intros f e r pos recs len h H. cbn [dm_cf_loop]. rewrite H. reflexivity. Qed.

Section Decode.
Variable osz : N.
Variables (es : list entry) (js : list N) (recs : list dm_rec).
Hypothesis Hosz : ok_osz osz.
Hypothesis Hwf : Forall (wf_entry osz) es.
Hypothesis Hs : sorted_keys es.
Hypothesis Hnz : Forall (fun e => e_off e <> 0) es.
Hypothesis Hjs : Forall (fun k => k < two64) js.

Let ecx := encode osz es.
Let ecj := concat (map enc_key js).

Lemma decode_dat_size : dm_dat_size osz ecx = dm_dat_size_es es.
Proof. unfold dm_dat_size, ecx. rewrite walk_encode by assumption. reflexivity. Qed.

(* outside the trigger the integrity check returns the decoded length and keeps every entry *)
Lemma no_cut : forall x j, dm_cuts osz x j recs = false ->
  dm_check_fix (walk osz (write_idx_from_ec osz x j)) (dm_keep recs (dm_dat_size osz x)) (dm_dat_size osz x) =
  (dm_dat_size osz x, N.of_nat (length (walk osz (write_idx_from_ec osz x j)))).
Proof.
  intros x j. unfold dm_cuts. cbv zeta. destruct (dm_check_fix _ _ _) as [len' h]. intros H.
  apply negb_false_iff, andb_true_iff in H. destruct H as [H1 H2].
  apply N.eqb_eq in H1, H2. rewrite H1, H2. reflexivity.
Qed.

(* outside the trigger (the integrity check of the mount changes nothing), for an index
   without Size-0 entries (finding C04 k=0: doLoading drops them), the mounted volume's needle
   map is exactly the live set "live entries whose key is not journalled", the .dat keeps its
   decoded length, no index entry is dropped, and every key reads accordingly. *)
Theorem decode_then_load_partial :
  Forall (fun e => e_size e <> 0%Z) es ->
  8 <= dm_dat_size osz ecx ->
  dm_cuts osz ecx ecj recs = false ->
  dm_decode_mount osz ecx ecj recs =
    Some (live_spec js es, dm_dat_size osz ecx, N.of_nat (length es + length js)) /\
  forall k, dm_read (live_spec js es) (dm_dat_size osz ecx) k =
    match rfind k es with
    | Some e => if live e && negb (in_keys js k) then DmData (e_off e) (e_size e) else DmNotFound
    | None => DmNotFound
    end.
Proof.
  intros Hsz Hd Hc. split.
  - unfold dm_decode_mount, dm_mount.
    rewrite (proj2 (N.ltb_ge _ _) Hd), (no_cut _ _ Hc), Nat2N.id, firstn_all.
    unfold ecx, ecj. rewrite walk_decoded_idx by assumption.
    unfold dm_nm_load. rewrite nm_load_memdb by (apply Forall_app; split; [assumption|apply tomb_sizes]).
    pose proof (rebuild_same_live_set osz es js Hosz Hwf Hs Hnz Hjs) as [Hm _].
    unfold memdb_load in Hm. rewrite walk_decoded_idx in Hm by assumption.
    rewrite Hm, app_length, map_length. reflexivity.
  - intros k. unfold dm_read, live_spec. rewrite om_get_map. rewrite rfind_filter by assumption.
    destruct (rfind k es) as [e|] eqn:Hf; [|reflexivity].
    apply find_some in Hf. destruct Hf as [Hin Hk]. apply N.eqb_eq in Hk. subst k.
    destruct (live e) eqn:Hl; cbn [andb]; [|reflexivity].
    destruct (in_keys js (e_key e)); cbn [negb option_map]; [reflexivity|].
    rewrite (proj2 (N.eqb_neq _ _) (proj1 (Forall_forall _ _) Hnz e Hin)).
    rewrite (proj2 (Z.eqb_neq _ _) (proj1 (Forall_forall _ _) Hsz e Hin)).
    pose proof (dat_size_ge es e Hin Hl) as Hge. apply N.leb_le in Hge.
    unfold live in Hl. apply negb_true_iff in Hl.
    rewrite Hl, decode_dat_size. unfold dm_stop in Hge. rewrite Hge. reflexivity.
Qed.

(* a non-empty journal protects the decoded volume: the last index entry is a zero-offset
   tombstone, doCheckAndFixVolumeData returns nil on it and the loop stops: never inside the trigger *)
Theorem decode_journal_no_cut : js <> [] -> dm_cuts osz ecx ecj recs = false.
Proof.
  intros Hne. unfold dm_cuts, ecx, ecj. rewrite walk_decoded_idx by assumption.
  destruct (exists_last Hne) as [js' [j Hj]]. rewrite Hj.
  unfold dm_check_fix. rewrite map_app, app_assoc, rev_app_distr. cbn [map rev app].
  rewrite cf_loop_zero_offset by reflexivity. rewrite !N.eqb_refl. reflexivity.
Qed.
End Decode.

(* REFUTED: the full statement ("the decoded and mounted volume serves the live set") fails.
   Witness: Write(1,"aaa"), Write(2,"bbb"), Write(1,"cccc"), encoded, decoded with an
   empty journal: the .idx is the key-sorted .ecx, its last entry (key 2) is taken for the last
   record and the .dat is truncated 128 -> 88: key 1 (live, never deleted) cannot be read. *)
Definition w_es : list entry :=
  [ {| e_key := 1; e_off := 11; e_size := 9%Z |}; {| e_key := 2; e_off := 6; e_size := 8%Z |} ].
Definition w_recs : list dm_rec :=
  [ {| dm_off := 1; dm_key := 1; dm_size := 8%Z |}; {| dm_off := 6; dm_key := 2; dm_size := 8%Z |};
    {| dm_off := 11; dm_key := 1; dm_size := 9%Z |} ].

Lemma w_es_ok : ok_osz 4 /\ Forall (wf_entry 4) w_es /\ sorted_keys w_es /\
  Forall (fun e => e_off e <> 0) w_es /\ Forall (fun e => e_size e <> 0%Z) w_es.
Proof.
  split; [left; reflexivity|]. split; [repeat constructor; vm_compute; congruence|].
  split; [repeat constructor|]. split; repeat constructor; discriminate.
Qed.

Lemma decode_then_load_refuted :
  exists osz es recs,
    ok_osz osz /\ Forall (wf_entry osz) es /\ sorted_keys es /\
    Forall (fun e => e_off e <> 0) es /\ Forall (fun e => e_size e <> 0%Z) es /\
    dm_cuts osz (encode osz es) [] recs = true /\
    exists m len' h k e,
      dm_decode_mount osz (encode osz es) [] recs = Some (m, len', h) /\
      rfind k es = Some e /\ live e = true /\ dm_read m len' k = DmReadErr.
Proof.
  exists 4, w_es, w_recs. destruct w_es_ok as [H1 [H2 [H3 [H4 H5]]]].
  repeat (split; [assumption|]). split; [vm_compute; reflexivity|].
  exists [(1, (11, 9%Z)); (2, (6, 8%Z))], 88, 2, 1, {| e_key := 1; e_off := 11; e_size := 9%Z |}.
  repeat split; vm_compute; reflexivity.
Qed.

(* non-vacuity of the partial theorem with an EMPTY journal: the largest key was written last
   (Write(1,"aaa"), Write(2,"bbb")): no cut, both keys served; and with a journal: key 1 of the
   refutation witness deleted on the EC volume, nothing is cut and key 2 is served *)
Definition x_es : list entry :=
  [ {| e_key := 1; e_off := 1; e_size := 8%Z |}; {| e_key := 2; e_off := 6; e_size := 8%Z |} ].
Lemma decode_then_load_example :
  ok_osz 5 /\ Forall (wf_entry 5) x_es /\ sorted_keys x_es /\
  Forall (fun e => e_off e <> 0) x_es /\ Forall (fun e => e_size e <> 0%Z) x_es /\
  8 <= dm_dat_size 5 (encode 5 x_es) /\
  dm_cuts 5 (encode 5 x_es) [] (firstn 2 w_recs) = false /\
  dm_decode_mount 5 (encode 5 x_es) [] (firstn 2 w_recs) = Some ([(1, (1, 8%Z)); (2, (6, 8%Z))], 88, 2) /\
  dm_cuts 4 (encode 4 (set_deleted 1 w_es)) (enc_key 1) w_recs = false /\
  dm_decode_mount 4 (encode 4 (set_deleted 1 w_es)) (enc_key 1) w_recs = Some ([(2, (6, 8%Z))], 88, 3).
Proof.
  split; [right; reflexivity|]. split; [repeat constructor; vm_compute; congruence|].
  split; [repeat constructor|]. split; [repeat constructor; discriminate|].
  split; [repeat constructor; discriminate|].
  repeat split; vm_compute; congruence.
Qed.

(* the non-vacuity example of props/C07.v *)
Definition c07_ex_es : list entry :=
  [ {| e_key := 1; e_off := 10; e_size := 100%Z |};
    {| e_key := 2; e_off := 4294967296 + 7; e_size := 0%Z |};
    {| e_key := 3; e_off := 1099511627775; e_size := 2147483647%Z |};
    {| e_key := 4294967301; e_off := 12; e_size := 5%Z |};
    {| e_key := 18446744073709551615; e_off := 13; e_size := 6%Z |} ].
Lemma c07_example_holds :
  ok_osz 5 /\ Forall (wf_entry 5) c07_ex_es /\ sorted_keys c07_ex_es /\
  Forall (fun e => e_off e <> 0) c07_ex_es /\
  delete_from_ecx 5 (encode 5 c07_ex_es) [] 3 =
    (ENone, encode 5 (set_deleted 3 c07_ex_es), [0;0;0;0;0;0;0;3]) /\
  map (fun k => sres_val (find_from_ecx 5 (encode 5 (set_deleted 3 c07_ex_es)) k))
      [1; 2; 3; 4; 4294967301] =
    [Some (10, 100%Z); Some (4294967303, 0%Z); Some (1099511627775, (-1)%Z); None; Some (12, 5%Z)] /\
  is_live 7 c07_ex_es = false /\ is_live 3 c07_ex_es = true.
Proof.
  split; [right; reflexivity|]. split; [repeat constructor; vm_compute; congruence|].
  split; [repeat constructor|]. split; [repeat constructor; discriminate|].
  repeat split; vm_compute; reflexivity.
Qed.
