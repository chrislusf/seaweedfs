(* C22 — Metadata change subscribers see every change once, in order.
   Only statements closed by [exact]; proofs live in proof/LogBuf*.v.

   Vocabulary (model/LogBuf.v and proof/LogBuf*.v): a schedule is a list of atomic steps
     Add ev len id | Seal | FlushWrite | FlushMark | SubStep | SubLoop | (stateless reads)
   [run iv hf y ops] executes it; [run_events] lists the appended events with the timestamps
   AddToBuffer assigned; the subscriber [subs y] started at t0 ([sys0 c t0], buffer size c)
   alternates ReadPersistedLogBuffer ("disk" = the buffers flushFn has been given) and
   ReadFromBuffer; [got] is what it has been handed, in order; [run_trig] = None says the
   schedule never enters the trigger set of known finding 0 (a sealed buffer is pushed out
   of the 3-slot ring before lastFlushTime covers it).
   [incr lo l]: the timestamps of l strictly increase and all exceed lo; [later t e] = t < ts e;
   [in_range t0 hi e] = t0 < ts e <= hi; [ops_wf ops]: every Add has a marshalled length > 0
   (proto.Marshal of a LogEntry with TsNs <> 0 is never empty). *)
From Coq Require Import List ZArith NArith Bool.
From SW Require Import model.LogBuf proof.LogBufProofs proof.LogBufInv proof.LogBufSteps
  proof.LogBufMain proof.LogBufSafety proof.LogBufLive proof.LogBufLive2 proof.LogBufRefute.
Import ListNotations.
Local Open Scope Z_scope.

(* Timestamps assigned by AddToBuffer strictly increase and are positive — on EVERY schedule,
   with or without flush function, triggers or not. *)
Theorem c22_ts_strict : forall iv hf c t0 ops,
  incr 0 (run_events iv hf {| buf := init c; subs := sub_init t0 |} ops).
Proof. exact ts_strict. Qed.
Print Assumptions c22_ts_strict.

(* FULL statement ("for any interleaving"), refuted: there is a schedule (the flush lagging
   four rotations behind) on which an event later than t0 is skipped for good: what the
   subscriber received is not a prefix of what was appended. *)
Theorem c22_exactly_once_in_order_refuted : exists iv c t0 ops,
  0 <= t0 /\ ops_wf ops /\
  ~ exists rest, filter (later t0) (run_events iv true (sys0 c t0) ops)
                 = got (subs (run iv true (sys0 c t0) ops)) ++ rest.
Proof. exact no_skip_refuted. Qed.
Print Assumptions c22_exactly_once_in_order_refuted.

(* What holds: on every schedule that stays outside the trigger, at every moment, what the
   subscriber has received is strictly increasing and later than t0 (no duplicate, no
   reordering) and is a prefix, in append order, of the events later than t0 (nothing
   skipped); every event still missing is later than the subscriber's position [lastRead]. *)
Theorem c22_exactly_once_in_order_partial : forall iv c t0 ops,
  0 <= t0 -> ops_wf ops -> run_trig iv true (sys0 c t0) ops = None ->
  let y := run iv true (sys0 c t0) ops in
  let E := run_events iv true (sys0 c t0) ops in
  incr t0 (got (subs y)) /\
  exists rest, filter (later t0) E = got (subs y) ++ rest /\
               (forall e, In e rest -> lastRead (subs y) < e_ts e).
Proof. exact exactly_once_in_order. Qed.
Print Assumptions c22_exactly_once_in_order_partial.

(* The same, as an equation: received = the appended events with t0 < ts <= position. *)
Theorem c22_received_is_range_partial : forall iv c t0 ops,
  0 <= t0 -> ops_wf ops -> run_trig iv true (sys0 c t0) ops = None ->
  let y := run iv true (sys0 c t0) ops in
  let E := run_events iv true (sys0 c t0) ops in
  t0 <= lastRead (subs y) /\ got (subs y) = filter (in_range t0 (lastRead (subs y))) E.
Proof. exact safety. Qed.
Print Assumptions c22_received_is_range_partial.

(* Liveness: after any such schedule, once the pending sealed buffers are flushed
   (FlushWrite;FlushMark per queued buffer, plus one), three steps of the subscriber deliver
   every event later than t0 — whether it sits on disk, in a sealed buffer or in the
   current buffer. *)
Theorem c22_liveness_partial : forall iv c t0 ops,
  0 <= t0 -> ops_wf ops -> run_trig iv true (sys0 c t0) ops = None ->
  let y := run iv true (sys0 c t0) ops in
  let E := run_events iv true (sys0 c t0) ops in
  let y' := run iv true y (flush_all (S (length (queue (buf y)))) ++ [SubStep; SubStep; SubStep]) in
  got (subs y') = filter (later t0) E.
Proof. exact liveness. Qed.
Print Assumptions c22_liveness_partial.

(* The refuting schedule is inside the trigger; a schedule with three unflushed sealed buffers
   (as many as the ring holds) is outside it, and the subscriber's first two steps deliver
   records 1, 2, 3. *)
Theorem c22_witnesses :
  run_trig far_iv true (sys0 100 0) witness_evict = Some 0%N /\
  run_trig far_iv true (sys0 100 0) witness_alias = None /\
  map e_id (got (subs (run far_iv true (sys0 100 0) witness_alias))) = [1; 2; 3]%N.
Proof. exact (conj trig_witness_evict witness_alias_ok). Qed.
Print Assumptions c22_witnesses.

(* flushFn = nil (the aggregated buffer that serves SubscribeMetadata; copyToFlush sets
   lastFlushTime at once and nothing is flushed): with the buffer's own (empty) flushed data as
   the persisted log, a subscriber behind the last seal never receives the sealed event,
   however many steps it takes -- outside the trigger of finding 0.  Liveness ("receives
   every later change") is therefore refuted for hf = false when the persisted log is what this
   buffer's own flushFn was given (nothing); the real SubscribeMetadata reads the LOCAL
   buffer's log instead, which is not modelled. *)
Theorem c22_nil_flush_liveness_refuted :
  ops_wf witness_nilflush /\
  run_trig far_iv false (sys0 100 0) witness_nilflush = None /\
  map e_id (filter (later 0) (run_events far_iv false (sys0 100 0) witness_nilflush)) = [1%N] /\
  forall n, got (subs (run far_iv false (sys0 100 0) (witness_nilflush ++ repeat SubStep n))) = [].
Proof. exact nil_flush_stuck. Qed.
Print Assumptions c22_nil_flush_liveness_refuted.

(* non-vacuity: a schedule with timestamp adjustment, size rotation, an interval seal, a
   lagging flush and a subscriber starting in the middle stays outside the triggers, and the
   subscriber gets records 3..8 *)
Example c22_example :
  ops_wf example_ops /\ run_trig 1000000 true (sys0 100 1001) example_ops = None /\
  map e_ts (run_events 1000000 true (sys0 100 1001) example_ops) = [1000; 1001; 1002; 1020; 1030; 1040; 1050; 1060] /\
  map e_id (got (subs (run 1000000 true (sys0 100 1001) example_ops))) = [3; 4; 5; 6; 7; 8]%N.
Proof. exact example_ok. Qed.
Print Assumptions c22_example.
