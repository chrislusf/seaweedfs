(* C31 — The mount's chunk cache is transparent.
   Only statements closed by [exact]; proofs live in proof/ChunkCacheProofs.v. *)
From Coq Require Import List NArith Bool.
From SW Require Import model.ChunkCache proof.ChunkCacheProofs.
Import ListNotations.
Local Open Scope N_scope.

(* The full statement — for every unit size and disk size ([params]) and every history of stores,
   lookups (GetChunk / GetChunkSlice) and restarts (any segment order, each
   segment's leveldb rebuilt or not), every answer the model admits for a lookup is
   empty or what a store FOR THE SAME FILE ID allows — is false: the disk tiers are
   keyed by the needle key only (finding 0). *)
Theorem c31_transparent_refuted : ~ transparent_full.
Proof. exact transparent_refuted. Qed.
Print Assumptions c31_transparent_refuted.

(* the witness: store "3,01637037d6", look up "4,01637037d6" *)
Theorem c31_witness :
  keys_unique w_ops = false /\
  run w_params init_state w_ops = [[]; [[104; 101; 108; 108; 111]]].
Proof. exact witness_facts. Qed.
Print Assumptions c31_witness.

(* FULL, no hypothesis: transparent modulo the needle key.  Every admitted answer
   of every lookup of every history is empty, or what an earlier store allows whose
   file id is the same or has the same needle key; "allows" is the property's
   [expected] (the answer has at least the minimum size and is exactly the stored
   bytes / the leading [len] bytes of the window), for EVERY minimum size, offset
   and length (lookups with sizes or offsets from 2^63 on miss: c31_huge_* below). *)
Theorem c31_transparent_modulo_key : forall p ops,
  all_from explained [] ops (run p init_state ops) = true.
Proof. exact explained_full. Qed.
Print Assumptions c31_transparent_modulo_key.

(* PARTIAL, per lookup (no hypothesis on the history): the property's own statement
   holds at every lookup that is not preceded by a store for ANOTHER file id with
   the same needle key. *)
Theorem c31_transparent_partial_step : forall p ops,
  all_from narrow_answer [] ops (run p init_state ops) = true.
Proof. exact transparent_narrow. Qed.
Print Assumptions c31_transparent_partial_step.

Theorem c31_narrow_answer_spec : forall stored o r,
  narrow_answer stored o r = true -> alias_before stored o = false ->
  transparent_answer stored o r = true.
Proof. exact narrow_spec. Qed.
Print Assumptions c31_narrow_answer_spec.

(* PARTIAL, history-wide (the only remaining hypothesis is the trigger of finding
   0): for every history in which no two distinct file ids share a needle key (which
   one SeaweedFS cluster guarantees: C13) — every minimum size, offset and length. *)
Theorem c31_transparent_partial : forall p ops,
  keys_unique ops = true ->
  transparent_from [] ops (run p init_state ops) = true.
Proof. exact transparent_partial. Qed.
Print Assumptions c31_transparent_partial.

(* doGetChunk / doGetChunkSlice return nil before any int() conversion of a value from 2^63
   on (commit b3a266ba): a lookup whose minimum size, or whose offset + length, is 2^63 or more misses in every tier,
   whatever the cache holds — in particular for a slice offset or length from 2^63
   on; the guard of doGetChunkSlice (wrapped uint64 sum below the offset or above
   math.MaxInt64) is exactly that condition. *)
Theorem c31_huge_get_misses : forall p st md f m,
  two63 <= m -> get_with p st md f m = [].
Proof. exact huge_get_misses. Qed.
Print Assumptions c31_huge_get_misses.

Theorem c31_slice_guard_spec : forall off len, off < two64 -> len < two64 ->
  slice_guard off len = (two63 <=? off + len).
Proof. exact slice_guard_spec. Qed.
Print Assumptions c31_slice_guard_spec.

Theorem c31_huge_slice_misses : forall p st md f off len,
  off < two64 -> len < two64 -> two63 <= off + len -> get_slice_with p st md f off len = [].
Proof. exact huge_slice_misses. Qed.
Print Assumptions c31_huge_slice_misses.

Theorem c31_huge_offset_misses : forall p st md f off len,
  off < two64 -> len < two64 -> two63 <= off \/ two63 <= len -> get_slice_with p st md f off len = [].
Proof. exact huge_offset_misses. Qed.
Print Assumptions c31_huge_offset_misses.

(* GetChunk(id, 2^63) and GetChunkSlice(id, 1, 2^63-1) on a cached 5-byte chunk miss, a plain
   lookup hits *)
Theorem c31_witness1 :
  keys_unique w1_ops = true /\ hist_ok w1_ops = true /\
  run w1_params init_state w1_ops = [[]; [[]]; [[]]; [[104; 101; 108; 108; 111]]] /\
  transparent_from [] w1_ops (run w1_params init_state w1_ops) = true.
Proof. exact witness1_facts. Qed.
Print Assumptions c31_witness1.

(* GetChunkSlice(id, 2^64-1, 2) and, after a restart, GetChunkSlice(id, 2^64-4, 6) miss with and
   without the memory entry *)
Theorem c31_witness2 :
  keys_unique w2_ops = true /\ hist_ok w2_ops = true /\
  run w2_params init_state w2_ops = [[]; []; [[]; []]; []; [[]]; [[88; 89; 90]]] /\
  transparent_from [] w2_ops (run w2_params init_state w2_ops) = true.
Proof. exact witness2_facts. Qed.
Print Assumptions c31_witness2.

(* GetChunkSlice with an offset above 0 never hits (every tier hands back at most
   [length] bytes, the result is tested against offset + length): the cache is
   dead for such reads, hence trivially transparent *)
Theorem c31_slice_offset_dead : forall p st md f off len,
  0 < off -> get_slice_with p st md f off len = [].
Proof. exact slice_dead. Qed.
Print Assumptions c31_slice_offset_dead.

(* The invariant behind c31_transparent_modulo_key ([inv] of proof/ChunkCacheProofs.v), for any
   state: everything held by the memory tier
   or by a disk segment was stored, under a file id with that needle key. *)
Theorem c31_invariant_step : forall p stored st o,
  inv stored st -> inv (remember stored o) (step p st o).
Proof. exact step_inv. Qed.
Print Assumptions c31_invariant_step.

(* The correspondence relation accepts an implementation answer iff the model admits it
   ([admits]); for Get, the answer with the memory entry evicted is always admitted;
   every accepted answer is explained / transparent at clean lookups; under the
   history-wide hypothesis (unique keys) every accepted answer is transparent. *)
Theorem c31_miss_admitted : forall p st f m,
  In (get_with p st None f m) (answers p st (Get f m)).
Proof. exact miss_admitted. Qed.
Print Assumptions c31_miss_admitted.

Theorem c31_admitted_explained : forall p ops impl,
  admitted_all ops (run p init_state ops) impl = true ->
  impl_from explained [] ops impl = true /\ impl_from narrow_answer [] ops impl = true.
Proof. exact admitted_explained. Qed.
Print Assumptions c31_admitted_explained.

Theorem c31_admitted_hit_is_spec : forall p ops impl,
  keys_unique ops = true ->
  admitted_all ops (run p init_state ops) impl = true ->
  impl_transparent [] ops impl = true.
Proof. exact admitted_hit_is_spec. Qed.
Print Assumptions c31_admitted_hit_is_spec.

(* The check's trigger is total: a failing run that the model admits is always labelled with
   finding 0 (by the definition of [classify] only where the alias store explains that very
   answer at that lookup).  The trigger emits no other number. *)
Theorem c31_trigger_total : forall p ops impl,
  admitted_all ops (run p init_state ops) impl = true ->
  Nat.leb (List.length ops) (List.length impl) = true ->
  impl_transparent [] ops impl = false -> trigger ops impl <> None.
Proof. exact trigger_total. Qed.
Print Assumptions c31_trigger_total.

Theorem c31_trigger_only_zero : forall ops impl,
  trigger ops impl = None \/ trigger ops impl = Some 0.
Proof. exact trigger_only_zero. Qed.
Print Assumptions c31_trigger_only_zero.

(* a fid whose stores all carry the same contents: the answer is what THAT content
   allows (the disk tiers can hold stale contents of a file id: the statement above
   accepts any earlier store; with one content per file id nothing is stale) *)
Theorem c31_single_content : forall stored o f d r,
  op_fid o = Some f -> (forall x, In (f, x) stored -> x = d) ->
  transparent_answer stored o r = true -> r = [] \/ expected o d = Some r.
Proof. exact single_content. Qed.
Print Assumptions c31_single_content.

(* non-vacuity: a history with unique keys that rotates tier 0 (segments of 32
   bytes), restarts with the leveldb of every segment rebuilt (records at offset 0
   are lost), and still answers from disk *)
Example c31_example :
  let p := {| unit_size := 16; disk_units := 32 |} in
  let a := Fid 3 1 7 in let b := Fid 3 2 8 in let c := Fid 4 3 9 in
  let ops := [Store a [1; 2; 3; 4; 5; 6; 7; 8; 9]; Store b [10; 11; 12; 13; 14; 15; 16; 17; 18; 19];
              Store c [20; 21; 22];
              Restart [(0, true); (1, true)] [(0, true); (1, true); (2, true)] [(0, true); (1, true)];
              Get a 1; Get b 4; Get c 1; GetSlice b 0 3] in
  keys_unique ops = true /\ hist_ok ops = true /\
  run p init_state ops = [[]; []; []; []; [[]]; [[10; 11; 12; 13; 14; 15; 16; 17; 18; 19]]; [[]]; [[10; 11; 12]]].
Proof. exact example_facts. Qed.
Print Assumptions c31_example.

(* mixed restart: only segment 1 of tier 0 is rebuilt; segment 1 is the segment
   written first, so [a] (offset 0 there) is lost while [b] (offset 8) survives *)
Example c31_example_mixed :
  let p := {| unit_size := 16; disk_units := 32 |} in
  let a := Fid 3 1 7 in let b := Fid 3 2 8 in
  let ops := [Store a [1; 2; 3]; Store b [4; 5; 6];
              Restart [(1, true); (0, false)] [(0, false); (1, false); (2, false)] [(0, false); (1, false)];
              Get a 1; Get b 1] in
  hist_ok ops = true /\
  run p init_state ops = [[]; []; []; [[]]; [[4; 5; 6]]].
Proof. exact example_mixed_facts. Qed.
Print Assumptions c31_example_mixed.

(* rotation: ChunkCacheVolume.Reset (doReset truncates .dat AND .idx, removes the
   leveldb; the reload regenerates the map from the emptied .idx) leaves nothing of
   the volume's old contents: a reset volume answers for no key *)
Theorem c31_reset_forgets : forall s k, seg_get (reset_seg s) k = None.
Proof. exact reset_forgets. Qed.
Print Assumptions c31_reset_forgets.

(* the volume a rotation moved to the front answers for the key just
   written and for no other key; its size is that of the one new needle *)
Theorem c31_rotation_front_only_new : forall limit front rest key d k,
  (limit <? sg_size front + blen d) = true -> k <> key ->
  match layer_set limit (front :: rest) key d with
  | s :: _ => seg_get s k = None /\ seg_get s key = Some d /\ sg_size s = pad8 (blen d)
  | [] => False
  end.
Proof. exact rotation_front_only_new. Qed.
Print Assumptions c31_rotation_front_only_new.

(* non-vacuity of the rotation path: a full rotation cycle of the middle tier and
   the refill of the reset volume, every id ever stored looked up after every
   store (deterministic case "fixed-rotation" of the harness) *)
Example c31_rotation_witness :
  keys_unique (rot_ops 10) = true /\ hist_ok (rot_ops 10) = true /\
  transparent_from [] (rot_ops 10) (run rot_params init_state (rot_ops 10)) = true /\
  skipn 55 (run rot_params init_state (rot_ops 10)) =
    [[[]]; [[]]; [[]]; [[]]; [rot_data 5]; [rot_data 6];
     [rot_data 7]; [rot_data 8]; [rot_data 9]; [rot_data 10]].
Proof. exact rotation_witness_facts. Qed.
Print Assumptions c31_rotation_witness.
