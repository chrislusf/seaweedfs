(* C29 — S3 keys never escape their bucket.
   Only statements closed by [exact]; proofs live in proof/S3PathsProofs.v and proof/S3PathsCompat.v.

   `calls fx q` is the faithful model of the filer-facing calls the S3 gateway makes
   for request q (every object / multipart / copy / tagging / batch-delete / listing /
   bucket / POST-upload route) against a filer holding the entries fx; `candidates fx q`
   are the data dependent calls it may make besides (empty-folder purge of a batch
   delete, descent of a listing); `effective` is the path the filer acts on for a call
   (ServeMux 301 + followed redirect, util.JoinPath cleaning, or the raw string);
   `call_contained` says that this path, cleaned, is the bucket directory or lies inside
   it (copy-source calls: the source bucket's directory).

   Trigger sets (decidable, on the request alone):
     req_climbs q          one of the strings the route builds its paths from, taken
                           relative to the bucket directory, climbs above it in a lexical
                           walk ("" and "." skipped, ".." pops) — finding 0;
     req_enters_uploads q  an object route whose walk climbs or puts ".uploads" directly
                           below the bucket directory at some point — finding 1;
     odd_bucket b          the bucket name has a "%" — finding 2 (the routes that proxy to
                           the filer's HTTP side decode the bucket name once more).
   The router pattern refuses the bucket names "", "." and ".." (`router_refuses`): `calls` = []
   for them (c29_router_refuses).  bad_bucket b = router_refuses b || odd_bucket b. *)
From Coq Require Import List NArith Bool String.
From SW Require Import model.S3List model.S3Paths proof.S3PathsProofs proof.S3PathsCompat.
Import ListNotations.
Local Open Scope string_scope.

(* FULL statement (every key, upload id, copy source, batch key, every fixture):
   REFUTED by the code as it is.  GET /b/x/../../other/obj reaches /buckets/other/obj. *)
Theorem c29_contained_refuted : exists fx q,
  bad_bucket (q_bucket q) = false /\ all_contained fx q = false /\
  existsb (fun c => match effective (snd c) with
                    | Some e => clean e =? "/buckets/other/obj"
                    | None => false
                    end) (calls fx q) = true.
Proof. exact contained_refuted. Qed.
Print Assumptions c29_contained_refuted.

(* ... and so do batch delete, abort-upload (upload id "../../other"), tagging, copy and
   listing (prefix "../other/"). *)
Theorem c29_contained_refuted_routes :
  all_contained fx_demo esc_get = false /\ all_contained fx_demo esc_batch = false /\
  all_contained fx_demo esc_abort = false /\ all_contained fx_demo esc_tag = false /\
  all_contained fx_demo esc_copy = false /\ all_contained fx_demo esc_list = false.
Proof. exact contained_refuted_all. Qed.
Print Assumptions c29_contained_refuted_routes.

(* Partial statement: unless one of the route's relative strings CLIMBS above the bucket
   directory (a ".." segment that stays inside, as in x/../y, is fine), every path of every
   route stays inside the bucket directory — for every fixture.  (Sufficient, not necessary:
   ../b/obj climbs and comes back.) *)
Theorem c29_contained_partial : forall fx q,
  odd_bucket (q_bucket q) = false -> req_climbs q = false ->
  forallb call_contained (calls fx q) = true.
Proof. exact calls_contained_routed. Qed.
Print Assumptions c29_contained_partial.

(* the data dependent calls: the empty-folder purge after a batch delete and the
   directories a listing descends into (the fixture's names must be ordinary names) *)
Theorem c29_candidates_contained_partial : forall fx q,
  odd_bucket (q_bucket q) = false -> req_climbs q = false ->
  (route_needs_plain_fx (q_route q) = true -> fx_plain fx = true) ->
  candidates_contained fx q = true.
Proof. exact candidates_contained_routed. Qed.
Print Assumptions c29_candidates_contained_partial.

(* calls and the batch delete's purge in one statement *)
Theorem c29_all_contained_partial : forall fx q,
  odd_bucket (q_bucket q) = false -> req_climbs q = false ->
  (forall k, In k (q_keys q) -> climbs k = false) ->
  all_contained fx q = true.
Proof. exact all_contained_routed. Qed.
Print Assumptions c29_all_contained_partial.

(* A purely syntactic sufficient condition: on the routes all of whose strings are keys,
   upload ids or copy sources, no ".." segment anywhere implies that nothing climbs. *)
Theorem c29_trigger_narrowed : forall q,
  old_route (q_route q) = true -> bad_bucket (q_bucket q) = false ->
  req_dotdot q = false -> req_climbs q = false.
Proof. exact dotdot_covers_climbs. Qed.
Print Assumptions c29_trigger_narrowed.

Theorem c29_contained_partial_dotdot : forall fx q,
  old_route (q_route q) = true ->
  bad_bucket (q_bucket q) = false -> req_dotdot q = false -> all_contained fx q = true.
Proof. exact contained_partial. Qed.
Print Assumptions c29_contained_partial_dotdot.

(* The cleaning lemma behind it: lexical cleaning of  <bucket dir>/<rest>  never climbs
   above the bucket directory when the walk of <rest> does not. *)
Theorem c29_clean_stays_under : forall b rest,
  bad_bucket b = false -> climbs rest = false -> contained b (bucket_dir b ++ "/" ++ rest) = true.
Proof. exact clean_stays_under2. Qed.
Print Assumptions c29_clean_stays_under.

Theorem c29_clean_idempotent : forall p, starts_with_slash p = true -> clean (clean p) = clean p.
Proof. exact clean_idempotent. Qed.
Print Assumptions c29_clean_idempotent.

Theorem c29_clean_no_dots : forall p, starts_with_slash p = true ->
  forall s, In s (norm_segs true (split_slash p)) -> s <> "" /\ s <> "." /\ s <> "..".
Proof. exact clean_rooted_no_dots. Qed.
Print Assumptions c29_clean_no_dots.

(* The multipart area: keys inside <bucket>/.uploads ARE addressable as ordinary
   objects (GET /b/.uploads/u1/0001.part): REFUTED ... *)
Theorem c29_uploads_hidden_refuted : exists fx q,
  bad_bucket (q_bucket q) = false /\ req_climbs q = false /\ object_route (q_route q) = true /\
  uploads_hidden fx q = false.
Proof. exact uploads_hidden_refuted. Qed.
Print Assumptions c29_uploads_hidden_refuted.

(* ... also through a key with a ".." segment that does not climb: this request is inside
   the trigger set of finding 1 and outside that of finding 0 *)
Theorem c29_uploads_hidden_refuted_dotdot :
  req_dotdot up_get2 = true /\ req_climbs up_get2 = false /\ req_enters_uploads up_get2 = true /\
  all_contained fx_demo up_get2 = true /\ uploads_hidden fx_demo up_get2 = false.
Proof. exact uploads_hidden_refuted_dotdot. Qed.
Print Assumptions c29_uploads_hidden_refuted_dotdot.

(* ... and the partial statement, under ONE hypothesis on the request: an object route
   whose walk neither climbs nor passes through ".uploads" never touches the area *)
Theorem c29_uploads_hidden_partial : forall fx q,
  odd_bucket (q_bucket q) = false -> q_bucket q <> ".uploads" ->
  req_enters_uploads q = false -> uploads_hidden fx q = true.
Proof. exact uploads_hidden_routed. Qed.
Print Assumptions c29_uploads_hidden_partial.

(* neither does the empty-folder purge of its batch keys *)
Theorem c29_purge_hidden : forall b keys,
  bad_bucket b = false -> (forall k, In k keys -> enters_uploads k = false) ->
  existsb (fun c => call_in_uploads (b, c)) (purge_candidates b keys) = false.
Proof. exact purge_hidden. Qed.
Print Assumptions c29_purge_hidden.

(* the syntactic sufficient condition for this clause *)
Theorem c29_uploads_hidden_partial_dotdot : forall fx q,
  old_route (q_route q) = true ->
  bad_bucket (q_bucket q) = false -> q_bucket q <> ".uploads" ->
  req_dotdot q = false -> req_uploads_seg q = false -> uploads_hidden fx q = true.
Proof. exact uploads_hidden_partial. Qed.
Print Assumptions c29_uploads_hidden_partial_dotdot.

(* The bucket name itself.  The router's {bucket} pattern
   [^/.][^/]*|\.[^/.][^/]*|\.\.[^/]+  (bucket_pattern mirrors it alternative by alternative)
   refuses exactly "", "." and ".." among the names without "/" ... *)
Theorem c29_router_pattern : forall b,
  bucket_pattern b = false <-> (b = "" \/ b = "." \/ b = ".." \/ no_slash b = false).
Proof. exact pattern_refuses_exactly. Qed.
Print Assumptions c29_router_pattern.

(* ... and a refused name reaches no handler: no filer-facing call at all *)
Theorem c29_router_refuses : forall fx q, router_refuses (q_bucket q) = true ->
  calls fx q = [] /\ candidates fx q = [].
Proof. exact refused_no_calls. Qed.
Print Assumptions c29_router_refuses.

(* What the handlers would do with "." and ".." (handler_calls: DELETE /. looks up and
   recursively deletes /buckets itself, GET /../etc/secret is served from /etc/secret), and that
   the router never reaches them (calls = []).  ("...", ".b", "..b" are ordinary names and accepted.) *)
Theorem c29_dot_buckets_repaired :
  bucket_pattern "." = false /\ bucket_pattern ".." = false /\ bucket_pattern "" = false /\
  bucket_pattern "..." = true /\ bucket_pattern ".b" = true /\ bucket_pattern "..b" = true /\
  map snd (handler_calls fx_demo bad_delete) = [GLookup "/buckets" "."; GDelete "/buckets" "." true] /\
  effective (GDelete "/buckets" "." true) = Some "/buckets" /\
  map (fun c => effective (snd c)) (handler_calls fx_demo bad_get) = [None; Some "/etc/secret"] /\
  calls fx_demo bad_delete = [] /\ candidates fx_demo bad_delete = [] /\
  calls fx_demo bad_get = [] /\ candidates fx_demo bad_get = [].
Proof. exact dot_buckets_repaired. Qed.
Print Assumptions c29_dot_buckets_repaired.

(* Finding 2: a bucket name with a "%" (accepted by the router; PUT /%2562 creates
   /buckets/%62).  The routes that proxy to the filer's HTTP side escape the key but not the
   bucket name, so the filer decodes it once more: GET / DELETE /%2562/obj act on
   /buckets/b/obj, the POST upload writes into bucket b, a name decoding to ".." leaves
   /buckets; the gRPC routes use the literal name; a bad escape sends nothing.  REFUTED for
   such names although the key does not climb; every partial theorem assumes odd_bucket = false. *)
Theorem c29_odd_bucket_refuted :
  router_refuses (q_bucket odd_get) = false /\ odd_bucket (q_bucket odd_get) = true /\
  req_climbs odd_get = false /\ req_enters_uploads odd_get = false /\
  map snd (calls fx_demo odd_get) = [Http MGet "/buckets/b/obj"] /\
  forallb call_contained (calls fx_demo odd_get) = false /\
  map snd (calls fx_demo odd_delete) = [Http MDelete "/buckets/b/obj"] /\
  forallb call_contained (calls fx_demo odd_delete) = false /\
  map snd (calls fx_demo odd_post) = [Http MPut "/buckets/b/posted"] /\
  forallb call_contained (calls fx_demo odd_post) = false /\
  map snd (calls fx_demo odd_head_bucket) = [GLookup "/buckets" "%62"] /\
  forallb call_contained (calls fx_demo odd_head_bucket) = true /\
  map (fun c => effective (snd c)) (calls fx_demo odd_get_dd) = [None; Some "/etc/secret"] /\
  calls fx_demo odd_get_badesc = [].
Proof. exact odd_bucket_refuted. Qed.
Print Assumptions c29_odd_bucket_refuted.

(* the check attributes a case to finding 2 only on the routes that put the bucket name into
   a filer URL (odd_request); on the gRPC-only routes an odd bucket is addressed by its
   literal name and stays inside /buckets/<literal name> (shown on every such route) *)
Theorem c29_odd_request_narrower : forall q, odd_request q = true -> odd_bucket (q_bucket q) = true.
Proof. exact odd_request_odd. Qed.
Print Assumptions c29_odd_request_narrower.

Example c29_example_odd_grpc :
  forallb (fun q => negb (odd_request q) && odd_bucket (q_bucket q) &&
                    negb (Nat.eqb (List.length (calls fx_odd q)) 0) &&
                    forallb call_contained (calls fx_odd q) && candidates_contained fx_odd q) odd_grpc_reqs = true /\
  map snd (calls fx_odd (mk_req RComplete "%62" "x/done" "u1" "0001.part" "" [])) =
    [GList "/buckets/%62/.uploads/u1"; GLookup "/buckets/%62/.uploads" "u1"; GCreate "/buckets/%62/x" "done" false;
     GDelete "/buckets/%62/.uploads" "u1" true].
Proof. exact odd_grpc_routes_contained. Qed.
Print Assumptions c29_example_odd_grpc.

(* POST /oth with key = er/obj writes /buckets/oth/er/obj (PostPolicyBucketHandler joins
   bucket and key with "/"): the POST route is covered by c29_contained_partial without any
   extra hypothesis. *)
Theorem c29_postpolicy_repaired :
  bad_bucket (q_bucket post_noslash) = false /\ req_climbs post_noslash = false /\
  map snd (calls fx_demo post_noslash) = [Http MPut "/buckets/oth/er/obj"] /\
  forallb call_contained (calls fx_demo post_noslash) = true.
Proof. exact postpolicy_repaired. Qed.
Print Assumptions c29_postpolicy_repaired.

(* non-vacuity: an ordinary request with "." and empty segments satisfies the
   hypotheses, produces a call, and is contained *)
Example c29_example :
  let q := rq RPutTag "x/./y//z" "" "" [] in
  bad_bucket (q_bucket q) = false /\ req_dotdot q = false /\ req_uploads_seg q = false /\
  req_climbs q = false /\ req_enters_uploads q = false /\
  map snd (calls fx_demo q) = [GLookup "/buckets/b/x/./y/" "z"] /\
  all_contained fx_demo q = true /\ uploads_hidden fx_demo q = true.
Proof. exact partial_nonvacuous. Qed.
Print Assumptions c29_example.

(* a key with ".." segments that never climbs is covered by the partial theorems *)
Example c29_example_narrowed :
  let q := rq RDelTag "x/../x/z/../y" "" "" [] in
  req_dotdot q = true /\ req_climbs q = false /\ req_enters_uploads q = false /\
  map (fun c => effective (snd c)) (calls fx_demo q) = [Some "/buckets/b/x/y"] /\
  all_contained fx_demo q = true.
Proof. exact narrowed_nonvacuous. Qed.
Print Assumptions c29_example_narrowed.

(* a listing with a marker chain: its heads, what it may descend into, all contained *)
Example c29_example_list :
  let q := rq (RList true "x/" "z/w" true) "" "" "" [] in
  fx_plain fx_demo = true /\ req_climbs q = false /\
  map snd (calls fx_demo q) = [GList "/buckets/b/x/z"; GList "/buckets/b/x"] /\
  candidates fx_demo q = [GLookup "/buckets" "b"; GList "/buckets/b/x/z"; GDelete "/buckets/b/x" "z" true] /\
  candidates_contained fx_demo q = true.
Proof. exact list_nonvacuous. Qed.
Print Assumptions c29_example_list.
