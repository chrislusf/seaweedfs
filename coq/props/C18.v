(* C18 — The filer namespace stays a well-formed tree.
   Proofs: proof/FilerNS*.v; wf, tree_ok, equiv: proof/FilerNSBase.v; with_ancestors: proof/FilerNSRename.v;
   refines and the witnesses wF, wD, w_lost, w_half, ex_ops: proof/FilerNSHist.v.
   Model: model/FilerNS.v (Filer.CreateEntry/UpdateEntry/DeleteEntryMetaAndData and
   FilerServer.AtomicRenameEntry over a flat store without transactions, as in the
   leveldb family), with the own-subtree check of AtomicRenameEntry in place; model/FilerNSRaw.v:
   the request layer of AtomicRenameEntry on the raw strings (path.Clean of the directories, refusal
   of names that are not plain entry names, CanRename across buckets) and the narrow trigger. *)
From Coq Require Import List NArith Bool String Permutation.
From SW Require Import model.FilerNS model.FilerNSRaw proof.FilerNSProofs.
Import ListNotations.

(* every entry's ancestors exist and are directories: FULL *)

(* the invariant is kept by every operation, whatever its outcome (also by a rename that
   fails half-way and by the renames inside the trigger of the known finding) *)
Theorem c18_wellformed_step : forall s o, wf s -> wf (fst (step s o)).
Proof. exact step_wf. Qed.
Print Assumptions c18_wellformed_step.

(* hence after any sequence of creates, updates, deletes and renames from the empty namespace,
   at the end and after every single operation *)
Theorem c18_wellformed : forall ops, wf (final [] ops) /\ Forall (fun sr => wf (fst sr)) (run [] ops).
Proof. exact (fun ops => conj (final_wf ops [] wf_nil) (run_wf ops [] wf_nil)). Qed.
Print Assumptions c18_wellformed.

(* the same over histories whose renames are RAW requests (any strings as directories and names) *)
Theorem c18_wellformed_raw : forall xs, wf (xfinal [] xs) /\ Forall (fun sr => wf (fst sr)) (xrun [] xs).
Proof. exact (fun xs => conj (xfinal_wf xs [] wf_nil) (xrun_wf xs [] wf_nil)). Qed.
Print Assumptions c18_wellformed_raw.

(* what the invariant says: ALL ancestors of an entry, not only its parent *)
Theorem c18_ancestors_exist_and_are_directories : forall s, wf s -> forall a r e,
  find s (a ++ r) = Some e -> a <> [] -> r <> [] -> exists d, find s a = Some d /\ e_dir d = true.
Proof. exact wf_all_ancestors. Qed.
Print Assumptions c18_ancestors_exist_and_are_directories.

(* the executable predicate evaluated by the correspondence check is this invariant *)
Theorem c18_wf_decided : forall s, wf_b s = true <-> wf s.
Proof. exact wf_b_spec. Qed.
Print Assumptions c18_wf_decided.

(* deletes: FULL *)

(* a non-recursive delete of a non-empty directory fails without changing anything *)
Theorem c18_delete_nonrecursive_nonempty_refused : forall s p e ign, wf s -> p <> [] ->
  find s p = Some e -> e_dir e = true -> has_children s p = true ->
  delete_entry s p false ign = (s, ENotEmpty).
Proof. exact delete_nonrec_nonempty. Qed.
Print Assumptions c18_delete_nonrecursive_nonempty_refused.

(* a successful delete removes exactly the subtree: the path, everything below it, nothing else *)
Theorem c18_delete_removes_exactly_the_subtree : forall s p rec ign s', wf s -> p <> [] ->
  delete_entry s p rec ign = (s', OK) ->
  forall q, find s' q = if is_prefix p q then None else find s q.
Proof. exact delete_removes_subtree. Qed.
Print Assumptions c18_delete_removes_exactly_the_subtree.

(* and a recursive delete of an existing entry does succeed (the model's fuel suffices) *)
Theorem c18_delete_recursive_succeeds : forall s p e ign, wf s -> p <> [] -> find s p = Some e ->
  snd (delete_entry s p true ign) = OK.
Proof. exact delete_rec_succeeds. Qed.
Print Assumptions c18_delete_recursive_succeeds.

(* renaming a directory into itself or one of its descendants is refused: FULL (the check
   newParent == oldPath || HasPrefix(newParent, oldPath+"/") of AtomicRenameEntry) *)
Theorem c18_rename_into_own_subtree_refused : forall s od on nd nn,
  is_prefix (child od on) nd = true -> rename s od on nd nn = (s, EInvalid).
Proof. exact rename_into_own_subtree_refused. Qed.
Print Assumptions c18_rename_into_own_subtree_refused.

(* the same on the RAW request, over the normalised paths: however the two directories are spelled
   (doubled or trailing '/', '.', '..', no leading '/') and whatever the names are, a request whose
   cleaned target directory is the cleaned source path or lies below it changes nothing *)
Theorem c18_rename_raw_into_own_subtree_refused : forall s od on nd nn,
  is_prefix (child (clean_dir od) on) (clean_dir nd) = true -> rename_raw s od on nd nn = (s, EInvalid).
Proof. exact rename_raw_into_own_subtree_refused. Qed.
Print Assumptions c18_rename_raw_into_own_subtree_refused.

(* a name that is not a plain entry name ("", ".", "..", or containing '/') is refused: it can not
   put the target below the source behind the back of the directory comparison
   (example:  mv /a -> "/" + "a/b") *)
Theorem c18_rename_raw_bad_name_refused : forall s od on nd nn,
  valid_name on && valid_name nn = false -> rename_raw s od on nd nn = (s, EInvalid).
Proof. exact rename_raw_bad_name_refused. Qed.
Print Assumptions c18_rename_raw_bad_name_refused.

Theorem c18_rename_raw_slash_name_refused : forall s od on nd nn,
  has_slash on = true \/ has_slash nn = true -> rename_raw s od on nd nn = (s, EInvalid).
Proof. exact rename_raw_slash_name_refused. Qed.
Print Assumptions c18_rename_raw_slash_name_refused.

(* Filer.CanRename: no move from one bucket into another *)
Theorem c18_rename_raw_cross_bucket_refused : forall s od on nd nn,
  can_rename (clean_dir od) (clean_dir nd) = false -> rename_raw s od on nd nn = (s, EInvalid).
Proof. exact rename_raw_cross_bucket_refused. Qed.
Print Assumptions c18_rename_raw_cross_bucket_refused.

(* every other request IS the rename of the normalised request, whose directories are lists of plain
   names: all rename theorems below apply to it (by this equation alone; the statement about the segments that
   follows is not a hypothesis of any of them, it says the model's path type loses nothing) *)
Theorem c18_rename_raw_is_rename_of_normalised_request : forall s od on nd nn,
  valid_name on = true -> valid_name nn = true -> can_rename (clean_dir od) (clean_dir nd) = true ->
  rename_raw s od on nd nn = rename s (clean_dir od) on (clean_dir nd) nn.
Proof. exact rename_raw_valid. Qed.
Print Assumptions c18_rename_raw_is_rename_of_normalised_request.

Theorem c18_clean_dir_segments_are_plain_names : forall d, Forall (fun n => valid_name n = true) (clean_dir d).
Proof. exact clean_dir_valid. Qed.
Print Assumptions c18_clean_dir_segments_are_plain_names.

(* A rename moves the whole subtree without loss or duplication.
   FULL statement: for every well-formed s and every rename not into its own subtree that
   returns OK, each entry at  old ++ r  is afterwards at  new ++ r.
   It is REFUTED by the code as it is (known finding 0): a directory renamed onto an existing
   NON-EMPTY directory (POSIX: ENOTEMPTY) is merged entry by entry ... *)

(* ... and when the target is an ancestor of the source the rename returns OK with entries lost *)
Theorem c18_rename_moves_subtree_refuted :
  exists s od on nd nn s' r e,
    wf s /\ is_prefix (child od on) nd = false /\ child od on <> child nd nn /\
    rename_trigger s od on nd nn = true /\
    rename s od on nd nn = (s', OK) /\
    find s (child od on ++ r) = Some e /\ find s' (child nd nn ++ r) <> Some (strip_hl e).
Proof. exact rename_onto_ancestor_loses_entries. Qed.
Print Assumptions c18_rename_moves_subtree_refuted.

(* ... and on a type conflict below the two directories the rename fails half-way and keeps
   what it has already moved and overwritten (no rollback in the leveldb family) *)
Theorem c18_rename_all_or_nothing_refuted :
  exists s od on nd nn q,
    wf s /\ is_prefix (child od on) nd = false /\ rename_trigger s od on nd nn = true /\
    snd (rename s od on nd nn) <> OK /\ find (fst (rename s od on nd nn)) q <> find s q.
Proof. exact rename_merge_conflict_half_moves. Qed.
Print Assumptions c18_rename_all_or_nothing_refuted.

(* PARTIAL: outside the decidable trigger (source and target both directories, target has
   children) a successful rename moves exactly the subtree: every entry below the source
   appears at the same relative path below the target (hard-link fields dropped, as
   moveSelfEntry does), nothing is left below the source, and every other path is untouched
   except that missing ancestors of the target are created *)
Theorem c18_rename_moves_subtree_partial : forall s od on nd nn s', wf s ->
  rename_trigger s od on nd nn = false ->
  rename s od on nd nn = (s', OK) -> child od on <> child nd nn ->
  exists eo, find s (child od on) = Some eo /\
    (forall r, find s' (child nd nn ++ r) = option_map strip_hl (find s (child od on ++ r))) /\
    (forall r, find s' (child od on ++ r) = None) /\
    (forall q, is_prefix (child nd nn) q = false -> is_prefix (child od on) q = false ->
               find s' q = with_ancestors s (child nd nn) (strip_hl eo) q).
Proof. exact rename_moves_subtree. Qed.
Print Assumptions c18_rename_moves_subtree_partial.

(* the same as a multiset statement: the (relative path, entry) pairs of the target subtree are
   a permutation of those of the source subtree, and the source subtree is empty *)
Theorem c18_rename_preserves_multiset_partial : forall s od on nd nn s', wf s ->
  rename_trigger s od on nd nn = false ->
  rename s od on nd nn = (s', OK) -> child od on <> child nd nn ->
  Permutation (subtree_rel s' (child nd nn))
              (map (fun re => (fst re, strip_hl (snd re))) (subtree_rel s (child od on))) /\
  subtree_rel s' (child od on) = [].
Proof. exact rename_preserves_multiset. Qed.
Print Assumptions c18_rename_preserves_multiset_partial.

(* outside the trigger a rename that fails changes nothing *)
Theorem c18_rename_all_or_nothing_partial : forall s od on nd nn, wf s ->
  rename_trigger s od on nd nn = false ->
  snd (rename s od on nd nn) <> OK -> equiv (fst (rename s od on nd nn)) s.
Proof. exact rename_failure_atomic. Qed.
Print Assumptions c18_rename_all_or_nothing_partial.

(* A file is never replaced by a directory or vice versa.
   FULL for create, update and delete (their trigger is false by definition), PARTIAL for
   rename (outside the trigger above): a path present before and after a step keeps its type *)
Theorem c18_no_type_flip_partial : forall s o q a b, wf s -> op_trigger s o = false -> q <> [] ->
  find s q = Some a -> find (fst (step s o)) q = Some b -> e_dir b = e_dir a.
Proof. exact step_no_type_flip. Qed.
Print Assumptions c18_no_type_flip_partial.

(* the FULL statement (no trigger hypothesis) is REFUTED by the code as it is (known finding 0,
   third witness): with directory /a/b/a and file /a/b/b/a,  mv /a/b -> /a  fails with ENotEmpty
   and leaves the FILE at /a/b/a *)
Theorem c18_no_type_flip_refuted :
  exists s od on nd nn q a b,
    wf s /\ is_prefix (child od on) nd = false /\ rename_trigger_n s od on nd nn = true /\
    q <> [] /\ find s q = Some a /\ find (fst (rename s od on nd nn)) q = Some b /\ e_dir b <> e_dir a.
Proof. exact rename_onto_ancestor_flips_type. Qed.
Print Assumptions c18_no_type_flip_refuted.

(* the witnesses of the two other refutations lie inside the NARROW trigger used by the check
   (target an ancestor of the source, or a type conflict at a common relative path) *)
Theorem c18_witnesses_inside_narrow_trigger :
  rename_trigger_n w_lost ["a"%string] "a"%string [] "a"%string = true /\
  rename_trigger_n w_half [] "a"%string [] "b"%string = true.
Proof. exact witnesses_inside_narrow_trigger. Qed.
Print Assumptions c18_witnesses_inside_narrow_trigger.

(* The model against the reference namespace used as the property oracle:
   every history that never meets the trigger does, step by step, exactly what the declarative
   reference (ref_create / ref_update / ref_delete / ref_rename) says: same error class, same map *)
Theorem c18_history_refines_reference_partial : forall ops s, wf s ->
  history_trigger s ops = false -> refines s ops.
Proof. exact history_refines. Qed.
Print Assumptions c18_history_refines_reference_partial.

Theorem c18_step_refines_reference_partial : forall s o, wf s -> op_trigger s o = false ->
  exists se, ref_step s o = Some (se, snd (step s o)) /\ equiv (fst (step s o)) se.
Proof. exact step_ref. Qed.
Print Assumptions c18_step_refines_reference_partial.

Theorem c18_rename_raw_refines_reference_partial : forall s od on nd nn, wf s ->
  valid_name on && valid_name nn && can_rename (clean_dir od) (clean_dir nd) &&
    rename_trigger s (clean_dir od) on (clean_dir nd) nn = false ->
  exists se, ref_rename_raw s od on nd nn = Some (se, snd (rename_raw s od on nd nn)) /\
             equiv (fst (rename_raw s od on nd nn)) se.
Proof. exact rename_raw_ref. Qed.
Print Assumptions c18_rename_raw_refines_reference_partial.

(* instances that satisfy the hypotheses of the theorems above *)
(* a history with nested directories, two directory renames (one creating the missing ancestors
   of its target), a file rename, and both kinds of delete never meets the trigger, succeeds
   at every step and ends in the expected non-empty namespace *)
Example c18_example_history :
  history_trigger [] ex_ops = false /\
  map snd (run [] ex_ops) = [OK; OK; OK; OK; OK; OK; OK; OK] /\
  store_equiv_b (final [] ex_ops)
    [(["x"]%string, implicit_dir (wF 1)); (["x"; "y"]%string, implicit_dir (wF 1));
     (["x"; "y"; "z"]%string, implicit_dir (wF 1)); (["x"; "y"; "z"; "a"]%string, wF 1);
     (["x"; "y"; "z"; "x"]%string, wF 3)] = true.
Proof. exact ex_history_outside_trigger. Qed.
Print Assumptions c18_example_history.

(* the hypotheses of the partial rename theorems hold for a directory with children *)
Example c18_example_rename :
  let s := final [] [Create ["a"; "b"; "a"]%string (wF 1) false; Create ["a"; "b"; "b"]%string (wD 2) false] in
  wf s /\ rename_trigger s ["a"]%string "b"%string []%list "c"%string = false /\
  snd (rename s ["a"]%string "b"%string []%list "c"%string) = OK /\
  child ["a"]%string "b"%string <> child []%list "c"%string.
Proof. exact ex_rename_hypotheses. Qed.
Print Assumptions c18_example_rename.

(* raw requests that put the target below the source by spelling are refused, a valid unclean one moves the entry *)
Example c18_example_raw_requests :
  let s := final [] [Create ["a"; "x"]%string (wF 1) false] in
  rename_raw s "/" "a" "/" "a/b" = (s, EInvalid) /\
  rename_raw s "/" "a" "//a" "b" = (s, EInvalid) /\
  rename_raw s "/" "a" "/a/../a/./" "b" = (s, EInvalid) /\
  rename_raw s "/a" "" "/a/x2" "y" = (s, EInvalid) /\
  rename_raw s "/" "a" "/buckets/c" "a" = (s, EInvalid) /\
  clean_dir "//a/./b/../c/" = ["a"; "c"]%string /\ clean_dir "/../.." = [] /\ clean_dir "" = [] /\
  snd (rename_raw s "//a/" "x" "/b/../c" "y") = OK /\
  find (fst (rename_raw s "//a/" "x" "/b/../c" "y")) ["c"; "y"]%string = Some (wF 1).
Proof. exact ex_raw_requests. Qed.
Print Assumptions c18_example_raw_requests.

(* the failing-rename hypothesis of c18_rename_all_or_nothing_partial: a directory onto a file *)
Example c18_example_rename_fails_outside_trigger :
  let s := final [] [Create ["a"; "x"]%string (wF 1) false; Create ["b"]%string (wF 2) false] in
  wf s /\ rename_trigger s [] "a"%string [] "b"%string = false /\
  snd (rename s [] "a"%string [] "b"%string) = EIsFile.
Proof. exact ex_rename_fails_outside_trigger. Qed.
Print Assumptions c18_example_rename_fails_outside_trigger.

(* the hypotheses of the delete theorems *)
Example c18_example_delete :
  let s := final [] [Create ["a"; "b"; "x"]%string (wF 1) false; Create ["c"]%string (wF 2) false] in
  wf s /\ find s ["a"]%string = Some (implicit_dir (wF 1)) /\ has_children s ["a"]%string = true /\
  delete_entry s ["a"]%string false false = (s, ENotEmpty) /\
  snd (delete_entry s ["a"]%string true false) = OK /\
  keys (fst (delete_entry s ["a"]%string true false)) = [["c"]%string].
Proof. exact ex_delete_hypotheses. Qed.
Print Assumptions c18_example_delete.

(* the hypotheses of c18_no_type_flip_partial *)
Example c18_example_no_flip :
  let s := final [] [Create ["a"; "x"]%string (wF 1) false; Create ["b"; "x"]%string (wF 2) false] in
  let o := Rename [] "a"%string [] "c"%string in
  wf s /\ op_trigger s o = false /\
  find s ["b"; "x"]%string = Some (wF 2) /\ find (fst (step s o)) ["b"; "x"]%string = Some (wF 2) /\
  snd (step s (Update ["a"; "x"]%string (wD 9))) = EIsFile.
Proof. exact ex_no_flip_hypotheses. Qed.
Print Assumptions c18_example_no_flip.
