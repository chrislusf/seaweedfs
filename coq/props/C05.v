(* C05 — Volume index: in-memory map, on-disk index and counters agree.
   Only statements closed by [exact]; proofs live in proof/NeedleMap*.v and proof/EcIndexProofs.v.

   [batch] is the section capacity of compact_map.go (100000 in the Go code; every theorem is
   for ALL values), [osz] the build configuration types.OffsetSize (4, or 5 under -tags
   5BytesOffset; [ok_osz]).  Histories are lists of Put / Del / Get over keys < 2^64
   ([keys_ok]); [ref_run] is the reference association list, [ref_metric] the reference
   counters.  The model follows the Go tree with repairs (i) span check in
   CompactMap.Get/Delete, (ii) high offset byte on overflow overwrite and (iii) valid-size
   check in CompactSection.Delete's overflow branch applied.
   [reload_ok osz batch ops] (proof/NeedleMapProofs.v): doLoading on the .idx the run wrote gives the
   same CompactMap, the same counters and the same lookups; [exact_metric es] (proof/NeedleMapExact.v):
   the closed form of the five counters on an entry list. *)
From Coq Require Import List NArith ZArith Bool.
From SW Require Import model.NeedleMap proof.EcIndexProofs proof.NeedleMapSearch proof.NeedleMapSec
  proof.NeedleMapCm proof.NeedleMapRefine proof.NeedleMapProofs proof.NeedleMapKinds
  proof.NeedleMapCounters proof.NeedleMapRunning proof.NeedleMapExact
  proof.NeedleMapFill.
Import ListNotations.
Local Open Scope N_scope.

(* Invariants of every reachable CompactMap. *)
(* sections are ordered: each one's keys end before the next one starts *)
Theorem c05_sections_sorted : forall batch ops, keys_ok ops ->
  let cm := snd (cm_run batch [] ops) in
  forall i j a b, (i < j)%nat -> nth_error cm i = Some a -> nth_error cm j = Some b ->
    s_start a <= s_end a /\ s_end a < s_start b /\ s_start a < s_start b.
Proof. exact reachable_sections_sorted. Qed.
Print Assumptions c05_sections_sorted.

(* inside every section: values and overflow strictly sorted by key, disjoint, and every
   stored key within the section's 32-bit span and below its recorded end *)
Theorem c05_values_sorted : forall batch ops, keys_ok ops ->
  let cm := snd (cm_run batch [] ops) in
  forall i s, nth_error cm i = Some s ->
    sorted (s_values s) /\ sorted (s_overflow s) /\
    (forall k, In k (map sk (s_overflow s)) -> ~ In k (map sk (s_values s))) /\
    (forall v, In v (s_values s ++ s_overflow s) -> sk v <= sec_lim /\ s_start s + sk v <= s_end s).
Proof. exact reachable_values_sorted. Qed.
Print Assumptions c05_values_sorted.

(* Refinement of the reference map. *)
(* FULL: after ANY history (any key order, keys far apart, any sizes and offsets) Get of ANY
   key returns exactly the latest (offset, size) of the reference, deleted keys with their
   negated size, absent keys as absent *)
Theorem c05_get_refines : forall batch ops key, keys_ok ops -> key < two64 ->
  cm_get batch (snd (cm_run batch [] ops)) key =
  match ref_get (snd (ref_run [] ops)) key with Some (off, sz) => Some (key, off, sz) | None => None end.
Proof. exact lookup_refines. Qed.
Print Assumptions c05_get_refines.

(* FULL: ALL return values (old (offset,size) of Set, removed size of Delete, answer of Get)
   equal the reference's, for every history (CompactSection.Delete repaired: the size of an
   overflow entry is returned only when it is valid) *)
Theorem c05_results_refine : forall batch ops, keys_ok ops ->
  fst (cm_run batch [] ops) = fst (ref_run [] ops).
Proof. exact results_refine. Qed.
Print Assumptions c05_results_refine.

(* re-deleting an overflow entry, evaluated with the real capacity 100000: 140 ascending keys, key 55
   goes to the overflow list, its first Delete returns 778, its second Delete returns 0 *)
Theorem c05_redelete_real_batch :
  keys_ok redelete_real /\
  map (fun s => map sk (s_overflow s)) (snd (cm_run 100000 [] redelete_real)) = [[55]] /\
  nth 141 (fst (cm_run 100000 [] redelete_real)) (RGet None) = RDel 778%Z /\
  nth 142 (fst (cm_run 100000 [] redelete_real)) (RGet None) = RDel 0%Z.
Proof. exact redelete_real_witness. Qed.
Print Assumptions c05_redelete_real_batch.

(* FULL: the LevelDB-backed map answers like the reference after any history *)
Theorem c05_leveldb_refines : forall osz ops k,
  ldb_get (snd (ldb_run osz ldb0 ops)) k =
  match ref_get (snd (ref_run [] ops)) k with Some (off, sz) => Some (k, off, sz) | None => None end.
Proof. exact ldb_refines. Qed.
Print Assumptions c05_leveldb_refines.

(* Counters while running. *)
(* FULL: file/deletion counters, byte totals and max key of the in-memory and of the LevelDB
   kind are the reference counters after any history *)
Theorem c05_counters_running_memory : forall osz batch ops, keys_ok ops ->
  nm_met (snd (nm_run osz batch nm0 ops)) = ref_metric ops.
Proof. exact nm_counters_running. Qed.
Print Assumptions c05_counters_running_memory.
Theorem c05_counters_running_leveldb : forall osz ops,
  l_met (snd (ldb_run osz ldb0 ops)) = ref_metric ops.
Proof. exact ldb_counters_running. Qed.
Print Assumptions c05_counters_running_leveldb.

(* Reload of the in-memory map from its .idx (doLoading). *)
(* the statement: same map (hence same lookups) and same counters.  It FAILS for histories a
   volume can issue (known finding 0: an empty-size Put) ... *)
Theorem c05_reload_refuted : exists osz batch ops, ok_osz osz /\
  forallb (op_in_range osz) ops = true /\ disciplined ops = true /\ ~ reload_ok osz batch ops.
Proof. exact reload_refuted. Qed.
Print Assumptions c05_reload_refuted.

(* ... and holds for every disciplined history (nonzero offsets, Delete only of live keys)
   without an empty-size Put, under both offset widths *)
Theorem c05_reload_partial : forall osz batch ops, ok_osz osz ->
  forallb (op_in_range osz) ops = true -> disciplined ops = true -> trig_empty_put ops = false ->
  reload_ok osz batch ops.
Proof. exact reload_partial. Qed.
Print Assumptions c05_reload_partial.

(* Reopening the LevelDB kind / generating the sorted-file kind from the .idx. *)
(* lookups: the reopened LevelDB map and the sorted-file map serve exactly the live entries *)
Theorem c05_reload_leveldb_lookups : forall osz ops k, ok_osz osz ->
  forallb (op_in_range osz) ops = true -> disciplined ops = true -> trig_empty_put ops = false ->
  let s := snd (ldb_run osz ldb0 ops) in
  live_view (ldb_get (ldb_load osz (l_idx s)) k) = live_view (ldb_get s k).
Proof. exact ldb_reload_lookups. Qed.
Print Assumptions c05_reload_leveldb_lookups.

(* the same for the sorted-file kind, generated from the .idx of the in-memory run *)
Theorem c05_sorted_file_get : forall osz batch ops k, ok_osz osz -> k < two64 ->
  forallb (op_in_range osz) ops = true -> disciplined ops = true -> trig_empty_put ops = false ->
  let s := snd (nm_run osz batch nm0 ops) in
  sf_get osz (write_sorted_from_idx osz (nm_idx s)) k = live_view (nm_get batch s k).
Proof. exact sorted_file_get. Qed.
Print Assumptions c05_sorted_file_get.

(* counters recomputed from the .idx (newNeedleMapMetricFromIndexFile): equal to the running
   counters FAILS (known finding 1: a key written twice) ... *)
Theorem c05_reload_counters_refuted : exists osz ops, ok_osz osz /\
  forallb (op_in_range osz) ops = true /\ disciplined ops = true /\ trig_empty_put ops = false /\
  l_met (ldb_load osz (l_idx (snd (ldb_run osz ldb0 ops)))) <> l_met (snd (ldb_run osz ldb0 ops)).
Proof. exact ldb_reload_counters_refuted. Qed.
Print Assumptions c05_reload_counters_refuted.

(* ... and holds for disciplined histories that write no key twice *)
Theorem c05_reload_counters_partial : forall osz ops, ok_osz osz ->
  forallb (op_in_range osz) ops = true ->
  disciplined ops = true -> trig_empty_put ops = false -> trig_rewrite ops = false ->
  let s := snd (ldb_run osz ldb0 ops) in
  l_met (ldb_load osz (l_idx s)) = l_met s.
Proof. exact ldb_reload_counters_partial. Qed.
Print Assumptions c05_reload_counters_partial.

(* the same for the sorted-file kind, whose counters come from newNeedleMapMetricFromIndexFile on the
   .idx of the in-memory run *)
Theorem c05_sorted_file_counters_partial : forall osz batch ops, ok_osz osz ->
  forallb (op_in_range osz) ops = true ->
  disciplined ops = true -> trig_empty_put ops = false -> trig_rewrite ops = false ->
  let s := snd (nm_run osz batch nm0 ops) in
  metric_from_index osz (nm_idx s) = nm_met s.
Proof. exact sorted_file_counters_partial. Qed.
Print Assumptions c05_sorted_file_counters_partial.

(* The two theorems above model the bloom filter of newNeedleMapMetricFromIndexFile as an exact
   set.  With the filter's real answers as an oracle ([metric_from_index_o]) they carry over
   whenever no answer is a false positive; one false positive already turns a file into a
   deletion (known finding 2). *)
Theorem c05_bloom_oracle_partial : forall osz idx ans, trig_bloom_fp osz idx ans = false ->
  metric_from_index_o osz idx ans = metric_from_index osz idx.
Proof. exact bloom_no_false_positive. Qed.
Print Assumptions c05_bloom_oracle_partial.

Theorem c05_bloom_oracle_refuted :
  let idx := encode 4 [mk_entry 1 1 10%Z; mk_entry 2 2 20%Z] in
  trig_bloom_fp 4 idx [false; true] = true /\
  metric_from_index 4 idx = {| m_del := 0; m_file := 2; m_delb := 0; m_fileb := 30; m_max := 2 |} /\
  metric_from_index_o 4 idx [false; true] = {| m_del := 1; m_file := 1; m_delb := 10; m_fileb := 30; m_max := 2 |}.
Proof. exact bloom_false_positive_witness. Qed.
Print Assumptions c05_bloom_oracle_refuted.

(* The recomputed counters, exactly (keys may be written any number of times). *)
(* EVERY index file of well-formed entries: FileCounter = distinct keys, DeletionCounter =
   entries - distinct keys, FileByteCounter = valid sizes of all entries, DeletionByteCounter =
   valid sizes of the entries that are not the last of their key, MaximumFileKey = largest key *)
Theorem c05_index_metric_exact : forall osz es, ok_osz osz -> Forall (wf_entry osz) es ->
  metric_from_index osz (encode osz es) = exact_metric es.
Proof. exact index_metric_exact. Qed.
Print Assumptions c05_index_metric_exact.

(* every disciplined history without an empty Put: the LevelDB map regenerated from the .idx and
   the one reopened with its db kept (isLevelDbFresh) both show [reload_metric]: FileCounter = keys
   ever put, DeletionCounter = puts + deletes - keys ever put, byte totals and max key as running *)
Theorem c05_reload_counters_exact : forall osz ops, ok_osz osz ->
  forallb (op_in_range osz) ops = true -> disciplined ops = true -> trig_empty_put ops = false ->
  let s := snd (ldb_run osz ldb0 ops) in
  l_met (ldb_load osz (l_idx s)) = reload_metric ops (l_met s) /\
  l_met (ldb_reopen_fresh osz s) = reload_metric ops (l_met s).
Proof. exact reload_counters_exact. Qed.
Print Assumptions c05_reload_counters_exact.

(* the same for the sorted-file kind *)
Theorem c05_sorted_file_counters_exact : forall osz batch ops, ok_osz osz ->
  forallb (op_in_range osz) ops = true -> disciplined ops = true -> trig_empty_put ops = false ->
  let s := snd (nm_run osz batch nm0 ops) in
  metric_from_index osz (nm_idx s) = reload_metric ops (nm_met s).
Proof. exact sorted_file_counters_exact. Qed.
Print Assumptions c05_sorted_file_counters_exact.

(* the trigger of known finding 1 is exact: below 2^32 operations the recomputed counters
   equal the running ones IF AND ONLY IF no key was put twice *)
Theorem c05_reload_counters_iff : forall osz ops, ok_osz osz ->
  forallb (op_in_range osz) ops = true -> disciplined ops = true -> trig_empty_put ops = false ->
  N.of_nat (length ops) < two32 ->
  let s := snd (ldb_run osz ldb0 ops) in
  (l_met (ldb_load osz (l_idx s)) = l_met s <-> trig_rewrite ops = false).
Proof. exact reload_counters_iff. Qed.
Print Assumptions c05_reload_counters_iff.

(* Closed forms used by the correspondence check for long inputs. *)
(* n ascending Puts (n up to the section capacity) leave exactly the one section [fill_cm] and
   the reference [fill_ref]; a history fill ++ tail can be evaluated from there *)
Theorem c05_fill_then_run : forall batch base step n tail, fill_ok batch base step n = true ->
  cm_run batch [] (fill_ops base step n ++ tail) =
    (repeat (RSet 0 0%Z) (N.to_nat n) ++ fst (cm_run batch (fill_cm base step n) tail),
     snd (cm_run batch (fill_cm base step n) tail)) /\
  ref_run [] (fill_ops base step n ++ tail) =
    (repeat (RSet 0 0%Z) (N.to_nat n) ++ fst (ref_run (fill_ref base step n) tail),
     snd (ref_run (fill_ref base step n) tail)).
Proof. exact fill_then_run_both. Qed.
Print Assumptions c05_fill_then_run.

(* the readers of an index file evaluated on its entry list = the byte-level model *)
Theorem c05_long_index_readers : forall osz head base step n tail ans, ok_osz osz ->
  Forall (wf_entry osz) (long_entries head base step n tail) ->
  let es := long_entries head base step n tail in
  l_db (ldb_load osz (encode osz es)) = ldb_load_entries es /\
  write_sorted_from_idx osz (encode osz es) = encode osz (sorted_entries es) /\
  metric_from_index_o osz (encode osz es) ans = metric_entries_o es ans.
Proof. exact long_index_readers. Qed.
Print Assumptions c05_long_index_readers.

(* non-vacuity: a disciplined, write-once history over three sections (keys 2^32 apart, out
   of order, one delete) under the 5-byte build satisfies every hypothesis above, and the
   model answers as the reference says *)
Example c05_example :
  ok_osz 5 /\ keys_ok c05_ex /\ forallb (op_in_range 5) c05_ex = true /\
  disciplined c05_ex = true /\ trig_empty_put c05_ex = false /\ trig_rewrite c05_ex = false /\
  length (snd (cm_run 100000 [] c05_ex)) = 3%nat /\
  fst (cm_run 100000 [] c05_ex) =
    [RSet 0 0%Z; RSet 0 0%Z; RSet 0 0%Z; RSet 0 0%Z; RDel 20%Z;
     RGet (Some (3, 4294967296, (-20)%Z)); RGet (Some (5, 1, 10%Z));
     RGet (Some (4294967301, 1099511627775, 7%Z)); RGet None] /\
  ref_metric c05_ex = {| m_del := 1; m_file := 4; m_delb := 20; m_fileb := 67; m_max := 4294967301 |}.
Proof. exact c05_example_holds. Qed.
Print Assumptions c05_example.

(* non-vacuity of the exact counter theorems on a history that rewrites keys, and of [fill_ok]
   at the real capacity *)
Example c05_example_rewrite :
  forallb (op_in_range 4) c05_ex_rewrite = true /\ disciplined c05_ex_rewrite = true /\
  trig_empty_put c05_ex_rewrite = false /\ trig_rewrite c05_ex_rewrite = true /\
  ref_metric c05_ex_rewrite = {| m_del := 2; m_file := 4; m_delb := 40; m_fileb := 100; m_max := 2 |} /\
  reload_metric c05_ex_rewrite (ref_metric c05_ex_rewrite) =
    {| m_del := 3; m_file := 2; m_delb := 40; m_fileb := 100; m_max := 2 |} /\
  fill_ok 100000 0 2 100000 = true.
Proof. exact c05_example_rewrite_holds. Qed.
Print Assumptions c05_example_rewrite.
