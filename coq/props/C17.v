(* C17 — File content is the last-writer-wins overlay of its chunks.
   Only statements closed by [exact]; proofs live in proof/Chunks*.v.

   Vocabulary (model/Chunks.v):
     winner chunks p        the chunk with the greatest (mtime, key) among those covering p
     overlay_src chunks p   Some (file id, offset inside that chunk) of byte p, None in a hole
     overlay src chunks p   the byte itself (0 in a hole)
     src_of_visibles vs p / src_of_views ws p   the same question asked to a visible-interval / view list
   and, defined in the proof files: key (the sort key (mtime, file key), ChunksOverlay.v), nrange a b
   (the positions a .. b-1, ChunksStream.v), csr_rest / csr_run (what a stream reader still has to
   deliver / a sequence of Reads, ChunksCsr.v), ra_inv / ra_states (ChunksSeq.v).
   Written out below: cle (fun a b => chunk_ltb b a = false), vis_ok and views_ok (StronglySorted by
   stop <= start /\ Forall non-empty) of ChunksOverlay.v, ChunksProofs.v, ChunksRead.v.
   Ties: the sort in NonOverlappingVisibleIntervals is not stable, so every theorem about
   the overlay assumes pairwise distinct (mtime, key) pairs ([NoDup (map key d)]); under
   that assumption the sorted order is unique (c17_sort_irrelevant), whatever sort.Slice does. *)
From Coq Require Import List NArith ZArith Bool Permutation Sorted.
From SW Require Import model.Chunks proof.ChunksProofs proof.ChunksOverlay proof.ChunksRead proof.ChunksManifest
  proof.ChunksStream proof.ChunksCsr proof.ChunksWrap model.ChunksSeq proof.ChunksSeq.
Import ListNotations.
Local Open Scope N_scope.

(* the reference is what it claims to be (the Some case is [is_newest] of proof/ChunksOverlay.v) *)
Theorem c17_winner_is_newest : forall l p,
  match winner l p with
  | Some c => In c l /\ covers c p = true /\
              forall c', In c' l -> covers c' p = true -> chunk_ltb c c' = false
  | None => forall c, In c l -> covers c p = false
  end.
Proof. exact winner_spec. Qed.
Print Assumptions c17_winner_is_newest.

Theorem c17_sort_irrelevant : forall l s, Permutation l s ->
  StronglySorted (fun a b => chunk_ltb b a = false) s -> NoDup (map key l) -> s = sort_chunks l.
Proof. exact sort_chunks_unique. Qed.
Print Assumptions c17_sort_irrelevant.

(* invariant: after ANY sequence of merges of non-empty chunks the visible list is sorted
   by start, pairwise disjoint, and made of non-empty intervals *)
Theorem c17_visibles_sorted_disjoint : forall cs vs0,
  StronglySorted (fun a b => v_stop a <= v_start b) vs0 /\ Forall (fun v => v_start v < v_stop v) vs0 ->
  Forall (fun c => 0 < c_size c) cs ->
  StronglySorted (fun a b => v_stop a <= v_start b) (fold_left merge_into_visibles cs vs0) /\
  Forall (fun v => v_start v < v_stop v) (fold_left merge_into_visibles cs vs0).
Proof. exact merges_keep_invariant. Qed.
Print Assumptions c17_visibles_sorted_disjoint.

(* in particular the result of NonOverlappingVisibleIntervals (manifests included; chunks of
   size 0 never reach the merge: the resolver drops them) *)
Theorem c17_visibles_of_chunks : forall fuel ms chunks s e d m,
  resolve fuel ms s e chunks = Some (d, m) ->
  StronglySorted (fun a b => v_stop a <= v_start b) (fst (non_overlapping_visible_intervals fuel ms chunks s e)) /\
  Forall (fun v => v_start v < v_stop v) (fst (non_overlapping_visible_intervals fuel ms chunks s e)).
Proof. exact non_overlapping_ok. Qed.
Print Assumptions c17_visibles_of_chunks.

(* the central theorem: at EVERY position the visible intervals answer like the overlay of
   the (resolved) data chunks: same file id, same offset inside the chunk, holes where no chunk is *)
Theorem c17_overlay : forall fuel ms chunks s e d m,
  resolve fuel ms s e chunks = Some (d, m) -> NoDup (map key d) ->
  forall p, src_of_visibles (fst (non_overlapping_visible_intervals fuel ms chunks s e)) p = overlay_src d p.
Proof. exact non_overlapping_overlay. Qed.
Print Assumptions c17_overlay.

(* for a plain data-chunk list and any window [s,e): inside the window the answer is the overlay of
   ALL the chunks *)
Theorem c17_overlay_window : forall f ms chunks s e p,
  Forall (fun c => c_manifest c = false) chunks -> NoDup (map key chunks) ->
  s <= p -> p < e ->
  src_of_visibles (fst (non_overlapping_visible_intervals (S f) ms chunks s e)) p = overlay_src chunks p.
Proof. exact non_overlapping_overlay_data. Qed.
Print Assumptions c17_overlay_window.

(* views: sorted, disjoint, non-empty, and they tile exactly the covered bytes of the window
   with the right chunk-relative offsets *)
Theorem c17_views : forall vs off size p,
  StronglySorted (fun a b => v_stop a <= v_start b) vs /\ Forall (fun v => v_start v < v_stop v) vs ->
  src_of_views (view_from_visibles vs off size) p =
  if (off <=? p) && (p <? off + size) then src_of_visibles vs p else None.
Proof. exact views_src. Qed.
Print Assumptions c17_views.

Theorem c17_views_sorted_disjoint : forall vs off size,
  StronglySorted (fun a b => v_stop a <= v_start b) vs /\ Forall (fun v => v_start v < v_stop v) vs ->
  StronglySorted (fun a b => cv_logic a + cv_size a <= cv_logic b) (view_from_visibles vs off size) /\
  Forall (fun w => cv_logic w < cv_logic w + cv_size w) (view_from_visibles vs off size).
Proof. exact views_ok_of. Qed.
Print Assumptions c17_views_sorted_disjoint.

(* ReadAt (it zeroes holes), FULL: for every caller buffer (any prior content)
   and offset: n = min(len, fileSize - offset); the first n cells hold the overlay (zeros in
   holes); the other cells are untouched; EOF iff the window reaches the file size *)
Theorem c17_read_at : forall src fuel ms chunks d m fs buf off,
  resolve fuel ms 0 max_int64 chunks = Some (d, m) -> NoDup (map key d) ->
  (forall c, In c d -> N.of_nat (length (src (c_fid c))) = c_size c) ->
  (forall c, In c d -> c_stop c <= fs) -> fs <= max_int64 ->
  let r := read_at src (view_from_chunks fuel ms chunks 0 max_int64) fs buf off in
  let len := N.of_nat (length buf) in
  rr_n r = N.min len (fs - off) /\
  length (rr_buf r) = length buf /\
  rr_eof r = (fs <=? off + len) /\
  forall i, (i < length buf)%nat ->
    nth i (rr_buf r) 0 = if N.of_nat i <? rr_n r then overlay src d (off + N.of_nat i) else nth i buf 0.
Proof. exact read_at_chunks. Qed.
Print Assumptions c17_read_at.

(* ChunkReadAt is a STATE MACHINE across ReadAt calls (model/ChunksSeq.v): the one-entry last-chunk
   cache (lastChunkFileId / lastChunkData), the chunk cache (GetChunkSlice / GetChunk / SetChunk, the
   prefetch of the next view) and chunk fetches that FAIL per (call, chunk) (volume lookup error, HTTP
   error, short body).  [ra_run] runs a sequence of calls (each: optional Close(), the file ids whose
   fetch fails during the call, the caller's buffer, the offset) on ONE reader. *)

(* the cache invariant: before every call of every sequence, whatever failed before, lastChunkData is
   the content of lastChunkFileId, or the reader has no last chunk and no data *)
Theorem c17_last_chunk_invariant : forall src memo slices V fs ops s,
  ra_inv src s -> Forall (ra_inv src) (ra_states src memo slices V fs ops s).
Proof. exact ra_states_inv. Qed.
Print Assumptions c17_last_chunk_invariant.

(* one call from any state that satisfies the invariant, any chunk cache mode, any fetch oracle: the
   invariant survives; without a fetch error the call IS the pure failure-free read_at (c17_read_at);
   a fetch error means that the fetch of some view's chunk was made to fail during this call *)
Theorem c17_read_call : forall src memo slices fails V fs buf off s, ra_inv src s ->
  let r := fst (read_at_s src memo slices fails V fs buf off s) in
  ra_inv src (snd (read_at_s src memo slices fails V fs buf off s)) /\
  (rs_err r = false ->
     rs_buf r = rr_buf (read_at src V fs buf off) /\ rs_n r = rr_n (read_at src V fs buf off) /\
     rs_eof r = rr_eof (read_at src V fs buf off)) /\
  (rs_err r = true -> exists w, In w V /\ fails (cv_fid w) = true).
Proof. exact read_at_s_sim. Qed.
Print Assumptions c17_read_call.

(* FULL, over all call sequences and all failure scripts: EVERY call of the sequence
   - leaves the buffer length alone, holds the overlay (zeros in holes) in its first n cells and
     touches no other cell;
   - without a fetch error: n = min(len, fileSize - offset), EOF iff the window reaches the file size
     (in particular a retry after a failed call returns the right bytes, never those of the chunk
     read before);
   - with a fetch error (n and the buffer are what doReadAt had delivered before the failing fetch):
     n <= min(len, fileSize - offset), no EOF, and the fetch of one of the file's chunks was made to
     fail during THIS call (so a call without failing fetches returns no error) *)
Theorem c17_read_seq : forall src memo slices fuel ms chunks d m fs,
  resolve fuel ms 0 max_int64 chunks = Some (d, m) -> NoDup (map key d) ->
  (forall c, In c d -> N.of_nat (length (src (c_fid c))) = c_size c) ->
  (forall c, In c d -> c_stop c <= fs) -> fs <= max_int64 ->
  forall ops s, ra_inv src s ->
  Forall2 (fun o r =>
     let buf := op_buf o in
     let off := op_off o in
     let len := N.of_nat (length buf) in
     length (rs_buf r) = length buf /\
     (forall i, (i < length buf)%nat ->
        nth i (rs_buf r) 0 = if N.of_nat i <? rs_n r then overlay src d (off + N.of_nat i) else nth i buf 0) /\
     (if rs_err r
      then rs_n r <= N.min len (fs - off) /\ rs_eof r = false /\ exists c, In c d /\ In (c_fid c) (op_failing o)
      else rs_n r = N.min len (fs - off) /\ rs_eof r = (fs <=? off + len)))
    ops (ra_run src memo slices (view_from_chunks fuel ms chunks 0 max_int64) fs ops s).
Proof. exact read_seq_chunks. Qed.
Print Assumptions c17_read_seq.

(* a fresh reader and a reader after Close() satisfy the invariant *)
Theorem c17_reader_starts_clean : forall src s, ra_inv src ra_new /\ ra_inv src (ra_close s).
Proof. exact (fun src s => conj (ra_inv_new src) (ra_inv_close src s)). Qed.
Print Assumptions c17_reader_starts_clean.

(* non-vacuity: chunk 1 = [0,2), chunk 2 = [5,7) of a 9-byte file, no chunk cache: read chunk 2; the
   fetch of chunk 1 fails (n = 0, buffer untouched); the retry returns chunk 1's bytes; a read of the
   whole file while chunk 2's fetch fails delivers 5 bytes and the error; the retry delivers all 9 *)
Example c17_read_seq_example :
  ra_run seq_example_src false false (view_from_chunks 1 [] seq_example_chunks 0 max_int64) 9 seq_example_ops ra_new =
  [ {| rs_buf := [21;22]; rs_n := 2; rs_eof := false; rs_err := false |};
    {| rs_buf := [238;238]; rs_n := 0; rs_eof := false; rs_err := true |};
    {| rs_buf := [11;12]; rs_n := 2; rs_eof := false; rs_err := false |};
    {| rs_buf := [11;12;0;0;0;238;238;238;238]; rs_n := 5; rs_eof := false; rs_err := true |};
    {| rs_buf := [11;12;0;0;0;21;22;0;0]; rs_n := 9; rs_eof := true; rs_err := false |} ].
Proof. exact seq_example. Qed.
Print Assumptions c17_read_seq_example.

(* StreamContent (the filer's HTTP GET path; it pads holes with zeros): for every chunk list,
   offset and size with offset+size <= MaxInt64 the bytes written are exactly the overlay of the
   requested range [offset, offset+size) — zeros in holes at the start, in the middle and at the
   end; size = MaxInt64 means "up to TotalSize(chunks)", and is covered under the hypothesis that no
   resolved chunk ends after TotalSize(chunks) *)
Theorem c17_stream_content : forall src fuel ms chunks d m off size,
  resolve fuel ms off (off + size) chunks = Some (d, m) -> NoDup (map key d) ->
  (forall c, In c d -> N.of_nat (length (src (c_fid c))) = c_size c) ->
  off + size <= max_int64 ->
  (size = max_int64 -> forall c, In c d -> c_stop c <= total_size chunks) ->
  total_size chunks <= max_int64 ->
  let stop := if size =? max_int64 then total_size chunks else off + size in
  stream_content src fuel ms chunks off size =
  map (overlay src d) (map (fun i => off + N.of_nat i) (seq 0 (N.to_nat (stop - off)))).
Proof. exact stream_content_spec. Qed.
Print Assumptions c17_stream_content.

(* chunks [0,2) and [5,7), GET of bytes 0..6: zeros in the hole *)
Example c17_stream_example :
  let chunks := [Chunk 1 0 2 1 false; Chunk 2 5 2 2 false] in
  let src := fun f => match f with 1 => [11;12] | 2 => [21;22] | _ => [] end in
  stream_content src 1 [] chunks 0 7 = [11;12;0;0;0;21;22] /\
  stream_content src 1 [] chunks 3 6 = [0;0;21;22;0;0] /\
  stream_content src 1 [] chunks 0 max_int64 = [11;12;0;0;0;21;22].
Proof. exact stream_example. Qed.
Print Assumptions c17_stream_example.

(* the same for EVERY offset and size up to MaxInt64: Go's int64 sum offset+size wraps when it
   exceeds MaxInt64; ViewFromChunks / ViewFromVisibleIntervals / StreamContent then mean
   "to the end" (model: clamp_stop, view_from_chunks_w, stream_content_w).  No wrap hypothesis. *)
Theorem c17_stream_content_w : forall src fuel ms chunks d m off size,
  off <= max_int64 -> size <= max_int64 ->
  resolve fuel ms off (clamp_stop off size) chunks = Some (d, m) -> NoDup (map key d) ->
  (forall c, In c d -> N.of_nat (length (src (c_fid c))) = c_size c) ->
  ((size =? max_int64) || (max_int64 <? off + size) = true -> forall c, In c d -> c_stop c <= total_size chunks) ->
  total_size chunks <= max_int64 ->
  let stop := if (size =? max_int64) || (max_int64 <? off + size) then total_size chunks else off + size in
  stream_content_w src fuel ms chunks off size = map (overlay src d) (nrange off stop).
Proof. exact stream_content_w_spec. Qed.
Print Assumptions c17_stream_content_w.

(* without a wrap the wrap-aware functions are the ones of the theorems above *)
Theorem c17_views_nowrap : forall fuel ms chunks off size, off + size <= max_int64 ->
  view_from_chunks_w fuel ms chunks off size = view_from_chunks fuel ms chunks off size.
Proof. exact view_from_chunks_w_nowrap. Qed.
Print Assumptions c17_views_nowrap.

(* the wrap: StreamContent(3, MaxInt64) and windows ending one past MaxInt64 *)
Example c17_stream_wrap_example :
  let chunks := [Chunk 1 0 2 1 false; Chunk 2 5 2 2 false] in
  let src := fun f => match f with 1 => [11;12] | 2 => [21;22] | _ => [] end in
  stream_content_w src 1 [] chunks 3 max_int64 = [0;0;21;22] /\
  stream_content_w src 1 [] chunks 6 (max_int64 - 5) = [22] /\
  view_from_chunks_w 1 [] chunks 6 (max_int64 - 3) = [View 2 1 1 6 2].
Proof. exact stream_wrap_example. Qed.
Print Assumptions c17_stream_wrap_example.

(* ReadAll (zeros for holes): the overlay of [0, E), and no chunk has a byte in [E, MaxInt64) *)
Theorem c17_read_all : forall src fuel ms chunks d m,
  resolve fuel ms 0 max_int64 chunks = Some (d, m) -> NoDup (map key d) ->
  (forall c, In c d -> N.of_nat (length (src (c_fid c))) = c_size c) ->
  exists E, read_all src fuel ms chunks = map (overlay src d) (nrange 0 E) /\
            (forall p, E <= p -> p < max_int64 -> overlay_src d p = None).
Proof. exact read_all_spec. Qed.
Print Assumptions c17_read_all.

(* ChunkStreamReader (stream.go; readers of the filer's log files) writes nothing for a hole.
   FULL statement (every sequence of Reads on a fresh reader delivers the overlay of
   [0, TotalSize)) is FALSE — known finding 0: a hole is dropped; Seek(5) inside the file fails *)
Theorem c17_stream_reader_refuted :
  exists src chunks wants,
    resolve 1 [] 0 max_int64 chunks = Some (chunks, []) /\ NoDup (map key chunks) /\
    (forall c, In c chunks -> N.of_nat (length (src (c_fid c))) = c_size c) /\
    map (overlay src chunks) (nrange 0 (total_size chunks)) = [11;12;0;0;0;21;22] /\
    csr_run src (view_from_chunks 1 [] chunks 0 max_int64) csr_new wants = Some [11;12;21;22] /\
    (exists s', csr_seek src (view_from_chunks 1 [] chunks 0 max_int64) csr_new 5 0 = (5%Z, true, s')).
Proof. exact csr_stream_refuted. Qed.
Print Assumptions c17_stream_reader_refuted.

(* PARTIAL, under the decidable hypothesis "the views are contiguous from offset 0" (no hole): EVERY
   sequence of Read calls (any buffer sizes) delivers the overlay of [0, E) in order, never panics,
   and E is the end of the content *)
Theorem c17_stream_reader_partial : forall src fuel ms chunks d m,
  resolve fuel ms 0 max_int64 chunks = Some (d, m) -> NoDup (map key d) ->
  (forall c, In c d -> N.of_nat (length (src (c_fid c))) = c_size c) ->
  let V := view_from_chunks fuel ms chunks 0 max_int64 in
  views_gapless 0 V = true ->
  exists E,
    (forall wants, csr_run src V csr_new wants =
                   Some (firstn (fold_right Nat.add 0%nat wants) (map (overlay src d) (nrange 0 E)))) /\
    (forall p, E <= p -> p < max_int64 -> overlay_src d p = None).
Proof. exact csr_stream_partial. Qed.
Print Assumptions c17_stream_reader_partial.

(* each single Read, from any reader state with a non-negative buffer position: the next bytes of what
   is left, io.EOF iff fewer than asked were left *)
Theorem c17_stream_reader_read : forall src views s want, (0 <= cs_bpos s)%Z ->
  exists s', csr_read src views s want =
      CsrOk (firstn want (csr_rest src views s)) (length (csr_rest src views s) <? want)%nat s' /\
    (0 <= cs_bpos s')%Z /\ csr_rest src views s' = skipn want (csr_rest src views s).
Proof. exact csr_read_spec. Qed.
Print Assumptions c17_stream_reader_read.

(* known finding 1: Seek to the END of a hole-free file, then Read: the first bytes of the file
   instead of io.EOF *)
Theorem c17_stream_seek_refuted :
  exists src chunks,
    resolve 1 [] 0 max_int64 chunks = Some (chunks, []) /\ NoDup (map key chunks) /\
    views_gapless 0 (view_from_chunks 1 [] chunks 0 max_int64) = true /\ total_size chunks = 4 /\
    let V := view_from_chunks 1 [] chunks 0 max_int64 in
    let '(pos, err, s') := csr_seek src V csr_new 4 0 in
    pos = 4%Z /\ err = false /\ exists s'', csr_read src V s' 2 = CsrOk [11;12] false s''.
Proof. exact csr_seek_refuted. Qed.
Print Assumptions c17_stream_seek_refuted.

(* PARTIAL: Seek(off, io.SeekStart) strictly inside a hole-free file (off < E), on a reader whose
   buffer is empty (a fresh one in particular): no error, and every following sequence of Reads
   delivers the overlay of [off, E) *)
Theorem c17_stream_seek_partial : forall src fuel ms chunks d m s off,
  resolve fuel ms 0 max_int64 chunks = Some (d, m) -> NoDup (map key d) ->
  (forall c, In c d -> N.of_nat (length (src (c_fid c))) = c_size c) ->
  let V := view_from_chunks fuel ms chunks 0 max_int64 in
  views_gapless 0 V = true -> csr_empty s = true ->
  exists E, off < E ->
    (let '(pos, err, s') := csr_seek src V s (Z.of_N off) 0 in
     pos = Z.of_N off /\ err = false /\
     forall wants, csr_run src V s' wants =
                   Some (firstn (fold_right Nat.add 0%nat wants) (map (overlay src d) (nrange off E)))) /\
    (forall p, E <= p -> p < max_int64 -> overlay_src d p = None).
Proof. exact csr_seek_partial. Qed.
Print Assumptions c17_stream_seek_partial.

(* FileSize(entry) >= TotalSize(chunks) gives the file-size hypothesis *)
Theorem c17_total_size : forall l c, In c l -> c_stop c <= total_size l.
Proof. exact total_size_ge. Qed.
Print Assumptions c17_total_size.

(* compaction keeps the content and loses no chunk *)
Theorem c17_compact_same : forall f ms chunks,
  Forall (fun c => c_manifest c = false) chunks ->
  Forall (fun c => c_stop c <= max_int64) chunks ->
  NoDup (map key chunks) ->
  Permutation (fst (compact_file_chunks (S f) ms chunks) ++ snd (compact_file_chunks (S f) ms chunks)) chunks /\
  forall p, overlay_src (fst (compact_file_chunks (S f) ms chunks)) p = overlay_src chunks p.
Proof. exact compact_same. Qed.
Print Assumptions c17_compact_same.

(* without the [c_manifest = false] hypothesis the statement is FALSE — known finding 2:
   CompactFileChunks on a list that still holds a manifest chunk puts the manifest (and so all the
   content it lists) into the garbage.  Trigger: existsb c_manifest chunks *)
Theorem c17_compact_manifest_refuted :
  exists ms chunks d m,
    resolve 2 ms 0 max_int64 chunks = Some (d, m) /\ NoDup (map key d) /\
    existsb c_manifest chunks = true /\
    compact_file_chunks 2 ms chunks = ([], chunks) /\
    overlay_src d 0 <> None /\
    compact_entry 2 ms chunks = (chunks, []).
Proof. exact compact_manifest_refuted. Qed.
Print Assumptions c17_compact_manifest_refuted.

(* PARTIAL / what both callers do (SeparateManifestChunks, compact the data chunks, put the manifest
   chunks back): for ANY entry, manifests included, no chunk is lost and the overlay of the top-level
   data chunks is unchanged *)
Theorem c17_compact_entry : forall f ms chunks,
  Forall (fun c => c_stop c <= max_int64) chunks ->
  NoDup (map key (filter (fun c => negb (c_manifest c)) chunks)) ->
  Permutation (fst (compact_entry (S f) ms chunks) ++ snd (compact_entry (S f) ms chunks)) chunks /\
  forall p, overlay_src (filter (fun c => negb (c_manifest c)) (fst (compact_entry (S f) ms chunks))) p =
            overlay_src (filter (fun c => negb (c_manifest c)) chunks) p.
Proof. exact compact_entry_same. Qed.
Print Assumptions c17_compact_entry.

(* manifest conversion (any window; any merge factor, though for 0 the Go loop does not terminate
   while the model returns) resolves to the same data chunks *)
Theorem c17_manifest_same : forall k next mt chunks fuel ms s e d m,
  resolve fuel ms s e chunks = Some (d, m) ->
  (forall j v, ms_lookup ms j = Some v -> j < next) ->
  exists d' m',
    resolve (S fuel) (snd (maybe_manifestize k next mt chunks) ++ ms) s e
            (fst (maybe_manifestize k next mt chunks)) = Some (d', m') /\
    Permutation d d'.
Proof. exact manifestize_same. Qed.
Print Assumptions c17_manifest_same.

(* the overlay only depends on the multiset of data chunks, so reads are unchanged *)
Theorem c17_overlay_perm : forall d d' p, Permutation d d' -> NoDup (map key d) ->
  overlay_src d p = overlay_src d' p.
Proof. exact overlay_perm. Qed.
Print Assumptions c17_overlay_perm.

Theorem c17_manifest_overlay : forall k next mt chunks fuel ms s e d m,
  resolve fuel ms s e chunks = Some (d, m) ->
  (forall j v, ms_lookup ms j = Some v -> j < next) ->
  NoDup (map key d) ->
  forall p,
    src_of_visibles
      (fst (non_overlapping_visible_intervals (S fuel) (snd (maybe_manifestize k next mt chunks) ++ ms)
              (fst (maybe_manifestize k next mt chunks)) s e)) p = overlay_src d p.
Proof. exact manifestize_overlay. Qed.
Print Assumptions c17_manifest_overlay.

(* non-vacuity: a nested-manifest file with a hole, read into a dirty buffer *)
Example c17_example :
  let b := Chunk 2 2 4 3 false in let c := Chunk 3 5 3 2 false in let d0 := Chunk 4 1 2 1 false in
  let a := Chunk 1 0 4 4 false in let z := Chunk 5 12 2 5 false in
  let inner := Chunk 60 2 6 0 true in let outer := Chunk 61 1 7 0 true in
  let ms := [(61, [inner; d0]); (60, [b; c])] in
  let chunks := [outer; a; z] in
  let src := fun f => match f with 1 => [10;11;12;13] | 2 => [20;21;22;23] | 3 => [30;31;32] | 4 => [40;41]
                                 | 5 => [50;51] | _ => [] end in
  resolve 3 ms 0 max_int64 chunks = Some ([b; c; d0; a; z], [outer; inner]) /\
  NoDup (map key [b; c; d0; a; z]) /\
  let r := read_at src (view_from_chunks 3 ms chunks 0 max_int64) 15 (repeat 238 17) 0 in
  rr_buf r = [10;11;12;13;22;23;31;32;0;0;0;0;50;51;0;238;238] /\ rr_n r = 15 /\ rr_eof r = true /\
  fst (compact_file_chunks 1 [] [b; c; d0; a; z]) = [b; c; a; z] /\
  fst (maybe_manifestize 2 100 9 chunks) = [outer; Chunk 100 0 14 9 true].
Proof. exact nested_example. Qed.
Print Assumptions c17_example.
