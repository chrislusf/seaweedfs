(* C26 — S3 requests take effect only with a valid, permitted signature.
   Only statements closed by [exact]; proofs live in proof/S3Auth{,Policy,Handler}Proofs.v.

   Vocabulary (model/S3Auth.v; the Props authorized, authenticated and the two closed statements are
   defined in proof/S3AuthProofs.v and proof/S3AuthHandlerProofs.v): [auth ids r c action] is IdentityAccessManagement.Auth's
   decision for request r under the configured identities ids when the wrapped handler's
   action is [action]; the claim c says how the request was really signed (HMAC is an
   oracle: a signature verifies iff it was made with the secret of the first credential
   carrying the named access key and nothing signed was altered).  [authorized] is the
   property's right-hand side; [trigger r] = the request classifies as streaming-signed or
   post-policy. *)
From Coq Require Import List NArith Bool String.
From SW Require Import model.S3Auth proof.S3AuthProofs proof.S3AuthPolicyProofs proof.S3AuthHandlerProofs.
Import ListNotations.
Local Open Scope string_scope.

(* FULL statement: with identities configured, a handler behind Auth runs only for a request
   carrying a valid signature of an identity allowed to do the route's action on the bucket,
   or an anonymous request with an allowed anonymous identity. *)
Example c26_full_statement_is :
  handler_implies_authorized_statement =
  (forall ids r c action w, ids <> [] -> auth ids r c action = Run w -> authorized ids r c action).
Proof. exact eq_refl. Qed.
Print Assumptions c26_full_statement_is.

(* It FAILS on the code as it is (finding 0): an unsigned PUT /b1 with the streaming sha256
   header reaches PutBucketHandler (action Admin); an unsigned POST /b1/o?uploads with a
   multipart/form-data content type reaches NewMultipartUploadHandler (action Write). *)
Theorem c26_refuted :
  handler_runs_unauthorized witness_ids witness_streaming no_claim /\
  handler_runs_unauthorized witness_ids witness_form no_claim.
Proof. exact (conj witness_streaming_bad witness_form_bad). Qed.
Print Assumptions c26_refuted.

Theorem c26_handler_implies_authorized_refuted : ~ handler_implies_authorized_statement.
Proof. exact full_statement_false. Qed.
Print Assumptions c26_handler_implies_authorized_refuted.

(* ... and the failure is total inside the trigger set: every bypass-type request passes
   Auth for every action, whatever the identities and however (un)signed it is. *)
Theorem c26_bypass_passes : forall ids r c action,
  trigger r = true -> auth ids r c action = Run None.
Proof. exact bypass_passes. Qed.
Print Assumptions c26_bypass_passes.

(* PARTIAL: outside the trigger set — V2 header, V2 presigned,
   V4 header, V4 presigned, anonymous, JWT, unknown — the handler runs only if authorised,
   and Auth hands the handler a configured identity. *)
Theorem c26_partial : forall ids r c action w,
  ids <> [] -> trigger r = false -> auth ids r c action = Run w ->
  authorized ids r c action /\ exists id, w = Some id /\ In id ids.
Proof. exact auth_partial. Qed.
Print Assumptions c26_partial.

(* The same on EVERY route of the table (and ListBuckets, which authenticates inside the
   handler with authUser): whichever route the router picks for a non-bypass request (the hypothesis
   route_match r = Some i only says that i is that route; the proof does not use it). *)
Theorem c26_partial_every_route : forall ids r c i w,
  ids <> [] -> trigger r = false -> route_match r = Some i ->
  route_decision ids r c i = Run w ->
  match nth_error route_table (N.to_nat i) with
  | Some rt => authorized ids r c (rt_action rt)
  | None => authenticated ids r c
  end.
Proof. exact every_route_partial. Qed.
Print Assumptions c26_partial_every_route.

Theorem c26_bypass_every_route : forall ids r c i,
  trigger r = true -> route_decision ids r c i = Run None.
Proof. exact every_route_bypass. Qed.
Print Assumptions c26_bypass_every_route.

(* router semantics of the model: first registered matching route *)
Theorem c26_route_match_first : forall r i, route_match r = Some i ->
  (exists rt, nth_error route_table (N.to_nat i) = Some rt /\ route_matches r rt = true /\
     forall k' y, (k' < N.to_nat i)%nat -> nth_error route_table k' = Some y -> route_matches r y = false)
  \/
  (i = list_buckets_index /\ rq_bucket r = "" /\ rq_method r = "GET" /\
   forall rt, In rt route_table -> route_matches r rt = false).
Proof. exact route_match_first. Qed.
Print Assumptions c26_route_match_first.

(* canDo is "some configured action string grants (action, bucket)" *)
Theorem c26_can_do_is_allows : forall acts action bucket,
  can_do acts action bucket = allows acts action bucket.
Proof. exact can_do_allows. Qed.
Print Assumptions c26_can_do_is_allows.

(* the executable oracles of the correspondence check are the Props of the theorems *)
Theorem c26_oracle_is_authorized : forall ids r c action,
  authorized_spec ids (get_request_auth_type r) c action (rq_bucket r) = true <-> authorized ids r c action.
Proof. exact authorized_spec_iff. Qed.
Print Assumptions c26_oracle_is_authorized.

Theorem c26_oracle_is_authenticated : forall ids r c,
  authenticated_spec ids (get_request_auth_type r) c = true <-> authenticated ids r c.
Proof. exact authenticated_spec_iff. Qed.
Print Assumptions c26_oracle_is_authenticated.

(* IAM policy documents (FULL): the (action, bucket) pairs granted by GetActions are among
   those named by the document's Allow statements; PutUserPolicy adds nothing else. *)
Theorem c26_policy_sound : forall doc action bucket,
  is_s3_action action = true ->
  can_do (get_actions doc) action bucket = true -> named doc action bucket = true.
Proof. exact policy_sound. Qed.
Print Assumptions c26_policy_sound.

Theorem c26_put_user_policy_sound : forall prior doc action bucket,
  is_s3_action action = true ->
  can_do (put_user_policy prior doc) action bucket = true ->
  can_do prior action bucket = true \/ named doc action bucket = true.
Proof. exact put_user_policy_sound. Qed.
Print Assumptions c26_put_user_policy_sound.

Theorem c26_named_meaning : forall doc action bucket,
  named doc action bucket = true <->
  exists st, In st doc /\ st_effect st = "Allow" /\
             (exists a, In a (st_actions st) /\ act_names a action = true) /\
             (exists r, In r (st_resources st) /\ res_covers r bucket = true).
Proof. exact named_iff. Qed.
Print Assumptions c26_named_meaning.

Theorem c26_non_allow_grants_nothing : forall doc,
  Forall (fun st => String.eqb (st_effect st) "Allow" = false) doc -> get_actions doc = [].
Proof. exact non_allow_grants_nothing. Qed.
Print Assumptions c26_non_allow_grants_nothing.


(* the handlers' own verification (V4 streaming seed, POST policy):
   [takes_effect ids r c e i = Some w]: Auth lets the request through AND the handler behind
   route i passes its own verification, i.e. the request goes on to the filer; e is the
   environment (upload known to the filer, POST body and how its policy was signed,
   identity headers the client sent). *)

(* V4 streaming seed (FULL on PutObject / PutObjectPart): a streaming-signed upload goes on to
   the filer only with a valid seed signature of a configured identity allowed to Write *)
Theorem c26_streaming_put_needs_seed : forall ids r c e i w,
  ids <> [] -> get_request_auth_type r = StreamingSigned ->
  i = PUT_OBJECT_IDX \/ i = PUT_OBJECT_PART_IDX ->
  takes_effect ids r c e i = Some w ->
  seed_spec ids r c = true /\ exists id, w = Some id /\ In id ids /\
    can_do (id_actions id) ACTION_WRITE (rq_bucket r) = true.
Proof. exact streaming_put_needs_seed. Qed.
Print Assumptions c26_streaming_put_needs_seed.

Theorem c26_seed_spec_meaning : forall ids r c,
  seed_spec ids r c = true <->
  sprefix signV4Algorithm (remove_spaces (hdr_authz r)) = true /\
  exists id secret, lookup_by_access_key ids (cl_ak c) = Some (id, secret) /\ secret = cl_secret c /\
                    sig_fresh false (cl_damage c) = true /\
                    can_do (id_actions id) ACTION_WRITE (rq_bucket r) = true.
Proof. exact seed_spec_meaning. Qed.
Print Assumptions c26_seed_spec_meaning.

(* POST policy (authentication FULL, every classified type): PostPolicyBucketHandler goes on to
   the filer only with an unexpired policy validly signed (V2 or V4) by a configured identity *)
Theorem c26_post_policy_needs_signature : forall ids r c e w,
  takes_effect ids r c e POST_POLICY_IDX = Some w ->
  exists id, w = Some id /\ policy_signer ids (e_form e) = Some id.
Proof. exact post_policy_needs_signature. Qed.
Print Assumptions c26_post_policy_needs_signature.

Theorem c26_policy_signer_meaning : forall ids f id,
  policy_signer ids f = Some id <->
  exists v2 pc secret, f = FormPolicy v2 pc /\ lookup_by_access_key ids (cl_ak pc) = Some (id, secret) /\
                       secret = cl_secret pc /\ cl_damage pc = Intact.
Proof. exact policy_signer_meaning. Qed.
Print Assumptions c26_policy_signer_meaning.

(* The property on every route, all five signature kinds of the text.  FULL statement: *)
Example c26_effect_statement_is :
  effect_implies_authorized_statement =
  (forall ids r c e i w, ids <> [] -> route_match r = Some i ->
     takes_effect ids r c e i = Some w -> effect_authorized_spec ids r c e i = true).
Proof. exact eq_refl. Qed.
Print Assumptions c26_effect_statement_is.

(* refuted (here by the witness of finding 1), and once per finding below: finding 0 (unsigned
   streaming-typed PUT /b1 runs PutBucketHandler), finding 1 (a POST policy upload signed by an identity
   that may only Read is written) and finding 3 (a copy reads a source bucket its signer may not Read) *)
Theorem c26_effect_refuted : ~ effect_implies_authorized_statement.
Proof. exact effect_statement_false. Qed.
Print Assumptions c26_effect_refuted.

Theorem c26_effect_refuted_finding0 :
  route_match witness_streaming = Some 14%N /\
  takes_effect witness_ids witness_streaming no_claim env0 14%N = Some None /\
  effect_authorized_spec witness_ids witness_streaming no_claim env0 14%N = false /\
  trigger0 witness_ids witness_streaming no_claim 14%N = true.
Proof. exact effect_refuted_0. Qed.
Print Assumptions c26_effect_refuted_finding0.

Theorem c26_effect_refuted_finding1 :
  route_match witness_post = Some POST_POLICY_IDX /\
  (exists id, takes_effect witness_ids1 witness_post no_claim env1 POST_POLICY_IDX = Some (Some id) /\
              id_name id = "reader" /\ can_do (id_actions id) ACTION_WRITE "b1" = false) /\
  effect_authorized_spec witness_ids1 witness_post no_claim env1 POST_POLICY_IDX = false /\
  trigger0 witness_ids1 witness_post no_claim POST_POLICY_IDX = false /\
  trigger1 witness_ids1 witness_post env1 POST_POLICY_IDX = true.
Proof. exact effect_refuted_1. Qed.
Print Assumptions c26_effect_refuted_finding1.

(* finding 3: the right-hand side asks, for a copy (CopyObject / CopyObjectPart), Write on the
   destination bucket AND Read on the bucket X-Amz-Copy-Source names; Auth and the copy handlers
   only ever look at the destination.  writer1 (Write:b1, nothing on b2) copies b2/src into b1,
   as an object and as a part. *)
Example c26_effect_spec_is : forall ids r c e i,
  effect_authorized_spec ids r c e i =
  effect_authorized_spec0 ids r c e i &&
  match copy_reads_source r e i with
  | Some sb => authorized_spec ids (get_request_auth_type r) c ACTION_READ sb
  | None => true
  end.
Proof. exact (fun _ _ _ _ _ => eq_refl). Qed.
Print Assumptions c26_effect_spec_is.

Theorem c26_effect_refuted_finding3 :
  route_match witness_copy = Some COPY_OBJECT_IDX /\
  (exists id, takes_effect witness_ids3 witness_copy wr1_claim env0 COPY_OBJECT_IDX = Some (Some id) /\
              id_name id = "writer1" /\ can_do (id_actions id) ACTION_READ "b2" = false) /\
  copy_reads_source witness_copy env0 COPY_OBJECT_IDX = Some "b2" /\
  effect_authorized_spec0 witness_ids3 witness_copy wr1_claim env0 COPY_OBJECT_IDX = true /\
  effect_authorized_spec witness_ids3 witness_copy wr1_claim env0 COPY_OBJECT_IDX = false /\
  trigger0 witness_ids3 witness_copy wr1_claim COPY_OBJECT_IDX = false /\
  trigger1 witness_ids3 witness_copy env0 COPY_OBJECT_IDX = false /\
  trigger3 witness_ids3 witness_copy wr1_claim env0 COPY_OBJECT_IDX = true /\
  route_match witness_copy_part = Some COPY_OBJECT_PART_IDX /\
  copy_reads_source witness_copy_part env0 COPY_OBJECT_PART_IDX = Some "b2" /\
  (exists id, takes_effect witness_ids3 witness_copy_part wr1_claim env0 COPY_OBJECT_PART_IDX = Some (Some id) /\ id_name id = "writer1") /\
  effect_authorized_spec witness_ids3 witness_copy_part wr1_claim env0 COPY_OBJECT_PART_IDX = false /\
  trigger3 witness_ids3 witness_copy_part wr1_claim env0 COPY_OBJECT_PART_IDX = true.
Proof. exact effect_refuted_3. Qed.
Print Assumptions c26_effect_refuted_finding3.

(* ... and the failure is total: on a copy route the source plays no part in whether the request
   goes on to the filer *)
Theorem c26_copy_ignores_source_rights : forall ids r c e i w,
  i = COPY_OBJECT_IDX \/ i = COPY_OBJECT_PART_IDX ->
  takes_effect ids r c e i = Some w <-> route_decision ids r c i = Run w.
Proof. exact copy_ignores_source_rights. Qed.
Print Assumptions c26_copy_ignores_source_rights.

(* PARTIAL: outside the three NARROWED trigger sets —
   trigger0: bypass type on a route other than PutObject / PostPolicy (PutObjectPart: unless the
   seed signature is valid); trigger1: POST policy validly signed by an identity that may not
   Write the bucket; trigger3: a copy that is authorised to Write the destination, really reads
   the source (the handler does not answer before) and whose signer may not Read the source
   bucket — a request that goes on to the filer is authorised, for a copy on BOTH buckets.  In
   particular valid streaming uploads, valid POST policy uploads and copies by an identity that
   may Read the source are OUTSIDE the trigger sets. *)
Theorem c26_effect_partial : forall ids r c e i w,
  ids <> [] -> route_match r = Some i -> takes_effect ids r c e i = Some w ->
  trigger0 ids r c i = false -> trigger1 ids r e i = false -> trigger3 ids r c e i = false ->
  effect_authorized_spec ids r c e i = true.
Proof. exact effect_partial. Qed.
Print Assumptions c26_effect_partial.

(* the route-action half alone needs only the first two *)
Theorem c26_effect_partial_destination : forall ids r c e i w,
  ids <> [] -> route_match r = Some i -> takes_effect ids r c e i = Some w ->
  trigger0 ids r c i = false -> trigger1 ids r e i = false ->
  effect_authorized_spec0 ids r c e i = true.
Proof. exact effect_partial0. Qed.
Print Assumptions c26_effect_partial_destination.

(* identity context handed to the handlers (finding 2): Auth sets s3-identity-id /
   s3-is-admin but never removes what the client sent *)
Theorem c26_identity_headers_refuted : ~ idhdr_statement.
Proof. exact idhdr_statement_false. Qed.
Print Assumptions c26_identity_headers_refuted.

Theorem c26_identity_headers_partial : forall d e,
  e_client_idhdr e = ("", false) -> seen_id_header d e = id_header d.
Proof. exact seen_header_partial. Qed.
Print Assumptions c26_identity_headers_partial.

(* PutUserPolicy histories: grants stay inside "prior or named by SOME document ever put";
   nothing is ever revoked; the bound by the LAST document fails *)
Theorem c26_put_history_sound : forall docs prior action bucket,
  is_s3_action action = true ->
  can_do (put_history prior docs) action bucket = true ->
  can_do prior action bucket = true \/ exists doc, In doc docs /\ named doc action bucket = true.
Proof. exact put_history_sound. Qed.
Print Assumptions c26_put_history_sound.

Theorem c26_put_history_never_revokes : forall docs prior action bucket,
  can_do prior action bucket = true -> can_do (put_history prior docs) action bucket = true.
Proof. exact put_history_never_revokes. Qed.
Print Assumptions c26_put_history_never_revokes.

Theorem c26_last_document_bound_refuted :
  can_do (put_history [] [doc_wide; doc_narrow]) ACTION_WRITE "b2" = true /\
  named doc_narrow ACTION_WRITE "b2" = false /\ named doc_wide ACTION_WRITE "b2" = true.
Proof. exact last_document_bound_refuted. Qed.
Print Assumptions c26_last_document_bound_refuted.

(* the hypotheses of c26_partial are satisfiable: a V4-signed PUT by writer1 on b1 reaches
   PutObject; the same signature on b2 is refused; an anonymous GET is served (anonymous may
   Read) but an anonymous PUT is refused; a wrong secret is refused *)
Example c26_example :
  trigger ex_put = false /\ route_match ex_put = Some 13%N /\
  (exists id, auth ex_ids ex_put ex_claim ACTION_WRITE = Run (Some id) /\ id_name id = "writer1") /\
  auth ex_ids {| rq_method := "PUT"; rq_bucket := "b2"; rq_object := "o"; rq_query := [];
                 rq_authz := Some "AWS4-HMAC-SHA256 Credent"; rq_sha256 := ""; rq_ctype := ""; rq_copysrc := "" |}
       ex_claim ACTION_WRITE = Reject ErrAccessDenied /\
  trigger ex_get = false /\ route_match ex_get = Some 18%N /\
  (exists id, auth ex_ids ex_get no_claim ACTION_READ = Run (Some id) /\ id_name id = "anonymous") /\
  auth ex_ids ex_get no_claim ACTION_WRITE = Reject ErrAccessDenied /\
  auth ex_ids ex_put {| cl_ak := "AKWR1"; cl_secret := "sk-other"; cl_damage := Intact |} ACTION_WRITE
    = Reject ErrSignatureDoesNotMatch.
Proof. exact wrapper_example. Qed.
Print Assumptions c26_example.

(* the hypotheses of c26_effect_partial are satisfiable on the two other signature kinds: a
   streaming upload with writer1's seed signature goes on, an unsigned one does not; a POST
   policy signed (V2) by writer1 goes on, a POST without a form does not *)
Example c26_effect_example :
  get_request_auth_type ex_stream = StreamingSigned /\ route_match ex_stream = Some PUT_OBJECT_IDX /\
  trigger0 ex_ids2 ex_stream ex_wr_claim PUT_OBJECT_IDX = false /\
  trigger1 ex_ids2 ex_stream env0 PUT_OBJECT_IDX = false /\
  (exists id, takes_effect ex_ids2 ex_stream ex_wr_claim env0 PUT_OBJECT_IDX = Some (Some id) /\ id_name id = "writer1") /\
  takes_effect ex_ids2 ex_stream no_claim env0 PUT_OBJECT_IDX = None /\
  get_request_auth_type witness_post = PostPolicy /\
  trigger1 ex_ids2 witness_post env_wr POST_POLICY_IDX = false /\
  (exists id, takes_effect ex_ids2 witness_post no_claim env_wr POST_POLICY_IDX = Some (Some id) /\ id_name id = "writer1") /\
  takes_effect ex_ids2 witness_post no_claim env0 POST_POLICY_IDX = None.
Proof. exact effect_example. Qed.
Print Assumptions c26_effect_example.

(* the trigger3 hypothesis is satisfiable on a real copy: "rw" (Write:b1, Read:b2) copies b2/src
   into b1 outside the trigger set and authorised; writer1's same copy is inside; a copy onto
   itself reads nothing; a copy inside b1 reads b1 *)
Example c26_copy_example :
  trigger3 ex_ids3 witness_copy rw_claim env0 COPY_OBJECT_IDX = false /\
  (exists id, takes_effect ex_ids3 witness_copy rw_claim env0 COPY_OBJECT_IDX = Some (Some id) /\ id_name id = "rw") /\
  effect_authorized_spec ex_ids3 witness_copy rw_claim env0 COPY_OBJECT_IDX = true /\
  trigger3 ex_ids3 witness_copy wr1_claim env0 COPY_OBJECT_IDX = true /\
  copy_reads_source {| rq_method := "PUT"; rq_bucket := "b1"; rq_object := "o"; rq_query := [];
                       rq_authz := None; rq_sha256 := ""; rq_ctype := ""; rq_copysrc := "/b1/o" |} env0 COPY_OBJECT_IDX = None /\
  copy_reads_source {| rq_method := "PUT"; rq_bucket := "b1"; rq_object := "o"; rq_query := [];
                       rq_authz := None; rq_sha256 := ""; rq_ctype := ""; rq_copysrc := "b1/other" |} env0 COPY_OBJECT_IDX = Some "b1".
Proof. exact copy_example. Qed.
Print Assumptions c26_copy_example.

(* a policy document with an Allow and a Deny statement: grants exactly Read/List on b1 *)
Example c26_policy_example :
  let doc := [ {| st_effect := "Allow"; st_actions := ["s3:Get*"; "s3:List*"]; st_resources := ["arn:aws:s3:::b1/*"] |};
               {| st_effect := "Deny"; st_actions := ["s3:*"]; st_resources := ["arn:aws:s3:::*"] |} ] in
  get_actions doc = ["Read:b1"; "List:b1"] /\
  can_do (get_actions doc) ACTION_READ "b1" = true /\ named doc ACTION_READ "b1" = true /\
  can_do (get_actions doc) ACTION_READ "b2" = false /\
  can_do (get_actions doc) ACTION_WRITE "b1" = false /\ named doc ACTION_WRITE "b1" = false.
Proof. exact policy_example. Qed.
Print Assumptions c26_policy_example.
