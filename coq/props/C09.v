(* C09 — TTL data lives exactly as long as promised.
   Only statements closed by [exact]; proofs live in proof/Ttl{,Filer,Hist}Proofs.v.
   Time: [now] is time.Now() in nanoseconds; second-granular clock reads are now / NS. *)
From Coq Require Import List NArith ZArith Bool String.
From SW Require Import model.Ttl model.TtlHist proof.TtlProofs proof.TtlFilerProofs proof.TtlHistProofs.
Import ListNotations.
Local Open Scope N_scope.

(* A stored blob whose record has the TTL flag, a TTL of m > 0 minutes and the
   last-modified flag is returned by a read iff now < AppendAtNs + m minutes: the base
   is the record's append timestamp (not LastModified), the span is the NEEDLE's TTL. *)
Theorem c09_read_window : forall now n, expiring n = true ->
  (read_visible now n = true <-> now < append_at_ns n + minutes (n_ttl n) * 60000000000).
Proof. exact read_window. Qed.
Print Assumptions c09_read_window.

(* Every other record is always readable (no TTL flag, a TTL of zero minutes, or no
   last-modified flag). *)
Theorem c09_read_never_expires : forall now n, expiring n = false -> read_visible now n = true.
Proof. exact read_never_expires. Qed.
Print Assumptions c09_read_never_expires.

(* For every upload through CreateNeedleFromRequest + writeNeedle2 (any ttl=, any ts=,
   any volume TTL) that ends up with a TTL of m > 0 minutes: readable exactly during
   the m minutes after the append. *)
Theorem c09_read_window_upload : forall u now,
  has_ttl (stored_of u) = true -> 0 < minutes (n_ttl (stored_of u)) ->
  (read_visible now (stored_of u) = true <->
   now < u_append_ns u + minutes (n_ttl (stored_of u)) * 60000000000).
Proof. exact read_window_upload. Qed.
Print Assumptions c09_read_window_upload.

Theorem c09_read_expiry_monotone : forall now now' n, now <= now' ->
  read_visible now n = false -> read_visible now' n = false.
Proof. exact read_expiry_monotone. Qed.
Print Assumptions c09_read_expiry_monotone.

(* The full statement "whenever a read still returns the blob, compaction keeps it and
   the heartbeat does not delete its volume" fails for uploads with ordered clocks:
   1d blob in a 1h volume (dropped by compaction AND deleted with its volume), 1d blob
   in a volume without TTL, a blob inheriting 137y (uint32 wrap of minutes*60), ts= one
   day old, an upload that took 10 s, an old ts= into a volume loaded 67 min earlier. *)
Theorem c09_not_removed_early_refuted :
  (exists now, upload_ordered w_longer_ttl = true /\ read_visible now (stored_of w_longer_ttl) = true /\
     compaction_keeps (now / NS) (read_ttl (u_vttl w_longer_ttl)) (stored_of w_longer_ttl) = false /\
     volume_deleted (now / NS) (volume_of w_longer_ttl) = true) /\
  (exists now, upload_ordered w_no_volume_ttl = true /\ read_visible now (stored_of w_no_volume_ttl) = true /\
     compaction_keeps (now / NS) (read_ttl (u_vttl w_no_volume_ttl)) (stored_of w_no_volume_ttl) = false) /\
  (exists now, upload_ordered w_span_wrap = true /\ read_visible now (stored_of w_span_wrap) = true /\
     compaction_keeps (now / NS) (read_ttl (u_vttl w_span_wrap)) (stored_of w_span_wrap) = false) /\
  (exists now, upload_ordered w_old_ts = true /\ read_visible now (stored_of w_old_ts) = true /\
     compaction_keeps (now / NS) (read_ttl (u_vttl w_old_ts)) (stored_of w_old_ts) = false) /\
  (exists now, upload_ordered w_slow_upload = true /\ read_visible now (stored_of w_slow_upload) = true /\
     compaction_keeps (now / NS) (read_ttl (u_vttl w_slow_upload)) (stored_of w_slow_upload) = false) /\
  (exists now, upload_ordered w_stale_stamp = true /\ read_visible now (stored_of w_stale_stamp) = true /\
     volume_deleted (now / NS) (volume_of w_stale_stamp) = true).
Proof. exact not_removed_early_refuted. Qed.
Print Assumptions c09_not_removed_early_refuted.

(* For every upload outside the decidable trigger set, at every instant, a readable blob
   is kept by compaction and its volume is not deleted -- and the trigger set is exact
   (outside it the statement holds at all times, inside it some instant violates it).
   An upload whose record carries a TTL equal to the volume's is outside the trigger only
   when it is appended in the first nanosecond of the second it was parsed in (finding 2
   fires by the sub-second remainder); how early compaction then is: c09_compaction_early_bound. *)
Theorem c09_not_removed_early_partial : forall u, upload_trigger u = false ->
  forall now, read_visible now (stored_of u) = true ->
    compaction_keeps (now / NS) (read_ttl (u_vttl u)) (stored_of u) = true /\
    volume_deleted (now / NS) (volume_of u) = false.
Proof. exact not_removed_early_partial. Qed.
Print Assumptions c09_not_removed_early_partial.

Theorem c09_not_removed_early_exact : forall u,
  (forall now, not_removed_early_at u now) <-> upload_trigger u = false.
Proof. exact not_removed_early_exact. Qed.
Print Assumptions c09_not_removed_early_exact.

(* The same per stored record, for ANY record and volume (not only HTTP uploads). *)
Theorem c09_compaction_early_iff : forall vttl n,
  (exists now, read_visible now n = true /\ compaction_keeps (now / NS) vttl n = false)
  <-> compaction_early vttl n = true.
Proof. exact compaction_early_iff. Qed.
Print Assumptions c09_compaction_early_iff.

Theorem c09_expiry_early_iff : forall v n,
  (exists now, read_visible now n = true /\ volume_deleted (now / NS) v = true)
  <-> expiry_early v n = true.
Proof. exact expiry_early_iff. Qed.
Print Assumptions c09_expiry_early_iff.

(* Why compaction can be early: only through a volume span shorter than the needle's
   TTL (other TTL, no volume TTL, uint32 wrap, a TTL flag that never expires on read)
   or a LastModified earlier than AppendAtNs (ts=, or time spent between parsing and
   appending). *)
Theorem c09_compaction_early_causes : forall vttl n,
  compaction_early vttl n = true -> early_by_ttl vttl n = true \/ early_by_stamp n = true.
Proof. exact compaction_early_causes. Qed.
Print Assumptions c09_compaction_early_causes.

(* With a volume span at least the needle's TTL, compaction is early by at most the
   distance between LastModified and AppendAtNs. *)
Theorem c09_compaction_early_bound : forall vttl n k now_s now,
  expiring n = true ->
  minutes (n_ttl n) * 60 <= volume_span_s vttl ->
  append_at_ns n <= (last_modified n + k) * NS ->
  compaction_keeps now_s vttl n = false ->
  (now_s + k) * NS <= now ->
  read_visible now n = false.
Proof. exact compaction_early_bound. Qed.
Print Assumptions c09_compaction_early_bound.

(* Volume expiry is safe when the needle's TTL is not longer than the volume's and the
   volume's stamp is at most 60 s older than the append. *)
Theorem c09_expiry_safe_sufficient : forall v n,
  expiring n = true ->
  minutes (n_ttl n) <= minutes (v_ttl v) ->
  append_at_ns n <= (v_last_mod v + 60) * NS ->
  expiry_early v n = false.
Proof. exact expiry_safe_sufficient. Qed.
Print Assumptions c09_expiry_safe_sufficient.

(* A sufficient condition for the partial statement: no ts=, the upload carries no TTL or
   the volume's own, the volume has no TTL or one that is not zero minutes and whose span
   does not wrap, LastModified fits its 5 bytes, and the record is appended exactly at the
   second boundary at which the request was parsed. *)
Theorem c09_not_removed_early_sufficient : forall u,
  u_ts u = 0 ->
  (u_req_ttl u = EmptyString \/ u_req_ttl u = u_vttl u) ->
  (u_vttl u = EmptyString \/ 0 < minutes (read_ttl (u_vttl u))) ->
  minutes (read_ttl (u_vttl u)) * 60 < 2^32 ->
  u_parse_s u < 2^40 ->
  u_append_ns u = u_parse_s u * NS ->
  upload_trigger u = false.
Proof. exact upload_safe_sufficient. Qed.
Print Assumptions c09_not_removed_early_sufficient.

(* non-vacuity: a 3-day blob inheriting its volume's TTL satisfies the hypotheses, is
   readable two days later, kept by compaction then, and gone after three days *)
Example c09_not_removed_early_example :
  let u := {| u_vttl := "3d"; u_req_ttl := ""; u_ts := 0; u_t0_s := T0; u_parse_s := T0 + 5;
              u_append_ns := (T0 + 5) * NS; u_size := 4096; u_limit := 2^30; u_io_error := false |} in
  upload_ordered u = true /\ upload_trigger u = false /\ expiring (stored_of u) = true /\
  read_visible ((T0 + 2 * 86400) * NS) (stored_of u) = true /\
  compaction_keeps (T0 + 2 * 86400) (read_ttl "3d") (stored_of u) = true /\
  read_visible ((T0 + 5 + 3 * 86400) * NS) (stored_of u) = false /\
  volume_deleted (T0 + 4 * 86400) (volume_of u) = true.
Proof. exact not_removed_early_example. Qed.
Print Assumptions c09_not_removed_early_example.

(* Many uploads into one volume (stamp = the largest LastModified written): outside the
   per-needle trigger (the exact sets of the two iff theorems above, evaluated for every
   stored needle) no readable needle is dropped by compaction and the volume is not
   deleted; inside it some needle is removed while readable.  The check uses the same
   per-needle predicates. *)
Theorem c09_volume_not_removed_early_partial : forall vttl t0 size limit ioerr us,
  let v := volume_of_uploads vttl t0 size limit ioerr us in
  uploads_trigger vttl v us = false ->
  forall u now, In u us -> read_visible now (stored_of u) = true ->
    compaction_keeps (now / NS) (read_ttl vttl) (stored_of u) = true /\
    volume_deleted (now / NS) v = false.
Proof. exact volume_not_removed_early_partial. Qed.
Print Assumptions c09_volume_not_removed_early_partial.

Theorem c09_volume_removed_early_in_trigger : forall vttl v us,
  uploads_trigger vttl v us = true ->
  exists u now, In u us /\ read_visible now (stored_of u) = true /\
    (compaction_keeps (now / NS) (read_ttl vttl) (stored_of u) = false \/ volume_deleted (now / NS) v = true).
Proof. exact volume_removed_early_in_trigger. Qed.
Print Assumptions c09_volume_removed_early_in_trigger.

(* Full statement "for all s > 0 the chosen volume TTL covers s" is false: 90 -> 1m. *)
Theorem c09_filer_ttl_covers_refuted :
  exists s, (0 < s < 2^31)%Z /\ ttl_covers (filer_volume_ttl s) s = false /\
            (60 * Z.of_N (minutes (filer_volume_ttl s)) < s)%Z.
Proof. exact filer_covers_refuted. Qed.
Print Assumptions c09_filer_ttl_covers_refuted.

(* Partial: every byte count of every unit is mapped to exactly itself. *)
Theorem c09_filer_ttl_covers_partial : forall U c,
  In U [SEC_YEAR; SEC_MONTH; SEC_WEEK; SEC_DAY; SEC_HOUR; SEC_MINUTE] ->
  (1 <= c <= 255)%Z -> (c * U < 2^31)%Z ->
  (60 * Z.of_N (minutes (filer_volume_ttl (c * U))) = c * U)%Z /\
  ttl_covers (filer_volume_ttl (c * U)) (c * U) = true.
Proof. exact filer_ttl_exact_on_multiples. Qed.
Print Assumptions c09_filer_ttl_covers_partial.

(* Exact failure set over all positive int32 values: the TTL covers s iff s < 60 (the
   volume gets no TTL at all) or s is a byte count of one of the six units. *)
Theorem c09_filer_ttl_covers_iff : forall s, (0 < s < 2^31)%Z ->
  ttl_covers (filer_volume_ttl s) s = (s <? 60)%Z || representable s.
Proof. exact filer_covers_iff. Qed.
Print Assumptions c09_filer_ttl_covers_iff.

(* SecondsToTTL never rounds up; it is exact precisely on the representable values. *)
Theorem c09_filer_ttl_rounds_down : forall s, (0 < s < 2^31)%Z ->
  (60 * Z.of_N (minutes (filer_volume_ttl s)) <= s)%Z /\
  (60 * Z.of_N (minutes (filer_volume_ttl s)) = s <-> representable s = true)%Z.
Proof. exact filer_ttl_rounds_down. Qed.
Print Assumptions c09_filer_ttl_rounds_down.

(* A visible entry's chunk is readable when the TTL covers (and the chunk was appended
   after the second its Crtime was truncated to) ... *)
Theorem c09_visible_entry_chunk_readable : forall s crtime p a now,
  (0 < s < 2^31)%Z ->
  ttl_covers (filer_volume_ttl s) s = true ->
  crtime * NS < a ->
  entry_visible now crtime s = true ->
  read_visible now (chunk_of s p a) = true.
Proof. exact visible_entry_chunk_readable. Qed.
Print Assumptions c09_visible_entry_chunk_readable.

(* ... and not otherwise: TtlSec = 90, the entry is visible for 90 s, its chunk for 60 s. *)
Theorem c09_visible_entry_chunk_refuted :
  exists s crtime p a now, (0 < s < 2^31)%Z /\ crtime * NS < a /\ crtime <= p /\ p * NS <= a /\
    entry_visible now crtime s = true /\ read_visible now (chunk_of s p a) = false.
Proof. exact visible_entry_chunk_expired. Qed.
Print Assumptions c09_visible_entry_chunk_refuted.

Example c09_filer_example :
  filer_volume_ttl 7200 = {| t_count := 2; t_unit := 2 |} /\ ttl_covers (filer_volume_ttl 7200) 7200 = true /\
  filer_volume_ttl 31104000 = {| t_count := 12; t_unit := 5 |} /\
  seconds_to_ttl 90 = "1m"%string /\ seconds_to_ttl 15360 = "4h"%string /\ seconds_to_ttl 30 = "0m"%string.
Proof. exact filer_example. Qed.
Print Assumptions c09_filer_example.

(* The HTTP write path uploads the chunks first and stamps Crtime := time.Now() afterwards,
   so the reachable ordering is a < Crtime (the hypothesis crtime * NS < a above holds only
   when the truncation of Crtime to a whole second swallows the upload latency).  With the
   chunk appended at most k ns before the (truncated) Crtime, the chunk is readable at every
   instant at least k before the end of the entry's life ... *)
Theorem c09_visible_entry_chunk_bound : forall s crtime p a k now,
  (0 < s < 2^31)%Z ->
  ttl_covers (filer_volume_ttl s) s = true ->
  crtime * NS < a + k ->
  entry_visible (now + k) crtime s = true ->
  read_visible now (chunk_of s p a) = true.
Proof. exact visible_entry_chunk_bound. Qed.
Print Assumptions c09_visible_entry_chunk_bound.

(* ... and within those last k ns the full statement fails even for an exactly
   representable TtlSec (60 s, chunk appended 5 ms before Crtime). *)
Theorem c09_visible_entry_chunk_uploaded_first_refuted :
  exists s crtime p a now, (0 < s < 2^31)%Z /\ ttl_covers (filer_volume_ttl s) s = true /\
    p * NS <= a /\ a < crtime * NS /\ crtime * NS <= a + 5000000 /\
    entry_visible now crtime s = true /\ read_visible now (chunk_of s p a) = false.
Proof. exact visible_entry_chunk_uploaded_first. Qed.
Print Assumptions c09_visible_entry_chunk_uploaded_first_refuted.

(* Filer.FindEntry returns the stored entry exactly while now <= Crtime + TtlSec (always
   when TtlSec <= 0); the base is Crtime, Mtime plays no role. *)
Theorem c09_filer_find_window : forall now st p e,
  snd (filer_find now st p) = Some e <->
  fs_get st p = Some e /\ ((fe_ttl e <= 0)%Z \/ now <= (fe_crtime e + Z.to_N (fe_ttl e)) * NS).
Proof. exact filer_find_window. Qed.
Print Assumptions c09_filer_find_window.

Theorem c09_filer_find_mtime_irrelevant : forall now st p e m,
  fs_get st p = Some e ->
  let e' := {| fe_crtime := fe_crtime e; fe_mtime := m; fe_ttl := fe_ttl e; fe_chunks := fe_chunks e |} in
  (snd (filer_find now st p) = None <-> snd (filer_find now (fs_put st p e') p) = None).
Proof. exact filer_find_mtime_irrelevant. Qed.
Print Assumptions c09_filer_find_mtime_irrelevant.

(* CreateEntry over / UpdateEntry of a visible entry keeps the old Crtime. *)
Theorem c09_filer_write_keeps_crtime : forall now st p oe e o,
  snd (filer_find now st p) = Some oe ->
  o = FCreate p e false \/ o = FUpdate p e ->
  fs_get (fst (filer_step now st o)) p = Some (fe_merge oe e) /\
  fe_crtime (fe_merge oe e) = fe_crtime oe.
Proof. exact filer_write_keeps_crtime. Qed.
Print Assumptions c09_filer_write_keeps_crtime.

(* Over every history of operations on the directory (creates, overwrites, appends,
   updates, lookups, listings on any names; nothing removes or raw-inserts name p; writes
   to p keep TtlSec = s) executed during the life of the entry at p: after Crtime + s the
   entry is gone -- modifying an entry never extends its life -- and until then it is
   visible with its original Crtime. *)
Theorem c09_filer_life_not_extended : forall l st p e0 s now,
  fs_get st p = Some e0 -> fe_ttl e0 = s -> (0 < s)%Z ->
  forallb (fun to => fop_keeps p s (snd to)) l = true ->
  forallb (fun to => fst to <=? (fe_crtime e0 + Z.to_N s) * NS) l = true ->
  (fe_crtime e0 + Z.to_N s) * NS < now ->
  snd (filer_find now (fst (filer_run st l)) p) = None.
Proof. exact filer_life_not_extended. Qed.
Print Assumptions c09_filer_life_not_extended.

Theorem c09_filer_life_not_shortened : forall l st p e0 s now,
  fs_get st p = Some e0 -> fe_ttl e0 = s ->
  forallb (fun to => fop_keeps p s (snd to)) l = true ->
  forallb (fun to => fst to <=? (fe_crtime e0 + Z.to_N s) * NS) l = true ->
  now <= (fe_crtime e0 + Z.to_N s) * NS ->
  exists e, snd (filer_find now (fst (filer_run st l)) p) = Some e /\ fe_crtime e = fe_crtime e0.
Proof. exact filer_life_not_shortened. Qed.
Print Assumptions c09_filer_life_not_shortened.

(* "An entry that is still visible never points at expired data", over all histories
   from the empty directory at any clocks: if whatever each write leaves in the store
   points only at chunks that outlive it (decidable [filer_run_safe]; sufficient per chunk:
   its TTL covers TtlSec and it was appended after the stored Crtime), then every chunk of
   every entry a lookup or a listing returns can be read at that instant. *)
Theorem c09_filer_history_safe : forall tab l now p e,
  filer_run_safe tab [] l = true ->
  snd (filer_find now (fst (filer_run [] l)) p) = Some e ->
  forall c, In c (fe_chunks e) -> read_visible now (tab c) = true.
Proof. exact filer_history_safe. Qed.
Print Assumptions c09_filer_history_safe.

Theorem c09_filer_history_safe_list : forall tab l now q e,
  filer_run_safe tab [] l = true ->
  In (q, e) (fs_expire now (fst (filer_run [] l))) ->
  forall c, In c (fe_chunks e) -> read_visible now (tab c) = true.
Proof. exact filer_history_safe_list. Qed.
Print Assumptions c09_filer_history_safe_list.

Theorem c09_chunk_outlives_sufficient : forall c s n,
  (0 < s)%Z -> (s <= 60 * Z.of_N (minutes (n_ttl n)))%Z -> c * NS < append_at_ns n ->
  chunk_outlives c s n = true.
Proof. exact chunk_outlives_sufficient. Qed.
Print Assumptions c09_chunk_outlives_sufficient.

(* non-vacuity: created at T0 with TtlSec 60, appended to 57 s later (Mtime moves, Crtime
   stays); the history is safe, the entry is visible at T0+60 and gone at T0+61.5, when
   its first chunk is expired *)
Example c09_filer_history_example :
  filer_run_safe ex_tab [] ex_hist = true /\
  snd (filer_find ((T0 + 60) * NS) (fst (filer_run [] ex_hist)) 3) =
    Some {| fe_crtime := T0; fe_mtime := T0 + 57; fe_ttl := 60; fe_chunks := [0; 1] |} /\
  snd (filer_find ((T0 + 61) * NS + 500000000) (fst (filer_run [] ex_hist)) 3) = None /\
  read_visible ((T0 + 61) * NS + 500000000) (ex_tab 0) = false.
Proof. exact filer_history_example. Qed.
Print Assumptions c09_filer_history_example.

(* Histories of uploads of one key: which upload the lifetime counts from.  model/TtlHist.v: uploads (any ttl=, ts=, cookie, content), aging, reads and expiry
   questions on ONE key of one volume; [hwant] is the record the LAST ACKNOWLEDGED upload
   asked for (moved by the aging steps after it), [hpromise] what a read must return. *)

(* TTL volumes, full: after every history a read returns exactly what the last
   acknowledged upload promised: its content, while now < ITS append clock + its TTL *)
Theorem c09_hist_window_ttl_volume : forall vttl l st now, ttl_volume vttl = true ->
  hread now (fst (hrun vttl st l)) = hpromise now (hwant vttl st (h_rec st) l).
Proof. exact hist_window_ttl_volume. Qed.
Print Assumptions c09_hist_window_ttl_volume.

(* the explicit window: history, an acknowledged upload, then reads/expiry questions *)
Theorem c09_hist_last_upload_window : forall vttl pre post st req ts cookie data parse_s append_ns u now,
  ttl_volume vttl = true -> forallb hquery post = true ->
  let o := HUpload req ts cookie data parse_s append_ns in
  let n := write_needle vttl (create_needle req ts parse_s) append_ns in
  snd (hstep vttl (fst (hrun vttl st pre)) o) = HAck u ->
  expiring n = true ->
  (hread now (fst (hrun vttl st (pre ++ o :: post))) = Some data <->
   now < append_ns + minutes (n_ttl n) * 60000000000) /\
  (hread now (fst (hrun vttl st (pre ++ o :: post))) = None <->
   append_ns + minutes (n_ttl n) * 60000000000 <= now).
Proof. exact hist_last_upload_window. Qed.
Print Assumptions c09_hist_last_upload_window.

(* an upload into a TTL volume is refused (cookie) or writes a new record with this
   upload's append clock and raises the volume's stamp: never deduplicated *)
Theorem c09_ttl_volume_upload : forall vttl st req ts cookie data parse_s append_ns,
  ttl_volume vttl = true ->
  let o := HUpload req ts cookie data parse_s append_ns in
  (hstep vttl st o = (st, HRefused)) \/
  (snd (hstep vttl st o) = HAck false /\
   h_rec (fst (hstep vttl st o)) = Some (hstored vttl req ts cookie data parse_s append_ns) /\
   h_stamp (fst (hstep vttl st o)) = vol_stamp_after_write (h_stamp st) (last_modified (create_needle req ts parse_s))).
Proof. exact ttl_volume_upload. Qed.
Print Assumptions c09_ttl_volume_upload.

(* the volume is not called expired before its TTL (+1 min) has passed since the last
   acknowledged upload's LastModified *)
Theorem c09_hist_last_upload_volume_alive : forall vttl pre post st req ts cookie data parse_s append_ns u now_s size limit,
  ttl_volume vttl = true -> forallb hquery post = true ->
  let o := HUpload req ts cookie data parse_s append_ns in
  snd (hstep vttl (fst (hrun vttl st pre)) o) = HAck u ->
  volume_expired now_s (hvolume vttl (fst (hrun vttl st (pre ++ o :: post))) size limit) = true ->
  last_modified (create_needle req ts parse_s) + (minutes (read_ttl vttl) + 1) * 60 <= now_s.
Proof. exact hist_last_upload_volume_alive. Qed.
Print Assumptions c09_hist_last_upload_volume_alive.

(* all volumes: refuted in full (finding 6: a volume without TTL acknowledges a
   byte-identical re-upload of a ttl= blob without a new record, so the blob expires
   counted from the FIRST upload); exact partial: no deduplicated step in the history *)
Theorem c09_hist_window_refuted :
  exists vttl l st now, hread now (fst (hrun vttl st l)) <> hpromise now (hwant vttl st (h_rec st) l).
Proof. exact hist_window_refuted. Qed.
Print Assumptions c09_hist_window_refuted.

Theorem c09_hist_window_partial : forall vttl l st now, dedup_trigger vttl st l = false ->
  hread now (fst (hrun vttl st l)) = hpromise now (hwant vttl st (h_rec st) l).
Proof. exact hist_window_partial. Qed.
Print Assumptions c09_hist_window_partial.

Theorem c09_ttl_volume_no_dedup : forall vttl l st, ttl_volume vttl = true -> dedup_trigger vttl st l = false.
Proof. exact ttl_volume_no_dedup. Qed.
Print Assumptions c09_ttl_volume_no_dedup.

(* non-vacuity: 1h volume; upload, aged two hours (expired), the same bytes uploaded
   again: acknowledged, new record, readable again *)
Example c09_hist_example :
  ttl_volume "1h" = true /\
  snd (hstep "1h" (fst (hrun "1h" {| h_rec := None; h_stamp := 0 |} example_hist))
         (HUpload "" 0 7 1 8200 8200000000000)) = HAck false /\
  expiring (write_needle "1h" (create_needle "" 0 8200) 8200000000000) = true /\
  hread 8300000000000 (fst (hrun "1h" {| h_rec := None; h_stamp := 0 |} example_hist)) = None /\
  hread 8300000000000 (fst (hrun "1h" {| h_rec := None; h_stamp := 0 |}
                              (example_hist ++ [HUpload "" 0 7 1 8200 8200000000000]))) = Some 1.
Proof. exact hist_example. Qed.
Print Assumptions c09_hist_example.
