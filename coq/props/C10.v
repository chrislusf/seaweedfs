(* C10 — New volumes are placed according to their replication setting.
   Only statements closed by [exact]; proofs live in proof/TopoPlaceProofs.v (search, correspondence
   test), proof/TopoPlaceGrow.v (grow, completeness, examples) and proof/TopoPlaceTruthProofs.v
   (counters against the truth).
   Model: model/TopoPlace.v (findEmptySlotsForOneVolume, PickNodesByWeight,
   ReserveOneVolume, AvailableSpaceFor, with explicit oracles for math/rand and for
   Go map iteration order; VolumeGrowth.grow / findAndGrow with an oracle for the
   AllocateVolume RPC answers). *)
From Coq Require Import String List ZArith Bool Permutation.
From SW Require Import model.TopoPlace proof.TopoPlaceProofs proof.TopoPlaceGrow.
From SW Require model.TopoCount model.TopoPlaceTruth proof.TopoPlaceTruthProofs.
Import ListNotations.
Local Open Scope Z_scope.

(* For EVERY topology whose sibling ids are distinct (children of a Go map),
   every replication xyz and preference, every counters at every level and EVERY oracle
   (random numbers and map orders): a list returned without error satisfies the placement
   rule — as the executable predicate the correspondence check evaluates on the
   implementation's answers, and spelled out as a proposition:
   1+x+y+z distinct servers, each a data node of the tree with AvailableSpaceFor >= 1 for the
   disk type; z+1 of them in the rack of a main server, y in y distinct other racks of its
   data center, x in x distinct other data centers; requested data center / rack / node are
   those of the main server.  ([placement] and the notions it is stated with are defined in
   proof/TopoPlaceProofs.v.) *)
Theorem c10_placement : forall orc t o ss,
  wf_topology t = true -> find_empty_slots orc t o = (ss, false) ->
  placement_ok t o ss = true /\ placement t o ss.
Proof. exact c10_placement_thm. Qed.
Print Assumptions c10_placement.

(* If no list of servers satisfies the rule, an error is returned (never a partial or wrong
   placement as success): the contrapositive of the first conjunct of c10_placement. *)
Theorem c10_error_when_impossible : forall orc t o,
  wf_topology t = true -> (forall ss, placement_ok t o ss = false) ->
  snd (find_empty_slots orc t o) = true.
Proof. exact c10_no_placement_error_thm. Qed.
Print Assumptions c10_error_when_impossible.

(* placement_ok implies the rule spelled out as the proposition [placement] (the converse is not
   proved). *)
Theorem c10_placement_ok_meaning : forall t o ss, placement_ok t o ss = true -> placement t o ss.
Proof. exact placement_ok_sound. Qed.
Print Assumptions c10_placement_ok_meaning.

(* PickNodesByWeight: for every map order and every random numbers the result is a first node
   accepted by the filter plus numberOfNodes-1 further DISTINCT children, all with free space. *)
Theorem c10_pick_nodes_by_weight : forall A (avail : A -> Z) order rs number filt children first rest,
  NoDup children -> (1 <= number)%nat ->
  pick_nodes avail order rs number filt children = Some (first, rest) ->
  filt first = true /\ NoDup (first :: rest) /\ length rest = (number - 1)%nat /\
  (forall c, In c (first :: rest) -> In c children /\ 0 < avail c).
Proof. exact @pick_nodes_ok. Qed.
Print Assumptions c10_pick_nodes_by_weight.

(* The weighted shuffle returns a permutation of the candidates whatever the random numbers. *)
Theorem c10_weighted_shuffle_is_permutation : forall A (avail : A -> Z) order rs children,
  Permutation (sorted_candidates avail order rs children) (candidates avail order children).
Proof. exact @sorted_candidates_perm. Qed.
Print Assumptions c10_weighted_shuffle_is_permutation.

(* The correspondence test is exact: an answer is admitted iff SOME oracle makes the model
   return exactly that answer (servers in order, error flag, partial list on error). *)
Theorem c10_admits_iff_some_oracle : forall t o res,
  admits t o res = true <-> exists orc, find_empty_slots orc t o = res.
Proof. exact admits_spec. Qed.
Print Assumptions c10_admits_iff_some_oracle.

(* If the decidable condition all_paths_ok holds (counters of every level do not promise more than
   the children hold, and every data center / rack the weighted pick may choose as the main one has
   enough candidates), the search succeeds for EVERY map order and random numbers; the condition is
   sufficient, not necessary.  The check evaluates it on every case: the implementation must not
   report an error there.  (The hypothesis wf_topology t = true is not used by the proof.) *)
Theorem c10_success_when_all_paths_ok : forall orc t o,
  wf_topology t = true -> all_paths_ok t o = true -> snd (find_empty_slots orc t o) = false.
Proof. exact all_paths_ok_success_thm. Qed.
Print Assumptions c10_success_when_all_paths_ok.

(* PickNodesByWeight succeeds for every map order and random numbers unless pick_fails *)
Theorem c10_pick_succeeds_unless_pick_fails : forall A (avail : A -> Z) order rs number filt children,
  pick_fails avail number filt children = false ->
  exists first rest, pick_nodes avail order rs number filt children = Some (first, rest).
Proof. exact pick_nodes_some. Qed.
Print Assumptions c10_pick_succeeds_unless_pick_fails.

(* every rand.Int63n(n) of the reserve loops has n > 0 (Go would panic on 0; the model's
   Z.modulo _ 0 is never evaluated).  [int63n_args_positive] replays the first two picks; the
   statement is the last conjunct of c10_pick_nodes_by_weight applied to them: the other racks /
   data centers are members of `rest`. *)
Theorem c10_int63n_args_positive : forall orc t o, int63n_args_positive orc t o = true.
Proof. exact int63n_args_positive_thm. Qed.
Print Assumptions c10_int63n_args_positive.

(* Allocation (findAndGrow = search, then grow). *)
(* No error: for EVERY fail plan of the AllocateVolume RPCs the new volume is held and
   registered by exactly the servers of a valid placement, and the counters of exactly those
   servers and their ancestors were raised. *)
Theorem c10_grow_success_is_full_placement : forall orc fl t o,
  wf_topology t = true -> gr_err (find_and_grow orc fl t o) = false ->
  gr_allocated (find_and_grow orc fl t o) = gr_found (find_and_grow orc fl t o) /\
  placement_ok t o (gr_allocated (find_and_grow orc fl t o)) = true /\
  gr_topo (find_and_grow orc fl t o) =
    fold_left (add_volume (go_disk o)) (gr_found (find_and_grow orc fl t o)) t.
Proof. exact find_and_grow_success_thm. Qed.
Print Assumptions c10_grow_success_is_full_placement.

(* "An error instead of a partial placement" is FALSE for the allocation (known finding 0):
   grow returns at the first refused AllocateVolume and leaves the earlier replicas allocated,
   counted and registered. *)
Theorem c10_grow_all_or_none_refuted :
  exists orc fl t o,
    wf_topology t = true /\ trigger_partial_grow fl o = true /\
    gr_err (find_and_grow orc fl t o) = true /\
    gr_allocated (find_and_grow orc fl t o) = [("dc1", "r1", "n1")%string] /\
    length (gr_found (find_and_grow orc fl t o)) = 2%nat /\
    node_counts (gr_topo (find_and_grow orc fl t o)) "" ("dc1", "r1", "n1")%string = Some (mkCounts 1 0 1 0 2) /\
    node_counts (gr_topo (find_and_grow orc fl t o)) "" ("dc1", "r1", "n2")%string = Some (mkCounts 0 0 0 0 2).
Proof. exact find_and_grow_all_or_none_refuted_thm. Qed.
Print Assumptions c10_grow_all_or_none_refuted.

(* Outside the trigger (per grow call: the first refused AllocateVolume is the first call, or
   none of the 1+x+y+z calls is refused) an error leaves nothing behind. *)
Theorem c10_grow_all_or_none_partial : forall orc fl t o,
  wf_topology t = true -> trigger_partial_grow fl o = false ->
  gr_err (find_and_grow orc fl t o) = true ->
  gr_allocated (find_and_grow orc fl t o) = [] /\ gr_topo (find_and_grow orc fl t o) = t.
Proof. exact find_and_grow_partial_thm. Qed.
Print Assumptions c10_grow_all_or_none_partial.

(* Placement against what the servers REALLY hold (model/TopoPlaceTruth.v).
   The theorems above take the counters as given, as the code does.  [truth_of ops] is what every
   registered server holds after the heartbeat history [ops] (joins, max counts, full and
   incremental volume and EC-shard heartbeats, unregistrations) computed from the events alone;
   [truth_topology t tr] carries, on the id tree of t, the counts that follow from it, so that
   AvailableSpaceFor on it is the number of really free slots.  [counters_true t T]: the four
   counters AvailableSpaceFor reads agree at every level -- the invariant of property C12. *)
Import TopoPlaceTruth TopoPlaceTruthProofs.

(* If the counters equal the truth, the placement rule gives the same verdict on both -- for all
   topologies, options and server lists. *)
Theorem c10_placement_ok_counters_vs_truth : forall t T o ss, counters_true t T = true ->
  placement_ok t o ss = placement_ok T o ss.
Proof. exact placement_ok_true_iff_thm. Qed.
Print Assumptions c10_placement_ok_counters_vs_truth.

(* The previous theorem at T := truth_topology t (truth_of ops), composed with c10_placement (no
   property of truth_of is used): if the master's counters equal what the history [ops] left on the
   servers, every list the search returns without error satisfies the placement rule against the
   truth. *)
Theorem c10_placement_on_truth : forall ops orc t o ss,
  wf_topology t = true ->
  counters_true t (truth_topology t (truth_of ops)) = true ->
  find_empty_slots orc t o = (ss, false) ->
  placement_ok (truth_topology t (truth_of ops)) o ss = true.
Proof. exact placement_on_truth_thm. Qed.
Print Assumptions c10_placement_on_truth.

(* the has_free_slot conjunct of c10_placement_on_truth, per server: no chosen server is really full *)
Theorem c10_no_full_server_chosen : forall ops orc t o ss s,
  wf_topology t = true ->
  counters_true t (truth_topology t (truth_of ops)) = true ->
  find_empty_slots orc t o = (ss, false) -> In s ss ->
  has_free_slot (truth_topology t (truth_of ops)) o s = true.
Proof. exact no_full_server_chosen_thm. Qed.
Print Assumptions c10_no_full_server_chosen.

(* The success condition too has the same value on the counters and on the truth. *)
Theorem c10_all_paths_ok_counters_vs_truth : forall t T o, counters_true t T = true ->
  all_paths_ok t o = all_paths_ok T o.
Proof. exact all_paths_ok_true_iff_thm. Qed.
Print Assumptions c10_all_paths_ok_counters_vs_truth.

(* The previous theorem at T := truth_topology t (truth_of ops), composed with
   c10_success_when_all_paths_ok: if the counters equal the truth and the TRUTH satisfies the
   success condition, the search succeeds for every map order and random numbers
   (the check requires of every history case that reported an error that the truth does not
   satisfy the condition). *)
Theorem c10_success_on_truth : forall ops orc t o,
  wf_topology t = true ->
  counters_true t (truth_topology t (truth_of ops)) = true ->
  all_paths_ok (truth_topology t (truth_of ops)) o = true ->
  snd (find_empty_slots orc t o) = false.
Proof. exact success_on_truth_thm. Qed.
Print Assumptions c10_success_on_truth.

(* The hypothesis cannot be dropped: after a stale incremental EC delete (shards 3-6 of a volume
   of which the server holds shards 0-2) a master whose ecShardCount fell by the four NAMED
   shards sees a free slot on a server that has none, and replication 001 is placed on it: the
   rule holds on the counters and fails on the truth.  (A hypothetical master: [w_drifted] is written
   by hand, it is the seeded change C10-c of DESIGN.md; the code in /repo keeps ecShardCount 3, see
   the next example.) *)
Theorem c10_placement_needs_true_counters :
  wf_topology w_drifted = true /\
  true_free (truth_of w_hist) ["dc1"; "r1"; "n2"]%string "" = 0 /\
  counters_true w_drifted (truth_topology w_drifted (truth_of w_hist)) = false /\
  exists ss, find_empty_slots w_oracle w_drifted w_opt = (ss, false) /\
             placement_ok w_drifted w_opt ss = true /\
             placement_ok (truth_topology w_drifted (truth_of w_hist)) w_opt ss = false.
Proof. exact placement_needs_true_counters_thm. Qed.
Print Assumptions c10_placement_needs_true_counters.

(* non-vacuity: the same history with the counters the unchanged code keeps satisfies
   counters_true; with replication 000 the search succeeds (all hypotheses of
   c10_placement_on_truth), with 001 it reports an error *)
Example c10_example_placement_on_truth :
  wf_topology w_exact = true /\ hist_wf w_hist = true /\ same_nodes w_exact (truth_of w_hist) = true /\
  counters_true w_exact (truth_topology w_exact (truth_of w_hist)) = true /\
  snd (find_empty_slots w_oracle w_exact w_opt) = true /\
  (let o0 := {| go_disk := ""; go_dc := ""; go_rack := ""; go_node := ""; rp_dc := 0; rp_rack := 0; rp_same := 0 |} in
   find_empty_slots w_oracle w_exact o0 = ([("dc1", "r1", "n1")%string], false)).
Proof. exact placement_on_truth_example. Qed.
Print Assumptions c10_example_placement_on_truth.

(* Non-vacuity (definitions and proofs in proof/TopoPlaceGrow.v). *)
(* the hypotheses of c10_placement are satisfiable on a 2-DC topology with replication 111,
   and the model returns 4 servers *)
Example c10_example :
  wf_topology ex_topo = true /\
  exists ss, find_empty_slots ex_oracle ex_topo ex_opt = (ss, false) /\ length ss = 4%nat.
Proof. exact placement_example. Qed.
Print Assumptions c10_example.

(* the search can fail after the main rack was chosen: rack r2's own counter promises 4 free slots
   while its three nodes hold 1 each (the EC-shard term is charged once at the rack, three times at
   the nodes); with r = 3 ReserveOneVolume walks past all three; the result is an error carrying the
   partial list; counters_sound is false there *)
Example c10_example_error_with_partial_list :
  counters_sound ex_ec_topo ex_ec_opt = false /\
  exists orc ss, find_empty_slots orc ex_ec_topo ex_ec_opt = (ss, true) /\ length ss = 1%nat.
Proof. exact error_with_partial_list_example. Qed.
Print Assumptions c10_example_error_with_partial_list.

(* all_paths_ok is satisfiable (2 DCs, replication 110, preferred data center) *)
Example c10_example_all_paths_ok :
  wf_topology cp_topo = true /\ all_paths_ok cp_topo cp_opt = true /\
  length (fst (find_empty_slots gw_oracle cp_topo cp_opt)) = 3%nat.
Proof. exact all_paths_ok_example. Qed.
Print Assumptions c10_example_all_paths_ok.

(* the hypotheses of c10_grow_all_or_none_partial are satisfiable: first call refused -> error
   and nothing allocated; no call refused -> both replicas allocated *)
Example c10_example_grow :
  wf_topology gw_topo = true /\ trigger_partial_grow [true] gw_opt = false /\
  gr_err (find_and_grow gw_oracle [true] gw_topo gw_opt) = true /\
  gr_err (find_and_grow gw_oracle [] gw_topo gw_opt) = false /\
  length (gr_allocated (find_and_grow gw_oracle [] gw_topo gw_opt)) = 2%nat.
Proof. exact find_and_grow_partial_example. Qed.
Print Assumptions c10_example_grow.
