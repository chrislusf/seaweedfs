(* C11 — Writable-volume set and lookups reflect the cluster state.
   Only statements closed by [exact]; proofs live in proof/TopoLayout{Proofs,Collect,Multi}.v.

   Histories are lists of [event] (full heartbeat, incremental heartbeat,
   collector sweep, disconnect; a heartbeat after a disconnect is the reconnect)
   run from the empty master state.  [wf_history]: a heartbeat lists each volume
   once and an incremental message does not add and delete the same volume.
   The registered state is [s_nodes]; [holders ns v] are the linked data nodes
   that hold volume v; [crit] is the property's criterion evaluated on it
   ([enough]: the copy count fits; [replica_rw]: registered and not read-only).
   [trigger_size] / [trigger_size_v]: some full heartbeat reports a size at or
   over the limit (for vid v).  [sreported] / [rsize]: the sizes the servers last
   reported, computed from the events alone; [truth] / [tstep] the same for the
   multi-layout model.  Finding numbers are those of DESIGN.md section 7, C11. *)
From Coq Require Import List NArith Bool.
From SW Require Import model.TopoLayout model.TopoMulti proof.TopoLayoutProofs proof.TopoLayoutMulti proof.TopoLayoutCollect.
Import ListNotations.
Local Open Scope N_scope.

(* Volume lookups return exactly the servers currently registered for the
   volume (each once) — after every history. *)
Theorem c11_lookup_exact : forall c, 1 <= c_copy c ->
  forall es, wf_history es -> forall v,
    let s := run c init es in
    NoDup (lookup s v) /\ forall n, In n (lookup s v) <-> In n (holders (s_nodes s) v).
Proof. exact lookup_exact. Qed.
Print Assumptions c11_lookup_exact.

(* The writable clause at full strength ([writable_sound c]: after every history,
   a volume in writables satisfies the whole criterion) does NOT hold for the
   code: a volume whose registered size is over the limit and which the collector
   removed is put back by the next ensureCorrectWritables (known finding 0). *)
Theorem c11_writable_sound_refuted : exists c, 1 <= c_copy c /\ 0 < c_limit c /\ ~ writable_sound c.
Proof. exact (ex_intro _ cfg000 (conj (N.le_refl 1) (conj eq_refl writable_sound_refuted))). Qed.
Print Assumptions c11_writable_sound_refuted.

(* What the code guarantees on every history: replica count (equal, or larger
   with replication-as-minimum) and no read-only replica. *)
Theorem c11_writable_copies_rw : forall c, 1 <= c_copy c ->
  forall es, wf_history es -> forall v,
    let s := run c init es in
    writable s v = true ->
    enough c (nlen (holders (s_nodes s) v)) = true /\
    forallb (replica_rw (s_nodes s) v) (holders (s_nodes s) v) = true.
Proof. exact writable_copies_rw. Qed.
Print Assumptions c11_writable_copies_rw.

(* The whole criterion, outside the trigger of finding 0 (no full heartbeat
   reports a size at or over the limit). *)
Theorem c11_writable_sound_partial : forall c, 1 <= c_copy c -> 0 < c_limit c ->
  forall es, wf_history es -> trigger_size c es = false -> forall v,
    let s := run c init es in writable s v = true -> crit c (s_nodes s) v = true.
Proof. exact writable_sound_partial. Qed.
Print Assumptions c11_writable_sound_partial.

(* ... and on every history right after a sweep of the full-volume collector:
   the size clause is enforced only by that periodic sweep. *)
Theorem c11_writable_sound_after_collect : forall c, 1 <= c_copy c ->
  forall es, wf_history es -> forall v,
    let s := run c init (es ++ [ECollect]) in writable s v = true -> crit c (s_nodes s) v = true.
Proof. exact writable_sound_after_collect. Qed.
Print Assumptions c11_writable_sound_after_collect.

(* The size clause already fails between a size report and the next sweep. *)
Theorem c11_size_lag_witness :
  let s := run cfg000 init [EFull 1 [vi 1 10 false]; EFull 1 [vi 1 150 false]] in
  writable s 1 = true /\ crit cfg000 (s_nodes s) 1 = false.
Proof. exact size_lag_witness. Qed.
Print Assumptions c11_size_lag_witness.

(* non-vacuity: a well-formed two-replica history outside the trigger with a
   writable volume that satisfies the criterion *)
Example c11_example :
  wf_history sample_history /\ trigger_size cfg001 sample_history = false /\
  let s := run cfg001 init sample_history in
  writable s 1 = true /\ writable s 2 = false /\ lookup s 1 = [2; 1] /\ crit cfg001 (s_nodes s) 1 = true.
Proof. exact sample_history_ok. Qed.
Print Assumptions c11_example.

(* The size clause PER VOLUME: the whole criterion for every vid whose own full
   reports stay under the limit, whatever is reported about other vids (the
   trigger of finding 0 is per vid, not history-wide). *)
Theorem c11_writable_sound_partial_per_vid : forall c, 1 <= c_copy c -> 0 < c_limit c ->
  forall es, wf_history es -> forall v, trigger_size_v c es v = false ->
    let s := run c init es in writable s v = true -> crit c (s_nodes s) v = true.
Proof. exact writable_sound_partial_v. Qed.
Print Assumptions c11_writable_sound_partial_per_vid.

(* strictly stronger than the history-wide form: a history inside the history-wide
   trigger (trigger_size = true) whose vid 2 the per-vid theorem covers *)
Example c11_per_vid_trigger_narrower :
  let h := [EFull 1 [vi 1 150 false]; EFull 1 [vi 2 10 false; vi 1 150 false]] in
  trigger_size cfg000 h = true /\ trigger_size_v cfg000 h 2 = false /\ writable (run cfg000 init h) 2 = true.
Proof. exact per_vid_trigger_narrower. Qed.
Print Assumptions c11_per_vid_trigger_narrower.

(* The oversized-set guard (volume_layout.go rememberOversizedVolume +
   ensureCorrectWritables): registering a replica whose size is at or over the
   limit never ADDS the vid to writables, in any layout state, and records it in
   the oversized set. *)
Theorem c11_oversized_registration_not_admitted : forall c ns vi n l,
  c_limit c <= vi_size vi ->
  mem (vi_id vi) (l_writ (register_layout c ns vi n l)) = true -> mem (vi_id vi) (l_writ l) = true.
Proof. exact oversized_registration_adds_nothing. Qed.
Print Assumptions c11_oversized_registration_not_admitted.
Theorem c11_oversized_registration_recorded : forall c ns vi n l,
  c_limit c <= vi_size vi -> bs_true (vi_id vi) (l_os (register_layout c ns vi n l)) = true.
Proof. exact oversized_registration_recorded. Qed.
Print Assumptions c11_oversized_registration_recorded.

(* The collector sweep and the size limit.
   NodeImpl.CollectDeadNodeAndFullVolumes tests v.Size >= volumeSizeLimit (model:
   c_limit <=? vi_size, the same test as VolumeLayout.isOversized) and
   SetVolumeCapacityFull takes the vid out of writables.
   Right after a sweep no volume that has a REGISTERED replica of size at or over
   the limit is writable - on every history. *)
Theorem c11_after_collect_registered_small : forall c, 1 <= c_copy c ->
  forall es, wf_history es -> forall v,
    writable (run c init (es ++ [ECollect])) v = true ->
    forall n i, ginfo (s_nodes (run c init es)) n v = Some i -> vi_size i < c_limit c.
Proof. exact after_collect_registered_small. Qed.
Print Assumptions c11_after_collect_registered_small.

(* The same about the sizes the servers last REPORTED ([sreported]: computed from
   the events alone) does NOT hold for the code at full strength: an incremental
   "new" message about a registered volume overwrites its registered size with 0
   (finding 3), and the sweep only sees the registered size. *)
Theorem c11_collect_enforces_reported_refuted : exists c, 1 <= c_copy c /\ 0 < c_limit c /\ ~ collect_enforces_reported c.
Proof. exact (ex_intro _ cfg000 (conj (N.le_refl 1) (conj eq_refl collect_enforces_reported_refuted))). Qed.
Print Assumptions c11_collect_enforces_reported_refuted.

(* It holds for every vid outside the per-(server, vid) trigger: no server sent
   an incremental "new" message for the vid while its own last reported size of it
   was at or over the limit, without a full heartbeat or disconnect of that server since. *)
Theorem c11_collect_enforces_reported_partial : forall c, 1 <= c_copy c ->
  forall es, wf_history es -> forall v, trigger_clobber_size_v c es v = false ->
    writable (run c init (es ++ [ECollect])) v = true ->
    forall n sz, rsize (sreported es) n v = Some sz -> sz < c_limit c.
Proof. exact collect_enforces_reported_partial. Qed.
Print Assumptions c11_collect_enforces_reported_partial.

(* the witness of the refutation: inside the trigger; one more full heartbeat of
   server 1 ends the trigger *)
Theorem c11_clobber_size_witness :
  writable (run cfg000 init (clobber_size_history ++ [ECollect])) 1 = true /\
  rsize (sreported clobber_size_history) 1 1 = Some 100 /\
  trigger_clobber_size_v cfg000 clobber_size_history 1 = true /\
  trigger_clobber_size_v cfg000 (clobber_size_history ++ [EFull 1 [vi 1 100 false]]) 1 = false.
Proof. exact clobber_size_witness. Qed.
Print Assumptions c11_clobber_size_witness.

(* non-vacuity and the edge of the test: three writable volumes are reported at
   limit-1, limit, limit+1; the sweep keeps the first and removes the other two *)
Example c11_collect_boundary :
  wf_history boundary_history /\
  forallb (fun v => negb (trigger_clobber_size_v cfg000 boundary_history v)) [1; 2; 3] = true /\
  (let s := run cfg000 init boundary_history in
   writable s 1 = true /\ writable s 2 = true /\ writable s 3 = true) /\
  (let s := run cfg000 init (boundary_history ++ [ECollect]) in
   writable s 1 = true /\ writable s 2 = false /\ writable s 3 = false) /\
  map (rsize (sreported boundary_history) 1) [1; 2; 3] = [Some 99; Some 100; Some 101].
Proof. exact collect_boundary. Qed.
Print Assumptions c11_collect_boundary.

(* Several layouts, DataNode objects, heartbeat streams (model/TopoMulti.v).
   [m_lookup_exact mc] / [m_writable_sound mc]: the two clauses at full strength
   over ALL histories of the multi model, measured against the cluster state as
   the servers reported it ([truth], computed from the events alone).  Both are
   refuted by the code; each witness lies inside the per-vid trigger named
   (relayout_history also inside trig_split_v). *)

(* finding 1: a server reports a registered vid under another replication, then deletes it *)
Theorem c11_multi_lookup_refuted_relayout : ~ m_lookup_exact mc12.
Proof. exact m_lookup_exact_refuted_relayout. Qed.
Print Assumptions c11_multi_lookup_refuted_relayout.
Theorem c11_multi_writable_refuted_relayout : ~ m_writable_sound mc12.
Proof. exact m_writable_sound_refuted_relayout. Qed.
Print Assumptions c11_multi_writable_refuted_relayout.
Theorem c11_relayout_witness :
  let s := mrun mc12 minit relayout_history in let t := fold_left tstep relayout_history tinit in
  t_holders t 1 = [] /\ mlookup s 1 = Some [1] /\ mwritable s 0 1 = true /\
  trig_relayout_v relayout_history 1 = true.
Proof. exact relayout_witness. Qed.
Print Assumptions c11_relayout_witness.

(* finding 2: overlapping heartbeat streams of one server *)
Theorem c11_multi_lookup_refuted_object : ~ m_lookup_exact mc1.
Proof. exact m_lookup_exact_refuted_object. Qed.
Print Assumptions c11_multi_lookup_refuted_object.
Theorem c11_stale_object_witness :
  let s := mrun mc1 minit stale_object_history in let t := fold_left tstep stale_object_history tinit in
  t_holders t 1 = [1] /\ mlookup s 1 = Some [] /\ mlookup s 2 = Some [1] /\ mwritable s 0 2 = true /\
  pick_panics s 0 = true /\ trig_object_v stale_object_history 1 = true.
Proof. exact stale_object_witness. Qed.
Print Assumptions c11_stale_object_witness.
Theorem c11_late_close_witness :
  let s := mrun mc1 minit late_close_history in let t := fold_left tstep late_close_history tinit in
  t_holders t 1 = [1] /\ mlookup s 1 = Some [] /\ trig_object_v late_close_history 1 = true.
Proof. exact late_close_witness. Qed.
Print Assumptions c11_late_close_witness.

(* finding 3: a short "new" message resets the registered size / read-only flag *)
Theorem c11_multi_writable_refuted_clobber : ~ m_writable_sound mc1.
Proof. exact m_writable_sound_refuted_clobber. Qed.
Print Assumptions c11_multi_writable_refuted_clobber.
Theorem c11_clobber_witness :
  let s := mrun mc1 minit clobber_history in let t := fold_left tstep clobber_history tinit in
  mwritable s 0 1 = true /\ t_rw_ok t 1 = false /\ trig_clobber_v mc1 clobber_history 1 = true /\
  trig_size_v mc1 clobber_history 1 = false.
Proof. exact clobber_witness. Qed.
Print Assumptions c11_clobber_witness.
(* the registered state the single-layout theorems speak about is NOT the reported one here *)
Theorem c11_clobber_single_witness :
  let s := run cfg000 init [EFull 1 [vi 1 10 true]; EIncr 1 [1] []] in
  writable s 1 = true /\ ginfo (s_nodes s) 1 1 = Some (vi 1 0 false).
Proof. exact clobber_single_witness. Qed.
Print Assumptions c11_clobber_single_witness.

(* finding 4: replicas of one vid under two layouts *)
Theorem c11_multi_lookup_refuted_split : ~ m_lookup_exact mc33.
Proof. exact m_lookup_exact_refuted_split. Qed.
Print Assumptions c11_multi_lookup_refuted_split.
Theorem c11_split_witness :
  let s := mrun mc33 minit split_history in let t := fold_left tstep split_history tinit in
  t_holders t 3 = [2; 3] /\ lookup_candidates s 3 = [[2]; [3]] /\ mlookup s 3 = None /\
  trig_split_v split_history 3 = true /\ trig_relayout_v split_history 3 = false.
Proof. exact split_witness. Qed.
Print Assumptions c11_split_witness.

(* non-vacuity: a two-layout history with a reconnect outside every trigger;
   lookups exact, the offered volumes meet the criterion *)
Example c11_multi_example :
  let s := mrun mc12 minit multi_sample in let t := fold_left tstep multi_sample tinit in
  mlookup s 1 = Some [1] /\ mlookup s 2 = Some [2; 1] /\ t_holders t 2 = [2; 1] /\
  mwritable s 0 1 = true /\ mwritable s 1 2 = true /\ t_crit mc12 t 1 2 = true /\
  forallb (fun v => negb (trig_relayout_v multi_sample v || trig_split_v multi_sample v ||
                          trig_object_v multi_sample v || trig_clobber_v mc12 multi_sample v || trig_size_v mc12 multi_sample v)) [1; 2] = true.
Proof. exact multi_sample_ok. Qed.
Print Assumptions c11_multi_example.

(* the sweep's crowded test (size > 0.9 * limit, below the limit) at its edges, and
   one case of a crowded vid that leaves writables leaving crowded *)
Example c11_crowded_boundary :
  let s := mrun mc1 minit crowded_history in
  l_writ (lay (ms_lays s) 0) = [1; 2; 3] /\ mcrowded s 0 = [2; 3] /\
  mcrowded (mrun mc1 minit (crowded_history ++ [MFull 1 [mi 1 90 false 0; mi 2 91 true 0; mi 3 100 false 0; mi 4 100 false 0]; MCollect])) 0 = [].
Proof. exact crowded_boundary. Qed.
Print Assumptions c11_crowded_boundary.
