(* C16 — EC shard balancing never loses, duplicates or overfills.
   Only statements closed by [exact]; proofs live in proof/EcBalance{Base,Inv,Spread,Key,Proofs,Rack}.v (in the order of their imports).

   Vocabulary (model/EcBalance.v): the books are [nodes] (per node: free EC slots and,
   per volume, a shard bit set) and [racks] (free slot counter per rack id).
   [run_plan false st o] is ec.balance in dry run (balanceEcVolumes for every
   collection, then balanceEcRacks) under the oracle [o] (map iteration orders, sort
   tie orders, choices); it returns the books after and the log of printed lines,
   recorded moves ([IMove], with the facts of the books at the moment of the move)
   and abandoned picks ([IDrop]).  [total ns v s] = number of nodes whose books
   hold shard s of volume v.  [exactly_once_after ns ns']: every (v,s) present in ns is on
   exactly one node of ns', every absent one on none.  All theorems quantify over every
   well-formed snapshot and every oracle the model accepts. *)
From Coq Require Import List NArith ZArith Bool.
From SW Require Import model.EcBalance proof.EcBalanceBase proof.EcBalanceInv proof.EcBalanceSpread proof.EcBalanceProofs proof.EcBalanceKey proof.EcBalanceRack.
Import ListNotations.

(* one move (moveMountedShardToEcNode bookkeeping), FULL:
   moving a shard the source holds to another node that does not hold it conserves the
   number of copies of every (volume, shard), keeps the books well formed, and moves
   exactly one free slot. *)
Theorem c16_move_conserves : forall ns src v c s dst,
  wf ns -> present ns dst -> src <> dst -> In s shard_range ->
  hb ns src v s = true -> hb ns dst v s = false ->
  let ns' := move_shard ns src v c s dst in
  wf ns' /\
  (forall v' s', total ns' v' s' = total ns v' s') /\
  hb ns' dst v s = true /\ hb ns' src v s = false /\
  node_free ns' dst = (node_free ns dst - 1)%Z /\ node_free ns' src = (node_free ns src + 1)%Z /\
  (forall x, x <> src -> x <> dst -> node_free ns' x = node_free ns x).
Proof. exact move_conserves. Qed.
Print Assumptions c16_move_conserves.

(* targets of the planned moves, FULL, every phase:
   no move (across racks, within racks, balanceEcRacks) targets a node that already holds
   the shard or has no free EC slot.  (doBalanceEcRack in /repo carries the guard
   `&& emptyNode.freeEcSlot > 0`, which upstream lacks; c16_rack_full_witness_quiet is its
   regression case.) *)
Theorem c16_move_targets : forall st o st' its,
  run_plan false st o = Some (st', its) -> wf (nodes st) -> unique (nodes st) ->
  forall e m, In (IMove e m) its -> m_dst_held m = false /\ (0 < m_dst_free m)%Z.
Proof. exact plan_targets. Qed.
Print Assumptions c16_move_targets.

(* the free-slot half of c16_move_targets without [unique], FULL under wf alone: every guard of
   every phase tests freeEcSlot of the destination on the books of that moment. *)
Theorem c16_move_free : forall st o st' its,
  run_plan false st o = Some (st', its) -> wf (nodes st) ->
  forall e m, In (IMove e m) its -> (0 < m_dst_free m)%Z.
Proof. exact plan_move_free. Qed.
Print Assumptions c16_move_free.

(* regression case for the guard `emptyNode.freeEcSlot > 0`: one rack, node 0 with 8 shards and
   free -1, node 1 empty with free 0; nothing is moved *)
Theorem c16_rack_full_witness_quiet :
  run_plan false (init_state w_full_nodes) w_full_orc = Some (init_state w_full_nodes, []).
Proof. exact rack_full_witness_quiet. Qed.
Print Assumptions c16_rack_full_witness_quiet.

(* the whole plan.
   REFUTED (finding 0): a shard picked by pickNEcShardsToMoveFrom for which no destination
   rack is found (on the racks collectRacks builds a found rack always has a node:
   c16_drops_are_printed) has already been removed from the source's books and is never
   put back: present before, absent after, although the plan never moves it. *)
Theorem c16_plan_conserves_refuted :
  ~ (forall st o st' its, wf (nodes st) -> unique (nodes st) ->
       run_plan false st o = Some (st', its) -> exactly_once_after (nodes st) (nodes st')).
Proof. exact plan_conserves_refuted. Qed.
Print Assumptions c16_plan_conserves_refuted.

(* REFUTED (finding 1): in dry run deleteDuplicatedEcShards prints "keeping X" but leaves the
   other copies in the books, so the rest of the dry run plans on duplicated books. *)
Theorem c16_dry_run_dedup_refuted :
  ~ (forall st o st' its, wf (nodes st) -> run_plan false st o = Some (st', its) -> has_drop its = false ->
       exactly_once_after (nodes st) (nodes st')).
Proof. exact dry_run_dedup_refuted. Qed.
Print Assumptions c16_dry_run_dedup_refuted.

(* PARTIAL: snapshot without duplicated shards ([unique], decidable: [has_dup] below) and a
   run that abandons no picked shard ([has_drop], decidable on the trace): every shard of every
   volume is on exactly the same number of nodes before and after — present exactly once if
   it was present, absent if it was absent. *)
Theorem c16_plan_conserves_partial : forall st o st' its,
  run_plan false st o = Some (st', its) -> wf (nodes st) -> unique (nodes st) -> has_drop its = false ->
  (forall v s, total (nodes st') v s = total (nodes st) v s) /\ exactly_once_after (nodes st) (nodes st').
Proof. exact plan_conserves_partial. Qed.
Print Assumptions c16_plan_conserves_partial.

(* PARTIAL, PER KEY (c16_plan_conserves_partial is its instance for all keys at once, proof:
   run_plan_ok): the two findings are about one (volume, shard) each and nothing else is affected.  Whatever happens to other shards - duplicates
   in the snapshot, picks that are abandoned - a shard (v,s) that is on at most one node in the
   snapshot ([dup_key] false) is never on more nodes afterwards, is on exactly as many nodes afterwards
   unless the run abandoned a pick of THAT shard ([drops_key]), and is never planned onto a node that
   already holds it. *)
Theorem c16_plan_conserves_key : forall st o st' its,
  run_plan false st o = Some (st', its) -> wf (nodes st) ->
  forall v s, (total (nodes st) v s <= 1)%nat ->
    (total (nodes st') v s <= total (nodes st) v s)%nat /\
    (drops_key its v s = false -> total (nodes st') v s = total (nodes st) v s) /\
    (forall e m, In (IMove e m) its -> m_vid m = v -> m_shard m = s -> m_dst_held m = false).
Proof. exact plan_conserves_key. Qed.
Print Assumptions c16_plan_conserves_key.

(* FULL: the drop trigger is decidable on the PRINTED plan.  On the racks collectRacks builds
   ([init_state]) EcRack.freeEcSlot never exceeds the free slots of the rack's nodes, so when pickOneRack
   finds a rack pickOneEcNodeAndMoveOneShard finds a node in it: a pick is never abandoned silently, and
   the abandoned picks of (v,s) are exactly the lines "ec shard v.s at X can not find a destination rack". *)
Theorem c16_drops_are_printed : forall ns o st' its,
  run_plan false (init_state ns) o = Some (st', its) -> wf ns ->
  (forall i, In i its -> is_silent_drop i = false) /\
  (forall v s, drops_key its v s = printed_norack (events_of its) v s).
Proof. exact plan_drops_are_printed. Qed.
Print Assumptions c16_drops_are_printed.

(* PARTIAL, per key, every hypothesis decidable on the snapshot and the printed plan *)
Theorem c16_plan_conserves_key_printed : forall ns o st' its,
  run_plan false (init_state ns) o = Some (st', its) -> wf ns ->
  forall v s, dup_key ns v s = false -> printed_norack (events_of its) v s = false ->
    total (nodes st') v s = total ns v s.
Proof. exact plan_conserves_key_printed. Qed.
Print Assumptions c16_plan_conserves_key_printed.

(* PARTIAL, every hypothesis decidable on the SNAPSHOT: books where every volume already respects the
   spread limit on every rack ([rack_balanced]) abandon nothing and move nothing across racks. *)
Theorem c16_balanced_no_drop : forall ns o st' its,
  run_plan false (init_state ns) o = Some (st', its) -> wf ns -> rack_balanced ns = true ->
  has_drop its = false /\ forall e m, In (IMove e m) its -> m_kind m <> KAcross.
Proof. exact plan_balanced_calm. Qed.
Print Assumptions c16_balanced_no_drop.

(* PARTIAL, on the snapshot alone: such books without duplicated shards conserve every shard *)
Theorem c16_plan_conserves_snapshot : forall ns o st' its,
  run_plan false (init_state ns) o = Some (st', its) ->
  wf ns -> bits32 ns = true -> has_dup ns = false -> rack_balanced ns = true ->
  (forall v s, total (nodes st') v s = total ns v s) /\ exactly_once_after ns (nodes st').
Proof. exact plan_conserves_snapshot. Qed.
Print Assumptions c16_plan_conserves_snapshot.

(* FULL (no duplication): whatever is abandoned, a plan on duplicate-free books never
   creates a second copy and never raises a copy count. *)
Theorem c16_plan_never_duplicates : forall st o st' its,
  run_plan false st o = Some (st', its) -> wf (nodes st) -> unique (nodes st) ->
  wf (nodes st') /\ unique (nodes st') /\ forall v s, (total (nodes st') v s <= total (nodes st) v s)%nat.
Proof. exact plan_never_duplicates. Qed.
Print Assumptions c16_plan_never_duplicates.

(* the snapshot trigger is decidable: uint32 shard bits and [has_dup = false] give [unique] *)
Theorem c16_unique_decidable : forall ns, bits32 ns = true -> has_dup ns = false -> unique ns.
Proof. exact unique_of_snapshot. Qed.
Print Assumptions c16_unique_decidable.

(* rack spread, FULL (needs neither uniqueness nor absence of drops):
   a move across racks leaves at most m_limit = ceil(14 / #racks) shards of the volume on the
   destination rack; every other move stays inside its rack. *)
Theorem c16_rack_spread : forall st o st' its,
  run_plan false st o = Some (st', its) -> wf (nodes st) ->
  forall e m, In (IMove e m) its ->
    (m_kind m = KAcross -> (m_dst_rack_count m <= m_limit m)%Z) /\
    (m_kind m <> KAcross -> m_src_rack m = m_dst_rack m).
Proof. exact plan_rack_spread. Qed.
Print Assumptions c16_rack_spread.

(* non-vacuity: a concrete layout and oracle satisfy wf, bits32, has_dup = false (hence unique) and
   has_drop = false; the run makes 8 moves (7 across racks, 1 inside a rack) and loses nothing.
   [rack_balanced] is covered by c16_example_rack below. *)
Example c16_example :
  wf ex_nodes /\ bits32 ex_nodes = true /\ has_dup ex_nodes = false /\
  exists st' its, run_plan false (init_state ex_nodes) ex_orc = Some (st', its) /\
    has_drop its = false /\
    length (filter (fun i => match i with IMove _ _ => true | _ => false end) its) = 8%nat /\
    map (fun n => find n 1%N) (nodes st') = [16256; 126; 1]%N.
Proof. exact example_run. Qed.
Print Assumptions c16_example.

(* non-vacuity for balanceEcRacks (and for [rack_balanced], [gate]): one rack, a loaded server and an empty
   one; the plan is two rack moves (1.0 then 2.0), nothing is lost, free slots move with the shards. *)
Example c16_example_rack :
  wf ex_rack_nodes /\ bits32 ex_rack_nodes = true /\ has_dup ex_rack_nodes = false /\ gate ex_rack_nodes = true /\
  exists st' its, run_plan false (init_state ex_rack_nodes) ex_rack_orc = Some (st', its) /\
    has_drop its = false /\
    events_of its = [ERackMove 0 1 0 1; ERackMove 0 2 0 1]%N /\
    length (filter is_rack_move its) = 2%nat /\
    map (fun n => (n_free n, find n 1%N, find n 2%N)) (nodes st') = [(8%Z, 1%N, 1%N); (4%Z, 14%N, 2%N)].
Proof. exact example_rack_run. Qed.
Print Assumptions c16_example_rack.

Example c16_example_rack_balanced : rack_balanced ex_rack_nodes = true /\ rack_balanced ex_nodes = false.
Proof. exact example_balanced. Qed.
Print Assumptions c16_example_rack_balanced.
