(* C21 — Hard links share one file.
   Proofs: proof/HardLink*.v.  Inv (proof/HardLinkInv.v): the counter of every record is the number of names
   carrying its id, a record exists iff some name carries its id, records are files, directory blobs carry no
   id; it holds of empty_st (Inv_empty).

   The model (model/HardLink.v) is the filer's store wrapper with its hard-link records,
   Filer.CreateEntry/UpdateEntry/DeleteEntryMetaAndData, the gRPC handlers and the mount's
   link / write / unlink sequences.  The full statement ("after every history that respects
   the client assumptions, every step satisfies the property") is REFUTED; the partial
   theorems hold for every history in which no operation falls under the trigger
     trig_rename_linked     k=0  a rename moves an entry whose blob carries a link id
   (c21_quiet also asks that a renamed entry be a file: directory renames are C18's subject.)
   handleUpdateToHardLinks and maybeDeleteHardLinks decrement the counter of every name that loses its id (a
   plain entry over a linked name; a recursive delete with or without data deletion): c21_repaired_witnesses runs
   both cases.  c21_counter, c21_gone_iff_last and c21_shared_view hold for every history under c21_hist_ok, renames
   included; refuted is that a renamed name stays linked (c21_shared_view_refuted, c21_history_refuted). *)
From Coq Require Import List NArith ZArith Bool String.
From SW Require Import model.Chunks model.HardLink proof.HardLinkInv proof.HardLinkProofs.
Import ListNotations.

(* the whole property for one step: counters = live names, records exist exactly for carried ids,
   names with one id show one entry, linked names stay linked, a link links, a write is shown *)
Theorem c21_step_partial : forall ev s o, Inv s -> c21_quiet ev s o = true ->
  let r := step ev s o in
  c21_step_ok s o (err_of r) (st_of r) (model_view (st_of r)) = true /\ Inv (st_of r).
Proof. exact step_ok_quiet. Qed.
Print Assumptions c21_step_partial.

Theorem c21_history_partial : forall ev ops,
  c21_hist_quiet ev empty_st ops = true -> c21_run_ok ev empty_st ops = true.
Proof. exact c21_history_partial. Qed.
Print Assumptions c21_history_partial.

Theorem c21_history_refuted :
  exists ev ops, c21_hist_ok ev empty_st ops = true /\ c21_run_ok ev empty_st ops = false.
Proof. exact c21_history_refuted. Qed.
Print Assumptions c21_history_refuted.

(* all names with the same link id show the same content and attributes *)
Theorem c21_shared_view : forall ev ops, c21_hist_ok ev empty_st ops = true ->
  let s := final ev empty_st ops in
  forall p1 e1 p2 e2, nfind s p1 = Some e1 -> nfind s p2 = Some e2 ->
    h_hl e1 <> 0%N -> h_hl e1 = h_hl e2 -> model_view s p1 = model_view s p2.
Proof. exact c21_shared_view_full. Qed.
Print Assumptions c21_shared_view.

(* after a write through one of them every name of the group shows one and the same entry, which carries the
   write's mtime *)
Theorem c21_shared_view_write_through : forall ev s p cs mt via, Inv s ->
  c21_quiet ev s (Write p cs mt via) = true ->
  let r := step ev s (Write p cs mt via) in
  err_of r = OK ->
  forall e0 q eq, nfind s p = Some e0 -> nfind s q = Some eq -> h_hl e0 <> 0%N -> h_hl eq = h_hl e0 ->
    exists e', model_view (st_of r) q = Some e' /\ model_view (st_of r) p = Some e' /\ h_mtime e' = mt.
Proof. exact c21_write_through. Qed.
Print Assumptions c21_shared_view_write_through.

(* refuted "including when names are renamed": /a and /b are one file; after rename /a -> /c and a
   write through /b, /c is a plain file with the old chunks *)
Theorem c21_shared_view_refuted :
  c21_hist_ok w_ev empty_st w_rename = true /\
  (let s2 := final w_ev empty_st (firstn 2 w_rename) in
   exists ea eb, nfind s2 pa = Some ea /\ nfind s2 pb = Some eb /\ linked ea eb = true) /\
  (let s := final w_ev empty_st w_rename in
   exists ec eb, model_view s pc = Some ec /\ model_view s pb = Some eb /\
                 h_chunks ec <> h_chunks eb /\ h_hl ec = 0%N).
Proof. exact c21_rename_detaches. Qed.
Print Assumptions c21_shared_view_refuted.

(* the counter: for every history under c21_hist_ok (renames included) *)
Theorem c21_counter : forall ev ops, c21_hist_ok ev empty_st ops = true ->
  let s := final ev empty_st ops in
  forall X b, kv_get s X = Some b -> h_cnt b = Z.of_nat (count_names s X).
Proof. exact c21_counter_full. Qed.
Print Assumptions c21_counter.

(* the record disappears exactly with the last name: for every history under c21_hist_ok *)
Theorem c21_gone_iff_last : forall ev ops, c21_hist_ok ev empty_st ops = true ->
  let s := final ev empty_st ops in
  forall X, X <> 0%N -> (kv_get s X <> None <-> (0 < count_names s X)%nat).
Proof. exact c21_gone_iff_last_full. Qed.
Print Assumptions c21_gone_iff_last.

(* a plain upload over a linked name followed by the unlink of the other name, and a recursive delete without
   data deletion followed by the unlink of the other name, satisfy the property at every step and leave no
   record behind *)
Theorem c21_repaired_witnesses :
  c21_hist_quiet w_ev empty_st w_overwrite = true /\ kvs (final w_ev empty_st w_overwrite) = [] /\
  (exists b, kv_get (final w_ev empty_st (firstn 3 w_overwrite)) 1%N = Some b /\ h_cnt b = 1%Z) /\
  c21_hist_quiet w_ev empty_st w_rec_nodata = true /\ final w_ev empty_st w_rec_nodata = empty_st.
Proof. exact c21_repaired_witnesses. Qed.
Print Assumptions c21_repaired_witnesses.

(* w_rename fails at the step trigger 0 names; w_overwrite and w_rec_nodata never fail *)
Theorem c21_witness_triggers :
  c21_first_failure w_ev empty_st w_rename = Some (Some 0%N) /\
  c21_first_failure w_ev empty_st w_overwrite = None /\
  c21_first_failure w_ev empty_st w_rec_nodata = None.
Proof. exact c21_witness_triggers. Qed.
Print Assumptions c21_witness_triggers.

(* outside the property's observation points (FindEntry, the KV record), reported as an observation:
   a directory listing (leveldb2) shows a linked name's per-name blob, not the shared record *)
Theorem c21_listing_stale :
  c21_hist_quiet w_ev empty_st w_listing = true /\
  (let s := final w_ev empty_st w_listing in
   exists e v, In ("b"%string, e) (list_children s []) /\ model_view s pb = Some v /\
               h_chunks e = [w_c 1 0] /\ h_chunks v = [w_c 5 0]).
Proof. exact c21_listing_stale. Qed.
Print Assumptions c21_listing_stale.

(* non-vacuity: two link groups, writes through several names, unlinks and a recursive delete WITH
   data deletion down to the empty filer — all inside the hypothesis of the partial theorems *)
Example c21_example :
  c21_hist_quiet w_ev empty_st w_clean = true /\
  kvs (final w_ev empty_st (firstn 9 w_clean)) <> [] /\
  final w_ev empty_st w_clean = empty_st.
Proof. exact c21_clean_is_quiet. Qed.
Print Assumptions c21_example.
