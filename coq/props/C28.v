(* C28 — S3 objects and multipart uploads round-trip.
   Only statements closed by [exact]; proofs live in proof/S3Multipart{Names,Parts,NS,Proofs}.v.
   The model (model/S3Multipart.v) follows the code INCLUDING its defects (known findings 0..4, 6 and
   7 = the raw key in the filer URL of the copy handlers; there is no finding 5); every full statement
   that the code violates comes as _partial (under a decidable trigger) + _refuted.  The triggers of
   the history theorem are raised per request by the model run (the flag list of [run]), never
   history-wide.
   Vocabulary defined in proof files: bad_pair (S3MultipartNames); dir_of, parts_of, enc, ascending,
   pfind, last_body, entry_bytes, seq_from (S3MultipartParts); obj_at, file_ok (S3MultipartNS);
   cfg_plain, nonempty, op_in_domain, part_op_number, refusal (S3MultipartProofs). *)
From Coq Require Import List NArith ZArith Bool String.
From SW Require Import model.HttpRange model.S3Multipart
  proof.S3MultipartNames proof.S3MultipartParts proof.S3MultipartNS proof.S3MultipartProofs.
Import ListNotations.
Local Open Scope N_scope.

(* part file names (facts about the names; ListParts still follows them) *)

(* for part numbers below 10000 the listing order of the "%04d.part" names is the numeric order
   (equal-length digit strings compare as the numbers they denote, by induction over the strings;
   bound stated here) *)
Theorem c28_part_name_order : forall n m, n < 10000 -> m < 10000 ->
  lex_cmp (part_name n) (part_name m) = N.compare n m.
Proof. exact name_order_below_10000. Qed.
Print Assumptions c28_part_name_order.

(* .. and over the whole S3 range 0..10000 for every pair except (10000, 1001..9999) *)
Theorem c28_part_name_order_partial : forall n m, n <= 10000 -> m <= 10000 -> bad_pair n m = false ->
  lex_cmp (part_name n) (part_name m) = N.compare n m.
Proof. exact name_order. Qed.
Print Assumptions c28_part_name_order_partial.

Theorem c28_part_name_order_refuted : exists n m, n <= 10000 /\ m <= 10000 /\ n < m /\
  lex_cmp (part_name n) (part_name m) = Gt.
Proof. exact name_order_refuted. Qed.
Print Assumptions c28_part_name_order_refuted.

(* multipart completion *)

(* whatever was uploaded: the completed object is the concatenation of the chunk bytes of the
   listed entries, ordered by part number, laid out with running offsets (no holes, no overlap) *)
Theorem c28_complete_running_offsets : forall d,
  (forall e, In e (sort_by_number (listed d)) -> has_part_suffix (fst e) = true) ->
  seq_from 0 (f_chunks (completed_file d)) /\
  file_bytes (completed_file d) = List.concat (map entry_bytes (sort_by_number (listed d))).
Proof. exact complete_is_listing_concat. Qed.
Print Assumptions c28_complete_running_offsets.

(* the reference: parts in ascending part-number order, the last upload of a number wins *)
Theorem c28_parts_ascending : forall h, ascending (parts_of h).
Proof. exact parts_of_ascending. Qed.
Print Assumptions c28_parts_ascending.
Theorem c28_parts_last_writer : forall h n, pfind n (parts_of h) = last_body n h.
Proof. exact parts_of_last. Qed.
Print Assumptions c28_parts_last_writer.

(* for EVERY set of part numbers up to 10000 (10000 next to 1001..9999 included) the name-ordered
   directory, sorted by part number, is the list of parts in ascending part-number order; and the
   explicit listing limit never cuts it *)
Theorem c28_sorted_listing_is_ascending : forall c h, (forall n, In n (map fst h) -> n <= 10000) ->
  sort_by_number (dir_of c h) = map (enc c) (parts_of h).
Proof. exact sorted_dir_is_parts. Qed.
Print Assumptions c28_sorted_listing_is_ascending.
Theorem c28_listing_complete : forall c h, (forall n, In n (map fst h) -> n <= 10000) ->
  listed (dir_of c h) = dir_of c h.
Proof. exact listed_all. Qed.
Print Assumptions c28_listing_complete.

(* c28_multipart_concat: for every history h of accepted part uploads (number, body) with
   numbers <= 10000, any chunk size > 0: completed object = concatenation of the parts in
   ASCENDING PART-NUMBER order — outside trigger 0 (parts stored inline because of -saveToFilerLimit) *)
Theorem c28_multipart_concat_partial : forall c h,
  0 < c_chunk c ->
  (forall n, In n (map fst h) -> n <= 10000) ->
  trig_inline (dir_of c h) = false ->
  file_bytes (completed_file (dir_of c h)) = List.concat (map snd (parts_of h)).
Proof. exact complete_concat. Qed.
Print Assumptions c28_multipart_concat_partial.

(* finding 0: with -saveToFilerLimit 4 the parts shorter than 4 bytes are silently dropped *)
Theorem c28_multipart_concat_refuted_inline :
  let c := {| c_inline := 4; c_chunk := 8 |} in
  let h := [(1, [1; 1]); (2, [2; 2; 2; 2; 2]); (3, [3])] in
  (forall n, In n (map fst h) -> n <= 10000) /\
  List.concat (map snd (parts_of h)) = [1; 1; 2; 2; 2; 2; 2; 3] /\
  file_bytes (completed_file (dir_of c h)) = [2; 2; 2; 2; 2].
Proof. exact complete_concat_refuted_inline. Qed.
Print Assumptions c28_multipart_concat_refuted_inline.

(* the trigger of finding 4 (ListParts order) as evaluated by the check (on the names found in
   the directory) is the trigger on the uploaded part numbers *)
Theorem c28_trigger_order_agrees : forall c h, (forall n, In n (map fst h) -> n <= 10000) ->
  trig_order (map (fun e => part_number_of (fst e)) (dir_of c h)) = trig_order (map fst h).
Proof. exact trig_order_dir. Qed.
Print Assumptions c28_trigger_order_agrees.

(* single objects *)

(* a body written over the filer's HTTP PUT — inline, one chunk or many — reads back unchanged *)
Theorem c28_store_roundtrip : forall c b, 0 < c_chunk c -> file_bytes (store_body c b) = b.
Proof. exact store_body_bytes. Qed.
Print Assumptions c28_store_roundtrip.

(* PUT then GET, other keys untouched — outside trigger 2 (the key is a directory, or lies below a file) *)
Theorem c28_put_get_partial : forall s p f, p <> [] -> trig_write s p = false ->
  exists s', http_put s p f = (s', true) /\
             obj_at s' p = Some (file_bytes f) /\
             forall q, q <> p -> obj_at s' q = obj_at s q.
Proof. exact put_then_get. Qed.
Print Assumptions c28_put_get_partial.

(* finding 2: a PUT onto a directory key lands under key/basename; a PUT below a file is refused *)
Theorem c28_put_get_refuted :
  (exists s p f, p <> [] /\ trig_write s p = true /\ fst (http_put s p f) <> s /\
                 obj_at (fst (http_put s p f)) p = None) /\
  (exists s p f, p <> [] /\ trig_write s p = true /\ snd (http_put s p f) = false).
Proof. exact put_then_get_refuted. Qed.
Print Assumptions c28_put_get_refuted.

(* GET returns the object; GET with a satisfiable byte range returns exactly that slice.
   Uses C32's parse_spec_ref: the filer's range parser computes the reference range. *)
Theorem c28_get_whole : forall s k f, k <> [] -> find s k = Some (File f) ->
  get_obj s k None = RData (file_bytes f).
Proof. exact get_whole. Qed.
Print Assumptions c28_get_whole.

Theorem c28_range : forall s k f sp o l, k <> [] -> find s k = Some (File f) -> file_ok f ->
  ref_spec sp (Z.of_N (blen (file_bytes f))) = Some (o, l) ->
  get_obj s k (Some sp) = RData (slice (file_bytes f) (Z.to_N o) (Z.to_N l)).
Proof. exact get_range. Qed.
Print Assumptions c28_range.

(* every file the gateway creates satisfies the side condition of c28_range *)
Theorem c28_files_ok : forall c,  0 < c_chunk c ->
  (forall b, file_ok (store_body c b)) /\
  (forall d, (forall e, In e (sort_by_number (listed d)) -> has_part_suffix (fst e) = true) ->
             file_ok (completed_file d)).
Proof. exact (fun c H => conj (fun b => store_body_ok c b H) completed_file_ok). Qed.
Print Assumptions c28_files_ok.

(* deletes *)

(* c28_delete_exact, single DELETE: removes exactly the named key — outside trigger 1
   (objects live below the key: the filer is asked to delete recursively) *)
Theorem c28_delete_exact_single_partial : forall s p, has_file_below s p = false ->
  forall q, obj_at (delete_recursive s p) q = if path_eqb q p then None else obj_at s q.
Proof. exact delete_exact. Qed.
Print Assumptions c28_delete_exact_single_partial.

(* finding 1: the recursive delete takes the objects below the key with it *)
Theorem c28_delete_exact_single_refuted : exists s p q, q <> p /\ obj_at s q <> None /\
  obj_at (delete_recursive s p) q = None.
Proof. exact delete_exact_refuted. Qed.
Print Assumptions c28_delete_exact_single_refuted.

(* c28_delete_exact, batch delete (including the purge of emptied directories), FULL: on every
   store a batch delete removes exactly the named keys *)
Theorem c28_delete_exact_batch : forall s ks, (forall k, In k ks -> k <> []) ->
  forall q, obj_at (batch_delete s ks) q = if existsb (path_eqb q) ks then None else obj_at s q.
Proof. exact batch_delete_exact. Qed.
Print Assumptions c28_delete_exact_batch.

(* whole histories *)

(* C28 at full strength over histories: from the empty bucket, for every configuration with
   positive chunk size, every history of PUT / streaming PUT / copy / GET (whole and ranged) /
   DELETE / batch delete / multipart create, part upload, part copy, complete (with ANY part list in
   the request body), abort, list requests with non-empty keys and ANY part numbers, on which NO
   known-finding trigger (0..4, 6, 7) fires — the triggers are raised per request by the model run, so
   the hypothesis [run .. = (rs, [], fin)] says that no single request of the history is inside a
   trigger set: every answer meets the flat key -> bytes specification — GET and ListParts payloads,
   and the status class of every write (EOk: acknowledged; EFail: refused, e.g. a tampered chunk
   signature, a missing copy source, a dead upload, a part number outside 1..10000: no hypothesis
   about part numbers is needed) —
   where a completed upload is the concatenation of the parts its request lists (which must be
   uploaded parts in ascending part-number order); and at the end the file entries under the
   bucket are exactly the specification's objects.
   This is the _partial statement of findings 6 (c28_complete_part_list_refuted) and 7 as well as of 0..4. *)
Theorem c28_history_refines_spec : forall c ops rs fin es sfin,
  0 < c_chunk c -> forallb op_in_domain ops = true ->
  run c init_state ops = (rs, [], fin) -> srun sinit ops = (es, sfin) ->
  all2 meets es rs = true /\
  forall q, obj_at (st_store fin) q = sfind (ss_objs sfin) q.
Proof. exact history_refines_spec. Qed.
Print Assumptions c28_history_refines_spec.

(* finding 6: the part list of CompleteMultipartUpload is never read *)
Theorem c28_complete_part_list_refuted :
  let kf := ["f"%string] in
  let ops := [MpCreate kf; MpPut 0 1 [1; 1]; MpPut 0 2 [2]; MpPut 0 3 [3; 3]; MpComplete 0 [1; 3]; Get kf None] in
  forallb op_in_domain ops = true /\
  run cfg_plain init_state ops =
    ([ROk; ROk; ROk; ROk; ROk; RData [1; 1; 2; 3; 3]], [6], snd (run cfg_plain init_state ops)) /\
  fst (srun sinit ops) = [EOk; EOk; EOk; EOk; EOk; EData [1; 1; 3; 3]] /\
  all2 meets (fst (srun sinit ops)) (fst (fst (run cfg_plain init_state ops))) = false.
Proof. exact complete_list_refuted. Qed.
Print Assumptions c28_complete_part_list_refuted.

(* finding 7: CopyObject / UploadPartCopy paste the RAW key into the filer URL, where PutObject /
   GetObject / HeadObject / DeleteObject escape it (urlPathEscape) and CompleteMultipartUpload /
   DeleteMultipleObjects hand the literal key to the filer: a key with '%', '?' or '#' is read from /
   written to another path by the copies.  Full statement "every route addresses a key by its
   literal name" refuted by a concrete history; its _partial statements: c28_history_refines_spec
   (no request raises trigger 7) and, per key, c28_raw_url_key_literal / c28_copy_literal_keys: on
   every key without those three characters (blank, '+', '&', '=' included) the raw-URL route sees
   the literal key. *)
Theorem c28_copy_raw_key_refuted :
  let kt := ["t"%string] in let kq := ["t?u"%string] in let kf := ["f"%string] in
  let ops := [Put kt [1]; Put kq [2; 3]; Copy kq kf; Get kf None] in
  forallb op_in_domain ops = true /\
  run cfg_plain init_state ops = ([ROk; ROk; ROk; RData [1]], [7], snd (run cfg_plain init_state ops)) /\
  fst (srun sinit ops) = [EOk; EOk; EOk; EData [2; 3]] /\
  all2 meets (fst (srun sinit ops)) (fst (fst (run cfg_plain init_state ops))) = false.
Proof. exact copy_raw_key_refuted. Qed.
Print Assumptions c28_copy_raw_key_refuted.

Theorem c28_raw_url_key_literal : forall k, raw_meta k = false -> raw_path k = Some k.
Proof. exact raw_path_literal. Qed.
Print Assumptions c28_raw_url_key_literal.

Theorem c28_copy_literal_keys : forall c st src dst, raw_meta src = false -> raw_meta dst = false ->
  step c st (Copy src dst) =
    (if path_eqb src dst then (st, RErr, []) else copy_obj c st (raw_path src) (raw_path dst)) /\
  raw_path src = Some src /\ raw_path dst = Some dst /\
  forall u n r, step c st (MpCopy u n src r) = mp_copy c st u n false (raw_path src) r.
Proof. exact copy_literal_keys. Qed.
Print Assumptions c28_copy_literal_keys.

Example c28_cross_routes_example :
  let kb := ["x y"%string] in let kp := ["dir one"%string; "i+n&a=b"%string] in
  let ops := [Put kb [1; 2; 3]; BatchDel [kb]; Get kb None;
              MpCreate kb; MpPut 0 2 [5; 5]; MpPut 0 1 [4]; MpComplete 0 [1; 2]; Get kb None;
              Copy kb kp; Get kp (Some (RClosed 1 2)); Del kb; Get kb None;
              MpCreate kb; MpCopy 1 1 kp None; MpComplete 1 [1]; Get kb None; BatchDel [kp; kb]; Get kp None] in
  raw_meta kb = false /\ raw_meta kp = false /\
  forallb op_in_domain ops = true /\
  snd (fst (run cfg_plain init_state ops)) = [] /\
  fst (fst (run cfg_plain init_state ops)) =
    [ROk; ROk; RNotFound; ROk; ROk; ROk; ROk; RData [4; 5; 5]; ROk; RData [5; 5]; ROk; RNotFound;
     ROk; ROk; ROk; RData [4; 5; 5]; ROk; RNotFound] /\
  all2 meets (fst (srun sinit ops)) (fst (fst (run cfg_plain init_state ops))) = true.
Proof. exact cross_routes_example. Qed.
Print Assumptions c28_cross_routes_example.

(* what the specification's completion selects: exactly the listed parts' bodies, in request order;
   and the list that raises no trigger 6 (all uploaded numbers, ascending) selects every part *)
Theorem c28_complete_selects_listed : forall ns ps bs, pick ns ps = Some bs ->
  map Some bs = map (fun n => pget n ps) ns.
Proof. exact pick_listed. Qed.
Print Assumptions c28_complete_selects_listed.
Theorem c28_complete_full_list : forall h,
  pick (map fst (parts_of h)) (parts_of h) = Some (map snd (parts_of h)).
Proof. exact pick_all. Qed.
Print Assumptions c28_complete_full_list.

(* part numbers (PutObjectPartHandler / CopyObjectPartHandler: partID < 1 || partID > globalMaxPartID =
   10000): over every configuration and every state a part upload, streaming part upload or part copy
   with a number outside 1..10000 is refused, raises no trigger and changes nothing .. *)
Theorem c28_part_number_range : forall c st o n, part_op_number o = Some n -> valid_part n = false ->
  exists r, step c st o = (st, r, []) /\ refusal r = true.
Proof. exact part_number_range. Qed.
Print Assumptions c28_part_number_range.

(* .. the gateway's test IS the S3 range .. *)
Theorem c28_part_refused_iff : forall n, part_refused n = negb (valid_part n).
Proof. exact part_refused_valid. Qed.
Print Assumptions c28_part_refused_iff.

(* .. and inside the range a part upload to a live upload is acknowledged and stored *)
Theorem c28_part_number_accepted : forall c st u up d n b,
  get_upload st u = Some up -> u_dir up = Some d -> valid_part n = true ->
  step c st (MpPut u n b) =
    (set_updir st u up (Some (dir_put (part_name n) (store_body c b) d)), ROk, []).
Proof. exact part_number_accepted. Qed.
Print Assumptions c28_part_number_accepted.

(* parts 0, 10001 and 100000 are refused; no trigger, ListParts and the object hold part 1 *)
Example c28_part_range_repaired :
  let kf := ["f"%string] in
  let ops := [MpCreate kf; MpPut 0 0 [7]; MpPut 0 1 [1]; MpPut 0 10001 [9]; MpPut 0 100000 [8]; MpList 0;
              MpComplete 0 [1]; Get kf None] in
  forallb op_in_domain ops = true /\
  run cfg_plain init_state ops =
    ([ROk; RErr; ROk; RErr; RErr; RParts [(1, 1)]; ROk; RData [1]], [], snd (run cfg_plain init_state ops)) /\
  fst (srun sinit ops) = [EOk; EFail; EOk; EFail; EFail; EParts [(1, 1)]; EOk; EData [1]] /\
  all2 meets (fst (srun sinit ops)) (fst (fst (run cfg_plain init_state ops))) = true.
Proof. exact part_range_repaired. Qed.
Print Assumptions c28_part_range_repaired.

(* non-vacuity *)
Example c28_multipart_example :
  let h := [(9999, [9; 9; 9; 9; 9; 9]); (2, [7]); (1000, [5; 5; 5; 5; 5]); (2, [2; 2]); (10000, [4]); (1, [])] in
  trig_inline (dir_of cfg_plain h) = false /\
  file_bytes (completed_file (dir_of cfg_plain h)) = [2; 2; 5; 5; 5; 5; 5; 9; 9; 9; 9; 9; 9; 4] /\
  map (fun e => List.length (f_chunks (snd e))) (dir_of cfg_plain h) = [0; 1; 2; 1; 2]%nat.
Proof. exact complete_concat_example. Qed.
Print Assumptions c28_multipart_example.

(* the names list 10000 before 1001, the completed object does not *)
Example c28_multipart_10000_example :
  let h := [(1001, [1; 1]); (10000, [2; 2; 2]); (2, [3])] in
  map (fun e => part_number_of (fst e)) (dir_of cfg_plain h) = [2; 10000; 1001] /\
  file_bytes (completed_file (dir_of cfg_plain h)) = [3; 1; 1; 2; 2; 2].
Proof. exact complete_concat_10000. Qed.
Print Assumptions c28_multipart_10000_example.

Example c28_history_example :
  let c := {| c_inline := 0; c_chunk := 4 |} in
  let ka := ["a"%string; "b"%string] in let kf := ["f"%string] in let kg := ["g"%string; "h"%string] in
  let ops := [Put ka [1; 2; 3; 4; 5; 6]; Copy ka kg; MpCreate kf; MpPut 0 10000 [7; 7; 7; 7; 7];
              MpPut 0 2 [8]; MpPut 0 2 [9; 9]; MpCopy 0 1001 ka (Some (1, 3)); MpComplete 0 [2; 1001; 10000];
              Get kf None; Get kf (Some (RClosed 1 6)); Del ka; BatchDel [kg; ka]; Get kg None] in
  forallb op_in_domain ops = true /\
  snd (fst (run c init_state ops)) = [] /\
  fst (fst (run c init_state ops)) =
    [ROk; ROk; ROk; ROk; ROk; ROk; ROk; ROk;
     RData [9; 9; 2; 3; 4; 7; 7; 7; 7; 7]; RData [9; 2; 3; 4; 7; 7]; ROk; ROk; RNotFound] /\
  objects (st_store (snd (run c init_state ops))) = [(kf, [9; 9; 2; 3; 4; 7; 7; 7; 7; 7])].
Proof. exact history_example. Qed.
Print Assumptions c28_history_example.
