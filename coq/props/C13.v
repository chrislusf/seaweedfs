(* C13 -- File keys and volume ids are never handed out twice.
   Only statements closed by [exact]; proofs live in proof/SeqProofs.v, proof/SeqSnow.v and proof/SeqGrow.v.

   Vocabulary (model/Seq.v, model/SeqGrow.v; [ranges_ok], [pair_ok] and the witness schedules
   [boot], [wit_*], [ex_etcd] are in proof/SeqProofs.v, [sf_pair_ok], [sf_ids_ok] in
   proof/SeqSnow.v, [grow_wit] in proof/SeqGrow.v): a run is a list of atomic steps by several actors;
   its trace is the list of events [Ret m s c] (master m handed out the keys
   s .. s+c-1) and [Max m k] (master m finished SetMax k) in the order in which
   the calls completed.  [ev_ok e1 e2] for e1 before e2: two Ret have no key in
   common; a Ret by the master that finished SetMax k only contains keys > k.
   [ForallOrdPairs ev_ok trace] is the property for one run; every theorem
   quantifies over ALL runs (all interleavings, counts, reported keys). *)
From Coq Require Import List NArith Bool Sorted.
From SW Require Import model.Seq model.SeqGrow proof.SeqProofs proof.SeqSnow proof.SeqGrow.
Import ListNotations.
Local Open Scope N_scope.

(* the executable oracle used by the correspondence check IS the property *)
Theorem c13_oracle_is_property : forall tr, trace_okb tr = true <-> ForallOrdPairs ev_ok tr.
Proof. exact trace_okb_spec. Qed.
Print Assumptions c13_oracle_is_property.

(* ... and so is its linear-time shortcut used on long traces *)
Theorem c13_fast_oracle_is_oracle : forall tr, trace_okb_fast tr = trace_okb tr.
Proof. exact trace_okb_fast_eq. Qed.
Print Assumptions c13_fast_oracle_is_oracle.

(* Memory sequencer: every interleaving of NextFileId(count) / SetMax(k) critical sections, as
   long as the 64-bit key space is not exhausted (no addition wraps) *)
Theorem c13_memory : forall ops, mem_fits mem_init ops = true ->
  ForallOrdPairs ev_ok (somes (snd (mem_run mem_init ops))).
Proof. exact mem_ok. Qed.
Print Assumptions c13_memory.

(* ... and that hypothesis is needed: uint64 wrap-around repeats keys *)
Theorem c13_memory_needs_key_space :
  exists ops, ~ ForallOrdPairs ev_ok (somes (snd (mem_run mem_init ops))).
Proof. exact mem_nofit_refuted. Qed.
Print Assumptions c13_memory_needs_key_space.

(* leader change: a fresh sequencer (counter 1) whose first step is the
   heartbeat SetMax(k), k not below any key handed out by the old leader,
   never repeats a key of the old leader *)
Theorem c13_memory_failover : forall ops1 ops2 k,
  mem_fits mem_init ops1 = true ->
  mem_fits mem_init (MSetMax k :: ops2) = true ->
  (forall m s c x, In (Ret m s c) (somes (snd (mem_run mem_init ops1))) -> in_range x s c -> x <= k) ->
  forall e1 e2, In e1 (somes (snd (mem_run mem_init ops1))) ->
                In e2 (somes (snd (mem_run mem_init (MSetMax k :: ops2)))) -> ranges_ok e1 e2.
Proof. exact mem_failover_ok. Qed.
Print Assumptions c13_memory_failover.

(* per step, no hypothesis: the run up to the first wrapping addition satisfies
   the property (finding 3 is what happens afterwards) *)
Theorem c13_memory_prefix : forall ops,
  ForallOrdPairs ev_ok (somes (snd (mem_run mem_init (firstn (mem_fit_len mem_init ops) ops)))) /\
  snd (mem_run mem_init (firstn (mem_fit_len mem_init ops) ops)) = firstn (mem_fit_len mem_init ops) (snd (mem_run mem_init ops)) /\
  (mem_fits mem_init ops = true -> mem_fit_len mem_init ops = length ops).
Proof. exact mem_prefix_ok. Qed.
Print Assumptions c13_memory_prefix.

(* leader change, per pair (implies c13_memory_failover): a range of the old
   leader with no key above the k of the new leader's first heartbeat is never
   met again by the new leader; no hypothesis on the other ranges *)
Theorem c13_memory_failover_pair : forall ops1 ops2 k,
  mem_fits mem_init ops1 = true ->
  mem_fits mem_init (MSetMax k :: ops2) = true ->
  forall e1 e2, In e1 (somes (snd (mem_run mem_init ops1))) ->
                In e2 (somes (snd (mem_run mem_init (MSetMax k :: ops2)))) ->
                fo_unwritten k e1 = false -> ranges_ok e1 e2.
Proof. exact mem_failover_pair. Qed.
Print Assumptions c13_memory_failover_pair.

(* finding 4: the heartbeat carries the largest key WRITTEN on the volume server
   (a key that was handed out, here 2), not the largest key handed out (5):
   keys assigned by the old leader and not yet written are handed out again *)
Theorem c13_memory_failover_written_refuted :
  exists ops1 ops2 k m s c,
    mem_fits mem_init ops1 = true /\ mem_fits mem_init (MSetMax k :: ops2) = true /\
    In (Ret m s c) (somes (snd (mem_run mem_init ops1))) /\ in_range k s c /\
    exists e1 e2, In e1 (somes (snd (mem_run mem_init ops1))) /\
                  In e2 (somes (snd (mem_run mem_init (MSetMax k :: ops2)))) /\ ~ ranges_ok e1 e2.
Proof. exact mem_failover_written_refuted. Qed.
Print Assumptions c13_memory_failover_written_refuted.

(* Etcd sequencer: any number n of masters sharing the etcd counter; every KeysAPI call is a
   separate step; calls may fail or lose their answer; masters may restart.
   The Go arithmetic is uint64; [etcd_fits]: no operation of the run wraps.

   Per pair, no whole-trace hypothesis: any two events of a run that carry
   neither tag (MRetErr: NextFileId returned 0 after an etcd error; MMax .. false:
   a SetMax that did not move the sequence past k) satisfy the property. *)
Theorem c13_etcd_pairs : forall n sched, etcd_fits n sched = true ->
  ForallOrdPairs pair_ok (etcd_trace n sched).
Proof. exact etcd_pairs_ok. Qed.
Print Assumptions c13_etcd_pairs.

(* per step, no hypothesis at all: the run up to the first step at which a
   uint64 operation wraps satisfies the per-pair property, and its outputs are
   the corresponding prefix of the whole run's outputs (all of it when the run fits) *)
Theorem c13_etcd_prefix : forall n sched,
  ForallOrdPairs pair_ok (etcd_trace n (firstn (etcd_fit_len n sched) sched)) /\
  snd (erun (einit n) (firstn (etcd_fit_len n sched) sched)) = firstn (etcd_fit_len n sched) (snd (erun (einit n) sched)) /\
  (etcd_fits n sched = true -> etcd_fit_len n sched = length sched).
Proof. exact etcd_prefix_ok. Qed.
Print Assumptions c13_etcd_prefix.

(* As long as no uint64 operation wraps, key ranges never overlap unless an etcd error made
   NextFileId return 0. *)
Theorem c13_etcd_ranges : forall n sched, etcd_fits n sched = true ->
  etcd_err_trigger (etcd_trace n sched) = false ->
  ForallOrdPairs ranges_ok (map vis (etcd_trace n sched)).
Proof. exact etcd_ranges_ok. Qed.
Print Assumptions c13_etcd_ranges.

(* the whole property, when moreover every SetMax(k) was harmless: k below
   currentSeqId, or the etcd counter was already above k *)
Theorem c13_etcd_partial : forall n sched, etcd_fits n sched = true ->
  etcd_err_trigger (etcd_trace n sched) = false ->
  etcd_setmax_trigger (etcd_trace n sched) = false ->
  ForallOrdPairs ev_ok (map vis (etcd_trace n sched)).
Proof. exact etcd_partial_ok. Qed.
Print Assumptions c13_etcd_partial.

(* finding 0: SetMax(k), k > maxSeqId, then NextFileId hands out k itself *)
Theorem c13_etcd_refuted :
  exists n sched, etcd_fits n sched = true /\ etcd_err_trigger (etcd_trace n sched) = false /\
                  ~ ForallOrdPairs ev_ok (map vis (etcd_trace n sched)).
Proof. exact etcd_setmax_refuted_fit. Qed.
Print Assumptions c13_etcd_refuted.

(* finding 0, second form: SetMax(k) with currentSeqId <= k <= maxSeqId is ignored *)
Theorem c13_etcd_ignored_refuted :
  etcd_err_trigger (etcd_trace 1 wit_setmax_ignored) = false /\
  map vis (etcd_trace 1 wit_setmax_ignored) = [Ret 0 1 1; Max 0 300; Ret 0 2 1] /\
  ~ ForallOrdPairs ev_ok (map vis (etcd_trace 1 wit_setmax_ignored)).
Proof. exact etcd_setmax_ignored_refuted. Qed.
Print Assumptions c13_etcd_ignored_refuted.

(* finding 2: an etcd error makes NextFileId return key 0, every time *)
Theorem c13_etcd_err_refuted :
  exists n sched, etcd_fits n sched = true /\ etcd_setmax_trigger (etcd_trace n sched) = false /\
                  ~ ForallOrdPairs ev_ok (map vis (etcd_trace n sched)).
Proof. exact etcd_err_refuted_fit. Qed.
Print Assumptions c13_etcd_err_refuted.

(* finding 3: [etcd_fits] is needed.  The count of an assign request is an
   unchecked uint64: NextFileId(2^64-1) wraps currentSeqId+count below maxSeqId,
   no batch is fetched, currentSeqId moves backwards, key 1 is handed out twice;
   neither of the other two triggers fires *)
Theorem c13_etcd_wrap_refuted :
  etcd_err_trigger (etcd_trace 1 wit_wrap) = false /\
  etcd_setmax_trigger (etcd_trace 1 wit_wrap) = false /\
  map vis (etcd_trace 1 wit_wrap) = [Ret 0 1 1; Ret 0 2 18446744073709551615; Ret 0 1 1] /\
  etcd_fit_len 1 wit_wrap = 7%nat /\
  ~ ForallOrdPairs ev_ok (map vis (etcd_trace 1 wit_wrap)).
Proof. exact etcd_wrap_refuted. Qed.
Print Assumptions c13_etcd_wrap_refuted.

(* finding 3, second form: count = 2^64-500 makes reqSteps 0 and NextFileId returns key 0 *)
Theorem c13_etcd_wrap_zero_steps :
  map vis (etcd_trace 1 (boot 0 ++ [(0%nat, ANext 18446744073709551116)])) = [Ret 0 0 18446744073709551116].
Proof. exact etcd_wrap_zero_steps. Qed.
Print Assumptions c13_etcd_wrap_zero_steps.

(* Snowflake sequencer: several masters with distinct 10-bit node ids, monotone clocks; holds when
   every count is <= 1 (SetMax is a no-op for this sequencer: no claim) *)
Theorem c13_snowflake_partial : forall nids calls,
  sf_nodes_ok nids = true ->
  sf_clock_ok nids (sf_init nids) calls = true ->
  sf_count_trigger calls = false ->
  ForallOrdPairs ev_ok (somes (snd (sf_run nids (sf_init nids) calls))).
Proof. exact sf_partial_ok. Qed.
Print Assumptions c13_snowflake_partial.

(* finding 1: count is ignored; two NextFileId(3) in one millisecond overlap *)
Theorem c13_snowflake_refuted :
  exists nids calls, sf_nodes_ok nids = true /\ sf_clock_ok nids (sf_init nids) calls = true /\
                     ~ ForallOrdPairs ev_ok (somes (snd (sf_run nids (sf_init nids) calls))).
Proof. exact sf_count_refuted. Qed.
Print Assumptions c13_snowflake_refuted.

(* per pair, without the hypothesis that the node ids are pairwise different:
   two ids of one node, or of two nodes with different 10-bit node ids, never
   coincide (finding 5 is exactly the pairs left out) *)
Theorem c13_snowflake_pairs : forall nids calls,
  sf_ids_ok nids = true ->
  sf_clock_ok nids (sf_init nids) calls = true ->
  sf_count_trigger calls = false ->
  ForallOrdPairs (sf_pair_ok nids) (somes (snd (sf_run nids (sf_init nids) calls))).
Proof. exact sf_pairs_ok. Qed.
Print Assumptions c13_snowflake_pairs.

(* finding 5: distinct node ids are needed; the node id is hash(address) & 0x3ff *)
Theorem c13_snowflake_needs_distinct_nodes :
  exists nids calls, forallb (fun x => x <? 1024) nids = true /\
                     sf_clock_ok nids (sf_init nids) calls = true /\ sf_count_trigger calls = false /\
                     ~ ForallOrdPairs ev_ok (somes (snd (sf_run nids (sf_init nids) calls))).
Proof. exact sf_collision_refuted. Qed.
Print Assumptions c13_snowflake_needs_distinct_nodes.

(* the 12-bit roll-over inside one millisecond takes the spin branch *)
Example c13_snowflake_rollover :
  sf_generate 5 {| sf_time := 1000; sf_step := 4095 |} 1000 1001 =
  ({| sf_time := 1001; sf_step := 0 |}, sf_id 1001 5 0).
Proof. exact sf_rollover. Qed.
Print Assumptions c13_snowflake_rollover.

(* Volume ids: any interleaving of NextVolumeId (read max / raft apply, which may fail) and
   heartbeats registering volumes, with at most one NextVolumeId in flight
   (VolumeGrowth.accessLock) and the 32-bit id space not exhausted *)
Theorem c13_volume_ids : forall sched, vlocked vinit sched = true -> vfits vinit sched = true ->
  StronglySorted N.lt (rets (snd (vrun vinit sched))).
Proof. exact vol_sorted. Qed.
Print Assumptions c13_volume_ids.

Theorem c13_volume_ids_unique : forall sched, vlocked vinit sched = true -> vfits vinit sched = true ->
  NoDup (rets (snd (vrun vinit sched))).
Proof. exact vol_unique. Qed.
Print Assumptions c13_volume_ids_unique.

(* after ANY run, a NextVolumeId returns an id above every volume id the
   master knew (from heartbeats or from earlier grants) when it read the max *)
Theorem c13_volume_ids_fresh : forall pre a hbs,
  let s := fst (vrun vinit pre) in
  vfind (vpend s) a = None -> vmax s + 1 < two32 ->
  exists next,
    snd (vrun s (VRead a :: map VHb hbs ++ [VApply a true])) =
      None :: map (fun _ => None) hbs ++ [Some (Ret a next 1)] /\
    forall v, In v (vknown pre (snd (vrun vinit pre))) -> v < next.
Proof. exact vol_fresh. Qed.
Print Assumptions c13_volume_ids_fresh.

(* without the growth lock two NextVolumeId read the same maximum *)
Theorem c13_volume_ids_needs_lock :
  exists sched, vfits vinit sched = true /\ ~ NoDup (rets (snd (vrun vinit sched))).
Proof. exact vol_unlocked_refuted. Qed.
Print Assumptions c13_volume_ids_needs_lock.

(* a heartbeat that arrives between the read and the raft apply is not taken into account *)
Theorem c13_volume_ids_hb_between :
  vlocked vinit [VRead 0; VHb 7; VApply 0 true] = true /\
  snd (vrun vinit [VRead 0; VHb 7; VApply 0 true]) = [None; None; Some (Ret 0 1 1)].
Proof. exact vol_hb_between. Qed.
Print Assumptions c13_volume_ids_hb_between.

(* Concurrent grow requests, the lock being part of the machine (model/SeqGrow.v): any number of GrowByCountAndType requests (any counts, raft
   errors, AllocateVolume failures) and heartbeats, interleaved in ANY order at the
   granularity start / accessLock.Lock() / NextVolumeId's read+proposal / raft
   apply.  [gstep true] is the locking of the code (the lock is held from the start
   of GrowByCountAndType to its return; a GLock step of another request is a no-op
   meanwhile): no hypothesis about the schedule other than the 32-bit id space.
   The trace property: an id handed out is above every id handed out before and
   not below any earlier proposal; a proposal is above every id handed out or
   reported by a heartbeat before it. *)
(* the executable check of that trace property is the property *)
Theorem c13_grow_oracle_is_property : forall tr, gtrace_okb tr = true <-> ForallOrdPairs gev_ok tr.
Proof. exact gtrace_okb_spec. Qed.
Print Assumptions c13_grow_oracle_is_property.

(* every schedule of the locked machine satisfies it *)
Theorem c13_grow_trace : forall nact m0 sched, gfits true (ginit nact m0) sched = true ->
  ForallOrdPairs gev_ok (somes (snd (grow_run true (ginit nact m0) sched))).
Proof. exact grow_trace_ok. Qed.
Print Assumptions c13_grow_trace.

(* hence the ids handed out strictly increase *)
Theorem c13_grow_ids_increasing : forall nact m0 sched, gfits true (ginit nact m0) sched = true ->
  StronglySorted N.lt (grants (snd (grow_run true (ginit nact m0) sched))).
Proof. exact grow_sorted. Qed.
Print Assumptions c13_grow_ids_increasing.

(* and none is handed out twice *)
Theorem c13_grow_ids_unique : forall nact m0 sched, gfits true (ginit nact m0) sched = true ->
  NoDup (grants (snd (grow_run true (ginit nact m0) sched))).
Proof. exact grow_unique. Qed.
Print Assumptions c13_grow_ids_unique.

(* the full statement for a lock that does not cover NextVolumeId ([gstep false],
   e.g. accessLock narrowed to findEmptySlotsForOneVolume) is false: two requests
   of two volumes on a topology with volumes 1-3 hand out 4, 4, 5, 5 *)
Theorem c13_grow_needs_lock_refuted :
  exists sched, gfits false (ginit 2 3) sched = true /\
                grants (snd (grow_run false (ginit 2 3) sched)) = [4; 4; 5; 5] /\
                ~ NoDup (grants (snd (grow_run false (ginit 2 3) sched))).
Proof. exact grow_unlocked_refuted. Qed.
Print Assumptions c13_grow_needs_lock_refuted.

(* non-vacuity: the schedule grow_wit of c13_grow_needs_lock_refuted on the locked machine
   (request 1 stays blocked), then request 1
   with a heartbeat between its proposal and the apply and a failing AllocateVolume *)
Example c13_grow_example :
  let sched := grow_wit ++ [GLock 1; GRead 1; GHb 9; GApply 1 GOk; GRead 1; GApply 1 GAllocErr] in
  gfits true (ginit 2 3) sched = true /\
  somes (snd (grow_run true (ginit 2 3) sched)) =
    [EProp 0 4; EGrant 0 4; EProp 0 5; EGrant 0 5; EProp 1 6; ESeen 9; EGrant 1 6; EProp 1 10; EGrant 1 10] /\
  gallocs 1 sched (snd (grow_run true (ginit 2 3) sched)) = [(0%nat, 4); (0%nat, 5); (1%nat, 6); (1%nat, 10)].
Proof. exact grow_example. Qed.
Print Assumptions c13_grow_example.

Example c13_memory_example :
  let ops := [MNext 3; MSetMax 10; MNext 2; MSetMax 5; MNext 1] in
  mem_fits mem_init ops = true /\
  somes (snd (mem_run mem_init ops)) = [Ret 0 1 3; Max 0 10; Ret 0 11 2; Max 0 5; Ret 0 13 1].
Proof. exact mem_example. Qed.
Print Assumptions c13_memory_example.

Example c13_etcd_example_fits :
  etcd_fits 1 wit_setmax = true /\ etcd_fits 1 wit_setmax_ignored = true /\ etcd_fits 1 wit_err = true /\
  etcd_fits 2 ex_etcd = true.
Proof. exact etcd_wits_fit. Qed.
Print Assumptions c13_etcd_example_fits.

Example c13_etcd_example :
  etcd_err_trigger (etcd_trace 2 ex_etcd) = false /\
  etcd_setmax_trigger (etcd_trace 2 ex_etcd) = false /\
  map vis (etcd_trace 2 ex_etcd) = [Ret 1 1 3; Ret 0 501 2; Max 1 2; Ret 1 4 1; Ret 0 1501 5].
Proof. exact etcd_example. Qed.
Print Assumptions c13_etcd_example.

Example c13_snowflake_example :
  let calls := [ {| sc_node := 0; sc_count := 1; sc_now := 1000; sc_spin := 1001 |};
                 {| sc_node := 1; sc_count := 1; sc_now := 1000; sc_spin := 1001 |};
                 {| sc_node := 0; sc_count := 1; sc_now := 1000; sc_spin := 1001 |};
                 {| sc_node := 0; sc_count := 0; sc_now := 1002; sc_spin := 1003 |} ] in
  sf_nodes_ok [5; 6] = true /\ sf_clock_ok [5; 6] (sf_init [5; 6]) calls = true /\
  sf_count_trigger calls = false /\
  somes (snd (sf_run [5; 6] (sf_init [5; 6]) calls)) =
    [Ret 0 4194324480 1; Ret 1 4194328576 1; Ret 0 4194324481 1; Ret 0 4202713088 0].
Proof. exact sf_example. Qed.
Print Assumptions c13_snowflake_example.

Example c13_volume_example :
  let sched := [VHb 3; VRead 0; VHb 2; VApply 0 true; VRead 1; VApply 1 false; VRead 1; VApply 1 true] in
  vlocked vinit sched = true /\ vfits vinit sched = true /\ rets (snd (vrun vinit sched)) = [4; 5].
Proof. exact vol_example. Qed.
Print Assumptions c13_volume_example.
