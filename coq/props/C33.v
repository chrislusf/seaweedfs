(* C33 — Client-side compression and encryption are transparent and robust.
   Only statements closed by [exact]; proofs live in proof/UploadCodecProofs.v and proof/UploadCodecMore.v.
   gzip / AES-GCM / content sniffing are oracles; the laws they must satisfy are
   the record [laws] (gunzip . gzip = id, gzip output starts with 1f 8b,
   open . seal = id). *)
From Coq Require Import List NArith Bool String.
From SW Require Import model.UploadCodec proof.UploadCodecProofs proof.UploadCodecMore.
Import ListNotations.
Local Open Scope N_scope.

(* Upload then fetch returns the bytes the caller meant ([clear_of]: the data, or
   its gunzip when the caller passed isInputCompressed with a valid stream), for
   every data / name / mime / cipher choice, full fetch and every in-range
   ranged fetch; the recorded size is the clear length. *)
Theorem c33_roundtrip : forall O, laws O -> forall u clear,
  List.length (u_nonce u) = 12%nat -> clear_of O u = Some clear ->
  let w := fst (upload O u) in let r := snd (upload O u) in
  r_size r = len clear /\
  (forall off size, off + size <= len clear ->
     fetch O (server_store w) (r_key r) (r_gzip r) true off size = FOk clear) /\
  (forall off size, 0 < size -> off + size <= len clear ->
     fetch O (server_store w) (r_key r) (r_gzip r) false off size = FOk (slice off size clear)).
Proof. exact roundtrip. Qed.
Print Assumptions c33_roundtrip.

(* Decompressing ANY input never panics (working tree: ungzipData and the four
   http_util.go readers check the error of gzip.NewReader) — for every behaviour
   of the gzip / AES / sniffing libraries, no law assumed.  The decompression
   helpers on any input: *)
Theorem c33_no_panic : forall (blob : Type) (L : gzlib blob) (input : blob),
  decompress_data true L input <> DPanic /\ maybe_decompress_data true L input <> MPanic.
Proof. exact (fun blob L input => conj (decompress_no_panic L input) (maybe_decompress_no_panic L input)). Qed.
Print Assumptions c33_no_panic.

(* The download path never panics on ANY stored needle (whatever bytes and flags the
   volume server holds), any key, any request. *)
Theorem c33_fetch_no_panic : forall O n key gz full off size, fetch O n key gz full off size <> FPanic.
Proof. exact fetch_no_panic. Qed.
Print Assumptions c33_fetch_no_panic.

(* The pinned code (error of gzip.NewReader ignored) did panic, exactly on inputs
   that carry the gzip magic but no valid header; this is what the repair removed. *)
Theorem c33_pinned_decompress_panics : exists (L : gzlib bytes) input, decompress_data false L input = DPanic.
Proof. exact pinned_decompress_panics. Qed.
Print Assumptions c33_pinned_decompress_panics.

Theorem c33_pinned_panic_iff : forall (blob : Type) (L : gzlib blob) (input : blob),
  decompress_data false L input = DPanic <->
  is_gzipped_content L input = true /\ gz_gunzip L input = GzHdrErr.
Proof. exact (fun blob L input => decompress_pinned_panic_iff L input). Qed.
Print Assumptions c33_pinned_panic_iff.

(* The pinned download path (http_util.go, same unchecked gzip.NewReader) panicked
   exactly on a needle flagged compressed with the gzip magic and an invalid
   header, on a full or an encrypted fetch; reachable through UploadData with
   isInputCompressed (the witness below); repaired in the working tree. *)
Theorem c33_pinned_fetch_panic_iff : forall O n key gz full off size,
  fetch_gen false O n key gz full off size = FPanic <-> pinned_fetch_panic O n key full = true.
Proof. exact pinned_fetch_panic_iff. Qed.
Print Assumptions c33_pinned_fetch_panic_iff.

Theorem c33_pinned_fetch_witness : exists O u, laws O /\
  fetch_gen false O (server_store (fst (upload O u))) (r_key (snd (upload O u))) (r_gzip (snd (upload O u))) true 0 5 = FPanic /\
  fetch O (server_store (fst (upload O u))) (r_key (snd (upload O u))) (r_gzip (snd (upload O u))) true 0 5 = FErr.
Proof. exact pinned_fetch_after_upload_panics. Qed.
Print Assumptions c33_pinned_fetch_witness.

(* The same round trip through ReadUrlAsStream (result and the bytes handed to fn),
   ReadUrl (any buffer length: a prefix) and ReadUrlAsReaderCloser + ReadAll. *)
Theorem c33_roundtrip_all_readers : forall O, laws O -> forall u clear,
  List.length (u_nonce u) = 12%nat -> clear_of O u = Some clear ->
  let w := fst (upload O u) in let r := snd (upload O u) in
  let n := server_store w in
  r_size r = len clear /\
  (forall off size, off + size <= len clear ->
     fetch O n (r_key r) (r_gzip r) true off size = FOk clear /\
     fetch_handed O n (r_key r) (r_gzip r) true off size = clear /\
     (forall buflen, read_url true O n (r_key r) (r_gzip r) true off size buflen = FOk (firstn (N.to_nat buflen) clear))) /\
  (forall off size, 0 < size -> off + size <= len clear ->
     fetch O n (r_key r) (r_gzip r) false off size = FOk (slice off size clear) /\
     fetch_handed O n (r_key r) (r_gzip r) false off size = slice off size clear /\
     (forall buflen, read_url true O n (r_key r) (r_gzip r) false off size buflen =
                     FOk (firstn (N.to_nat buflen) (slice off size clear)))) /\
  (u_cipher u = false ->
     read_closer true O n None = FOk clear /\
     forall off size, 0 < size -> off + size <= len clear ->
       read_closer true O n (Some (off, size)) = FOk (slice off size clear)).
Proof. exact roundtrip_all_readers. Qed.
Print Assumptions c33_roundtrip_all_readers.

(* ReadUrl and ReadUrlAsReaderCloser never panic on ANY stored needle (working tree),
   no law assumed. *)
Theorem c33_read_url_no_panic : forall O n key gz full off size buflen,
  read_url true O n key gz full off size buflen <> FPanic.
Proof. exact read_url_no_panic. Qed.
Print Assumptions c33_read_url_no_panic.

Theorem c33_read_closer_no_panic : forall O n rng, read_closer true O n rng <> FPanic.
Proof. exact read_closer_no_panic. Qed.
Print Assumptions c33_read_closer_no_panic.

(* The pinned code panicked in both readers exactly where ReadUrlAsStream did. *)
Theorem c33_pinned_read_url_panic_iff : forall O n key gz full off size buflen,
  read_url false O n key gz full off size buflen = FPanic <-> pinned_fetch_panic O n key full = true.
Proof. exact pinned_read_url_panic_iff. Qed.
Print Assumptions c33_pinned_read_url_panic_iff.

Theorem c33_pinned_read_closer_panic_iff : forall O n rng,
  read_closer false O n rng = FPanic <->
  pinned_fetch_panic O n None (match rng with None => true | Some _ => false end) = true.
Proof. exact pinned_read_closer_panic_iff. Qed.
Print Assumptions c33_pinned_read_closer_panic_iff.

(* Finding 0, isInputCompressed on data that is not gzip: "any content ... is fetched back" fails on the faithful model: with
   isInputCompressed set and data that starts with 1f 8b but is no gzip stream,
   doUploadData drops the DecompressData error and uploads anyway.  Not encrypted:
   no full fetch ever succeeds and a ranged read silently returns nothing.
   Encrypted: the result says 5 bytes, the sealed plaintext is empty. *)
Theorem c33_any_content_refuted : exists O, laws O /\
  (exists u, List.length (u_nonce u) = 12%nat /\ u_cipher u = false /\ ~ any_content_ok O u /\
     fetch O (server_store (fst (upload O u))) None true false 0 5 = FOk []) /\
  (exists u, List.length (u_nonce u) = 12%nat /\ u_cipher u = true /\ ~ any_content_ok O u /\
     r_size (snd (upload O u)) = 5 /\
     decrypt O (u_key u) (w_body (fst (upload O u))) = Some []).
Proof. exact any_content_refuted. Qed.
Print Assumptions c33_any_content_refuted.

(* Outside the (decidable) trigger the full statement holds for EVERY input: the bytes
   that come back are the data, or its gunzip when the caller said it is compressed. *)
Theorem c33_roundtrip_partial : forall O, laws O -> forall u,
  List.length (u_nonce u) = 12%nat -> false_gzip_promise O u = false ->
  exists clear,
    (clear = u_data u \/ (u_ic u = true /\ o_gunzip O (u_data u) = GzOk clear)) /\
    let w := fst (upload O u) in let r := snd (upload O u) in
    r_size r = len clear /\
    (forall off size, off + size <= len clear ->
       fetch O (server_store w) (r_key r) (r_gzip r) true off size = FOk clear) /\
    (forall off size, 0 < size -> off + size <= len clear ->
       fetch O (server_store w) (r_key r) (r_gzip r) false off size = FOk (slice off size clear)).
Proof. exact roundtrip_partial. Qed.
Print Assumptions c33_roundtrip_partial.

(* the trigger is exactly the complement of c33_roundtrip's hypothesis *)
Theorem c33_trigger_exact : forall O u, clear_of O u = None <-> false_gzip_promise O u = true.
Proof. exact clear_of_none_iff. Qed.
Print Assumptions c33_trigger_exact.

(* Inside the trigger the behaviour is fully determined (so nothing else can hide
   there).  Not encrypted: the junk is stored as is and flagged compressed, every full
   fetch is an error, a ranged fetch serves the server's partial decompression. *)
Theorem c33_false_promise_plain : forall O u,
  false_gzip_promise O u = true -> u_cipher u = false ->
  let w := fst (upload O u) in let r := snd (upload O u) in
  w_body w = u_data u /\ w_ce_gzip w = true /\ r_gzip r = true /\ r_key r = None /\ r_size r = len (u_data u) /\
  (forall gz off size, fetch O (server_store w) None gz true off size = FErr) /\
  read_closer true O (server_store w) None = FErr /\
  (forall gz off size, fetch O (server_store w) None gz false off size =
     let body := gunzip_partial O (u_data u) in
     if (size =? 0) || (len body <? off) then FErr
     else FOk (slice off (N.min (off + size) (len body) - off) body)).
Proof. exact false_promise_plain. Qed.
Print Assumptions c33_false_promise_plain.

(* Encrypted: what is sealed is DecompressData's partial output, the recorded size is
   the input length. *)
Theorem c33_false_promise_cipher : forall O, laws O -> forall u,
  false_gzip_promise O u = true -> u_cipher u = true -> List.length (u_nonce u) = 12%nat ->
  let w := fst (upload O u) in let r := snd (upload O u) in
  let p := gunzip_partial O (u_data u) in
  w_body w = encrypt O (u_key u) (u_nonce u) p /\ r_size r = len (u_data u) /\ r_gzip r = false /\
  forall full off size,
    fetch O (server_store w) (r_key r) (r_gzip r) full off size =
    if len p <? off + size then FErr else if full then FOk p else FOk (slice off size p).
Proof. exact false_promise_cipher. Qed.
Print Assumptions c33_false_promise_cipher.

(* non-vacuity: an oracle satisfying the laws exists; on it a compressible text
   (through all three readers), an encrypted upload and a pre-compressed upload
   (for these two the hypotheses of c33_roundtrip / c33_roundtrip_partial hold; the text has an
   empty nonce, which only the encrypted path reads) come back, and the two
   witnesses are inside the trigger *)
Example c33_example :
  laws toy /\
  (r_gzip (snd (upload toy ex_text)) = true /\
   fetch toy (server_store (fst (upload toy ex_text))) None true true 0 5 = FOk [104; 105; 32; 104; 105] /\
   fetch toy (server_store (fst (upload toy ex_text))) None true false 1 3 = FOk [105; 32; 104] /\
   read_url true toy (server_store (fst (upload toy ex_text))) None true true 0 5 2 = FOk [104; 105] /\
   read_closer true toy (server_store (fst (upload toy ex_text))) (Some (1, 3)) = FOk [105; 32; 104]) /\
  fetch toy (server_store (fst (upload toy ex_cipher))) (r_key (snd (upload toy ex_cipher)))
        (r_gzip (snd (upload toy ex_cipher))) false 1 2 = FOk [139; 1] /\
  (false_gzip_promise toy ex_pregz = false /\ clear_of toy ex_pregz = Some [65; 66; 67] /\
   List.length (u_nonce ex_pregz) = 12%nat /\
   fetch toy (server_store (fst (upload toy ex_pregz))) None true true 0 3 = FOk [65; 66; 67]) /\
  (false_gzip_promise toy junk_upload = true /\ false_gzip_promise toy junk_cipher_upload = true).
Proof. exact example_holds. Qed.
Print Assumptions c33_example.
