(* C20 — Chunk garbage collection never deletes referenced data.
   Proofs: proof/FilerGC{Base,Proofs,Main,Wire}.v, on top of proof/HardLink*.v.  PS (a state without hard links and
   manifests), Excl (two names share no chunk id): proof/FilerGCBase.v; the witnesses g_*: proof/FilerGCMain.v,
   w_*: proof/FilerGCWire.v.

   The model (model/HardLink.v) returns, for every operation, the chunk ids it hands to the two
   deletion sinks (the queue of DeleteChunks, the BatchDelete of DirectDeleteChunks); model/FilerGC.v
   defines the referenced set (what FindEntry shows for every name, manifests resolved) and the two
   halves of the property for one step.  model/HardLink.v acts on paths of depth 1 and 2 only: an operation
   elsewhere answers EScope, changes nothing and satisfies the statements below trivially.  The full statements
   ("after every history that respects the client assumptions") are REFUTED by five histories, one per known finding:
     k=0  a write through Filer.CreateEntry that wraps retained chunks into a manifest
     k=1  a chunk scheduled while still visible through a name that carries a hard link id
     k=2  recursive delete with data deletion over a child that carries a hard link id (leak)
     k=3  an UpdateEntry that drops a manifest whose chunks stay reachable
     k=4  chunks shared outside any link record after a rename / plain overwrite of a linked name
   Every one of them needs a manifest chunk or a hard link; the partial theorems hold for every
   history of operations that involve neither (c20_quiet: the assumptions of op_ok, no Link, no
   manifest chunk, a renamed entry is a file).  Outside c20_quiet the property rests on the
   correspondence check, whose triggers are per offending chunk (see c20_failures_complete ff.). *)
From Coq Require Import List NArith ZArith Bool String.
From SW Require Import model.Chunks model.HardLink model.FilerGC model.FilerGCWire
  proof.FilerGCBase proof.FilerGCMain proof.FilerGCWire.
Import ListNotations.

(* one step, from any link-free state with exclusive chunk ownership *)
Theorem c20_step_partial : forall ev s o, PS s -> Excl s -> c20_quiet ev s o = true ->
  let r := step ev s o in
  step_prop ev s o (refs ev s) (refs ev (st_of r)) (sched_of r) = true /\ PS (st_of r) /\ Excl (st_of r).
Proof. exact step_prop_quiet. Qed.
Print Assumptions c20_step_partial.

Theorem c20_history_partial : forall ev ops,
  c20_hist_quiet ev empty_st ops = true -> c20_run_ok ev empty_st ops = true.
Proof. exact c20_history_quiet. Qed.
Print Assumptions c20_history_partial.

Theorem c20_history_refuted :
  exists ev ops, assumptions_hold ev ops = true /\ c20_run_ok ev empty_st ops = false.
Proof. exact history_refuted. Qed.
Print Assumptions c20_history_refuted.

(* no chunk in the sink is referenced by the state after the op that scheduled it *)
Theorem c20_no_live_deleted_partial : forall ev ops o,
  c20_hist_quiet ev empty_st (ops ++ [o]) = true ->
  let s := final ev empty_st ops in
  forall c, In c (sched_of (step ev s o)) -> ~ In c (refs ev (st_of (step ev s o))).
Proof. exact no_live_deleted_history. Qed.
Print Assumptions c20_no_live_deleted_partial.

(* chunks 1 and 2 are scheduled and still referenced: through the new manifest (k=0, k=3), through
   the other link name (k=1), through the renamed copy (k=4) *)
Theorem c20_no_live_deleted_refuted :
  (assumptions_hold g_ev0 g_w0 = true /\ live_deleted g_ev0 g_w0 = [1; 2]%N) /\
  (assumptions_hold g_ev g_w1 = true /\ live_deleted g_ev g_w1 = [1; 2]%N) /\
  (assumptions_hold g_ev3 g_w3 = true /\ live_deleted g_ev3 g_w3 = [1; 2]%N) /\
  (assumptions_hold g_ev g_w4 = true /\ live_deleted g_ev g_w4 = [1; 2]%N).
Proof. exact no_live_deleted_refuted. Qed.
Print Assumptions c20_no_live_deleted_refuted.

(* every chunk that stopped being referenced by an op that requested data deletion is in the sink *)
Theorem c20_all_garbage_scheduled_partial : forall ev ops o,
  c20_hist_quiet ev empty_st (ops ++ [o]) = true ->
  let s := final ev empty_st ops in
  requests_deletion ev s o = true ->
  forall c, In c (refs ev s) -> In c (refs ev (st_of (step ev s o))) \/ In c (sched_of (step ev s o)).
Proof. exact all_garbage_scheduled_history. Qed.
Print Assumptions c20_all_garbage_scheduled_partial.

(* k=2: the recursive delete with data deletion leaves chunks 1 and 2 (referenced through both names before) unscheduled *)
Theorem c20_all_garbage_scheduled_refuted :
  assumptions_hold g_ev g_w2 = true /\
  requests_deletion g_ev (final g_ev empty_st (removelast g_w2)) (last g_w2 (Unlink [])) = true /\
  leaked g_ev g_w2 = [1; 2; 1; 2]%N.
Proof. exact all_garbage_scheduled_refuted. Qed.
Print Assumptions c20_all_garbage_scheduled_refuted.

(* The triggers of the known findings are PER OFFENDING CHUNK (model/FilerGC.v [explain]).
   [failures] lists one entry per chunk id that is scheduled while still referenced, or leaked, at any
   step of the model's run; [first_failure] is Some (Some k) only if EVERY such chunk of EVERY failing
   step satisfies the syntactic condition of a known finding (evaluated on the state before the step and
   the operation's arguments; k=4 on a set of tainted chunk ids). *)

(* the failure list is empty exactly when the property holds at every step: nothing is dropped *)
Theorem c20_failures_complete : forall ev ops taint s,
  failures ev taint s ops = [] <-> c20_run_ok ev s ops = true.
Proof. exact failures_complete. Qed.
Print Assumptions c20_failures_complete.

Theorem c20_first_failure_none : forall ev ops,
  first_failure ev ops = None <-> c20_run_ok ev empty_st ops = true.
Proof. exact first_failure_none. Qed.
Print Assumptions c20_first_failure_none.

(* inside the hypothesis of the partial theorems no chunk offends, so no trigger is consulted *)
Theorem c20_quiet_no_failures : forall ev ops,
  c20_hist_quiet ev empty_st ops = true -> first_failure ev ops = None.
Proof. exact quiet_no_failures. Qed.
Print Assumptions c20_quiet_no_failures.

(* each witness fails, every offending chunk has an explanation, and the first one is the finding it is the
   witness of *)
Theorem c20_witness_triggers :
  first_failure g_ev0 g_w0 = Some (Some 0%N) /\
  first_failure g_ev g_w1 = Some (Some 1%N) /\
  first_failure g_ev g_w2 = Some (Some 2%N) /\
  first_failure g_ev3 g_w3 = Some (Some 3%N) /\
  first_failure g_ev g_w4 = Some (Some 4%N).
Proof. exact witness_triggers. Qed.
Print Assumptions c20_witness_triggers.

(* a different violation does not hide behind a trigger: the k=1 witness plus an unrelated live delete
   (chunk 7, shared by two plain files) is unclassified *)
Theorem c20_unexplained_not_classified : first_failure g_ev g_w1x = Some None.
Proof. exact unexplained_not_classified. Qed.
Print Assumptions c20_unexplained_not_classified.

(* hard links and manifests as such trigger nothing: the mount's link / write-through / unlink sequence and
   an UpdateEntry that wraps chunks into a manifest satisfy the client assumptions, lie outside c20_quiet
   and hold the property at every step *)
Theorem c20_clean_outside_quiet :
  (assumptions_hold g_ev g_mount = true /\ c20_hist_quiet g_ev empty_st g_mount = false /\
   first_failure g_ev g_mount = None) /\
  (assumptions_hold g_ev0 g_wrapu = true /\ c20_hist_quiet g_ev0 empty_st g_wrapu = false /\
   first_failure g_ev0 g_wrapu = None).
Proof. exact clean_outside_quiet. Qed.
Print Assumptions c20_clean_outside_quiet.

(* non-vacuity: overwrites with retained and fresh chunks, an append, a rename onto an
   existing file, deletes with and without data, a recursive delete — all inside the hypothesis of
   the partial theorems; the chunk ids scheduled at every step are listed *)
Example c20_example :
  c20_hist_quiet g_ev empty_st g_clean = true /\
  map sched_of (run g_ev empty_st g_clean) =
    [[]; []; [2]; [4; 5]; []; []; [1; 6]; []; []; [9]; [8]]%N /\
  final g_ev empty_st g_clean = empty_st.
Proof. exact clean_is_quiet. Qed.
Print Assumptions c20_example.

(* Chunk references have two wire encodings (model/FilerGCWire.v).
   A chunk id is the decoded (volume id, key, cookie); a request may name it by the file_id string, by the
   fid object, or by both.  The specification above never sees an encoding; these theorems say that the
   garbage decisions do not either. *)

(* DoMinusChunks / deleteChunksIfNotNew on wire chunks: the garbage list and the ids handed to the sink are
   functions of the DECODED lists - whatever the encodings of the old and the new list *)
Theorem c20_garbage_by_decoded_ids : forall a a' b b',
  map decode a = map decode a' -> map decode b = map decode b' ->
  map decode (do_minus_w a b) = map decode (do_minus_w a' b') /\
  sink_ids_w (do_minus_w a b) = sink_ids_w (do_minus_w a' b').
Proof. exact do_minus_w_by_ids. Qed.
Print Assumptions c20_garbage_by_decoded_ids.

Theorem c20_garbage_is_decoded_minus : forall a b,
  sink_ids_w (do_minus_w a b) = fids (do_minus (map decode a) (map decode b)).
Proof. exact sink_do_minus. Qed.
Print Assumptions c20_garbage_is_decoded_minus.

Theorem c20_garbage_reencode : forall (e1 e2 e3 e4 : N -> N) a b,
  sink_ids_w (do_minus_w (map (fun c => encode (e1 (c_fid c)) c) a) (map (fun c => encode (e2 (c_fid c)) c) b)) =
  sink_ids_w (do_minus_w (map (fun c => encode (e3 (c_fid c)) c) a) (map (fun c => encode (e4 (c_fid c)) c) b)).
Proof. exact do_minus_reencode. Qed.
Print Assumptions c20_garbage_reencode.

(* the statement has content: the same loop keyed by the raw string field reports a kept chunk as garbage
   as soon as it is sent with its fid object only *)
Theorem c20_raw_key_not_invariant :
  map decode wb0 = map decode wb1 /\
  sink_ids_w (do_minus_raw wa wb0) = [2%N] /\ sink_ids_w (do_minus_raw wa wb1) = [1%N; 2%N] /\
  sink_ids_w (do_minus_w wa wb0) = [2%N] /\ sink_ids_w (do_minus_w wa wb1) = [2%N].
Proof. exact raw_key_not_invariant. Qed.
Print Assumptions c20_raw_key_not_invariant.

(* the whole step with the encodings of the request as an input (step_w).  "The outcome depends on the decoded
   request only" is REFUTED by the code as it is: UpdateEntry's EqualEntry shortcut compares the chunk messages
   field by field, so an unchanged entry sent with string-only references is rewritten and the covered chunk 9
   of the request is scheduled, while the same request with fid objects schedules nothing.  (Both outcomes
   satisfy the property: the step is inside c20_quiet.) *)
Theorem c20_encoding_invariance_refuted :
  sent_matches w_o (w_sn 0) = true /\ sent_matches w_o (w_sn 2) = true /\
  c20_quiet w_ev w_s w_o = true /\
  sched_of (step_w w_ev w_s w_o (w_sn 0)) = [] /\ sched_of (step_w w_ev w_s w_o (w_sn 2)) = [9%N] /\
  enc_visible w_ev w_s w_o (w_sn 0) = false /\ enc_visible w_ev w_s w_o (w_sn 2) = true.
Proof. exact enc_invariance_refuted. Qed.
Print Assumptions c20_encoding_invariance_refuted.

(* outside that one decidable spot (an UpdateEntry whose entry equals the stored one and keeps a chunk sent
   without fid object) state, error class and scheduled ids are those of the decoded request *)
Theorem c20_encoding_invariance_partial : forall ev s o sn,
  enc_visible ev s o sn = false -> step_w ev s o sn = step ev s o.
Proof. exact step_w_eq. Qed.
Print Assumptions c20_encoding_invariance_partial.

Theorem c20_reencoding_partial : forall ev s o sn1 sn2,
  enc_visible ev s o sn1 = false -> enc_visible ev s o sn2 = false -> step_w ev s o sn1 = step_w ev s o sn2.
Proof. exact step_w_enc_invariant. Qed.
Print Assumptions c20_reencoding_partial.

(* requests whose chunk references all carry the fid object (entries from LookupDirectoryEntry / ListEntries
   sent back, metadata events) never reach the spot, for any operation and state *)
Theorem c20_fid_objects_decoded : forall ev ops sns s,
  forallb all_with_fid sns = true -> run_w ev s ops sns = run ev s ops.
Proof. exact run_w_eq. Qed.
Print Assumptions c20_fid_objects_decoded.

(* and the property itself holds for EVERY encoding, the visible spot included *)
Theorem c20_step_any_encoding_partial : forall ev s o sn, PS s -> Excl s -> c20_quiet ev s o = true ->
  let r := step_w ev s o sn in
  step_prop ev s o (refs ev s) (refs ev (st_of r)) (sched_of r) = true /\ PS (st_of r) /\ Excl (st_of r).
Proof. exact step_prop_quiet_w. Qed.
Print Assumptions c20_step_any_encoding_partial.

Theorem c20_history_any_encoding_partial : forall ev ops sns,
  c20_hist_quiet_w ev empty_st ops sns = true -> c20_run_ok_w ev empty_st ops sns = true.
Proof. exact c20_history_quiet_w. Qed.
Print Assumptions c20_history_any_encoding_partial.

(* non-vacuity: all three encodings inside the hypothesis, the encoding visible at the last step *)
Example c20_wire_example :
  c20_hist_quiet_w w_ev empty_st w_hist w_sns = true /\
  map sched_of (run_w w_ev empty_st w_hist w_sns) = [[]; []; [1]; [9]]%N /\
  map sched_of (run w_ev empty_st w_hist) = [[]; []; [1]; []]%N.
Proof. exact wire_example. Qed.
Print Assumptions c20_wire_example.
