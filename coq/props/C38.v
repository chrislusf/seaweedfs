(* C38 — Concurrent volume operations are linearizable per file id.
   Only statements closed by [exact]; proofs live in proof/VolumeConcProofs.v and proof/VolumeConcReg.v.

   [mrun (minit st0 stop) sched = Some m]  the machine of model/VolumeConc.v (clients calling
        Store.Write/Read/DeleteVolumeNeedle, the immediate path under dataFileAccessLock, the
        batched path through asyncRequestsChan and the worker of startWorker, SetStopping) runs
        the schedule [sched] from the volume [st0]; a schedule names every step, so "for all
        sched" is: all programs, all interleavings, all clock readings
   [history m]   the calls of the run: stamps of Inv and Res, operation, result
   [linearizable nxt acc s0 fin h]   some total order of h respects real time (Res a before
        Inv b => a before b), the sequential specification (nxt, acc) from s0 accepts every
        result in that order, and the state it ends in satisfies fin *)
From Coq Require Import List NArith ZArith Bool Permutation.
From SW Require Import model.Volume model.VolumeConc proof.VolumeProofs proof.VolumeConcProofs proof.VolumeConcReg.
Import ListNotations.
Local Open Scope N_scope.

(* Every complete history of the machine, from any volume state, is linearizable w.r.t. the
   sequential volume model (Volume.step: exactly its results), and the volume at the end IS the
   state of that order.  No hypothesis on the operations. *)
Theorem c38_linearizable : forall st0 stop sched m,
  mrun (minit st0 stop) sched = Some m -> complete m = true ->
  linearizable vol_nxt vol_acc st0 (fun st => st = m_vol m) (history m).
Proof. exact machine_linearizable. Qed.
Print Assumptions c38_linearizable.

(* The linearization point: the critical section of every call lies between its Inv and its Res
   (in every reachable state, complete or not). *)
Theorem c38_apply_between_inv_res : forall st0 stop sched m a,
  mrun (minit st0 stop) sched = Some m -> In a (m_lin m) ->
  a_inv a <= a_at a /\ match a_stat a with ADone r => a_at a < r | _ => True end.
Proof. exact machine_apply_between. Qed.
Print Assumptions c38_apply_between_inv_res.

(* W.r.t. the per-key register specification of C01 WITH EVERY ANSWER FIELD (id -> cookie, last
   written needle; reg_acc = Volume.xmatch (xexpect ...): error class, the "unchanged"
   acknowledgement and n.Size of a write, the size a delete returns = Size of the needle that was
   live / 0, count and every field of a read): every complete history from an empty volume (a b =
   its two read-only flags noWriteOrDelete, noWriteCanDelete as loaded, set or not) is linearizable, and every read of the final volume (any key,
   cookie, time) answers what the register state of that order expects.  Inside the hypotheses of
   C01's refinement (c01_refines_partial), stated order-independently: needles representable and
   non-empty, no two writes with the same id+cookie+bytes but other metadata. *)
Theorem c38_linearizable_register_partial : forall a b stop sched m,
  mrun (minit (init_flags a b) stop) sched = Some m -> complete m = true ->
  conc_ok (map o_op (history m)) = true ->
  linearizable reg_nxt reg_acc (spec_flags a b) (agrees (m_vol m)) (history m).
Proof. exact machine_linearizable_reg. Qed.
Print Assumptions c38_linearizable_register_partial.

(* The specification above accepts no more than the one that compares error classes only
   (reg_acc0). *)
Theorem c38_register_spec_stronger : forall sp0 (fin : spec -> Prop) (h : hist),
  linearizable reg_nxt reg_acc sp0 fin h -> linearizable reg_nxt reg_acc0 sp0 fin h.
Proof. exact reg_lin_weaken. Qed.
Print Assumptions c38_register_spec_stronger.

(* PER KEY, with no hypothesis beyond representable needles: the specification state also tracks
   the keys that a finding of C01 has touched so far in the order (Volume.dirty_step: an
   empty-payload write = finding 0, a metadata-only rewrite = finding 1, any later call on such a
   key); only the answers of calls on those keys are left open.  A finding on one key excuses
   nothing on any other key, neither during the run nor in the reads afterwards. *)
Theorem c38_linearizable_per_key_partial : forall a b stop sched m,
  mrun (minit (init_flags a b) stop) sched = Some m -> complete m = true ->
  wf_history (map o_op (history m)) = true ->
  linearizable pk_nxt pk_acc (pk_init (spec_flags a b)) (agrees_pk (m_vol m)) (history m).
Proof. exact machine_linearizable_pk. Qed.
Print Assumptions c38_linearizable_per_key_partial.

(* Without the non-empty hypothesis the all-keys statement is false already for a sequential
   schedule (C01's finding 0: a zero-byte needle is served to any cookie), for the error-class
   acceptance reg_acc0 and a fortiori for reg_acc. *)
Theorem c38_linearizable_register_refuted :
  exists stop sched m,
    mrun (minit (init_flags false false) stop) sched = Some m /\ complete m = true /\
    wf_history (map o_op (history m)) = true /\ pairwise_nc (needles_of (map o_op (history m))) = true /\
    ~ linearizable reg_nxt reg_acc0 (spec_flags false false) (fun _ => True) (history m) /\
    ~ linearizable reg_nxt reg_acc (spec_flags false false) (fun _ => True) (history m) /\
    conc_finding (map o_op (history m)) = Some 0.
Proof. exact register_refuted. Qed.
Print Assumptions c38_linearizable_register_refuted.

(* The transfer is a fact about histories, not about the machine: the SAME order works. *)
Theorem c38_volume_order_is_register_order : forall a b (h : hist) V,
  conc_ok (map o_op h) = true ->
  linearizable vol_nxt vol_acc (init_flags a b) (fun st => st = V) h ->
  linearizable reg_nxt reg_acc (spec_flags a b) (agrees V) h.
Proof. exact vol_lin_to_reg. Qed.
Print Assumptions c38_volume_order_is_register_order.

Theorem c38_volume_order_is_per_key_order : forall a b (h : hist) V,
  wf_history (map o_op h) = true ->
  linearizable vol_nxt vol_acc (init_flags a b) (fun st => st = V) h ->
  linearizable pk_nxt pk_acc (pk_init (spec_flags a b)) (agrees_pk V) h.
Proof. exact vol_lin_to_pk. Qed.
Print Assumptions c38_volume_order_is_per_key_order.

(* The decision procedure (depth-first search over the orders that respect real time) is sound
   and complete, for every sequential specification and every history length. *)
Theorem c38_lin_check_sound : forall (Op Out St : Type) (nxt : St -> Op -> St) (acc : St -> Op -> Out -> bool)
    s0 (fin : St -> Prop) finb (h : list (orec Op Out)),
  (forall s, finb s = true -> fin s) ->
  lin_check nxt acc s0 finb h = true -> linearizable nxt acc s0 fin h.
Proof. exact @lin_check_sound. Qed.
Print Assumptions c38_lin_check_sound.

Theorem c38_lin_check_complete : forall (Op Out St : Type) (nxt : St -> Op -> St) (acc : St -> Op -> Out -> bool)
    s0 (fin : St -> Prop) finb (h : list (orec Op Out)),
  (forall s, fin s -> finb s = true) ->
  linearizable nxt acc s0 fin h -> lin_check nxt acc s0 finb h = true.
Proof. exact @lin_check_complete. Qed.
Print Assumptions c38_lin_check_complete.

(* the three instances evaluated by the correspondence check: sound and complete *)
Theorem c38_lin_check_reg_sound : forall a b fr (h : hist),
  lin_check_reg a b fr h = true ->
  linearizable reg_nxt reg_acc (spec_flags a b) (fun sp => agrees_on fr sp = true) h.
Proof. exact lin_check_reg_sound. Qed.
Print Assumptions c38_lin_check_reg_sound.

Theorem c38_lin_check_reg_complete : forall a b fr (h : hist),
  linearizable reg_nxt reg_acc (spec_flags a b) (fun sp => agrees_on fr sp = true) h ->
  lin_check_reg a b fr h = true.
Proof. exact lin_check_reg_complete. Qed.
Print Assumptions c38_lin_check_reg_complete.

Theorem c38_lin_check_vol_sound : forall a b f (h : hist),
  lin_check_vol a b f h = true ->
  linearizable vol_nxt vol_acc (init_flags a b) (fun st => vol_final f st = true) h.
Proof. exact lin_check_vol_sound. Qed.
Print Assumptions c38_lin_check_vol_sound.

Theorem c38_lin_check_vol_complete : forall a b f (h : hist),
  linearizable vol_nxt vol_acc (init_flags a b) (fun st => vol_final f st = true) h ->
  lin_check_vol a b f h = true.
Proof. exact lin_check_vol_complete. Qed.
Print Assumptions c38_lin_check_vol_complete.

Theorem c38_lin_check_pk_sound : forall a b fr (h : hist),
  lin_check_pk a b fr h = true ->
  linearizable pk_nxt pk_acc (pk_init (spec_flags a b)) (fun s => agrees_on_pk fr s = true) h.
Proof. exact lin_check_pk_sound. Qed.
Print Assumptions c38_lin_check_pk_sound.

Theorem c38_lin_check_pk_complete : forall a b fr (h : hist),
  linearizable pk_nxt pk_acc (pk_init (spec_flags a b)) (fun s => agrees_on_pk fr s = true) h ->
  lin_check_pk a b fr h = true.
Proof. exact lin_check_pk_complete. Qed.
Print Assumptions c38_lin_check_pk_complete.

(* Linearizability does not depend on the order in which the calls of a history are listed. *)
Theorem c38_linearizable_perm : forall (Op Out St : Type) (nxt : St -> Op -> St) (acc : St -> Op -> Out -> bool)
    s0 (fin : St -> Prop) (h h' : list (orec Op Out)),
  Permutation h h' -> linearizable nxt acc s0 fin h -> linearizable nxt acc s0 fin h'.
Proof. exact @linearizable_perm. Qed.
Print Assumptions c38_linearizable_perm.

(* Whatever the machine can produce from an empty volume (flags as loaded) -- the
   history, the final .dat size, the sequence of .dat records, the needle-map entries, reads made
   afterwards with every field -- passes the volume check; inside C01's hypotheses the all-keys
   register check; with representable needles the per-key register check. *)
Theorem c38_machine_admitted : forall a b stop sched m keys fn,
  mrun (minit (init_flags a b) stop) sched = Some m -> complete m = true ->
  forallb (nm_entry_eqb (m_vol m)) fn = true ->
  lin_check_vol a b (obs_of (m_vol m) fn keys) (history m) = true /\
  (conc_ok (map o_op (history m)) = true ->
   lin_check_reg a b (map (read_after (m_vol m)) keys) (history m) = true) /\
  (wf_history (map o_op (history m)) = true ->
   lin_check_pk a b (map (read_after (m_vol m)) keys) (history m) = true).
Proof. exact machine_admitted. Qed.
Print Assumptions c38_machine_admitted.

(* No operation of the machine changes the read-only flags, so the test made before the lock
   (LEnter) is the one Volume.step repeats: on a writable volume the critical section of a write,
   immediate or in the worker, is doWriteRequest. *)
Theorem c38_write_section_is_do_write : forall st0 stop sched m n t,
  is_read_only st0 = false -> mrun (minit st0 stop) sched = Some m ->
  step (m_vol m) (t, Write n) =
  (fst (do_write (m_vol m) n t),
   OWrite (w_err (snd (do_write (m_vol m) n t))) (w_unchanged (snd (do_write (m_vol m) n t)))
          (w_size (snd (do_write (m_vol m) n t)))).
Proof. exact machine_write_is_do_write. Qed.
Print Assumptions c38_write_section_is_do_write.

(* The checkers reject: a read that returns the first of two completed writes is rejected
   when it starts after the second write returned and accepted when it overlaps it. *)
Example c38_stale_read_rejected :
  lin_check_reg false false [] (h_stale 6) = false /\
  lin_check vol_nxt vol_acc init (fun _ => true) (h_stale 6) = false /\
  lin_check_reg false false [] (h_stale 4) = true /\
  lin_check vol_nxt vol_acc init (fun _ => true) (h_stale 4) = true.
Proof. exact stale_read_rejected. Qed.
Print Assumptions c38_stale_read_rejected.

(* Two overlapping deletes of one live needle that both return its size (what seeded change C38-a,
   syncDelete under RLock, produces) are rejected by both checkers; the error-class-only
   acceptance reg_acc0 lets them pass; with the second returning 0: accepted. *)
Example c38_double_delete_rejected :
  lin_check_reg false false [] (h_double_delete 6%Z) = false /\
  lin_check vol_nxt vol_acc init (fun _ => true) (h_double_delete 6%Z) = false /\
  lin_check reg_nxt reg_acc0 spec_init (fun _ => true) (h_double_delete 6%Z) = true /\
  lin_check_reg false false [] (h_double_delete 0%Z) = true /\
  lin_check vol_nxt vol_acc init (fun _ => true) (h_double_delete 0%Z) = true.
Proof. exact double_delete_rejected. Qed.
Print Assumptions c38_double_delete_rejected.

Theorem c38_double_delete_not_linearizable :
  ~ linearizable reg_nxt reg_acc spec_init (fun _ => True) (h_double_delete 6%Z).
Proof. exact double_delete_not_linearizable. Qed.
Print Assumptions c38_double_delete_not_linearizable.

(* Per key: finding 0 on key 1 excuses the wrong-cookie read of key 1 (all-keys check fails,
   per-key check passes) but not a stale read of key 2 in the same history. *)
Example c38_per_key_not_excused :
  lin_check_reg false false [] (h_two_keys false) = false /\
  lin_check_pk false false [] (h_two_keys false) = true /\
  lin_check_pk false false [] (h_two_keys true) = false /\
  conc_finding (map o_op (h_two_keys true)) = Some 0.
Proof. exact per_key_not_excused. Qed.
Print Assumptions c38_per_key_not_excused.

(* non-vacuity: a schedule with both write paths, a batch of two applied in channel order (not
   invocation order), a read that overlaps the batch and sees the second applied write, a delete
   (returns the live size 6), a second key; complete, inside the hypotheses, accepted by the
   three checkers with the final observables *)
Example c38_example :
  let m := final_of false false true sched_example in
  mrun (minit (init_flags false false) true) sched_example = Some m /\ complete m = true /\
  conc_ok (map o_op (history m)) = true /\
  map (fun a => (o_id a, o_inv a, o_res a)) (history m) =
    [(5, 39, 45); (6, 40, 46); (4, 14, 38); (3, 24, 27); (2, 2, 23); (0, 0, 22); (1, 1, 18)] /\
  map (fun a => match o_out a with ORead e _ v => Some (err_eqb e ENone, v_data v) | _ => None end) (history m) =
    [Some (false, []); Some (true, [67]); None; None; Some (true, [65]); None; None] /\
  map (fun a => match o_out a with ODelete _ z => Some z | _ => None end) (history m) =
    [None; None; None; Some 6%Z; None; None; None] /\
  lin_check_reg false false (map (read_after (m_vol m)) [(1, 5); (2, 7)]) (history m) = true /\
  lin_check_pk false false (map (read_after (m_vol m)) [(1, 5); (2, 7)]) (history m) = true /\
  lin_check_vol false false (obs_of (m_vol m) [(1, Some (48, (-6)%Z)); (2, Some (120, 6%Z)); (3, None)] [(1, 5); (2, 7)]) (history m) = true.
Proof. exact example_ok. Qed.
Print Assumptions c38_example.

(* a volume loaded read-only (noWriteOrDelete): write and delete refused before any lock, the read
   finds nothing, calls overlap; accepted with the flag, rejected without it *)
Example c38_example_read_only :
  let m := final_of true false true sched_ro in
  mrun (minit (init_flags true false) true) sched_ro = Some m /\ complete m = true /\
  map o_out (history m) =
    [ORead ENotFound (-1)%Z (blank_view 5); OWrite EReadOnly false 0; ODelete EReadOnly 0%Z] /\
  lin_check_reg true false (map (read_after (m_vol m)) [(1, 5)]) (history m) = true /\
  lin_check_vol true false (obs_of (m_vol m) [(1, None)] [(1, 5)]) (history m) = true /\
  lin_check_vol false false (obs_of (m_vol m) [(1, None)] [(1, 5)]) (history m) = false.
Proof. exact example_ro_ok. Qed.
Print Assumptions c38_example_read_only.
