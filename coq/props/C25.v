(* C25 — Filer HTTP writes store exactly the request body.
   Only statements closed by [exact]; proofs live in proof/FilerWriteProofs.v and proof/FilerWriteFs.v.

   The model (model/FilerWrite.v, the code in /repo) is
   parametric in the chunk size, the inline limit, the body and the md5 function;
   every theorem below holds for all of them (so also for the 1 MiB multiples the
   real autoChunk produces).  [read_entry] is the reference reader (inline
   content, else the chunks painted in order over max(FileSize, extent) zero
   bytes); [file_end] is that length; [existing rq pre] is the entry
   saveMetaData merges into (pre when op=append, else none).  Defined in the proof files:
   [no_upfail] no upload fails; [inline_cond] the first read is shorter than a chunk and below the
   limit or under /etc; [request_fails] the body reader failed or an upload failed; [wf_entry] every
   chunk's size is its data's length.  Every theorem is full: there is no partial one in this file. *)
From Coq Require Import List NArith ZArith Bool.
From SW Require Import model.FilerWrite proof.FilerWriteProofs proof.FilerWriteFs.
Import ListNotations.

(* a PUT/POST stores exactly the body: inline or chunked, EVERY chunk size >= 1,
   EVERY inline limit, /etc or not, replacing any previous entry *)
Theorem c25_stored_equals_body : forall md5 rq pre,
  rq_method rq <> PostRaw -> (1 <= rq_cs rq)%Z -> rq_end rq = Eof -> no_upfail (rq_upfail rq) ->
  existing rq pre = None ->
  exists e, handle_write md5 rq pre = (Created, Some e) /\
            read_entry e = rq_body rq /\
            e_size e = N.of_nat (length (rq_body rq)) /\
            e_md5 e = Some (md5 (rq_body rq)).
Proof. exact stored_equals_body. Qed.
Print Assumptions c25_stored_equals_body.

(* "at any chunk size": whenever autoChunk lets a request through, its int32 chunk
   size is m MiB for some m in 1..2047, not wrapped (that m is the maxMB asked for:
   c25_chunk_size_accepts, for 1..2047) *)
Theorem c25_chunk_size : forall q opt cs,
  auto_chunk_size q opt = Some cs ->
  (exists m, 1 <= m <= 2047 /\ cs = 1048576 * m /\ 1 <= cs)%Z.
Proof. exact auto_chunk_size_ok. Qed.
Print Assumptions c25_chunk_size.

(* ... and every maxMB in 1..2047 (query, or option when the query is absent) is accepted *)
Theorem c25_chunk_size_accepts : forall q opt,
  ((1 <= q <= 2047 -> auto_chunk_size q opt = Some (1048576 * q)) /\
   (q = 0 -> 1 <= opt <= 2047 -> auto_chunk_size q opt = Some (1048576 * opt)))%Z.
Proof. exact auto_chunk_size_accepts. Qed.
Print Assumptions c25_chunk_size_accepts.

(* an append places the new bytes immediately after the current end of the
   file, whatever the FileSize attribute of the existing chunked entry *)
Theorem c25_append_at_end : forall md5 rq e0,
  rq_method rq <> PostRaw -> (1 <= rq_cs rq)%Z -> rq_end rq = Eof -> no_upfail (rq_upfail rq) ->
  rq_append rq = true -> e_content e0 = [] -> wf_entry e0 ->
  exists e1, handle_write md5 rq (Some e0) = (Created, Some e1) /\
             read_entry e1 = read_entry e0 ++ rq_body rq /\
             file_end e1 = (file_end e0 + N.of_nat (length (rq_body rq)))%N /\
             e_size e1 = file_end e1.
Proof. exact append_at_end. Qed.
Print Assumptions c25_append_at_end.

(* an append to an entry with inline content is refused and changes nothing *)
Theorem c25_append_inline_refused : forall md5 rq e0 pre,
  rq_append rq = true -> pre = Some e0 -> e_content e0 <> [] ->
  handle_write md5 rq pre = (Failed, pre).
Proof. exact append_inline_refused. Qed.
Print Assumptions c25_append_inline_refused.

(* a request whose body fails part-way (the reader fails at any offset, with or
   without data in the failing Read), or for which upload_of reports an upload error, is
   reported as failed and nothing is committed; which inputs make an upload error:
   c25_upload_failure_detected *)
Theorem c25_fail_no_commit : forall md5 rq pre,
  (1 <= rq_cs rq)%Z -> request_fails rq = true ->
  handle_write md5 rq pre = (Failed, pre).
Proof. exact fail_no_commit. Qed.
Print Assumptions c25_fail_no_commit.

(* the failure of any chunk that is reached is noticed *)
Theorem c25_upload_failure_detected : forall md5 rq pre j,
  (1 <= rq_cs rq)%Z -> rq_end rq = Eof ->
  rq_append rq = true \/
  inline_cond (rq_cs rq) (rq_limit rq) (rq_etc rq) (length (rq_body rq)) = false ->
  nth j (rq_upfail rq) false = true ->
  (Z.of_nat j * rq_cs rq < Z.of_nat (length (rq_body rq)))%Z ->
  handle_write md5 rq pre = (Failed, pre).
Proof. exact upload_failure_detected. Qed.
Print Assumptions c25_upload_failure_detected.

(* every answer other than 201 leaves the stored entry as it was *)
Theorem c25_nonsuccess_no_commit : forall md5 rq pre st post,
  handle_write md5 rq pre = (st, post) -> st <> Created -> st = Failed /\ post = pre.
Proof. exact nonsuccess_no_commit. Qed.
Print Assumptions c25_nonsuccess_no_commit.

(* The store around the path: [handle_write_fs] adds saveMetaData's path fix
   (a URL path that is an existing directory receives "/" + fileName),
   Filer.CreateEntry's refusals and the fate of the uploaded chunks.
   [target fr st] is the entry under the resolved path, [slot_after fr st st']
   the same path in a later state, [other_after] the other of the two paths. *)

(* handle_write_fs is handle_write on the resolved path whenever neither saveMetaData
   (?op=append onto a directory) nor CreateEntry refuses *)
Theorem c25_fs_refines : forall md5 fr st,
  let rq := fr_rq fr in
  let pre := node_entry (target fr st) in
  append_onto_dir fr st = false ->
  (existing rq pre = None -> create_fails fr st = false) ->
  let r := handle_write_fs md5 fr st in
  fo_status r = fst (handle_write md5 rq pre) /\
  node_entry (slot_after fr st (fo_state r)) = snd (handle_write md5 rq pre) /\
  other_after fr st (fo_state r) = other_after fr st st.
Proof. exact fs_refines. Qed.
Print Assumptions c25_fs_refines.

(* a PUT/POST (or an append to a missing path) that CreateEntry accepts stores
   exactly the body as a regular file under the resolved path - also when the URL
   named a directory -, touches nothing else, leaves no chunk behind and hands
   exactly the replaced file's chunks to DeleteChunks *)
Theorem c25_fs_stored_equals_body : forall md5 fr st,
  let rq := fr_rq fr in
  rq_method rq <> PostRaw -> (1 <= rq_cs rq)%Z -> rq_end rq = Eof -> no_upfail (rq_upfail rq) ->
  existing rq (node_entry (target fr st)) = None -> create_fails fr st = false ->
  let r := handle_write_fs md5 fr st in
  exists e, fo_status r = Created /\
            slot_after fr st (fo_state r) = NFile e /\
            read_entry e = rq_body rq /\
            e_size e = N.of_nat (length (rq_body rq)) /\
            e_md5 e = Some (md5 (rq_body rq)) /\
            other_after fr st (fo_state r) = other_after fr st st /\
            fo_deleted r = [] /\ fo_leaked r = [] /\
            fo_replaced r = match target fr st with NFile e0 => e_chunks e0 | _ => [] end.
Proof. exact fs_stored_equals_body. Qed.
Print Assumptions c25_fs_stored_equals_body.

(* an append to a chunked FILE under the resolved path *)
Theorem c25_fs_append_at_end : forall md5 fr st e0,
  let rq := fr_rq fr in
  rq_method rq <> PostRaw -> (1 <= rq_cs rq)%Z -> rq_end rq = Eof -> no_upfail (rq_upfail rq) ->
  rq_append rq = true -> target fr st = NFile e0 -> e_content e0 = [] -> wf_entry e0 ->
  let r := handle_write_fs md5 fr st in
  exists e1, fo_status r = Created /\
             slot_after fr st (fo_state r) = NFile e1 /\
             read_entry e1 = read_entry e0 ++ rq_body rq /\
             file_end e1 = (file_end e0 + N.of_nat (length (rq_body rq)))%N /\
             e_size e1 = file_end e1 /\
             other_after fr st (fo_state r) = other_after fr st st /\
             fo_deleted r = [] /\ fo_leaked r = [] /\ fo_replaced r = [].
Proof. exact fs_append_at_end. Qed.
Print Assumptions c25_fs_append_at_end.

(* CreateEntry refuses (a regular file above the path, or a directory at the
   path): failed, nothing committed, exactly the uploaded chunks are handed
   to DeleteChunks, none is left behind *)
Theorem c25_fs_create_failure : forall md5 fr st,
  let rq := fr_rq fr in
  rq_method rq <> PostRaw -> ur_failed (upload_of rq) = false ->
  existing rq (node_entry (target fr st)) = None -> create_fails fr st = true ->
  let r := handle_write_fs md5 fr st in
  fo_status r = Failed /\ fo_state r = st /\
  fo_deleted r = ur_chunks (loop_of rq) /\ fo_leaked r = [] /\ fo_replaced r = [].
Proof. exact fs_create_failure. Qed.
Print Assumptions c25_fs_create_failure.

(* every answer other than 201 leaves both paths as they were *)
Theorem c25_fs_nonsuccess_no_commit : forall md5 fr st,
  fo_status (handle_write_fs md5 fr st) <> Created ->
  fo_status (handle_write_fs md5 fr st) = Failed /\ fo_state (handle_write_fs md5 fr st) = st.
Proof. exact fs_nonsuccess_no_commit. Qed.
Print Assumptions c25_fs_nonsuccess_no_commit.

(* an upload or body-read failure commits nothing and deletes nothing: the chunks
   uploaded before the failure stay on the volume servers, referenced by no entry
   (exact description of the code; a storage leak, not a truncated file) *)
Theorem c25_fs_upload_failure_leaks : forall md5 fr st,
  let rq := fr_rq fr in
  rq_method rq <> PostRaw -> ur_failed (upload_of rq) = true ->
  let r := handle_write_fs md5 fr st in
  fo_status r = Failed /\ fo_state r = st /\
  fo_deleted r = [] /\ fo_leaked r = ur_chunks (loop_of rq).
Proof. exact fs_upload_failure_leaks. Qed.
Print Assumptions c25_fs_upload_failure_leaks.

(* an append to an entry with inline content is refused, nothing committed *)
Theorem c25_fs_append_inline_refused : forall md5 fr st e0,
  let rq := fr_rq fr in
  rq_append rq = true -> node_entry (target fr st) = Some e0 -> e_content e0 <> [] ->
  let r := handle_write_fs md5 fr st in
  fo_status r = Failed /\ fo_state r = st /\
  (is_dir (target fr st) = false -> fo_deleted r = []).
Proof. exact fs_append_inline_refused. Qed.
Print Assumptions c25_fs_append_inline_refused.

(* every 201 leaves a regular file under the resolved path *)
Theorem c25_created_is_file : forall md5 fr st,
  fo_status (handle_write_fs md5 fr st) = Created ->
  exists e, slot_after fr st (fo_state (handle_write_fs md5 fr st)) = NFile e.
Proof. exact created_is_file. Qed.
Print Assumptions c25_created_is_file.

(* no request, whatever its answer, changes a directory entry under either path *)
Theorem c25_fs_dir_untouched : forall md5 fr st,
  let st' := fo_state (handle_write_fs md5 fr st) in
  (is_dir (fs_a st) = true -> fs_a st' = fs_a st) /\
  (is_dir (fs_b st) = true -> fs_b st' = fs_b st).
Proof. exact fs_dir_untouched. Qed.
Print Assumptions c25_fs_dir_untouched.

(* ?op=append whose resolved path holds a directory: failed, nothing committed, exactly the uploaded chunks are handed to DeleteChunks,
   none is left behind *)
Theorem c25_fs_append_dir_refused : forall md5 fr st,
  let rq := fr_rq fr in
  rq_method rq <> PostRaw -> ur_failed (upload_of rq) = false ->
  append_onto_dir fr st = true ->
  let r := handle_write_fs md5 fr st in
  fo_status r = Failed /\ fo_state r = st /\
  fo_deleted r = ur_chunks (loop_of rq) /\ fo_leaked r = [] /\ fo_replaced r = [].
Proof. exact fs_append_dir_refused. Qed.
Print Assumptions c25_fs_append_dir_refused.

(* POST /d?op=append (multipart, no file name) onto the directory /d *)
Example c25_example_append_dir_refused :
  let fr := mk_fr (mk_rq PostForm true false 2 0 [1;2;3]%N Eof []) false false false in
  let st := {| fs_a := NDir empty_dir; fs_b := NMissing |} in
  rq_method (fr_rq fr) <> PostRaw /\ ur_failed (upload_of (fr_rq fr)) = false /\
  append_onto_dir fr st = true /\
  handle_write_fs (fun _ => 0%N) fr st =
    {| fo_status := Failed; fo_state := st;
       fo_deleted := [Ck 0 2 [1;2]; Ck 2 1 [3]]%N; fo_leaked := []; fo_replaced := [] |}.
Proof. exact example_append_dir_refused. Qed.
Print Assumptions c25_example_append_dir_refused.

(* PUT /d onto a directory /d: the body lands under /d/d, /d stays a directory *)
Example c25_example_redirect :
  let fr := mk_fr (mk_rq Put false false 2 0 [1;2;3]%N Eof []) false true false in
  let st := {| fs_a := NDir empty_dir; fs_b := NMissing |} in
  create_fails fr st = false /\
  handle_write_fs (fun _ => 0%N) fr st =
    {| fo_status := Created;
       fo_state := {| fs_a := NDir empty_dir;
                      fs_b := NFile {| e_size := 3; e_content := [];
                                       e_chunks := [Ck 0 2 [1;2]; Ck 2 1 [3]]%N; e_md5 := Some 0%N |} |};
       fo_deleted := []; fo_leaked := []; fo_replaced := [] |}.
Proof. exact example_redirect. Qed.
Print Assumptions c25_example_redirect.

(* PUT below a regular file: failed, nothing committed, both uploaded chunks deleted *)
Example c25_example_parent_file :
  let fr := mk_fr (mk_rq Put false false 2 0 [1;2;3]%N Eof []) false true true in
  let st := {| fs_a := NMissing; fs_b := NMissing |} in
  create_fails fr st = true /\ ur_failed (upload_of (fr_rq fr)) = false /\
  handle_write_fs (fun _ => 0%N) fr st =
    {| fo_status := Failed; fo_state := st;
       fo_deleted := [Ck 0 2 [1;2]; Ck 2 1 [3]]%N; fo_leaked := []; fo_replaced := [] |}.
Proof. exact example_parent_file. Qed.
Print Assumptions c25_example_parent_file.

(* the second of two uploads fails: the first chunk stays behind, unreferenced *)
Example c25_example_leak :
  let fr := mk_fr (mk_rq Put false false 2 0 [1;2;3]%N Eof [false;true]) false true false in
  let st := {| fs_a := NMissing; fs_b := NMissing |} in
  ur_failed (upload_of (fr_rq fr)) = true /\
  handle_write_fs (fun _ => 0%N) fr st =
    {| fo_status := Failed; fo_state := st;
       fo_deleted := []; fo_leaked := [Ck 0 2 [1;2]%N]; fo_replaced := [] |}.
Proof. exact example_leak. Qed.
Print Assumptions c25_example_leak.

(* an append onto a file reached through a directory redirect is accepted *)
Example c25_example_append_redirected :
  let fr := mk_fr (mk_rq Put true false 2 0 [9]%N Eof []) false true false in
  let st := {| fs_a := NDir empty_dir;
               fs_b := NFile {| e_size := 0; e_content := []; e_chunks := [Ck 0 3 [1;2;3]%N]; e_md5 := None |} |} in
  append_onto_dir fr st = false /\
  handle_write_fs (fun _ => 0%N) fr st =
    {| fo_status := Created;
       fo_state := {| fs_a := NDir empty_dir;
                      fs_b := NFile {| e_size := 4; e_content := [];
                                       e_chunks := [Ck 0 3 [1;2;3]; Ck 3 1 [9]]%N; e_md5 := None |} |};
       fo_deleted := []; fo_leaked := []; fo_replaced := [] |}.
Proof. exact example_append_redirected. Qed.
Print Assumptions c25_example_append_redirected.

(* the length-level plan used for the 1 MiB cases is the shape of the byte-level model *)
Theorem c25_plan_is_shape : forall cs limit inl etc bytes e upfail,
  shape (upload_reader_to_chunks cs limit inl etc bytes e upfail) =
  plan_upload cs limit inl etc (N.of_nat (length bytes)) e upfail.
Proof. exact shape_upload. Qed.
Print Assumptions c25_plan_is_shape.

(* non-vacuity: small inputs evaluated *)

(* 7 bytes, chunk size 3, limit 2: three chunks 3+3+1 *)
Example c25_example_chunked :
  let rq := mk_rq PostForm false false 3 2 [1;2;3;4;5;6;7]%N Eof [false;false;false] in
  rq_method rq <> PostRaw /\ (1 <= rq_cs rq)%Z /\ rq_end rq = Eof /\ no_upfail (rq_upfail rq) /\
  existing rq None = None /\
  handle_write (fun l => N.of_nat (length l)) rq None =
    (Created, Some {| e_size := 7; e_content := [];
                      e_chunks := [Ck 0 3 [1;2;3]; Ck 3 3 [4;5;6]; Ck 6 1 [7]]%N; e_md5 := Some 7%N |}).
Proof. exact example_chunked. Qed.
Print Assumptions c25_example_chunked.

(* 2 bytes below the limit 5, chunk size 4: inline *)
Example c25_example_inline :
  let rq := mk_rq Put false false 4 5 [8;9]%N Eof [] in
  handle_write (fun l => N.of_nat (length l)) rq None =
    (Created, Some {| e_size := 2; e_content := [8;9]%N; e_chunks := []; e_md5 := Some 2%N |}).
Proof. exact example_inline. Qed.
Print Assumptions c25_example_inline.

(* limit 4 above the chunk size 2, body of 3 bytes: chunked, nothing dropped *)
Example c25_example_limit_above_chunk :
  let rq := mk_rq Put false false 2 4 [1;2;3]%N Eof [] in
  exists e, handle_write (fun _ => 0%N) rq None = (Created, Some e) /\
            e_content e = [] /\ read_entry e = [1;2;3]%N.
Proof. exact example_limit_above_chunk. Qed.
Print Assumptions c25_example_limit_above_chunk.

(* the same under /etc *)
Example c25_example_etc :
  let rq := mk_rq Put false true 2 0 [1;2;3]%N Eof [] in
  exists e, handle_write (fun _ => 0%N) rq None = (Created, Some e) /\ read_entry e = [1;2;3]%N.
Proof. exact example_etc. Qed.
Print Assumptions c25_example_etc.

(* append to an entry with chunk [0,3) and FileSize attribute 0 (as S3 multipart
   completion creates): the new byte lands at offset 3 *)
Example c25_example_append_filesize0 :
  let e0 := {| e_size := 0; e_content := []; e_chunks := [Ck 0 3 [97;98;99]%N]; e_md5 := None |} in
  let rq := mk_rq Put true false 4 0 [90]%N Eof [] in
  wf_entry e0 /\
  exists e1, handle_write (fun _ => 0%N) rq (Some e0) = (Created, Some e1) /\
             read_entry e1 = [97;98;99;90]%N /\ e_size e1 = 4%N.
Proof. exact example_append_filesize0. Qed.
Print Assumptions c25_example_append_filesize0.

(* the reader fails after 3 bytes: reported, nothing committed *)
Example c25_example_read_error :
  let rq := mk_rq Put false false 2 0 [1;2;3]%N ReadErr [] in
  request_fails rq = true /\ handle_write (fun _ => 0%N) rq None = (Failed, None).
Proof. exact example_read_error. Qed.
Print Assumptions c25_example_read_error.

(* the second upload fails: reported, nothing committed *)
Example c25_example_upload_failure :
  let rq := mk_rq Put false false 2 0 [1;2;3]%N Eof [false;true] in
  request_fails rq = true /\ handle_write (fun _ => 0%N) rq None = (Failed, None).
Proof. exact example_upload_failure. Qed.
Print Assumptions c25_example_upload_failure.

(* maxMB=2048 and maxMB=0 are rejected; 2047 is the largest accepted value *)
Example c25_example_maxmb :
  auto_chunk_size 2048 4 = None /\ auto_chunk_size 0 0 = None /\
  auto_chunk_size 2047 4 = Some 2146435072%Z /\ auto_chunk_size 0 4 = Some 4194304%Z.
Proof. exact example_maxmb. Qed.
Print Assumptions c25_example_maxmb.
