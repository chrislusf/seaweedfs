(* C34 — Volume server access control with signed tokens.
   Only statements closed by [exact]; proofs live in proof/JwtProofs.v.  The model
   (model/Jwt.v) is the code as it is: parseURLPath, the upload's own path reader, GetJwt,
   maybeCheckJwtAuthorization and the order of the steps of the three HTTP handlers,
   NewVolumeId / ParseNeedleIdCookie / ParsePath / ParseFileIdFromString as numbers; the JWT
   library is an oracle (token facts).

   c34_accept_sound (FULL): whenever the key of the request's class (write key for
   POST/PUT/DELETE, read key for GET/HEAD) is configured and a handler reaches the
   store, the request carries a well-formed, unexpired HMAC token signed with THAT key
   whose fid claim is textually "<vid>,<fid>" (after _n stripping) of the path.
   c34_names_target (FULL, every method): that claim DENOTES (ParseFileIdFromString) the volume
   and cookie the store operation is called with (the needle id only up to SOME added number;
   c34_names_exact and c34_suffix_adds say which).  A path whose volume id or file id does not
   parse is answered 400 after the token check (c34_delete_unparsed_bad_request).
   c34_reject_before_touch (FULL): a request whose check fails never reaches the store.
   Notions of the statements that are defined in proof/JwtProofs.v: valid_token_for (the
   token facts), no_us (no '_' in a string), is_proceed (the handler reached the store). *)
From Coq Require Import List NArith Bool String.
From SW Require Import model.Jwt proof.JwtProofs.
Import ListNotations.
Local Open Scope string_scope.

Theorem c34_accept_sound : forall tab cfg rq v f a,
  key_for cfg (is_write_method (rq_method rq)) <> "" ->
  handle tab cfg rq = Proceed v f a ->
  valid_token_for tab (key_for cfg (is_write_method (rq_method rq))) rq (v ++ "," ++ strip_suffix f).
Proof. exact accept_sound. Qed.
Print Assumptions c34_accept_sound.

(* what "Proceed v f a" stands for: v,f are parseURLPath's reading of the path, the check passed on
   them; for every method (reads, uploads, deletes) a is what NewVolumeId v / ParsePath f give (both
   succeed), an upload's own needle (CreateNeedleFromRequest) is that same needle; writes come through
   the private port and past the white list *)
Theorem c34_proceed_authorized : forall tab cfg rq v f a, handle tab cfg rq = Proceed v f a ->
  parse_url_path (rq_path rq) = Some (v, f) /\
  check_jwt tab cfg (is_write_method (rq_method rq)) rq v f = true /\
  (exists vol id ck, parse_vid v = Some vol /\ parse_path f = Some (id, ck) /\ a = (vol, id, ck)) /\
  (is_upload (rq_method rq) = true ->
     exists u, upload_fid (rq_path rq) = Some u /\ parse_path u = parse_path f) /\
  (is_write_method (rq_method rq) = true -> rq_public rq = false /\ whitelist_blocks cfg rq = false).
Proof. exact proceed_authorized. Qed.
Print Assumptions c34_proceed_authorized.

(* "names the target file", FULL for every method: the compared text denotes the volume and cookie
   the store is called with, and a needle id from which the addressed one differs by some d mod 2^64
   (d is not tied to the path here: every two ids below 2^64 differ by some d; c34_names_exact and
   c34_suffix_adds give d = 0 without a _suffix and d = n for "<fid>_<n>") *)
Theorem c34_names_target : forall tab cfg rq v f a,
  handle tab cfg rq = Proceed v f a ->
  exists vol id ck d, claim_den (v ++ "," ++ strip_suffix f) = Some (vol, id, ck) /\
  a = (vol, ((id + d) mod 2 ^ 64)%N, ck).
Proof. exact proceed_names_target. Qed.
Print Assumptions c34_names_target.

Theorem c34_accept_names_target : forall tab cfg rq v f a,
  key_for cfg (is_write_method (rq_method rq)) <> "" ->
  handle tab cfg rq = Proceed v f a ->
  exists t vol id ck d, lookup (get_jwt rq) tab = Some t /\
  decode_ok (key_for cfg (is_write_method (rq_method rq))) t = true /\
  claim_den (t_fid t) = Some (vol, id, ck) /\ a = (vol, ((id + d) mod 2 ^ 64)%N, ck).
Proof. exact accept_names_target. Qed.
Print Assumptions c34_accept_names_target.

(* corollary: under a configured key the store is not reached with a token whose claim denotes no file *)
Theorem c34_accept_claim_denotes : forall tab cfg rq v f a,
  key_for cfg (is_write_method (rq_method rq)) <> "" ->
  handle tab cfg rq = Proceed v f a ->
  exists t, lookup (get_jwt rq) tab = Some t /\ claim_den (t_fid t) <> None.
Proof. exact accept_claim_denotes. Qed.
Print Assumptions c34_accept_claim_denotes.

(* FULL for a file id without _suffix, every method: the claim denotes exactly the addressed needle *)
Theorem c34_names_exact : forall tab cfg rq v f a,
  handle tab cfg rq = Proceed v f a -> no_us f = true ->
  claim_den (v ++ "," ++ strip_suffix f) = Some a.
Proof. exact proceed_names_exact. Qed.
Print Assumptions c34_names_exact.

(* for every method: a path whose volume id or file id does not parse
   never reaches the store; an authorized DELETE of such a path is answered 400 *)
Theorem c34_unparsed_not_proceed : forall tab cfg rq v f,
  parse_url_path (rq_path rq) = Some (v, f) ->
  parse_vid v = None \/ parse_path f = None ->
  is_proceed (handle tab cfg rq) = false.
Proof. exact unparsed_not_proceed. Qed.
Print Assumptions c34_unparsed_not_proceed.

Theorem c34_delete_unparsed_bad_request : forall tab cfg rq v f,
  rq_method rq = DELETE -> rq_public rq = false -> whitelist_blocks cfg rq = false ->
  parse_url_path (rq_path rq) = Some (v, f) ->
  check_jwt tab cfg true rq v f = true ->
  parse_vid v = None \/ parse_path f = None ->
  handle tab cfg rq = BadRequest.
Proof. exact delete_unparsed_bad_request. Qed.
Print Assumptions c34_delete_unparsed_bad_request.

Theorem c34_claim_den_app : forall v b vol id ck,
  parse_vid v = Some vol -> parse_nic b = Some (id, ck) -> claim_den (v ++ "," ++ b) = Some (vol, id, ck).
Proof. exact claim_den_app. Qed.
Print Assumptions c34_claim_den_app.

Theorem c34_suffix_adds : forall base n id ck d,
  no_us n = true -> n <> "" -> parse_nic base = Some (id, ck) -> parse_uint false 64 n = Some d ->
  parse_path (base ++ String c_us n) = Some (((id + d) mod 2 ^ 64)%N, ck).
Proof. exact parse_path_suffix_adds. Qed.
Print Assumptions c34_suffix_adds.

(* an upload addressed (by its own path reader) to another needle is refused *)
Theorem c34_upload_other_needle_refused : forall tab cfg rq v f u,
  is_upload (rq_method rq) = true ->
  parse_url_path (rq_path rq) = Some (v, f) -> upload_fid (rq_path rq) = Some u ->
  parse_path u <> parse_path f ->
  is_proceed (handle tab cfg rq) = false.
Proof. exact upload_other_needle_refused. Qed.
Print Assumptions c34_upload_other_needle_refused.

(* FULL: a request whose check fails is answered 401 (400 when an
   upload's volume id does not parse first; not routed on the public port) — the store step
   is not reached *)
Theorem c34_reject_before_touch : forall tab cfg rq vid fid,
  parse_url_path (rq_path rq) = Some (vid, fid) ->
  check_jwt tab cfg (is_write_method (rq_method rq)) rq vid fid = false ->
  handle tab cfg rq = Unauthorized \/
  (handle tab cfg rq = BadRequest /\ is_upload (rq_method rq) = true /\ parse_vid vid = None) \/
  (handle tab cfg rq = NoRoute /\ is_write_method (rq_method rq) = true /\ rq_public rq = true).
Proof. exact reject_before_touch. Qed.
Print Assumptions c34_reject_before_touch.

Theorem c34_reject_not_proceed : forall tab cfg rq vid fid,
  parse_url_path (rq_path rq) = Some (vid, fid) ->
  check_jwt tab cfg (is_write_method (rq_method rq)) rq vid fid = false ->
  is_proceed (handle tab cfg rq) = false.
Proof. exact reject_not_proceed. Qed.
Print Assumptions c34_reject_not_proceed.

Theorem c34_panic_not_proceed : forall tab cfg rq, parse_url_path (rq_path rq) = None ->
  is_proceed (handle tab cfg rq) = false.
Proof. exact panic_not_proceed. Qed.
Print Assumptions c34_panic_not_proceed.

Theorem c34_check_sound : forall tab cfg w rq vid fid,
  key_for cfg w <> "" -> check_jwt tab cfg w rq vid fid = true ->
  valid_token_for tab (key_for cfg w) rq (vid ++ "," ++ strip_suffix fid).
Proof. exact check_jwt_sound. Qed.
Print Assumptions c34_check_sound.

Theorem c34_no_key_allows : forall tab cfg w rq vid fid, key_for cfg w = "" -> check_jwt tab cfg w rq vid fid = true.
Proof. exact check_jwt_no_key. Qed.
Print Assumptions c34_no_key_allows.

Theorem c34_missing_token_refused : forall tab cfg w rq vid fid, key_for cfg w <> "" -> get_jwt rq = "" ->
  check_jwt tab cfg w rq vid fid = false.
Proof. exact check_jwt_missing. Qed.
Print Assumptions c34_missing_token_refused.

(* token source: the query parameter wins; otherwise the Authorization header after a 7-character
   prefix whose first six letters are "bearer" in any case *)
Theorem c34_token_source : forall rq,
  (rq_query_jwt rq <> "" /\ get_jwt rq = rq_query_jwt rq) \/
  (rq_query_jwt rq = "" /\
   ((7 < String.length (rq_auth rq) /\ upper_s (substring 0 6 (rq_auth rq)) = "BEARER" /\
     get_jwt rq = substring 7 (String.length (rq_auth rq) - 7) (rq_auth rq)) \/
    get_jwt rq = "")).
Proof. exact get_jwt_source. Qed.
Print Assumptions c34_token_source.

(* the sub-file suffix: a token for "<fid>" opens "<fid>_<n>" *)
Theorem c34_suffix_ignored : forall tab cfg w rq vid base n,
  base <> "" -> no_us base = true -> no_us n = true ->
  check_jwt tab cfg w rq vid (base ++ String c_us n) = check_jwt tab cfg w rq vid base.
Proof. exact check_jwt_suffix. Qed.
Print Assumptions c34_suffix_ignored.

(* a write token whose claim repeats the unparsable text of the path: 400
   before the store, volume 0 / needle 1 untouched; beside it the same path on GET and PUT *)
Example c34_repaired_delete_witness :
  check_jwt r_tab w_cfg true r_rq "x3" "01637037d6" = true /\
  claim_den "x3,01637037d6" = None /\
  handle r_tab w_cfg r_rq = BadRequest /\
  store_step (handle r_tab w_cfg r_rq) DELETE
    {| w_vols := [0%N; 3%N]; w_live := [{| n_vol := 0; n_id := 1; n_ck := 1668298710; n_content := 1 |}] |}
  = {| e_status := 400; e_live := [{| n_vol := 0; n_id := 1; n_ck := 1668298710; n_content := 1 |}]; e_disclosed := [] |} /\
  handle [("T", mk_tok "3,zz637037d6")] w_cfg (mk_rq DELETE "/3,zz637037d6") = BadRequest /\
  handle [("T", mk_tok "3,01637037d6")] w_cfg (mk_rq DELETE "/3,01637037d6_x") = BadRequest /\
  handle r_tab w_cfg (mk_rq GET "/x3,01637037d6") = BadRequest /\
  handle r_tab {| write_key := ""; read_key := w_key; wl_active := false |} (mk_rq GET "/x3,01637037d6") = BadRequest /\
  handle r_tab w_cfg (mk_rq PUT "/x3,01637037d6") = BadRequest.
Proof. exact repaired_delete_witness. Qed.
Print Assumptions c34_repaired_delete_witness.

(* a token for file 1 with an upload path whose file name carries file 2 is refused with 400 *)
Example c34_repaired_witness :
  parse_url_path (rq_path w_rq) = Some ("3", "01637037d6") /\
  upload_fid (rq_path w_rq) = Some "02637037d6" /\
  parse_path "01637037d6" = Some (1, 1668298710)%N /\ parse_path "02637037d6" = Some (2, 1668298710)%N /\
  handle [("T", w_tok)] w_cfg w_rq = BadRequest.
Proof. exact repaired_witness. Qed.
Print Assumptions c34_repaired_witness.

(* non-vacuity (the hypotheses of c34_names_target / c34_accept_names_target hold on the first request,
   a DELETE which addresses needle 2 under the token of needle 1 through "_1"); the comparison is textual, so "03,..." is refused
   although it denotes the same file (stricter than needed) *)
Example c34_example :
  let rq := {| rq_public := false; rq_method := DELETE; rq_query_jwt := ""; rq_auth := "Bearer T";
               rq_path := "/3,01637037d6_1"; rq_wl_pass := false |} in
  let up := mk_rq PUT "/3,01637037d6.txt" in
  handle [("T", w_tok)] w_cfg rq = Proceed "3" "01637037d6_1" (3, 2, 1668298710)%N /\
  handle [("T", w_tok)] w_cfg up = Proceed "3" "01637037d6" (3, 1, 1668298710)%N /\
  claim_den "3,01637037d6" = Some (3, 1, 1668298710)%N /\ claim_den "03,01637037d6" = Some (3, 1, 1668298710)%N /\
  handle [("T", mk_tok "03,01637037d6")] w_cfg rq = Unauthorized /\
  handle [("T", {| t_wellformed := true; t_alg := AlgNone; t_signed_with := ""; t_exp_ok := true; t_nbf_ok := true;
                   t_iat_ok := true; t_fid := "3,01637037d6"; t_den := None; t_names_target := true |})] w_cfg rq = Unauthorized /\
  handle [] w_cfg rq = Unauthorized.
Proof. exact accept_example. Qed.
Print Assumptions c34_example.
