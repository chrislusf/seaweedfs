(* C04 — Compaction is invisible to readers.
   Only statements closed by [exact]; proofs live in proof/Compaction*.v.

   [g]                      the volume's configuration: its TTL
   [h1] [h2]                writes / deletes before the compaction and between Compact and CommitCompact
                            (each with the clock reading that becomes AppendAtNs)
   [al]                     Scan = Volume.Compact, Index = Volume.Compact2
   [now_s] [now_r]          the clock Compact reads (s) and the clock of the reads after the commit (ns)
   [ord]                    the order in which makeupDiff iterates its Go map: any permutation of the touched keys
   [compacted g al now_s ord h1 h2]   the volume after run h1; Compact; run h2; CommitCompact (rename + reload)
   [twin g h1 h2]                     the volume after run (h1 ++ h2), never compacted
   [read_of st now_r id]              what Store.ReadVolumeNeedle gives: Some (count, needle) or None          *)
From Coq Require Import List NArith ZArith Bool Permutation.
From SW Require Import model.Volume model.Compaction.
From SW Require Import proof.CompactionInv proof.CompactionRead proof.CompactionCopy proof.CompactionMakeup proof.CompactionProofs proof.CompactionTail proof.CompactionIl.
Import ListNotations.
Local Open Scope N_scope.

(* For EVERY pair of histories, both algorithms, every map iteration order: each key reads the same
   (same count, data, cookie, flags, name, mime, pairs, last-modified, TTL; or unreadable on both)
   on the compacted volume as on the never-compacted one -- provided
     no empty payload is written                                           (finding 0),
     the TTL filter of the copy loop drops only what a read already refuses (finding 1),
     the integrity check of the reload leaves the new files alone           (finding 2, scan-based copy). *)
Theorem c04_invisible_partial : forall g al now_s now_r ord h1 h2,
  Permutation ord (default_ord g h1 h2) ->
  has_empty (h1 ++ h2) = false ->
  ttl_consistent (g_vttl g) now_s now_r h1 = true ->
  reload_noop g al now_s ord h1 h2 = true ->
  forall id, read_of (compacted g al now_s ord h1 h2) now_r id = read_of (twin g h1 h2) now_r id.
Proof. exact invisible_partial. Qed.
Print Assumptions c04_invisible_partial.

(* The same PER KEY and with writers running DURING the copy loop (Volume.Compact takes no lock:
   VisitNeedle consults the live needle map while writers append).  [sched] lists, for the visit of
   the 1st, 2nd, ... record, the writes/deletes that complete between the scanner reading that record
   and VisitNeedle looking the key up; records appended during the scan are visited too; h2 are the
   operations after the copy loop.  For every schedule, history, algorithm and map order, a key reads
   the same after the commit as on the never-compacted volume provided
     no empty payload was written TO THIS KEY                                  (finding 0, per key),
     no needle OF THIS KEY written before the compaction is dropped by the TTL
       filter while a read still returns it                                    (finding 1, per key),
     the integrity check of the reload leaves the new files alone              (finding 2).
   What happens to other keys (empty blobs, TTL drops) does not matter.  With [sched = []] the files
   are those of the phase-structured run (c04_interleaved_nil), so this subsumes c04_invisible_partial. *)
Theorem c04_invisible_key_interleaved : forall g al now_s now_r ord h1 sched h2 id,
  Permutation ord (default_ord g h1 (concat sched ++ h2)) ->
  no_empty_on id (h1 ++ concat sched ++ h2) = true ->
  ttl_consistent_on id (g_vttl g) now_s now_r h1 = true ->
  check_noop (check_files (compacted_files_il g al now_s ord h1 sched h2)) = true ->
  read_of (commit (compacted_files_il g al now_s ord h1 sched h2)) now_r id =
  read_of (twin g h1 (concat sched ++ h2)) now_r id.
Proof. exact invisible_il_key. Qed.
Print Assumptions c04_invisible_key_interleaved.

(* without writers during the copy loop the files are those of the phase-structured run *)
Theorem c04_interleaved_nil : forall g al now_s ord h1 h2,
  compacted_files_il g al now_s ord h1 [] h2 = compacted_files g al now_s ord h1 h2.
Proof. exact compacted_files_il_nil. Qed.
Print Assumptions c04_interleaved_nil.

(* the history-wide hypotheses imply the per-key ones, for every key *)
Theorem c04_key_hypotheses_weaker : forall (id : N) (vt : N * N) (now_s now_r : N) (h1 h : list cevent),
  (has_empty h = false -> no_empty_on id h = true) /\
  (ttl_consistent vt now_s now_r h1 = true -> ttl_consistent_on id vt now_s now_r h1 = true).
Proof. exact key_hypotheses_weaker. Qed.
Print Assumptions c04_key_hypotheses_weaker.

(* ... strictly: an empty blob on key 1 (finding 0) leaves the guarantee for key 2 intact *)
Example c04_key_narrowing :
  has_empty (w_empty_h1 ++ []) = true /\
  no_empty_on 2 (w_empty_h1 ++ concat [] ++ []) = true /\
  ttl_consistent_on 2 (g_vttl g4) 1000 (1001 * sec) w_empty_h1 = true /\
  check_noop (check_files (compacted_files_il g4 Index 1000 [] w_empty_h1 [] [])) = true /\
  read_of (commit (compacted_files_il g4 Index 1000 [] w_empty_h1 [] [])) (1001 * sec) 2 =
  Some (1%Z, view_of (nd 2 [7] 8 1000 (0, 0))).
Proof. exact key_narrowing_ok. Qed.
Print Assumptions c04_key_narrowing.

(* non-vacuity of the interleaved theorem: during a scan-based compaction key 1 is overwritten after
   its record was copied, key 2 is deleted before the scanner reaches it, key 4 is created (its record
   is visited by the scanner AND replayed by makeupDiff: 7 records in the new .dat); all hypotheses
   hold for every key and every key reads the same *)
Example c04_interleaved_example :
  let ord := default_ord g4 il_h1 (concat il_sched ++ []) in
  let F := compacted_files_il g4 Scan 1000 ord il_h1 il_sched [] in
  forallb (fun k => no_empty_on k (il_h1 ++ concat il_sched ++ []) &&
                    ttl_consistent_on k (g_vttl g4) 1000 (1001 * sec) il_h1) [1; 2; 3; 4] = true /\
  check_noop (check_files F) = true /\
  length (f_recs F) = 7%nat /\
  map (fun k => option_map fst (read_of (commit F) (1001 * sec) k)) [1; 2; 3; 4] = [Some 2%Z; None; Some 1%Z; Some 1%Z] /\
  map (fun k => option_map fst (read_of (twin g4 il_h1 (concat il_sched ++ [])) (1001 * sec) k)) [1; 2; 3; 4]
  = [Some 2%Z; None; Some 1%Z; Some 1%Z].
Proof. exact il_example_ok. Qed.
Print Assumptions c04_interleaved_example.

(* For the algorithm the volume server uses (Compact2, index-based) and histories of writes and
   deletes, the last hypothesis always holds: the reload check changes nothing.  So for Compact2
   the partial theorem has hypotheses on the history only. *)
Theorem c04_index_reload_noop : forall g now_s ord h1 h2,
  Permutation ord (default_ord g h1 h2) ->
  no_pad (h1 ++ h2) = true ->
  reload_noop g Index now_s ord h1 h2 = true.
Proof. exact index_reload_noop. Qed.
Print Assumptions c04_index_reload_noop.

(* The full statement is false; each hypothesis is needed on its own (the other two hold). *)
(* finding 0: an empty blob reads as present (0 bytes) without compaction, as absent after it *)
Theorem c04_invisible_refuted_empty : exists g al now_s now_r ord h1 h2 id,
  Permutation ord (default_ord g h1 h2) /\
  ttl_consistent (g_vttl g) now_s now_r h1 = true /\
  reload_noop g al now_s ord h1 h2 = true /\
  read_of (compacted g al now_s ord h1 h2) now_r id <> read_of (twin g h1 h2) now_r id.
Proof.
  exact (ex_intro _ g4 (ex_intro _ Index (ex_intro _ 1000 (ex_intro _ (1001 * sec) (ex_intro _ []
        (ex_intro _ w_empty_h1 (ex_intro _ [] (ex_intro _ 1 refuted_empty_neq)))))))).
Qed.
Print Assumptions c04_invisible_refuted_empty.

(* finding 1: a needle with a 3-day TTL in a volume without TTL is dropped while still readable *)
Theorem c04_invisible_refuted_ttl : exists g al now_s now_r ord h1 h2 id,
  Permutation ord (default_ord g h1 h2) /\
  has_empty (h1 ++ h2) = false /\
  reload_noop g al now_s ord h1 h2 = true /\
  read_of (compacted g al now_s ord h1 h2) now_r id <> read_of (twin g h1 h2) now_r id.
Proof.
  exact (ex_intro _ g4 (ex_intro _ Index (ex_intro _ 1000 (ex_intro _ (1001 * sec) (ex_intro _ []
        (ex_intro _ w_ttl_h1 (ex_intro _ [] (ex_intro _ 1 refuted_ttl_neq)))))))).
Qed.
Print Assumptions c04_invisible_refuted_ttl.

(* finding 2: scan-based copy, the largest key is not the last record: the reload truncates the .dat *)
Theorem c04_invisible_refuted_scan : exists g al now_s now_r ord h1 h2 id,
  Permutation ord (default_ord g h1 h2) /\
  has_empty (h1 ++ h2) = false /\ ttl_consistent (g_vttl g) now_s now_r h1 = true /\
  read_of (compacted g al now_s ord h1 h2) now_r id <> read_of (twin g h1 h2) now_r id.
Proof.
  exact (ex_intro _ g4 (ex_intro _ Scan (ex_intro _ 1000 (ex_intro _ (1001 * sec) (ex_intro _ []
        (ex_intro _ w_scan_h1 (ex_intro _ [] (ex_intro _ 1 refuted_scan_neq)))))))).
Qed.
Print Assumptions c04_invisible_refuted_scan.

(* a write beyond 32 GiB (a hole in the old .dat) while the compaction runs reads the same on both
   volumes, for both iteration orders of the map (makeupDiff replaces the whole offset, also with
   5-byte offsets) *)
Theorem c04_beyond_32g_repaired : forall ord, ord = [2; 3] \/ ord = [3; 2] ->
  reload_noop g4 Index 1000 ord w_hi_h1 w_hi_h2 = true /\
  map (read_of (compacted g4 Index 1000 ord w_hi_h1 w_hi_h2) (1001 * sec)) [1; 2; 3] =
  map (read_of (twin g4 w_hi_h1 w_hi_h2) (1001 * sec)) [1; 2; 3] /\
  read_of (twin g4 w_hi_h1 w_hi_h2) (1001 * sec) 2 = Some (1%Z, view_of (nd 2 [7] 8 1000 (0, 0))).
Proof. exact beyond_32g_ok. Qed.
Print Assumptions c04_beyond_32g_repaired.

(* the witnesses of findings 0 and 2 in full (that of finding 1: refuted_ttl in proof/CompactionProofs.v) *)
Theorem c04_witness_empty :
  Permutation [] (default_ord g4 w_empty_h1 []) /\
  ttl_consistent (g_vttl g4) 1000 (1001 * sec) w_empty_h1 = true /\
  reload_noop g4 Index 1000 [] w_empty_h1 [] = true /\
  read_of (compacted g4 Index 1000 [] w_empty_h1 []) (1001 * sec) 1 = None /\
  read_of (twin g4 w_empty_h1 []) (1001 * sec) 1 = Some (0%Z, blank_view 0).
Proof. exact refuted_empty. Qed.
Print Assumptions c04_witness_empty.

Theorem c04_witness_scan :
  Permutation [] (default_ord g4 w_scan_h1 []) /\
  has_empty (w_scan_h1 ++ []) = false /\
  ttl_consistent (g_vttl g4) 1000 (1001 * sec) w_scan_h1 = true /\
  check_files (compacted_files g4 Scan 1000 [] w_scan_h1 []) = (0%nat, Some 48, false) /\
  read_of (compacted g4 Scan 1000 [] w_scan_h1 []) (1001 * sec) 1 = None /\
  read_of (twin g4 w_scan_h1 []) (1001 * sec) 1 = Some (1%Z, view_of (nd 1 [7] 8 1000 (0, 0))).
Proof. exact refuted_scan. Qed.
Print Assumptions c04_witness_scan.

(* A deleted blob is never resurrected: FULL -- any histories, payloads, TTLs, sizes, either
   algorithm, any map order, whatever the integrity check does.  A key whose needle-map entry
   is a tombstone on the never-compacted volume cannot be read after the commit (this covers
   deletes issued while the compaction runs, which reach the new files through makeupDiff). *)
Theorem c04_no_resurrect : forall g al now_s now_r ord h1 h2 id,
  Permutation ord (default_ord g h1 h2) ->
  (exists nv, nm_get (nm (twin g h1 h2)) id = Some nv /\ (nv_size nv < 0)%Z) ->
  read_of (compacted g al now_s ord h1 h2) now_r id = None.
Proof. exact no_resurrect. Qed.
Print Assumptions c04_no_resurrect.

(* ... and in terms of the history: the last operation on the key is a delete and no empty
   payload was ever written to it *)
Theorem c04_no_resurrect_history : forall g al now_s now_r ord h1 h2 id,
  Permutation ord (default_ord g h1 h2) ->
  last_is_delete id (h1 ++ h2) = true ->
  no_empty_on id (h1 ++ h2) = true ->
  read_of (compacted g al now_s ord h1 h2) now_r id = None.
Proof. exact no_resurrect_history. Qed.
Print Assumptions c04_no_resurrect_history.

(* non-vacuity: a history with overwrite, delete and a TTL needle before the compaction and a
   rewrite, a delete and a new key during it satisfies all hypotheses, for both algorithms *)
Example c04_example : forall al,
  let ord := default_ord g4 ex_h1 ex_h2 in
  has_empty (ex_h1 ++ ex_h2) = false /\
  ttl_consistent (g_vttl g4) 1000 (1001 * sec) ex_h1 = true /\
  reload_noop g4 al 1000 ord ex_h1 ex_h2 = true /\
  map (fun k => option_map fst (read_of (compacted g4 al 1000 ord ex_h1 ex_h2) (1001 * sec) k)) [1; 2; 3; 4; 5]
  = [None; Some 1%Z; None; Some 1%Z; None] /\
  map (fun k => option_map fst (read_of (twin g4 ex_h1 ex_h2) (1001 * sec) k)) [1; 2; 3; 4; 5]
  = [None; Some 1%Z; None; Some 1%Z; None].
Proof. exact example_ok. Qed.
Print Assumptions c04_example.
