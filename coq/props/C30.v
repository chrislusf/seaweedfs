(* C30 — Mount write buffering preserves POSIX byte semantics.
   Only statements closed by [exact]; proofs live in proof/DirtyPages*.v.

   Vocabulary (model/DirtyPages.v; wf, cat: proof/DirtyPagesIntervals.v; op_ok: proof/DirtyPagesState.v;
   latest: proof/DirtyPagesMem.v):
     m_* = in-memory buffer (ContinuousIntervals / ContinuousDirtyPages), t_* = temp-file buffer
     wf P valid c     every list of c is a non-empty chain of valid, contiguous nodes, and the lists are
                      pairwise disjoint and NOT adjacent (sepd l m := te l < hd m \/ te m < hd l)
     cat ... c p      the byte the buffer holds for file offset p (None = not buffered)
     latest ws p      the byte of the last write of ws that covers p
     exec / run       the model run on a history of Write / Trunc / Flush / Read
     pfile ops        the POSIX file (list of bytes) after the history
     op_ok            the domain: writes are NON-EMPTY (the mount never issues zero-length writes) and
                      offsets / sizes are non-negative
     m_trigger/t_trigger = None   the history meets none of the known findings' triggers:
                      0 truncate below the file size while a dirty list reaches beyond the new size
                      1 a Read served from a stale visible-interval cache
     xop / m_xrun / m_xtrigger   extended histories: WriteRead off data roff rlen = a Write followed by a Read that
                      arrives while the chunk uploads started by that Write are still in flight (FileHandle.Read
                      does not wait for the writers); FlushClose = the real FileHandle.Flush (compaction + CreateEntry)
                      2 (extended histories only) a WriteRead whose Write started a save
                    (File.Setattr, weed/filesys/file.go, keeps the chunks that lie wholly inside the new
                     size; witness w_kept: trigger-free, resolves to the POSIX file) *)
From Coq Require Import List ZArith NArith Bool.
From SW Require Import proof.DirtyPagesProofs proof.DirtyPagesInflight.
Import ListNotations.
Local Open Scope Z_scope.

(* along EVERY history the interval lists are contiguous, pairwise disjoint and non-adjacent *)
Theorem c30_lists_wellformed_mem : forall limit ops, Forall op_ok ops ->
  wf (list N) m_valid (m_iv (exec mstate (m_step limit) mstate0 ops)).
Proof. exact m_lists_wellformed. Qed.
Print Assumptions c30_lists_wellformed_mem.

Theorem c30_lists_wellformed_temp : forall limit ops, Forall op_ok ops ->
  let s := exec tstate (t_step limit) tstate0 ops in
  wf Z (t_valid (t_file s)) (t_iv s) /\ (t_tf s = None -> t_iv s = []).
Proof. exact t_lists_wellformed. Qed.
Print Assumptions c30_lists_wellformed_temp.

(* AddInterval on any well-formed collection: well-formed again, and the buffer holds the new bytes
   on the written range and what it held before elsewhere *)
Theorem c30_add_interval_mem : forall c off data, wf (list N) m_valid c -> data <> [] ->
  wf (list N) m_valid (m_add c (m_node off data)) /\
  forall p, cat (list N) m_fetch (m_add c (m_node off data)) p =
            if (off <=? p) && (p <? off + zlen data) then zget data (p - off) else cat (list N) m_fetch c p.
Proof. exact m_add_spec. Qed.
Print Assumptions c30_add_interval_mem.

Theorem c30_add_interval_temp : forall tf c off data, wf Z (t_valid tf) c -> data <> [] ->
  wf Z (t_valid (tf ++ data)) (t_add c (t_node off data tf)) /\
  forall p, cat Z (t_fetch (tf ++ data)) (t_add c (t_node off data tf)) p =
            if (off <=? p) && (p <? off + zlen data) then zget data (p - off) else cat Z (t_fetch tf) c p.
Proof. exact t_add_spec. Qed.
Print Assumptions c30_add_interval_temp.

(* ReadDataAt of the dirty pages alone (FileHandle.Read is further down): for every sequence of non-empty
   writes it returns, for every buffered position, the LATEST write, and leaves the caller's buffer elsewhere *)
Theorem c30_read_is_posix_mem : forall ws buf so i, Forall (fun w => snd w <> []) ws -> 0 <= i < zlen buf ->
  zget (fst (read_data_at (list N) m_fetch (m_adds ws []) buf so)) i =
  match latest ws (so + i) with Some b => Some b | None => zget buf i end.
Proof. exact m_read_is_posix. Qed.
Print Assumptions c30_read_is_posix_mem.

Theorem c30_read_is_posix_temp : forall ws buf so i, Forall (fun w => snd w <> []) ws -> 0 <= i < zlen buf ->
  zget (fst (t_dirty_read (t_adds ws tstate0) buf so)) i =
  match latest ws (so + i) with Some b => Some b | None => zget buf i end.
Proof. exact t_read_is_posix. Qed.
Print Assumptions c30_read_is_posix_temp.

(* ReadDataAt on any well-formed collection: length kept, overlay of the buffered bytes,
   maxStop lies beyond every buffered position of the window *)
Theorem c30_read_data_at_mem : forall c buf so, wf (list N) m_valid c ->
  zlen (fst (read_data_at (list N) m_fetch c buf so)) = zlen buf /\
  (forall i, 0 <= i < zlen buf ->
     zget (fst (read_data_at (list N) m_fetch c buf so)) i =
     match cat (list N) m_fetch c (so + i) with Some b => Some b | None => zget buf i end) /\
  (forall p b, so <= p < so + zlen buf -> cat (list N) m_fetch c p = Some b ->
     p < snd (read_data_at (list N) m_fetch c buf so)).
Proof. exact m_read_data_at. Qed.
Print Assumptions c30_read_data_at_mem.

(* FULL statement: for every history in the domain, after a Flush the stored chunks resolve
   (last saved wins, zeros in holes, length = filer.FileSize) to the POSIX file.
   It is REFUTED for both buffers; the strongest true statement is the partial one below. *)
Theorem c30_flush_is_posix_refuted_mem : exists limit pre, 0 < limit /\ Forall op_ok (pre ++ [Flush]) /\
  content_of (m_meta (exec mstate (m_step limit) mstate0 (pre ++ [Flush]))) <> pfile (pre ++ [Flush]).
Proof. exact m_flush_refuted. Qed.
Print Assumptions c30_flush_is_posix_refuted_mem.

Theorem c30_flush_is_posix_refuted_temp : exists limit pre, 0 < limit /\ Forall op_ok (pre ++ [Flush]) /\
  content_of (t_meta (exec tstate (t_step limit) tstate0 (pre ++ [Flush]))) <> pfile (pre ++ [Flush]).
Proof. exact t_flush_refuted. Qed.
Print Assumptions c30_flush_is_posix_refuted_temp.

(* PARTIAL: every history that meets neither trigger 0 (a truncate cutting into, or before, data that is
   still dirty) nor trigger 1 (a Read served from a view cache computed before a chunk change).  post is there so that the theorem applies to every Flush of a trigger-free history as it
   stands; post = [] is the strongest instance. *)
Theorem c30_flush_is_posix_partial_mem : forall limit pre post,
  Forall op_ok (pre ++ Flush :: post) ->
  m_trigger limit (pre ++ Flush :: post) = None ->
  content_of (m_meta (exec mstate (m_step limit) mstate0 (pre ++ [Flush]))) = pfile (pre ++ [Flush]).
Proof. exact m_flush_is_posix. Qed.
Print Assumptions c30_flush_is_posix_partial_mem.

Theorem c30_flush_is_posix_partial_temp : forall limit pre post, 0 < limit ->
  Forall op_ok (pre ++ Flush :: post) ->
  t_trigger limit (pre ++ Flush :: post) = None ->
  content_of (t_meta (exec tstate (t_step limit) tstate0 (pre ++ [Flush]))) = pfile (pre ++ [Flush]).
Proof. exact t_flush_is_posix. Qed.
Print Assumptions c30_flush_is_posix_partial_temp.

(* FileHandle.Read (chunk layer + dirty overlay): the full statement "every read returns the POSIX bytes"
   is refuted by the never-refreshed visible-interval cache (trigger 1) *)
Theorem c30_handle_read_refuted : exists limit ops, 0 < limit /\ Forall op_ok ops /\
  m_trigger limit ops = Some 1%N /\ t_trigger limit ops = Some 1%N /\
  read_data (last (m_run limit ops) (OTrunc [] 0)) <> pread (pfile ops) 0 8 /\
  read_data (last (t_run limit ops) (OTrunc [] 0)) <> pread (pfile ops) 0 8.
Proof. exact handle_read_refuted. Qed.
Print Assumptions c30_handle_read_refuted.

(* PARTIAL: on every trigger-free history each Read (offset >= 0, length > 0) returns exactly the
   POSIX bytes of its window (short at the end of the file) *)
Theorem c30_handle_read_partial_mem : forall limit pre off len post,
  Forall op_ok (pre ++ Read off len :: post) -> 0 <= off -> 0 < len ->
  m_trigger limit (pre ++ Read off len :: post) = None ->
  exists d ms, snd (m_step limit (exec mstate (m_step limit) mstate0 pre) (Read off len))
               = ORead d ms (pread (pfile pre) off len).
Proof. exact m_read_is_posix_history. Qed.
Print Assumptions c30_handle_read_partial_mem.

Theorem c30_handle_read_partial_temp : forall limit pre off len post, 0 < limit ->
  Forall op_ok (pre ++ Read off len :: post) -> 0 <= off -> 0 < len ->
  t_trigger limit (pre ++ Read off len :: post) = None ->
  exists d ms, snd (t_step limit (exec tstate (t_step limit) tstate0 pre) (Read off len))
               = ORead d ms (pread (pfile pre) off len).
Proof. exact t_read_is_posix_history. Qed.
Print Assumptions c30_handle_read_partial_temp.

(* non-vacuity: a trigger-free history with a page larger than the chunk limit, an automatic save, a hole
   and a shrinking truncate *)
Example c30_example_trigger_free :
  m_trigger 4 ex_ops = None /\ t_trigger 4 ex_ops = None /\ Forall op_ok ex_ops.
Proof. exact ex_trigger_free. Qed.
Print Assumptions c30_example_trigger_free.

(* a truncate that leaves a whole chunk inside the new size: Setattr keeps the chunk, the history is
   trigger-free and resolves to the POSIX file *)
Example c30_example_truncate_keeps_chunks :
  m_trigger 16 (w_kept ++ [Flush]) = None /\ t_trigger 16 (w_kept ++ [Flush]) = None /\
  content_of (m_meta (exec mstate (m_step 16) mstate0 (w_kept ++ [Flush]))) = [1;2;3;4;5;6]%N /\
  content_of (t_meta (exec tstate (t_step 16) tstate0 (w_kept ++ [Flush]))) = [1;2;3;4;5;6]%N /\
  pfile (w_kept ++ [Flush]) = [1;2;3;4;5;6]%N.
Proof. exact w_kept_values. Qed.
Print Assumptions c30_example_truncate_keeps_chunks.

Example c30_example_content :
  content_of (m_meta (exec mstate (m_step 4) mstate0 ex_ops)) = [1;2;3;0;0;9;0;0;0;0]%N /\
  content_of (t_meta (exec tstate (t_step 4) tstate0 ex_ops)) = [1;2;3;0;0;9;0;0;0;0]%N /\
  pfile ex_ops = [1;2;3;0;0;9;0;0;0;0]%N /\
  length (f_chunks (m_meta (exec mstate (m_step 4) mstate0 ex_ops))) = 3%nat.
Proof. exact ex_content. Qed.
Print Assumptions c30_example_content.

(* reads while a save is in flight (extended histories).
   FULL statement "every read returns the POSIX bytes" REFUTED for the in-memory buffer: AddPage hands a list
   to an upload goroutine and removes it from the intervals; until the upload completes the bytes are neither
   in the dirty pages nor in entry.Chunks, and FileHandle.Read does not wait (finding 2). *)
Theorem c30_inflight_read_refuted : exists limit xs, 0 < limit /\ Forall op_ok (xflat xs) /\
  m_xtrigger limit xs = Some 2%N /\
  xread_data (last (m_xrun limit xs) (XObs (OTrunc [] 0) 0)) <> pread (pfile (xflat xs)) 0 4.
Proof. exact inflight_read_refuted. Qed.
Print Assumptions c30_inflight_read_refuted.

(* PARTIAL (refinement): an extended history meeting no trigger - every WriteRead's Write starts no save - is
   observation by observation the plain history Write; Read, which meets no trigger either: all the
   theorems above apply to it *)
Theorem c30_inflight_refines_mem : forall limit xs, m_xtrigger limit xs = None ->
  m_trigger limit (xflat xs) = None /\ xobs_flat (m_xrun limit xs) = m_run limit (xflat xs).
Proof. exact m_x_refines. Qed.
Print Assumptions c30_inflight_refines_mem.

Theorem c30_inflight_refines_temp : forall limit xs, t_xtrigger limit xs = None ->
  t_trigger limit (xflat xs) = None /\ xobs_flat (t_xrun limit xs) = t_run limit (xflat xs).
Proof. exact t_x_refines. Qed.
Print Assumptions c30_inflight_refines_temp.

Theorem c30_inflight_read_partial_mem : forall limit xpre off data roff rlen xpost,
  Forall op_ok (xflat (xpre ++ WriteRead off data roff rlen :: xpost)) -> 0 <= roff -> 0 < rlen ->
  m_xtrigger limit (xpre ++ WriteRead off data roff rlen :: xpost) = None ->
  exists ow d ms a,
    snd (m_xstep limit (exec_x mstate (m_xstep limit) mstate0 xpre) (WriteRead off data roff rlen)) =
    XWriteRead ow (ORead d ms (pread (pfile (xflat xpre ++ [Write off data])) roff rlen)) a.
Proof. exact m_inflight_read_posix. Qed.
Print Assumptions c30_inflight_read_partial_mem.

Theorem c30_inflight_read_partial_temp : forall limit xpre off data roff rlen xpost, 0 < limit ->
  Forall op_ok (xflat (xpre ++ WriteRead off data roff rlen :: xpost)) -> 0 <= roff -> 0 < rlen ->
  t_xtrigger limit (xpre ++ WriteRead off data roff rlen :: xpost) = None ->
  exists ow d ms a,
    snd (t_xstep limit (exec_x tstate (t_xstep limit) tstate0 xpre) (WriteRead off data roff rlen)) =
    XWriteRead ow (ORead d ms (pread (pfile (xflat xpre ++ [Write off data])) roff rlen)) a.
Proof. exact t_inflight_read_posix. Qed.
Print Assumptions c30_inflight_read_partial_temp.

(* FULL for the temp-file buffer: its Write never starts a save (uploads happen inside FlushData, which
   waits for them), so trigger 2 never fires there *)
Theorem c30_temp_never_inflight : forall limit xs, t_xtrigger limit xs <> Some 2%N.
Proof. exact t_never_inflight. Qed.
Print Assumptions c30_temp_never_inflight.

(* what the witness of finding 2 returns: zeros from the in-memory buffer, the written bytes from the temp file *)
Example c30_example_inflight_values :
  xread_data (last (m_xrun 4 w3) (XObs (OTrunc [] 0) 0)) = [0;0;0;0]%N /\ pread (pfile (xflat w3)) 0 4 = [1;2;3;4]%N /\
  xread_data (last (t_xrun 4 w3) (XObs (OTrunc [] 0) 0)) = [1;2;3;4]%N.
Proof. exact w3_values. Qed.
Print Assumptions c30_example_inflight_values.

(* the closing FileHandle.Flush on a trigger-free history with a completely overwritten chunk:
   CompactFileChunks drops it (3 chunks -> 2) and the entry the filer receives resolves to the POSIX file *)
Example c30_example_closing_flush :
  xcreated (last (m_xrun 16 w_close) (XObs (OTrunc [] 0) 0)) = pfile (xflat w_close) /\
  xcreated (last (t_xrun 16 w_close) (XObs (OTrunc [] 0) 0)) = pfile (xflat w_close) /\
  pfile (xflat w_close) = [5;6;7;7;9;9;9;9]%N /\
  length (compact_chunks (f_chunks (m_meta (exec_x mstate (m_xstep 16) mstate0 w_close)))) = 2%nat /\
  length (f_chunks (m_meta (exec_x mstate (m_xstep 16) mstate0 w_close))) = 3%nat /\
  m_xtrigger 16 w_close = None /\ t_xtrigger 16 w_close = None.
Proof. exact w_close_values. Qed.
Print Assumptions c30_example_closing_flush.
