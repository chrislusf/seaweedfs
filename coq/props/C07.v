(* C07 — Deleting from an EC volume marks exactly that needle.
   Only statements closed by [exact]; proofs live in proof/EcIndexProofs.v and proof/EcIndexMount.v.
   [osz] is the build configuration (types.OffsetSize): 4 by default, 5 under -tags 5BytesOffset;
   every theorem is for both ([ok_osz osz]).  Files are byte lists; [encode osz es] is the
   .ecx/.sdx/.idx image of the entry list [es].
   The specification side, on entry lists (proof/EcIndexProofs.v; [rfind] in proof/EcIndexMount.v):
   [set_deleted key es]: es with the entry of that key tombstoned, [mark_all js es]: the same for
   every key of js; [lookup k es] / [rfind k es]: the first (= only) entry with key k, as
   (offset, size) / as an entry; [has_key k es], [in_keys js k]: the key occurs in the entry list /
   in the key list; [live e], [is_live k es]: the size is not a deleted one; [live_spec js es]: the
   live entries whose key is not in js, as the key-sorted map a loader builds; [delete_many]: a run
   of DeleteNeedleFromEcx calls. *)
From Coq Require Import List NArith ZArith Bool.
From SW Require Import model.EcIndex proof.EcIndexProofs proof.EcIndexMount.
Import ListNotations.
Local Open Scope N_scope.

(* The entry codec round-trips, and walking an encoded index returns its entries. *)
Theorem c07_codec_roundtrip : forall osz es, ok_osz osz -> Forall (wf_entry osz) es ->
  walk osz (encode osz es) = es.
Proof. exact walk_encode. Qed.
Print Assumptions c07_codec_roundtrip.

(* FindNeedleFromEcx / SortedFileNeedleMap.Get: the binary search over ANY strictly sorted
   index reads exactly the entry with that key, or reports not-found. *)
Theorem c07_search_exact : forall osz es key, ok_osz osz -> Forall (wf_entry osz) es -> sorted_keys es ->
  sres_val (search_sorted osz (encode osz es) (N.of_nat (length (encode osz es))) key) = lookup key es.
Proof. exact search_lookup. Qed.
Print Assumptions c07_search_exact.

(* DeleteNeedleFromEcx, for every sorted index, every journal content and every key (present
   or absent): no error; the new .ecx is the old one with exactly that key's size replaced by
   the tombstone (unchanged when the key is absent); the journal gets the key appended iff the
   key is present; afterwards that key reads as deleted and every other key reads as before. *)
Theorem c07_delete_exact : forall osz es ecj key,
  ok_osz osz -> Forall (wf_entry osz) es -> sorted_keys es ->
  delete_from_ecx osz (encode osz es) ecj key =
    (ENone, encode osz (set_deleted key es), if has_key key es then ecj ++ enc_key key else ecj)
  /\ (has_key key es = false -> set_deleted key es = es)
  /\ (forall k, sres_val (find_from_ecx osz (encode osz (set_deleted key es)) k) =
        if k =? key then option_map (fun v => (fst v, tombstone)) (lookup k es) else lookup k es)
  /\ (forall k, sres_val (find_from_ecx osz (encode osz es) k) = lookup k es).
Proof. exact delete_exact. Qed.
Print Assumptions c07_delete_exact.

(* RebuildEcxFile and WriteIdxFileFromEcIndex agree: for every sorted index and every journal,
   the .idx written from (.ecx, .ecj), replayed the way an index file is loaded, and the .ecx
   rebuilt from the journal have the same live set: the live entries whose key is not journalled. *)
Theorem c07_rebuild : forall osz es js,
  ok_osz osz -> Forall (wf_entry osz) es -> sorted_keys es -> Forall (fun e => e_off e <> 0) es ->
  Forall (fun k => k < two64) js ->
  let ecx := encode osz es in
  let ecj := concat (map enc_key js) in
  memdb_load osz (write_idx_from_ec osz ecx ecj) = live_spec js es /\
  exists ecx', rebuild_ecx osz ecx ecj = (ENone, ecx') /\
               ecx' = encode osz (mark_all js es) /\
               live_of_sorted osz ecx' = live_spec js es.
Proof. exact rebuild_same_live_set. Qed.
Print Assumptions c07_rebuild.

(* Any run of deletions (present and absent keys, repeated keys) on an EC volume starting
   with an empty journal: the index decoded from the resulting .ecx + .ecj has exactly the
   live set the running volume serves, namely the live entries whose key was not deleted. *)
Theorem c07_deletes_then_decode : forall osz es ks,
  ok_osz osz -> Forall (wf_entry osz) es -> sorted_keys es -> Forall (fun e => e_off e <> 0) es ->
  Forall (fun k => k < two64) ks ->
  let '(ecx', ecj') := delete_many osz (encode osz es) [] ks in
  memdb_load osz (write_idx_from_ec osz ecx' ecj') = live_of_sorted osz ecx' /\
  live_of_sorted osz ecx' = live_spec ks es.
Proof. exact deletes_then_decode. Qed.
Print Assumptions c07_deletes_then_decode.

(* Read-only volume served from a sorted index (SortedFileNeedleMap.Delete on a freshly opened
   map; NewSortedFileNeedleMap repaired: .sdx opened read-write, indexFileOffset = .idx size).
   FULL, for every sorted index, every key, every .idx content: no error; when the key is live
   the .sdx becomes the index with exactly that entry tombstoned and the .idx grows by exactly
   one tombstone record for the key; otherwise both files are unchanged. *)
Theorem c07_sorted_delete : forall osz es key idx off,
  ok_osz osz -> Forall (wf_entry osz) es -> sorted_keys es ->
  sorted_delete osz idx (file_size idx) (encode osz es) key off =
    if is_live key es
    then (ENone, idx ++ enc_entry osz {| e_key := key; e_off := off; e_size := tombstone |},
          file_size idx + entry_size osz, encode osz (set_deleted key es))
    else (ENone, idx, file_size idx, encode osz es).
Proof. exact sorted_delete_full. Qed.
Print Assumptions c07_sorted_delete.

(* after it exactly that key reads as deleted and every other key reads as before *)
Theorem c07_sorted_delete_reads : forall osz es key idx off k,
  ok_osz osz -> Forall (wf_entry osz) es -> sorted_keys es ->
  let '(err, _, _, sdx') := sorted_delete osz idx (file_size idx) (encode osz es) key off in
  err = ENone /\
  sorted_get osz sdx' k =
    (if (k =? key) && is_live key es then option_map (fun v => (fst v, tombstone)) (lookup k es)
     else lookup k es).
Proof. exact sorted_delete_reads. Qed.
Print Assumptions c07_sorted_delete_reads.

(* SortedFileNeedleMap.Delete on a map opened by NewSortedFileNeedleMap, key 1 live, one record in
   the .idx, evaluated: no error, key 1 tombstoned in the .sdx,
   the tombstone record appended after the existing .idx record *)
Theorem c07_sorted_delete_witness :
  sorted_delete 4 (encode 4 witness_es) (file_size (encode 4 witness_es)) (encode 4 witness_es) 1 3 =
    (ENone, encode 4 witness_es ++ enc_entry 4 {| e_key := 1; e_off := 3; e_size := tombstone |}, 32,
     encode 4 [ {| e_key := 1; e_off := 2; e_size := tombstone |} ]).
Proof. exact sorted_delete_witness. Qed.
Print Assumptions c07_sorted_delete_witness.

(* The real consumer of the rebuilt index: ec.decode, then the mount (Volume.load).
   [recs]: the records of the encoded .dat (start in offset units, id, Size field); FindDatFileSize,
   WriteDatFile (first datSize bytes), WriteIdxFileFromEcIndex, CheckAndFixVolumeDataIntegrity,
   doLoading, Volume.readNeedle: model/EcIndex.v dm_*. *)

(* REFUTED (finding C07 k=0, same root cause as C06 k=0 / C04 k=2): "the index rebuilt from the
   sorted index plus journal yields the same live set" fails for the volume that is mounted from
   it: Write(1,"aaa"), Write(2,"bbb"), Write(1,"cccc"); the .idx is the key-sorted .ecx, the
   integrity check takes its last entry (key 2) for the last record and cuts the .dat 128 -> 88;
   key 1 is live, was never deleted, and cannot be read. *)
Theorem c07_decode_then_load_refuted :
  exists osz es recs,
    ok_osz osz /\ Forall (wf_entry osz) es /\ sorted_keys es /\
    Forall (fun e => e_off e <> 0) es /\ Forall (fun e => e_size e <> 0%Z) es /\
    dm_cuts osz (encode osz es) [] recs = true /\
    exists m len' h k e,
      dm_decode_mount osz (encode osz es) [] recs = Some (m, len', h) /\
      rfind k es = Some e /\ live e = true /\ dm_read m len' k = DmReadErr.
Proof. exact decode_then_load_refuted. Qed.
Print Assumptions c07_decode_then_load_refuted.

(* PARTIAL, for every sorted index without Size-0 entries (those are finding C04 k=0), every
   journal, every record layout: outside the decidable trigger [dm_cuts] (the integrity check of
   the mount changes neither the .dat nor the .idx) the mounted volume's needle map is exactly
   the live entries whose key is not journalled, and every key reads accordingly: the record of
   its live, un-journalled entry, else not found. *)
Theorem c07_decode_then_load_partial : forall osz es js recs,
  ok_osz osz -> Forall (wf_entry osz) es -> sorted_keys es -> Forall (fun e => e_off e <> 0) es ->
  Forall (fun k => k < two64) js ->
  Forall (fun e => e_size e <> 0%Z) es ->
  8 <= dm_dat_size osz (encode osz es) ->
  dm_cuts osz (encode osz es) (concat (map enc_key js)) recs = false ->
  dm_decode_mount osz (encode osz es) (concat (map enc_key js)) recs =
    Some (live_spec js es, dm_dat_size osz (encode osz es), N.of_nat (length es + length js)) /\
  forall k, dm_read (live_spec js es) (dm_dat_size osz (encode osz es)) k =
    match rfind k es with
    | Some e => if live e && negb (in_keys js k) then DmData (e_off e) (e_size e) else DmNotFound
    | None => DmNotFound
    end.
Proof. exact decode_then_load_partial. Qed.
Print Assumptions c07_decode_then_load_partial.

(* ... and a decode with a NON-EMPTY journal (at least one deletion on the EC volume, present key
   or not) is never inside the trigger: the last index entry is a zero-offset tombstone, on
   which the integrity check stops.  So after any deletion the partial theorem holds with its two
   other hypotheses only (some entry still live: 8 <= dm_dat_size; no Size-0 entry). *)
Theorem c07_decode_journal_no_cut : forall osz es js recs,
  ok_osz osz -> Forall (wf_entry osz) es -> Forall (fun k => k < two64) js ->
  js <> [] -> dm_cuts osz (encode osz es) (concat (map enc_key js)) recs = false.
Proof. exact decode_journal_no_cut. Qed.
Print Assumptions c07_decode_journal_no_cut.

(* non-vacuity of the partial theorem: empty journal with the largest key written last (both
   keys served), and the refutation witness after key 1 was deleted on the EC volume *)
Example c07_decode_then_load_example :
  ok_osz 5 /\ Forall (wf_entry 5) x_es /\ sorted_keys x_es /\
  Forall (fun e => e_off e <> 0) x_es /\ Forall (fun e => e_size e <> 0%Z) x_es /\
  8 <= dm_dat_size 5 (encode 5 x_es) /\
  dm_cuts 5 (encode 5 x_es) [] (firstn 2 w_recs) = false /\
  dm_decode_mount 5 (encode 5 x_es) [] (firstn 2 w_recs) = Some ([(1, (1, 8%Z)); (2, (6, 8%Z))], 88, 2) /\
  dm_cuts 4 (encode 4 (set_deleted 1 w_es)) (enc_key 1) w_recs = false /\
  dm_decode_mount 4 (encode 4 (set_deleted 1 w_es)) (enc_key 1) w_recs = Some ([(2, (6, 8%Z))], 88, 3).
Proof. exact decode_then_load_example. Qed.
Print Assumptions c07_decode_then_load_example.

(* non-vacuity: a 5-entry index under the 5-byte build (offsets above 2^32), key 3 deleted:
   the hypotheses hold, entry 3 - and only entry 3 - becomes a tombstone, the journal holds key 3
   ([c07_ex_es] is defined in proof/EcIndexMount.v) *)
Example c07_example :
  ok_osz 5 /\ Forall (wf_entry 5) c07_ex_es /\ sorted_keys c07_ex_es /\
  Forall (fun e => e_off e <> 0) c07_ex_es /\
  delete_from_ecx 5 (encode 5 c07_ex_es) [] 3 =
    (ENone, encode 5 (set_deleted 3 c07_ex_es), [0;0;0;0;0;0;0;3]) /\
  map (fun k => sres_val (find_from_ecx 5 (encode 5 (set_deleted 3 c07_ex_es)) k))
      [1; 2; 3; 4; 4294967301] =
    [Some (10, 100%Z); Some (4294967303, 0%Z); Some (1099511627775, (-1)%Z); None; Some (12, 5%Z)] /\
  is_live 7 c07_ex_es = false /\ is_live 3 c07_ex_es = true.
Proof. exact c07_example_holds. Qed.
Print Assumptions c07_example.
