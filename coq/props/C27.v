(* C27 — S3 object listings are complete and paginate correctly.
   Only statements closed by [exact]; proofs live in proof/S3List*.v.

   `list_items` / `list_objects` / `paginate` are the faithful model of
   ListObjectsV1/V2 -> listFilerEntries -> doListFilerEntries over the filer's
   ListEntries (model/S3List.v); `ref_list` is the reference listing (the entries of
   the prefix directory that carry the name prefix, expanded in order, ".uploads"
   directories and — without -allowEmptyFolder — all-empty folders left out).
   Items are compared as segment paths; a key is rendered by join_slash. *)
From Coq Require Import List NArith ZArith Bool String.
From SW Require Import model.S3List model.S3ListMut model.S3ListV2 proof.S3ListV2 proof.S3ListProofs proof.S3ListSound proof.S3ListExact
                       proof.S3ListPaging proof.S3ListFlat proof.S3ListRefute proof.S3ListMut proof.S3ListSingle.
Import ListNotations.
Local Open Scope string_scope.
Local Open Scope list_scope.

(* Page soundness, FULL statement (every marker / prefix): REFUTED, three ways. *)
Theorem c27_page_sound_refuted_marker_into_subdir :
  wf t_k2 = true /\
  pg_keys (list_objects false t_k2 "" 5 "d/" true) = ["d/a"; "d/b"; "da"] /\
  page_sound_b false t_k2 "" 5 true "" (list_objects false t_k2 "" 5 "d/" true) = false.
Proof. exact page_unsound_marker_into_subdir. Qed.
Print Assumptions c27_page_sound_refuted_marker_into_subdir.

Theorem c27_page_sound_refuted_too_many :
  wf t_k3 = true /\
  pg_keys (list_objects false t_k3 "" 1 "d/e/a" false) = ["d/e/b"; "da"] /\
  page_sound_b false t_k3 "" 1 false "" (list_objects false t_k3 "" 1 "d/e/a" false) = false.
Proof. exact page_unsound_too_many. Qed.
Print Assumptions c27_page_sound_refuted_too_many.

Theorem c27_page_sound_refuted_uploads_prefix :
  wf t_k4 = true /\
  pg_keys (list_objects false t_k4 ".uploads/" 1000 "" false) = [".uploads/x/0001.part"] /\
  page_sound_b false t_k4 ".uploads/" 1000 false "" (list_objects false t_k4 ".uploads/" 1000 "" false) = false.
Proof. exact page_unsound_uploads_prefix. Qed.
Print Assumptions c27_page_sound_refuted_uploads_prefix.

(* Partial statement: for a marker without "/" and a clean prefix that does not
   point into the multipart area, on EVERY well-formed tree (any depth, with ".uploads",
   with empty folders) the items of a page are, in order, a subsequence of the reference
   listing, and there are at most max-keys of them. *)
Theorem c27_page_sound_partial : forall ae rootk prefix M marker delim,
  wf rootk = true -> count_slash marker = 0 -> bad_prefix prefix = false ->
  subseq (r_items (list_items ae rootk prefix M marker delim)) (ref_list ae rootk prefix delim) /\
  (Z.of_nat (List.length (r_items (list_items ae rootk prefix M marker delim))) <= Z.max 0 M)%Z.
Proof. exact page_sound_partial. Qed.
Print Assumptions c27_page_sound_partial.

(* What the reference listing consists of: keys are paths of files of the tree ... *)
Theorem c27_ref_keys_are_files : forall ae delim D K p,
  In (IKey p) (ref_forest ae delim D K) -> In p (files_under D K).
Proof. exact ref_keys_real. Qed.
Print Assumptions c27_ref_keys_are_files.

(* ... below an entry of the prefix directory that carries the name prefix ... *)
Theorem c27_ref_under_prefix : forall ae rootk prefix delim it, In it (ref_list ae rootk prefix delim) ->
  exists n q, item_path it = req_dir prefix ++ n :: q /\ String.prefix (snd (split_prefix prefix)) n = true.
Proof. exact ref_list_under_prefix. Qed.
Print Assumptions c27_ref_under_prefix.

(* ... never from a ".uploads" directory ... *)
Theorem c27_ref_skips_uploads : forall ae delim D k, ref_tree ae delim D (Dir uploads k) = [].
Proof. exact ref_skips_uploads. Qed.
Print Assumptions c27_ref_skips_uploads.

(* ... with delimiter "/": the files of the directory itself as keys, its sub
   directories as common prefixes ... *)
Theorem c27_ref_delimiter : forall ae D K it, In it (ref_forest ae true D K) ->
  match it with
  | IKey p => exists n, p = D ++ [n] /\ In (File n) K
  | ICP p => exists n k, p = D ++ [n] /\ In (Dir n k) K /\ n <> uploads /\ (ae = true \/ has_file k = true)
  end.
Proof. exact ref_delim_shape. Qed.
Print Assumptions c27_ref_delimiter.

(* ... and without delimiter no common prefixes. *)
Theorem c27_ref_no_delimiter : forall ae D K it, In it (ref_forest ae false D K) -> exists p, it = IKey p.
Proof. exact ref_nodelim_keys. Qed.
Print Assumptions c27_ref_no_delimiter.

(* Complete pagination, FULL statement (every tree, every continuation style): REFUTED
   (c27_paginate_complete_refuted_delim_lastkey lists too many keys, the others too few). *)
Theorem c27_paginate_complete_refuted_lastkey_prefix_dir :
  let pages := paginate 14 false t_k0 "d/" 1 false V1LastKey "" in
  wf t_k0 = true /\ ended pages = true /\ all_keys pages = ["d/a"; "d/e/a"] /\
  spec_keys t_k0 "d/" false "" = ["d/a"; "d/b"; "d/e/a"] /\
  enumerates_b false t_k0 "d/" false "" pages = false.
Proof. exact paginate_incomplete_lastkey_prefix_dir. Qed.
Print Assumptions c27_paginate_complete_refuted_lastkey_prefix_dir.

Theorem c27_paginate_complete_refuted_zero_yield :
  let pages := paginate 14 false t_k1 "" 2 false V2Token "" in
  wf t_k1 = true /\ ended pages = true /\ all_keys pages = ["a"; "b"] /\
  spec_keys t_k1 "" false "" = ["a"; "b"; "da"] /\
  enumerates_b false t_k1 "" false "" pages = false.
Proof. exact paginate_incomplete_zero_yield. Qed.
Print Assumptions c27_paginate_complete_refuted_zero_yield.

Theorem c27_paginate_complete_refuted_delim_lastkey :
  let pages := paginate 14 false t_k2 "" 1 true V1LastKey "" in
  wf t_k2 = true /\ ended pages = true /\ all_keys pages = ["a"; "d/a"; "d/b"; "da"] /\
  spec_keys t_k2 "" true "" = ["a"; "da"] /\
  enumerates_b false t_k2 "" true "" pages = false.
Proof. exact paginate_unsound_delim_lastkey. Qed.
Print Assumptions c27_paginate_complete_refuted_delim_lastkey.

Theorem c27_paginate_complete_refuted_deep_token :
  let pages := paginate 14 false t_k3 "" 1 false V2Token "" in
  wf t_k3 = true /\ ended pages = true /\
  map pg_keys pages = [["d/e/a"]; ["d/e/b"; "da"]; []] /\
  spec_keys t_k3 "" false "" = ["d/e/a"; "d/e/b"; "d/f"; "da"] /\
  enumerates_b false t_k3 "" false "" pages = false.
Proof. exact paginate_incomplete_deep_token. Qed.
Print Assumptions c27_paginate_complete_refuted_deep_token.

Theorem c27_paginate_complete_refuted_start_is_dir :
  let pages := paginate 14 false t_k5 "" 1000 false V2StartAfter "d" in
  wf t_k5 = true /\ ended pages = true /\ all_keys pages = ["da"] /\
  spec_keys t_k5 "" false "d" = ["d/e/a"; "da"] /\
  enumerates_b false t_k5 "" false "d" pages = false.
Proof. exact paginate_incomplete_start_is_dir. Qed.
Print Assumptions c27_paginate_complete_refuted_start_is_dir.

(* Partial statements.
   (i) With delimiter "/": if every entry of the prefix directory that carries the name
   prefix yields an item (no ".uploads" directory among them, no all-empty folder unless
   -allowEmptyFolder), a client that follows the continuation token / NextMarker receives
   every key and every common prefix of the reference listing, in order, nothing else,
   and the last page says "not truncated" — for trees of any depth. *)
Theorem c27_paginate_complete_delim_partial : forall ae rootk prefix K M n st,
  wf rootk = true -> bad_prefix prefix = false -> walk rootk (req_dir prefix) = Some K -> (1 <= M)%Z ->
  (snd (split_prefix prefix) =? "/") = false ->
  forallb (productive ae true) (filter (fun t => String.prefix (snd (split_prefix prefix)) (tname t)) K) = true ->
  (st = V2Token \/ st = V1NextMarker) ->
  List.length (ref_list ae rootk prefix true) < n ->
  let pages := paginate n ae rootk prefix M true st "" in
  flat_map pg_keys pages = flat_map key_of (ref_list ae rootk prefix true) /\
  flat_map pg_cps pages = flat_map cp_of (ref_list ae rootk prefix true) /\
  exists l p, pages = l ++ [p] /\ pg_trunc p = false.
Proof. exact paginate_complete_delim. Qed.
Print Assumptions c27_paginate_complete_delim_partial.

(* (ii) Without delimiter: if the entries of the prefix directory that carry the name
   prefix are files or directories (not ".uploads") holding at least one file and only
   files, the same holds for the continuation token / NextMarker, and — when the prefix
   has no directory part — also for a client that continues from the last key (V1
   marker, V2 start-after).  (One more directory level is refuted above.) *)
Theorem c27_paginate_complete_flat_partial : forall ae rootk prefix K M n st,
  wf rootk = true -> bad_prefix prefix = false -> walk rootk (req_dir prefix) = Some K -> (1 <= M)%Z ->
  forallb flat1 (filter (fun t => String.prefix (snd (split_prefix prefix)) (tname t)) K) = true ->
  (st = V2Token \/ st = V1NextMarker \/ (req_dir prefix = [] /\ (st = V1LastKey \/ st = V2StartAfter))) ->
  List.length (ref_list ae rootk prefix false) < n ->
  let pages := paginate n ae rootk prefix M false st "" in
  flat_map pg_keys pages = flat_map key_of (ref_list ae rootk prefix false) /\
  flat_map pg_cps pages = flat_map cp_of (ref_list ae rootk prefix false) /\
  exists l p, pages = l ++ [p] /\ pg_trunc p = false.
Proof. exact paginate_complete_flat. Qed.
Print Assumptions c27_paginate_complete_flat_partial.

(* One page, exactly: on a tree whose listed entries all yield something, a marker
   without "/" returns the first max-keys items behind it, "truncated" exactly when more
   remain, and the next marker is the position of the last item returned. *)
Theorem c27_page_exact : forall ae rootk delim f D K pfx M m,
  wf rootk = true -> plain D -> walk rootk D = Some K -> wf K = true ->
  forallb (productive ae delim) (filter (fun t => String.prefix pfx (tname t) && String.ltb m (tname t)) K) = true ->
  forest_height K <= f -> (1 <= M)%Z -> count_slash m = 0 -> ((pfx =? "/") && delim) = false ->
  let E := filter (fun t => String.prefix pfx (tname t) && String.ltb m (tname t)) K in
  let r := do_list ae rootk delim (S f) D pfx M m in
  r_items r = firstn (Z.to_nat M) (ref_forest ae delim D E) /\
  r_count r = Z.of_nat (List.length (r_items r)) /\
  r_trunc r = (Z.of_nat (List.length (ref_forest ae delim D E)) >? M)%Z /\
  r_next r = last_marker D "" (r_items r).
Proof. exact (fun ae rootk delim f D K pfx M m _ => page_exact ae rootk delim f D K pfx M m). Qed.
Print Assumptions c27_page_exact.

(* non-vacuity: a bucket with files and a directory of files satisfies the hypotheses of
   (ii); three pages of two keys enumerate it *)
Example c27_example :
  let t := [File "a"; Dir "d" [File "a"; File "b"; File "c"]; File "da"] in
  wf t = true /\ bad_prefix "" = false /\ walk t (req_dir "") = Some t /\
  forallb flat1 (filter (fun x => String.prefix (snd (split_prefix "")) (tname x)) t) = true /\
  map pg_keys (paginate 6 false t "" 2 false V2Token "") = [["a"; "d/a"]; ["d/b"; "d/c"]; ["da"]] /\
  map pg_next (paginate 6 false t "" 2 false V2Token "") = ["d/a"; "d/c"; ""].
Proof. exact flat_example. Qed.
Print Assumptions c27_example.

(* (iii) Trees of ANY depth, with or without delimiter: ONE request whose max-keys is at
   least the size of the listing (every listed entry yields something) returns the whole
   reference listing, "not truncated".  (Paginating a listing two or more directories deep
   is refuted above: c27_paginate_complete_refuted_deep_token.) *)
Theorem c27_single_page_complete : forall ae rootk prefix K M delim,
  wf rootk = true -> bad_prefix prefix = false -> walk rootk (req_dir prefix) = Some K ->
  ((snd (split_prefix prefix) =? "/") && delim) = false ->
  forallb (productive ae delim) (filter (fun t => String.prefix (snd (split_prefix prefix)) (tname t)) K) = true ->
  (1 <= M)%Z -> (Z.of_nat (List.length (ref_list ae rootk prefix delim)) <= M)%Z ->
  let p := list_objects ae rootk prefix M "" delim in
  pg_keys p = flat_map key_of (ref_list ae rootk prefix delim) /\
  pg_cps p = flat_map cp_of (ref_list ae rootk prefix delim) /\
  pg_trunc p = false /\ pg_next p = "".
Proof. exact single_page_complete. Qed.
Print Assumptions c27_single_page_complete.

Example c27_single_page_example :
  let t := [File "a"; Dir "d" [File "a"; Dir "e" [File "a"; Dir "f" [File "x"]]]; File "d.x"] in
  wf t = true /\ bad_prefix "" = false /\ walk t (req_dir "") = Some t /\
  forallb (productive false false) (filter (fun x => String.prefix (snd (split_prefix "")) (tname x)) t) = true /\
  (Z.of_nat (List.length (ref_list false t "" false)) <= 1000)%Z /\
  pg_keys (list_objects false t "" 1000 "" false) = ["a"; "d/a"; "d/e/a"; "d/e/f/x"; "d.x"].
Proof. exact single_page_example. Qed.
Print Assumptions c27_single_page_example.

(* Finding 6, listing order: "every key behind the marker / start-after" is REFUTED where a name extends a directory
   name by a character below "/": start-after d.x never returns d/a ... *)
Theorem c27_paginate_complete_refuted_order_clash :
  let pages := paginate 14 false t_k6 "" 1000 false V2StartAfter "d.x" in
  wf t_k6 = true /\ ended pages = true /\ all_keys pages = [] /\
  spec_keys t_k6 "" false "d.x" = ["d/a"] /\
  enumerates_b false t_k6 "" false "d.x" pages = false /\
  trigger_of false t_k6 "" false V2StartAfter "d.x" ["d.x"] t_k6 = Some 6%N.
Proof. exact paginate_incomplete_order_clash. Qed.
Print Assumptions c27_paginate_complete_refuted_order_clash.

(* ... marker d/a returns d.x, which sorts before the marker ... *)
Theorem c27_page_sound_refuted_order_clash :
  wf t_k6b = true /\
  pg_keys (list_objects false t_k6b "" 1000 "d/a" false) = ["d/b"; "d.x"] /\
  String.ltb "d.x" "d/a" = true /\
  page_sound_b false t_k6b "" 1000 false "d/a" (list_objects false t_k6b "" 1000 "d/a" false) = false /\
  trigger_of false t_k6b "" false V1NextMarker "d/a" ["d/a"] t_k6b = Some 6%N.
Proof. exact page_unsound_order_clash. Qed.
Print Assumptions c27_page_sound_refuted_order_clash.

(* ... and the unpaginated listing is not in key order.  (What holds instead: the order
   of the reference listing, c27_page_sound_partial / c27_page_exact; and complete
   pagination from the beginning, (i)-(iii), which never sends a client-chosen marker.) *)
Theorem c27_key_order_refuted :
  pg_keys (list_objects false t_k6 "" 1000 "" false) = ["d/a"; "d.x"] /\ String.ltb "d.x" "d/a" = true.
Proof. exact listing_not_in_key_order. Qed.
Print Assumptions c27_key_order_refuted.

(* Finding 7, a LIST request changes the bucket.  `run_m` (model/S3ListMut.v) is the model the correspondence check evaluates: the
   pagination loop with the bucket tree threaded through doListFilerEntries and
   isDirectoryAllEmpty (which deletes what it takes for empty).
   FULL statement "listing never removes an object": REFUTED, two ways. *)
Theorem c27_list_readonly_refuted_marker :
  let r := run_m 14 false t_k7 "" 1000 true V1NextMarker "/" in
  wf t_k7 = true /\
  bucket_keys t_k7 = ["a"; "d/a"; "d/e/a"; "da"] /\
  map (fun mp => pg_keys (snd mp)) (fst r) = [["/a"; "/da"; "a"; "da"]] /\
  snd r = [File "a"; File "da"] /\
  bucket_keys (snd r) = ["a"; "da"] /\
  trigger_of false t_k7 "" true V1NextMarker "/" (map fst (fst r)) (snd r) = Some 7%N.
Proof. exact list_deletes_objects_marker. Qed.
Print Assumptions c27_list_readonly_refuted_marker.

Theorem c27_list_readonly_refuted_prefix :
  let r := run_m 14 false t_k7 "d//" 1000 true V2Token "" in
  snd r = [File "a"; Dir "d" [File "a"]; File "da"] /\
  bucket_keys (snd r) = ["a"; "d/a"; "da"] /\
  trigger_of false t_k7 "d//" true V2Token "" (map fst (fst r)) (snd r) = Some 7%N.
Proof. exact list_deletes_objects_prefix. Qed.
Print Assumptions c27_list_readonly_refuted_prefix.

(* Strongest statement proved: without delimiter, or with -allowEmptyFolder, for EVERY
   tree, prefix, marker, max-keys and continuation style the threaded model answers
   exactly as the immutable model of the theorems above (same pages, same markers) and
   the bucket afterwards is the bucket before. *)
Theorem c27_list_readonly_partial : forall ae delim, ae = true \/ delim = false ->
  forall n rootk prefix maxKeys st marker,
    map snd (fst (run_m n ae rootk prefix maxKeys delim st marker)) =
      paginate n ae rootk prefix maxKeys delim st marker /\
    map fst (fst (run_m n ae rootk prefix maxKeys delim st marker)) =
      markers n ae rootk prefix maxKeys delim st marker /\
    snd (run_m n ae rootk prefix maxKeys delim st marker) = rootk.
Proof. exact run_m_eq. Qed.
Print Assumptions c27_list_readonly_partial.

(* With delimiter and without -allowEmptyFolder folders ARE deleted (by design those
   without any file); non-vacuity of the threaded model on such a bucket: *)
Example c27_list_deletes_empty_folders_example :
  let t := [File "a"; Dir "d" [Dir "g" []; Dir "k" [File "a"]]; Dir "e" [Dir "h" []]; File "f"] in
  let r := run_m 14 false t "" 1 true V2Token "" in
  wf t = true /\
  snd r = [File "a"; Dir "d" [Dir "k" [File "a"]]; File "f"] /\
  lists_equal_keys t (snd r) = true.
Proof. exact list_deletes_empty_folders. Qed.
Print Assumptions c27_list_deletes_empty_folders_example.

(* The request forms (V1 marker, V2 continuation-token / start-after).  The run the
   correspondence check evaluates is the REQUEST-level client of model/S3ListV2.v
   (run_client: list-type=2 or not, marker, continuation-token, start-after, fetch-owner,
   encoding-type; the handler derives its marker by handler_marker).  The theorems above speak
   about the marker-level client run_m / paginate; these link the two. *)

(* ListObjectsV2Handler: a non-empty continuation token wins over start-after, whatever
   the byte order of the two; fetch-owner, encoding-type and a stray V1 marker do not matter. *)
Theorem c27_v2_token_wins : forall m token startAfter fo enc,
  token <> "" -> handler_marker (mk_req true m token startAfter fo enc) = token.
Proof. exact handler_marker_v2_token_wins. Qed.
Print Assumptions c27_v2_token_wins.

Theorem c27_v2_first_request : forall m startAfter fo enc,
  handler_marker (mk_req true m "" startAfter fo enc) = startAfter.
Proof. exact handler_marker_v2_no_token. Qed.
Print Assumptions c27_v2_first_request.

(* ListObjectsV1Handler reads the marker only *)
Theorem c27_v1_marker_only : forall m t s fo enc, handler_marker (mk_req false m t s fo enc) = m.
Proof. exact handler_marker_v1. Qed.
Print Assumptions c27_v1_marker_only.

(* a request is served according to its derived marker alone *)
Theorem c27_serve_only_marker : forall ae rootk prefix M delim rq rq',
  handler_marker rq = handler_marker rq' ->
  serve ae rootk prefix M delim rq = serve ae rootk prefix M delim rq'.
Proof. exact serve_only_marker. Qed.
Print Assumptions c27_serve_only_marker.

(* FULL for clients that do not resend: every style of the request-level client, any first
   marker / start-after, any stray parameters, fetch-owner, encoding-type: same pages and
   same final bucket as the marker-level client of the theorems above. *)
Theorem c27_request_client_is_marker_client : forall n ae rootk prefix M delim st start stray fo enc,
  let cl := mk_client st false start stray fo enc in
  map snd (fst (run_client n ae rootk prefix M delim cl)) =
    map snd (fst (run_m n ae rootk prefix M delim st start)) /\
  snd (run_client n ae rootk prefix M delim cl) = snd (run_m n ae rootk prefix M delim st start).
Proof. exact plain_client_is_run_m. Qed.
Print Assumptions c27_request_client_is_marker_client.

(* The SDK-paginator form: the ORIGINAL start-after is resent with every continuation
   token.  As long as every truncated page carries a non-empty token (decidable on the
   marker-level run), resending changes nothing: same pages, same final bucket -- in
   particular also where a token sorts BELOW the resent start-after. *)
Theorem c27_resend_start_after_same_pages : forall n ae rootk prefix M delim start stray fo enc resend,
  let cl := mk_client V2Token resend start stray fo enc in
  tokens_nonempty (fst (run_m n ae rootk prefix M delim V2Token start)) = true ->
  map snd (fst (run_client n ae rootk prefix M delim cl)) =
    map snd (fst (run_m n ae rootk prefix M delim V2Token start)) /\
  snd (run_client n ae rootk prefix M delim cl) = snd (run_m n ae rootk prefix M delim V2Token start).
Proof. exact resend_start_after_same_pages. Qed.
Print Assumptions c27_resend_start_after_same_pages.

(* non-vacuity: logs/a..c beside logs.tar.gz ('.' sorts below '/'), start-after = logs/a
   resent, max-keys 1: the token "logs.tar.gz" sorts below the start-after and is followed *)
Example c27_resend_example :
  wf t_v2 = true /\
  tokens_nonempty (fst (run_m 10 true t_v2 "" 1 false V2Token "logs/a")) = true /\
  map (fun x => pg_keys (snd x))
      (fst (run_client 10 true t_v2 "" 1 false (mk_client V2Token true "logs/a" "" true true))) =
    [["logs/b"]; ["logs/c"]; ["logs.tar.gz"]; ["m"]] /\
  map (fun x => (rq_token (fst x), rq_start_after (fst x)))
      (fst (run_client 10 true t_v2 "" 1 false (mk_client V2Token true "logs/a" "" true true))) =
    [("", "logs/a"); ("logs/b", "logs/a"); ("logs/c", "logs/a"); ("logs.tar.gz", "logs/a")].
Proof. exact resend_example. Qed.
Print Assumptions c27_resend_example.
