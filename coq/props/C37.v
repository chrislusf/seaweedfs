(* C37 — Incremental volume backup converges to the source.
   Only statements closed by [exact]; proofs live in proof/BackupProofs.v.

   Vocabulary (model/Backup.v):
     a volume [recs v]     its .dat records, OLDEST FIRST; [idx_of v] the .idx entries they give, [rec_at v off]
                           the record at an offset ([idx_from b l] / [rec_at_from b l]: the same from offset b)
     [latest l k]          the last record of l for key k; [live_lookup l k] that record unless it is a delete
     [read v k]            Some (r_val, r_len) of the live record of k: what the volume serves
     [maxts l]             the newest AppendAtNs in l (0 for none)
     [exec init h]         the state (source [src], backup [bk]) after the history h of Write, Delete,
                           Compact, Backup; the clock reading of every Write / Delete is an input
     [backup_run S B] = one Backup step; [incremental_backup] its incremental branch alone
     [hist_ok h]           every Write has a non-empty payload and every clock reading is positive;
                           [ts_positive h] the clock readings only; [ts_increasing h] strictly increasing
     [reflects] / [trigger]   explained at c37_reflects_sound and c37_converges_partial *)
From Coq Require Import List NArith Bool Sorted.
From SW Require Import model.Backup proof.BackupProofs.
Import ListNotations.
Local Open Scope N_scope.

(* (full) if every source record from index position j on is newer than
   [since], BinarySearchByAppendAtNs never starts after j, and it answers "nothing
   newer" only when j is the end of the index.  No assumption on the order of the
   timestamps before j (the key-ordered region a compaction leaves). *)
Theorem c37_search_not_late : forall (l : list rec) since j,
  (j <= length l)%nat ->
  (forall r, In r (skipn j l) -> since < r_ts r) ->
  match binary_search_by_append_ns l since with
  | Some p => (p <= j)%nat /\ (p < length l)%nat
  | None => j = length l
  end.
Proof. exact search_not_late. Qed.
Print Assumptions c37_search_not_late.

(* (full) on ANY index the search stops at a tested boundary: the entry it starts at
   is newer than [since], the entry before it is not — which is all a binary search
   over non-monotone timestamps guarantees. *)
Theorem c37_search_boundary : forall (l : list rec) since,
  let ts := map r_ts l in
  match binary_search_by_append_ns l since with
  | Some p => (p < length l)%nat /\ since < nth p ts 0 /\ (p = 0%nat \/ nth (p - 1) ts 0 <= since)
  | None => l = [] \/ nth (length l - 1) ts 0 <= since
  end.
Proof. exact search_boundary. Qed.
Print Assumptions c37_search_boundary.

(* (full) re-appending records the backup already reflects leaves every read
   unchanged: copying from too early a position is harmless. *)
Theorem c37_replay_idempotent : forall bkv srcv n,
  (forall k, live_lookup (recs bkv) k = live_lookup (recs srcv) k) ->
  forall k, read {| recs := recs bkv ++ skipn n (recs srcv); rev := rev bkv |} k = read srcv k.
Proof. exact replay_idempotent_reads. Qed.
Print Assumptions c37_replay_idempotent.

(* (full) the compaction semantics used here: the compacted index is strictly
   key-ordered, holds only live entries, and serves the same blobs. *)
Theorem c37_compaction_key_ordered : forall l,
  StronglySorted key_lt (compact l) /\ (forall r, In r (compact l) -> r_live r = true).
Proof. exact compact_sorted_live. Qed.
Print Assumptions c37_compaction_key_ordered.

Theorem c37_compaction_preserves_reads : forall l k, live_lookup (compact l) k = live_lookup l k.
Proof. exact live_lookup_compact. Qed.
Print Assumptions c37_compaction_preserves_reads.

(* (full) the .idx observable of the check: idx entry i of a volume carries key and Size
   of .dat record i and its offset leads back to record i — so "the AppendAtNs of idx
   entry m" (readOffsetFromIndex m, readAppendAtNs) is the timestamp of record m, which
   is what find_last_append_ns / binary_search_by_append_ns compute with.  No definition
   of the model takes the NeedleMapper kind as an argument: the entries [idx_of] and the
   answers [read] are what EVERY kind (memory, leveldb, leveldbMedium, leveldbLarge) has
   to produce; the check compares the real .idx of the source after every operation (and
   of the backup after every run) with [idx_of] under each kind. *)
Theorem c37_idx_entry_points_at_record : forall l b i r,
  nth_error l i = Some r ->
  exists off, nth_error (idx_from b l) i = Some (r_key r, off, idx_size r) /\ rec_at_from b l off = Some r.
Proof. exact idx_entry_points_at_record. Qed.
Print Assumptions c37_idx_entry_points_at_record.

Theorem c37_idx_entry_ts : forall v m r,
  nth_error (recs v) m = Some r ->
  exists k off sz, nth_error (idx_of v) m = Some (k, off, sz) /\
                   option_map r_ts (rec_at v off) = Some (nth m (map r_ts (recs v)) 0).
Proof. exact idx_entry_ts. Qed.
Print Assumptions c37_idx_entry_ts.

(* (full) the search's answer is not an artefact of the loop's fuel: binary_search_by_append_ns runs
   bsearch_loop with fuel S (length ts); any larger fuel gives the same position. *)
Theorem c37_search_fuel_irrelevant : forall (l : list rec) since extra,
  let ts := map r_ts l in
  bsearch_loop (S (length ts) + extra) ts since 0 (length ts) = bsearch_loop (S (length ts)) ts since 0 (length ts).
Proof. exact search_fuel_irrelevant. Qed.
Print Assumptions c37_search_fuel_irrelevant.

(* (full) a backup run never invents a record: everything the backup holds afterwards
   was in it before or is a record of the source. *)
Theorem c37_backup_run_subset : forall S B r,
  In r (recs (backup_run S B)) -> In r (recs B) \/ In r (recs S).
Proof. exact backup_run_subset. Qed.
Print Assumptions c37_backup_run_subset.

(* (full) one incremental copy converges from ANY backup state that satisfies the state
   predicate: source = P ++ A, A newer than everything the backup holds, the backup
   serves every key A does not touch as P does — also when the backup is a strict
   superset / re-copies records it already has. *)
Theorem c37_incremental_converges : forall S B P A c,
  recs S = P ++ A ->
  (forall r, In r A -> c < r_ts r) ->
  (forall r, In r (recs B) -> r_ts r <= c) ->
  (forall k, latest A k = None -> live_lookup (recs B) k = live_lookup P k) ->
  forall k, live_lookup (recs (incremental_backup S B)) k = live_lookup (recs S) k.
Proof. exact incremental_converges. Qed.
Print Assumptions c37_incremental_converges.

(* meaning of the decidable state predicate used by the trigger *)
Theorem c37_reflects_sound : forall st, reflects st = true ->
  exists P A, recs (src st) = P ++ A /\
    (forall r, In r A -> maxts (recs (bk st)) < r_ts r) /\
    (forall k, latest A k = None -> live_lookup (recs (bk st)) k = live_lookup P k).
Proof. exact reflects_sound. Qed.
Print Assumptions c37_reflects_sound.

(* The property at full strength — for EVERY history of writes, deletes, source
   compactions and backup runs (clock readings are inputs), after a backup run the
   backup serves what the source serves — is false for the code as it is.
   Finding 0, with strictly increasing clock readings: *)
Theorem c37_converges_refuted : exists h k,
  hist_ok h = true /\ ts_increasing h = true /\ trigger h = Some 0 /\
  read (bk (exec init (h ++ [Backup]))) k <> read (src (exec init (h ++ [Backup]))) k.
Proof. exact converges_refuted. Qed.
Print Assumptions c37_converges_refuted.

(* Repeating the backup does not help: after the witness history
   [Write 3; Backup; Write 1; Compact] key 1 is missing on the backup after ANY
   number of further runs. *)
Theorem c37_never_recovers : forall n,
  read (bk (exec init (witness_history ++ Backup :: repeat Backup n))) 1 = None /\
  read (src (exec init (witness_history ++ Backup :: repeat Backup n))) 1 = Some (2, 8).
Proof. exact never_recovers. Qed.
Print Assumptions c37_never_recovers.

(* finding 0, second form: a blob deleted on the source stays served by the backup (the
   compaction dropped the unpulled tombstone; equal .dat sizes, no full copy) *)
Theorem c37_delete_resurrected_refuted :
  hist_ok witness_delete = true /\ ts_increasing witness_delete = true /\ trigger witness_delete = Some 0 /\
  read (bk (exec init (witness_delete ++ [Backup]))) 1 = Some (1, 8) /\
  read (src (exec init (witness_delete ++ [Backup]))) 1 = None.
Proof. exact delete_resurrected. Qed.
Print Assumptions c37_delete_resurrected_refuted.

(* Finding 1, WITHOUT any compaction: the source's clock (time.Now().UnixNano(), stored
   unguarded) reads the same nanosecond as the backup's last record, or steps back:
   the search's [<=] skips the new record, for ever. *)
Theorem c37_equal_ts_refuted :
  hist_ok witness_equal_ts = true /\ pulled_before_each_compaction witness_equal_ts = true /\
  trigger witness_equal_ts = Some 1 /\
  read (bk (exec init (witness_equal_ts ++ [Backup]))) 2 = None /\
  read (src (exec init (witness_equal_ts ++ [Backup]))) 2 = Some (2, 8).
Proof. exact equal_ts_refuted. Qed.
Print Assumptions c37_equal_ts_refuted.

(* the same with a clock that steps back *)
Theorem c37_clock_step_refuted :
  hist_ok witness_clock_step = true /\ pulled_before_each_compaction witness_clock_step = true /\
  trigger witness_clock_step = Some 1 /\
  read (bk (exec init (witness_clock_step ++ [Backup]))) 2 = None /\
  read (src (exec init (witness_clock_step ++ [Backup]))) 2 = Some (2, 8).
Proof. exact clock_step_refuted. Qed.
Print Assumptions c37_clock_step_refuted.

(* "for ever": after witness_equal_ts key 2 is missing on the backup after ANY number of further runs *)
Theorem c37_never_recovers_equal_ts : forall n,
  read (bk (exec init (witness_equal_ts ++ Backup :: repeat Backup n))) 2 = None /\
  read (src (exec init (witness_equal_ts ++ Backup :: repeat Backup n))) 2 = Some (2, 8).
Proof. exact never_recovers_equal_ts. Qed.
Print Assumptions c37_never_recovers_equal_ts.

(* The strongest true statement.  [trigger h] walks the history and answers [Some 0] /
   [Some 1] at the FIRST step that is an instance of a finding: a source compaction
   (0) or an append whose clock reading is not newer than the backup's newest record
   (1) after which the state predicate [reflects] (c37_reflects_sound) no longer
   holds.  For every history without such a step — whatever the clock readings and
   wherever the compactions are — the backup serves exactly the source's live blobs
   after a backup run.  Of hist_ok only the positive clock readings are needed: 0 is the backup's
   "no record yet". *)
Theorem c37_converges_partial : forall h,
  ts_positive h = true -> trigger h = None ->
  forall k, read (bk (exec init (h ++ [Backup]))) k = read (src (exec init (h ++ [Backup]))) k.
Proof. exact converges_if_no_trigger. Qed.
Print Assumptions c37_converges_partial.

(* The same after EVERY backup run of the history, not only a last one *)
Theorem c37_converges_at_every_run : forall h1 h2,
  ts_positive (h1 ++ Backup :: h2) = true -> trigger (h1 ++ Backup :: h2) = None ->
  forall k, read (bk (exec init (h1 ++ [Backup]))) k = read (src (exec init (h1 ++ [Backup]))) k.
Proof. exact converges_at_every_run. Qed.
Print Assumptions c37_converges_at_every_run.

(* The history-level statement (clock strictly increasing, a backup run before every source
   compaction): *)
Theorem c37_converges_if_pulled : forall h,
  ts_increasing h = true -> pulled_before_each_compaction h = true ->
  forall k, read (bk (exec init (h ++ [Backup]))) k = read (src (exec init (h ++ [Backup]))) k.
Proof. exact converges_if_pulled. Qed.
Print Assumptions c37_converges_if_pulled.

(* non-vacuity 1: a history with overwrites, deletes, two compactions (each preceded by
   a pull), repeated runs: both hypotheses hold, non-empty equal volumes *)
Example c37_example : 
  trigger example_history = None /\ hist_ok example_history = true /\
  ts_increasing example_history = true /\ pulled_before_each_compaction example_history = true /\
  map (read (bk (exec init (example_history ++ [Backup])))) [1; 2; 3; 4] = [Some (0, 1); Some (3, 40); Some (0, 3); None] /\
  map (read (src (exec init (example_history ++ [Backup])))) [1; 2; 3; 4] = [Some (0, 1); Some (3, 40); Some (0, 3); None].
Proof. exact example_ok. Qed.
Print Assumptions c37_example.

(* non-vacuity 2: histories OUTSIDE the history-level condition but without a trigger:
   a compaction while dirty that is harmless (the unpulled key is the largest), equal
   clock readings inside the unpulled part, and a run that really re-copies records
   the backup already has (after its local compaction [since] is below its newest
   timestamp) *)
Example c37_example_harmless :
  trigger example_harmless = None /\ hist_ok example_harmless = true /\
  pulled_before_each_compaction example_harmless = false /\ ts_increasing example_harmless = false /\
  (length (recs (bk (exec init (example_harmless ++ [Backup])))) > length (recs (src (exec init (example_harmless ++ [Backup])))))%nat /\
  map (read (bk (exec init (example_harmless ++ [Backup])))) [1; 2; 3; 5; 7] =
  map (read (src (exec init (example_harmless ++ [Backup])))) [1; 2; 3; 5; 7] /\
  map (read (src (exec init (example_harmless ++ [Backup])))) [1; 2; 3; 5; 7] =
  [Some (1, 8); Some (1, 8); Some (1, 8); Some (1, 8); Some (2, 8)].
Proof. exact example_harmless_ok. Qed.
Print Assumptions c37_example_harmless.

(* non-vacuity 3: the run of example 2 left a backup of 9 records for a source of 5 (a
   superset was re-copied); the next run takes the destroy-and-full-copy branch
   ([dat_size bk > dat_size src], equal revisions) and converges with 5 records *)
Example c37_example_destroy :
  trigger example_destroy = None /\ hist_ok example_destroy = true /\
  (let st := exec init example_destroy in
   rev (bk st) <? rev (src st) = false /\ dat_size (src st) <? dat_size (bk st) = true /\
   length (recs (bk st)) = 9%nat /\ length (recs (bk (step st Backup))) = 5%nat) /\
  map (read (bk (exec init (example_destroy ++ [Backup])))) [1; 2; 3; 5; 7] =
  [Some (1, 8); Some (1, 8); Some (1, 8); Some (1, 8); Some (2, 8)] /\
  map (read (src (exec init (example_destroy ++ [Backup])))) [1; 2; 3; 5; 7] =
  [Some (1, 8); Some (1, 8); Some (1, 8); Some (1, 8); Some (2, 8)].
Proof. exact example_destroy_ok. Qed.
Print Assumptions c37_example_destroy.
