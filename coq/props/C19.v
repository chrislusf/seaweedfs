(* C19 — Directory listings are exact, ordered and paginate completely.
   Only statements closed by [exact]; proofs live in proof/Listing*.v.

   Model (model/Listing.v): a directory = its children (name, expired?) in byte order;
   stores: Lvl = the leveldb/leveldb2/leveldb3 rule, Gen = a store without native
   prefix listing (FilerStoreWrapper.prefixFilterEntries); list_entries =
   Filer.ListDirectoryEntries, stream_list = Filer.StreamListDirectoryEntries,
   list_valid = Filer.doListValidEntries, paginate / paginate_stream = the two ways the
   servers follow "the last returned name".  spec_names = the matching live children in
   name order, for the model's matcher [glob] (literals, '*' and '?'; '[' and '\' are read as
   literals, which filepath.Match does not).  The model's None = the call does not terminate;
   every theorem below includes termination.
   Notions of the statements that are defined in proof files: wf, cand (ListingStore), scan_ok
   (ListingScan), impl_sel, exact_at (ListingProofs), the example directories (ListingWitness,
   ListingStopSpec).

   The statements hold for every store and well-formed directory, and for every request
   except inside finding 0: a prefix AND a name pattern given together (the code documents
   them as mutually exclusive) where the pattern's literal prefix is empty or does not extend
   the requested prefix; decidable trigger [trig_narrow] (a subset of [trig_both]).
   Callbacks that stop a listing early: c19_stop_exact, c19_grpc_limit. *)
From Coq Require Import List NArith Bool String Ascii Arith.
From SW Require Import model.Listing proof.ListingBase proof.ListingStore proof.ListingScan proof.ListingPattern
                       proof.ListingProofs proof.ListingWitness proof.ListingStop proof.ListingStopSpec.
Import ListNotations.
Local Open Scope string_scope.
Local Open Scope list_scope.

(* partial (outside trig_narrow): the call terminates, the page is exactly
   the first [limit] matches in name order, hasMore tells whether more exist, and only
   expired children were removed from the directory *)
Theorem c19_exact_partial : forall s d start incl limit prefix pat excl,
  wf d -> trig_narrow prefix pat = false ->
  exists names more r,
    list_entries s d start incl limit prefix pat excl = Some (names, more, r) /\
    names = firstn limit (spec_names d start incl prefix pat excl) /\
    more = Nat.ltb limit (List.length (spec_names d start incl prefix pat excl)) /\
    wf (r_dir r) /\ filter elive (r_dir r) = filter elive d.
Proof. exact list_entries_exact. Qed.
Print Assumptions c19_exact_partial.

(* the matches are in strictly increasing name order: no duplicates *)
Theorem c19_matches_nodup : forall d start incl prefix pat excl,
  wf d -> NoDup (spec_names d start incl prefix pat excl).
Proof. exact spec_names_nodup. Qed.
Print Assumptions c19_matches_nodup.

(* full: every store call (leveldb rule and generic path) terminates and satisfies scan_ok:
   it hands the callback the first L of cand (the children after start with prefix p, expired
   or not), and cand from the returned lastFileName (exclusive), on the directory without the
   expired entries just visited, is the rest *)
Theorem c19_store_scan : forall s d start incl L p, wf d ->
  exists w, wrapper_list s d start incl L p = Some w /\ scan_ok d start incl L p w.
Proof. exact wrapper_list_spec. Qed.
Print Assumptions c19_store_scan.

(* full: StreamListDirectoryEntries terminates and emits the first [limit] entries of the
   selection the implementation computes (for every prefix/pattern combination) *)
Theorem c19_stream : forall s d start incl limit prefix pat excl, wf d ->
  exists r, stream_list s d start incl limit prefix pat excl = Some r /\
    r_names r = map ename (firstn limit (impl_sel start incl prefix pat excl d)) /\
    wf (r_dir r) /\ filter elive (r_dir r) = filter elive d.
Proof. exact stream_list_spec. Qed.
Print Assumptions c19_stream.

(* full: the returned lastFileName of a prefix/pattern/exclusion listing is a correct place to
   continue from (exclusive): what follows it is the selection behind the page *)
Theorem c19_stream_last : forall s d start incl limit prefix pat excl, wf d ->
  exists r, stream_list s d start incl limit prefix pat excl = Some r /\
    (r_last r <> "" ->
     impl_sel (r_last r) false prefix pat excl (r_dir r) = skipn limit (impl_sel start incl prefix pat excl d)) /\
    (r_last r = "" -> r_names r = []).
Proof. exact stream_last_cont. Qed.
Print Assumptions c19_stream_last.

(* ... and outside trig_narrow that selection is the requested one *)
Theorem c19_pattern_split : forall prefix pat excl n,
  trig_narrow prefix pat = false ->
  String.prefix (eff_prefix prefix pat) n && negb (missed (eff_prefix prefix pat) (snd (split_pattern pat)) excl n) =
  spec_match prefix pat excl n.
Proof. exact match_agrees_narrow. Qed.
Print Assumptions c19_pattern_split.

(* refuted inside the trigger (witnesses confirmed on the real Filer, all stores) *)
Theorem c19_exact_refuted_prefix_and_pattern :
  let d := live_dir ["a"; "ab"; "b"] in
  wf d /\ trig_narrow "b" "a*" = true /\
  (exists r, list_entries Lvl d "" false 10 "b" "a*" "" = Some (["a"; "ab"], false, r)) /\
  (exists r, list_entries Gen d "" false 10 "b" "a*" "" = Some (["a"; "ab"], false, r)) /\
  spec_names d "" false "b" "a*" "" = [] /\
  ~ exact_at Lvl d "" false 10 "b" "a*" "" /\ ~ exact_at Gen d "" false 10 "b" "a*" "".
Proof. exact refuted_prefix_and_pattern. Qed.
Print Assumptions c19_exact_refuted_prefix_and_pattern.

Theorem c19_exact_refuted_prefix_and_pattern_rest :
  let d := live_dir ["a"; "ab"; "b"] in
  wf d /\ trig_narrow "a" "?b" = true /\
  (exists r, list_entries Lvl d "" false 10 "a" "?b" "" = Some ([], false, r)) /\
  spec_names d "" false "a" "?b" "" = ["ab"] /\
  ~ exact_at Lvl d "" false 10 "a" "?b" "".
Proof. exact refuted_prefix_and_pattern_rest. Qed.
Print Assumptions c19_exact_refuted_prefix_and_pattern_rest.

(* following the last returned entry's name (exclusive) while hasMore terminates and
   enumerates the matches exactly once and in order, whatever the number of pages and the
   expired children deleted on the way (page size >= 1; fuel > number of matches) *)
Theorem c19_paginate : forall fuel s d start incl limit prefix pat excl,
  wf d -> trig_narrow prefix pat = false -> 0 < limit ->
  List.length (spec_names d start incl prefix pat excl) < fuel ->
  exists pages, paginate fuel s d start incl limit prefix pat excl = Some pages /\
                List.concat pages = spec_names d start incl prefix pat excl /\
                Forall (fun pg => List.length pg <= limit) pages.
Proof. exact paginate_exact. Qed.
Print Assumptions c19_paginate.

(* full: the same for a loop that follows StreamListDirectoryEntries' lastFileName without an
   overall limit (the gRPC server's loop always has one: c19_grpc_limit) *)
Theorem c19_paginate_stream : forall fuel s d start incl limit prefix,
  wf d -> 0 < limit -> List.length (spec_names d start incl prefix "" "") < fuel ->
  exists pages, paginate_stream fuel s d start incl limit prefix = Some pages /\
                List.concat pages = spec_names d start incl prefix "" "" /\
                Forall (fun pg => List.length pg <= limit) pages.
Proof. exact paginate_stream_exact. Qed.
Print Assumptions c19_paginate_stream.

(* full: for EVERY callback - modelled as the list of its answers, true once exhausted - the
   stop-aware StreamListDirectoryEntries terminates and hands the callback exactly the first
   stop_want limit ans = min(limit, index of the first false + 1) entries of the selection; only
   expired children leave the directory; the returned lastFileName is a correct place to continue
   from; a callback that answered false is not called again *)
Theorem c19_stop_exact : forall s d start incl limit prefix pat excl ans,
  wf d ->
  exists rs, stream_list_s s d start incl limit prefix pat excl ans = Some rs /\
    s_names rs = map ename (firstn (stop_want limit ans) (impl_sel start incl prefix pat excl d)) /\
    wf (s_dir rs) /\ filter elive (s_dir rs) = filter elive d /\
    (s_last rs <> "" -> impl_sel (s_last rs) false prefix pat excl (s_dir rs) =
                        skipn (stop_want limit ans) (impl_sel start incl prefix pat excl d)) /\
    (s_last rs = "" -> s_names rs = []) /\
    stop_respected ans (s_names rs) = true.
Proof. exact stream_list_s_full. Qed.
Print Assumptions c19_stop_exact.

(* full: with a callback that never refuses, the stop-aware StreamListDirectoryEntries IS the
   plain listing (names, lastFileName, directory afterwards, termination) - not a
   finding trigger: the hypothesis is what "the same" means *)
Theorem c19_stop_same : forall s d start incl limit prefix pat excl ans,
  forallb (fun b => b) ans = true ->
  match stream_list s d start incl limit prefix pat excl with
  | Some r => exists rs, stream_list_s s d start incl limit prefix pat excl ans = Some rs /\
                         s_names rs = r_names r /\ s_last rs = r_last r /\ s_dir rs = r_dir r /\ s_miss rs = 0
  | None => stream_list_s s d start incl limit prefix pat excl ans = None
  end.
Proof. exact stream_list_s_true. Qed.
Print Assumptions c19_stop_same.

(* full: the gRPC server's loop (overall limit, page size pag >= 1) terminates and sends exactly
   the first [limit] matches of the prefix listing, never more, in pages of at most pag entries *)
Theorem c19_grpc_limit : forall fuel s d start incl limit pag prefix,
  wf d -> 0 < pag -> List.length (spec_names d start incl prefix "" "") < fuel ->
  exists pages, grpc_list fuel s d start incl limit pag prefix = Some pages /\
                List.concat pages = firstn limit (spec_names d start incl prefix "" "") /\
                Forall (fun pg => List.length pg <= pag) pages.
Proof. exact grpc_list_exact. Qed.
Print Assumptions c19_grpc_limit.

(* full: doListValidEntries terminates; the page of valid entries is the first [limit] LIVE
   candidates, however many expired ones are interleaved; exactly expired children
   disappear from the directory *)
Theorem c19_expired_refill : forall s d start incl limit p, wf d ->
  exists r, list_valid s d start incl limit p = Some r /\
    r_names r = firstn limit (map ename (filter elive (cand start incl p d))) /\
    filter elive (r_dir r) = filter elive d /\
    (forall e, In e d -> In e (r_dir r) \/ eexp e = true) /\
    (forall e, In e (r_dir r) -> In e d).
Proof. exact list_valid_refill. Qed.
Print Assumptions c19_expired_refill.

(* the executable well-formedness test used by the check implies wf *)
Theorem c19_wfb_sound : forall d, wfb d = true -> wf d.
Proof. exact wfb_wf. Qed.
Print Assumptions c19_wfb_sound.

(* regression inputs (each satisfies the statement) and non-vacuity *)
Example c19_repaired_witnesses :
  (exists r, list_entries Lvl (live_dir ["a"; "ab"; "b"]) "" false 10 "" "ab" "" = Some (["ab"], false, r)) /\
  (exists r, list_entries Lvl (live_dir ["ab"; "abc"; "bb"]) "" false 10 "" "?b*" "" = Some (["ab"; "abc"; "bb"], false, r)) /\
  (exists r, list_entries Lvl (live_dir ["a"; "b"]) "a" false 10 "b" "" "" = Some (["b"], false, r)) /\
  (exists r, list_entries Gen (live_dir ["a"; "b"; "c"; "d"]) "" false 0 "d" "" "" = Some ([], true, r)) /\
  (exists r, list_entries Gen [("a", false); ("b", true); ("b0", true); ("ba", false); ("bb", false)] "" false 3 "b" "" ""
             = Some (["ba"; "bb"], false, r)) /\
  (exists r, list_entries Lvl [("a", false); ("b", false); ("c", true)] "" false 2 "" "*a" "" = Some (["a"], false, r)) /\
  paginate_stream 10 Lvl [("a", false); ("b", true)] "" false 3 "" = Some [["a"]].
Proof. exact repaired_witnesses. Qed.
Print Assumptions c19_repaired_witnesses.

Example c19_example_exact :
  wf ex_dir /\
  trig_narrow "" "a*" = false /\
  (exists r, list_entries Lvl ex_dir "a" false 1 "" "a*" "*c" = Some (["ab"], false, r) /\
             map ename (r_dir r) = ["a"; "ab"; "b"; "b0"; "ba"; "c"]) /\
  (exists r, list_entries Gen ex_dir "a" false 1 "" "a*" "*c" = Some (["ab"], false, r) /\
             map ename (r_dir r) = ["a"; "ab"; "b"; "b0"; "ba"; "c"]) /\
  (exists r, list_entries Lvl ex_dir "" false 2 "b" "" "" = Some (["b"; "ba"], false, r)) /\
  (exists r, list_entries Gen ex_dir "" false 1 "b" "" "" = Some (["b"], true, r)).
Proof. exact exact_example. Qed.
Print Assumptions c19_example_exact.

Example c19_example_paginate :
  paginate 10 Lvl ex_dir "" false 2 "" "" "a*" = Some [["b"; "ba"]; ["c"]] /\
  paginate 10 Gen ex_dir "" false 2 "" "" "a*" = Some [["b"; "ba"]; ["c"]] /\
  paginate_stream 10 Lvl ex_dir "" false 2 "" = Some [["a"; "ab"]; ["b"; "ba"]; ["c"]] /\
  paginate_stream 10 Gen ex_dir "" false 2 "a" = Some [["a"; "ab"]] /\
  spec_names ex_dir "" false "" "" "a*" = ["b"; "ba"; "c"].
Proof. exact paginate_example. Qed.
Print Assumptions c19_example_paginate.

Example c19_example_refill :
  exists r, list_valid Lvl ex_dir "" true 3 "a" = Some r /\
            r_names r = ["a"; "ab"] /\ map ename (r_dir r) = ["a"; "ab"; "b"; "b0"; "ba"; "c"].
Proof. exact refill_example. Qed.
Print Assumptions c19_example_refill.

Example c19_example_narrow :
  trig_both "a" "ab*" = true /\ trig_narrow "a" "ab*" = false /\
  (exists r, list_entries Lvl ex_dir "" false 5 "a" "ab*" "" = Some (["ab"], false, r)) /\
  (exists r, list_entries Gen ex_dir "" false 5 "a" "ab*" "" = Some (["ab"], false, r)) /\
  spec_names ex_dir "" false "a" "ab*" "" = ["ab"].
Proof. exact narrow_example. Qed.
Print Assumptions c19_example_narrow.

(* a callback that answers false on its first call is not
   called again by either refill loop; the gRPC loop with limit 3 and page size 2 sends 3 entries *)
Example c19_repaired_stop :
  wf stop_dir /\ wf stop_dir_live /\ wf grpc_dir /\
  s_proj (stream_list_s Lvl stop_dir "" false 3 "" "" "" [false]) = Some (["b"], "b") /\
  s_proj (stream_list_s Gen stop_dir "" false 3 "" "" "" [false]) = Some (["b"], "b") /\
  s_proj (stream_list_s Lvl stop_dir_live "" false 2 "" "" "a" [false]) = Some (["b"], "b") /\
  s_proj (stream_list_s Gen stop_dir_live "" false 2 "" "" "a" [false]) = Some (["b"], "b") /\
  stop_respected [false] ["b"] = true /\
  grpc_list 10 Lvl grpc_dir "" false 3 2 "" = Some [["a"; "b"]; ["d"]] /\
  grpc_list 10 Gen grpc_dir "" false 3 2 "" = Some [["a"; "b"]; ["d"]] /\
  firstn 3 (spec_names grpc_dir "" false "" "" "") = ["a"; "b"; "d"].
Proof. exact stop_repaired. Qed.
Print Assumptions c19_repaired_stop.

Example c19_example_stop :
  stop_want 2 [true; true] = 2 /\ stop_want 3 [true; false] = 2 /\ stop_want 4 [true; false; false] = 2 /\
  s_proj (stream_list_s Lvl stop_dir "" false 2 "" "" "" [true; true]) = Some (["b"; "c"], "c") /\
  s_proj (stream_list_s Gen stop_dir "" false 2 "" "*" "d" [true; true]) = Some (["b"; "c"], "c") /\
  s_proj (stream_list_s Lvl stop_dir_live "" false 3 "" "" "" [true; false]) = Some (["a"; "b"], "b") /\
  s_proj (stream_list_s Gen stop_dir "" false 4 "" "" "b" [true; false; false]) = Some (["c"; "d"], "d").
Proof. exact stop_example. Qed.
Print Assumptions c19_example_stop.
