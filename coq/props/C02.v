(* C02 — Needle on-disk encoding round-trips and is self-checking.
   Only statements closed by [exact]; proofs live in proof/Needle{,Scan,Stream,Crc}Proofs.v.
   [crc] is any function list N -> N; [crc32c] is CRC32-Castagnoli itself (model/NeedleCrc.v,
   bit by bit; compared with the Go library's value on every byte string of every case).
   Hypotheses (defined in proof/NeedleProofs.v): [enc_okb n] what a caller of Append guarantees (below);
   [ranges_ok n] the fixed-width fields fit: cookie < 2^32, id < 2^64, Size < 2^31, name <= 255 bytes,
   last-modified < 2^40, PairsSize < 2^16, AppendAtNs < 2^64; [rec_ok n] = enc_okb n /\ ranges_ok n;
   [empty_payload n] the data is empty (trigger of finding 0); [bytes_ok l] every element < 256;
   [overwrite_data rec len d'] the record with the [len] data bytes behind its first 20 replaced by d'. *)
From Coq Require Import List NArith Bool.
From SW Require Import model.Needle model.NeedleCrc model.NeedleStream proof.NeedleProofs proof.NeedleCrcProofs proof.NeedleScanProofs proof.NeedleStreamProofs.
Import ListNotations.
Local Open Scope N_scope.

(* Every record is exactly as long as the index says (GetActualSize of the size field) and that
   length is a multiple of 8 — for every needle a writer may pass (mime < 256 bytes, a TTL when
   the TTL flag is set, PairsSize = len(Pairs)), every flag combination, version 2 and 3. *)
Theorem c02_aligned : forall v n, enc_okb n = true ->
  len (encode v n) = actual_size (body_size n) v /\ len (encode v n) mod 8 = 0.
Proof. exact encode_aligned. Qed.
Print Assumptions c02_aligned.

(* GetActualSize is 8-aligned with 1..8 padding bytes for every size and version. *)
Theorem c02_actual_size_aligned : forall s v,
  actual_size s v mod 8 = 0 /\ 1 <= padding_length s v <= 8.
Proof. exact (fun s v => conj (actual_size_aligned s v) (padding_range s v)). Qed.
Print Assumptions c02_actual_size_aligned.

(* Round trip, FULL statement restricted by the trigger of known finding 0 (empty payload):
   a record with non-empty data decodes (ReadBytes on its own bytes) to the same blob without error. *)
Theorem c02_roundtrip_partial : forall crc v n, empty_payload n = false -> enc_okb n = true ->
  ranges_ok n -> checksum n = crc (data n) ->
  read_bytes crc (encode v n) (body_size n) v = (dview v n, SOk).
Proof. exact roundtrip_partial. Qed.
Print Assumptions c02_roundtrip_partial.

(* the same through ReadData at the record's offset inside any file *)
Theorem c02_roundtrip_in_file : forall crc v n pre post, empty_payload n = false -> enc_okb n = true ->
  ranges_ok n -> checksum n = crc (data n) ->
  read_data crc (pre ++ encode v n ++ post) (len pre) (body_size n) v = (dview v n, SOk).
Proof. exact roundtrip_in_file. Qed.
Print Assumptions c02_roundtrip_in_file.

(* [dview]/[view] drop nothing from a needle whose unflagged fields are empty *)
Theorem c02_view_is_identity : forall v n, normalb v n = true -> view v n = n.
Proof. exact view_normal. Qed.
Print Assumptions c02_view_is_identity.

(* Known finding 0: without the trigger hypothesis the round trip is false — a well-formed needle
   with empty data loses its name (and flags, mime, pairs, TTL, last-modified). *)
Theorem c02_roundtrip_refuted : exists n, enc_okb n = true /\ ranges_ok n /\
  forall crc v, checksum n = crc (data n) ->
    read_bytes crc (encode v n) (body_size n) v <> (dview v n, SOk).
Proof. exact roundtrip_refuted. Qed.
Print Assumptions c02_roundtrip_refuted.

(* what does come back for empty data: size 0, header and timestamp only *)
Theorem c02_roundtrip_empty : forall crc v n, empty_payload n = true ->
  cookie n < 2 ^ 32 -> id n < 2 ^ 64 -> append_at_ns n < 2 ^ 64 ->
  body_size n = 0 /\ read_bytes crc (encode v n) (body_size n) v = (stripped v n 0, SOk).
Proof. exact roundtrip_empty. Qed.
Print Assumptions c02_roundtrip_empty.

(* Scanning [prefix ++ records] from the end of the prefix visits exactly the records, in
   order, each at its own offset — for every list of records (with or without payload). *)
Theorem c02_scan : forall crc v pre rs, Forall rec_ok rs ->
  scan crc v (pre ++ concat (map (encode v) rs)) (len pre) = scan_expected crc v rs (len pre).
Proof. exact scan_records. Qed.
Print Assumptions c02_scan.

(* the visited needle of a record with payload is the written blob *)
Theorem c02_scan_visits_written : forall crc v pre rs, Forall rec_ok rs ->
  Forall (fun n => empty_payload n = false /\ checksum n = crc (data n)) rs ->
  scan crc v (pre ++ concat (map (encode v) rs)) (len pre) = written v rs (len pre).
Proof. exact scan_written. Qed.
Print Assumptions c02_scan_visits_written.

(* id, cookie and offset are right for every record, with or without payload *)
Theorem c02_scan_ids : forall crc v rs off,
  map (fun p => (id (d_n (fst p)), cookie (d_n (fst p)), snd p)) (scan_expected crc v rs off) =
  (fix go (rs : list needle) (off : N) :=
     match rs with [] => [] | n :: rs' => (id n, cookie n, off) :: go rs' (off + actual_size (body_size n) v) end) rs off.
Proof. exact scan_expected_ids. Qed.
Print Assumptions c02_scan_ids.

(* Self-checking: overwrite the data bytes of a stored record by any other bytes of the same
   length; if the CRC oracle tells the two strings apart, ReadBytes reports the CRC error. *)
Theorem c02_crc_detects : forall crc, (forall b, crc b < 2 ^ 32) ->
  forall v n d', data n <> [] -> enc_okb n = true -> ranges_ok n ->
  checksum n = crc (data n) -> len d' = len (data n) -> crc d' <> crc (data n) ->
  snd (read_bytes crc (overwrite_data (encode v n) (len (data n)) d') (body_size n) v) = SCrc.
Proof. exact altered_data_detected. Qed.
Print Assumptions c02_crc_detects.

(* overwriting in place is the encoding of the needle with the new data and the OLD checksum *)
Theorem c02_overwrite_is_encode : forall v n d', data n <> [] -> len d' = len (data n) ->
  encode v (n_set_data n d') = overwrite_data (encode v n) (len (data n)) d'.
Proof. exact encode_set_data. Qed.
Print Assumptions c02_overwrite_is_encode.

(* CRC32-C changes whenever one byte of a string changes (any of the 255 non-zero masks -
   every single-bit flip in particular - at any position, any length): the register is
   GF(2)-linear and a step never turns a non-zero 32-bit value into zero. *)
Theorem c02_crc32c_detects_byte : forall l pos mask, pos < len l -> 0 < mask < 256 ->
  crc32c (flip_byte l pos mask) <> crc32c l.
Proof. exact crc32c_detects_byte. Qed.
Print Assumptions c02_crc32c_detects_byte.

(* "A stored record whose data bytes are altered is reported as corrupted instead of being
   returned", for ReadBytes and one altered byte, with the real CRC32-C in place of the oracle [crc]. *)
Theorem c02_crc32c_flip_detected : forall v n pos mask, enc_okb n = true -> ranges_ok n -> bytes_ok (data n) ->
  checksum n = crc32c (data n) -> pos < len (data n) -> 0 < mask < 256 ->
  snd (read_bytes crc32c (flip_byte (encode v n) (20 + pos) mask) (body_size n) v) = SCrc.
Proof. exact crc32c_flip_detected. Qed.
Print Assumptions c02_crc32c_flip_detected.

(* the same for any change confined to 4 consecutive data bytes (bursts of up to 32 bits in a
   byte-aligned window; in particular every burst of at most 25 bits) *)
Theorem c02_crc32c_burst_detected : forall v n a x b w, enc_okb n = true -> ranges_ok n -> bytes_ok (data n) ->
  checksum n = crc32c (data n) -> data n = a ++ x ++ b ->
  length x = length w -> (length w <= 4)%nat -> bytes_ok w -> Exists (fun m => m <> 0) w ->
  snd (read_bytes crc32c (overwrite_data (encode v n) (len (data n)) (a ++ xor_list x w ++ b)) (body_size n) v) = SCrc.
Proof. exact crc32c_burst_detected. Qed.
Print Assumptions c02_crc32c_burst_detected.

Theorem c02_crc32c_detects_burst : forall a x b w, length x = length w -> (length w <= 4)%nat ->
  bytes_ok w -> Exists (fun m => m <> 0) w ->
  crc32c (a ++ xor_list x w ++ b) <> crc32c (a ++ x ++ b).
Proof. exact crc32c_detects_burst. Qed.
Print Assumptions c02_crc32c_detects_burst.

(* the same through ReadData, the record anywhere in a file *)
Theorem c02_crc32c_flip_detected_in_file : forall v n pre post pos mask, enc_okb n = true -> ranges_ok n ->
  bytes_ok (data n) -> checksum n = crc32c (data n) -> pos < len (data n) -> 0 < mask < 256 ->
  snd (read_data crc32c (flip_byte (pre ++ encode v n ++ post) (len pre + (20 + pos)) mask) (len pre) (body_size n) v) = SCrc.
Proof. exact crc32c_flip_detected_in_file. Qed.
Print Assumptions c02_crc32c_flip_detected_in_file.

(* The scan path is not self-checking (known finding 1): ReadNeedleBodyBytes sets n.Checksum = NewCRC(n.Data) instead of comparing; a visitor that
   re-appends what it is handed (VolumeFileScanner4Vacuum, i.e. the scan-based Volume.Compact)
   therefore writes every record with a checksum that fits whatever data the scan decoded. *)
Theorem c02_scan_copy_fixes : forall crc v npre pre rs, Forall rec_ok rs ->
  scan_copy crc v npre (pre ++ concat (map (encode v) rs)) (len pre)
    = npre ++ concat (map (encode v) (map (fix_checksum crc) rs)) /\
  scan_copy_index crc v npre (pre ++ concat (map (encode v) rs)) (len pre) = layout v rs (len npre).
Proof. exact scan_copy_fixes. Qed.
Print Assumptions c02_scan_copy_fixes.

(* every record with payload of the copy reads back with status ok *)
Theorem c02_scan_copy_reads_ok : forall crc v npre pre rs1 n rs2,
  Forall rec_ok (rs1 ++ n :: rs2) -> data n <> [] ->
  read_data crc (scan_copy crc v npre (pre ++ concat (map (encode v) (rs1 ++ n :: rs2))) (len pre))
            (len npre + len (concat (map (encode v) rs1))) (body_size n) v
    = (dview v (fix_checksum crc n), SOk).
Proof. exact scan_copy_reads_ok. Qed.
Print Assumptions c02_scan_copy_reads_ok.

(* in particular a record whose data bytes were overwritten in place by ANY d': after the
   copy it is returned with the altered bytes d', not reported. *)
Theorem c02_scan_copy_launders : forall crc v npre pre rs1 n d' rs2,
  Forall rec_ok (rs1 ++ n :: rs2) -> data n <> [] -> len d' = len (data n) ->
  let file := pre ++ concat (map (encode v) rs1) ++ overwrite_data (encode v n) (len (data n)) d'
                  ++ concat (map (encode v) rs2) in
  exists r, read_data crc (scan_copy crc v npre file (len pre))
                      (len npre + len (concat (map (encode v) rs1))) (body_size n) v = (r, SOk)
            /\ data (d_n r) = d'.
Proof. exact scan_copy_launders. Qed.
Print Assumptions c02_scan_copy_launders.

(* FULL statement (scan_self_checking: after a scan-based copy of a file with an altered
   record, reading that record does not succeed) REFUTED for the real checksum *)
Theorem c02_scan_self_checking_refuted : ~ scan_self_checking crc32c.
Proof. exact scan_self_checking_refuted. Qed.
Print Assumptions c02_scan_self_checking_refuted.

(* it is refuted for every checksum function that can tell two equally long strings apart at all *)
Theorem c02_scan_self_checking_refuted_gen : forall crc n d', rec_ok n -> data n <> [] ->
  checksum n = crc (data n) -> len d' = len (data n) -> crc d' <> crc (data n) ->
  ~ scan_self_checking crc.
Proof. exact scan_self_checking_refuted_gen. Qed.
Print Assumptions c02_scan_self_checking_refuted_gen.

(* the witness: id 1 "hello", lowest bit of 'h' flipped: the direct
   read answers the CRC error, the read after the copy returns "iello" with status ok *)
Theorem c02_launder_witness :
  let n := launder_witness in
  let sb := [3; 0; 0; 0; 0; 0; 0; 0] in
  let bad := sb ++ overwrite_data (encode 3 n) 5 [105; 101; 108; 108; 111] in
  snd (read_data crc32c bad 8 (body_size n) 3) = SCrc /\
  (let '(r, s) := read_data crc32c (scan_copy crc32c 3 sb bad 8) 8 (body_size n) 3 in
   (data (d_n r), s)) = ([105; 101; 108; 108; 111], SOk).
Proof. exact launder_witness_computed. Qed.
Print Assumptions c02_launder_witness.

(* PARTIAL (trigger: some record's checksum disagrees with its data, [unaltered] = false): a
   scan-based copy of an undamaged file is that file after the new prefix - so every record
   reads back as written (c02_roundtrip_in_file) *)
Theorem c02_scan_copy_partial : forall crc v npre pre rs, Forall rec_ok rs -> unaltered crc rs = true ->
  scan_copy crc v npre (pre ++ concat (map (encode v) rs)) (len pre) = npre ++ concat (map (encode v) rs).
Proof. exact scan_copy_clean. Qed.
Print Assumptions c02_scan_copy_partial.

(* records followed by a record cut after k bytes: the complete records are visited as
   before; the torn one is not visited if its header is incomplete, else once with the
   header only; nothing else *)
Theorem c02_scan_torn : forall crc v pre rs n k, Forall rec_ok rs -> rec_ok n -> k < len (encode v n) ->
  scan crc v (pre ++ concat (map (encode v) rs) ++ takeN k (encode v n)) (len pre) =
    scan_expected crc v rs (len pre)
    ++ (if k <? 16 then []
        else [(header_needle (cookie n) (id n) (body_size n), len pre + len (concat (map (encode v) rs)))]).
Proof. exact scan_torn. Qed.
Print Assumptions c02_scan_torn.

(* the decoder as it runs (DataSize read within the capacity of the blob, [read_v2_x]) and the
   simpler [read_v2] agree on every body of 0 or >= 4 bytes *)
Theorem c02_decoder_variants_agree : forall ext body d, body = [] \/ 4 <= len body ->
  read_v2_x ext body d = read_v2 body d.
Proof. exact read_v2_x_eq. Qed.
Print Assumptions c02_decoder_variants_agree.

(* Which writers and readers of records the theorems cover.
   Producers of on-disk needle records in weed/storage (grep CookieToBytes / NeedleIdToBytes /
   prepareWriteBuffer / StreamWrite / WriteNeedleBlob):
   1. Needle.prepareWriteBuffer / Needle.Append ([encode]): every HTTP / gRPC write, the
      scan-based Volume.Compact (re-append of every visited needle, [scan_copy]), replication.
      Theorems c02_aligned .. c02_scan_torn above.
   2. Volume.StreamWrite ([stream_encode], the volume server's -tcp put path): a VERSION-3
      record with header (cookie, id, Size = 4 + dataSize + 1), DataSize, the data as io.Copy
      moved them from the reader, ONE flags byte, the checksum ACCUMULATED by CRCwriter over
      the Write calls, AppendAtNs, padding.  It writes NO name, mime, last-modified, TTL or
      pairs whatever the flags byte announces, and (unlike Append) it also writes the 5-byte
      body for empty data.  Theorems c02_stream_* below: the record is 8-aligned, decodes to
      the same blob and passes the CRC check for every data length (zero included), every
      flags byte and every way the reader cuts the data into pieces; with no field flag it is
      byte for byte [encode 3] of [stream_needle], so the scan and CRC-detection theorems
      above apply to it.
   3. needle.WriteNeedleBlob / Volume.WriteNeedleBlob ([restamp]): a raw blob read with
      ReadNeedleBlob on another server, appended with a fresh timestamp (volume.check.disk).
      Theorem c02_restamp_encode.
   Raw record bytes are also copied WITHOUT being decoded by the index-based compaction
   (Volume.Compact2 / copyDataBasedOnIndexFile), the incremental backup / tail
   (volume_backup.go, BinarySearchByAppendAtNs + raw copy) and makeupDiff of CommitCompact:
   these are covered by their own properties (C04 compaction is invisible to readers, C37
   incremental backup converges to the source); erasure coding re-slices the .dat bytes (C06);
   the mount's chunk cache stores chunk bytes in needle-map-indexed cache volumes of its own
   (C31).  Consumers: Needle.ReadData / ReadBytes (CRC compare),
   ScanVolumeFileFrom (no compare: finding 1), Volume.StreamRead (no compare: finding 2). *)

(* CRCwriter: the checksum after any sequence of Write calls is the CRC32-C of everything
   written - however the data were cut *)
Theorem c02_crc_writer_accumulates : forall chunks,
  crc_writer crc32c_update chunks = crc32c (concat chunks).
Proof. exact crc_writer_whole. Qed.
Print Assumptions c02_crc_writer_accumulates.

Theorem c02_crc_writer_split_irrelevant : forall szs l,
  crc_writer crc32c_update (chunks_of szs l) = crc32c l.
Proof. exact crc_writer_split_irrelevant. Qed.
Print Assumptions c02_crc_writer_split_irrelevant.

(* a stream-written record is as long as GetActualSize of its index entry says: 8-aligned *)
Theorem c02_stream_aligned : forall upd c i fl ds chunks ts, len (concat chunks) = ds ->
  len (stream_encode upd c i fl ds chunks ts) = actual_size (stream_size ds) 3 /\
  len (stream_encode upd c i fl ds chunks ts) mod 8 = 0.
Proof. exact stream_aligned. Qed.
Print Assumptions c02_stream_aligned.

(* ROUND TRIP of the stream writer, any checksum whose Update accumulates: ReadData at the
   record's offset inside any file returns cookie, id, the data, the flags byte, the checksum
   of the WHOLE data and the timestamp with status ok (the CRC compare passed) - any data
   length including zero, any flags byte, any cut into Write calls *)
Theorem c02_stream_roundtrip : forall crc upd,
  (forall chunks, crc_writer upd chunks = crc (concat chunks)) ->
  forall c i fl chunks ts pre post,
  c < 2 ^ 32 -> i < 2 ^ 64 -> stream_size (len (concat chunks)) < 2 ^ 31 -> ts < 2 ^ 64 ->
  read_data crc (pre ++ stream_encode upd c i fl (len (concat chunks)) chunks ts ++ post) (len pre)
            (stream_size (len (concat chunks))) 3 =
    (stream_dneedle c i fl (concat chunks) (crc (concat chunks)) ts, SOk).
Proof. exact stream_read_data. Qed.
Print Assumptions c02_stream_roundtrip.

(* the same with the real CRC32-C and CRC.Update, no assumption left, the data [d] cut after
   any sizes [szs] *)
Theorem c02_stream_roundtrip_crc32c : forall c i fl szs d ts pre post,
  c < 2 ^ 32 -> i < 2 ^ 64 -> stream_size (len d) < 2 ^ 31 -> ts < 2 ^ 64 ->
  read_data crc32c (pre ++ stream_encode crc32c_update c i fl (len d) (chunks_of szs d) ts ++ post) (len pre)
            (stream_size (len d)) 3 =
    (stream_dneedle c i fl d (crc32c d) ts, SOk).
Proof. exact stream_roundtrip_crc32c. Qed.
Print Assumptions c02_stream_roundtrip_crc32c.

(* with no field-announcing flag and some data, the stream writer's bytes are Append's bytes
   for [stream_needle] (which is a well-formed record: rec_ok), so c02_scan, c02_scan_torn,
   c02_crc_detects, c02_crc32c_burst_detected speak about stream-written records too *)
Theorem c02_stream_is_encode : forall upd c i fl chunks ts,
  no_field_flags fl = true -> concat chunks <> [] ->
  stream_encode upd c i fl (len (concat chunks)) chunks ts =
    encode 3 (stream_needle c i fl (concat chunks) (crc_writer upd chunks) ts).
Proof. exact stream_is_encode. Qed.
Print Assumptions c02_stream_is_encode.

Theorem c02_stream_rec_ok : forall c i fl d ck ts, no_field_flags fl = true -> d <> [] ->
  c < 2 ^ 32 -> i < 2 ^ 64 -> stream_size (len d) < 2 ^ 31 -> ts < 2 ^ 64 ->
  rec_ok (stream_needle c i fl d ck ts).
Proof. exact stream_needle_rec_ok. Qed.
Print Assumptions c02_stream_rec_ok.

(* self-checking, stream-written record, real checksum: one altered data byte is reported by
   ReadBytes *)
Theorem c02_stream_flip_detected : forall c i fl szs d ts pos mask,
  no_field_flags fl = true -> c < 2 ^ 32 -> i < 2 ^ 64 -> stream_size (len d) < 2 ^ 31 -> ts < 2 ^ 64 ->
  bytes_ok d -> pos < len d -> 0 < mask < 256 ->
  snd (read_bytes crc32c (flip_byte (stream_encode crc32c_update c i fl (len d) (chunks_of szs d) ts) (20 + pos) mask)
                  (stream_size (len d)) 3) = SCrc.
Proof. exact stream_flip_detected. Qed.
Print Assumptions c02_stream_flip_detected.

(* Volume.StreamRead is not self-checking (known finding 2).
   PARTIAL (trigger: the data bytes of the record were altered): on the record as written
   StreamRead hands out DataSize and the written data *)
Theorem c02_stream_read_partial : forall upd c i fl chunks ts pre post,
  len (concat chunks) < 2 ^ 32 ->
  stream_read (pre ++ stream_encode upd c i fl (len (concat chunks)) chunks ts ++ post) (len pre) =
    be_encode 4 (len (concat chunks)) ++ concat chunks.
Proof. exact stream_read_written. Qed.
Print Assumptions c02_stream_read_partial.

(* the defect: overwrite the data bytes in place by ANY d' - StreamRead returns d' *)
Theorem c02_stream_read_returns_altered : forall upd c i fl chunks ts pre post d',
  len d' = len (concat chunks) -> len d' < 2 ^ 32 ->
  stream_read (pre ++ overwrite_data (stream_encode upd c i fl (len (concat chunks)) chunks ts) (len (concat chunks)) d' ++ post)
              (len pre) = be_encode 4 (len d') ++ d'.
Proof. exact stream_read_returns_altered. Qed.
Print Assumptions c02_stream_read_returns_altered.

(* FULL statement (altered data are not handed out) REFUTED *)
Theorem c02_stream_read_self_checking_refuted : ~ stream_read_self_checking.
Proof. exact stream_read_self_checking_refuted. Qed.
Print Assumptions c02_stream_read_self_checking_refuted.

(* the witness, also the non-vacuity example of the stream theorems: "hello"
   written in two pieces after the super block round-trips and StreamRead returns it; after
   flipping the lowest bit of 'h' ReadData answers the CRC error, StreamRead "iello" *)
Theorem c02_stream_witness :
  read_data crc32c stream_witness_file 8 10 3
    = (stream_dneedle 4660 1 0 [104; 101; 108; 108; 111] (crc32c [104; 101; 108; 108; 111]) 5, SOk) /\
  stream_read stream_witness_file 8 = [0; 0; 0; 5; 104; 101; 108; 108; 111] /\
  snd (read_data crc32c (flip_byte stream_witness_file 28 1) 8 10 3) = SCrc /\
  stream_read (flip_byte stream_witness_file 28 1) 8 = [0; 0; 0; 5; 105; 101; 108; 108; 111].
Proof. exact stream_witness_computed. Qed.
Print Assumptions c02_stream_witness.

(* WriteNeedleBlob: a record copied as a raw blob and re-stamped is the record of the same needle with the new
   timestamp (so it round-trips by c02_roundtrip_in_file); version 2 copies verbatim *)
Theorem c02_restamp_encode : forall n ts, enc_okb n = true ->
  restamp (encode 3 n) (body_size n) ts 3 = encode 3 (n_set_append n ts).
Proof. exact restamp_encode. Qed.
Print Assumptions c02_restamp_encode.

Theorem c02_restamp_v2 : forall blob size ts, restamp blob size ts 2 = blob.
Proof. exact restamp_v2. Qed.
Print Assumptions c02_restamp_v2.

(* non-vacuity: a version-3 needle with every defined flag set and the real CRC32-C satisfies
   all the hypotheses, is 8-aligned, round-trips, is found by the scan after an 8-byte super
   block, a changed data byte is detected, a torn copy is visited header-only, and the
   scan-based copy of the undamaged file is the file. *)
Example c02_example :
  let n := example_needle_c in
  let sb := [3; 0; 0; 0; 0; 0; 0; 0] in
  enc_okb n = true /\ ranges_ok n /\ rec_ok n /\ checksum n = crc32c (data n) /\
  empty_payload n = false /\ normalb 3 n = true /\ unaltered crc32c [n; n] = true /\
  len (encode 3 n) = 64 /\
  read_bytes crc32c (encode 3 n) (body_size n) 3 = (dview 3 n, SOk) /\
  scan crc32c 3 (sb ++ encode 3 n ++ encode 3 n) 8 = [(dview 3 n, 8); (dview 3 n, 72)] /\
  snd (read_bytes crc32c (flip_byte (encode 3 n) (20 + 2) 4) (body_size n) 3) = SCrc /\
  scan crc32c 3 (sb ++ encode 3 n ++ takeN 40 (encode 3 n)) 8
    = [(dview 3 n, 8); (header_needle (cookie n) (id n) (body_size n), 72)] /\
  scan_copy crc32c 3 sb (sb ++ encode 3 n ++ encode 3 n) 8 = sb ++ encode 3 n ++ encode 3 n.
Proof. exact example_holds. Qed.
Print Assumptions c02_example.

Example c02_example_bytes : bytes_ok (data example_needle_c).
Proof. exact example_bytes_ok. Qed.
Print Assumptions c02_example_bytes.

(* the generic-checksum theorems are not vacuous either (toy checksum) *)
Example c02_example_toy :
  let n := example_needle in
  enc_okb n = true /\ ranges_ok n /\ rec_ok n /\ checksum n = toy_crc (data n) /\
  empty_payload n = false /\ normalb 3 n = true /\
  len (encode 3 n) = 64 /\
  read_bytes toy_crc (encode 3 n) (body_size n) 3 = (dview 3 n, SOk) /\
  scan toy_crc 3 ([3; 0; 0; 0; 0; 0; 0; 0] ++ encode 3 n ++ encode 3 n) 8 = [(dview 3 n, 8); (dview 3 n, 72)] /\
  snd (read_bytes toy_crc (overwrite_data (encode 3 n) 5 [1; 2; 7; 255; 0]) (body_size n) 3) = SCrc.
Proof. exact example_toy_holds. Qed.
Print Assumptions c02_example_toy.
