(* C36 — Replication and sync mirror exactly the watched subtree.
   Only statements closed by [exact].  Proofs: proof/ReplProofs.v (string / segment lemmas,
   signature filter, Replicate), proof/ReplEmit.v (genProcessFunction, emitted labels),
   proof/ReplLocal.v (LocalSink over histories); [root_move], [emit_labels] and the *_full
   statements are defined there.  pathIsUnder (weed/command/filer_sync.go) and the trimmed dir
   of Replicator.Replicate compare whole path components; genProcessFunction's early test also
   looks at NewParentPath; LocalSink.UpdateEntry answers "not found" for a moved entry. *)
From Coq Require Import List NArith ZArith Bool String.
From SW Require Import model.Repl proof.ReplProofs proof.ReplEmit proof.ReplLocal.
Import ListNotations.

(* An event all of whose keys lie outside the watched directory, comparing whole
   path components (so /data2/x is outside /data), reaches no sink operation:
   genProcessFunction, incremental or not ... *)
Theorem c36_outside_ignored_sync : forall c ev,
  wf_config c = true -> wf_event ev = true -> all_outside c ev = true ->
  sync_process c ev = Nothing.
Proof. exact sync_outside_ignored. Qed.
Print Assumptions c36_outside_ignored_sync.

(* ... and Replicator.Replicate, for any message. *)
Theorem c36_outside_ignored_replicate : forall c k ev,
  wf_config c = true -> forallb plain k = true -> lprefix (src_segs c) k = false ->
  replicate c (abs k) ev = Nothing.
Proof. exact replicate_outside_ignored. Qed.
Print Assumptions c36_outside_ignored_replicate.

(* FULL: a change that carries the target filer's signature is never applied by
   filer.sync; filer.replicate never applies a change that was itself written by
   replication (IsFromOtherCluster) to a filer sink. *)
Theorem c36_no_echo :
  (forall c ev, target_sig c <> 0%Z -> In (target_sig c) (ev_sigs ev) -> sync_filtered c ev = Nothing) /\
  (forall c key ev, ev_from_other ev = true -> sink_is_filer c = true -> replicate c key ev = Nothing).
Proof. exact (conj sync_no_echo replicate_no_echo). Qed.
Print Assumptions c36_no_echo.

(* an event without the target filer's signature passes the filter unchanged *)
Theorem c36_filter_transparent : forall c ev,
  ~ In (target_sig c) (ev_sigs ev) -> sync_filtered c ev = sync_process c ev.
Proof. exact sync_filter_transparent. Qed.
Print Assumptions c36_filter_transparent.

(* genProcessFunction (filer.sync, filer.backup) on a sink that is not incremental: every
   well-formed event that does not name the watched directory's own entry yields exactly
   the reference plan — create / delete / update / move at the mapped path for keys
   strictly inside (incl. moves into and out of the subtree), nothing for keys outside.
   (A special case of c36_mirror_sync_all.) *)
Theorem c36_mirror_sync : forall c ev,
  wf_config c = true -> wf_event ev = true -> incremental c = false ->
  touches_root c ev = false ->
  sync_process c ev = mirror_spec c ev.
Proof. exact sync_mirror. Qed.
Print Assumptions c36_mirror_sync.

(* The same statement fails for Replicator.Replicate (finding 0: NewParentPath is
   handed to the sink unmapped and the event is handled by its old key only). *)
Theorem c36_mirror_replicate_refuted : ~ mirror_full_replicate.
Proof. exact replicate_mirror_refuted. Qed.
Print Assumptions c36_mirror_replicate_refuted.

(* PARTIAL for Replicate: outside that trigger it issues the reference plan. *)
Theorem c36_mirror_partial :
  (forall c ev,
     wf_config c = true -> wf_event ev = true -> incremental c = false ->
     touches_root c ev = false ->
     sync_process c ev = mirror_spec c ev) /\
  (forall c ev,
     wf_config c = true -> wf_event ev = true -> incremental c = false ->
     ev_from_other ev && sink_is_filer c = false ->
     touches_root c ev = false -> replicate_unsafe c ev = false ->
     replicate c (event_key ev) ev = mirror_spec c ev).
Proof. exact (conj sync_mirror replicate_mirror_partial). Qed.
Print Assumptions c36_mirror_partial.

(* LocalSink, all trees: a moved entry makes UpdateEntry answer "not found"
   without touching the tree, so the plan deletes the old key and runs the create; *)
Theorem c36_local_move : forall t key np n dc isdir cr,
  is_multipart key = false -> join [np; e_name n] <> key ->
  fst (exec_plan _ local_do t (UpdateOr (Update key np n dc) (Delete key isdir false) cr)) =
  fst (local_do (local_delete t key) cr).
Proof. exact local_move. Qed.
Print Assumptions c36_local_move.

(* hence a rename inside the watched subtree through genProcessFunction into a
   LocalSink removes the mapped old path and creates the mapped new path. *)
Theorem c36_local_sync_move : forall c ev o n t,
  wf_config c = true -> wf_event ev = true -> incremental c = false ->
  touches_root c ev = false ->
  ev_old ev = Some o -> ev_new ev = Some n ->
  let ok := segs (ev_dir ev) ++ [e_name o] in
  let nk := segs (ev_new_parent ev) ++ [e_name n] in
  inside c ok = true -> inside c nk = true -> ok <> nk ->
  is_multipart (map_path c ok) = false ->
  fst (exec_plan _ local_do t (sync_process c ev)) =
  fst (local_create (local_delete t (map_path c ok)) (map_path c nk) n).
Proof. exact local_sync_move. Qed.
Print Assumptions c36_local_sync_move.

(* an entry that stays where it is: UpdateEntry rewrites the file in place *)
Theorem c36_local_update_in_place : forall t key np e dc,
  is_multipart key = false -> join [np; e_name e] = key ->
  local_do t (Update key np e dc) =
  (fst (local_create t key e), (local_exists t key, snd (local_create t key e))).
Proof. exact local_update_in_place. Qed.
Print Assumptions c36_local_update_in_place.


(* [root_move]: an event with both entries one of whose keys is the watched directory itself
   (it is renamed, renamed onto, or its own entry updated); these are the events the
   statement leaves out.  Create / delete events about the watched directory's own entry are
   ignored, as the reference says. *)
Theorem c36_mirror_sync_all : forall c ev,
  wf_config c = true -> wf_event ev = true -> incremental c = false ->
  root_move c ev = false ->
  sync_process c ev = mirror_spec c ev.
Proof. exact sync_mirror_all. Qed.
Print Assumptions c36_mirror_sync_all.

(* genProcessFunction's slice-bounds panic (NewParentPath[len(sourcePath):]) needs
   such a rename; incremental sinks included. *)
Theorem c36_sync_no_panic : forall c ev,
  wf_config c = true -> wf_event ev = true -> root_move c ev = false ->
  is_panic (sync_process c ev) = false.
Proof. exact sync_no_panic. Qed.
Print Assumptions c36_sync_no_panic.

(* Incremental sinks (filer.backup with is_incremental): the same mapping with
   the date folder inserted after the target directory; a change that leaves a
   new entry only ever creates, a pure delete deletes at that day's folder.  (Stated with
   touches_root; root_move = false suffices, see ReplEmit.sync_spec.) *)
Theorem c36_mirror_incremental : forall c ev,
  wf_config c = true -> wf_event ev = true -> incremental c = true ->
  touches_root c ev = false -> plain (date_key ev) = true ->
  sync_process c ev = mirror_spec_inc c ev.
Proof. exact sync_mirror_inc. Qed.
Print Assumptions c36_mirror_incremental.

(* Whenever [replicate_unsafe] holds, Replicate's plan differs from the reference (with
   c36_mirror_partial: iff). *)
Theorem c36_replicate_trigger_exact : forall c ev,
  wf_config c = true -> wf_event ev = true -> incremental c = false ->
  ev_from_other ev && sink_is_filer c = false ->
  touches_root c ev = false -> replicate_unsafe c ev = true ->
  replicate c (event_key ev) ev <> mirror_spec c ev.
Proof. exact replicate_unsafe_exact. Qed.
Print Assumptions c36_replicate_trigger_exact.

(* LocalSink over a history of events.  The full statement -- after any well-formed
   history the files of the backup directory are the reference file set (every
   file event applied at the mapped path) -- fails: a file created below a file
   is ENOTDIR in the backup ... *)
Theorem c36_local_mirror_refuted : ~ local_mirror_full.
Proof. exact local_mirror_refuted. Qed.
Print Assumptions c36_local_mirror_refuted.

(* ... PARTIAL: it holds for every history in which no event meets a clash
   ([local_clash], decidable: a multipart key, an entry of the other kind at the
   mapped key, a file among the ancestors of a created file, an entry changing
   its kind) -- all trees reachable from the empty backup, any length. *)
Theorem c36_local_mirror : forall c evs,
  wf_config c = true -> forallb wf_event evs = true -> incremental c = false ->
  forallb (fun ev => negb (root_move c ev)) evs = true ->
  local_clash c [] evs = false ->
  forall p, In p (files_of (fst (run_local c [] evs))) <-> In p (spec_files c evs).
Proof. exact local_mirror. Qed.
Print Assumptions c36_local_mirror.

Example c36_local_mirror_example :
  wf_config w_clash_cfg = true /\ forallb wf_event w_hist = true /\
  forallb (fun ev => negb (root_move w_clash_cfg ev)) w_hist = true /\
  local_clash w_clash_cfg [] w_hist = false /\
  fst (run_local w_clash_cfg [] w_hist) = [("/t"%string, true); ("/t/g"%string, false)] /\
  spec_files w_clash_cfg w_hist = ["/t/g"%string].
Proof. exact local_mirror_example. Qed.
Print Assumptions c36_local_mirror_example.

(* "Never re-applies target-originated changes", the emitting side: the filter of
   c36_no_echo works on the Signatures of the event.  FULL statement: every
   event a filer emits while applying a request carries the request's signatures
   and keeps the IsFromOtherCluster flag.  It fails (finding 1): the events below
   a recursively deleted directory and the implicitly created parent directories
   are notified with signatures = nil (and sub-directories with the flag false). *)
Theorem c36_emit_refuted : ~ emit_full.
Proof. exact emit_full_refuted. Qed.
Print Assumptions c36_emit_refuted.

(* PARTIAL: [emit_unsafe] says that some emitted event fails [emit_ok]; outside it every
   emitted event carries them, inside it one does not (both by that definition); the named
   entry's own event always does. *)
Theorem c36_emit_partial : forall op sg fl,
  emit_unsafe op = false -> In (sg, fl) (emit_labels op) -> emit_ok op sg fl = true.
Proof. exact emit_partial. Qed.
Print Assumptions c36_emit_partial.

Theorem c36_emit_trigger_exact : forall op,
  emit_unsafe op = true -> exists sg fl, In (sg, fl) (emit_labels op) /\ emit_ok op sg fl = false.
Proof. exact emit_unsafe_exact. Qed.
Print Assumptions c36_emit_trigger_exact.

Theorem c36_emit_top_ok : forall op m,
  em_kind op <> ERename -> m_key m = em_top op ->
  emit_ok op (fst (emit_label op m)) (snd (emit_label op m)) = true.
Proof. exact emit_top_ok. Qed.
Print Assumptions c36_emit_top_ok.

(* the consequence for two-way filer.sync: the child event of a recursive delete
   that came from the filer with signature 7 passes the filter towards that filer *)
Theorem c36_echo_after_recursive_delete :
  exists c ev,
    In (target_sig c) (em_sigs w_emit) /\ target_sig c <> 0%Z /\
    ev_sigs ev = fst (emit_label w_emit (nth 2 (em_evs w_emit) (nth 0 (em_evs w_emit) (Build_emitted "" false false false [] false)))) /\
    sync_filtered c ev <> Nothing.
Proof. exact echo_after_recursive_delete. Qed.
Print Assumptions c36_echo_after_recursive_delete.

(* non-vacuity: the hypotheses hold on a rename inside /data/ (written with a
   trailing slash) and the plan is the expected move; a move into the subtree
   creates the entry; the sibling /data2 is ignored; a create followed by a rename
   ends with the file at its new path *)
Local Open Scope string_scope.
Example c36_example :
  let c := {| src := "/data/"; tgt := "/backup"; incremental := false; sink_is_filer := true; target_sig := 7%Z |} in
  let e := fun n => {| e_name := n; e_isdir := false; e_date := "2021-03-04"; e_data := [] |} in
  let mv := {| ev_dir := "/data/a"; ev_old := Some (e "x"); ev_new := Some (e "y"); ev_new_parent := "/data/b";
               ev_delete_chunks := true; ev_from_other := false; ev_sigs := [3%Z] |} in
  let sib := {| ev_dir := "/data2"; ev_old := None; ev_new := Some (e "x"); ev_new_parent := "/data2";
                ev_delete_chunks := false; ev_from_other := false; ev_sigs := [] |} in
  wf_config c = true /\ wf_event mv = true /\ touches_root c mv = false /\
  sync_process c mv = UpdateOr (Update "/backup/a/x" "/backup/b" (e "y") true)
                               (Delete "/backup/a/x" false false) (Create "/backup/b/y" (e "y")) /\
  wf_event w_rename_in = true /\ touches_root w_cfg w_rename_in = false /\
  sync_process w_cfg w_rename_in = Do (Create "/backup/x" (w_entry "x")) /\
  wf_event sib = true /\ all_outside c sib = true /\ sync_process c sib = Nothing /\
  replicate c (event_key sib) sib = Nothing /\
  files_of (fst (run_local w_lcfg [] [w_lcreate; w_lrename])) = ["/t/b"] /\
  spec_files w_lcfg [w_lcreate; w_lrename] = ["/t/b"].
Proof. exact c36_example_holds. Qed.
Print Assumptions c36_example.
