(* C35 — Clients' volume location cache mirrors master updates.
   Only statements closed by [exact]; proofs live in proof/VidMapProofs.v.

   Model: model/VidMap.v — vid2Locations as Go slices (array id, len, cap) over a
   heap of backing arrays, addLocation / deleteLocation / lookups as in
   weed/wdclient/vid_map.go, and the update events the receive loop of
   masterclient.go performs.  Each event is ONE acquisition of the write lock:
   addLocation, deleteLocation, and EvReset = vidMap.reset() (tryAllMasters, after
   a lost or failed connection).  Reference: plain per-volume lists.

   The tree is the one with the repairs fix-c35-delete-copies, fix-c35-reconnect-dc,
   fix-c35-vid-parse, fix-c35-reset-under-lock, fix-c35-delete-last-entry; all
   statements below are full. *)
From Coq Require Import String List NArith ZArith Bool Permutation.
From SW Require Import model.VidMap proof.VidMapProofs.
Import ListNotations.
Local Open Scope string_scope.
Local Open Scope list_scope.


(* after ANY sequence of add / remove notifications and lost connections the
   lookup returns exactly the reference's current locations of the volume, those
   of the client's data center first, or not-found *)
Theorem c35_sequential_exact : forall d evs v,
  lookup_locs (run (init d) evs) v = r_lookup d (r_run [] evs) v.
Proof. exact sequential_exact. Qed.
Print Assumptions c35_sequential_exact.

(* what the cached lists are, in terms of the history alone: every Url at
   most once; a Url is present exactly when it is "currently added" ([live]: added
   and neither removed nor dropped by a reconnect since), with the record of the
   notification that added it *)
Theorem c35_locations_exact : forall d evs v,
  let ls := view_list (run (init d) evs) v in
  NoDup (map url ls) /\ forall u, find_url u ls = live v u evs.
Proof. exact locations_exact. Qed.
Print Assumptions c35_locations_exact.

(* the cache and the reference agree list for list on every history *)
Theorem c35_view_is_reference : forall d evs v,
  view (run (init d) evs) v = r_find v (r_run [] evs).
Proof. exact view_is_reference. Qed.
Print Assumptions c35_view_is_reference.

(* the "or not-found" clause: not-found exactly when no location of the volume is
   currently added (never added, all removed, or dropped by a lost connection) *)
Theorem c35_not_found_iff : forall d evs v,
  lookup_locs (run (init d) evs) v = Err ErrNotFound <-> forall u, live v u evs = None.
Proof. exact not_found_iff. Qed.
Print Assumptions c35_not_found_iff.

(* a found volume has at least one location *)
Theorem c35_found_is_nonempty : forall d evs v ls, view (run (init d) evs) v = Some ls -> ls <> [].
Proof. exact view_nonempty. Qed.
Print Assumptions c35_found_is_nonempty.

(* "same data center first" on the cache's own lookup after any history: own-DC
   locations, then the others; a permutation of the cached list; never empty *)
Theorem c35_lookup_same_dc_first : forall d evs v ls, lookup_locs (run (init d) evs) v = Ok ls ->
  exists a b, ls = a ++ b /\ forallb (same_dc d) a = true /\
              forallb (fun l => negb (same_dc d l)) b = true /\
              Permutation ls (view_list (run (init d) evs) v) /\ ls <> [].
Proof. exact lookup_same_dc_first. Qed.
Print Assumptions c35_lookup_same_dc_first.

(* "same data center first" read off the reference answer *)
Theorem c35_same_dc_first : forall d r v ls, r_lookup d r v = Ok ls ->
  exists a b, ls = a ++ b /\ forallb (same_dc d) a = true /\
              forallb (fun l => negb (same_dc d l)) b = true /\
              Permutation ls (r_list r v).
Proof. exact same_dc_first. Qed.
Print Assumptions c35_same_dc_first.

(* ordering after reconnects: the data center the cache orders by is the client's,
   whatever happened *)
Theorem c35_reconnect_keeps_data_center : forall d evs, data_center (run (init d) evs) = d.
Proof. exact data_center_kept. Qed.
Print Assumptions c35_reconnect_keeps_data_center.


(* a slice taken with GetLocations at any time and read later, whatever updates
   follow, shows the list of SOME state of the history (namely, by the next theorem,
   of the state it was taken in) *)
Theorem c35_concurrent_views : forall d evs1 evs2 v hd,
  get_locations (run (init d) evs1) v = Some hd ->
  exists k, k <= length (evs1 ++ evs2) /\
    view (run (init d) (firstn k (evs1 ++ evs2))) v
      = Some (cells (heap (run (init d) (evs1 ++ evs2))) hd).
Proof. exact snapshot_some_past_state. Qed.
Print Assumptions c35_concurrent_views.

(* precisely: it keeps showing the list of the moment it was taken *)
Theorem c35_snapshot_stable : forall d evs1 evs2 v hd,
  get_locations (run (init d) evs1) v = Some hd ->
  cells (heap (run (init d) (evs1 ++ evs2))) hd = cells (heap (run (init d) evs1)) hd.
Proof. exact snapshot_stable. Qed.
Print Assumptions c35_snapshot_stable.

(* a LOOKUP that overlaps updates: LookupVolumeServerUrl holds the read lock only
   inside GetLocations (after evs1); it then reads cell i of the slice after any
   further updates [t i] and vc.DataCenter after any further updates [t'] — and
   still answers what the atomic lookup answered at the moment of the lock *)
Theorem c35_concurrent_lookup : forall d evs1 (t : nat -> list ev) t' v,
  lookup_locs_conc (run (init d) evs1) (fun i => run (init d) (evs1 ++ t i))
                   (run (init d) (evs1 ++ t')) v
  = lookup_locs (run (init d) evs1) v.
Proof. exact concurrent_lookup. Qed.
Print Assumptions c35_concurrent_lookup.

(* the three sequential theorems at the prefix of length j (the state a reader sees
   that takes the read lock after j of the updates), in the form the window checker
   of check/C35.v uses: every Url once, exactly the currently added ones, not-found
   iff none *)
Theorem c35_concurrent_get_exact : forall d evs j v,
  let ls := view_list (run (init d) (firstn j evs)) v in
  view (run (init d) (firstn j evs)) v = r_find v (r_run [] (firstn j evs)) /\
  NoDup (map url ls) /\ (forall u, find_url u ls = live v u (firstn j evs)) /\
  (view (run (init d) (firstn j evs)) v = None <-> forall u, live v u (firstn j evs) = None).
Proof. exact concurrent_get_exact. Qed.
Print Assumptions c35_concurrent_get_exact.

(* the decidable checker the concurrent harness mode is judged by: a reader call
   that began after lo updates had completed and returned before more than hi had
   begun is accepted iff SOME index in that window explains its answer *)
Theorem c35_window_checker : forall p lo hi,
  window_ok p lo hi = true <-> exists j, lo <= j <= hi /\ p j = true.
Proof. exact window_ok_spec. Qed.
Print Assumptions c35_window_checker.


(* a string is answered only with the locations of the uint32 volume id it spells *)
Theorem c35_lookup_by_string : forall m s us, lookup_volume_server_url m s = Ok us ->
  exists v ls, parse_uint32 s = Some v /\ (v < 4294967296)%N /\
               lookup_locs m v = Ok ls /\ us = map url ls.
Proof. exact lookup_by_string. Qed.
Print Assumptions c35_lookup_by_string.

Theorem c35_lookup_by_string_rejects : forall m s, parse_uint32 s = None ->
  lookup_volume_server_url m s = Err ErrParse.
Proof. exact lookup_by_string_rejects. Qed.
Print Assumptions c35_lookup_by_string_rejects.

Theorem c35_parse_uint32_sound : forall s v, parse_uint32 s = Some v ->
  s <> "" /\ digits s 0%N = Some v /\ (v < 4294967296)%N.
Proof. exact parse_uint32_sound. Qed.
Print Assumptions c35_parse_uint32_sound.

(* a message carrying a leader hint performs no update at all *)
Theorem c35_leader_hint_ignored : forall g, m_leader g <> "" -> events_of_op (Msg g) = [].
Proof. exact leader_hint_ignored. Qed.
Print Assumptions c35_leader_hint_ignored.

(* examples: a slice held across a delete, ordering after a reconnect, an id beyond
   uint32, the last location removed, the window checker *)
Example c35_example :
  (* a slice held across a delete still shows what it showed *)
  (exists hd, get_locations (run (init dcA) alias_before) 1%N = Some hd /\
     map url (cells (heap (run (init dcA) (alias_before ++ alias_after))) hd) = ["u1"; "u2"; "u3"]) /\
  map url (view_list (run (init dcA) (alias_before ++ alias_after)) 1%N) = ["u2"; "u3"] /\
  (* own data center first after a reconnect *)
  lookup_locs (run (init dcA) reconnect_witness) 1%N = Ok [locA; locB] /\
  (* an id string that is no uint32 is rejected *)
  lookup_volume_server_url (run (init dcA) [EvAdd 1%N locA]) "4294967297" = Err ErrParse /\
  lookup_volume_server_url (run (init dcA) [EvAdd 1%N locA]) "1" = Ok ["u1"] /\
  (* the last location removed: not-found, not "found, empty" *)
  lookup_locs (run (init dcA) last_gone) 1%N = Err ErrNotFound /\
  get_locations (run (init dcA) last_gone) 1%N = None /\
  (* and a slice taken before still shows it, across the removal and a reconnect *)
  (exists hd, get_locations (run (init dcA) [EvAdd 1%N locA]) 1%N = Some hd /\
     map url (cells (heap (run (init dcA) (last_gone ++ [EvReset; EvAdd 1%N locB]))) hd) = ["u1"]) /\
  (* the window checker: an answer explained by index 2 only *)
  window_ok (fun j => Nat.eqb j 2) 1 3 = true /\ window_ok (fun j => Nat.eqb j 2) 3 5 = false.
Proof. exact example_witnesses. Qed.
Print Assumptions c35_example.
