(* C01 — Volume blob store: read-your-writes, overwrite, delete, cookie, read-only.
   Only statements closed by [exact]; proofs live in proof/VolumeProofs.v and proof/VolumeKeyMain.v.

   [run init h]            what the model of the volume (storage API + HTTP handlers) answers on history h
   [spec_run spec_init h]  what the specification  id -> (cookie, last written needle)  expects
   [match_out]             an answer satisfies the expectation (status / error class, and for reads the
                           data, name, mime, pairs, last-modified, flags, ttl, cookie, count)
   [wf_history h]          the needles of h are representable (field widths) and are not chunk manifests  *)
From Coq Require Import List NArith ZArith Bool.
From SW Require Import model.Volume proof.VolumeProofs proof.VolumeKeyProofs proof.VolumeKeyOps proof.VolumeKeyMain.
Import ListNotations.
Local Open Scope N_scope.

(* Read-your-writes / overwrite / delete, for EVERY history of Write, Post, Get, Del, RawRead,
   RawDelete, mark-read-only over any keys, cookies, payloads and clock readings:
   every answer is the specification's.  True as soon as no empty payload is written (finding 0)
   and no write repeats id+cookie+bytes of an earlier write with other metadata (finding 1). *)
Theorem c01_refines_partial : forall h,
  wf_history h = true -> empty_payload h = false -> meta_dup [] h = false ->
  all2 match_out (spec_run spec_init h) (run init h) = true.
Proof. exact refines_partial. Qed.
Print Assumptions c01_refines_partial.

(* The full statement (no trigger hypotheses) is false: finding 0, empty payload. *)
Theorem c01_refines_refuted_empty :
  exists h, wf_history h = true /\ meta_dup [] h = false /\
            all2 match_out (spec_run spec_init h) (run init h) = false.
Proof. exact refuted_empty_ex. Qed.
Print Assumptions c01_refines_refuted_empty.

(* Finding 1, an "unchanged" overwrite that carries new metadata. *)
Theorem c01_refines_refuted_unchanged :
  exists h, wf_history h = true /\ empty_payload h = false /\
            all2 match_out (spec_run spec_init h) (run init h) = false.
Proof. exact refuted_unchanged_ex. Qed.
Print Assumptions c01_refines_refuted_unchanged.

(* the two witnesses in full: what the model (and the Go code) answers *)
Theorem c01_witness_empty :
  wf_history witness_empty = true /\ meta_dup [] witness_empty = false /\
  empty_payload witness_empty = true /\
  all2 match_out (spec_run spec_init witness_empty) (run init witness_empty) = false /\
  run init witness_empty =
    [OWrite ENone false 0; OGet 200 blank_hview; ODel 202 0; OGet 200 blank_hview].
Proof. exact refines_refuted_empty. Qed.
Print Assumptions c01_witness_empty.

Theorem c01_witness_unchanged :
  wf_history witness_unchanged = true /\ empty_payload witness_unchanged = false /\
  meta_dup [] witness_unchanged = true /\
  all2 match_out (spec_run spec_init witness_unchanged) (run init witness_unchanged) = false /\
  run init witness_unchanged =
    [OWrite ENone false 22; OWrite ENone true 0;
     OGet 200 {| h_data := [104; 101; 108; 108; 111]; h_name := [110; 49]; h_mime := [116; 47; 97];
                 h_pairs := []; h_lastmod := 12345; h_gzip := false |}].
Proof. exact refines_refuted_unchanged. Qed.
Print Assumptions c01_witness_unchanged.

(* A GET that presents a cookie other than the stored one (or hits a deleted / unknown id) is
   answered 404 with nothing, after any history inside the hypotheses. *)
Theorem c01_cookie_read_partial : forall h id c t,
  wf_history h = true -> empty_payload h = false -> meta_dup [] h = false ->
  (forall n, s_lookup (spec_after spec_init h) id t <> Some (c, n)) ->
  step (state_after init h) (t, Get id c false) = (state_after init h, OGet 404 blank_hview).
Proof. exact cookie_read_partial. Qed.
Print Assumptions c01_cookie_read_partial.

(* In EVERY state a read (GET or storage-level, any cookie, any option) leaves the volume as it was. *)
Theorem c01_cookie_read_pure : forall st t id c rd,
  fst (step st (t, Get id c rd)) = st /\ fst (step st (t, RawRead id c rd)) = st.
Proof. exact reads_pure. Qed.
Print Assumptions c01_cookie_read_pure.

(* With an empty payload the cookie is not checked at all. *)
Theorem c01_cookie_read_refuted :
  exists h id c t hv,
    wf_history h = true /\ meta_dup [] h = false /\
    (forall n, s_lookup (spec_after spec_init h) id t <> Some (c, n)) /\
    step (state_after init h) (t, Get id c false) = (state_after init h, OGet 200 hv).
Proof. exact cookie_read_refuted. Qed.
Print Assumptions c01_cookie_read_refuted.

(* A DELETE with a cookie other than the stored one is refused (400/404) and the volume is
   unchanged, hence every later read answers as before. *)
Theorem c01_cookie_delete_partial : forall h id c t,
  wf_history h = true -> empty_payload h = false -> meta_dup [] h = false ->
  (forall n, s_lookup (spec_after spec_init h) id t <> Some (c, n)) ->
  exists s, (s = 400 \/ s = 404) /\
    step (state_after init h) (t, Del id c) = (state_after init h, ODel s 0).
Proof. exact cookie_delete_partial. Qed.
Print Assumptions c01_cookie_delete_partial.

(* With an empty payload a DELETE with the wrong cookie is acknowledged with 202. *)
Theorem c01_cookie_delete_refuted :
  exists h id c t,
    wf_history h = true /\ meta_dup [] h = false /\
    (forall n, s_lookup (spec_after spec_init h) id t <> Some (c, n)) /\
    snd (step (state_after init h) (t, Del id c)) = ODel 202 0.
Proof. exact cookie_delete_refuted. Qed.
Print Assumptions c01_cookie_delete_refuted.

(* A write to a read-only volume (either flag), in EVERY state: rejected, state unchanged. *)
Theorem c01_readonly : forall st t,
  is_read_only st = true ->
  (forall n, step st (t, Write n) = (st, OWrite EReadOnly false 0)) /\
  (forall u, step st (t, Post u) = (st, OPost 500 EReadOnly)).
Proof. exact readonly_rejects. Qed.
Print Assumptions c01_readonly.

(* non-vacuity: a history inside all hypotheses with write, read, foreign cookie, overwrite,
   rejected overwrite, refused and accepted delete, rewrite, read-only rejection *)
Example c01_example :
  wf_history example_history = true /\ empty_payload example_history = false /\
  meta_dup [] example_history = false /\
  map (fun o => match o with
                | OWrite e _ _ => (0, if err_eqb e ENone then 1 else 0)
                | OGet s _ => (1, s) | ODel s _ => (2, s) | ORead e _ _ => (3, if err_eqb e ENone then 1 else 0)
                | _ => (9, 0) end) (run init example_history) =
  [(0, 1); (1, 200); (1, 404); (0, 1); (0, 0); (3, 1); (2, 400); (2, 202); (1, 404); (0, 1); (9, 0);
   (0, 0); (2, 500); (1, 200)].
Proof. exact example_ok. Qed.
Print Assumptions c01_example.

(* Per key, every entry point, every answer field.

   [xrun gun init h]   the model on a history of ALL entry points: the operations above, GET / HEAD
                       in any request form (no Accept-Encoding: the needle is decompressed by the
                       oracle [gun]; a file name in the URL), gRPC BatchDelete with and without
                       SkipCookieCheck
   [xjudge gun D seen sp h outs]   D = the keys soiled so far, seen = the needles written so far (both []
                       at the start); per event: does the answer satisfy the specification  id -> (cookie, last
                       written needle)  in EVERY field ([xmatch]: also the "unchanged" acknowledgement
                       and n.Size of a write, the size a delete reports, Content-Length), and the
                       finding (if any) that has touched one of the keys the event names
   [dirt_after D seen h] / [dirt_get D id]   the keys soiled after h / the finding that soiled id (None: id is clean)
   [pk_ok]             every event that names only clean keys is answered per specification
   [xclean seen h]     no event of h falls under finding 0 or 1 by itself   *)

(* In EVERY history (no hypothesis about findings): an event all of whose keys were never written
   with an empty payload (finding 0), never overwritten with the same cookie and bytes but other
   metadata (finding 1), and never named in a BatchDelete together with such a key, is answered
   exactly as the specification says.  The two findings cannot excuse any other key. *)
Theorem c01_refines_per_key : forall gun h,
  xwf_history h = true ->
  pk_ok (xjudge gun [] [] spec_init h (xrun gun init h)) = true.
Proof. exact refines_per_key. Qed.
Print Assumptions c01_refines_per_key.

(* A history without any event under a finding: every answer of every entry point is the
   specification's (the statement of c01_refines_partial for the larger alphabet and with all
   answer fields). *)
Theorem c01_refines_clean : forall gun h,
  xwf_history h = true -> xclean [] h = true ->
  all_ok (xjudge gun [] [] spec_init h (xrun gun init h)) = true.
Proof. exact refines_clean. Qed.
Print Assumptions c01_refines_clean.

(* GET / HEAD in any form with a cookie other than the stored one (or for a deleted, expired or
   unknown id): 404, nothing served, volume unchanged -- after ANY history, for any clean key. *)
Theorem c01_cookie_get_per_key : forall gun h id c t g,
  xwf_history h = true -> dirt_get (dirt_after [] [] h) id = None ->
  (forall n, s_lookup (xspec_after gun spec_init h) id t <> Some (c, n)) ->
  xstep gun (xstate_after gun init h) (t, XGet id c false g) = (xstate_after gun init h, XOGet 404 blank_hview 0) /\
  xstep gun (xstate_after gun init h) (t, XBase (Get id c false)) = (xstate_after gun init h, XO (OGet 404 blank_hview)).
Proof. exact cookie_get_k. Qed.
Print Assumptions c01_cookie_get_per_key.

(* HTTP DELETE and gRPC BatchDelete (cookie check on) with a cookie other than the stored one:
   refused with 400 / 404 and the volume is unchanged -- after ANY history, for any clean key. *)
Theorem c01_cookie_delete_per_key : forall gun h id c t,
  xwf_history h = true -> dirt_get (dirt_after [] [] h) id = None ->
  (forall n, s_lookup (xspec_after gun spec_init h) id t <> Some (c, n)) ->
  exists s, (s = 400 \/ s = 404) /\
    xstep gun (xstate_after gun init h) (t, XBase (Del id c)) = (xstate_after gun init h, XO (ODel s 0)) /\
    xstep gun (xstate_after gun init h) (t, XBatch [(id, c)] false) = (xstate_after gun init h, XOBatch [(s, 0)]).
Proof. exact cookie_delete_k. Qed.
Print Assumptions c01_cookie_delete_per_key.

(* BatchDelete with SkipCookieCheck = true (and Store.DeleteVolumeNeedle, which it calls) never
   looks at the cookie: the request option says so; the specification mirrors it. *)
Theorem c01_batch_skip_ignores_cookie :
  exists h id c t,
    xwf_history h = true /\ xclean [] h = true /\
    (forall n, s_lookup (xspec_after gid spec_init h) id t <> Some (c, n)) /\
    snd (xstep gid (xstate_after gid init h) (t, XBatch [(id, c)] true)) = XOBatch [(202, 20)] /\
    snd (xstep gid (fst (xstep gid (xstate_after gid init h) (t, XBatch [(id, c)] true))) (t, XBase (Get id 20 false)))
    = XO (OGet 404 blank_hview).
Proof. exact batch_skip_ignores_cookie. Qed.
Print Assumptions c01_batch_skip_ignores_cookie.

(* the literals written in model/Volume.v are the constants vc_* (tied to the Go constants in
   props/ConstsTie.v) *)
Theorem c01_literals :
  (forall s, actual_size s =
     let raw := vc_header_size + s + vc_checksum_size + vc_timestamp_size in
     raw + (vc_padding_size - raw mod vc_padding_size)) /\
  dat_end init = vc_super_block_size /\
  (forall n, stored_name n = firstn vc_max_name (n_name n)) /\
  (forall f, is_compressed f = N.testbit f (N.log2 vc_flag_compressed) /\
             has_name f = N.testbit f (N.log2 vc_flag_name) /\
             has_mime f = N.testbit f (N.log2 vc_flag_mime) /\
             has_lastmod f = N.testbit f (N.log2 vc_flag_lastmod) /\
             has_ttl f = N.testbit f (N.log2 vc_flag_ttl) /\
             has_pairs f = N.testbit f (N.log2 vc_flag_pairs) /\
             is_chunk_manifest f = N.testbit f (N.log2 vc_flag_manifest)) /\
  (forall id c d, needle_size (mkx id c d (vc_flag_lastmod + vc_flag_ttl) [] [] 0) =
                  if 0 <? blen d then 4 + blen d + 1 + vc_lastmod_bytes + vc_ttl_bytes else 0) /\
  (forall s, size_deleted s = ((s <? 0) || (s =? vc_tombstone))%Z) /\
  (forall c, ttl_minutes (c, 1) = c /\ ttl_minutes (c, 2) = c * 60 /\ ttl_minutes (c, 3) = c * 60 * 24 /\
             ttl_minutes (c, 4) = c * 60 * 24 * 7 /\ ttl_minutes (c, 5) = c * 60 * 24 * 30 /\
             ttl_minutes (c, 6) = c * 60 * 24 * 365) /\
  (forall n, v_lastmod (view_of n) =
             if has_lastmod (n_flags n) then n_lastmod n mod 2 ^ (8 * vc_lastmod_bytes) else 0) /\
  (forall n, wf_needle n = true -> n_lastmod n < 2 ^ (8 * vc_lastmod_bytes)).
Proof. exact literals_used. Qed.
Print Assumptions c01_literals.

(* non-vacuity of the per-key statement: key 1 falls under finding 0 and is served to a foreign
   cookie; key 2 is clean and answers per specification (overwrite, HEAD with the mime of the
   name's extension, foreign-cookie DELETE and BatchDelete refused) until a BatchDelete names both
   keys: the code goes on where the specification stops *)
Example c01_example_per_key :
  xwf_history example_x = true /\
  xjudge gid [] [] spec_init example_x (xrun gid init example_x) =
  [(true, Some 0); (true, None); (false, Some 0); (true, None); (true, None); (true, None); (true, None);
   (false, Some 0); (false, Some 0)] /\
  xrun gid init example_x =
  [XO (OWrite ENone false 0); XO (OWrite ENone false 20);
   XO (OGet 200 blank_hview);
   XOGet 200 {| h_data := []; h_name := [97; 46; 99; 115; 115]; h_mime := mime_css; h_pairs := [];
                h_lastmod := 100; h_gzip := false |} 3;
   XO (OWrite ENone false 19); XO (ODel 400 0); XOBatch [(400, 0)]; XOBatch [(202, 0); (202, 19)];
   XO (OGet 404 blank_hview)].
Proof. exact example_x_ok. Qed.
Print Assumptions c01_example_per_key.
