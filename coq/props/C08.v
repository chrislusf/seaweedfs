(* C08 — Persistent identifiers and headers round-trip exactly.
   Only statements closed by [exact]; proofs live in proof/CodecsProofs.v and proof/CodecsAccept.v.
   Four decoders and one encoder are modelled as REPAIRED in the working tree: ReadTTL (counts
   outside 0..255 and unknown unit letters are errors), NewVolumeId (parsed as 32-bit),
   NewReplicaPlacementFromString (lengths other than 0 and 3 are errors), ReadSuperBlock
   (the extra metadata is read from the file) and formatNeedleIdCookie (at least one key byte
   is printed, also for needle key 0).
   Known finding (kept in the model as the code is): 1 = LoadTTLFromUint32 decodes integers
   that are not the ToUint32 of any TTL (c08_ttl_u32_refuted / c08_ttl_u32_accept_iff). *)
From Coq Require Import List NArith ZArith Bool.
From SW Require Import model.Needle model.Codecs proof.NeedleProofs proof.CodecsProofs proof.CodecsAccept.
Import ListNotations.
Local Open Scope N_scope.

(* replica placement: all 27 placements *)
Theorem c08_rp_string_roundtrip : forall dc rack same, dc <= 2 -> rack <= 2 -> same <= 2 ->
  rp_from_string (rp_string (dc, rack, same)) = Some (dc, rack, same).
Proof. exact rp_string_roundtrip. Qed.
Print Assumptions c08_rp_string_roundtrip.

Theorem c08_rp_byte_roundtrip : forall dc rack same, dc <= 2 -> rack <= 2 -> same <= 2 ->
  rp_from_byte (rp_byte (dc, rack, same)) = Some (dc, rack, same).
Proof. exact rp_byte_roundtrip. Qed.
Print Assumptions c08_rp_byte_roundtrip.

(* every one of the 256 bytes is either rejected or is the byte of the valid placement returned *)
Theorem c08_rp_byte_reject : forall b r, b < 256 -> rp_from_byte b = Some r ->
  rp_valid r = true /\ rp_byte r = b.
Proof. exact rp_byte_reject. Qed.
Print Assumptions c08_rp_byte_reject.

(* strings (repaired code: lengths other than 0 and 3 are errors), FULL statement: an accepted
   string is the empty string (the default placement 000) or exactly the encoding of the valid
   placement returned *)
Theorem c08_rp_string_reject : forall s r, rp_from_string s = Some r ->
  rp_valid r = true /\ ((s = [] /\ r = (0, 0, 0)) \/ rp_string r = s).
Proof. exact rp_string_reject. Qed.
Print Assumptions c08_rp_string_reject.

(* every accepted string consists of the characters '0'..'2' only *)
Theorem c08_rp_string_chars : forall s r, rp_from_string s = Some r -> Forall (fun c => 48 <= c <= 50) s.
Proof. exact rp_string_chars. Qed.
Print Assumptions c08_rp_string_chars.

(* TTL, every count and unit byte: canonical TTLs ([ttl_canon], proof/CodecsProofs.v: count >= 1, unit 1..6)
   come back exactly, every other TTL prints as "" and comes back as the empty TTL; a TTL with count 0
   encodes as the integer 0 *)
Theorem c08_ttl_string_roundtrip : forall c u, c < 256 -> u < 256 ->
  read_ttl (ttl_string (c, u)) = Some (if ttl_canon (c, u) then (c, u) else (0, 0)).
Proof. exact ttl_string_roundtrip. Qed.
Print Assumptions c08_ttl_string_roundtrip.

Theorem c08_ttl_bytes_roundtrip : forall t, load_ttl_bytes (ttl_to_bytes t) = t.
Proof. exact ttl_bytes_roundtrip. Qed.
Print Assumptions c08_ttl_bytes_roundtrip.

Theorem c08_ttl_u32_roundtrip : forall c u, c < 256 -> u < 256 ->
  load_ttl_u32 (ttl_to_u32 (c, u)) = if c =? 0 then (0, 0) else (c, u).
Proof. exact ttl_u32_roundtrip. Qed.
Print Assumptions c08_ttl_u32_roundtrip.

(* TTL integers, decoder side.  "Every integer that is not an encoding is rejected" is FALSE
   (LoadTTLFromUint32 has no error path and reads the low 16 bits only): finding 1 *)
Theorem c08_ttl_u32_refuted : exists x, x < 2 ^ 32 /\ ttl_to_u32 (load_ttl_u32 x) <> x /\ load_ttl_u32 x = (5, 1).
Proof. exact ttl_u32_refuted. Qed.
Print Assumptions c08_ttl_u32_refuted.

(* the trigger is exact: an integer decodes to a TTL that encodes to it again iff it is outside
   trig_ttl_u32, i.e. below 2^16 and either 0 or with a non-zero count byte *)
Theorem c08_ttl_u32_accept_iff : forall x, ttl_to_u32 (load_ttl_u32 x) = x <-> trig_ttl_u32 x = false.
Proof. exact ttl_u32_accept_iff. Qed.
Print Assumptions c08_ttl_u32_accept_iff.

(* TTL bytes, decoder side: every two bytes are the encoding of exactly the (count, unit) read,
   unknown units included - there is nothing to reject *)
Theorem c08_ttl_bytes_accept_all : forall a b, ttl_to_bytes (load_ttl_bytes [a; b]) = [a; b].
Proof. exact ttl_bytes_accept_all. Qed.
Print Assumptions c08_ttl_bytes_accept_all.

(* rejection (repaired code): an accepted TTL string denotes exactly the TTL returned — the
   count is the integer written, without wrap-around, and the unit letter is known *)
Theorem c08_ttl_reject : forall s c u, s <> [] -> read_ttl s = Some (c, u) ->
  atoi (fst (ttl_split s)) = Some (Z.of_N c) /\ c <= 255 /\
  u = to_stored_byte (snd (ttl_split s)) /\ 1 <= u <= 6.
Proof. exact read_ttl_sound. Qed.
Print Assumptions c08_ttl_reject.

Theorem c08_volume_id_roundtrip : forall v, v < 2 ^ 32 -> new_volume_id (vid_string v) = Some v.
Proof. exact volume_id_roundtrip. Qed.
Print Assumptions c08_volume_id_roundtrip.

(* rejection (repaired code): an accepted string is a decimal numeral of exactly the id returned *)
Theorem c08_volume_id_reject : forall s v, new_volume_id s = Some v ->
  s <> [] /\ dec_val s 0 = Some v /\ v < 2 ^ 32.
Proof. exact volume_id_reject. Qed.
Print Assumptions c08_volume_id_reject.

(* file ids, FULL statement: every volume, key (0 included) and cookie: formatNeedleIdCookie keeps at
   least one key byte *)
Theorem c08_file_id_roundtrip : forall vid key cookie, vid < 2 ^ 32 -> key < 2 ^ 64 ->
  cookie < 2 ^ 32 -> parse_file_id (fid_string vid key cookie) = Some (vid, key, cookie).
Proof. exact file_id_roundtrip. Qed.
Print Assumptions c08_file_id_roundtrip.

Theorem c08_parse_path_roundtrip : forall key cookie, key < 2 ^ 64 -> cookie < 2 ^ 32 ->
  parse_path (format_key_cookie key cookie) = Some (key, cookie).
Proof. exact parse_path_plain. Qed.
Print Assumptions c08_parse_path_roundtrip.

Theorem c08_parse_path_delta : forall key cookie d, key < 2 ^ 64 -> cookie < 2 ^ 32 ->
  d < 2 ^ 64 ->
  parse_path (format_key_cookie key cookie ++ [95] ++ itoa d) =
    Some ((key + d) mod 18446744073709551616, cookie).
Proof. exact parse_path_delta. Qed.
Print Assumptions c08_parse_path_delta.

(* key 0 in particular *)
Theorem c08_file_id_key0_roundtrip : forall vid cookie, vid < 2 ^ 32 -> cookie < 2 ^ 32 ->
  parse_file_id (fid_string vid 0 cookie) = Some (vid, 0, cookie).
Proof. exact file_id_key0. Qed.
Print Assumptions c08_file_id_key0_roundtrip.

(* what is printed always has a key part: 10..24 characters, inside what ParseNeedleIdCookie accepts *)
Theorem c08_key_cookie_length : forall key cookie, 10 <= len (format_key_cookie key cookie) <= 24.
Proof. exact len_format_range. Qed.
Print Assumptions c08_key_cookie_length.

(* rejection: an accepted key/cookie string has 9..24 characters, all hexadecimal, and key and
   cookie are the values of its two parts (the cookie is the last 8 characters) *)
Theorem c08_key_cookie_reject : forall s key cookie, parse_key_cookie s = Some (key, cookie) ->
  8 < len s <= 24 /\ hex_val (takeN (len s - 8) s) 0 = Some key /\ key < 2 ^ 64 /\
  hex_val (dropN (len s - 8) s) 0 = Some cookie /\ cookie < 2 ^ 32.
Proof. exact parse_key_cookie_sound. Qed.
Print Assumptions c08_key_cookie_reject.

(* ParseFileIdFromString as a whole: split at the FIRST comma; a non-empty decimal volume id
   below 2^32 before it, an accepted key/cookie string after it *)
Theorem c08_file_id_reject : forall s vid key cookie, parse_file_id s = Some (vid, key, cookie) ->
  exists vs ks, s = vs ++ 44 :: ks /\ ~ In 44 vs /\ vs <> [] /\ dec_val vs 0 = Some vid /\ vid < 2 ^ 32 /\
                parse_key_cookie ks = Some (key, cookie).
Proof. exact parse_file_id_sound. Qed.
Print Assumptions c08_file_id_reject.

(* Needle.ParsePath as a whole: an accepted key/cookie string, or one followed by the LAST
   underscore and a delta that is empty (ignored) or a decimal number below 2^64, added to the
   key modulo 2^64; anything else (bad, signed or overflowing delta) is an error *)
Theorem c08_parse_path_reject : forall s k ck, parse_path s = Some (k, ck) ->
  8 < len s /\
  (parse_key_cookie s = Some (k, ck) \/
   exists f d k0, s = f ++ 95 :: d /\ f <> [] /\ ~ In 95 d /\ parse_key_cookie f = Some (k0, ck) /\
     ((d = [] /\ k = k0) \/
      (d <> [] /\ exists dv, dec_val d 0 = Some dv /\ dv < 2 ^ 64 /\ k = (k0 + dv) mod 18446744073709551616))).
Proof. exact parse_path_sound. Qed.
Print Assumptions c08_parse_path_reject.

(* super block: [sb_ok s] (proof/CodecsProofs.v) says that version, TTL bytes and compaction revision fit their
   widths and the replica placement is valid; [sb_has_extra s] that the extra metadata is not empty.
   FULL round trip (repaired code: the extra bytes are read from the file), with or without
   extra metadata, whatever follows the super block in the file.  [pb] is the protobuf oracle
   (Marshal after Unmarshal); its only hypothesis is the round-trip law on the bytes that
   proto.Marshal produced for this super block. *)
Theorem c08_superblock_roundtrip : forall pb s tail, sb_ok s -> len (sb_extra s) < 65536 ->
  (sb_has_extra s = true -> pb (sb_extra s) = Some (sb_extra s)) ->
  sb_read pb (sb_bytes s ++ tail) = Some s.
Proof. exact sb_roundtrip. Qed.
Print Assumptions c08_superblock_roundtrip.

(* the same for exactly the super blocks Bytes() can write: Bytes() is a glog.Fatalf when the
   marshalled extra is longer than 256*256-2 = 65534 bytes (sb_bytes_checked = None) *)
Theorem c08_superblock_roundtrip_checked : forall pb s b tail, sb_ok s -> sb_bytes_checked s = Some b ->
  (sb_has_extra s = true -> pb (sb_extra s) = Some (sb_extra s)) ->
  sb_read pb (b ++ tail) = Some s.
Proof. exact sb_roundtrip_checked. Qed.
Print Assumptions c08_superblock_roundtrip_checked.

Theorem c08_superblock_bytes_fatal : forall s, sb_bytes_checked s = None <-> 65534 < len (sb_extra s).
Proof. exact sb_bytes_checked_none. Qed.
Print Assumptions c08_superblock_bytes_fatal.

(* rejection: whatever ReadSuperBlock accepts is the super block the header bytes denote; a
   truncated extra or one that protobuf rejects is an error *)
Theorem c08_superblock_reject : forall pb file s, sb_read pb file = Some s ->
  8 <= len file /\ rp_from_byte (nth 1 file 0) = Some (sb_rp s) /\
  sb_version s = nth 0 file 0 /\ sb_ttl s = (nth 2 file 0, nth 3 file 0) /\
  sb_compaction s = be_decode (takeN 2 (dropN 4 file)) /\
  let extra_size := be_decode (takeN 2 (dropN 6 file)) in
  (if 0 <? extra_size
   then len (takeN extra_size (dropN 8 file)) = extra_size /\ pb (takeN extra_size (dropN 8 file)) = Some (sb_extra s)
   else sb_extra s = []).
Proof. exact sb_read_sound. Qed.
Print Assumptions c08_superblock_reject.

(* that is all ReadSuperBlock checks: the exact set of accepted files.  The version byte and the two
   TTL bytes are unconstrained (every value decodes to itself) *)
Theorem c08_superblock_accept_iff : forall pb file s, sb_read pb file = Some s <->
  (8 <= len file /\ rp_from_byte (nth 1 file 0) = Some (sb_rp s) /\
   sb_version s = nth 0 file 0 /\ sb_ttl s = (nth 2 file 0, nth 3 file 0) /\
   sb_compaction s = be_decode (takeN 2 (dropN 4 file)) /\
   let extra_size := be_decode (takeN 2 (dropN 6 file)) in
   (if 0 <? extra_size
    then len (takeN extra_size (dropN 8 file)) = extra_size /\ pb (takeN extra_size (dropN 8 file)) = Some (sb_extra s)
    else sb_extra s = [])).
Proof. exact sb_read_iff. Qed.
Print Assumptions c08_superblock_accept_iff.

Theorem c08_superblock_any_version : forall pb v c u,
  sb_read pb [v; 0; c; u; 0; 0; 0; 0] =
    Some {| sb_version := v; sb_rp := (0, 0, 0); sb_ttl := (c, u); sb_compaction := 0; sb_extra := [] |}.
Proof. exact sb_read_any_version. Qed.
Print Assumptions c08_superblock_any_version.

(* index entries; the unsuffixed definitions are the 4-byte ones the other models import (osz = 4 below:
   c08_idx_bytes_w4) *)
Theorem c08_idx_roundtrip : forall key off size, key < 2 ^ 64 -> off < 2 ^ 32 ->
  (- 2147483648 <= size < 2147483648)%Z ->
  idx_parse (idx_bytes key off size) = (key, off, size) /\ len (idx_bytes key off size) = 16.
Proof. exact idx_roundtrip. Qed.
Print Assumptions c08_idx_roundtrip.

Theorem c08_offset_roundtrip : forall a, a mod 8 = 0 -> a < 34359738368 ->
  to_actual_offset (to_offset a) = a.
Proof. exact offset_roundtrip. Qed.
Print Assumptions c08_offset_roundtrip.

(* both offset widths (osz = types.OffsetSize: 4, or 5 with -tags 5BytesOffset) *)
Theorem c08_idx_roundtrip_w : forall osz key off size, osz = 4 \/ osz = 5 -> key < 2 ^ 64 -> off < off_limit osz ->
  (- 2147483648 <= size < 2147483648)%Z ->
  idx_parse_w osz (idx_bytes_w osz key off size) = (key, off, size) /\
  len (idx_bytes_w osz key off size) = 12 + osz.
Proof. exact idx_roundtrip_w. Qed.
Print Assumptions c08_idx_roundtrip_w.

Theorem c08_idx_bytes_w4 : forall key off size, off < 2 ^ 32 -> idx_bytes_w 4 key off size = idx_bytes key off size.
Proof. exact idx_bytes_w4. Qed.
Print Assumptions c08_idx_bytes_w4.

(* exact: an actual offset survives ToOffset / ToActualOffset iff it is a multiple of 8 below
   MaxPossibleVolumeSize (32 GiB, 8 TiB with 5 bytes); beyond it wraps silently *)
Theorem c08_offset_roundtrip_iff : forall osz a, osz = 4 \/ osz = 5 ->
  (to_actual_offset (to_offset_w osz a) = a <-> a mod 8 = 0 /\ a < max_volume_size osz).
Proof. exact offset_roundtrip_iff. Qed.
Print Assumptions c08_offset_roundtrip_iff.

(* concrete rejections (the repaired defects among them) and non-vacuity *)
Example c08_reject_examples :
  read_ttl [51; 48; 48; 109] = None            (* "300m" *)
  /\ read_ttl [53; 120] = None                 (* "5x" *)
  /\ read_ttl [45; 53; 109] = None             (* "-5m" *)
  /\ read_ttl [50; 53; 54; 104] = None         (* "256h" *)
  /\ read_ttl [109] = None                     (* "m" *)
  /\ new_volume_id [52; 50; 57; 52; 57; 54; 55; 50; 57; 55] = None   (* "4294967297" *)
  /\ new_volume_id [] = None
  /\ parse_file_id [51; 44; 48; 49; 54; 51; 55; 48; 51; 122; 100; 54] = None  (* "3,0163703zd6" *)
  /\ rp_from_string [48; 48; 51] = None        (* "003" *)
  /\ rp_from_string [49] = None                (* "1" *)
  /\ rp_from_string [48; 48; 49; 49] = None    (* "0011" *)
  /\ rp_from_byte 3 = None /\ rp_from_byte 255 = None.
Proof. exact reject_examples. Qed.
Print Assumptions c08_reject_examples.

Example c08_example :
  fid_string 3 1 1668298710 = [51; 44; 48; 49; 54; 51; 55; 48; 51; 55; 100; 54]   (* "3,01637037d6" *)
  /\ parse_file_id [51; 44; 48; 49; 54; 51; 55; 48; 51; 55; 100; 54] = Some (3, 1, 1668298710)
  /\ read_ttl [49; 53; 100] = Some (15, 3) /\ ttl_string (15, 3) = [49; 53; 100]     (* "15d" *)
  /\ sb_read (fun b => Some b)
       (sb_bytes {| sb_version := 3; sb_rp := (0, 1, 2); sb_ttl := (15, 3); sb_compaction := 7; sb_extra := [10; 9; 8] |} ++ [1; 2])
     = Some {| sb_version := 3; sb_rp := (0, 1, 2); sb_ttl := (15, 3); sb_compaction := 7; sb_extra := [10; 9; 8] |}
  /\ sb_read (fun b => Some b) [3; 12; 15; 3; 0; 7; 0; 3; 10; 9] = None      (* truncated extra *)
  /\ idx_parse (idx_bytes 5 9 (-1)) = (5, 9, (-1)%Z).
Proof. exact example_ok. Qed.
Print Assumptions c08_example.

(* the findings, the acceptance theorems and the 5-byte definitions on concrete inputs *)
Example c08_example_more :
  fid_string 3 0 1668298710 = [51; 44; 48; 48; 54; 51; 55; 48; 51; 55; 100; 54]   (* "3,00637037d6": key 0 keeps one key byte (repaired) *)
  /\ parse_file_id [51; 44; 48; 48; 54; 51; 55; 48; 51; 55; 100; 54] = Some (3, 0, 1668298710)
  /\ parse_file_id [51; 44; 54; 51; 55; 48; 51; 55; 100; 54] = None                   (* "3,637037d6", what the unrepaired code printed *)
  /\ format_key_cookie 0 0 = [48; 48; 48; 48; 48; 48; 48; 48; 48; 48]
  /\ parse_path [48; 48; 48; 48; 48; 48; 48; 48; 48; 48] = Some (0, 0)
  /\ parse_path [48; 49; 54; 51; 55; 48; 51; 55; 100; 54; 95; 50] = Some (3, 1668298710)       (* "01637037d6_2" *)
  /\ parse_path [48; 49; 54; 51; 55; 48; 51; 55; 100; 54; 95] = Some (1, 1668298710)           (* "01637037d6_" *)
  /\ parse_path [48; 49; 54; 51; 55; 48; 51; 55; 100; 54; 95; 43; 49] = None                   (* "01637037d6_+1" *)
  /\ parse_file_id [51; 44; 44; 48; 49; 54; 51; 55; 48; 51; 55; 100; 54] = None                (* "3,,01637037d6" *)
  /\ load_ttl_u32 66817 = (5, 1) /\ ttl_to_u32 (5, 1) = 1281 /\ trig_ttl_u32 66817 = true      (* 0x10501 *)
  /\ load_ttl_u32 5 = (0, 5) /\ ttl_to_u32 (0, 5) = 0 /\ trig_ttl_u32 5 = true
  /\ trig_ttl_u32 1281 = false /\ trig_ttl_u32 0 = false
  /\ load_ttl_bytes [5; 9] = (5, 9) /\ ttl_string (5, 9) = []                                 (* unknown unit: prints as "" *)
  /\ sb_bytes_checked {| sb_version := 3; sb_rp := (0, 1, 2); sb_ttl := (15, 3); sb_compaction := 7; sb_extra := [10; 9; 8] |}
     = Some [3; 12; 15; 3; 0; 7; 0; 3; 10; 9; 8]
  /\ idx_parse_w 5 (idx_bytes_w 5 5 1099511627775 (-1)) = (5, 1099511627775, (-1)%Z)
  /\ idx_bytes_w 5 5 4294967297 7 = [0; 0; 0; 0; 0; 0; 0; 5; 0; 0; 0; 1; 1; 0; 0; 0; 7]
  /\ to_actual_offset (to_offset_w 5 34359738368) = 34359738368                              (* 32 GiB fits in 5 bytes *)
  /\ to_actual_offset (to_offset_w 4 34359738368) = 0                                        (* and wraps in 4 *)
  /\ to_actual_offset (to_offset_w 5 8796093022208) = 0.                                     (* 8 TiB wraps in 5 *)
Proof. exact example_more. Qed.
Print Assumptions c08_example_more.
