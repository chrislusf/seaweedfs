(* C06 — Erasure coding reconstructs and serves the exact original volume.
   Only statements closed by [exact]; proofs live in proof/EC*Proofs.v.

   The model (model/EC.v) follows the REPAIRED tree: nLargeBlockRows = (datSize-1)/(10*large)
   in LocateData and locateOffset, and `>` in the large-block loop of WriteDatFile.

   dat : Z -> byte is the .dat content, D its size; [dslice dat a n] = the bytes
   dat[a, a+n).  [sizes_ok L S buf]: block sizes positive, small | large, and the
   encoder's buffer divides the small block (otherwise encodeData calls glog.Fatalf).
   [layout L S D R s]: R large rows then s small rows cover D as the encoder's two loops do. *)
From Coq Require Import List ZArith NArith Bool.
From SW Require Import model.EC proof.ECProofs proof.ECReadProofs proof.ECDecodeProofs proof.ECRebuildProofs proof.ECSpecProofs.
Import ListNotations.
Local Open Scope Z_scope.

(* the encoder's two loops write R large rows then s small rows, R and s determined by D *)
Theorem c06_layout : forall L S D, 0 < L -> 0 < S ->
  exists R s, layout L S D R s /\ encode_layout L S D = lrows L 0 R ++ srows S (R * (L * 10)) s.
Proof. exact encode_layout_spec. Qed.
Print Assumptions c06_layout.

(* the repaired row-count formula recovers the encoder's R from the true size AND from
   10 x shard size (shard size = R*L + s*S) *)
Theorem c06_rows_from_true_size : forall L S D R s,
  0 < L -> 0 < S -> 0 <= D -> layout L S D R s -> n_large_rows L D = R.
Proof. exact n_large_rows_true. Qed.
Print Assumptions c06_rows_from_true_size.

Theorem c06_rows_from_shard_size : forall L S D R s m,
  0 < L -> 0 < S -> 0 <= D -> L = m * S -> layout L S D R s ->
  n_large_rows L (10 * (R * L + s * S)) = R.
Proof. exact n_large_rows_prod. Qed.
Print Assumptions c06_rows_from_shard_size.

(* the production read path (intervals located from 10 x the size of shard
   file 0, then ToShardIdAndOffset + ReadAt on the data shards) returns exactly
   dat[offset, offset+size) — for every block size pair, every .dat size, every needle. *)
Theorem c06_read_exact : forall dat L S buf D offset size,
  sizes_ok L S buf -> 0 <= offset -> 0 <= size -> offset + size <= D ->
  read_needle_prod L S (data_shards dat L S buf D) offset size = Some (dslice dat offset size).
Proof. exact read_exact_prod. Qed.
Print Assumptions c06_read_exact.

(* the same with the locator fed the true .dat size (the path of ec_test.go) *)
Theorem c06_read_exact_true_size : forall dat L S buf D offset size,
  sizes_ok L S buf -> 0 <= offset -> 0 <= size -> offset + size <= D ->
  read_intervals L S (data_shards dat L S buf D) (locate_data L S D offset size) =
  Some (dslice dat offset size).
Proof. exact read_exact_true_size. Qed.
Print Assumptions c06_read_exact_true_size.

(* WriteDatFile over the 10 data shards gives back the .dat, for every size *)
Theorem c06_decode : forall dat L S buf D,
  sizes_ok L S buf -> 0 <= D ->
  write_dat L S (data_shards dat L S buf D) D = Some (dslice dat 0 D).
Proof. exact decode_exact. Qed.
Print Assumptions c06_decode.

(* rebuildEcFiles regenerates every subset of at most 4 lost shards
   byte-identically — RELATIVE to the Reed-Solomon oracle: rs_col (Encode on one byte
   column) yields 4 parity bytes, and rs_rec (Reconstruct on one byte column) is MDS.
   B is the buffer size of rebuildEcFiles (ErasureCodingSmallBlockSize); the shard
   size is a multiple of it (production: B = small block) or below it (scaled-down runs). *)
Theorem c06_rebuild :
  forall (rs_col : list byte -> list byte) (rs_rec : list (option byte) -> option (list byte)),
  (forall d, length d = 10%nat -> length (rs_col d) = 4%nat) ->
  (forall d present, length d = 10%nat -> length present = 14%nat -> count_lost present <= 4 ->
     rs_rec (apply_mask present (d ++ rs_col d)) = Some (d ++ rs_col d)) ->
  forall dat L S buf D B present,
  sizes_ok L S buf -> 0 < B -> length present = 14%nat -> count_lost present <= 4 ->
  let shards := all_shards rs_col dat L S buf D in
  let len := zlen (znth shards 0 []) in
  (len mod B = 0 \/ len < B) ->
  rebuild rs_rec B (apply_mask present shards) = Some shards.
Proof. exact rebuild_exact. Qed.
Print Assumptions c06_rebuild.

(* in production B = small block size divides every shard size *)
Theorem c06_rebuild_production_buffer : forall rs_col dat L S buf D,
  sizes_ok L S buf -> 0 <= D ->
  zlen (znth (all_shards rs_col dat L S buf D) 0 []) mod S = 0.
Proof. exact shard_len_multiple_of_small. Qed.
Print Assumptions c06_rebuild_production_buffer.

(* what [dslice] means for a file given as a list of bytes *)
Theorem c06_dslice_is_sublist : forall (l : list byte) a n,
  0 <= a -> 0 <= n -> a + n <= zlen l ->
  dslice (dat_of_list l) a n = firstn (Z.to_nat n) (skipn (Z.to_nat a) l).
Proof. exact dslice_sublist. Qed.
Print Assumptions c06_dslice_is_sublist.

Theorem c06_dslice_whole : forall (l : list byte), dslice (dat_of_list l) 0 (zlen l) = l.
Proof. exact dslice_whole. Qed.
Print Assumptions c06_dslice_whole.

(* closed forms used by the check for production-size shard files (too big to build as
   lists): byte o of data shard i, and the shard file length *)
Theorem c06_shard_byte : forall dat L S buf D i o,
  sizes_ok L S buf -> 0 <= D -> 0 <= i < 10 -> 0 <= o < zlen (data_shard dat L S buf D i) ->
  znth (data_shard dat L S buf D i) o 0%N = shard_byte dat L S D i o.
Proof. exact shard_byte_correct. Qed.
Print Assumptions c06_shard_byte.

Theorem c06_shard_len : forall dat L S buf D i,
  sizes_ok L S buf -> 0 <= D -> 0 <= i < 10 ->
  zlen (data_shard dat L S buf D i) = shard_len L S D.
Proof. exact shard_len_correct. Qed.
Print Assumptions c06_shard_len.

(* non-vacuity, at the sizes where the unrepaired code went wrong:
   a 995-byte .dat with large=100 small=10 (shard size 100: only small rows),
   read of 8 bytes at offset 0 through the production path; a .dat of exactly one
   large row worth of data (1000 bytes) decoded; the hypotheses of c06_rebuild on the mask and the
   shard length.  The oracle hypotheses of c06_rebuild are not instantiated: the example's rs_col
   (four zero bytes) admits no MDS rs_rec. *)
Example c06_example :
  sizes_ok 100 10 10 /\
  (let l := lcg_bytes 995 7 in
   read_needle_prod 100 10 (data_shards (dat_of_list l) 100 10 10 995) 0 8 = Some (firstn 8 l) /\
   map i_large (locate_data 100 10 (10 * 100) 0 8) = [false]) /\
  (let l := lcg_bytes 1000 9 in
   write_dat 100 10 (data_shards (dat_of_list l) 100 10 10 1000) 1000 = Some l) /\
  (let present := [true; false; true; true; false; true; true; true; true; true; false; true; true; false] in
   length present = 14%nat /\ count_lost present <= 4 /\
   let len := zlen (znth (all_shards (fun _ => [0; 0; 0; 0]%N) (dat_of_list (lcg_bytes 437 3)) 40 10 10 437) 0 []) in
   len = 50 /\ len < 1048576) /\
  (let l := lcg_bytes 650 5 in
   shard_len 40 10 650 = 70 /\
   map (shard_byte (dat_of_list l) 40 10 650 3) (zrange 0 70) = data_shard (dat_of_list l) 40 10 10 650 3).
Proof. exact c06_example_holds. Qed.
Print Assumptions c06_example.

(* ec.decode (VolumeEcShardsToVolume: FindDatFileSize, WriteDatFile, WriteIdxFileFromEcIndex)
   followed by the mount of the decoded volume (Volume.load with CheckAndFixVolumeDataIntegrity),
   at the record level of C04's volume model (model/Compaction.v); model/ECVolume.v.
   [c_exec vt cinit h] = the volume (with its .idx) after the history h of writes and deletes,
   [mounted s] = the decoded and mounted volume (None: cannot be mounted), [read_of v now id] =
   what a reader of id gets.  The byte level below it (WriteDatFile gives the first datSize bytes
   of the encoded .dat) is c06_decode when datSize is the encoded size; for a smaller datSize with as
   many large block rows ([fewer_large_rows L s = false]) it is compared case by case
   (check/C06Vol.v), not proved.  The .ecj is empty. *)
From SW Require Import model.Volume model.Compaction model.ECVolume proof.ECVolumeProofs.
Local Open Scope N_scope.

(* FULL statement "the decoded volume serves the exact original volume" is false: finding 0
   (witness Write(1,"aaa"), Write(2,"bbb"), Write(1,"cccc"): the key-sorted .idx makes the
   integrity check truncate the .dat behind the record of key 2; key 1 is lost) *)
Theorem c06_decode_mount_refuted :
  exists h id now, no_pad h = true /\ has_empty h = false /\
    read_mounted (mounted (c_exec (0, 0) cinit h)) now id <> read_of (cv (c_exec (0, 0) cinit h)) now id.
Proof. exact decode_mount_refuted. Qed.
Print Assumptions c06_decode_mount_refuted.

(* finding 1: nothing live (Write(1,"aaa"), Delete(1)): FindDatFileSize = 0, the decoded .dat has
   no super block, the volume cannot be mounted *)
Theorem c06_decode_unmountable :
  exists h, no_pad h = true /\ has_empty h = false /\
    dat_size (c_exec (0, 0) cinit h) = 0 /\ mounted (c_exec (0, 0) cinit h) = None /\
    decode_trigger 1073741824 (c_exec (0, 0) cinit h) = Some 1.
Proof. exact decode_unmountable. Qed.
Print Assumptions c06_decode_unmountable.

(* finding 2 (block sizes 40/10): the live part (344 bytes) has fewer large rows than the
   encoded .dat (480 bytes); what WriteDatFile then produces is the byte-level model's business
   (EC.write_dat on the shards of the 480-byte file with datSize 344), not a prefix *)
Theorem c06_decode_fewer_rows :
  exists h, no_pad h = true /\ has_empty h = false /\
    dat_end (cv (c_exec (0, 0) cinit h)) = 480 /\ dat_size (c_exec (0, 0) cinit h) = 344 /\
    large_rows 40 480 = 1%Z /\ large_rows 40 344 = 0%Z /\
    decode_trigger 40 (c_exec (0, 0) cinit h) = Some 2.
Proof. exact decode_fewer_rows. Qed.
Print Assumptions c06_decode_fewer_rows.

(* PARTIAL: every history of writes (non-empty payloads; an empty payload does not survive ANY
   reload of a volume, C04 finding 0) and deletes, any volume TTL, any large block size: outside
   the three triggers the decoded volume is mounted, its .dat has the size FindDatFileSize
   computed, it is writable, and EVERY id reads exactly as before the encoding.
   [fewer_large_rows] and [no_pad] are not used by the proof; [fewer_large_rows] delimits the
   histories for which the record-level [decoded_files] describes what WriteDatFile writes. *)
Theorem c06_decode_mount_partial : forall vt (L : Z) h now id,
  no_pad h = true -> has_empty h = false ->
  no_live_entry (c_exec vt cinit h) = false ->
  fewer_large_rows L (c_exec vt cinit h) = false ->
  sorted_idx_truncates (c_exec vt cinit h) = false ->
  exists m, mounted (c_exec vt cinit h) = Some m /\
            dat_end m = dat_size (c_exec vt cinit h) /\
            no_write_or_delete m = false /\
            read_of m now id = read_of (cv (c_exec vt cinit h)) now id.
Proof. exact decode_mount_partial. Qed.
Print Assumptions c06_decode_mount_partial.

(* outside finding 0 the integrity check of the mount changes nothing *)
Theorem c06_decode_mount_check_noop : forall vt h,
  no_pad h = true ->
  sorted_idx_truncates (c_exec vt cinit h) = false ->
  check_noop (check_files (decoded_files (c_exec vt cinit h))) = true.
Proof. exact decode_mount_check_noop. Qed.
Print Assumptions c06_decode_mount_check_noop.

(* non-vacuity: Write(1,"aaa"), Write(2,"bbb"), Delete(1), Write(2,"cccc") (the LARGEST key is
   overwritten): no trigger, ids 1..3 read the same, id 2 is served *)
Example c06_decode_mount_example :
  no_pad w_clean = true /\ has_empty w_clean = false /\
  decode_trigger 1073741824 (c_exec (0, 0) cinit w_clean) = None /\
  no_live_entry (c_exec (0, 0) cinit w_clean) = false /\
  fewer_large_rows 1073741824 (c_exec (0, 0) cinit w_clean) = false /\
  sorted_idx_truncates (c_exec (0, 0) cinit w_clean) = false /\
  (forall id, In id [1; 2; 3] ->
     read_mounted (mounted (c_exec (0, 0) cinit w_clean)) 10 id = read_of (cv (c_exec (0, 0) cinit w_clean)) 10 id) /\
  read_of (cv (c_exec (0, 0) cinit w_clean)) 10 2 <> None.
Proof. exact decode_mount_example. Qed.
Print Assumptions c06_decode_mount_example.
