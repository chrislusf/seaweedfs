(* C03 — A volume survives a crash at any point without serving wrong data.
   Only statements closed by [exact]; proofs live in proof/VolumeCrash{Proofs,Load,Spec,Sim,Safe}.v.

   [crc] is the CRC32-Castagnoli oracle (any function list N -> N).  A history [h] is a list of
   Write / Delete operations on a version-3 volume; [p_run h] is the running volume (its .dat as a
   byte string built with the needle codec of C02, its .idx, its needle map); [crash st dcut icut]
   keeps the first dcut bytes of the .dat and the first icut bytes of the .idx; [load] is
   Volume.load with CheckAndFixVolumeDataIntegrity as written (with the two repairs: a deletion
   entry is verified at the tombstone record it points to, a torn trailing index entry is
   dropped); [l_read] / [l_write] are readNeedle / Store.WriteVolumeNeedle on the reopened volume.
   [wf_op]: a write carries a representable needle with a non-empty payload and
   Checksum = NewCRC(Data); [wf_any]: the same without "non-empty" (finding 0).
   Defined in the proof files: [wf_op], [Inv] (layout invariant of the running volume), [map_from]
   (VolumeCrashProofs.v), [pref] (VolumeCrashLoad.v), [crash_safe_at] (the property at one crash point)
   and [wf_any] (VolumeCrashSafe.v).
   [admissible] requires the super block (8 bytes, written when the volume is created) to have
   survived: the property speaks of a stop "while appending blobs or tombstones"; a shorter
   .dat is refused by Volume.load ("not initialized"), modelled as LNotLoaded and exercised. *)
From Coq Require Import List NArith ZArith Bool.
From SW Require Import model.Needle proof.NeedleProofs model.VolumeCrash proof.VolumeCrashProofs
  proof.VolumeCrashLoad proof.VolumeCrashSpec proof.VolumeCrashSim proof.VolumeCrashSafe.
Import ListNotations.
Local Open Scope N_scope.

(* Safety: for every history and EVERY pair of cut points (admissible by write
   order or not, torn records and torn index entries included), whatever a reopened volume serves
   for key k is exactly a blob that some Write of the history stored under k. *)
Theorem c03_no_foreign_data : forall crc h dcut icut L k d, Forall (wf_op crc) h ->
  load crc (crash (p_run h) dcut icut) = Loaded L -> l_read crc L k = ROk d ->
  exists n, In (Write n) h /\ id n = k /\ d = dview Ver n.
Proof. exact no_foreign_data. Qed.
Print Assumptions c03_no_foreign_data.

(* The full property, at every crash point that write order allows ([admissible]: the records
   of the surviving whole index entries are in the data file in full; torn records and a torn
   index entry included): the reopen succeeds, the volume is writable, every key reads exactly
   as in the running volume after the operations h1 whose index entries survived, and a fresh
   blob can be written and read back ([crash_safe_at]). *)
Theorem c03_crash_safe : forall crc h dcut icut, Forall (wf_op crc) h ->
  admissible (p_run h) dcut icut = true ->
  crash_safe_at crc h dcut icut.
Proof. exact crash_safe. Qed.
Print Assumptions c03_crash_safe.

(* "reads as in the running volume" means "reads per specification": [s_run] is the
   operation-level specification (key -> cookie, last stored needle or deleted; a write with a
   foreign cookie is refused, a repeated write changes nothing, deleted stays deleted).  At every
   admissible crash point the reopened volume answers every key as the specification does after
   the operations h1 whose [icut / 16] index entries survived. *)
Theorem c03_crash_safe_per_spec : forall crc h dcut icut, Forall (wf_op crc) h ->
  admissible (p_run h) dcut icut = true ->
  exists h1 h2 L, h = h1 ++ h2 /\ snd (s_run h1) = icut / NeedleMapEntrySize /\
    load crc (crash (p_run h) dcut icut) = Loaded L /\ l_nwod L = false /\
    forall k, l_read crc L k = s_read (fst (s_run h1)) k.
Proof. exact crash_safe_per_spec. Qed.
Print Assumptions c03_crash_safe_per_spec.

(* "accepts and serves new writes afterwards", at full strength: the reopened volume is from then on
   indistinguishable from the volume that ran h1 and never stopped.  After ANY further well-formed
   operations h' -- overwrites of existing keys, rewrites of deleted keys, deletes, refused
   (other cookie) and repeated writes, fresh keys -- every key reads exactly as in the running
   volume after h1 ++ h', and every further operation [o] is answered ([l_step]: done / unchanged /
   refused / read-only, size deleted) exactly as the running volume answers it ([p_res]).  Proved by
   a per-key simulation between the byte-level reopened volume and the record-level running one
   (proof/VolumeCrashSim.v); it also holds when garbage of a torn first record stays in the .dat. *)
Theorem c03_crash_safe_forever : forall crc h dcut icut, Forall (wf_op crc) h ->
  admissible (p_run h) dcut icut = true ->
  exists h1 h2 L,
    h = h1 ++ h2 /\ len (p_idx (p_run h1)) = icut / NeedleMapEntrySize /\
    load crc (crash (p_run h) dcut icut) = Loaded L /\ l_nwod L = false /\
    forall h', Forall (wf_op crc) h' ->
      (forall k, l_read crc (l_after crc L h') k = p_read (p_run (h1 ++ h')) k) /\
      (forall o, wf_op crc o -> snd (l_step crc (l_after crc L h') o) = p_res (p_run (h1 ++ h')) o).
Proof. exact crash_safe_forever. Qed.
Print Assumptions c03_crash_safe_forever.

(* per specification: after the reopen and any further operations h' the volume answers
   every key as the operation-level specification does after h1 ++ h' *)
Theorem c03_crash_safe_forever_per_spec : forall crc h dcut icut, Forall (wf_op crc) h ->
  admissible (p_run h) dcut icut = true ->
  exists h1 h2 L, h = h1 ++ h2 /\ snd (s_run h1) = icut / NeedleMapEntrySize /\
    load crc (crash (p_run h) dcut icut) = Loaded L /\ l_nwod L = false /\
    forall h', Forall (wf_op crc) h' ->
      forall k, l_read crc (l_after crc L h') k = s_read (fst (s_run (h1 ++ h'))) k.
Proof. exact crash_safe_forever_per_spec. Qed.
Print Assumptions c03_crash_safe_forever_per_spec.

(* the running volume itself reads per specification, for every history *)
Theorem c03_running_reads_per_spec : forall crc h, Forall (wf_op crc) h ->
  snd (s_run h) = len (p_idx (p_run h)) /\ forall k, p_read (p_run h) k = s_read (fst (s_run h)) k.
Proof. exact running_reads_spec. Qed.
Print Assumptions c03_running_reads_per_spec.

(* The integrity check never invents bytes or entries: both files of a reopened volume are
   prefixes / sub-lists of what the crash left, and every binding of its needle map comes from a
   surviving index entry. *)
Theorem c03_load_only_shrinks : forall crc f L, load crc f = Loaded L ->
  pref (d_bytes (l_dat L)) (f_dat f) /\ incl (l_idx L) (f_idx f) /\ map_from (l_idx L) (l_map L).
Proof. exact load_loaded. Qed.
Print Assumptions c03_load_only_shrinks.

(* Every reachable running volume satisfies the layout invariant the proofs rest on: the .dat is
   the super block followed by the encoded records back to back, the .idx holds one entry per
   record, the needle map is the replay of the .idx. *)
Theorem c03_running_invariant : forall crc h, Forall (wf_op crc) h -> Inv crc (p_run h).
Proof. exact inv_run. Qed.
Print Assumptions c03_running_invariant.

(* FINDING 0 (c03-empty-blob-gone-after-restart).  [wf_any] is [wf_op] without "the payload is not
   empty".  With empty payloads the full statement is false, even for a clean stop: the blob is
   stored as a record of Size 0 with an index entry of size 0, and replaying the index
   (needle_map_memory.go doLoading) treats a size-0 entry as a deletion. *)
Theorem c03_crash_safe_refuted : exists crc h dcut icut, Forall (wf_any crc) h /\
  admissible (p_run h) dcut icut = true /\ ~ crash_safe_at crc h dcut icut.
Proof. exact crash_safe_refuted. Qed.
Print Assumptions c03_crash_safe_refuted.

(* the full property holds for every history that stores no empty blob (decidable trigger
   [has_empty_write]; the correspondence check uses the narrower per-key trigger
   [key_has_empty_write] and checks every other key of such a history in full) *)
Theorem c03_crash_safe_partial : forall crc h dcut icut, Forall (wf_any crc) h ->
  has_empty_write h = false -> admissible (p_run h) dcut icut = true ->
  crash_safe_at crc h dcut icut.
Proof. exact crash_safe_partial. Qed.
Print Assumptions c03_crash_safe_partial.

(* the witness of finding 0: hello / EMPTY / x stopped with both files whole;
   the running volume answers (0, nil) for key 2 (class 3), the reopened one "not found" (1) *)
Example c03_finding0_witness :
  admissible (p_run w_empty_history) 120 48 = true /\
  len (p_dat (p_run w_empty_history)) = 120 /\ len (p_idx (p_run w_empty_history)) = 3 /\
  empty_live (p_run w_empty_history) 2 = true /\ key_has_empty_write w_empty_history 2 = true /\
  map (fun k => rres_proj (p_read (p_run w_empty_history) k)) [1; 2; 3] =
    [(0, 17, [104; 101; 108; 108; 111]); (3, 0, []); (0, 4294967283, [120])] /\
  o_reads (observe toy_crc (crash (p_run w_empty_history) 120 48) [1; 2; 3] [] 0) =
    [(0, 17, [104; 101; 108; 108; 111]); (1, 0, []); (0, 4294967283, [120])].
Proof. exact witness_empty_blob. Qed.
Print Assumptions c03_finding0_witness.

(* non-vacuity, on the history hello / world!! / delete 1 / second version
   followed on every reopened volume by [w_post] (rewrite of the deleted key 1, delete of key 2, a
   fresh key 9, the same bytes again, key 1 with another cookie) and a second stop: the history
   is well formed; the crash points of the two repaired findings are admissible and reopen
   writable; a third admissible point; and a point that write order excludes.  The
   full observations (three stages each) are the lemmas witness_* of proof/VolumeCrashSafe.v. *)
Example c03_example :
  Forall (wf_op toy_crc) w_history /\
  (admissible (p_run w_history) 133 48 = true /\ tombstone_tail (p_run w_history) 133 48 = true /\
   observe toy_crc (crash (p_run w_history) 133 48) [1; 2; 9] w_post 9 =
    {| o_load := 0; o_readonly := false; o_dat_len := 128; o_idx_len := 48;
       o_reads := [(2, 0, []); (0, 305419896, [119; 111; 114; 108; 100; 33; 33]); (1, 0, [])];
       o_post := [(0, 0%Z); (0, 12%Z); (0, 0%Z); (1, 0%Z); (3, 0%Z)];
       o_reads2 := [(0, 17, [97; 103; 97; 105; 110]); (2, 0, []); (0, 7, [102; 114; 101; 115; 104])];
       o_dat_len2 := 240; o_idx_len2 := 96; o_load3 := 0; o_readonly3 := false;
       o_reads3 := [(0, 17, [97; 103; 97; 105; 110]); (2, 0, []); (1, 0, [])];
       o_dat_len3 := 200; o_idx_len3 := 80 |}) /\
  (admissible (p_run w_history) 96 23 = true /\ torn_index 23 = true /\
   observe toy_crc (crash (p_run w_history) 96 23) [1; 2; 9] w_post 0 =
    {| o_load := 0; o_readonly := false; o_dat_len := 48; o_idx_len := 16;
       o_reads := [(0, 17, [104; 101; 108; 108; 111]); (1, 0, []); (1, 0, [])];
       o_post := [(0, 0%Z); (0, 0%Z); (0, 0%Z); (1, 0%Z); (3, 0%Z)];
       o_reads2 := [(0, 17, [97; 103; 97; 105; 110]); (1, 0, []); (0, 7, [102; 114; 101; 115; 104])];
       o_dat_len2 := 128; o_idx_len2 := 48; o_load3 := 0; o_readonly3 := false;
       o_reads3 := [(0, 17, [97; 103; 97; 105; 110]); (1, 0, []); (0, 7, [102; 114; 101; 115; 104])];
       o_dat_len3 := 128; o_idx_len3 := 48 |}) /\
  admissible (p_run w_history) 105 32 = true /\
  admissible (p_run w_history) 60 32 = false.
Proof.
  exact (conj w_history_wf (conj witness_tombstone_tail (conj witness_torn_index
        (conj (proj1 witness_torn_record) not_admissible_example)))).
Qed.
Print Assumptions c03_example.
