(* C12 — Master capacity accounting matches the registered volumes and shards.
   Only statements closed by [exact]; proofs live in proof/TopoCountProofs.v and proof/TopoCountReg.v.
   Model: model/TopoCount.v (the topology tree as a table of node objects keyed by id
   path; UpdateVolumes, DeltaUpdateVolumes, AdjustMaxVolumeCounts, UpdateEcShards,
   DeltaUpdateEcShards, GetOrCreateDataNode, UnRegisterDataNode exactly as written).
   The statements also use U, keys, Inv, all_exact (proof/TopoCountProofs.v) and vreg, hits, all2,
   reg_run, refutes, repaired and the witnesses (proof/TopoCountReg.v). *)
From Coq Require Import String List ZArith NArith Bool.
From SW Require Import model.TopoPlace model.TopoCount proof.TopoCountProofs proof.TopoCountReg.
Import ListNotations.
Local Open Scope Z_scope.

(* UpAdjustDiskUsageDelta started at q adds d to q and to every prefix of q and changes nothing
   else (no other node's counters, no registration, no node added or removed). *)
Theorem c12_propagation : forall st q d,
  keys (up_adjust st q d) = keys st /\
  (forall p t, In p (keys st) ->
     U (up_adjust st q d) p t = if is_prefix p q then cadd (U st p t) (uget d t) else U st p t) /\
  (forall p, i_vols (info (up_adjust st q d) p) = i_vols (info st p) /\
             i_ecs (info (up_adjust st q d) p) = i_ecs (info st p)).
Proof. exact propagation. Qed.
Print Assumptions c12_propagation.

(* The property at full strength reads: for EVERY history of joins, max-count changes, full and
   incremental volume / EC heartbeats and unregistrations, and every Go map order, after every
   event the volume, remote-volume, EC-shard and max-volume counters of every disk, server,
   rack, data center and the cluster equal the recomputation from what is registered beneath
   them ([exact_b], the oracle the correspondence check evaluates on the implementation).
   The model violates the COUNTING clause in one way (finding 0 of known_findings.json:
   UpdateEcShards keys EC volumes by id only); it is exhibited below and the clause is proved for
   every history that avoids its decidable trigger.  "Currently registered" is given its meaning
   by the registration clause below (finding 1). *)

(* No trigger along the run  ==>  exact after every event.  (The trigger is what makes a violation
   possible; a history inside it can still be exact.) *)
Theorem c12_counts_exact_partial : forall ops orders,
  forallb wf_op ops = true ->
  first_trigger orders init_state ops = None ->
  all_exact (run orders init_state ops) (ref_run [] ops) = true.
Proof. exact (fun ops orders => run_exact ops orders init_state [] init_inv). Qed.
Print Assumptions c12_counts_exact_partial.

(* one event preserves the invariant behind [exact_b] when its trigger is off.  TopoCountProofs.Inv st r:
   the table is well formed, each of the four counters of each node is the sum of the per-entry
   quantity over the entries beneath it, the max counts of the data nodes are the reference's *)
Theorem c12_step_preserves : forall st r o order, Inv st r -> wf_op o = true -> trigger st o = None ->
  Inv (step order st o) (ref_step r o).
Proof. exact step_inv. Qed.
Print Assumptions c12_step_preserves.

Theorem c12_invariant_gives_exact : forall st r, Inv st r -> exact_b st r = true.
Proof. exact inv_exact_b. Qed.
Print Assumptions c12_invariant_gives_exact.

(* the successor enumeration used by the correspondence check is exactly the set of states the
   model reaches for some value of its order oracle (which AdjustMax and FullEc read; the other map
   iterations are modelled in list order) *)
Theorem c12_step_all_iff_some_order : forall st o s,
  In s (step_all st o) <-> exists order, step order st o = s.
Proof. exact step_all_spec. Qed.
Print Assumptions c12_step_all_iff_some_order.

(* "(and hence free slots)": NodeImpl.AvailableSpaceFor (TopoPlace.free_space, the quantity
   volume growth reserves from, C10) of every disk, server, rack, data center and the cluster
   equals the free slots of the recomputed counters, after every event of a trigger-free run *)
Theorem c12_free_slots_exact : forall ops orders,
  forallb wf_op ops = true ->
  first_trigger orders init_state ops = None ->
  all2 free_exact_b (run orders init_state ops) (ref_run [] ops) = true.
Proof. exact run_free_exact. Qed.
Print Assumptions c12_free_slots_exact.

Theorem c12_invariant_gives_free_slots : forall st r, Inv st r -> free_exact_b st r = true.
Proof. exact inv_free_exact. Qed.
Print Assumptions c12_invariant_gives_free_slots.

(* the registration clause: the counters are compared with what is registered, so the
   property also needs the registered set to be the reported one.  For EVERY state and input,
   what DataNode.UpdateVolumes leaves registered at (id, disk) *)
Theorem c12_update_volumes_registered : forall st n actual id d,
  vreg (update_volumes st n actual) n id d =
  existsb (hits id d) actual ||
  (negb (existsb (hits id d)
           (filter (fun v => negb (existsb (fun a => N.eqb (v_id a) (v_id v)) actual)) (node_volumes st n))) &&
   vreg st n id d).
Proof. exact update_volumes_vreg. Qed.
Print Assumptions c12_update_volumes_registered.

(* partial (finding 1 excluded, per event): along every run the counting theorem covers, every full
   volume heartbeat that does not re-report a registered volume id on another disk leaves exactly
   the reported (id, disk) set registered on the server *)
Theorem c12_fullvol_registered_partial : forall ops orders,
  forallb wf_op ops = true ->
  first_trigger orders init_state ops = None ->
  reg_run true orders init_state ops = true.
Proof. exact (fun ops orders => run_full_vol_registered ops orders init_state [] init_inv). Qed.
Print Assumptions c12_fullvol_registered_partial.

Theorem c12_fullvol_registered_step : forall st r n actual, Inv st r -> In n (keys st) -> length n = 3%nat ->
  trig_vol_moved st n actual = false ->
  reg_vol_ok (update_volumes st n actual) n actual = true.
Proof. exact full_vol_registered. Qed.
Print Assumptions c12_fullvol_registered_step.

(* refuted at full strength (finding 1): one volume re-reported on another disk type of the same server
   stays registered AND counted on the old disk too; every counter still equals the recomputation
   (first_trigger = None: the counting theorem applies), so only this clause sees it *)
Theorem c12_fullvol_registered_refuted :
  forallb wf_op w_vol_moved = true /\ first_trigger [] init_state w_vol_moved = None /\
  reg_run false [] init_state w_vol_moved = false /\
  reg_run true [] init_state w_vol_moved = true /\
  (exists s, nth_error (run [] init_state w_vol_moved) 2 = Some s /\
             vpairs (node_volumes s w_n1) = [(1%N, ""%string); (1%N, "ssd"%string)] /\
             volumeCount (U s [] ""%string) = 1 /\ volumeCount (U s [] "ssd"%string) = 1).
Proof. exact refuted_vol_moved. Qed.
Print Assumptions c12_fullvol_registered_refuted.

(* refutation of the counting clause (finding 0 of known_findings.json):
   one EC volume id listed twice in a full EC heartbeat: both counted, one registered *)
Theorem c12_counts_exact_refuted_ec_duplicate : refutes 0 w_ec_dup.
Proof. exact refuted_ec_duplicate. Qed.
Print Assumptions c12_counts_exact_refuted_ec_duplicate.

(* the same finding: an EC volume reported on another disk type than the one it is registered on *)
Theorem c12_counts_exact_refuted_ec_moved : refutes 0 w_ec_moved.
Proof. exact refuted_ec_moved. Qed.
Print Assumptions c12_counts_exact_refuted_ec_moved.

(* the correspondence check files a case under finding 0 only inside the NARROWED per-event
   trigger (trig_ec_narrow); it lies inside the trigger of the counting theorem *)
Theorem c12_narrow_trigger_inside : forall st n actual,
  trig_ec_irregular st n actual = false -> trig_ec_narrow st n actual = false.
Proof. exact narrow_in_wide. Qed.
Print Assumptions c12_narrow_trigger_inside.

(* the histories that exhibited the repaired defects (stale incremental delete, cumulative EC deltas,
   shared max delta, remote incremental delete) meet no trigger and are exact *)
Example c12_repaired_witnesses :
  repaired [w_join [(""%string, 10)]; IncVol w_n1 [] [(7%N, ""%string)]] /\
  repaired [w_join [(""%string, 10)]; FullEc w_n1 [mkE 1 "" 1; mkE 2 "" 1]; FullEc w_n1 [mkE 1 "" 3; mkE 2 "" 3]] /\
  repaired [w_join [(""%string, 10); ("ssd"%string, 5)]; AdjustMax w_n1 [(""%string, 12); ("ssd"%string, 8)]] /\
  repaired [w_join [(""%string, 10)]; FullVol w_n1 [mkV 1 "" true true]; IncVol w_n1 [] [(1%N, ""%string)]].
Proof. exact repaired_witnesses. Qed.
Print Assumptions c12_repaired_witnesses.

(* non-vacuity: ex_history (proof/TopoCountReg.v: two servers, two disk types, a remote volume,
   a volume created by growth, two EC volumes changing in one full heartbeat, two max counts
   changing at once, a stale and a remote incremental delete, an unregistration) is well formed,
   meets no trigger, is exact, has exact free slots and satisfies the registration clause
   WITHOUT the excuse of finding 1 *)
Example c12_example :
  forallb wf_op ex_history = true /\ first_trigger [] init_state ex_history = None /\
  all_exact (run [] init_state ex_history) (ref_run [] ex_history) = true /\
  all2 free_exact_b (run [] init_state ex_history) (ref_run [] ex_history) = true /\
  reg_run false [] init_state ex_history = true /\
  (exists s, nth_error (run [] init_state ex_history) 6 = Some s /\
             volumeCount (U s [] ""%string) = 1 /\ remoteVolumeCount (U s [] "ssd"%string) = 1 /\
             ecShardCount (U s ["dc1"%string] ""%string) = 3 /\ ecShardCount (U s ["dc1"%string] "ssd"%string) = 2 /\
             maxVolumeCount (U s w_n1 ""%string) = 7 /\ maxVolumeCount (U s w_n1 "ssd"%string) = 6 /\
             free_space (U s w_n1 ""%string) = 5 /\ free_space (U s w_n1 "ssd"%string) = 5).
Proof. exact example_history. Qed.
Print Assumptions c12_example.
